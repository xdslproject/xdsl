(* C01/ProofsOperands.v -- WF is preserved by OpOperands.__setitem__ / OpSuccessors.__setitem__ (the two
   sides of one program, `setitem sd`); the loops over it are in ProofsRauw.v. *)
From Coq Require Import ZArith List Bool PArith FMapPositive Lia.
From XV Require Import C01.Model C01.Spec C01.ProofsBase C01.ProofsFrame C01.ProofsUses.
Import ListNotations.
Local Open Scope Z_scope.

Lemma nth_error_replace : forall {A} (l : list A) n w j, (n < length l)%nat ->
  nth_error (firstn n l ++ w :: skipn (S n) l) j = if Nat.eqb j n then Some w else nth_error l j.
Proof.
  intros A l. induction l as [|a r IH]; intros n w j L; simpl in L; [lia|].
  destruct n as [|n]; simpl.
  - destruct j; reflexivity.
  - destruct j as [|j]; simpl; [reflexivity|]. apply IH. lia.
Qed.

Lemma length_replace : forall {A} (l : list A) n w, (n < length l)%nat ->
  length (firstn n l ++ w :: skipn (S n) l) = length l.
Proof.
  intros A l. induction l as [|a r IH]; intros n w L; simpl in L; [lia|].
  destruct n as [|n]; simpl; [reflexivity|]. f_equal. apply IH. lia.
Qed.

Definition replace_at {A} (l : list A) (i : Z) (w : A) : list A :=
  py_slice_to l i ++ w :: py_slice_from l (i + 1).

Lemma replace_at_eq : forall {A} (l : list A) i w, 0 <= i < zlen l ->
  replace_at l i w = firstn (Z.to_nat i) l ++ w :: skipn (S (Z.to_nat i)) l.
Proof.
  intros A l i w R. unfold replace_at, py_slice_to, py_slice_from, py_clamp, zlen in *.
  destruct (Z.ltb_spec i 0); [lia|]. destruct (Z.ltb_spec (i + 1) 0); [lia|].
  rewrite !Z.min_l by lia. replace (Z.to_nat (i + 1)) with (S (Z.to_nat i)) by lia. reflexivity.
Qed.

Lemma znth_replace_at : forall {A} (l : list A) i w j, 0 <= i < zlen l ->
  znth (replace_at l i w) j = if j =? i then Some w else znth l j.
Proof.
  intros A l i w j R. rewrite replace_at_eq by exact R. unfold znth.
  destruct (Z.ltb_spec j 0).
  - destruct (Z.eqb_spec j i); [lia|reflexivity].
  - rewrite nth_error_replace by (unfold zlen in R; lia).
    destruct (Z.eqb_spec j i) as [->|N].
    + rewrite Nat.eqb_refl. reflexivity.
    + destruct (Nat.eqb_spec (Z.to_nat j) (Z.to_nat i)); [lia|reflexivity].
Qed.

Lemma length_replace_at : forall {A} (l : list A) i w, 0 <= i < zlen l -> length (replace_at l i w) = length l.
Proof. intros A l i w R. rewrite replace_at_eq by exact R. apply length_replace. unfold zlen in R. lia. Qed.

Lemma py_index_znth : forall {A} (l : list A) i, 0 <= i < zlen l -> py_index l i = znth l i.
Proof.
  intros A l i R. unfold py_index, py_norm, znth.
  destruct (Z.ltb_spec i 0); [lia|]. destruct (Z.ltb_spec i (zlen l)); [reflexivity|lia].
Qed.

Lemma index_or_raise_ok : forall {A} (l : list A) i s s' x, index_or_raise l i s = (s', Ok x) ->
  s' = s /\ py_index l i = Some x.
Proof.
  intros A l i s s' x H. unfold index_or_raise in H. destruct (py_index l i); [|discriminate].
  apply ret_ok in H. destruct H; subst. auto.
Qed.

(* `setitem true` is `operands_setitem`, `setitem false` is `successors_setitem` *)
Definition setitem (sd : bool) (o : oid) (idx : Z) (w : positive) : M unit :=
  orec <- getO o ;;
  let items := sitems sd orec in
  let idx := norm_index (zlen items) idx in
  if negb ((0 <=? idx) && (idx <? zlen items)) then raise IndexError else
  old <- index_or_raise items idx ;;
  u <- index_or_raise (suses sd orec) idx ;;
  remove_use (hmk sd old) u ;;;
  add_use (hmk sd w) u ;;;
  updO o (hset_items sd (py_slice_to items idx ++ w :: py_slice_from items (idx + 1))).

Lemma setitem_T1 : forall sd o i w, preserves same_T1 (setitem sd o i w).
Proof. intros [] o i w; unfold setitem; pres fr_T1. Qed.
Lemma setitem_T2 : forall sd o i w, preserves same_T2 (setitem sd o i w).
Proof. intros [] o i w; unfold setitem; pres fr_T2. Qed.
Lemma setitem_T3 : forall sd o i w, preserves same_T3 (setitem sd o i w).
Proof. intros [] o i w; unfold setitem; pres fr_T3. Qed.
Lemma setitem_I : forall sd o i w, preserves same_I (setitem sd o i w).
Proof. intros [] o i w; unfold setitem; pres fr_I. Qed.
Lemma setitem_A : forall sd o i w, preserves same_A (setitem sd o i w).
Proof. intros [] o i w; unfold setitem; pres fr_A. Qed.

Lemma operands_setitem_T1 : forall o i w, preserves same_T1 (operands_setitem o i w).
Proof. exact (setitem_T1 true). Qed.
Lemma operands_setitem_T2 : forall o i w, preserves same_T2 (operands_setitem o i w).
Proof. exact (setitem_T2 true). Qed.
Lemma operands_setitem_T3 : forall o i w, preserves same_T3 (operands_setitem o i w).
Proof. exact (setitem_T3 true). Qed.
Lemma operands_setitem_I : forall o i w, preserves same_I (operands_setitem o i w).
Proof. exact (setitem_I true). Qed.
Lemma operands_setitem_A : forall o i w, preserves same_A (operands_setitem o i w).
Proof. exact (setitem_A true). Qed.
#[export] Hint Resolve operands_setitem_T1 operands_setitem_T2 operands_setitem_T3 operands_setitem_I operands_setitem_A : pres.

(* WF from its groups: the containment clauses follow the frame relations; the use lists, the
   allocation bounds and the index clauses are given for s' *)
Lemma WF_parts : forall s s', WF s -> same_T1 s s' -> same_T2 s s' -> same_T3 s s' -> UWF s' -> WF_alloc s' ->
  WF_results s' /\ WF_args s' /\ WF_owner s' -> WF s'.
Proof.
  intros s s' W T1 T2 T3 (U1 & U2 & U3 & U4 & U5) A (I1 & I2 & I3). destruct W.
  constructor; try assumption.
  - eapply WF_block_same; eauto.
  - eapply WF_region_same; eauto.
  - eapply WF_opregs_same; eauto.
  - eapply WF_detached_same; eauto.
Qed.

Lemma WF_groups_alloc : forall s s', WF s ->
  same_T1 s s' -> same_T2 s s' -> same_T3 s s' -> same_I s s' -> WF_alloc s' -> UWF s' -> WF s'.
Proof.
  intros s s' W T1 T2 T3 SI WA U. apply (WF_parts s s' W T1 T2 T3 U WA).
  apply (WF_index_same s s' SI). split; [|split]; apply W.
Qed.

Lemma WF_groups : forall s s', WF s ->
  same_T1 s s' -> same_T2 s s' -> same_T3 s s' -> same_I s s' -> same_A s s' -> UWF s' -> WF s'.
Proof.
  intros s s' W T1 T2 T3 SI SA. apply (WF_groups_alloc s s' W); try assumption.
  exact (WF_alloc_same s s' SA (wf_alloc s W)).
Qed.

Lemma WF_UWF : forall s, WF s -> UWF s.
Proof.
  intros s W. destruct W. unfold UWF.
  split; [assumption|]. split; [assumption|]. split; [assumption|]. split; assumption.
Qed.

(* when the use lists, the index tables and the allocation bounds are framed, only the
   containment clauses are left to be shown of s' *)
Lemma WF_containment : forall s s', WF s -> same_U s s' -> same_I s s' -> same_A s s' ->
  WF_block s' -> WF_region s' -> WF_opregs s' -> WF_detached s' -> WF s'.
Proof.
  intros s s' W SU SI SA Wb Wr Wo Wd.
  destruct (UWF_same s s' (WF_UWF s W) SU) as (U1 & U2 & U3 & U4 & U5).
  destruct (WF_index_same s s' SI (conj (wf_results s W) (conj (wf_args s W) (wf_owner s W)))) as (I1 & I2 & I3).
  constructor; try assumption. exact (WF_alloc_same s s' SA (wf_alloc s W)).
Qed.

(* for any holder constructor `mk` and setter `set_items` of one side (operands / successors) *)
Section Setitem.
  Variable mk : positive -> holder.                 (* `hmk sd` *)
  Variable set_items : list positive -> op_rec -> op_rec.
  Hypothesis hid_mk : forall a, hid (mk a) = a.
  Hypothesis items_set : forall l x, hitems (mk 1%positive) (set_items l x) = l.
  Hypothesis uses_set : forall l x a, huses (mk a) (set_items l x) = huses (mk a) x.
  Hypothesis hitems_mk : forall a b x, hitems (mk a) x = hitems (mk b) x.
  Hypothesis huses_mk : forall a b x, huses (mk a) x = huses (mk b) x.
  (* the other side is untouched *)
  Hypothesis other_side : forall h l x, (forall a, h <> mk a) ->
    hitems h (set_items l x) = hitems h x /\ huses h (set_items l x) = huses h x.
  Hypothesis erased_set : forall l x, o_erased (set_items l x) = o_erased x.
  Hypothesis kind_cases : forall h, (exists a, h = mk a) \/ (forall a, h <> mk a).

  Lemma setitem_slots : forall s o x i old w u,
    Uabs s (real_slot s) ->
    PM.find o (s_ops s) = Some x -> o_erased x = false ->
    0 <= i < zlen (hitems (mk old) x) ->
    znth (hitems (mk old) x) i = Some old -> znth (huses (mk old) x) i = Some u ->
    forall s3, s_ops s3 = PM.add o (set_items (replace_at (hitems (mk old) x) i w) x) (s_ops s) ->
    forall h o' i' u',
      real_slot s3 h o' i' u' <->
      plus_use (minus_use (real_slot s) u) (mk w) o i u h o' i' u'.
  Proof.
    intros s o x i old w u UA Fx Ex Ri Zold Zu s3 E3 h o' i' u'.
    assert (R0 : real_slot s (mk old) o i u).
    { exists x. rewrite hid_mk. auto. }
    destruct (ua_slot _ _ UA _ _ _ _ R0) as [Inf0 _].
    unfold plus_use, minus_use, real_slot. rewrite E3. split.
    - intros (x' & Fx' & Ex' & Z1 & Z2). rewrite find_add in Fx'.
      destruct (Pos.eqb_spec o' o) as [->|No].
      + injection Fx' as <-. rewrite erased_set in Ex'.
        destruct (kind_cases h) as [(a & ->)|Oth].
        * rewrite hid_mk in Z1. rewrite (hitems_mk a 1%positive), items_set in Z1.
          rewrite uses_set in Z2. rewrite (huses_mk a old) in Z2.
          rewrite znth_replace_at in Z1 by exact Ri.
          destruct (Z.eqb_spec i' i) as [->|Ni].
          -- injection Z1 as <-. rewrite Zu in Z2. injection Z2 as <-. right. auto.
          -- left. split.
             ++ exists x. rewrite hid_mk. rewrite (hitems_mk a old), (huses_mk a old). auto.
             ++ intro E. subst u'.
                assert (R1 : real_slot s (mk a) o i' u).
                { exists x. rewrite hid_mk, (hitems_mk a old), (huses_mk a old). auto. }
                destruct (ua_slot _ _ UA _ _ _ _ R1) as [Inf1 _]. rewrite Inf0 in Inf1. injection Inf1 as E. lia.
        * destruct (other_side h (replace_at (hitems (mk old) x) i w) x Oth) as [O1 O2].
          rewrite O1 in Z1. rewrite O2 in Z2. left. split; [exists x; auto|].
          intro E. subst u'.
          assert (R1 : real_slot s h o i' u) by (exists x; auto).
          pose proof (ua_one _ _ UA _ _ _ _ _ _ _ R1 R0) as Eh. eapply Oth. exact Eh.
      + left. split; [exists x'; auto|]. intro E. subst u'.
        assert (R1 : real_slot s h o' i' u) by (exists x'; auto).
        destruct (ua_slot _ _ UA _ _ _ _ R1) as [Inf1 _]. rewrite Inf0 in Inf1. injection Inf1 as E1 E2. congruence.
    - intros [[(x' & Fx' & Ex' & Z1 & Z2) Nu]|(-> & -> & -> & ->)].
      + rewrite find_add. destruct (Pos.eqb_spec o' o) as [->|No]; [|exists x'; auto].
        rewrite Fx in Fx'. injection Fx' as <-.
        exists (set_items (replace_at (hitems (mk old) x) i w) x). split; [reflexivity|]. split; [rewrite erased_set; exact Ex|].
        destruct (kind_cases h) as [(a & ->)|Oth].
        * rewrite hid_mk in *. rewrite (hitems_mk a 1%positive), items_set. rewrite uses_set.
          rewrite znth_replace_at by exact Ri.
          destruct (Z.eqb_spec i' i) as [->|Ni].
          -- exfalso. apply Nu. rewrite (huses_mk a old) in Z2. rewrite Zu in Z2. injection Z2 as <-. reflexivity.
          -- rewrite (hitems_mk a old) in Z1. auto.
        * destruct (other_side h (replace_at (hitems (mk old) x) i w) x Oth) as [O1 O2].
          rewrite O1, O2. auto.
      + rewrite find_add, Pos.eqb_refl.
        exists (set_items (replace_at (hitems (mk old) x) i w) x). split; [reflexivity|]. split; [rewrite erased_set; exact Ex|].
        rewrite hid_mk, (hitems_mk w 1%positive), items_set, uses_set, (huses_mk w old).
        rewrite znth_replace_at by exact Ri. rewrite Z.eqb_refl. auto.
  Qed.
End Setitem.

Lemma norm_index_ok : forall len idx, (0 <=? norm_index len idx) && (norm_index len idx <? len) = true ->
  0 <= norm_index len idx < len.
Proof. intros len idx H. apply andb_true_iff in H. destruct H as [H1 H2]. apply Z.leb_le in H1. apply Z.ltb_lt in H2. lia. Qed.

Lemma setitem_core : forall sd s s' o x0 idx w r,
  UWF s -> PM.find o (s_ops s) = Some x0 -> o_erased x0 = false ->
  setitem sd o idx w s = (s', Ok r) ->
  let i := norm_index (zlen (sitems sd x0)) idx in
  UWF s' /\ (forall y, use_info s' y = use_info s y) /\
  exists u, znth (suses sd x0) i = Some u /\
    forall h o' i' u', real_slot s' h o' i' u' <-> plus_use (minus_use (real_slot s) u) (hmk sd w) o i u h o' i' u'.
Proof.
  intros sd s s' o x0 idx w r W Fx0 Ex0 H i.
  destruct (UWF_Uabs s W) as [UA LN].
  pose proof (lens_side sd s o x0 LN Fx0 Ex0) as Len.
  unfold setitem in H.
  apply bind_ok in H as (s0 & x & Hg & H). apply getO_ok in Hg as [-> Fx].
  rewrite Fx0 in Fx. injection Fx as <-.
  fold i in H.
  destruct ((0 <=? i) && (i <? zlen (sitems sd x0))) eqn:Rg; simpl in H; [|exfalso; eapply raise_ok; eauto].
  apply norm_index_ok in Rg. fold i in Rg.
  apply bind_ok in H as (s1 & old & Ho & H). apply index_or_raise_ok in Ho as [-> Ho].
  apply bind_ok in H as (s2 & u & Hu & H). apply index_or_raise_ok in Hu as [-> Hu].
  rewrite py_index_znth in Ho by exact Rg.
  rewrite py_index_znth in Hu by (unfold zlen in *; lia).
  apply bind_ok in H as (s3 & ? & Hrm & H).
  apply bind_ok in H as (s4 & ? & Had & Hup).
  assert (R0 : real_slot s (hmk sd old) o i u) by (exists x0; autorewrite with side; auto).
  destruct (remove_use_Uabs _ _ _ _ _ _ _ _ UA R0 Hrm) as (UA3 & Ops3 & Inf3).
  assert (Fl : forall h' o' i', ~ minus_use (real_slot s) u h' o' i' u) by (intros h' o' i' [_ N]; apply N; reflexivity).
  assert (Inf : use_info s3 u = Some (o, i)).
  { rewrite Inf3. apply (ua_slot _ _ UA _ _ _ _ R0). }
  destruct (add_use_Uabs _ _ _ _ _ _ _ _ UA3 Fl Inf Had) as (UA4 & Ops4 & Inf4).
  apply updO_ok in Hup as (x4 & Fx4 & ->).
  rewrite Ops4, Ops3, Fx0 in Fx4. injection Fx4 as <-.
  fold (replace_at (sitems sd x0) i w).
  match goal with |- UWF ?sf /\ _ => set (s5 := sf) end.
  assert (SL : forall h o' i' u',
     real_slot s5 h o' i' u' <-> plus_use (minus_use (real_slot s) u) (hmk sd w) o i u h o' i' u').
  { apply (setitem_slots (hmk sd) (hset_items sd) (hid_hmk sd)) with (x := x0) (old := old);
      try (destruct sd; reflexivity); try rewrite hitems_hmk; try rewrite huses_hmk; auto.
    - intros h l y N. destruct (holder_side sd h) as (a & [-> | ->]); [destruct (N a eq_refl)|].
      destruct sd; auto.
    - intros h. destruct (holder_side sd h) as (a & [-> | ->]); [left; eauto|].
      right. intros b E. symmetry in E. exact (hmk_negb _ _ _ E).
    - simpl. rewrite Ops4, Ops3. reflexivity. }
  split; [|split].
  - apply Uabs_UWF.
    + eapply Uabs_ext; [| | exact SL |exact UA4].
      * intro y. reflexivity.
      * intros [v|b]; reflexivity.
    + intros o' x' F' E'. simpl in F'. rewrite find_add in F'. rewrite Ops4, Ops3 in F'.
      destruct (Pos.eqb_spec o' o) as [->|N]; [|apply (LN o' x' F' E')].
      injection F' as <-. pose proof (length_replace_at (sitems sd x0) i w Rg) as Lr.
      destruct (LN o x0 Fx0 Ex0) as [L1 L2]. destruct sd; split; [exact (eq_trans Lr L1)|exact L2|exact L1|exact (eq_trans Lr L2)].
  - intro y. unfold use_info. simpl. fold (use_info s4 y). rewrite Inf4, Inf3. reflexivity.
  - exists u. split; [exact Hu|exact SL].
Qed.

(* suffix U: from the use-list half `UWF` alone *)
Lemma operands_setitem_coreU : forall s s' o x0 idx w r,
  UWF s -> PM.find o (s_ops s) = Some x0 -> o_erased x0 = false ->
  operands_setitem o idx w s = (s', Ok r) ->
  let i := norm_index (zlen (o_operands x0)) idx in
  UWF s' /\ (forall y, use_info s' y = use_info s y) /\
  exists u, znth (o_operand_uses x0) i = Some u /\
    forall h o' i' u', real_slot s' h o' i' u' <-> plus_use (minus_use (real_slot s) u) (HV w) o i u h o' i' u'.
Proof. exact (setitem_core true). Qed.

Lemma setitem_WF : forall sd s s' o idx w r,
  WF s -> op_live s o -> setitem sd o idx w s = (s', Ok r) -> WF s'.
Proof.
  intros sd s s' o idx w r W (x0 & Fx0 & Ex0) H.
  eapply (WF_groups s s' W);
    [eapply setitem_T1|eapply setitem_T2|eapply setitem_T3|eapply setitem_I|eapply setitem_A|]; try exact H.
  apply (setitem_core sd s s' o x0 idx w r (WF_UWF s W) Fx0 Ex0 H).
Qed.

Theorem operands_setitem_WF : forall s s' o idx w r,
  WF s -> op_live s o -> operands_setitem o idx w s = (s', Ok r) -> WF s'.
Proof. exact (setitem_WF true). Qed.

Theorem successors_setitem_WF : forall s s' o idx w r,
  WF s -> op_live s o -> successors_setitem o idx w s = (s', Ok r) -> WF s'.
Proof. exact (setitem_WF false). Qed.
