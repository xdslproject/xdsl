(* C02/ProofsFrame.v -- what a clone leaves untouched: derived use lists (frame), clone_without_regions,
   Region.clone, later edits (independence). *)
From Coq Require Import List ZArith Bool Lia Permutation.
From XV Require Import C02.Model C02.ProofsBase C02.ProofsWalk C02.Proofs.
Import ListNotations.
Local Open Scope Z_scope.

Lemma in_concat_map_map : forall (f : Z -> Z) W v,
  In v (concat (map (map f) W)) -> exists u, In u (concat W) /\ f u = v.
Proof.
  induction W as [|a W IH]; cbn [map concat]; intros v H; [contradiction|].
  rewrite in_app_iff in H. destruct H as [H|H].
  - apply in_map_iff in H. destruct H as (u & Hu & Hin). exists u. rewrite in_app_iff. auto.
  - destruct (IH v H) as (u & Hin & Hu). exists u. rewrite in_app_iff. auto.
Qed.

(* The last two clauses of the frame theorems, for any two trees whose use lists are read off (ids, walk)
   and whose walks are related by the renaming fv: a source value has no use in the copy (the copy's
   operands are new ids or what the caller's mapper says), and an old outside value is used by the
   copy at the positions where the source uses it. *)
Lemma copy_uses : forall (fv : Z -> Z) vm0 lv lo hi (ux uy : Z -> list (Z * Z)) idx idy Wx Wy,
  (forall v, length idx = length Wx /\ ux v = walk_slots v idx Wx) ->
  (forall v, length idy = length Wy /\ uy v = walk_slots v idy Wy) ->
  Wy = map (map fv) Wx ->
  maps_fresh fv lv lo hi -> (forall v, ~ In v lv -> fv v = get vm0 v) -> (forall v, In v lv -> v < lo) ->
  ((forall u, ~ In u lv -> ~ In (get vm0 u) lv) -> forall v, In v lv -> uy v = []) /\
  (vm0 = [] -> forall v, v < lo -> ~ In v lv -> map snd (uy v) = map snd (ux v)).
Proof.
  intros fv vm0 lv lo hi ux uy idx idy Wx Wy Hx Hy -> [_ Mv] Ov Hlt. split.
  - intros Hvm v Hin. rewrite (proj2 (Hy v)). apply walk_slots_notin. intros H.
    apply in_concat_map_map in H. destruct H as (u & _ & Hu).
    destruct (in_dec Z.eq_dec u lv) as [Hul|Hul].
    + pose proof (Mv u Hul). pose proof (Hlt v Hin). lia.
    + apply (Hvm u Hul). rewrite <- Ov, Hu; auto.
  - intros -> v Hv Hn. rewrite (proj2 (Hy v)), (proj2 (Hx v)). apply walk_slots_map.
    + destruct (Hx v) as [Lx _], (Hy v) as [Ly _]. rewrite map_length in Ly. congruence.
    + intros u _. split.
      * intros Hu. destruct (in_dec Z.eq_dec u lv) as [Hul|Hul]; [pose proof (Mv u Hul); lia|].
        now rewrite <- Hu, Ov.
      * intros ->. now rewrite Ov.
Qed.

Lemma get_nil : forall k, get [] k = k.
Proof. reflexivity. Qed.

Theorem clone_op_frame : forall w x vm0 bm0,
  NoDup (dv_op x) -> NoDup (db_op x) -> scoped_op (db_op x) [] x ->
  (forall v, In v (dv_op x) -> v < w_nval w) ->
  exists y, let r := clone_op w x vm0 bm0 true in
    r_new r = Some y /\ items (r_world r) = items w ++ [IOp y] /\
    (* every use list is the old one plus the slots of the copy *)
    (forall sel v, uses sel v (items (r_world r)) = uses sel v (items w) ++ uses_op sel v y) /\
    (* the copy never uses a value defined in the source (unless the caller's mapper says so) *)
    ((forall u, ~ In u (dv_op x) -> ~ In (get vm0 u) (dv_op x)) ->
       forall v, In v (dv_op x) -> uses_op true v y = []) /\
    (* an old outside value is used by the copy exactly at the operand positions of the source *)
    (vm0 = [] -> forall v, v < w_nval w -> ~ In v (dv_op x) ->
       map snd (uses_op true v y) = map snd (uses_op true v x)).
Proof.
  intros w x vm0 bm0 Hv Hb Hs Hlt.
  destruct (clone_op_correct w x vm0 bm0 true Hv Hb Hs) as (y & Hy).
  exists y. cbv zeta in Hy |- *. destruct Hy as (Hn & Hi & I & (Mv & _ & Ov & _) & _).
  set (r := clone_op w x vm0 bm0 true) in *.
  split; [exact Hn|]. split; [exact Hi|]. split.
  - intros sel v. rewrite Hi, uses_app. f_equal. unfold uses. cbn [flat_map uses_item]. apply app_nil_r.
  - exact (copy_uses _ vm0 _ _ _ _ _ _ _ _ _ (fun v => proj1 (uses_walk v) x) (fun v => proj1 (uses_walk v) y)
             (proj1 (iso_walk _ _) _ _ I) Mv Ov Hlt).
Qed.

Lemma uses_replace_item : forall sel v it it0 extra its j,
  nth_error its j = Some it0 ->
  Permutation (uses_item sel v it) (uses_item sel v it0 ++ extra) ->
  Permutation (uses sel v (replace_item j it its)) (uses sel v its ++ extra).
Proof.
  intros sel v it it0 extra. induction its as [|x its IH]; intros j Hj Hp.
  - destruct j; discriminate.
  - destruct j as [|j]; cbn [nth_error] in Hj.
    + injection Hj as ->. cbn [replace_item]. unfold uses. cbn [flat_map].
      rewrite Hp, <- !app_assoc. apply Permutation_app_head. apply Permutation_app_comm.
    + cbn [replace_item]. unfold uses. cbn [flat_map]. rewrite <- app_assoc.
      apply Permutation_app_head. apply IH; auto.
Qed.

Theorem clone_into_frame : forall c w src j d idx vm0 bm0,
  nth_error (items w) j = Some (IReg d) ->
  NoDup (dv_blocks src) -> NoDup (db_region src) -> scoped_region src ->
  0 <= resolve_index idx d <= blocks_len d ->
  (remap_new_only c = true \/ walk_blocks (bfirstn (Z.to_nat (resolve_index idx d)) d) = []) ->
  (forall v, In v (dv_blocks src) -> v < w_nval w) ->
  exists r nb, clone_into c w src j idx vm0 bm0 true = Some r /\
    items (r_world r) =
      replace_item j (IReg (blocks_app (bfirstn (Z.to_nat (resolve_index idx d)) d)
                              (blocks_app nb (bskipn (Z.to_nat (resolve_index idx d)) d)))) (items w) /\
    (forall sel v, Permutation (uses sel v (items (r_world r))) (uses sel v (items w) ++ uses_blocks sel v nb)) /\
    ((forall u, ~ In u (dv_blocks src) -> ~ In (get vm0 u) (dv_blocks src)) ->
       forall v, In v (dv_blocks src) -> uses_blocks true v nb = []) /\
    (vm0 = [] -> forall v, v < w_nval w -> ~ In v (dv_blocks src) ->
       map snd (uses_blocks true v nb) = map snd (uses_blocks true v src)).
Proof.
  intros c w src j d idx vm0 bm0 Hj Hv Hb Hs Hr Hc Hlt.
  destruct (clone_into_general c w src j d idx vm0 bm0 true Hj Hv Hb Hs Hr) as (r & Hr1 & nb & Hi & I & (Mv & _ & Ov & _) & _).
  { destruct Hc; auto. }
  exists r, nb. split; [exact Hr1|]. split; [exact Hi|]. split.
  - intros sel v. rewrite Hi. eapply uses_replace_item; [exact Hj|].
    cbn [uses_item].
    assert (Hd : uses_blocks sel v d = uses_blocks sel v (bfirstn (Z.to_nat (resolve_index idx d)) d) ++
                                       uses_blocks sel v (bskipn (Z.to_nat (resolve_index idx d)) d))
      by (now rewrite <- uses_blocks_app, bfirstn_skipn).
    rewrite Hd, !uses_blocks_app, <- app_assoc. apply Permutation_app_head. apply Permutation_app_comm.
  - exact (copy_uses _ vm0 _ _ _ _ _ _ _ _ _ (fun v => proj1 (proj2 (proj2 (proj2 (uses_walk v)))) src)
             (fun v => proj1 (proj2 (proj2 (proj2 (uses_walk v)))) nb)
             (proj1 (proj2 (proj2 (proj2 (iso_walk _ _)))) _ _ I) Mv Ov Hlt).
Qed.

Theorem region_clone_correct : forall c w src,
  NoDup (dv_blocks src) -> NoDup (db_region src) -> scoped_region src ->
  exists r nb, region_clone c w src = Some r /\
    items (r_world r) = items w ++ [IReg nb] /\
    iso_blocks true (get (r_vm r)) (get (r_bm r)) src nb /\
    fresh_ids w (r_world r) (ido_blocks nb) (dv_blocks nb) (db_region nb).
Proof.
  intros c w src Hv Hb Hs. unfold region_clone.
  set (w1 := W (items w ++ [IReg BNil]) (w_nop w) (w_nval w) (w_nblk w)).
  assert (Hj : nth_error (items w1) (length (items w)) = Some (IReg BNil)).
  { subst w1. cbn [items]. rewrite nth_error_app2 by lia. now rewrite Nat.sub_diag. }
  destruct (clone_into_general c w1 src (length (items w)) BNil None [] [] true Hj Hv Hb Hs) as (r & Hr & nb & Hi & I & _ & F).
  - cbn [resolve_index blocks_len]. lia.
  - right. right. reflexivity.
  - exists r, nb. split; [exact Hr|]. split; [|split; [exact I | exact F]].
    rewrite Hi. subst w1. cbn [items resolve_index blocks_len Z.to_nat bfirstn bskipn blocks_app].
    rewrite blocks_app_nil_r.
    clear. induction (items w); cbn [app length replace_item]; congruence.
Qed.

Theorem cwr_correct : forall w i n os rs a ss g vm0 bm0,
  (forall v, In v os -> ~ In v (map fst rs)) -> NoDup (map fst rs) ->
  let r := clone_without_regions w (Op i n os rs a ss g) vm0 bm0 true in
  exists rs',
    r_new r = Some (Op (w_nop w) n (map (get (r_vm r)) os) rs' a (map (get bm0) ss) (empty_regs g)) /\
    items (r_world r) = items w ++ [IOp (Op (w_nop w) n (map (get (r_vm r)) os) rs' a (map (get bm0) ss) (empty_regs g))] /\
    map fst rs' = map (get (r_vm r)) (map fst rs) /\ map snd rs' = map snd rs /\
    maps_fresh (get (r_vm r)) (map fst rs) (w_nval w) (w_nval (r_world r)) /\
    (forall v, ~ In v (map fst rs) -> get (r_vm r) v = get vm0 v) /\ r_bm r = bm0.
Proof.
  intros w i n os rs a ss g vm0 bm0 Hos Hnd. unfold clone_without_regions, cwr.
  cbn [st_of vm bm nop nval nblk]. rewrite alloc_vals_spec.
  cbn [r_new r_world r_vm r_bm items world_of vm bm nval w_nval].
  assert (M : map (get (regs (map fst rs) (w_nval w) ++ vm0)) (map fst rs) = zseq (w_nval w) (length (map fst rs)))
    by now apply get_regs_map.
  assert (Hops : map (get vm0) os = map (get (regs (map fst rs) (w_nval w) ++ vm0)) os).
  { apply map_ext_in. intros v Hv. symmetry. apply get_regs_notin. auto. }
  rewrite Hops.
  eexists. split; [|split; [|split; [|split; [|split; [|split]]]]].
  - reflexivity.
  - reflexivity.
  - rewrite combine_fst by now rewrite zseq_length, map_length. rewrite M. now rewrite map_length.
  - apply combine_snd. now rewrite zseq_length, map_length.
  - apply maps_fresh_zseq; auto. now rewrite map_length.
  - intros v Hv. now apply get_regs_notin.
  - reflexivity.
Qed.

(* later edits: an edit addressed to an object writes only the item that contains the object *)
Definition tgt_op (e : edit) : option Z :=
  match e with ESetOperand o _ _ | ESetAttrs o _ | EErase o => Some o | EInsert _ _ _ => None end.
Definition tgt_blk (e : edit) : option Z :=
  match e with EInsert b _ _ => Some b | _ => None end.
(* e is addressed to none of the operations io and none of the blocks lb *)
Definition untouched (e : edit) (io lb : list Z) : Prop :=
  (forall o, tgt_op e = Some o -> ~ In o io) /\ (forall b, tgt_blk e = Some b -> ~ In b lb).

Lemma untouched_incl : forall e io lb io' lb',
  untouched e io lb -> incl io' io -> incl lb' lb -> untouched e io' lb'.
Proof. intros e io lb io' lb' [H1 H2] Hi Hl. split; intros x Hx Hin; [eapply H1 | eapply H2]; eauto. Qed.

Lemma ed_untouched :
  (forall x e, untouched e (ido_op x) (db_op x) -> ed_op e x = x) /\
  (forall l e, untouched e (ido_ops l) (db_ops l) -> ed_ops e l = l) /\
  (forall k e, untouched e (ido_block k) (bid_of k :: dbi_block k) -> ed_block e k = k) /\
  (forall r e, untouched e (ido_blocks r) (bids r ++ dbi_blocks r) -> ed_blocks e r = r) /\
  (forall g e, untouched e (ido_regions g) (db_regions g) -> ed_regions e g = g).
Proof.
  apply ir_mutind.
  - intros i n os rs a ss g IHg e H. cbn [ed_op]. cbn [ido_op db_op] in H.
    rewrite IHg by (eapply untouched_incl; [exact H | apply incl_tl, incl_refl | apply incl_refl]).
    destruct H as [H1 _].
    assert (Hi : forall o, tgt_op e = Some o -> (o =? i) = false).
    { intros o Ho. apply Z.eqb_neq. intros ->. apply (H1 i Ho). now left. }
    destruct e; cbn [tgt_op] in Hi; try rewrite (Hi _ eq_refl); reflexivity.
  - reflexivity.
  - intros o IHo t IHt e H. cbn [ido_ops db_ops] in H.
    assert (Ho : untouched e (ido_op o) (db_op o))
      by (eapply untouched_incl; [exact H | apply incl_appl, incl_refl | apply incl_appl, incl_refl]).
    assert (Ht : untouched e (ido_ops t) (db_ops t))
      by (eapply untouched_incl; [exact H | apply incl_appr, incl_refl | apply incl_appr, incl_refl]).
    cbn [ed_ops]. rewrite (IHo e Ho), (IHt e Ht).
    destruct o as [i n os rs a ss g]. destruct e; try reflexivity.
    destruct Ho as [H1 _]. replace (o =? i) with false; [reflexivity|].
    symmetry. apply Z.eqb_neq. intros ->. apply (H1 i eq_refl). now left.
  - intros b args body IHb e H. cbn [ido_block bid_of dbi_block] in H. cbn [ed_block].
    rewrite IHb by (eapply untouched_incl; [exact H | apply incl_refl | apply incl_tl, incl_refl]).
    destruct e; try reflexivity.
    destruct H as [_ H2]. replace (b0 =? b) with false; [reflexivity|].
    symmetry. apply Z.eqb_neq. intros ->. apply (H2 b eq_refl). now left.
  - reflexivity.
  - intros k IHk t IHt e H. cbn [ido_blocks bids dbi_blocks] in H. cbn [ed_blocks].
    rewrite IHk, IHt; [reflexivity | |].
    + eapply untouched_incl; [exact H | apply incl_appr, incl_refl |].
      intros x Hx. rewrite in_app_iff in Hx. cbn [In app]. rewrite !in_app_iff. tauto.
    + eapply untouched_incl; [exact H | apply incl_appl, incl_refl |].
      intros x Hx. cbn [In] in Hx. cbn [In app]. rewrite !in_app_iff. tauto.
  - reflexivity.
  - intros r IHr t IHt e H. cbn [ido_regions db_regions] in H. cbn [ed_regions].
    rewrite IHr, IHt; [reflexivity | |].
    + eapply untouched_incl; [exact H | apply incl_appr, incl_refl |].
      intros x Hx. rewrite !in_app_iff. tauto.
    + eapply untouched_incl; [exact H | apply incl_appl, incl_refl |].
      intros x Hx. rewrite !in_app_iff in *. tauto.
Qed.

(* all operation ids / all block ids of an item *)
Definition ido_item (it : item) : list Z :=
  match it with IOp o => ido_op o | IReg r => ido_blocks r | IBlk k => ido_block k end.
Definition ab_item (it : item) : list Z :=
  match it with IOp o => db_op o | IReg r => db_region r | IBlk k => bid_of k :: dbi_block k end.
Definition dv_item (it : item) : list Z :=
  match it with IOp o => dv_op o | IReg r => dv_blocks r | IBlk k => dv_block k end.

Lemma ed_item_untouched : forall e it, untouched e (ido_item it) (ab_item it) -> ed_item e it = [it].
Proof.
  intros e it H. destruct it as [x|r|k]; cbn [ed_item ido_item ab_item] in *.
  - rewrite (proj1 ed_untouched x e H). destruct x as [i n os rs a ss g].
    destruct e; try reflexivity.
    destruct H as [H1 _]. replace (o =? i) with false; [reflexivity|].
    symmetry. apply Z.eqb_neq. intros ->. apply (H1 i eq_refl). now left.
  - now rewrite (proj1 (proj2 (proj2 (proj2 ed_untouched))) r e H).
  - now rewrite (proj1 (proj2 (proj2 ed_untouched)) k e H).
Qed.

Lemma apply_edit_untouched : forall e its,
  Forall (fun it => untouched e (ido_item it) (ab_item it)) its -> apply_edit e its = its.
Proof.
  intros e its H. unfold apply_edit. induction H as [|it its Hit _ IH]; [reflexivity|].
  cbn [flat_map]. now rewrite ed_item_untouched, IH.
Qed.

(* every object of the world was created before the counters *)
Definition wf (w : world) : Prop :=
  Forall (fun it => (forall i, In i (ido_item it) -> i < w_nop w) /\
                    (forall b, In b (ab_item it) -> b < w_nblk w) /\
                    (forall v, In v (dv_item it) -> v < w_nval w)) (items w).
(* an edit addressed to an object created at or after the counters of w (e.g. any object of a copy made in w) *)
Definition targets_new (w : world) (e : edit) : Prop :=
  (forall o, tgt_op e = Some o -> w_nop w <= o) /\ (forall b, tgt_blk e = Some b -> w_nblk w <= b).
(* an edit addressed to an object of w *)
Definition targets_old (w : world) (e : edit) : Prop :=
  (forall o, tgt_op e = Some o -> o < w_nop w) /\ (forall b, tgt_blk e = Some b -> b < w_nblk w).

Theorem edit_independent : forall w e rest,
  wf w -> targets_new w e -> apply_edit e (items w ++ rest) = items w ++ apply_edit e rest.
Proof.
  intros w e rest Hw [T1 T2]. unfold apply_edit. rewrite flat_map_app. f_equal.
  apply apply_edit_untouched. eapply Forall_impl; [|exact Hw].
  intros it (Ho & Hb & _). split.
  - intros o Ht Hin. specialize (Ho o Hin). specialize (T1 o Ht). lia.
  - intros b Ht Hin. specialize (Hb b Hin). specialize (T2 b Ht). lia.
Qed.

Theorem edits_independent : forall w es rest,
  wf w -> Forall (targets_new w) es -> apply_edits es (items w ++ rest) = items w ++ apply_edits es rest.
Proof.
  intros w es. induction es as [|e es IH]; intros rest Hw Hes; [reflexivity|].
  inversion Hes; subst. unfold apply_edits in *. cbn [fold_left].
  rewrite edit_independent by assumption. now apply IH.
Qed.

(* and vice versa: an edit addressed to an old object does not reach a copy made of fresh objects *)
Theorem edit_independent_rev : forall w w' e its y,
  fresh_ids w w' (ido_op y) (dv_op y) (db_op y) -> targets_old w e ->
  apply_edit e (its ++ [IOp y]) = apply_edit e its ++ [IOp y].
Proof.
  intros w w' e its y (Fo & _ & Fb & _) [T1 T2]. unfold apply_edit. rewrite flat_map_app. f_equal.
  cbn [flat_map]. rewrite app_nil_r. apply ed_item_untouched. cbn [ido_item ab_item]. split.
  - intros o Ht Hin. specialize (Fo o Hin). specialize (T1 o Ht). lia.
  - intros b Ht Hin. specialize (Fb b Hin). specialize (T2 b Ht). lia.
Qed.

(* apply_to_clone: clone, then any history of edits addressed to objects that did not exist before *)
Theorem apply_to_clone_frame : forall w x es,
  wf w -> NoDup (dv_op x) -> NoDup (db_op x) -> scoped_op (db_op x) [] x ->
  Forall (targets_new w) es ->
  exists rest, apply_edits es (items (r_world (clone_op w x [] [] true))) = items w ++ rest.
Proof.
  intros w x es Hw Hv Hb Hs Hes.
  destruct (clone_op_correct w x [] [] true Hv Hb Hs) as (y & _ & Hi & _).
  cbv zeta in Hi. rewrite Hi. rewrite edits_independent by assumption. eauto.
Qed.

Lemma fresh_not_in_world : forall w w' io lv lb,
  wf w -> fresh_ids w w' io lv lb ->
  forall it, In it (items w) ->
    (forall i, In i io -> ~ In i (ido_item it)) /\ (forall b, In b lb -> ~ In b (ab_item it)) /\
    (forall v, In v lv -> ~ In v (dv_item it)).
Proof.
  intros w w' io lv lb Hw (Fo & Fv & Fb & _) it Hit.
  unfold wf in Hw. rewrite Forall_forall in Hw. destruct (Hw it Hit) as (Ho & Hb & Hv).
  repeat split; intros z Hz Hin.
  - specialize (Fo z Hz). specialize (Ho z Hin). lia.
  - specialize (Fb z Hz). specialize (Hb z Hin). lia.
  - specialize (Fv z Hz). specialize (Hv z Hin). lia.
Qed.
