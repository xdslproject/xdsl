(* C02/ProofsRefute.v -- witnesses (evaluated by vm_compute): the refutations of the full statement for
   the code as it is, and non-vacuity of the hypotheses of the positive theorems. *)
From Coq Require Import List ZArith Bool Lia.
From XV Require Import C02.Model C02.ProofsBase C02.ProofsWalk C02.Proofs C02.ProofsFrame.
Import ListNotations.
Local Open Scope Z_scope.

(* W1: the confirmed defect.  Outer values 1, 2.  Source region: one block (arg 3) with
     %4 = op(%3, %1) ; op(%4).   Destination: one block with  %5 = op(%2).
   src.clone_into(dest, 1)  (the same for insert_index=None: both mean `at the end`). *)
Definition w1_outer : op := Op 1 1 [] [(1, 0); (2, 0)] 0 [] GNil.
Definition w1_src : blocks :=
  BCons (Blk 1 [(3, 0)] (OCons (Op 2 1 [3; 1] [(4, 0)] 0 [] GNil) (OCons (Op 3 1 [4] [] 0 [] GNil) ONil))) BNil.
Definition w1_dest : blocks :=
  BCons (Blk 2 [] (OCons (Op 4 1 [2] [(5, 0)] 0 [] GNil) ONil)) BNil.
Definition w1 : world := W [IOp w1_outer; IReg w1_src; IReg w1_dest] 5 6 3.

Lemma w1_wf : wf w1.
Proof. repeat constructor; simpl; lia. Qed.

(* the values and blocks defined in the witnesses are numbered consecutively in walk order *)
Lemma w1_hyps :
  nth_error (items w1) 2 = Some (IReg w1_dest) /\ NoDup (dv_blocks w1_src) /\ NoDup (db_region w1_src) /\
  scoped_region w1_src /\ 0 <= resolve_index None w1_dest <= blocks_len w1_dest.
Proof.
  split; [reflexivity|]. split; [exact (zseq_NoDup 2 3)|]. split; [exact (zseq_NoDup 1 1)|].
  split; [|simpl; lia]. unfold scoped_region. simpl. repeat split; lia.
Qed.

(* what the code as it is produces: the PRE-EXISTING user (op 4) now has the operands meant for the
   first cloned op (the copy's block argument 6 and the outside value 1); the first cloned op (5) got
   the operands of the second source op; the second cloned op (6) has none *)
Example w1_original_result :
  option_map (fun r => nth_error (items (r_world r)) 2) (clone_into cfg_original w1 w1_src 2 (Some 1) [] [] true) =
  Some (Some (IReg
    (BCons (Blk 2 [] (OCons (Op 4 1 [6; 1] [(5, 0)] 0 [] GNil) ONil))
    (BCons (Blk 3 [(6, 0)] (OCons (Op 5 1 [7] [(7, 0)] 0 [] GNil) (OCons (Op 6 1 [] [] 0 [] GNil) ONil))) BNil)))).
Proof. vm_compute. reflexivity. Qed.

(* the repaired remap on the same input *)
Example w1_fixed_result :
  option_map (fun r => nth_error (items (r_world r)) 2) (clone_into cfg_fixed w1 w1_src 2 (Some 1) [] [] true) =
  Some (Some (IReg
    (BCons (Blk 2 [] (OCons (Op 4 1 [2] [(5, 0)] 0 [] GNil) ONil))
    (BCons (Blk 3 [(6, 0)] (OCons (Op 5 1 [6; 1] [(7, 0)] 0 [] GNil) (OCons (Op 6 1 [7] [] 0 [] GNil) ONil))) BNil)))).
Proof. vm_compute. reflexivity. Qed.

(* the default call (insert_index=None) on this non-empty destination: the items of the resulting
   world are not the old ones with some new blocks put in at the end *)
Theorem clone_into_default_index_refuted :
  exists r, clone_into cfg_original w1 w1_src 2 None [] [] true = Some r /\
            ~ into_ok w1 w1_src 2 w1_dest (resolve_index None w1_dest) [] [] true r.
Proof.
  eexists. split; [vm_compute; reflexivity|].
  intros (nb & Hi & _). vm_compute in Hi. discriminate Hi.
Qed.

Theorem clone_into_refuted :
  exists w src j d idx,
    wf w /\ nth_error (items w) j = Some (IReg d) /\ NoDup (dv_blocks src) /\ NoDup (db_region src) /\
    scoped_region src /\ 0 <= resolve_index idx d <= blocks_len d /\
    exists r, clone_into cfg_original w src j idx [] [] true = Some r /\
              ~ into_ok w src j d (resolve_index idx d) [] [] true r.
Proof.
  exists w1, w1_src, 2%nat, w1_dest, None.
  destruct w1_hyps as (H1 & H2 & H3 & H4 & H5).
  split; [exact w1_wf|]. repeat (split; [assumption|]).
  exact clone_into_default_index_refuted.
Qed.

(* the hypothesis of the partial theorem is satisfiable with a NON-EMPTY destination: index 0 *)
Example w1_index0 :
  walk_blocks (bfirstn (Z.to_nat (resolve_index (Some 0) w1_dest)) w1_dest) = [] /\
  option_map (fun r => nth_error (items (r_world r)) 2) (clone_into cfg_original w1 w1_src 2 (Some 0) [] [] true) =
  Some (Some (IReg
    (BCons (Blk 3 [(6, 0)] (OCons (Op 5 1 [6; 1] [(7, 0)] 0 [] GNil) (OCons (Op 6 1 [7] [] 0 [] GNil) ONil)))
    (BCons (Blk 2 [] (OCons (Op 4 1 [2] [(5, 0)] 0 [] GNil) ONil)) BNil)))).
Proof. split; vm_compute; reflexivity. Qed.

(* out-of-range index (3 for a destination with one block): nothing is attached; with the code as it is
   the pre-existing user is still rewritten *)
Example w1_out_of_range :
  option_map (fun r => items (r_world r)) (clone_into cfg_original w1 w1_src 2 (Some 3) [] [] true) =
  Some [IOp w1_outer; IReg w1_src;
        IReg (BCons (Blk 2 [] (OCons (Op 4 1 [6; 1] [(5, 0)] 0 [] GNil) ONil)) BNil);
        IBlk (Blk 3 [(6, 0)] (OCons (Op 5 1 [] [(7, 0)] 0 [] GNil) (OCons (Op 6 1 [] [] 0 [] GNil) ONil)))].
Proof. vm_compute. reflexivity. Qed.

(* W2: clone_without_regions of an operation that uses its own result (graph region): the copy uses
   the SOURCE's result *)
Definition w2_op : op := Op 1 1 [1] [(1, 0)] 0 [] GNil.
Definition w2 : world := W [IOp w2_op] 2 2 1.
Theorem cwr_self_use_refuted :
  r_new (clone_without_regions w2 w2_op [] [] true) = Some (Op 2 1 [1] [(2, 0)] 0 [] GNil) /\
  uses true 1 (items (r_world (clone_without_regions w2 w2_op [] [] true))) = [(1, 0); (2, 0)] /\
  r_new (clone_op w2 w2_op [] [] true) = Some (Op 2 1 [2] [(2, 0)] 0 [] GNil).
Proof. repeat split; vm_compute; reflexivity. Qed.

(* W3: a successor into a region that is cloned LATER (IR rejected by Operation.verify: branch to a
   block of a different region): the copy still branches to the source's block 3 *)
Definition w3_op : op :=
  Op 1 1 [] [] 0 []
     (GCons (BCons (Blk 1 [] (OCons (Op 2 2 [] [] 0 [3] GNil) ONil))
            (BCons (Blk 2 [] (OCons (Op 3 1 [] [] 0 [] (GCons (BCons (Blk 3 [] ONil) BNil) GNil)) ONil)) BNil))
            GNil).
Definition w3 : world := W [IOp w3_op] 4 1 4.
Theorem clone_unscoped_successor_refuted :
  NoDup (dv_op w3_op) /\ NoDup (db_op w3_op) /\ ~ scoped_op (db_op w3_op) [] w3_op /\
  forall y, r_new (clone_op w3 w3_op [] [] true) = Some y ->
    ~ iso_op true (get (r_vm (clone_op w3 w3_op [] [] true))) (get (r_bm (clone_op w3 w3_op [] [] true))) w3_op y.
Proof.
  split; [constructor|]. split; [exact (zseq_NoDup 3 1)|]. split.
  - (* op 2 branches to block 3, which is cloned but belongs to no region enclosing op 2 *)
    intros (_ & ((((H & _) & _) & _) & _)). specialize (H 3 (or_introl eq_refl)). simpl in H. lia.
  - (* the copy of op 2 still branches to block 3, whose copy is block 6 *)
    intros y Hy. vm_compute in Hy. injection Hy as <-. vm_compute.
    intros (_ & _ & _ & _ & _ & _ & ((_ & _ & _ & (_ & _ & _ & _ & _ & Hs & _) & _) & _) & _).
    discriminate Hs.
Qed.

(* W4: non-vacuity of the positive theorems: a graph region with use-before-def, a value and a block
   of the enclosing IR, a nested multi-block region with a backward branch, a self use *)
Definition w4_op : op :=
  Op 10 1 [90] [(1, 0)] 3 [70]
     (GCons (BCons (Blk 1 [(2, 1)]
                      (OCons (Op 11 1 [4; 2; 90] [(3, 0)] 0 [] GNil)            (* uses %4 before its definition *)
                      (OCons (Op 12 3 [3; 4] [(4, 2)] 1 []
                                 (GCons (BCons (Blk 2 [] (OCons (Op 13 2 [1; 4] [] 0 [3; 1] GNil) ONil))
                                        (BCons (Blk 3 [(5, 0)] (OCons (Op 14 2 [5] [] 0 [2; 70] GNil) ONil)) BNil)) GNil))
                      ONil)))
            BNil) GNil).
Definition w4 : world := W [IOp (Op 9 1 [] [(90, 0)] 0 [] GNil); IBlk (Blk 70 [] ONil); IOp w4_op] 15 91 71.

Lemma w4_hyps : wf w4 /\ NoDup (dv_op w4_op) /\ NoDup (db_op w4_op) /\ scoped_op (db_op w4_op) [] w4_op.
Proof.
  split; [repeat constructor; simpl; lia|].
  split; [exact (zseq_NoDup 5 1)|]. split; [exact (zseq_NoDup 3 1)|].
  simpl. repeat split; lia.
Qed.

Example w4_clone :
  r_new (clone_op w4 w4_op [] [] true) =
  Some (Op 15 1 [90] [(91, 0)] 3 [70]
     (GCons (BCons (Blk 71 [(92, 1)]
                      (OCons (Op 16 1 [94; 92; 90] [(93, 0)] 0 [] GNil)
                      (OCons (Op 17 3 [93; 94] [(94, 2)] 1 []
                                 (GCons (BCons (Blk 72 [] (OCons (Op 18 2 [91; 94] [] 0 [73; 71] GNil) ONil))
                                        (BCons (Blk 73 [(95, 0)] (OCons (Op 19 2 [95] [] 0 [72; 70] GNil) ONil)) BNil)) GNil))
                      ONil)))
            BNil) GNil)).
Proof. vm_compute. reflexivity. Qed.
