(* C27/ProofsChain.v -- the matcher chain generated for ANY ordered predicate list, run by the pdl_interp
   abstract machine, computes the sequential evaluation of the predicates under the position semantics
   `eval_pos` (Spec of MatcherGenerator.get_value_at + generate_bool_node + the interpreter functions). *)
From Coq Require Import ZArith List Bool Lia.
From XV Require Import C27.Model.
Import ListNotations.
Local Open Scope Z_scope.

(* ------------------------------------------------------------------ Spec: what a position / predicate denotes *)
Section Sem.
Variable fx : fixes.
Variable pl : payload.
Variable root : Z.

(* None = the interpreter function asserts / raises *)
Fixpoint eval_pos (p : pos) : option obj :=
  match p with
  | PRoot => Some (OOp root)
  | POperand q i =>
      match as_op pl (eval_pos q) with
      | Some x => Some (match znth (o_operands x) i with Some v => OVal v | None => ONull end)
      | None => None
      end
  | PDefOp q =>
      match eval_pos q with
      | Some ONull => Some ONull
      | Some (OVal (VRes pid _)) => Some (match find_op pl pid with Some _ => OOp pid | None => ONull end)
      | Some (OVal (VArg _)) => Some ONull
      | _ => None
      end
  | PResult q i =>
      match as_op pl (eval_pos q) with
      | Some x => Some (if (0 <=? i) && (i <? zlen (o_rtys x)) then OVal (VRes (o_id x) i) else ONull)
      | None => None
      end
  | PAttr q n =>
      match as_op pl (eval_pos q) with
      | Some x => Some (match (if fx_attrorder fx then get_attr_or_prop x n else get_attr_then_prop x n) with
                        | Some a => OAttr a | None => ONull end)
      | None => None
      end
  | PType q =>
      match eval_pos q with
      | Some (OVal v) => Some (OType (vtype pl v))
      | _ => None
      end
  end.

Definition eval_quest (v : obj) (q : quest) : option bool :=
  match q with
  | QNotNull => Some (negb (obj_eqb v ONull))
  | QName n => match as_op pl (Some v) with Some x => Some (o_name x =? n) | None => None end
  | QOperandCount n => match as_op pl (Some v) with Some x => Some (zlen (o_operands x) =? n) | None => None end
  | QResultCount n => match as_op pl (Some v) with Some x => Some (zlen (o_rtys x) =? n) | None => None end
  | QEqual other => match eval_pos other with Some w => Some (obj_eqb v w) | None => None end
  | QAttr a => Some (obj_eqb v (OAttr a))
  | QType t => Some (obj_eqb v (OType t))
  end.
Definition eval_pred (pq : pred) : option bool :=
  match eval_pos (fst pq) with
  | Some v => eval_quest v (snd pq)
  | None => None
  end.

(* the predicates one after the other, then the values handed to the rewriter *)
Fixpoint seq_eval (preds : list pred) (used : list pos) : ires :=
  match preds with
  | [] => match all_some (map eval_pos used) with Some l => IMatch l | None => IErr end
  | pq :: r => match eval_pred pq with
               | Some true => seq_eval r used
               | Some false => INoMatch
               | None => IErr
               end
  end.

Lemma pos_eqb_eq : forall a b, pos_eqb a b = true <-> a = b.
Proof.
  induction a; destruct b; simpl; try (split; [discriminate | intro H; discriminate H]); try tauto.
  - rewrite andb_true_iff, Z.eqb_eq, IHa. split; [intros [-> ->]; reflexivity | intro H; inversion H; auto].
  - rewrite IHa. split; [intros ->; reflexivity | intro H; inversion H; auto].
  - rewrite andb_true_iff, Z.eqb_eq, IHa. split; [intros [-> ->]; reflexivity | intro H; inversion H; auto].
  - rewrite andb_true_iff, Z.eqb_eq, IHa. split; [intros [-> ->]; reflexivity | intro H; inversion H; auto].
  - rewrite IHa. split; [intros ->; reflexivity | intro H; inversion H; auto].
Qed.
Lemma pos_eqb_refl : forall a, pos_eqb a a = true.
Proof. intro a. apply pos_eqb_eq. reflexivity. Qed.

(* code generation invariant: every cached position holds its denotation in a register below cg_next *)
Definition cg_ok (st : cg) (regs : list (Z * obj)) : Prop :=
  plookup (cg_vals st) PRoot = Some 0 /\
  (forall p r, plookup (cg_vals st) p = Some r ->
               r < cg_next st /\ exists v, eval_pos p = Some v /\ rlookup regs r = Some v) /\
  (forall r v, rlookup regs r = Some v -> r < cg_next st).

Lemma plookup_cons_eq : forall l p r, plookup ((p, r) :: l) p = Some r.
Proof. intros. simpl. rewrite pos_eqb_refl. reflexivity. Qed.
Lemma plookup_cons_neq : forall l p q r, p <> q -> plookup ((p, r) :: l) q = plookup l q.
Proof.
  intros l p q r H. simpl. destruct (pos_eqb p q) eqn:E; [apply pos_eqb_eq in E; contradiction | reflexivity].
Qed.

Lemma cg_ok_alloc : forall st regs p v,
  cg_ok st regs -> eval_pos p = Some v -> p <> PRoot ->
  cg_ok {| cg_vals := (p, cg_next st) :: cg_vals st; cg_next := cg_next st + 1 |} ((cg_next st, v) :: regs).
Proof.
  intros st regs p v (Hroot & Hvals & Hregs) Hev Hp. unfold cg_ok. simpl cg_vals. simpl cg_next. split; [| split].
  - destruct (pos_eqb p PRoot) eqn:E.
    + apply pos_eqb_eq in E. contradiction.
    + simpl. rewrite E. exact Hroot.
  - intros q r Hq. simpl in Hq. destruct (pos_eqb p q) eqn:E.
    + apply pos_eqb_eq in E. subst q. inversion Hq; subst r. split; [lia |].
      exists v. split; [exact Hev |]. simpl. rewrite Z.eqb_refl. reflexivity.
    + destruct (Hvals _ _ Hq) as [Hlt (w & Hw & Hr)]. split; [lia |].
      exists w. split; [exact Hw |]. simpl. destruct (cg_next st =? r) eqn:E2; [apply Z.eqb_eq in E2; lia | exact Hr].
  - intros r w Hr. simpl in Hr. destruct (cg_next st =? r) eqn:E; [apply Z.eqb_eq in E; lia |].
    specialize (Hregs _ _ Hr). lia.
Qed.

Lemma run_matcher_get : forall regs i rest,
  is_get i = true ->
  run_matcher fx pl regs (i :: rest) =
  match run_get fx pl regs i with Some b => run_matcher fx pl (b :: regs) rest | None => IErr end.
Proof. intros regs i rest H. destruct i; simpl in H; try discriminate; reflexivity. Qed.

Lemma run_matcher_check : forall regs i rest,
  is_get i = false -> (forall a, i <> IRecordMatch a) ->
  run_matcher fx pl regs (i :: rest) =
  match run_check pl regs i with
  | Some true => run_matcher fx pl regs rest | Some false => INoMatch | None => IErr end.
Proof.
  intros regs i rest H Hn. destruct i; simpl in H; try discriminate; try reflexivity.
  exfalso. eapply Hn. reflexivity.
Qed.

(* what one generation step guarantees about the execution of the code it emitted *)
Definition steps_to (regs : list (Z * obj)) (c : list instr) (regs' : list (Z * obj)) : Prop :=
  forall rest, run_matcher fx pl regs (c ++ rest) = run_matcher fx pl regs' rest.
Definition raises (regs : list (Z * obj)) (c : list instr) : Prop :=
  forall rest, run_matcher fx pl regs (c ++ rest) = IErr.

Lemma steps_to_nil : forall regs, steps_to regs [] regs.
Proof. intros regs rest. reflexivity. Qed.
Lemma steps_to_app : forall r1 c1 r2 c2 r3, steps_to r1 c1 r2 -> steps_to r2 c2 r3 -> steps_to r1 (c1 ++ c2) r3.
Proof. intros r1 c1 r2 c2 r3 H1 H2 rest. rewrite <- app_assoc, H1, H2. reflexivity. Qed.
Lemma raises_app_l : forall r1 c1 c2, raises r1 c1 -> raises r1 (c1 ++ c2).
Proof. intros r1 c1 c2 H rest. rewrite <- app_assoc. apply H. Qed.
Lemma raises_app_r : forall r1 c1 r2 c2, steps_to r1 c1 r2 -> raises r2 c2 -> raises r1 (c1 ++ c2).
Proof. intros r1 c1 r2 c2 H1 H2 rest. rewrite <- app_assoc, H1. apply H2. Qed.

Definition reg_ext (regs regs' : list (Z * obj)) : Prop :=
  forall r v, rlookup regs r = Some v -> rlookup regs' r = Some v.
Lemma reg_ext_refl : forall regs, reg_ext regs regs.
Proof. intros regs r v H. exact H. Qed.
Lemma reg_ext_trans : forall a b c, reg_ext a b -> reg_ext b c -> reg_ext a c.
Proof. intros a b c H1 H2 r v H. apply H2, H1, H. Qed.
Lemma reg_ext_cons : forall st regs regs1 w,
  cg_ok st regs1 -> reg_ext regs regs1 -> reg_ext regs ((cg_next st, w) :: regs1).
Proof.
  intros st regs regs1 w (_ & _ & Hregs) Hext r v H. apply Hext in H. simpl.
  destruct (cg_next st =? r) eqn:E; [apply Z.eqb_eq in E; apply Hregs in H; lia | exact H].
Qed.

Definition value_at_ok (regs : list (Z * obj)) (p : pos) (res : cg * list instr * Z) : Prop :=
  let '(st', c, r) := res in
  match eval_pos p with
  | Some v => exists regs', steps_to regs c regs' /\ cg_ok st' regs' /\ rlookup regs' r = Some v /\
                            plookup (cg_vals st') p = Some r /\ reg_ext regs regs'
  | None => raises regs c
  end.

Lemma cached_ok : forall st regs p r, cg_ok st regs -> plookup (cg_vals st) p = Some r -> value_at_ok regs p (st, [], r).
Proof.
  intros st regs p r Hok Hc. pose proof Hok as (_ & Hvals & _). destruct (Hvals _ _ Hc) as [_ (v & Hv & Hr)].
  unfold value_at_ok. rewrite Hv. exists regs.
  split; [apply steps_to_nil | split; [exact Hok | split; [exact Hr | split; [exact Hc | apply reg_ext_refl]]]].
Qed.
(* a position below q: one more "get" instruction mk on the register of q, whose result the machine computes as
   eval_pos does *)
Lemma alloc_ok : forall regs q p st1 c1 rq mk,
  value_at_ok regs q (st1, c1, rq) -> p <> PRoot -> (forall r, is_get (mk r) = true) ->
  (forall regs1 vq, eval_pos q = Some vq -> rlookup regs1 rq = Some vq ->
     run_get fx pl regs1 (mk (cg_next st1)) = match eval_pos p with Some v => Some (cg_next st1, v) | None => None end) ->
  (eval_pos q = None -> eval_pos p = None) ->
  value_at_ok regs p (alloc st1 c1 p mk).
Proof.
  intros regs q p st1 c1 rq mk Hq Hp Hget Hrun Hnone. unfold value_at_ok, alloc in *.
  destruct (eval_pos q) as [vq|].
  2:{ rewrite (Hnone eq_refl). apply raises_app_l. exact Hq. }
  destruct Hq as (regs1 & Hst & Hok1 & Hrq & _ & Hext). specialize (Hrun regs1 vq eq_refl Hrq).
  assert (Hstep : forall rest, run_matcher fx pl regs1 ([mk (cg_next st1)] ++ rest) =
                    match eval_pos p with Some v => run_matcher fx pl ((cg_next st1, v) :: regs1) rest | None => IErr end).
  { intro rest. simpl app. rewrite run_matcher_get by apply Hget. rewrite Hrun. destruct (eval_pos p); reflexivity. }
  destruct (eval_pos p) as [v|] eqn:Ev.
  - exists ((cg_next st1, v) :: regs1). split; [eapply steps_to_app; [exact Hst | exact Hstep] |].
    split; [apply cg_ok_alloc; assumption |]. split; [simpl; rewrite Z.eqb_refl; reflexivity |].
    split; [apply plookup_cons_eq | apply reg_ext_cons; assumption].
  - eapply raises_app_r; [exact Hst | exact Hstep].
Qed.

Lemma get_value_at_ok : forall p st regs, cg_ok st regs -> value_at_ok regs p (get_value_at st p).
Proof.
  induction p; intros st regs Hok; cbn [get_value_at].
  - pose proof Hok as (Hroot & _). rewrite Hroot. exact (cached_ok _ _ _ _ Hok Hroot).
  - destruct (plookup (cg_vals st) (POperand p i)) as [r0|] eqn:Hc; [exact (cached_ok _ _ _ _ Hok Hc) |].
    specialize (IHp st regs Hok). destruct (get_value_at st p) as [[st1 c1] rq].
    apply (alloc_ok regs p _ st1 c1 rq _ IHp); [discriminate | reflexivity | |].
    + intros regs1 vq Evq Hrq. cbn [eval_pos run_get]. rewrite Evq, Hrq. destruct (as_op pl (Some vq)); reflexivity.
    + intros Evq. cbn [eval_pos]. rewrite Evq. reflexivity.
  - destruct (plookup (cg_vals st) (PDefOp p)) as [r0|] eqn:Hc; [exact (cached_ok _ _ _ _ Hok Hc) |].
    specialize (IHp st regs Hok). destruct (get_value_at st p) as [[st1 c1] rq].
    apply (alloc_ok regs p _ st1 c1 rq _ IHp); [discriminate | reflexivity | |].
    + intros regs1 vq Evq Hrq. cbn [eval_pos run_get]. rewrite Evq, Hrq. destruct vq as [| | [k|pid k] | | | |]; reflexivity.
    + intros Evq. cbn [eval_pos]. rewrite Evq. reflexivity.
  - destruct (plookup (cg_vals st) (PResult p i)) as [r0|] eqn:Hc; [exact (cached_ok _ _ _ _ Hok Hc) |].
    specialize (IHp st regs Hok). destruct (get_value_at st p) as [[st1 c1] rq].
    apply (alloc_ok regs p _ st1 c1 rq _ IHp); [discriminate | reflexivity | |].
    + intros regs1 vq Evq Hrq. cbn [eval_pos run_get]. rewrite Evq, Hrq. destruct (as_op pl (Some vq)); reflexivity.
    + intros Evq. cbn [eval_pos]. rewrite Evq. reflexivity.
  - destruct (plookup (cg_vals st) (PAttr p n)) as [r0|] eqn:Hc; [exact (cached_ok _ _ _ _ Hok Hc) |].
    specialize (IHp st regs Hok). destruct (get_value_at st p) as [[st1 c1] rq].
    apply (alloc_ok regs p _ st1 c1 rq _ IHp); [discriminate | reflexivity | |].
    + intros regs1 vq Evq Hrq. cbn [eval_pos run_get]. rewrite Evq, Hrq. destruct (as_op pl (Some vq)); reflexivity.
    + intros Evq. cbn [eval_pos]. rewrite Evq. reflexivity.
  - destruct (plookup (cg_vals st) (PType p)) as [r0|] eqn:Hc; [exact (cached_ok _ _ _ _ Hok Hc) |].
    specialize (IHp st regs Hok). destruct (get_value_at st p) as [[st1 c1] rq].
    apply (alloc_ok regs p _ st1 c1 rq _ IHp); [discriminate | reflexivity | |].
    + intros regs1 vq Evq Hrq. cbn [eval_pos run_get]. rewrite Evq, Hrq. destruct vq; reflexivity.
    + intros Evq. cbn [eval_pos]. rewrite Evq. reflexivity.
Qed.

Definition fails (regs : list (Z * obj)) (c : list instr) : Prop :=
  forall rest, run_matcher fx pl regs (c ++ rest) = INoMatch.

(* generate_bool_node *)
Lemma gen_pred_ok : forall pq st regs st' c,
  cg_ok st regs -> gen_pred st pq = (st', c) ->
  match eval_pred pq with
  | Some true => exists regs', steps_to regs c regs' /\ cg_ok st' regs'
  | Some false => fails regs c
  | None => raises regs c
  end.
Proof.
  intros [p q] st regs st' c Hok Hg. unfold gen_pred in Hg. cbn [fst snd] in Hg.
  pose proof (get_value_at_ok p st regs Hok) as H1.
  destruct (get_value_at st p) as [[st1 c1] v]. unfold value_at_ok in H1.
  unfold eval_pred. cbn [fst snd].
  destruct (eval_pos p) as [vp|] eqn:Ep.
  2:{ destruct q; try (inversion Hg; subst; apply raises_app_l; exact H1).
      destruct (get_value_at st1 other) as [[st2 c2] w]. inversion Hg; subst. apply raises_app_l; exact H1. }
  destruct H1 as (regs1 & Hst1 & Hok1 & Hv & _ & _).
  assert (Hsimple : forall i b, is_get i = false -> (forall a, i <> IRecordMatch a) ->
            run_check pl regs1 i = b -> st' = st1 -> c = c1 ++ [i] ->
            match b with
            | Some true => exists regs', steps_to regs c regs' /\ cg_ok st' regs'
            | Some false => fails regs c
            | None => raises regs c
            end).
  { intros i b Hi1 Hi2 Hb -> ->. destruct b as [[|]|].
    - exists regs1. split; [| exact Hok1]. eapply steps_to_app; [exact Hst1 |].
      intro rest. simpl app. rewrite (run_matcher_check _ _ _ Hi1 Hi2), Hb. reflexivity.
    - intro rest. rewrite <- app_assoc, Hst1. simpl app. rewrite (run_matcher_check _ _ _ Hi1 Hi2), Hb. reflexivity.
    - intro rest. rewrite <- app_assoc, Hst1. simpl app. rewrite (run_matcher_check _ _ _ Hi1 Hi2), Hb. reflexivity. }
  destruct q; cbn [eval_quest].
  - inversion Hg; subst. apply (Hsimple (IIsNotNull v) (Some (negb (obj_eqb vp ONull)))); try reflexivity; try (intros a Ha; discriminate Ha).
    simpl. rewrite Hv. reflexivity.
  - inversion Hg; subst. apply (Hsimple (ICheckName v n) (match as_op pl (Some vp) with Some x => Some (o_name x =? n) | None => None end)); try reflexivity; try (intros a Ha; discriminate Ha).
    cbn [run_check]. rewrite Hv. reflexivity.
  - inversion Hg; subst. apply (Hsimple (ICheckOperandCount v n) (match as_op pl (Some vp) with Some x => Some (zlen (o_operands x) =? n) | None => None end)); try reflexivity; try (intros a Ha; discriminate Ha).
    cbn [run_check]. rewrite Hv. reflexivity.
  - inversion Hg; subst. apply (Hsimple (ICheckResultCount v n) (match as_op pl (Some vp) with Some x => Some (zlen (o_rtys x) =? n) | None => None end)); try reflexivity; try (intros a Ha; discriminate Ha).
    cbn [run_check]. rewrite Hv. reflexivity.
  - (* QEqual *)
    pose proof (get_value_at_ok other st1 regs1 Hok1) as H2.
    destruct (get_value_at st1 other) as [[st2 c2] w]. unfold value_at_ok in H2. inversion Hg; subst; clear Hg.
    destruct (eval_pos other) as [vo|] eqn:Eo.
    2:{ eapply raises_app_r; [exact Hst1 |]. apply raises_app_l. exact H2. }
    destruct H2 as (regs2 & Hst2 & Hok2 & Hw & _ & Hext2).
    assert (Hv2 : rlookup regs2 v = Some vp) by (apply Hext2; exact Hv).
    destruct (obj_eqb vp vo) eqn:Eq.
    + exists regs2. split; [| exact Hok2].
      eapply steps_to_app; [exact Hst1 |]. eapply steps_to_app; [exact Hst2 |].
      intro rest. simpl app. rewrite run_matcher_check; [| reflexivity | intros a Ha; discriminate Ha].
      simpl. rewrite Hv2, Hw, Eq. reflexivity.
    + intro rest. rewrite <- app_assoc, Hst1, <- app_assoc, Hst2. simpl app.
      rewrite run_matcher_check; [| reflexivity | intros a Ha; discriminate Ha].
      simpl. rewrite Hv2, Hw, Eq. reflexivity.
  - inversion Hg; subst. apply (Hsimple (ICheckAttr v a) (Some (obj_eqb vp (OAttr a)))); try reflexivity; try (intros b Hb; discriminate Hb).
    simpl. rewrite Hv. reflexivity.
  - inversion Hg; subst. apply (Hsimple (ICheckType v t) (Some (obj_eqb vp (OType t)))); try reflexivity; try (intros b Hb; discriminate Hb).
    simpl. rewrite Hv. reflexivity.
Qed.

Lemma fails_app_l : forall r1 c1 c2, fails r1 c1 -> fails r1 (c1 ++ c2).
Proof. intros r1 c1 c2 H rest. rewrite <- app_assoc. apply H. Qed.
Lemma fails_app_r : forall r1 c1 r2 c2, steps_to r1 c1 r2 -> fails r2 c2 -> fails r1 (c1 ++ c2).
Proof. intros r1 c1 r2 c2 H1 H2 rest. rewrite <- app_assoc, H1. apply H2. Qed.

Lemma get_values_at_ok : forall ps st regs st' c rs,
  cg_ok st regs -> get_values_at st ps = (st', c, rs) ->
  match all_some (map eval_pos ps) with
  | Some vs => exists regs', steps_to regs c regs' /\ cg_ok st' regs' /\
                             all_some (map (rlookup regs') rs) = Some vs /\ reg_ext regs regs'
  | None => raises regs c
  end.
Proof.
  induction ps as [|p ps IH]; intros st regs st' c rs Hok Hg.
  - simpl in Hg. inversion Hg; subst. simpl. exists regs.
    split; [apply steps_to_nil | split; [exact Hok | split; [reflexivity | apply reg_ext_refl]]].
  - cbn [get_values_at] in Hg. pose proof (get_value_at_ok p st regs Hok) as H1.
    destruct (get_value_at st p) as [[st1 c1] v]. unfold value_at_ok in H1.
    destruct (get_values_at st1 ps) as [[st2 c2] vs] eqn:Hps. inversion Hg; subst; clear Hg. cbn [map all_some].
    destruct (eval_pos p) as [vp|] eqn:Ep; [| apply raises_app_l; exact H1].
    destruct H1 as (regs1 & Hst1 & Hok1 & Hv & _ & Hext1).
    specialize (IH _ _ _ _ _ Hok1 Hps).
    destruct (all_some (map eval_pos ps)) as [ws|] eqn:Ews.
    + destruct IH as (regs2 & Hst2 & Hok2 & Hall & Hext2).
      exists regs2. split; [eapply steps_to_app; eassumption | split; [exact Hok2 | split]].
      * cbn [map all_some]. rewrite (Hext2 _ _ Hv), Hall. reflexivity.
      * eapply reg_ext_trans; eassumption.
    + eapply raises_app_r; eassumption.
Qed.

Lemma gen_preds_ok : forall preds st regs st' c used,
  cg_ok st regs -> gen_preds st preds = (st', c) ->
  forall c2 rs st2, get_values_at st' used = (st2, c2, rs) ->
  run_matcher fx pl regs (c ++ c2 ++ [IRecordMatch rs]) = seq_eval preds used.
Proof.
  induction preds as [|pq preds IH]; intros st regs st' c used Hok Hg c2 rs st2 Hu.
  - simpl in Hg. inversion Hg; subst. simpl app. cbn [seq_eval].
    pose proof (get_values_at_ok _ _ _ _ _ _ Hok Hu) as H.
    destruct (all_some (map eval_pos used)) as [vs|].
    + destruct H as (regs' & Hst & _ & Hall & _). rewrite Hst. simpl. rewrite Hall. reflexivity.
    + apply H.
  - cbn [gen_preds] in Hg. destruct (gen_pred st pq) as [st1 c1] eqn:H1.
    destruct (gen_preds st1 preds) as [st3 c3] eqn:H3. inversion Hg; subst; clear Hg.
    pose proof (gen_pred_ok _ _ _ _ _ Hok H1) as Hp. cbn [seq_eval]. rewrite <- app_assoc.
    destruct (eval_pred pq) as [[|]|].
    + destruct Hp as (regs1 & Hst1 & Hok1). rewrite Hst1. eapply IH; eassumption.
    + apply Hp.
    + apply Hp.
Qed.

Lemma cg_init_ok : cg_ok cg_init [(0, OOp root)].
Proof.
  unfold cg_ok, cg_init. simpl. split; [reflexivity | split].
  - intros p r H. destruct p; simpl in H; try discriminate. inversion H; subst. split; [lia |].
    exists (OOp root). split; reflexivity.
  - intros r v H. destruct r; simpl in H; try discriminate H. simpl. lia.
Qed.

(* the generated chain, run by the machine, IS the sequential evaluation of the predicates *)
Theorem chain_sound : forall preds used,
  run_matcher fx pl [(0, OOp root)] (gen_matcher preds used) = seq_eval preds used.
Proof.
  intros preds used. unfold gen_matcher.
  destruct (gen_preds cg_init preds) as [st c1] eqn:H1.
  destruct (get_values_at st used) as [[st1 c2] args] eqn:H2.
  eapply gen_preds_ok; [apply cg_init_ok | exact H1 | exact H2].
Qed.

End Sem.
