(* C01/ProofsOps.v -- WF is preserved by the op-in-block mutators:
   Block.insert_op_after, insert_op_before, add_op, detach_op.

   The first part is about views (ProofsDll.v) only and serves the block-in-region mutators as
   well: `unlinked V c x p n` and `linked V c new p n` are the views after a node has been
   taken out of / put into the list of container c between the neighbours p and n; both keep
   `Dabs` and `Ddet`.  A mutator is then proved by showing that the view of its final state is
   pointwise equal (`veq`) to one of these. *)
From Coq Require Import ZArith List Bool PArith FMapPositive Lia.
From XV Require Import C01.Model C01.Spec C01.ProofsBase C01.ProofsFrame C01.ProofsUses C01.ProofsOperands C01.ProofsDll.
Import ListNotations.

(* WF_detached on a view *)
Definition Ddet (V : dview) : Prop :=
  forall x, dLive V x = true -> dPar V x = Some None -> dN V x = Some None /\ dP V x = Some None.

Definition fupd {A} (f : positive -> A) (k : positive) (v : A) : positive -> A :=
  fun x => if Pos.eqb x k then v else f x.

Lemma fupd_same : forall {A} (f : positive -> A) k v, fupd f k v k = v.
Proof. intros. unfold fupd. rewrite Pos.eqb_refl. reflexivity. Qed.
Lemma fupd_other : forall {A} (f : positive -> A) k v x, x <> k -> fupd f k v x = f x.
Proof. intros A f k v x N. unfold fupd. destruct (Pos.eqb_spec x k); [contradiction|reflexivity]. Qed.

Definition veq (V V' : dview) : Prop :=
  (forall z, dN V' z = dN V z) /\ (forall z, dP V' z = dP V z) /\ (forall z, dPar V' z = dPar V z) /\
  (forall z, dLive V' z = dLive V z) /\ (forall z, dFL V' z = dFL V z).

Lemma dll_at_veq : forall V V' c f la l, veq V V' -> dll_at V c f la l -> dll_at V' c f la l.
Proof.
  intros V V' c f la l (EN & EP & EPar & EL & EF) (C1 & C2 & ND & M1 & M2).
  split; [eapply chain_ext; [|exact C1]; intros; apply EN|].
  split; [eapply chain_ext; [|exact C2]; intros; apply EP|].
  split; [exact ND|]. split.
  - intros x Ix. rewrite EPar. apply M1. exact Ix.
  - intros x Lx Px. rewrite EL in Lx. rewrite EPar in Px. apply M2; assumption.
Qed.

Lemma Dabs_veq : forall V V', veq V V' -> Dabs V -> Dabs V'.
Proof.
  intros V V' E D c f la H. pose proof E as (_ & _ & _ & _ & EF). rewrite EF in H.
  destruct (D c f la H) as (l & DL). exists l. eapply dll_at_veq; eauto.
Qed.

Lemma Ddet_veq : forall V V', veq V V' -> Ddet V -> Ddet V'.
Proof.
  intros V V' (EN & EP & EPar & EL & _) D x Lx Px. rewrite EL in Lx. rewrite EPar in Px.
  rewrite EN, EP. apply D; assumption.
Qed.

(* the views after the primitive writes (`with_parents`: the parent loop of Region.move_blocks) *)
Definition set_fst {A B} (v : A) (p : option (A * B)) : option (A * B) :=
  match p with Some (_, b) => Some (v, b) | None => None end.
Definition set_snd {A B} (v : B) (p : option (A * B)) : option (A * B) :=
  match p with Some (a, _) => Some (a, v) | None => None end.
Definition with_next (V : dview) y v := mkView (fupd (dN V) y (Some v)) (dP V) (dPar V) (dLive V) (dFL V).
Definition with_prev (V : dview) y v := mkView (dN V) (fupd (dP V) y (Some v)) (dPar V) (dLive V) (dFL V).
Definition with_parent (V : dview) y v := mkView (dN V) (dP V) (fupd (dPar V) y (Some v)) (dLive V) (dFL V).
Definition with_first (V : dview) c v :=
  mkView (dN V) (dP V) (dPar V) (dLive V) (fupd (dFL V) c (set_fst v (dFL V c))).
Definition with_last (V : dview) c v :=
  mkView (dN V) (dP V) (dPar V) (dLive V) (fupd (dFL V) c (set_snd v (dFL V c))).

Definition with_parents (V : dview) (l : list positive) c :=
  mkView (dN V) (dP V) (fun y => if mem y l then Some (Some c) else dPar V y) (dLive V) (dFL V).

(* name the five pointwise equations of `E : veq (with_.. V ..) V'` *)
Ltac view_of E N P R L F :=
  destruct E as (N & P & R & L & F);
  cbn [dN dP dPar dLive dFL with_next with_prev with_parent with_first with_last with_parents] in N, P, R, L, F.

(* the containers other than b keep their lists when only members of b and detached nodes are written *)
Lemma Dabs_other : forall V V' b,
  Dabs V ->
  (forall c, c <> b -> dFL V' c = dFL V c) ->
  (forall x, dPar V x <> Some (Some b) -> dPar V x <> Some None ->
             dN V' x = dN V x /\ dP V' x = dP V x /\ dPar V' x = dPar V x) ->
  (forall x, dLive V' x = dLive V x) ->
  (forall x c, c <> b -> dPar V' x = Some (Some c) -> dPar V x = Some (Some c)) ->
  forall c f la, c <> b -> dFL V' c = Some (f, la) -> exists l, dll_at V' c f la l.
Proof.
  intros V V' b D EF EN EL EPar c f la Nc H. rewrite (EF c Nc) in H.
  destruct (D c f la H) as (l & DL). exists l. eapply dll_frame; [exact DL| |].
  - intros x Px. apply EN; rewrite Px; intro Q; injection Q as Q; [contradiction|discriminate].
  - intros x Lx Px. rewrite EL in Lx. split; [exact Lx|]. eapply EPar; eauto.
Qed.

Lemma chain_some_in : forall N x l, chain N (Some x) l -> In x l.
Proof. intros N x l H. inversion H; subst. left. reflexivity. Qed.

Lemma dll_prev_of : forall V c f la l1 x l2, dll_at V c f la (l1 ++ x :: l2) -> dP V x = Some (last_or None l1).
Proof.
  intros V c f la l1 x l2 (_ & C2 & _).
  replace (rev (l1 ++ x :: l2)) with (rev l2 ++ x :: rev l1) in C2
    by (rewrite rev_app_distr; simpl; rewrite <- !app_assoc; reflexivity).
  destruct (chain_split _ _ _ _ _ C2) as (_ & nn & Nx & Cn). pose proof (chain_head _ _ _ Cn) as Hnn.
  rewrite Nx, Hnn, hd_error_rev. reflexivity.
Qed.
Lemma dll_next_of : forall V c f la l1 x l2, dll_at V c f la (l1 ++ x :: l2) -> dN V x = Some (hd_error l2).
Proof.
  intros V c f la l1 x l2 (C1 & _).
  destruct (chain_split _ _ _ _ _ C1) as (_ & nn & Nx & Cn). pose proof (chain_head _ _ _ Cn) as Hnn.
  rewrite Nx, Hnn. reflexivity.
Qed.

(* x is a member of the list of container c *)
Definition vin (V : dview) (c x : positive) : Prop :=
  forall f la l, dFL V c = Some (f, la) -> dll_at V c f la l -> In x l.

Lemma vin_live : forall V c x, dLive V x = true -> dPar V x = Some (Some c) -> vin V c x.
Proof. intros V c x L P f la l _ (_ & _ & _ & _ & M2). apply M2; assumption. Qed.
Lemma vin_last : forall V c x f, dFL V c = Some (f, Some x) -> vin V c x.
Proof.
  intros V c x f H f' la l FL (_ & C2 & _). rewrite H in FL. injection FL as <- <-.
  apply in_rev. eapply chain_some_in; eauto.
Qed.

Lemma last_In : forall l x, last_or None l = Some x -> In x l.
Proof. intros l x H. apply last_or_In in H. destruct H as [H|H]; [discriminate|exact H]. Qed.
Lemma hd_error_In : forall (l : list positive) x, hd_error l = Some x -> In x l.
Proof. intros [|y t] x H; [discriminate|]. injection H as ->. left. reflexivity. Qed.

Lemma match_last_or : forall {B} (l : list positive) (a b : B),
  match last_or None l with Some _ => a | None => b end = match l with [] => b | _ :: _ => a end.
Proof.
  intros B l a b. destruct (list_snoc_cases l) as [->|(l' & x & ->)]; [reflexivity|].
  rewrite last_or_app, match_snoc. reflexivity.
Qed.
Lemma match_hd_error : forall {A B} (l : list A) (a b : B),
  match hd_error l with Some _ => a | None => b end = match l with [] => b | _ :: _ => a end.
Proof. intros A B [|y t] a b; reflexivity. Qed.

(* the view after x, whose neighbours are p and n, has been taken out of container c *)
Definition unlinked (V : dview) (c x : positive) (p n : option positive) : dview :=
  mkView (fupd (match p with Some y => fupd (dN V) y (Some n) | None => dN V end) x (Some None))
         (fupd (match n with Some y => fupd (dP V) y (Some p) | None => dP V end) x (Some None))
         (fupd (dPar V) x (Some None)) (dLive V)
         (fupd (dFL V) c (match dFL V c with
                          | Some (f, la) => Some (match p with Some _ => f | None => n end,
                                                  match n with Some _ => la | None => p end)
                          | None => None
                          end)).

Lemma unlinked_wf : forall V c x p n,
  Dabs V -> Ddet V -> vin V c x -> dFL V c <> None -> dP V x = Some p -> dN V x = Some n ->
  Dabs (unlinked V c x p n) /\ Ddet (unlinked V c x p n).
Proof.
  intros V c x p n D DD Ix FL Px Nx.
  destruct (dFL V c) as [[f la]|] eqn:FLc; [clear FL|contradiction].
  destruct (D c f la FLc) as (l & DL). specialize (Ix f la l FLc DL).
  destruct (in_split _ _ Ix) as (l1 & l2 & ->). pose proof DL as (_ & _ & ND & M1 & _).
  rewrite (dll_prev_of _ _ _ _ _ _ _ DL) in Px. injection Px as <-.
  rewrite (dll_next_of _ _ _ _ _ _ _ DL) in Nx. injection Nx as <-.
  destruct (NoDup_app_inv _ _ ND) as (_ & NDx & D12). inversion NDx as [|? ? Nx2 _]; subst.
  assert (Nx1 : ~ In x l1) by (intro I; eapply D12; [exact I|left; reflexivity]).
  (* nodes outside the list of c are not written *)
  assert (OUT : forall y, y <> x -> last_or None l1 <> Some y -> hd_error l2 <> Some y ->
                dN (unlinked V c x (last_or None l1) (hd_error l2)) y = dN V y /\
                dP (unlinked V c x (last_or None l1) (hd_error l2)) y = dP V y).
  { intros y N1 N2 N3. cbn. rewrite !fupd_other by exact N1.
    destruct (last_or None l1) as [q|], (hd_error l2) as [q'|]; rewrite ?fupd_other by (intro; subst; contradiction); auto. }
  assert (OUTl : forall y, ~ In y (l1 ++ x :: l2) -> y <> x /\ last_or None l1 <> Some y /\ hd_error l2 <> Some y).
  { intros y NI. repeat split; intro E; apply NI, in_or_app.
    - right. left. auto.
    - left. apply last_In. exact E.
    - right. right. apply hd_error_In. exact E. }
  split.
  - intros d f' la' Hd. destruct (Pos.eq_dec d c) as [->|Nd].
    + cbn in Hd. rewrite fupd_same, FLc in Hd. injection Hd as <- <-. exists (l1 ++ l2).
      rewrite (match_last_or l1), (match_hd_error l2).
      apply (dll_remove V _ c f la l1 x l2 DL).
      * intros y N1 N2. cbn. rewrite fupd_other by exact N1.
        destruct (last_or None l1) as [q|]; [apply fupd_other; intro; subst; contradiction|reflexivity].
      * intros q E. cbn. rewrite E, fupd_other, fupd_same.
        -- symmetry. eapply dll_next_of; eauto.
        -- intro; subst. apply Nx1. apply last_In. exact E.
      * intros y N1 N2. cbn. rewrite fupd_other by exact N1.
        destruct (hd_error l2) as [q|]; [apply fupd_other; intro; subst; contradiction|reflexivity].
      * intros q E. cbn. rewrite E, fupd_other, fupd_same.
        -- symmetry. eapply dll_prev_of; eauto.
        -- intro; subst. apply Nx2. apply hd_error_In. exact E.
      * intros y N1. cbn. apply fupd_other. exact N1.
      * cbn. rewrite fupd_same. discriminate.
      * intro y. reflexivity.
    + refine (Dabs_other V _ c D _ _ _ _ d f' la' Nd Hd).
      * intros d0 N0. cbn. apply fupd_other. exact N0.
      * intros y Q1 Q2.
        assert (NI : ~ In y (l1 ++ x :: l2)) by (intro I; apply Q1, M1, I).
        destruct (OUTl y NI) as (N1 & N2 & N3). destruct (OUT y N1 N2 N3) as [E1 E2].
        repeat split; [exact E1|exact E2|]. cbn. apply fupd_other. exact N1.
      * intro y. reflexivity.
      * intros y d0 N0 Q. cbn in Q. destruct (Pos.eq_dec y x) as [->|N1].
        -- rewrite fupd_same in Q. discriminate.
        -- rewrite fupd_other in Q by exact N1. exact Q.
  - intros y Ly Py. cbn in Ly, Py. destruct (Pos.eq_dec y x) as [->|N1].
    + cbn. rewrite !fupd_same. auto.
    + rewrite fupd_other in Py by exact N1.
      assert (NI : ~ In y (l1 ++ x :: l2)) by (intro I; rewrite (M1 y I) in Py; discriminate).
      destruct (OUTl y NI) as (_ & N2 & N3). destruct (OUT y N1 N2 N3) as [E1 E2].
      rewrite E1, E2. apply DD; assumption.
Qed.

(* the view after the detached node `new` has been put between p and n in container c
   (p = None: at the front; n = None: at the end) *)
Definition linked (V : dview) (c new : positive) (p n : option positive) : dview :=
  mkView (fupd (match p with Some y => fupd (dN V) y (Some (Some new)) | None => dN V end) new (Some n))
         (fupd (match n with Some y => fupd (dP V) y (Some (Some new)) | None => dP V end) new (Some p))
         (fupd (dPar V) new (Some (Some c))) (dLive V)
         (fupd (dFL V) c (match dFL V c with
                          | Some (f, la) => Some (match p with Some _ => f | None => Some new end,
                                                  match n with Some _ => la | None => Some new end)
                          | None => None
                          end)).

Lemma chain_link : forall (N : lnk) st l1 l2 new,
  chain N st (l1 ++ l2) -> ~ In new (l1 ++ l2) -> NoDup (l1 ++ l2) ->
  chain (fupd (match last_or None l1 with Some y => fupd N y (Some (Some new)) | None => N end) new (Some (hd_error l2)))
        (match last_or None l1 with Some _ => st | None => Some new end) (l1 ++ new :: l2).
Proof.
  intros N st l1 l2 new C Nn ND. destruct (list_snoc_cases l1) as [->|(a & p & ->)].
  - simpl in *. econstructor; [apply fupd_same|]. rewrite <- (chain_head _ _ _ C).
    eapply chain_ext; [|exact C]. intros y Iy. apply fupd_other. intro; subst. contradiction.
  - rewrite last_or_app. rewrite <- app_assoc in *. simpl in *.
    assert (Np : p <> new) by (intro; subst; apply Nn, in_or_app; right; left; reflexivity).
    eapply (chain_insert_after N); [exact C|exact Nn|exact ND| | |].
    + intros y N1 N2. rewrite !fupd_other by assumption. reflexivity.
    + rewrite fupd_other, fupd_same by exact Np. reflexivity.
    + rewrite fupd_same. destruct (chain_split _ _ _ _ _ C) as (_ & nn & Nx & Cn).
      rewrite Nx, (chain_head _ _ _ Cn). reflexivity.
Qed.

Lemma last_or_rev_hd : forall l : list positive, last_or None (rev l) = hd_error l.
Proof. intros [|x r]; [reflexivity|]. apply last_or_rev. Qed.

Lemma linked_wf : forall V c new l1 l2 f la,
  Dabs V -> Ddet V -> dFL V c = Some (f, la) -> dll_at V c f la (l1 ++ l2) -> dPar V new = Some None ->
  Dabs (linked V c new (last_or None l1) (hd_error l2)) /\ Ddet (linked V c new (last_or None l1) (hd_error l2)).
Proof.
  intros V c new l1 l2 f la D DD FLc DL Pn. pose proof DL as (C1 & C2 & ND & M1 & M2).
  assert (Nn : ~ In new (l1 ++ l2)) by (intro I; rewrite (M1 new I) in Pn; discriminate).
  (* nodes outside the list of c, other than new, are not written *)
  assert (OUT : forall y, y <> new -> ~ In y (l1 ++ l2) ->
                dN (linked V c new (last_or None l1) (hd_error l2)) y = dN V y /\
                dP (linked V c new (last_or None l1) (hd_error l2)) y = dP V y).
  { intros y N1 NI. cbn. rewrite !fupd_other by exact N1.
    assert (N2 : last_or None l1 <> Some y) by (intro E; apply NI, in_or_app; left; apply last_In, E).
    assert (N3 : hd_error l2 <> Some y) by (intro E; apply NI, in_or_app; right; apply hd_error_In, E).
    destruct (last_or None l1) as [q|], (hd_error l2) as [q'|]; rewrite ?fupd_other by (intro; subst; contradiction); auto. }
  split.
  - intros d f' la' Hd. destruct (Pos.eq_dec d c) as [->|Nd].
    + cbn in Hd. rewrite fupd_same, FLc in Hd. injection Hd as <- <-. exists (l1 ++ new :: l2).
      split; [apply chain_link; assumption|]. split; [|split; [apply NoDup_insert; assumption|split]].
      * replace (rev (l1 ++ new :: l2)) with (rev l2 ++ new :: rev l1)
          by (rewrite rev_app_distr; simpl; rewrite <- app_assoc; reflexivity).
        rewrite rev_app_distr in C2. cbn [linked dP].
        rewrite <- (last_or_rev_hd l2), <- (hd_error_rev l1). apply chain_link; [exact C2| |].
        -- rewrite <- rev_app_distr. intro I. apply in_rev in I. contradiction.
        -- rewrite <- rev_app_distr. apply NoDup_rev. exact ND.
      * intros y Iy. cbn. destruct (Pos.eq_dec y new) as [->|N1]; [apply fupd_same|].
        rewrite fupd_other by exact N1. apply M1. apply in_app_or in Iy. apply in_or_app.
        destruct Iy as [I|[E|I]]; [left; exact I|congruence|right; exact I].
      * intros y Ly Py. cbn in Ly, Py. destruct (Pos.eq_dec y new) as [->|N1].
        -- apply in_or_app. right. left. reflexivity.
        -- rewrite fupd_other in Py by exact N1. pose proof (M2 y Ly Py) as I.
           apply in_app_or in I. apply in_or_app. destruct I as [I|I]; [left; exact I|right; right; exact I].
    + refine (Dabs_other V _ c D _ _ _ _ d f' la' Nd Hd).
      * intros d0 N0. cbn. apply fupd_other. exact N0.
      * intros y Q1 Q2. assert (N1 : y <> new) by (intro; subst; contradiction).
        assert (NI : ~ In y (l1 ++ l2)) by (intro I; apply Q1, M1, I).
        destruct (OUT y N1 NI) as [E1 E2]. repeat split; [exact E1|exact E2|]. cbn. apply fupd_other. exact N1.
      * intro y. reflexivity.
      * intros y d0 N0 Q. cbn in Q. destruct (Pos.eq_dec y new) as [->|N1].
        -- rewrite fupd_same in Q. congruence.
        -- rewrite fupd_other in Q by exact N1. exact Q.
  - intros y Ly Py. cbn in Ly, Py. destruct (Pos.eq_dec y new) as [->|N1].
    + rewrite fupd_same in Py. discriminate.
    + rewrite fupd_other in Py by exact N1.
      assert (NI : ~ In y (l1 ++ l2)) by (intro I; rewrite (M1 y I) in Py; discriminate).
      destruct (OUT y N1 NI) as [E1 E2]. rewrite E1, E2. apply DD; assumption.
Qed.

Lemma linked_after : forall V c new ex n,
  Dabs V -> Ddet V -> dFL V c <> None -> vin V c ex -> dN V ex = Some n -> dPar V new = Some None ->
  Dabs (linked V c new (Some ex) n) /\ Ddet (linked V c new (Some ex) n).
Proof.
  intros V c new ex n D DD FL Ix Nx Pn.
  destruct (dFL V c) as [[f la]|] eqn:FLc; [clear FL|contradiction].
  destruct (D c f la FLc) as (l & DL). destruct (in_split _ _ (Ix f la l FLc DL)) as (l1 & l2 & ->).
  rewrite (dll_next_of _ _ _ _ _ _ _ DL) in Nx. injection Nx as <-.
  change (l1 ++ ex :: l2) with (l1 ++ [ex] ++ l2) in DL. rewrite app_assoc in DL.
  pose proof (linked_wf V c new (l1 ++ [ex]) l2 f la D DD FLc DL Pn) as Q. rewrite last_or_app in Q. exact Q.
Qed.

Lemma linked_before : forall V c new ex p,
  Dabs V -> Ddet V -> dFL V c <> None -> vin V c ex -> dP V ex = Some p -> dPar V new = Some None ->
  Dabs (linked V c new p (Some ex)) /\ Ddet (linked V c new p (Some ex)).
Proof.
  intros V c new ex p D DD FL Ix Px Pn.
  destruct (dFL V c) as [[f la]|] eqn:FLc; [clear FL|contradiction].
  destruct (D c f la FLc) as (l & DL). destruct (in_split _ _ (Ix f la l FLc DL)) as (l1 & l2 & ->).
  rewrite (dll_prev_of _ _ _ _ _ _ _ DL) in Px. injection Px as <-.
  change (Some ex) with (hd_error (ex :: l2)). eapply linked_wf; eauto.
Qed.

Lemma chain_none_nil : forall N l, chain N None l -> l = [].
Proof. intros N l H. inversion H. reflexivity. Qed.

Lemma linked_empty : forall V c new f,
  Dabs V -> Ddet V -> dFL V c = Some (f, None) -> dPar V new = Some None ->
  Dabs (linked V c new None None) /\ Ddet (linked V c new None None).
Proof.
  intros V c new f D DD FLc Pn. destruct (D c f None FLc) as (l & DL).
  pose proof DL as (_ & C2 & _). apply chain_none_nil in C2.
  assert (l = []) by (destruct l; [reflexivity|]; simpl in C2; apply app_eq_nil in C2; destruct C2; discriminate).
  subst l. apply (linked_wf V c new [] [] f None); assumption.
Qed.

Lemma vin_no_loop : forall V c x, Dabs V -> dFL V c <> None -> vin V c x ->
  dN V x <> Some (Some x) /\ dP V x <> Some (Some x).
Proof.
  intros V c x D FL Ix. destruct (dFL V c) as [[f la]|] eqn:FLc; [clear FL|contradiction].
  destruct (D c f la FLc) as (l & DL). destruct (in_split _ _ (Ix f la l FLc DL)) as (l1 & l2 & ->).
  pose proof DL as (_ & _ & ND & _). destruct (NoDup_app_inv _ _ ND) as (_ & NDx & D12).
  inversion NDx as [|? ? Nx2 _]; subst.
  rewrite (dll_next_of _ _ _ _ _ _ _ DL), (dll_prev_of _ _ _ _ _ _ _ DL). split; intro E; injection E as E.
  - apply Nx2, hd_error_In, E.
  - eapply D12; [apply last_In, E|left; reflexivity].
Qed.

Lemma dll_first_of : forall V c f la l, dll_at V c f la l -> f = hd_error l.
Proof. intros V c f la l (C1 & _). eapply chain_head; eauto. Qed.
Lemma dll_last_of : forall V c f la l, dll_at V c f la l -> la = last_or None l.
Proof. intros V c f la l (_ & C2 & _). apply chain_head in C2. rewrite C2. apply hd_error_rev. Qed.

Lemma vin_par : forall V c x, Dabs V -> dFL V c <> None -> vin V c x -> dPar V x = Some (Some c).
Proof.
  intros V c x D FL Ix. destruct (dFL V c) as [[f la]|] eqn:FLc; [clear FL|contradiction].
  destruct (D c f la FLc) as (l & DL). pose proof DL as (_ & _ & _ & M1 & _). apply M1. eapply Ix; eauto.
Qed.

Lemma vin_prev : forall V c x p, Dabs V -> dFL V c <> None -> vin V c x -> dP V x = Some (Some p) ->
  vin V c p /\ dN V p = Some (Some x).
Proof.
  intros V c x p D FL Ix Px. destruct (dFL V c) as [[f la]|] eqn:FLc; [clear FL|contradiction].
  destruct (D c f la FLc) as (l & DL). destruct (in_split _ _ (Ix f la l FLc DL)) as (l1 & l2 & ->).
  rewrite (dll_prev_of _ _ _ _ _ _ _ DL) in Px. injection Px as Px.
  destruct (list_snoc_cases l1) as [->|(a & q & ->)]; [discriminate|].
  rewrite last_or_app in Px. injection Px as ->. rewrite <- app_assoc in DL. split.
  - intros f' la' l' FL' (C1' & _). rewrite FL' in FLc. injection FLc as -> ->. destruct DL as (C1 & _).
    rewrite (chain_fun _ _ _ _ C1' C1). apply in_or_app. right. left. reflexivity.
  - apply (dll_next_of _ _ _ _ _ _ _ DL).
Qed.

Lemma last_next_none : forall V c f x, Dabs V -> dFL V c = Some (f, Some x) -> dN V x = Some None.
Proof.
  intros V c f x D FLc. destruct (D c f _ FLc) as (l & DL). pose proof (dll_last_of _ _ _ _ _ DL) as E.
  destruct (list_snoc_cases l) as [->|(a & q & ->)]; [discriminate|].
  rewrite last_or_app in E. injection E as <-. apply (dll_next_of _ _ _ _ _ _ _ DL).
Qed.

Lemma first_prev_none : forall V c la x, Dabs V -> dFL V c = Some (Some x, la) -> dP V x = Some None.
Proof.
  intros V c la x D FLc. destruct (D c _ _ FLc) as (l & DL). pose proof (dll_first_of _ _ _ _ _ DL) as E.
  destruct l as [|y t]; [discriminate|]. injection E as <-. apply (dll_prev_of V c _ _ [] x t DL).
Qed.

(* The views of successive states are related by pointwise equations `forall z, dN X z = ...`, one
   quintuple per primitive write (the lemmas `upd*_view` below).  `vrew` rewrites with all of them
   until only the view of the first state is left; `vrew_in Q` does so in a hypothesis (to learn what
   a record that the program reads between two writes holds). *)
Ltac vrew :=
  repeat match goal with
         | |- context [dN ?X ?z] => match goal with H : forall z, dN X z = _ |- _ => rewrite (H z) end
         | |- context [dP ?X ?z] => match goal with H : forall z, dP X z = _ |- _ => rewrite (H z) end
         | |- context [dPar ?X ?z] => match goal with H : forall z, dPar X z = _ |- _ => rewrite (H z) end
         | |- context [dLive ?X ?z] => match goal with H : forall z, dLive X z = _ |- _ => rewrite (H z) end
         | |- context [dFL ?X ?z] => match goal with H : forall z, dFL X z = _ |- _ => rewrite (H z) end
         | |- context [fupd] => progress (unfold fupd)
         end.
Ltac vrew_in Q :=
  repeat match type of Q with
         | context [dN ?X _] => match goal with H : forall z, dN X z = _ |- _ => rewrite H in Q end
         | context [dP ?X _] => match goal with H : forall z, dP X z = _ |- _ => rewrite H in Q end
         | context [dPar ?X _] => match goal with H : forall z, dPar X z = _ |- _ => rewrite H in Q end
         | context [dLive ?X _] => match goal with H : forall z, dLive X z = _ |- _ => rewrite H in Q end
         | context [dFL ?X _] => match goal with H : forall z, dFL X z = _ |- _ => rewrite H in Q end
         | context [fupd] => progress (unfold fupd in Q)
         end.
(* `veq V V'` where V is `unlinked`/`linked` of the first view and V' the last view: rewrite both to the
   first view, then decide the updates by cases on the keys.  FL, FL' are the equations for the first/last
   pairs of the containers that are written.  (The used equations are cleared: `congruence` is slow
   with them in the context.) *)
Ltac veq_solve2 FL FL' :=
  repeat split; intro z; cbn [unlinked linked dN dP dPar dLive dFL]; vrew;
  repeat match goal with H : forall z, _ = _ |- _ => clear H end;
  try reflexivity;
  repeat match goal with
         | |- context [Pos.eqb ?a ?b] => destruct (Pos.eqb_spec a b); subst; try contradiction
         end;
  rewrite ?FL, ?FL'; solve [auto | congruence].
Ltac veq_solve FL := veq_solve2 FL FL.

(* one level of containment as a view: the nodes of table t (links nxt, prv, up; flag er) in the
   containers of table ct (ends cfirst, clast; flag cer) *)
Definition level_view {N C} (t : PM.t N) (nxt prv up : N -> option positive) (er : N -> bool)
    (ct : PM.t C) (cer : C -> bool) (cfirst clast : C -> option positive) : dview :=
  mkView (link t nxt) (link t prv) (link t up)
         (fun o => match PM.find o t with Some x => negb (er x) | None => false end)
         (fun c => match PM.find c ct with
                   | Some cr => if cer cr then None else Some (cfirst cr, clast cr)
                   | None => None
                   end).

(* "every live container holds the list of its nodes" is Dabs of that view *)
Lemma contained_Dabs : forall {N C} (t : PM.t N) nxt prv up er (ct : PM.t C) cer cfirst clast,
  (forall c cr, PM.find c ct = Some cr -> cer cr = false ->
     exists l, chain (link t nxt) (cfirst cr) l /\ chain (link t prv) (clast cr) (rev l) /\ NoDup l /\
       (forall o, In o l -> exists x, PM.find o t = Some x /\ up x = Some c) /\
       (forall o x, PM.find o t = Some x -> er x = false -> up x = Some c -> In o l))
  <-> Dabs (level_view t nxt prv up er ct cer cfirst clast).
Proof.
  intros N C t nxt prv up er ct cer cfirst clast. split.
  - intros W c f la H. simpl in H.
    destruct (PM.find c ct) as [cr|] eqn:F; [|discriminate].
    destruct (cer cr) eqn:E; [discriminate|]. injection H as <- <-.
    destruct (W c cr F E) as (l & C1 & C2 & ND & M1 & M2). exists l. repeat split; try assumption.
    + intros x Ix. simpl. unfold link. destruct (M1 x Ix) as (xr & Fx & Px). rewrite Fx. simpl. f_equal. exact Px.
    + intros x Lx Px. simpl in Lx, Px. unfold link in Px.
      destruct (PM.find x t) as [xr|] eqn:Fx; [|discriminate]. simpl in Px. injection Px as Px.
      apply (M2 x xr Fx); [|exact Px]. destruct (er xr); [discriminate|reflexivity].
  - intros D c cr F E. destruct (D c (cfirst cr) (clast cr)) as (l & C1 & C2 & ND & M1 & M2).
    { simpl. rewrite F, E. reflexivity. }
    exists l. repeat split; try assumption.
    + intros o Io. specialize (M1 o Io). simpl in M1. unfold link in M1.
      destruct (PM.find o t) as [x|]; [|discriminate]. simpl in M1. injection M1 as M1. eauto.
    + intros o x Fx Ex Px. apply M2; simpl.
      * rewrite Fx, Ex. reflexivity.
      * unfold link. rewrite Fx. simpl. f_equal. exact Px.
Qed.

(* "a live node in no container has no neighbours" is Ddet of it *)
Lemma detached_Ddet : forall {N C} (t : PM.t N) nxt prv up er (ct : PM.t C) cer cfirst clast,
  (forall o x, PM.find o t = Some x -> er x = false -> up x = None -> nxt x = None /\ prv x = None)
  <-> Ddet (level_view t nxt prv up er ct cer cfirst clast).
Proof.
  intros N C t nxt prv up er ct cer cfirst clast. split.
  - intros W x Lx Px. simpl in *. unfold link in *.
    destruct (PM.find x t) as [xr|] eqn:F; [|discriminate]. simpl in *. injection Px as Px.
    destruct (W x xr F) as [Q1 Q2]; [destruct (er xr); [discriminate|reflexivity]|exact Px|].
    rewrite Q1, Q2. auto.
  - intros D o x F E P. destruct (D o) as [Q1 Q2].
    + simpl. rewrite F, E. reflexivity.
    + simpl. unfold link. rewrite F. simpl. rewrite P. reflexivity.
    + simpl in Q1, Q2. unfold link in *. rewrite F in *. simpl in *.
      injection Q1 as Q1. injection Q2 as Q2. auto.
Qed.

Definition olive (s : state) (o : oid) : bool :=
  match PM.find o (s_ops s) with Some x => negb (o_erased x) | None => false end.
Definition bFL (s : state) (b : bid) : option (option oid * option oid) :=
  match PM.find b (s_blocks s) with
  | Some br => if b_erased br then None else Some (b_first_op br, b_last_op br)
  | None => None
  end.
Definition viewT1 (s : state) : dview :=
  mkView (op_next s) (op_prev s) (link (s_ops s) o_parent) (olive s) (bFL s).

Lemma WF_block_Dabs : forall s, WF_block s <-> Dabs (viewT1 s).
Proof.
  intro s. exact (contained_Dabs (s_ops s) o_next o_prev o_parent o_erased (s_blocks s) b_erased b_first_op b_last_op).
Qed.
Lemma detached_ops_Ddet : forall s, detached_ops s <-> Ddet (viewT1 s).
Proof.
  intro s. exact (detached_Ddet (s_ops s) o_next o_prev o_parent o_erased (s_blocks s) b_erased b_first_op b_last_op).
Qed.

(* the five pointwise equations of a view after node y, whose old record is given by F, has been
   written (`live` is the liveness test of the view): at y both sides show the written field or, by F,
   the old one; elsewhere the table is as before *)
Ltac node_view_tac live y F :=
  repeat split; (let z := fresh "z" in intro z; simpl; unfold op_next, op_prev, blk_next, blk_prev, live, fupd; simpl;
    rewrite ?link_add, ?find_add; destruct (Pos.eqb_spec z y) as [->|]; try reflexivity; unfold link; rewrite ?F; reflexivity).

Lemma updO_next_view : forall y v s s' r, updO y (set_o_next v) s = (s', Ok r) ->
  veq (with_next (viewT1 s) y v) (viewT1 s').
Proof. intros y v s s' r H. apply updO_ok in H as (x & F & ->). simpl. node_view_tac olive y F. Qed.
Lemma updO_prev_view : forall y v s s' r, updO y (set_o_prev v) s = (s', Ok r) ->
  veq (with_prev (viewT1 s) y v) (viewT1 s').
Proof. intros y v s s' r H. apply updO_ok in H as (x & F & ->). simpl. node_view_tac olive y F. Qed.
Lemma updO_parent_view : forall y v s s' r, updO y (set_o_parent v) s = (s', Ok r) ->
  veq (with_parent (viewT1 s) y v) (viewT1 s').
Proof. intros y v s s' r H. apply updO_ok in H as (x & F & ->). simpl. node_view_tac olive y F. Qed.

Lemma updB_first_view : forall b v s s' r, updB b (set_b_first_op v) s = (s', Ok r) ->
  veq (with_first (viewT1 s) b v) (viewT1 s').
Proof.
  intros b v s s' r H. apply updB_ok in H as (x & F & ->). simpl.
  repeat split; try (intro z; reflexivity).
  intro z. simpl. unfold bFL, fupd. simpl. rewrite find_add. destruct (Pos.eqb_spec z b) as [->|]; [|reflexivity].
  rewrite F. simpl. destruct (b_erased x); reflexivity.
Qed.
Lemma updB_last_view : forall b v s s' r, updB b (set_b_last_op v) s = (s', Ok r) ->
  veq (with_last (viewT1 s) b v) (viewT1 s').
Proof.
  intros b v s s' r H. apply updB_ok in H as (x & F & ->). simpl.
  repeat split; try (intro z; reflexivity).
  intro z. simpl. unfold bFL, fupd. simpl. rewrite find_add. destruct (Pos.eqb_spec z b) as [->|]; [|reflexivity].
  rewrite F. simpl. destruct (b_erased x); reflexivity.
Qed.

Lemma getO_view : forall o s x, PM.find o (s_ops s) = Some x ->
  dN (viewT1 s) o = Some (o_next x) /\ dP (viewT1 s) o = Some (o_prev x) /\ dPar (viewT1 s) o = Some (o_parent x).
Proof. intros o s x F. simpl. unfold op_next, op_prev, link. rewrite F. auto. Qed.

Lemma is_ancestor_loop_pres : forall R, frame_rel R -> forall fuel a c, preserves R (is_ancestor_loop fuel a c).
Proof.
  intros R FR fuel. induction fuel as [|f IH]; intros a c; simpl.
  - apply (pres_raise _ FR).
  - destruct c as [c|]; [|apply (pres_ret _ FR)].
    destruct (node_eqb c a); [apply (pres_ret _ FR)|].
    apply (pres_bind _ FR); [|intro p; apply IH].
    unfold parent_node. destruct c; pres FR.
Qed.
Lemma is_ancestor_pres : forall R, frame_rel R -> forall a b, preserves R (is_ancestor a b).
Proof. intros R FR a b. unfold is_ancestor. pres FR. apply is_ancestor_loop_pres. exact FR. Qed.
#[export] Hint Extern 1 (preserves _ (is_ancestor _ _)) => apply is_ancestor_pres; eauto with pres : pres.

Lemma fr_eq : frame_rel (@eq state).
Proof. split; [reflexivity|intros; congruence]. Qed.

Lemma is_ancestor_state : forall a b s s' r, is_ancestor a b s = (s', r) -> s' = s.
Proof. intros a b s s' r H. symmetry. eapply (is_ancestor_pres eq fr_eq); eauto. Qed.

(* Block._attach_op *)
Lemma attach_op_eff : forall b o s s' r, attach_op b o s = (s', Ok r) ->
  exists x, PM.find o (s_ops s) = Some x /\ o_parent x = None /\
            updO o (set_o_parent (Some b)) s = (s', Ok tt).
Proof.
  intros b o s s' r H. unfold attach_op in H.
  apply bind_ok in H as (s0 & x & Hg & H). apply getO_ok in Hg as [-> F].
  destruct (is_some (o_parent x)) eqn:P; [exfalso; eapply raise_ok; eauto|].
  apply is_some_false in P.
  apply bind_ok in H as (s1 & anc & Ha & H). apply is_ancestor_state in Ha. subst s1.
  destruct anc; [exfalso; eapply raise_ok; eauto|].
  exists x. destruct r. auto.
Qed.

(* frame of the op-in-block programs: they keep every frame relation that is kept by the five
   primitive writes of the T1 group *)
Record keeps_T1_writes (R : state -> state -> Prop) : Prop := {
  k1_frame : frame_rel R;
  k1_next : forall y v, preserves R (updO y (set_o_next v));
  k1_prev : forall y v, preserves R (updO y (set_o_prev v));
  k1_parent : forall y v, preserves R (updO y (set_o_parent v));
  k1_first : forall b v, preserves R (updB b (set_b_first_op v));
  k1_last : forall b v, preserves R (updB b (set_b_last_op v)) }.

Lemma k1_T2 : keeps_T1_writes same_T2. Proof. split; [apply fr_T2|..]; intros; pres fr_T2. Qed.
Lemma k1_T3 : keeps_T1_writes same_T3. Proof. split; [apply fr_T3|..]; intros; pres fr_T3. Qed.
Lemma k1_U : keeps_T1_writes same_U. Proof. split; [apply fr_U|..]; intros; pres fr_U. Qed.
Lemma k1_I : keeps_T1_writes same_I. Proof. split; [apply fr_I|..]; intros; pres fr_I. Qed.
Lemma k1_A : keeps_T1_writes same_A. Proof. split; [apply fr_A|..]; intros; pres fr_A. Qed.

(* `pres` after unfolding the op-in-block programs *)
Ltac pres_ops FR := unfold insert_op_after, insert_op_before, add_op, detach_op, op_detach,
                      attach_op, insert_next_op, insert_prev_op; pres FR.

Lemma insert_op_after_pres : forall R, keeps_T1_writes R -> forall b n e, preserves R (insert_op_after b n e).
Proof. intros R [FR ? ? ? ? ?] b n e. pres_ops FR. Qed.
Lemma insert_op_before_pres : forall R, keeps_T1_writes R -> forall b n e, preserves R (insert_op_before b n e).
Proof. intros R [FR ? ? ? ? ?] b n e. pres_ops FR. Qed.
Lemma add_op_pres : forall R, keeps_T1_writes R -> forall b o, preserves R (add_op b o).
Proof.
  intros R K b o. pose proof (insert_op_after_pres R K). destruct K as [FR ? ? ? ? ?].
  unfold add_op. pres FR; pres_ops FR.
Qed.
Lemma detach_op_pres : forall R, keeps_T1_writes R -> forall b o, preserves R (detach_op b o).
Proof. intros R [FR ? ? ? ? ?] b o. pres_ops FR. Qed.

Lemma insert_op_after_T2 : forall b n e, preserves same_T2 (insert_op_after b n e). Proof. exact (insert_op_after_pres _ k1_T2). Qed.
Lemma insert_op_after_T3 : forall b n e, preserves same_T3 (insert_op_after b n e). Proof. exact (insert_op_after_pres _ k1_T3). Qed.
Lemma insert_op_after_U : forall b n e, preserves same_U (insert_op_after b n e). Proof. exact (insert_op_after_pres _ k1_U). Qed.
Lemma insert_op_after_I : forall b n e, preserves same_I (insert_op_after b n e). Proof. exact (insert_op_after_pres _ k1_I). Qed.
Lemma insert_op_after_A : forall b n e, preserves same_A (insert_op_after b n e). Proof. exact (insert_op_after_pres _ k1_A). Qed.
Lemma insert_op_before_T2 : forall b n e, preserves same_T2 (insert_op_before b n e). Proof. exact (insert_op_before_pres _ k1_T2). Qed.
Lemma insert_op_before_T3 : forall b n e, preserves same_T3 (insert_op_before b n e). Proof. exact (insert_op_before_pres _ k1_T3). Qed.
Lemma insert_op_before_U : forall b n e, preserves same_U (insert_op_before b n e). Proof. exact (insert_op_before_pres _ k1_U). Qed.
Lemma insert_op_before_I : forall b n e, preserves same_I (insert_op_before b n e). Proof. exact (insert_op_before_pres _ k1_I). Qed.
Lemma insert_op_before_A : forall b n e, preserves same_A (insert_op_before b n e). Proof. exact (insert_op_before_pres _ k1_A). Qed.
Lemma add_op_T2 : forall b o, preserves same_T2 (add_op b o). Proof. exact (add_op_pres _ k1_T2). Qed.
Lemma add_op_T3 : forall b o, preserves same_T3 (add_op b o). Proof. exact (add_op_pres _ k1_T3). Qed.
Lemma add_op_U : forall b o, preserves same_U (add_op b o). Proof. exact (add_op_pres _ k1_U). Qed.
Lemma add_op_I : forall b o, preserves same_I (add_op b o). Proof. exact (add_op_pres _ k1_I). Qed.
Lemma add_op_A : forall b o, preserves same_A (add_op b o). Proof. exact (add_op_pres _ k1_A). Qed.
Lemma detach_op_T2 : forall b o, preserves same_T2 (detach_op b o). Proof. exact (detach_op_pres _ k1_T2). Qed.
Lemma detach_op_T3 : forall b o, preserves same_T3 (detach_op b o). Proof. exact (detach_op_pres _ k1_T3). Qed.
Lemma detach_op_U : forall b o, preserves same_U (detach_op b o). Proof. exact (detach_op_pres _ k1_U). Qed.
Lemma detach_op_I : forall b o, preserves same_I (detach_op b o). Proof. exact (detach_op_pres _ k1_I). Qed.
Lemma detach_op_A : forall b o, preserves same_A (detach_op b o). Proof. exact (detach_op_pres _ k1_A). Qed.
#[export] Hint Resolve insert_op_after_T2 insert_op_after_T3 insert_op_after_U insert_op_after_I insert_op_after_A
  insert_op_before_T2 insert_op_before_T3 insert_op_before_U insert_op_before_I insert_op_before_A
  add_op_T2 add_op_T3 add_op_U add_op_I add_op_A
  detach_op_T2 detach_op_T3 detach_op_U detach_op_I detach_op_A : pres.

(* WF from the T1 group: a program that keeps every relation kept by the T1 writes leaves all
   clauses but WF_block and the op half of WF_detached to the frame relations; those two are
   read off a view V equal to the T1 view of s' *)
Lemma WF_groups_T1 : forall {A} (m : M A) s s' r V, WF s ->
  (forall R, keeps_T1_writes R -> preserves R m) -> m s = (s', Ok r) ->
  veq V (viewT1 s') -> Dabs V /\ Ddet V -> WF s'.
Proof.
  intros A m s s' r V W K H E [D DD]. pose proof (K _ k1_T2 _ _ _ H) as T2.
  apply (WF_containment s s' W (K _ k1_U _ _ _ H) (K _ k1_I _ _ _ H) (K _ k1_A _ _ _ H)).
  - apply WF_block_Dabs. eapply Dabs_veq; eauto.
  - exact (WF_region_same s s' T2 (wf_region s W)).
  - exact (WF_opregs_same s s' (K _ k1_T3 _ _ _ H) (wf_opregs s W)).
  - split; [apply detached_ops_Ddet; eapply Ddet_veq; eauto|].
    exact (detached_blocks_same s s' T2 (proj2 (wf_detached s W))).
Qed.

Lemma WF_viewT1 : forall s, WF s -> Dabs (viewT1 s) /\ Ddet (viewT1 s).
Proof. intros s W. split; [apply WF_block_Dabs, W|exact (proj1 (detached_ops_Ddet s) (proj1 (wf_detached s W)))]. Qed.

Definition blk_live (s : state) (b : bid) : Prop :=
  exists br, PM.find b (s_blocks s) = Some br /\ b_erased br = false.

Lemma live_view : forall s o, op_live s o -> dLive (viewT1 s) o = true.
Proof. intros s o (x & F & E). simpl. unfold olive. rewrite F, E. reflexivity. Qed.

Lemma blk_live_FL : forall s b, blk_live s b -> exists f la, dFL (viewT1 s) b = Some (f, la).
Proof. intros s b (br & F & E). simpl. unfold bFL. rewrite F, E. eauto. Qed.

Theorem detach_op_WF : forall s s' b o r,
  WF s -> blk_live s b -> op_live s o -> detach_op b o s = (s', Ok r) -> WF s'.
Proof.
  intros s s' b o r W BL OL H. destruct (WF_viewT1 s W) as [D DD].
  pose proof H as H0. unfold detach_op in H0.
  apply bind_ok in H0 as (s0 & x & Hg & H0). apply getO_ok in Hg as [-> Fo].
  destruct (opt_eqb (o_parent x) (Some b)) eqn:Po; simpl in H0; [|exfalso; eapply raise_ok; eauto].
  apply opt_eqb_eq in Po.
  destruct (getO_view _ _ _ Fo) as (Vn & Vp & Vpar). rewrite Po in Vpar.
  destruct (blk_live_FL s b BL) as (f & la & FLb).
  assert (FLn : dFL (viewT1 s) b <> None) by congruence.
  pose proof (vin_live _ _ _ (live_view s o OL) Vpar) as Io.
  apply (WF_groups_T1 _ s s' r (unlinked (viewT1 s) b o (o_prev x) (o_next x)) W
           (fun R K => detach_op_pres R K b o) H); [|apply unlinked_wf; assumption].
  destruct (vin_no_loop _ _ _ D FLn Io) as [NLn NLp]. rewrite Vn in NLn. rewrite Vp in NLp.
  apply bind_ok in H0 as (s1 & ? & H1 & H0).
  view_of (updO_parent_view _ _ _ _ _ H1) N1 P1 R1 L1 F1.
  apply bind_ok in H0 as (s3 & ? & Hprev & H0).
  apply bind_ok in H0 as (s5 & ? & Hnext & Hret). apply ret_ok in Hret as [<- _].
  destruct (o_prev x) as [p|], (o_next x) as [n|].
  - apply bind_ok in Hprev as (s2 & ? & H2 & H3).
    view_of (updO_next_view _ _ _ _ _ H2) N2 P2 R2 L2 F2.
    view_of (updO_prev_view _ _ _ _ _ H3) N3 P3 R3 L3 F3.
    apply bind_ok in Hnext as (s4 & ? & H4 & H5).
    view_of (updO_prev_view _ _ _ _ _ H4) N4 P4 R4 L4 F4.
    view_of (updO_next_view _ _ _ _ _ H5) N5 P5 R5 L5 F5.
    veq_solve FLb.
  - apply bind_ok in Hprev as (s2 & ? & H2 & H3).
    view_of (updO_next_view _ _ _ _ _ H2) N2 P2 R2 L2 F2.
    view_of (updO_prev_view _ _ _ _ _ H3) N3 P3 R3 L3 F3.
    apply bind_ok in Hnext as (s4 & ? & Hg & H4). apply getB_ok in Hg as [-> _].
    apply bind_ok in H4 as (s4 & ? & Ha & H5). apply assert_ok in Ha as [-> _].
    view_of (updB_last_view _ _ _ _ _ H5) N5 P5 R5 L5 F5.
    veq_solve FLb.
  - apply bind_ok in Hprev as (s2 & ? & Hg & H2). apply getB_ok in Hg as [-> _].
    apply bind_ok in H2 as (s2 & ? & Ha & H3). apply assert_ok in Ha as [-> _].
    view_of (updB_first_view _ _ _ _ _ H3) N3 P3 R3 L3 F3.
    apply bind_ok in Hnext as (s4 & ? & H4 & H5).
    view_of (updO_prev_view _ _ _ _ _ H4) N4 P4 R4 L4 F4.
    view_of (updO_next_view _ _ _ _ _ H5) N5 P5 R5 L5 F5.
    veq_solve FLb.
  - apply bind_ok in Hprev as (s2 & ? & Hg & H2). apply getB_ok in Hg as [-> _].
    apply bind_ok in H2 as (s2 & ? & Ha & H3). apply assert_ok in Ha as [-> _].
    view_of (updB_first_view _ _ _ _ _ H3) N3 P3 R3 L3 F3.
    apply bind_ok in Hnext as (s4 & ? & Hg & H4). apply getB_ok in Hg as [-> _].
    apply bind_ok in H4 as (s4 & ? & Ha & H5). apply assert_ok in Ha as [-> _].
    view_of (updB_last_view _ _ _ _ _ H5) N5 P5 R5 L5 F5.
    veq_solve FLb.
Qed.

(* `_gen`: the existing op need only be a member of the list of b (`vin`), not live *)
Lemma insert_op_after_WF_gen : forall s s' b new ex r,
  WF s -> blk_live s b -> vin (viewT1 s) b ex ->
  insert_op_after b new ex s = (s', Ok r) -> WF s'.
Proof.
  intros s s' b new ex r W BL Iex H. destruct (WF_viewT1 s W) as [D DD].
  pose proof H as H0. unfold insert_op_after in H0.
  apply bind_ok in H0 as (s0 & er & Hg & H0). apply getO_ok in Hg as [-> Fex].
  destruct (opt_eqb (o_parent er) (Some b)) eqn:Pex; simpl in H0; [|exfalso; eapply raise_ok; eauto].
  apply opt_eqb_eq in Pex.
  apply bind_ok in H0 as (s1 & ? & Hat & H0).
  destruct (attach_op_eff _ _ _ _ _ Hat) as (xn & Fnew & Pnew & Hat').
  destruct (getO_view _ _ _ Fex) as (Vn & _ & Vpar). rewrite Pex in Vpar.
  destruct (getO_view _ _ _ Fnew) as (_ & _ & Vparn). rewrite Pnew in Vparn.
  destruct (blk_live_FL s b BL) as (f & la & FLb).
  apply (WF_groups_T1 _ s s' r (linked (viewT1 s) b new (Some ex) (o_next er)) W
           (fun R K => insert_op_after_pres R K b new ex) H); [|apply linked_after; first [assumption|congruence]].
  assert (Nne : new <> ex) by (intro; subst; rewrite Vpar in Vparn; discriminate).
  view_of (updO_parent_view _ _ _ _ _ Hat') N1 P1 R1 L1 F1.
  apply bind_ok in H0 as (s1' & er' & Hg & H0). apply getO_ok in Hg as [-> Fex1].
  apply bind_ok in H0 as (s5 & ? & Hins & Hlast).
  unfold insert_next_op in Hins.
  apply bind_ok in Hins as (s1' & sr & Hg & Hins). apply getO_ok in Hg as [-> Fsr].
  rewrite Fex1 in Fsr. injection Fsr as <-.
  apply bind_ok in Hins as (s2 & ? & Hn & Hins).
  apply bind_ok in Hins as (s3 & ? & H3 & Hins).
  view_of (updO_prev_view _ _ _ _ _ H3) N3 P3 R3 L3 F3.
  apply bind_ok in Hins as (s3' & sr' & Hg & Hins). apply getO_ok in Hg as [-> Fsr'].
  apply bind_ok in Hins as (s4 & ? & H4 & H5).
  view_of (updO_next_view _ _ _ _ _ H4) N4 P4 R4 L4 F4.
  view_of (updO_next_view _ _ _ _ _ H5) N5 P5 R5 L5 F5.
  destruct (getO_view _ _ _ Fex1) as (Vn1 & _ & _). rewrite N1, Vn in Vn1. injection Vn1 as E1. rewrite <- E1 in *.
  destruct (getO_view _ _ _ Fsr') as (Vn3 & _ & _).
  destruct (o_next er) as [n|].
  - apply ret_ok in Hlast as [<- _].
    view_of (updO_prev_view _ _ _ _ _ Hn) N2 P2 R2 L2 F2.
    vrew_in Vn3. rewrite Vn in Vn3. injection Vn3 as E3. rewrite <- E3 in *. veq_solve FLb.
  - apply ret_ok in Hn as [-> _].
    view_of (updB_last_view _ _ _ _ _ Hlast) N6 P6 R6 L6 F6.
    vrew_in Vn3. rewrite Vn in Vn3. injection Vn3 as E3. rewrite <- E3 in *. veq_solve FLb.
Qed.

Lemma insert_op_before_WF_gen : forall s s' b new ex r,
  WF s -> blk_live s b -> vin (viewT1 s) b ex ->
  insert_op_before b new ex s = (s', Ok r) -> WF s'.
Proof.
  intros s s' b new ex r W BL Iex H. destruct (WF_viewT1 s W) as [D DD].
  pose proof H as H0. unfold insert_op_before in H0.
  apply bind_ok in H0 as (s0 & er & Hg & H0). apply getO_ok in Hg as [-> Fex].
  destruct (opt_eqb (o_parent er) (Some b)) eqn:Pex; simpl in H0; [|exfalso; eapply raise_ok; eauto].
  apply opt_eqb_eq in Pex.
  apply bind_ok in H0 as (s1 & ? & Hat & H0).
  destruct (attach_op_eff _ _ _ _ _ Hat) as (xn & Fnew & Pnew & Hat').
  destruct (getO_view _ _ _ Fex) as (_ & Vp & Vpar). rewrite Pex in Vpar.
  destruct (getO_view _ _ _ Fnew) as (_ & _ & Vparn). rewrite Pnew in Vparn.
  destruct (blk_live_FL s b BL) as (f & la & FLb).
  apply (WF_groups_T1 _ s s' r (linked (viewT1 s) b new (o_prev er) (Some ex)) W
           (fun R K => insert_op_before_pres R K b new ex) H); [|apply linked_before; first [assumption|congruence]].
  assert (Nne : new <> ex) by (intro; subst; rewrite Vpar in Vparn; discriminate).
  assert (FLn : dFL (viewT1 s) b <> None) by congruence.
  destruct (vin_no_loop _ _ _ D FLn Iex) as [_ NLp]. rewrite Vp in NLp.
  view_of (updO_parent_view _ _ _ _ _ Hat') N1 P1 R1 L1 F1.
  apply bind_ok in H0 as (s1' & er' & Hg & H0). apply getO_ok in Hg as [-> Fex1].
  apply bind_ok in H0 as (s5 & ? & Hins & Hfirst).
  unfold insert_prev_op in Hins.
  apply bind_ok in Hins as (s1' & sr & Hg & Hins). apply getO_ok in Hg as [-> Fsr].
  rewrite Fex1 in Fsr. injection Fsr as <-.
  apply bind_ok in Hins as (s2 & ? & Hp & Hins).
  apply bind_ok in Hins as (s2' & sr' & Hg & Hins). apply getO_ok in Hg as [-> Fsr'].
  apply bind_ok in Hins as (s3 & ? & H3 & Hins).
  view_of (updO_prev_view _ _ _ _ _ H3) N3 P3 R3 L3 F3.
  apply bind_ok in Hins as (s4 & ? & H4 & H5).
  view_of (updO_next_view _ _ _ _ _ H4) N4 P4 R4 L4 F4.
  view_of (updO_prev_view _ _ _ _ _ H5) N5 P5 R5 L5 F5.
  destruct (getO_view _ _ _ Fex1) as (_ & Vp1 & _). rewrite P1, Vp in Vp1. injection Vp1 as E1. rewrite <- E1 in *.
  destruct (getO_view _ _ _ Fsr') as (_ & Vp2 & _).
  destruct (o_prev er) as [p|].
  - apply ret_ok in Hfirst as [<- _].
    view_of (updO_next_view _ _ _ _ _ Hp) N2 P2 R2 L2 F2.
    vrew_in Vp2. rewrite Vp in Vp2. injection Vp2 as E2. rewrite <- E2 in *. veq_solve FLb.
  - apply ret_ok in Hp as [-> _].
    view_of (updB_first_view _ _ _ _ _ Hfirst) N6 P6 R6 L6 F6.
    vrew_in Vp2. rewrite Vp in Vp2. injection Vp2 as E2. rewrite <- E2 in *. veq_solve FLb.
Qed.

(* the existing op is checked to have parent b; being live, it is a member of the list of b *)
Lemma checked_member : forall s b ex x, op_live s ex -> PM.find ex (s_ops s) = Some x -> o_parent x = Some b ->
  vin (viewT1 s) b ex.
Proof.
  intros s b ex x EL F P. apply vin_live; [apply live_view; exact EL|].
  destruct (getO_view _ _ _ F) as (_ & _ & Q). rewrite Q, P. reflexivity.
Qed.

Theorem insert_op_after_WF : forall s s' b new ex r,
  WF s -> blk_live s b -> op_live s ex ->
  insert_op_after b new ex s = (s', Ok r) -> WF s'.
Proof.
  intros s s' b new ex r W BL EL H. eapply insert_op_after_WF_gen; eauto.
  unfold insert_op_after in H.
  apply bind_ok in H as (s0 & er & Hg & H). apply getO_ok in Hg as [-> Fex].
  destruct (opt_eqb (o_parent er) (Some b)) eqn:Pex; simpl in H; [|exfalso; eapply raise_ok; eauto].
  apply opt_eqb_eq in Pex. eapply checked_member; eauto.
Qed.

Theorem insert_op_before_WF : forall s s' b new ex r,
  WF s -> blk_live s b -> op_live s ex ->
  insert_op_before b new ex s = (s', Ok r) -> WF s'.
Proof.
  intros s s' b new ex r W BL EL H. eapply insert_op_before_WF_gen; eauto.
  unfold insert_op_before in H.
  apply bind_ok in H as (s0 & er & Hg & H). apply getO_ok in Hg as [-> Fex].
  destruct (opt_eqb (o_parent er) (Some b)) eqn:Pex; simpl in H; [|exfalso; eapply raise_ok; eauto].
  apply opt_eqb_eq in Pex. eapply checked_member; eauto.
Qed.

Theorem add_op_WF : forall s s' b o r,
  WF s -> blk_live s b -> op_live s o -> add_op b o s = (s', Ok r) -> WF s'.
Proof.
  intros s s' b o r W BL OL H.
  pose proof H as H0. unfold add_op in H0.
  apply bind_ok in H0 as (s0 & br & Hg & H0). apply getB_ok in Hg as [-> Fb].
  destruct BL as (br0 & Fb0 & Eb). rewrite Fb in Fb0. injection Fb0 as <-.
  assert (FLb : dFL (viewT1 s) b = Some (b_first_op br, b_last_op br)).
  { simpl. unfold bFL. rewrite Fb, Eb. reflexivity. }
  destruct (b_last_op br) as [lo|] eqn:Last.
  - (* non-empty block: insert after the last op *)
    eapply (insert_op_after_WF_gen s s' b o lo); eauto; [exists br; auto|eapply vin_last; eauto].
  - (* empty block *)
    destruct (WF_viewT1 s W) as [D DD].
    apply bind_ok in H0 as (s1 & ? & Hat & H0).
    destruct (attach_op_eff _ _ _ _ _ Hat) as (xn & Fnew & Pnew & Hat').
    destruct (getO_view _ _ _ Fnew) as (Vn & Vp & Vparn). rewrite Pnew in Vparn.
    apply (WF_groups_T1 _ s s' r (linked (viewT1 s) b o None None) W (fun R K => add_op_pres R K b o) H);
      [|eapply linked_empty; eauto].
    (* the links of the detached op o are not written: they are None already *)
    destruct (DD o (live_view s o OL) Vparn) as [Nn Pn].
    view_of (updO_parent_view _ _ _ _ _ Hat') N1 P1 R1 L1 F1.
    apply bind_ok in H0 as (s2 & ? & H2 & H3).
    view_of (updB_first_view _ _ _ _ _ H2) N2 P2 R2 L2 F2.
    view_of (updB_last_view _ _ _ _ _ H3) N3 P3 R3 L3 F3.
    veq_solve FLb.
Qed.
