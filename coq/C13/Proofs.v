(* C13/Proofs.v -- proofs about the model of region_dce (C13/Model.v). *)
From Coq Require Import List Arith Bool Lia Permutation.
From XV Require Import C24.Model C24.ProofsPO C13.Model.
Import ListNotations.

(* induction principle for the nested/mutual op type *)
Section OpInd.
  Variable P : op -> Prop.
  Hypothesis H : forall o,
    (forall r b x, In r (o_regs o) -> In b r -> In x (b_ops b) -> P x) -> P o.
  Fixpoint op_ind2 (o : op) : P o.
  Proof.
    apply H. destruct o as [i res args succs regs t s e rc]. simpl.
    induction regs as [|r regs IHregs]; intros r0 b x Hr Hb Hx; [destruct Hr|].
    destruct Hr as [<-|Hr]; [|eapply IHregs; eauto].
    clear IHregs. induction r as [|b0 r IHr]; [destruct Hb|].
    destruct Hb as [<-|Hb]; [|eapply IHr; eauto].
    clear IHr. destruct b0 as [bi ba bo]. simpl in Hx.
    induction bo as [|x0 bo IHbo]; [destruct Hx|].
    destruct Hx as [<-|Hx]; [apply op_ind2 | eapply IHbo; eauto].
  Qed.
End OpInd.

Lemma nth_map_error {A B} (f : A -> B) (l : list A) (i : nat) (d : B) :
  nth i (map f l) d = match nth_error l i with Some a => f a | None => d end.
Proof.
  revert i. induction l as [|a l IH]; intros [|i]; simpl; auto.
Qed.

Lemma fold_left_flat_map {A B S} (step : S -> B -> S) (f : A -> list B) (l : list A) (s : S) :
  fold_left step (flat_map f l) s = fold_left (fun s a => fold_left step (f a) s) l s.
Proof.
  revert s. induction l as [|a l IH]; intros s; simpl; auto.
  rewrite fold_left_app. apply IH.
Qed.

Lemma fold_left_ext_in {A S} (f g : S -> A -> S) (l : list A) :
  (forall a s, In a l -> f s a = g s a) -> forall s, fold_left f l s = fold_left g l s.
Proof.
  induction l as [|a l IH]; intros Hfg s; simpl; auto.
  rewrite Hfg by (left; reflexivity). apply IH. intros; apply Hfg; right; assumption.
Qed.

(* keeping, of the elements of a list, those that pass `c`, each transformed by `g`: the shape of
   every deletion in delete_dead and in the greedy driver *)
Lemma in_flat_map_cond {A B} (c : A -> bool) (g : A -> B) (l : list A) (y : B) :
  In y (flat_map (fun a => if c a then [g a] else []) l) <-> exists a, In a l /\ c a = true /\ y = g a.
Proof.
  rewrite in_flat_map. split.
  - intros (a & Ha & Hy). destruct (c a) eqn:E; [|destruct Hy]. destruct Hy as [<-|[]]. eauto.
  - intros (a & Ha & E & ->). exists a. rewrite E. split; [exact Ha | left; reflexivity].
Qed.

Lemma flat_map_single {A B} (g : A -> B) (l : list A) : flat_map (fun a => [g a]) l = map g l.
Proof. induction l as [|a l IH]; simpl; [|rewrite IH]; reflexivity. Qed.

(* such a deletion does not increase the sum of a measure that `g` does not increase, and decreases
   it as soon as it drops an element of positive measure or `g` decreases the measure of one *)
Section Sums.
  Context {A : Type} (c : A -> bool) (g : A -> A) (f : A -> nat).
  Let cond := fun a => if c a then [g a] else [].

  Lemma sum_cond_le l : (forall a, In a l -> f (g a) <= f a) ->
    list_sum (map f (flat_map cond l)) <= list_sum (map f l).
  Proof.
    induction l as [|a l IH]; intros H; simpl; [lia|].
    rewrite map_app, list_sum_app.
    assert (Ha := H a (or_introl eq_refl)). assert (Hl := IH (fun x Hx => H x (or_intror Hx))).
    unfold cond at 1. destruct (c a); simpl; lia.
  Qed.

  Lemma sum_cond_lt l : (forall a, In a l -> f (g a) <= f a) ->
    (exists a, In a l /\ ((c a = false /\ 0 < f a) \/ f (g a) < f a)) ->
    list_sum (map f (flat_map cond l)) < list_sum (map f l).
  Proof.
    induction l as [|a l IH]; intros H (x & Hx & Hwhy); [destruct Hx|]. simpl.
    rewrite map_app, list_sum_app.
    assert (Ha := H a (or_introl eq_refl)).
    assert (Hle := sum_cond_le l (fun y Hy => H y (or_intror Hy))).
    destruct Hx as [<-|Hx].
    - unfold cond at 1. destruct Hwhy as [[Hc Hp]|Hlt]; [rewrite Hc; simpl; lia|].
      destruct (c a); simpl; lia.
    - assert (Hl := IH (fun y Hy => H y (or_intror Hy)) (ex_intro _ x (conj Hx Hwhy))).
      unfold cond at 1. destruct (c a); simpl; lia.
  Qed.
End Sums.

Lemma sum_map_le {A} (g : A -> A) (f : A -> nat) l : (forall a, In a l -> f (g a) <= f a) ->
  list_sum (map f (map g l)) <= list_sum (map f l).
Proof. rewrite <- flat_map_single. apply (sum_cond_le (fun _ => true)). Qed.

Lemma sum_map_lt {A} (g : A -> A) (f : A -> nat) l : (forall a, In a l -> f (g a) <= f a) ->
  (exists a, In a l /\ f (g a) < f a) -> list_sum (map f (map g l)) < list_sum (map f l).
Proof.
  intros H (a & Ha & Hlt). rewrite <- flat_map_single. apply (sum_cond_lt (fun _ => true)); [exact H|].
  exists a. auto.
Qed.

(* The order in which propagate_op_liveness reaches the operations does not depend on the
   live set: `trav_*` is that order, and a pass is a fold of `op_step` over it. *)
Definition trav_aux (ts : list (list op)) (g : cfg) : list op :=
  match ts with
  | [] => []
  | _ => match post_order g with None => [] | Some po => flat_map (fun bi => nth bi ts []) po end
  end.
Fixpoint trav_op (o : op) : list op :=
  flat_map (fun r => trav_aux (map (fun b => fold_right (fun x acc => acc ++ trav_op x) [] (b_ops b)) r) (cfg_of r))
    (o_regs o) ++ [o].
Definition trav_block (b : block) : list op := fold_right (fun x acc => acc ++ trav_op x) [] (b_ops b).
Definition trav_region (r : region) : list op := trav_aux (map trav_block r) (cfg_of r).

Lemma trav_op_eq o : trav_op o = flat_map trav_region (o_regs o) ++ [o].
Proof. destruct o; reflexivity. Qed.

Lemma prop_op_eq all o st :
  prop_op all o st = op_step all o (fold_left (fun s r => prop_region all r s) (o_regs o) st).
Proof. destruct o; reflexivity. Qed.

Section Trav.
  Variable all : list op.
  Let step := fun s o => op_step all o s.

  Lemma trav_block_fold b s :
    (forall x, In x (b_ops b) -> forall s, prop_op all x s = fold_left step (trav_op x) s) ->
    prop_block all b s = fold_left step (trav_block b) s.
  Proof.
    unfold prop_block, trav_block. revert s.
    induction (b_ops b) as [|x l IH]; intros s Hx; simpl; auto.
    rewrite fold_left_app. rewrite <- IH by (intros; apply Hx; right; assumption).
    apply Hx. left; reflexivity.
  Qed.

  Lemma trav_region_fold r s :
    (forall b x, In b r -> In x (b_ops b) -> forall s, prop_op all x s = fold_left step (trav_op x) s) ->
    prop_region all r s = fold_left step (trav_region r) s.
  Proof.
    intros Hx. unfold prop_region, trav_region, run_region, trav_aux.
    destruct r as [|b0 r0]; [reflexivity|].
    remember (b0 :: r0) as r eqn:Er.
    assert (Hne : map (prop_block all) r <> [] /\ map trav_block r <> []) by (subst r; split; discriminate).
    destruct (map (prop_block all) r) as [|f0 fs] eqn:Ef; [destruct Hne as [Hn _]; contradiction|].
    destruct (map trav_block r) as [|t0 ts] eqn:Et; [destruct Hne as [_ Hn]; contradiction|].
    rewrite <- Ef, <- Et. clear Ef Et f0 fs t0 ts Hne.
    destruct (post_order_terminates (cfg_of r)) as [po Epo]. rewrite Epo.
    clear Epo. revert s. induction po as [|bi po IH]; intros s; simpl; auto.
    rewrite fold_left_app, <- IH. f_equal.
    rewrite !nth_map_error. destruct (nth_error r bi) as [b|] eqn:Eb; [|reflexivity].
    apply trav_block_fold. intros x Hin. apply (Hx b x); auto. eapply nth_error_In; eauto.
  Qed.

  Lemma trav_op_fold o : forall s, prop_op all o s = fold_left step (trav_op o) s.
  Proof.
    induction o as [o IH] using op_ind2. intros s.
    rewrite prop_op_eq, trav_op_eq, fold_left_app. simpl. unfold step at 1. f_equal.
    rewrite fold_left_flat_map.
    apply fold_left_ext_in. intros r s' Hr. apply trav_region_fold.
    intros b x Hb Hx. apply (IH r b x); assumption.
  Qed.

  Theorem prop_region_trav r s : prop_region all r s = fold_left step (trav_region r) s.
  Proof. apply trav_region_fold. intros b x _ _. apply trav_op_fold. Qed.
End Trav.

Definition ids (l : list op) : list nat := map o_id l.
Definition uses (u o : op) : Prop := exists v, In v (o_res o) /\ In v (o_args u).
Definition lives (L : list nat) (o : op) : bool := memb (o_id o) L.
(* some user (anywhere in the program) of a result of o is in L *)
Definition has_live_user (all : list op) (L : list nat) (o : op) : Prop :=
  exists u, In u all /\ uses u o /\ lives L u = true.

Lemma users_In all v u : In u (users all v) <-> In u all /\ In v (o_args u).
Proof. unfold users. rewrite filter_In, memb_In. tauto. Qed.

Lemma live_user_spec all L o :
  existsb (fun v => existsb (fun u => memb (o_id u) L) (users all v)) (o_res o) = true
  <-> has_live_user all L o.
Proof.
  rewrite existsb_exists. split.
  - intros (v & Hv & Hex). apply existsb_exists in Hex. destruct Hex as (u & Hu & Hl).
    apply users_In in Hu. exists u. split; [tauto|]. split; [exists v; tauto | exact Hl].
  - intros (u & Hu & (v & Hv & Ha) & Hl). exists v. split; [exact Hv|].
    apply existsb_exists. exists u. split; [apply users_In; tauto | exact Hl].
Qed.

Lemma op_step_cases all o s :
  (op_step all o s = s /\
   (lives (ls_live s) o = true \/
    (would_be_trivially_dead o = true /\ ~ has_live_user all (ls_live s) o)))
  \/ (op_step all o s = LS (o_id o :: ls_live s) true (ls_err s) /\
      lives (ls_live s) o = false /\
      (would_be_trivially_dead o = false \/ has_live_user all (ls_live s) o)).
Proof.
  unfold op_step, set_live, is_live, lives.
  destruct (memb (o_id o) (ls_live s)) eqn:El; [left; auto|].
  destruct (would_be_trivially_dead o) eqn:Ew; simpl.
  - destruct (existsb _ (o_res o)) eqn:Ex.
    + right. repeat split; auto. right. apply live_user_spec. exact Ex.
    + left. split; auto. right. split; auto. intros Hu. apply live_user_spec in Hu.
      unfold is_live in Ex. rewrite Hu in Ex. discriminate.
  - right. auto.
Qed.

(* the fixed-point loop over a traversal order T *)
Section Fix.
  Variable all T : list op.
  Hypothesis T_all : incl T all.
  Let step := fun s o => op_step all o s.

  Definition closed_at (L : list nat) (o : op) : Prop :=
    lives L o = true \/ (would_be_trivially_dead o = true /\ ~ has_live_user all L o).

  (* justification of a member of the live set *)
  Definition justified (L : list nat) (i : nat) : Prop :=
    exists o, In o T /\ o_id o = i /\ (would_be_trivially_dead o = false \/ has_live_user all L o).

  Record good (s : lstate) : Prop := {
    g_nodup : NoDup (ls_live s);
    g_incl : incl (ls_live s) (ids all);
    g_just : forall i, In i (ls_live s) -> justified (ls_live s) i }.

  Lemma has_live_user_mono L L' o : incl L L' -> has_live_user all L o -> has_live_user all L' o.
  Proof.
    intros Hi (u & Hu & Hus & Hl). exists u. repeat split; auto.
    unfold lives in *. apply memb_In. apply Hi. apply memb_In. exact Hl.
  Qed.

  Lemma justified_mono L L' i : incl L L' -> justified L i -> justified L' i.
  Proof.
    intros Hi (o & Ho & Eo & [Hw|Hu]); exists o; repeat split; auto.
    right. eapply has_live_user_mono; eauto.
  Qed.

  Lemma step_good o s : In o T -> good s -> good (step s o).
  Proof.
    intros Ho [Hn Hi Hj]. unfold step.
    destruct (op_step_cases all o s) as [[E _]|[E [Hnl Hwhy]]]; rewrite E; [constructor; auto|].
    constructor; simpl.
    - constructor; [|exact Hn]. intros Hin. apply memb_In in Hin. unfold lives in Hnl. congruence.
    - intros i [<-|Hin]; [|apply Hi; exact Hin]. apply in_map. apply T_all. exact Ho.
    - intros i [<-|Hin].
      + exists o. repeat split; auto. destruct Hwhy as [Hw|Hu]; [left; exact Hw|right].
        eapply has_live_user_mono; [|exact Hu]. intros x Hx; right; exact Hx.
      + eapply justified_mono; [|apply Hj; exact Hin]. intros x Hx; right; exact Hx.
  Qed.

  Lemma fold_good l s : incl l T -> good s -> good (fold_left step l s).
  Proof.
    revert s. induction l as [|o l IH]; intros s Hl Hg; simpl; auto.
    apply IH; [intros x Hx; apply Hl; right; exact Hx|].
    apply step_good; auto. apply Hl. left; reflexivity.
  Qed.

  (* monotonicity / change tracking *)
  Lemma step_mono o s :
    ls_err (step s o) = ls_err s /\
    (exists l, ls_live (step s o) = l ++ ls_live s /\
               (ls_changed (step s o) = ls_changed s /\ l = [] \/ ls_changed (step s o) = true /\ l <> [])).
  Proof.
    unfold step. destruct (op_step_cases all o s) as [[E _]|[E _]]; rewrite E; simpl.
    - split; auto. exists []. split; auto.
    - split; auto. exists [o_id o]. split; auto. right. split; auto. discriminate.
  Qed.

  Lemma fold_mono l s :
    ls_err (fold_left step l s) = ls_err s /\
    (exists l', ls_live (fold_left step l s) = l' ++ ls_live s /\
       (ls_changed (fold_left step l s) = ls_changed s /\ l' = [] \/
        ls_changed (fold_left step l s) = true /\ l' <> [])).
  Proof.
    revert s. induction l as [|o l IH]; intros s; simpl.
    - split; auto. exists []. auto.
    - destruct (IH (step s o)) as [He (l2 & E2 & H2)].
      destruct (step_mono o s) as [He1 (l1 & E1 & H1)].
      split; [congruence|]. exists (l2 ++ l1). split; [rewrite E2, E1, app_assoc; reflexivity|].
      destruct H2 as [[Hc2 ->]|[Hc2 Hn2]].
      + destruct H1 as [[Hc1 ->]|[Hc1 Hn1]]; [left; split; [congruence|reflexivity]|].
        right. split; [congruence|]. simpl. exact Hn1.
      + right. split; auto. destruct l2; [contradiction|discriminate].
  Qed.

  (* a pass that reports no change leaves every traversed op closed *)
  Lemma fold_steady l s :
    ls_changed (fold_left step l s) = false ->
    ls_live (fold_left step l s) = ls_live s /\ forall o, In o l -> closed_at (ls_live s) o.
  Proof.
    revert s. induction l as [|o l IH]; intros s Hc; simpl in *; [split; [reflexivity|intros ? []]|].
    destruct (IH _ Hc) as [El Hcl].
    destruct (fold_mono l (step s o)) as [_ (l2 & E2 & H2)].
    destruct H2 as [[Hc2 ->]|[Hc2 _]]; [|congruence].
    rewrite Hc in Hc2. symmetry in Hc2.
    assert (Es : step s o = op_step all o s) by reflexivity.
    destruct (op_step_cases all o s) as [[E Hwhy]|[E _]]; rewrite E in Es; rewrite Es in *;
      [|simpl in Hc2; discriminate].
    split; [exact El|]. intros x [<-|Hx]; [exact Hwhy|apply Hcl; exact Hx].
  Qed.

  Definition pass (s : lstate) : lstate := fold_left step T (LS (ls_live s) false (ls_err s)).

  Lemma good_reset s : good s -> good (LS (ls_live s) false (ls_err s)).
  Proof. intros [a b c]. constructor; simpl; auto. Qed.

  Lemma good_length s : good s -> length (ls_live s) <= length all.
  Proof.
    intros [Hn Hi _]. unfold ids in Hi. rewrite <- (map_length o_id all).
    apply NoDup_incl_length; assumption.
  Qed.

  Fixpoint loop (fuel : nat) (s : lstate) : option lstate :=
    match fuel with
    | O => None
    | S f => if ls_changed s then loop f (pass s) else Some s
    end.

  (* final state of the `while changed` loop *)
  Record final (s : lstate) : Prop := {
    f_good : good s;
    f_closed : forall o, In o T -> closed_at (ls_live s) o }.

  Lemma loop_terminates fuel s :
    good s -> (ls_changed s = false -> forall o, In o T -> closed_at (ls_live s) o) ->
    length all - length (ls_live s) + 2 <= fuel ->
    exists s', loop fuel s = Some s' /\ final s' /\ ls_err s' = ls_err s.
  Proof.
    revert s. induction fuel as [|f IH]; intros s Hg Hcl Hf; [lia|]. simpl.
    destruct (ls_changed s) eqn:Ec.
    - assert (Hgp : good (pass s)) by (apply fold_good; [apply incl_refl|apply good_reset; exact Hg]).
      destruct (fold_mono T (LS (ls_live s) false (ls_err s))) as [He (l' & El & Hch)].
      fold (pass s) in He, El, Hch. simpl in He, El, Hch.
      destruct Hch as [[Hc ->]|[Hc Hn]].
      + (* nothing changed: next iteration stops *)
        destruct f as [|f']; [lia|]. simpl. rewrite Hc. exists (pass s). split; [reflexivity|].
        split; [|exact He]. constructor; [exact Hgp|].
        destruct (fold_steady T (LS (ls_live s) false (ls_err s))) as [E Hall]; [exact Hc|].
        simpl in E, Hall. fold (pass s) in E. rewrite E. exact Hall.
      + destruct (IH (pass s)) as (s' & E' & Hfin & He'); auto.
        * intros Hcf. congruence.
        * pose proof (good_length _ Hgp) as Hlen. rewrite El in *. rewrite app_length in *.
          destruct l'; [contradiction|]. simpl in *. lia.
        * exists s'. repeat split; auto; try apply Hfin. congruence.
    - exists s. split; [reflexivity|]. split; [|reflexivity]. constructor; auto.
  Qed.
End Fix.

(* Spec: which operations propagate_region_liveness reaches *)
Inductive visited_r : region -> op -> Prop :=
| vis_r r bi b o x :
    reach (cfg_of r) bi -> nth_error r bi = Some b -> In o (b_ops b) -> visited_o o x -> visited_r r x
with visited_o : op -> op -> Prop :=
| vis_self o : visited_o o o
| vis_sub o rg x : In rg (o_regs o) -> visited_r rg x -> visited_o o x.

Lemma in_trav_block b x : In x (trav_block b) <-> exists y, In y (b_ops b) /\ In x (trav_op y).
Proof.
  unfold trav_block. induction (b_ops b) as [|y l IH]; simpl.
  - split; [intros []|intros (y & [] & _)].
  - rewrite in_app_iff, IH. split.
    + intros [(z & Hz & Hx)|Hx]; [exists z; auto|exists y; auto].
    + intros (z & [<-|Hz] & Hx); [right; exact Hx|left; exists z; auto].
Qed.

Lemma in_trav_region r x :
  In x (trav_region r) <->
  exists bi b, reach (cfg_of r) bi /\ nth_error r bi = Some b /\ In x (trav_block b).
Proof.
  unfold trav_region, trav_aux.
  destruct (post_order_terminates (cfg_of r)) as [po Epo].
  destruct (post_order_spec_general _ _ Epo) as (_ & Hpo & _).
  destruct (map trav_block r) as [|t0 ts] eqn:Em.
  - destruct r; [|discriminate]. split; [intros []|]. intros (bi & b & _ & Hn & _). destruct bi; discriminate.
  - rewrite <- Em, Epo. rewrite in_flat_map. split.
    + intros (bi & Hbi & Hx). rewrite nth_map_error in Hx.
      destruct (nth_error r bi) as [b|] eqn:Eb; [|destruct Hx].
      exists bi, b. split; [apply Hpo; exact Hbi|auto].
    + intros (bi & b & Hr & Hn & Hx). exists bi. split; [apply Hpo; exact Hr|].
      rewrite nth_map_error, Hn. exact Hx.
Qed.

Lemma in_trav_op_iff o : forall x, In x (trav_op o) <-> visited_o o x.
Proof.
  induction o as [o IH] using op_ind2. intros x.
  rewrite trav_op_eq, in_app_iff, in_flat_map. split.
  - intros [(rg & Hrg & Hx)|[<-|[]]]; [|apply vis_self].
    apply in_trav_region in Hx. destruct Hx as (bi & b & Hr & Hn & Hx).
    apply in_trav_block in Hx. destruct Hx as (y & Hy & Hx).
    apply (vis_sub o rg x Hrg). apply (vis_r rg bi b y x Hr Hn Hy).
    apply (IH rg b y Hrg (nth_error_In _ _ Hn) Hy). exact Hx.
  - intros Hv. inversion Hv as [|o' rg x' Hrg Hvr]; subst; [right; left; reflexivity|].
    left. exists rg. split; [exact Hrg|].
    inversion Hvr as [r bi b y x' Hr Hn Hy Hvo]; subst.
    apply in_trav_region. exists bi, b. repeat split; auto.
    apply in_trav_block. exists y. split; [exact Hy|].
    apply (IH rg b y Hrg (nth_error_In _ _ Hn) Hy). exact Hvo.
Qed.

Theorem in_trav_region_iff r x : In x (trav_region r) <-> visited_r r x.
Proof.
  rewrite in_trav_region. split.
  - intros (bi & b & Hr & Hn & Hx). apply in_trav_block in Hx. destruct Hx as (y & Hy & Hx).
    apply (vis_r r bi b y x Hr Hn Hy). apply in_trav_op_iff. exact Hx.
  - intros Hv. inversion Hv as [r' bi b y x' Hr Hn Hy Hvo]; subst.
    exists bi, b. repeat split; auto. apply in_trav_block. exists y. split; auto.
    apply in_trav_op_iff. exact Hvo.
Qed.

Lemma walk_op_eq o : walk_op o = o :: flat_map walk_region (o_regs o).
Proof. destruct o; reflexivity. Qed.

Lemma in_walk_region r x :
  In x (walk_region r) <-> exists b y, In b r /\ In y (b_ops b) /\ In x (walk_op y).
Proof.
  unfold walk_region, walk_block. rewrite in_flat_map. split.
  - intros (b & Hb & Hx). apply in_flat_map in Hx. destruct Hx as (y & Hy & Hx). exists b, y. auto.
  - intros (b & y & Hb & Hy & Hx). exists b. split; auto. apply in_flat_map. exists y. auto.
Qed.

Lemma in_walk_op o x :
  In x (walk_op o) <-> x = o \/ exists rg, In rg (o_regs o) /\ In x (walk_region rg).
Proof.
  rewrite walk_op_eq. simpl. rewrite in_flat_map. split; intros [H|H]; auto.
Qed.

Lemma walk_region_op rg b y : In b rg -> In y (b_ops b) -> In y (walk_region rg).
Proof.
  intros Hb Hy. apply in_walk_region. exists b, y. repeat split; auto. apply in_walk_op. left; reflexivity.
Qed.

Lemma walk_region_nested rg b p rg1 :
  In b rg -> In p (b_ops b) -> In rg1 (o_regs p) -> incl (walk_region rg1) (walk_region rg).
Proof.
  intros Hb Hp Hrg1 x Hx. apply in_walk_region. exists b, p. repeat split; auto.
  apply in_walk_op. right. exists rg1. auto.
Qed.

Lemma visited_o_walk o : forall x, visited_o o x -> In x (walk_op o).
Proof.
  induction o as [o IH] using op_ind2. intros x Hv. apply in_walk_op.
  inversion Hv as [|o' rg x' Hrg Hvr]; subst; [left; reflexivity|]. right. exists rg. split; auto.
  inversion Hvr as [r bi b y x' Hr Hn Hy Hvo]; subst.
  apply in_walk_region. exists b, y. repeat split; auto; [eapply nth_error_In; eauto|].
  apply (IH rg b y Hrg (nth_error_In _ _ Hn) Hy). exact Hvo.
Qed.

Lemma visited_r_walk r x : visited_r r x -> In x (walk_region r).
Proof.
  intros Hv. inversion Hv as [r' bi b y x' Hr Hn Hy Hvo]; subst.
  apply in_walk_region. exists b, y. repeat split; auto; [eapply nth_error_In; eauto|].
  apply visited_o_walk. exact Hvo.
Qed.

Lemma trav_incl_walk r : incl (trav_region r) (walk_region r).
Proof. intros x Hx. apply visited_r_walk. apply in_trav_region_iff. exact Hx. Qed.

(* the model's loop is the abstract loop over the traversal order *)
Lemma live_loop_eq fuel all r s :
  live_loop fuel all r s = loop all (trav_region r) fuel s.
Proof.
  revert s. induction fuel as [|f IH]; intros s; simpl; auto.
  destruct (ls_changed s); auto. rewrite IH. unfold pass. rewrite prop_region_trav. reflexivity.
Qed.

Lemma good_init all T : good all T (LS [] true false).
Proof. constructor; simpl; [constructor|intros ? []|intros ? []]. Qed.

(* the `while changed` loop ends within the fuel; the result is a justified, closed live set, and
   the post-order model never ran out of fuel (first half of C13_terminates) *)
Theorem liveness_total r :
  exists st, liveness r = Some st /\ final (walk_region r) (trav_region r) st /\ ls_err st = false.
Proof.
  unfold liveness. rewrite live_loop_eq.
  destruct (loop_terminates (walk_region r) (trav_region r) (trav_incl_walk r)
              (live_fuel (walk_region r)) (LS [] true false)) as (s' & E & Hf & He).
  - apply good_init.
  - simpl. discriminate.
  - unfold live_fuel. simpl. lia.
  - exists s'. auto.
Qed.

(* Spec: the live operations are the least fixed point of the two rules *)
Inductive live (root : region) : op -> Prop :=
| live_intr o : visited_r root o -> would_be_trivially_dead o = false -> live root o
| live_use o u : visited_r root o -> live root u -> uses u o -> live root o.

Lemma live_visited root o : live root o -> visited_r root o.
Proof. intros H; inversion H; assumption. Qed.

Lemma NoDup_ids_inj (l : list op) x y :
  NoDup (ids l) -> In x l -> In y l -> o_id x = o_id y -> x = y.
Proof.
  unfold ids. induction l as [|a l IH]; simpl; intros Hn Hx Hy E; [destruct Hx|].
  inversion Hn as [|? ? Hna Hn']; subst.
  destruct Hx as [<-|Hx], Hy as [<-|Hy]; auto.
  - exfalso. apply Hna. rewrite E. apply in_map. exact Hy.
  - exfalso. apply Hna. rewrite <- E. apply in_map. exact Hx.
Qed.

Section LoopInv.
  Variable all T : list op.
  Variable Q : list nat -> Prop.
  Hypothesis Qstep : forall s o, In o T -> Q (ls_live s) -> Q (ls_live (op_step all o s)).

  Lemma fold_inv l s : incl l T -> Q (ls_live s) -> Q (ls_live (fold_left (fun s o => op_step all o s) l s)).
  Proof.
    revert s. induction l as [|o l IH]; intros s Hl Hq; simpl; auto.
    apply IH; [intros x Hx; apply Hl; right; exact Hx|]. apply Qstep; auto. apply Hl; left; reflexivity.
  Qed.

  Lemma loop_inv fuel : forall s s', loop all T fuel s = Some s' -> Q (ls_live s) -> Q (ls_live s').
  Proof.
    induction fuel as [|f IH]; intros s s' E Hq; simpl in E; [discriminate|].
    destruct (ls_changed s).
    - eapply IH; [exact E|]. unfold pass. apply fold_inv; [apply incl_refl|exact Hq].
    - inversion E; subst. exact Hq.
  Qed.
End LoopInv.

Theorem liveness_lfp r st :
  NoDup (ids (walk_region r)) -> liveness r = Some st ->
  forall o, In o (walk_region r) -> (lives (ls_live st) o = true <-> live r o).
Proof.
  intros Hnd E o Ho.
  destruct (liveness_total r) as (st' & E' & Hfin & _). rewrite E in E'. inversion E'; subst st'.
  split.
  - (* soundness: everything in the live set is derivable *)
    intros Hl.
    assert (Hq : forall i, In i (ls_live st) -> exists x, In x (trav_region r) /\ o_id x = i /\ live r x).
    { unfold liveness in E. rewrite live_loop_eq in E.
      refine (loop_inv (walk_region r) (trav_region r)
                (fun L => forall i, In i L -> exists x, In x (trav_region r) /\ o_id x = i /\ live r x)
                _ _ _ _ E _); [|simpl; intros ? []].
      intros s x Hx Hq i Hi.
      destruct (op_step_cases (walk_region r) x s) as [[Es _]|[Es [_ Hwhy]]]; rewrite Es in Hi;
        [apply Hq; exact Hi|].
      simpl in Hi. destruct Hi as [<-|Hi]; [|apply Hq; exact Hi].
      exists x. repeat split; auto.
      assert (Hvx : visited_r r x) by (apply in_trav_region_iff; exact Hx).
      destruct Hwhy as [Hw|(u & Hu & Hus & Hlu)]; [apply live_intr; auto|].
      unfold lives in Hlu. apply memb_In in Hlu. destruct (Hq _ Hlu) as (u' & Hu' & Eid & Hlive).
      assert (u' = u) by (eapply NoDup_ids_inj; eauto; apply trav_incl_walk; exact Hu').
      subst u'. eapply live_use; eauto. }
    unfold lives in Hl. apply memb_In in Hl. destruct (Hq _ Hl) as (x & Hx & Eid & Hlive).
    assert (x = o) by (eapply NoDup_ids_inj; eauto; apply trav_incl_walk; exact Hx).
    subst x. exact Hlive.
  - (* completeness: the final set is closed under the rules *)
    intros Hlive. clear Ho. induction Hlive as [o Hv Hw|o u Hv Hu IH Hus].
    + destruct (f_closed _ _ _ Hfin o) as [Hl|[Hw' _]]; [apply in_trav_region_iff; exact Hv|exact Hl|congruence].
    + destruct (f_closed _ _ _ Hfin o) as [Hl|[_ Hno]]; [apply in_trav_region_iff; exact Hv|exact Hl|].
      exfalso. apply Hno. exists u. repeat split; auto.
      apply visited_r_walk. apply live_visited. exact Hu.
Qed.

(* regions reached by the liveness propagation (`hin`) and regions kept by delete_dead (`kin`) *)
Inductive hin : region -> region -> Prop :=
| hin_refl rg : hin rg rg
| hin_step rg bi b p rg1 rg' :
    nth_error rg bi = Some b -> reach (cfg_of rg) bi -> In p (b_ops b) -> In rg1 (o_regs p) ->
    hin rg1 rg' -> hin rg rg'.

Definition keep_blk (L : nat -> bool) (bi : nat) (b : block) : Prop := bi = 0 \/ has_live L b = true.

Inductive kin (L : nat -> bool) : region -> region -> Prop :=
| kin_refl rg : kin L rg rg
| kin_step rg bi b p rg1 rg' :
    nth_error rg bi = Some b -> keep_blk L bi b -> In p (b_ops b) -> L (o_id p) = true ->
    In rg1 (o_regs p) -> kin L rg1 rg' -> kin L rg rg'.

Lemma hin_visited root rg : hin root rg ->
  forall bi b x, reach (cfg_of rg) bi -> nth_error rg bi = Some b -> In x (b_ops b) -> visited_r root x.
Proof.
  induction 1 as [rg|rg bi0 b0 p rg1 rg' Hn0 Hr0 Hp Hrg1 _ IH]; intros bi b x Hr Hn Hx.
  - eapply vis_r; eauto. apply vis_self.
  - eapply vis_r; eauto. eapply vis_sub; eauto.
Qed.

Lemma hin_walk root rg : hin root rg -> incl (walk_region rg) (walk_region root).
Proof.
  induction 1 as [rg|rg bi0 b0 p rg1 rg' Hn0 Hr0 Hp Hrg1 _ IH]; [apply incl_refl|].
  intros x Hx. exact (walk_region_nested rg b0 p rg1 (nth_error_In _ _ Hn0) Hp Hrg1 x (IH x Hx)).
Qed.

Lemma kin_walk L root rg : kin L root rg -> incl (walk_region rg) (walk_region root).
Proof.
  induction 1 as [rg|rg bi0 b0 p rg1 rg' Hn0 Hk Hp HL Hrg1 _ IH]; [apply incl_refl|].
  intros x Hx. exact (walk_region_nested rg b0 p rg1 (nth_error_In _ _ Hn0) Hp Hrg1 x (IH x Hx)).
Qed.

(* distinct ids: occurrences at different positions are different operations *)
Lemma ids_app l1 l2 : ids (l1 ++ l2) = ids l1 ++ ids l2.
Proof. apply map_app. Qed.

Lemma NoDup_app_inv {A} (l1 l2 : list A) :
  NoDup (l1 ++ l2) -> NoDup l1 /\ NoDup l2 /\ (forall x, In x l1 -> In x l2 -> False).
Proof.
  induction l1 as [|a l1 IH]; simpl; intros Hn.
  - repeat split; [constructor|exact Hn|intros ? []].
  - inversion Hn as [|? ? Hna Hn']; subst. destruct (IH Hn') as (H1 & H2 & H3).
    repeat split; auto.
    + constructor; auto. intros Hin. apply Hna. apply in_or_app. left; exact Hin.
    + intros x [<-|Hx] Hx2; [apply Hna; apply in_or_app; right; exact Hx2|eauto].
Qed.

Section FlatNoDup.
  Context {A : Type} (f : A -> list op).

  Lemma flat_nodup_sub l a : NoDup (ids (flat_map f l)) -> In a l -> NoDup (ids (f a)).
  Proof.
    intros Hn Ha. apply in_split in Ha. destruct Ha as (l1 & l2 & ->).
    rewrite flat_map_app in Hn. simpl in Hn. rewrite !ids_app in Hn.
    apply NoDup_app_inv in Hn. destruct Hn as (_ & Hn & _).
    apply NoDup_app_inv in Hn. tauto.
  Qed.

  Lemma flat_nodup_idx l : NoDup (ids (flat_map f l)) ->
    forall i j a a' x x', nth_error l i = Some a -> nth_error l j = Some a' ->
      In x (f a) -> In x' (f a') -> o_id x = o_id x' -> i = j.
  Proof.
    induction l as [|a0 l IH]; intros Hn i j a a' x x' Hi Hj Hx Hx' E; [destruct i; discriminate|].
    simpl in Hn. rewrite ids_app in Hn. apply NoDup_app_inv in Hn. destruct Hn as (_ & Hn2 & Hdis).
    assert (Hrest : forall k c z, nth_error l k = Some c -> In z (f c) -> In (o_id z) (ids (flat_map f l))).
    { intros k c z Hk Hz. apply in_map. apply in_flat_map. exists c. split; auto. eapply nth_error_In; eauto. }
    destruct i as [|i], j as [|j]; simpl in Hi, Hj; auto.
    - inversion Hi; subst. exfalso. apply (Hdis (o_id x)); [apply in_map; exact Hx|].
      rewrite E. eapply Hrest; eauto.
    - inversion Hj; subst. exfalso. apply (Hdis (o_id x')); [apply in_map; exact Hx'|].
      rewrite <- E. eapply Hrest; eauto.
    - f_equal. eapply IH; eauto.
  Qed.
End FlatNoDup.

Lemma walk_region_nodup_block r b :
  NoDup (ids (walk_region r)) -> In b r -> NoDup (ids (walk_block b)).
Proof. apply (flat_nodup_sub walk_block). Qed.

Lemma walk_block_nodup_op b y :
  NoDup (ids (walk_block b)) -> In y (b_ops b) -> NoDup (ids (walk_op y)).
Proof. apply (flat_nodup_sub walk_op). Qed.

Lemma walk_op_nodup_region o rg :
  NoDup (ids (walk_op o)) -> In rg (o_regs o) -> NoDup (ids (walk_region rg)).
Proof.
  rewrite walk_op_eq. simpl. intros Hn. inversion Hn; subst.
  apply (flat_nodup_sub walk_region). assumption.
Qed.

Lemma in_walk_block b x : In x (walk_block b) <-> exists y, In y (b_ops b) /\ In x (walk_op y).
Proof. unfold walk_block. apply in_flat_map. Qed.

(* an op of an unreachable block of a reached region is not reached at all *)
Lemma unreachable_not_visited root rg : hin root rg ->
  NoDup (ids (walk_region root)) ->
  forall bi b y, nth_error rg bi = Some b -> ~ reach (cfg_of rg) bi -> In y (b_ops b) ->
  ~ visited_r root y.
Proof.
  induction 1 as [rg|rg bi0 b0 p rg1 rg' Hn0 Hr0 Hp Hrg1 Hh IH]; intros Hnd bi b y Hn Hnr Hy Hv.
  - inversion Hv as [r bi' b' o' x Hr' Hn' Ho' Hvo]; subst.
    assert (bi' = bi).
    { eapply (flat_nodup_idx walk_block rg Hnd bi' bi b' b y y); eauto.
      - apply in_walk_block. exists o'. split; auto. apply visited_o_walk. exact Hvo.
      - apply in_walk_block. exists y. split; auto. apply in_walk_op. left; reflexivity. }
    subst. contradiction.
  - assert (Hyrg1 : In y (walk_region rg1)).
    { apply (hin_walk _ _ Hh). exact (walk_region_op rg' b y (nth_error_In _ _ Hn) Hy). }
    inversion Hv as [r bi' b' o' x Hr' Hn' Ho' Hvo]; subst.
    assert (bi' = bi0).
    { eapply (flat_nodup_idx walk_block rg Hnd bi' bi0 b' b0 y y); eauto.
      - apply in_walk_block. exists o'. split; auto. apply visited_o_walk. exact Hvo.
      - apply in_walk_block. exists p. split; auto. apply in_walk_op. right. exists rg1. auto. }
    subst bi'. rewrite Hn0 in Hn'. inversion Hn'; subst b'.
    assert (Hndb : NoDup (ids (walk_block b0))).
    { eapply walk_region_nodup_block; eauto. eapply nth_error_In; eauto. }
    destruct (In_nth_error _ _ Ho') as [i Hi]. destruct (In_nth_error _ _ Hp) as [j Hj].
    assert (i = j).
    { eapply (flat_nodup_idx walk_op (b_ops b0) Hndb i j o' p y y); eauto.
      - apply visited_o_walk. exact Hvo.
      - apply in_walk_op. right. exists rg1. auto. }
    subst j. rewrite Hi in Hj. inversion Hj; subst o'.
    assert (Hndp : NoDup (ids (walk_op p))) by (eapply walk_block_nodup_op; eauto).
    inversion Hvo as [|o'' rg2 x Hrg2 Hvr]; subst.
    + (* y = p, but y also occurs inside a region of p *)
      rewrite walk_op_eq in Hndp. simpl in Hndp. inversion Hndp as [|? ? Hnotin _]; subst.
      apply Hnotin. apply in_map. apply in_flat_map. exists rg1. auto.
    + assert (rg2 = rg1).
      { destruct (In_nth_error _ _ Hrg2) as [i2 Hi2]. destruct (In_nth_error _ _ Hrg1) as [i1 Hi1].
        assert (i2 = i1).
        { rewrite walk_op_eq in Hndp. simpl in Hndp. inversion Hndp as [|? ? _ Hndr]; subst.
          eapply (flat_nodup_idx walk_region (o_regs p) Hndr i2 i1 rg2 rg1 y y); eauto.
          apply visited_r_walk. exact Hvr. }
        subst. rewrite Hi2 in Hi1. inversion Hi1. reflexivity. }
      subst rg2. eapply IH; eauto. eapply walk_op_nodup_region; eauto.
Qed.

Lemma dd_op_eq L o : dd_op L o = set_regs o (map (dd_region L) (o_regs o)).
Proof. destruct o; reflexivity. Qed.

Lemma dd_block_ops L b :
  b_ops (dd_block L b) = flat_map (fun x => if L (o_id x) then [dd_op L x] else []) (b_ops b).
Proof. reflexivity. Qed.

Definition surv (L : nat -> bool) (rg : region) (i : nat) : Prop :=
  exists rg' bi b y, kin L rg rg' /\ nth_error rg' bi = Some b /\ keep_blk L bi b /\
                     In y (b_ops b) /\ L (o_id y) = true /\ o_id y = i.

Lemma in_ids_cons x l i : In i (ids (x :: l)) <-> i = o_id x \/ In i (ids l).
Proof. simpl. split; intros [H|H]; auto. Qed.

Lemma in_ids_flat_map {A} (f : A -> list op) l i :
  In i (ids (flat_map f l)) <-> exists a, In a l /\ In i (ids (f a)).
Proof.
  unfold ids. rewrite in_map_iff. split.
  - intros (x & E & Hx). apply in_flat_map in Hx. destruct Hx as (a & Ha & Hx).
    exists a. split; [exact Ha|]. apply in_map_iff. eauto.
  - intros (a & Ha & Hi). apply in_map_iff in Hi. destruct Hi as (x & E & Hx).
    exists x. split; [exact E|]. apply in_flat_map. eauto.
Qed.

Lemma in_ids_walk_dd_op L o i :
  In i (ids (walk_op (dd_op L o))) <->
  i = o_id o \/ exists rg, In rg (o_regs o) /\ In i (ids (walk_region (dd_region L rg))).
Proof.
  rewrite dd_op_eq, walk_op_eq, in_ids_cons, in_ids_flat_map. simpl. split.
  - intros [E|(rg' & Hrg' & Hi)]; [left; exact E|right].
    apply in_map_iff in Hrg'. destruct Hrg' as (rg & <- & Hrg). eauto.
  - intros [E|(rg & Hrg & Hi)]; [left; exact E|right].
    exists (dd_region L rg). split; [apply in_map; exact Hrg | exact Hi].
Qed.

Lemma in_ids_walk_dd_block L b i :
  In i (ids (walk_block (dd_block L b))) <->
  exists y, In y (b_ops b) /\ L (o_id y) = true /\ In i (ids (walk_op (dd_op L y))).
Proof.
  unfold walk_block. rewrite dd_block_ops, in_ids_flat_map. split.
  - intros (y' & Hy' & Hi). apply in_flat_map_cond in Hy'. destruct Hy' as (y & Hy & El & ->). eauto.
  - intros (y & Hy & El & Hi). exists (dd_op L y). split; [|exact Hi]. apply in_flat_map_cond. eauto.
Qed.

Lemma dd_region_blocks L rg b' :
  In b' (dd_region L rg) <->
  exists bi b, nth_error rg bi = Some b /\ keep_blk L bi b /\ b' = dd_block L b.
Proof.
  unfold dd_region, keep_blk. destruct rg as [|first rest].
  - split; [intros []|]. intros (bi & b & Hn & _). destruct bi; discriminate.
  - simpl. rewrite in_flat_map_cond. split.
    + intros [<-|(b & Hb & Eh & ->)]; [exists 0, first; auto|].
      destruct (In_nth_error _ _ Hb) as [k Hk]. exists (S k), b. auto.
    + intros (bi & b & Hn & Hk & ->). destruct bi as [|k]; simpl in Hn.
      * inversion Hn; subst. left; reflexivity.
      * right. exists b. destruct Hk as [Hk|Hk]; [discriminate|].
        split; [eapply nth_error_In; eauto | auto].
Qed.

Lemma in_ids_walk_dd_region L rg i :
  In i (ids (walk_region (dd_region L rg))) <->
  exists bi b, nth_error rg bi = Some b /\ keep_blk L bi b /\ In i (ids (walk_block (dd_block L b))).
Proof.
  unfold walk_region. rewrite in_ids_flat_map. split.
  - intros (b' & Hb' & Hi). apply dd_region_blocks in Hb'. destruct Hb' as (bi & b & Hn & Hk & ->). eauto.
  - intros (bi & b & Hn & Hk & Hi). exists (dd_block L b). split; [|exact Hi].
    apply dd_region_blocks. eauto.
Qed.

Lemma surv_op_region L rg :
  (forall b y, In b rg -> In y (b_ops b) -> forall i,
     In i (ids (walk_op (dd_op L y))) <-> i = o_id y \/ exists rg1, In rg1 (o_regs y) /\ surv L rg1 i) ->
  forall i, In i (ids (walk_region (dd_region L rg))) <-> surv L rg i.
Proof.
  intros Hop i. rewrite in_ids_walk_dd_region. split.
  - intros (bi & b & Hn & Hk & Hin). apply in_ids_walk_dd_block in Hin.
    destruct Hin as (y & Hy & El & Hin).
    apply (Hop b y (nth_error_In _ _ Hn) Hy) in Hin.
    destruct Hin as [->|(rg1 & Hrg1 & (rg' & bi' & b' & y' & Hkin & H'))].
    + exists rg, bi, b, y. repeat split; auto. apply kin_refl.
    + exists rg', bi', b', y'. split; [|exact H']. eapply kin_step; eauto.
  - intros (rg' & bi' & b' & y' & Hkin & Hn' & Hk' & Hy' & El' & Ei).
    inversion Hkin as [|rg0 bi b p rg1 rg'' Hn Hk Hp Elp Hrg1 Hkin']; subst.
    + exists bi', b'. repeat split; auto. apply in_ids_walk_dd_block. exists y'. repeat split; auto.
      apply (Hop b' y' (nth_error_In _ _ Hn') Hy'). left; reflexivity.
    + exists bi, b. repeat split; auto. apply in_ids_walk_dd_block. exists p. repeat split; auto.
      apply (Hop b p (nth_error_In _ _ Hn) Hp). right. exists rg1. split; auto.
      exists rg', bi', b', y'. repeat split; auto.
Qed.

Lemma surv_op L o : forall i,
  In i (ids (walk_op (dd_op L o))) <-> i = o_id o \/ exists rg1, In rg1 (o_regs o) /\ surv L rg1 i.
Proof.
  induction o as [o IH] using op_ind2. intros i. rewrite in_ids_walk_dd_op.
  split; (intros [E|(rg & Hrg & Hin)]; [left; exact E|right; exists rg; split; auto]).
  - apply surv_op_region; auto. intros b y Hb Hy. apply (IH rg b y Hrg Hb Hy).
  - apply surv_op_region; auto. intros b y Hb Hy. apply (IH rg b y Hrg Hb Hy).
Qed.

Theorem dd_region_ids L rg i : In i (ids (walk_region (dd_region L rg))) <-> surv L rg i.
Proof. apply surv_op_region. intros b y _ _. apply surv_op. Qed.

Definition Lof (st : lstate) : nat -> bool := fun i => memb i (ls_live st).

Lemma region_dce_unfold r :
  exists st, liveness r = Some st /\ final (walk_region r) (trav_region r) st /\
             region_dce r = Some (dd_region (Lof st) r, ddc_region (Lof st) r).
Proof.
  destruct (liveness_total r) as (st & E & Hf & He). exists st.
  split; [exact E|]. split; [exact Hf|].
  unfold region_dce. rewrite E, He. reflexivity.
Qed.

Lemma region_dce_inv r r' ch : region_dce r = Some (r', ch) ->
  exists st, final (walk_region r) (trav_region r) st /\
             r' = dd_region (Lof st) r /\ ch = ddc_region (Lof st) r.
Proof.
  intros E. destruct (region_dce_unfold r) as (st & _ & Hfin & E'). rewrite E in E'.
  inversion E'. eauto.
Qed.

Lemma reach_dec g b : {reach g b} + {~ reach g b}.
Proof.
  destruct (post_order g) as [po|] eqn:E.
  - destruct (post_order_spec_general _ _ E) as (_ & Hpo & _).
    destruct (in_dec Nat.eq_dec b po) as [Hi|Hn]; [left|right]; rewrite <- Hpo; assumption.
  - exfalso. destruct (post_order_terminates g) as [l El]. congruence.
Qed.

Lemma hin_snoc a rg0 : hin a rg0 ->
  forall bi b p rg1, nth_error rg0 bi = Some b -> reach (cfg_of rg0) bi -> In p (b_ops b) ->
    In rg1 (o_regs p) -> hin a rg1.
Proof.
  induction 1 as [rg|rg bi0 b0 p0 rg1' rg' Hn0 Hr0 Hp0 Hrg1' _ IH]; intros bi b p rg1 Hn Hr Hp Hrg1.
  - eapply hin_step; eauto. apply hin_refl.
  - eapply hin_step; eauto.
Qed.

Section Final.
  Variable r : region.
  Variable st : lstate.
  Hypothesis Hnd : NoDup (ids (walk_region r)).
  Hypothesis Hfin : final (walk_region r) (trav_region r) st.
  Let L := Lof st.

  Lemma L_visited o : In o (walk_region r) -> L (o_id o) = true -> visited_r r o.
  Proof.
    intros Ho Hl. unfold L, Lof in Hl. apply memb_In in Hl.
    destruct (g_just _ _ _ (f_good _ _ _ Hfin) _ Hl) as (t & Ht & Eid & _).
    assert (t = o) by (eapply NoDup_ids_inj; eauto; apply trav_incl_walk; exact Ht).
    subst t. apply in_trav_region_iff. exact Ht.
  Qed.

  Lemma visited_closed o : visited_r r o ->
    L (o_id o) = true \/
    (would_be_trivially_dead o = true /\ ~ has_live_user (walk_region r) (ls_live st) o).
  Proof.
    intros Hv. apply in_trav_region_iff in Hv. exact (f_closed _ _ _ Hfin o Hv).
  Qed.

  (* a block of a reached region that has a live op is reachable *)
  Lemma live_block_reachable rg : hin r rg ->
    forall bi b, nth_error rg bi = Some b -> keep_blk L bi b -> reach (cfg_of rg) bi.
  Proof.
    intros Hh bi b Hn [->|Hl]; [apply reach_entry|].
    destruct (reach_dec (cfg_of rg) bi) as [Hr|Hnr]; [exact Hr|exfalso].
    unfold has_live in Hl. apply existsb_exists in Hl. destruct Hl as (y & Hy & Hly).
    eapply (unreachable_not_visited r rg Hh Hnd bi b y); eauto.
    apply L_visited; auto. apply (hin_walk _ _ Hh). exact (walk_region_op rg b y (nth_error_In _ _ Hn) Hy).
  Qed.

  Lemma kin_hin rg0 rg : kin L rg0 rg -> hin r rg0 -> hin r rg.
  Proof.
    induction 1 as [rg|rg bi b p rg1 rg' Hn Hk Hp Hl Hrg1 _ IH]; intros Hh; [exact Hh|].
    apply IH. eapply hin_snoc; eauto. eapply live_block_reachable; eauto.
  Qed.

  (* a reachable block that ends with a terminator is kept *)
  Lemma terminated_block_kept rg : hin r rg ->
    forall bi b t, nth_error rg bi = Some b -> reach (cfg_of rg) bi -> In t (b_ops b) -> o_term t = true ->
    keep_blk L bi b.
  Proof.
    intros Hh bi b t Hn Hr Ht Hterm. right. unfold has_live. apply existsb_exists. exists t. split; auto.
    destruct (visited_closed t) as [Hl|[Hw _]]; [eapply hin_visited; eauto|exact Hl|].
    unfold would_be_trivially_dead in Hw. rewrite Hterm in Hw. discriminate.
  Qed.

  Let out := ids (walk_region (dd_region L r)).

  Lemma kept_in_out rg bi b o :
    kin L r rg -> nth_error rg bi = Some b -> In o (b_ops b) -> L (o_id o) = true -> In (o_id o) out.
  Proof.
    intros Hk Hn Ho Hl. apply dd_region_ids. exists rg, bi, b, o. repeat split; auto.
    right. unfold has_live. apply existsb_exists. exists o. auto.
  Qed.

  Lemma out_live i : In i out -> L i = true.
  Proof. intros Hi. apply dd_region_ids in Hi. destruct Hi as (_ & _ & _ & y & _ & _ & _ & _ & Hl & <-). exact Hl. Qed.

  Lemma out_in i : In i out -> In i (ids (walk_region r)).
  Proof.
    intros Hi. apply dd_region_ids in Hi. destruct Hi as (rg & bi & b & y & Hk & Hn & _ & Hy & _ & <-).
    apply in_map. apply (kin_walk _ _ _ Hk). exact (walk_region_op rg b y (nth_error_In _ _ Hn) Hy).
  Qed.

  Lemma only_removable_kin rg bi b o :
    kin L r rg -> nth_error rg bi = Some b -> In o (b_ops b) -> ~ In (o_id o) out ->
    ~ reach (cfg_of rg) bi \/
    (would_be_trivially_dead o = true /\
     forall u, In u (walk_region r) -> uses u o -> ~ In (o_id u) out).
  Proof.
    intros Hk Hn Ho Hout.
    destruct (reach_dec (cfg_of rg) bi) as [Hr|Hnr]; [right|left; exact Hnr].
    assert (Hh : hin r rg) by (eapply kin_hin; eauto; apply hin_refl).
    destruct (visited_closed o) as [Hl|[Hw Hno]]; [eapply hin_visited; eauto| |].
    - exfalso. apply Hout. eapply kept_in_out; eauto.
    - split; [exact Hw|]. intros u Hu Hus Hin. apply Hno. exists u. repeat split; auto.
      apply out_live in Hin. exact Hin.
  Qed.
End Final.

(* regions all of whose enclosing operations remain in the output (ids `out`) *)
Inductive rin (out : list nat) : region -> region -> Prop :=
| rin_refl rg : rin out rg rg
| rin_step rg bi b p rg1 rg' :
    nth_error rg bi = Some b -> In p (b_ops b) -> In (o_id p) out -> In rg1 (o_regs p) ->
    rin out rg1 rg' -> rin out rg rg'.

Lemma rin_kin r st : NoDup (ids (walk_region r)) ->
  forall rg0 rg, rin (ids (walk_region (dd_region (Lof st) r))) rg0 rg ->
  incl (walk_region rg0) (walk_region r) -> kin (Lof st) rg0 rg.
Proof.
  intros Hnd rg0 rg Hr. induction Hr as [rg|rg bi b p rg1 rg' Hn Hp Hout Hrg1 _ IH]; intros Hincl.
  - apply kin_refl.
  - assert (Hl : Lof st (o_id p) = true) by (eapply out_live; eauto).
    eapply kin_step; eauto.
    + right. unfold has_live. apply existsb_exists. exists p. auto.
    + apply IH. intros x Hx. apply Hincl. exact (walk_region_nested rg b p rg1 (nth_error_In _ _ Hn) Hp Hrg1 x Hx).
Qed.

(* C13_only_removable *)
Theorem only_removable r r' ch :
  NoDup (ids (walk_region r)) -> region_dce r = Some (r', ch) ->
  forall rg bi b o, rin (ids (walk_region r')) r rg -> nth_error rg bi = Some b -> In o (b_ops b) ->
    ~ In (o_id o) (ids (walk_region r')) ->
    ~ reach (cfg_of rg) bi \/
    (would_be_trivially_dead o = true /\
     forall u, In u (walk_region r) -> uses u o -> ~ In (o_id u) (ids (walk_region r'))).
Proof.
  intros Hnd E rg bi b o Hrin Hn Ho Hout.
  destruct (region_dce_inv r r' ch E) as (st & Hfin & -> & ->).
  eapply only_removable_kin; eauto. eapply rin_kin; eauto. apply incl_refl.
Qed.

(* nothing is invented: every remaining op id is an id of the input *)
Theorem output_subset r r' ch :
  region_dce r = Some (r', ch) -> incl (ids (walk_region r')) (ids (walk_region r)).
Proof.
  intros E i Hi.
  destruct (region_dce_inv r r' ch E) as (st & Hfin & -> & ->).
  eapply out_in; eauto.
Qed.

(* C13_unreachable_blocks_removed *)
Theorem kept_blocks_reachable r r' ch :
  NoDup (ids (walk_region r)) -> region_dce r = Some (r', ch) ->
  exists L, r' = dd_region L r /\ ch = ddc_region L r /\
    forall rg, kin L r rg -> forall bi b, nth_error rg bi = Some b ->
      (keep_blk L bi b -> reach (cfg_of rg) bi) /\
      (reach (cfg_of rg) bi -> (exists t, In t (b_ops b) /\ o_term t = true) -> keep_blk L bi b).
Proof.
  intros Hnd E.
  destruct (region_dce_inv r r' ch E) as (st & Hfin & -> & ->).
  exists (Lof st). repeat split; auto.
  - intros Hk. eapply live_block_reachable; eauto. eapply kin_hin; eauto. apply hin_refl.
  - intros Hr (t & Ht & Hterm). eapply terminated_block_kept; eauto. eapply kin_hin; eauto. apply hin_refl.
Qed.

(* completeness: a run that reports no change leaves nothing to remove *)
Inductive rsub : region -> region -> Prop :=
| rsub_refl rg : rsub rg rg
| rsub_step rg bi b p rg1 rg' :
    nth_error rg bi = Some b -> In p (b_ops b) -> In rg1 (o_regs p) -> rsub rg1 rg' -> rsub rg rg'.

Definition complete (r : region) : Prop :=
  (forall o, In o (walk_region r) -> is_trivially_dead (walk_region r) o = false) /\
  (forall rg, rsub r rg -> forall bi b, nth_error rg bi = Some b -> reach (cfg_of rg) bi).

Lemma existsb_false {A} (f : A -> bool) (l : list A) :
  existsb f l = false -> forall x, In x l -> f x = false.
Proof.
  intros H x Hx. destruct (f x) eqn:E; auto.
  assert (existsb f l = true) by (apply existsb_exists; exists x; auto). congruence.
Qed.

Lemma ddc_op_eq L o : ddc_op L o = existsb (ddc_region L) (o_regs o).
Proof. destruct o; reflexivity. Qed.

Lemma ddc_false_inv L rg : ddc_region L rg = false ->
  forall bi b, nth_error rg bi = Some b ->
    keep_blk L bi b /\
    forall p, In p (b_ops b) -> L (o_id p) = true /\ forall rg1, In rg1 (o_regs p) -> ddc_region L rg1 = false.
Proof.
  intros Hd bi b Hn.
  assert (Hblk : forall b0, ddc_block L b0 = false -> forall p, In p (b_ops b0) ->
            L (o_id p) = true /\ forall rg1, In rg1 (o_regs p) -> ddc_region L rg1 = false).
  { intros b0 Hb0 p Hp. unfold ddc_block in Hb0.
    assert (Hf := existsb_false _ _ Hb0 p Hp). apply orb_false_iff in Hf. destruct Hf as [Hl Hdo].
    split; [destruct (L (o_id p)); auto; discriminate|].
    intros rg1 Hrg1. rewrite ddc_op_eq in Hdo. exact (existsb_false _ _ Hdo rg1 Hrg1). }
  destruct rg as [|first rest]; [destruct bi; discriminate|].
  simpl in Hd. apply orb_false_iff in Hd. destruct Hd as [Hf Hrest].
  destruct bi as [|k]; simpl in Hn.
  - inversion Hn; subst. split; [left; reflexivity|apply Hblk; exact Hf].
  - assert (Hk := existsb_false _ _ Hrest b (nth_error_In _ _ Hn)).
    apply orb_false_iff in Hk. destruct Hk as [Hhl Hdb].
    split; [right; destruct (has_live L b); auto; discriminate|apply Hblk; exact Hdb].
Qed.

Lemma ddc_rsub L rg0 rg : rsub rg0 rg -> ddc_region L rg0 = false ->
  kin L rg0 rg /\ ddc_region L rg = false.
Proof.
  induction 1 as [rg|rg bi b p rg1 rg' Hn Hp Hrg1 _ IH]; intros Hd; [split; [apply kin_refl|exact Hd]|].
  destruct (ddc_false_inv L rg Hd bi b Hn) as [Hk Hops]. destruct (Hops p Hp) as [Hl Hregs].
  destruct (IH (Hregs rg1 Hrg1)) as [Hkin Hd']. split; [|exact Hd']. eapply kin_step; eauto.
Qed.

Lemma walk_op_rsub o : forall x, In x (walk_op o) ->
  x = o \/ exists rg1 rg bi b, In rg1 (o_regs o) /\ rsub rg1 rg /\ nth_error rg bi = Some b /\ In x (b_ops b).
Proof.
  induction o as [o IH] using op_ind2. intros x Hx. apply in_walk_op in Hx.
  destruct Hx as [->|(rg1 & Hrg1 & Hx)]; [left; reflexivity|right].
  apply in_walk_region in Hx. destruct Hx as (b & y & Hb & Hy & Hx).
  destruct (In_nth_error _ _ Hb) as [bi Hbi].
  destruct (IH rg1 b y Hrg1 Hb Hy x Hx) as [->|(rg2 & rg & bi' & b' & Hrg2 & Hsub & Hn' & Hx')].
  - exists rg1, rg1, bi, b. repeat split; auto. apply rsub_refl.
  - exists rg1, rg, bi', b'. repeat split; auto. eapply rsub_step; eauto.
Qed.

Lemma walk_region_rsub rg0 x : In x (walk_region rg0) ->
  exists rg bi b, rsub rg0 rg /\ nth_error rg bi = Some b /\ In x (b_ops b).
Proof.
  intros Hx. apply in_walk_region in Hx. destruct Hx as (b & y & Hb & Hy & Hx).
  destruct (In_nth_error _ _ Hb) as [bi Hbi].
  destruct (walk_op_rsub y x Hx) as [->|(rg1 & rg & bi' & b' & Hrg1 & Hsub & Hn' & Hx')].
  - exists rg0, bi, b. repeat split; auto. apply rsub_refl.
  - exists rg, bi', b'. repeat split; auto. eapply rsub_step; eauto.
Qed.

Lemma flat_map_keep_all {A} (c : A -> bool) (g : A -> A) (l : list A) :
  (forall a, In a l -> c a = true /\ g a = a) ->
  flat_map (fun a => if c a then [g a] else []) l = l.
Proof.
  induction l as [|a l IH]; intros H; simpl; auto.
  destruct (H a (or_introl eq_refl)) as [-> ->]. simpl. f_equal. apply IH. intros; apply H; right; assumption.
Qed.

Lemma map_id_in {A} (g : A -> A) (l : list A) : (forall a, In a l -> g a = a) -> map g l = l.
Proof.
  induction l as [|a l IH]; intros H; simpl; auto. rewrite H by (left; reflexivity).
  f_equal. apply IH. intros; apply H; right; assumption.
Qed.

Lemma dd_region_id_aux L rg :
  (forall b y, In b rg -> In y (b_ops b) -> ddc_op L y = false -> dd_op L y = y) ->
  ddc_region L rg = false -> dd_region L rg = rg.
Proof.
  intros Hop Hd.
  assert (Hblk : forall bi b, nth_error rg bi = Some b -> dd_block L b = b).
  { intros bi b Hn. destruct (ddc_false_inv L rg Hd bi b Hn) as [_ Hops].
    unfold dd_block. destruct b as [i a ops]. simpl in *. f_equal.
    apply flat_map_keep_all. intros y Hy. destruct (Hops y Hy) as [Hl Hregs]. split; auto.
    apply (Hop _ y (nth_error_In _ _ Hn)); auto.
    rewrite ddc_op_eq. destruct (existsb (ddc_region L) (o_regs y)) eqn:Ex; auto.
    apply existsb_exists in Ex. destruct Ex as (rg1 & Hrg1 & Hd1). rewrite (Hregs rg1 Hrg1) in Hd1. discriminate. }
  destruct rg as [|first rest]; [reflexivity|]. unfold dd_region. f_equal.
  - apply (Hblk 0 first). reflexivity.
  - apply flat_map_keep_all. intros b Hb. destruct (In_nth_error _ _ Hb) as [k Hk].
    destruct (ddc_false_inv L (first :: rest) Hd (S k) b Hk) as [[Hz|Hl] _]; [discriminate|].
    split; auto. apply (Hblk (S k) b Hk).
Qed.

Lemma dd_op_id L o : ddc_op L o = false -> dd_op L o = o.
Proof.
  induction o as [o IH] using op_ind2. intros Hd. rewrite dd_op_eq.
  rewrite map_id_in; [destruct o; reflexivity|].
  intros rg Hrg. apply dd_region_id_aux; [intros b y Hb Hy; apply (IH rg b y Hrg Hb Hy)|].
  rewrite ddc_op_eq in Hd. exact (existsb_false _ _ Hd rg Hrg).
Qed.

Lemma dd_region_id L rg : ddc_region L rg = false -> dd_region L rg = rg.
Proof. apply dd_region_id_aux. intros b y _ _. apply dd_op_id. Qed.

(* C13_complete_partial: a run of region_dce that reports no change returns the IR unchanged and
   the IR contains no trivially dead operation and no unreachable block *)
Theorem complete_if_unchanged r r' :
  NoDup (ids (walk_region r)) -> region_dce r = Some (r', false) -> r' = r /\ complete r.
Proof.
  intros Hnd E.
  destruct (region_dce_inv r r' false E) as (st & Hfin & -> & Hd). symmetry in Hd.
  split; [apply dd_region_id; exact Hd|]. split.
  - intros o Ho. destruct (walk_region_rsub r o Ho) as (rg & bi & b & Hsub & Hn & Hob).
    destruct (ddc_rsub _ _ _ Hsub Hd) as [Hkin Hd'].
    destruct (ddc_false_inv _ rg Hd' bi b Hn) as [_ Hops]. destruct (Hops o Hob) as [Hl _].
    unfold Lof in Hl. apply memb_In in Hl.
    destruct (g_just _ _ _ (f_good _ _ _ Hfin) _ Hl) as (t & Ht & Eid & Hwhy).
    assert (t = o) by (eapply NoDup_ids_inj; eauto; apply trav_incl_walk; exact Ht). subst t.
    unfold is_trivially_dead. destruct Hwhy as [Hw|(u & Hu & (v & Hv & Ha) & _)]; [rewrite Hw; apply andb_false_r|].
    apply andb_false_iff. left.
    destruct (forallb (unused (walk_region r)) (o_res o)) eqn:Ef; auto.
    assert (Hun := proj1 (forallb_forall _ _) Ef v Hv). unfold unused in Hun.
    assert (Hin : In u (users (walk_region r) v)) by (apply users_In; auto).
    destruct (users (walk_region r) v); [destruct Hin|discriminate].
  - intros rg Hsub bi b Hn. destruct (ddc_rsub _ _ _ Hsub Hd) as [Hkin Hd'].
    destruct (ddc_false_inv _ rg Hd' bi b Hn) as [Hk _].
    eapply live_block_reachable; eauto. eapply kin_hin; eauto. apply hin_refl.
Qed.

Definition cnt (l : list op) (i : nat) : nat := count_occ Nat.eq_dec (ids l) i.

Lemma cnt_app l1 l2 i : cnt (l1 ++ l2) i = cnt l1 i + cnt l2 i.
Proof. unfold cnt. rewrite ids_app. apply count_occ_app. Qed.

Lemma cnt_flat_map {A} (w : A -> list op) l i : cnt (flat_map w l) i = list_sum (map (fun a => cnt (w a) i) l).
Proof. induction l as [|a l IH]; simpl; [reflexivity|]. rewrite cnt_app, IH. reflexivity. Qed.

Lemma cnt_dd_region_aux L rg i :
  (forall b y, In b rg -> In y (b_ops b) -> cnt (walk_op (dd_op L y)) i <= cnt (walk_op y) i) ->
  cnt (walk_region (dd_region L rg)) i <= cnt (walk_region rg) i.
Proof.
  intros Hop.
  assert (Hblk : forall b, In b rg -> cnt (walk_block (dd_block L b)) i <= cnt (walk_block b) i).
  { intros b Hb. unfold walk_block. rewrite dd_block_ops, !cnt_flat_map.
    apply (sum_cond_le (fun x => L (o_id x)) (dd_op L)). intros y Hy. apply (Hop b y Hb Hy). }
  destruct rg as [|first rest]; [simpl; lia|].
  unfold dd_region, walk_region. simpl. rewrite !cnt_app.
  assert (H1 := Hblk first (or_introl eq_refl)).
  assert (H2 : cnt (flat_map walk_block (flat_map (fun b => if has_live L b then [dd_block L b] else []) rest)) i
               <= cnt (flat_map walk_block rest) i).
  { rewrite !cnt_flat_map. apply (sum_cond_le (has_live L) (dd_block L)). intros b Hb. apply Hblk. right; exact Hb. }
  lia.
Qed.

Lemma cnt_dd_op L o i : cnt (walk_op (dd_op L o)) i <= cnt (walk_op o) i.
Proof.
  induction o as [o IH] using op_ind2. rewrite dd_op_eq, (walk_op_eq o), walk_op_eq.
  change (o_regs (set_regs o (map (dd_region L) (o_regs o)))) with (map (dd_region L) (o_regs o)).
  assert (Hr : cnt (flat_map walk_region (map (dd_region L) (o_regs o))) i <= cnt (flat_map walk_region (o_regs o)) i).
  { rewrite !cnt_flat_map. apply (sum_map_le (dd_region L)).
    intros rg Hrg. apply cnt_dd_region_aux. intros b y Hb Hy. apply (IH rg b y Hrg Hb Hy). }
  unfold cnt in *. simpl. change (o_id (set_regs o (map (dd_region L) (o_regs o)))) with (o_id o).
  destruct (Nat.eq_dec (o_id o) i); lia.
Qed.

Lemma dd_region_nodup L rg : NoDup (ids (walk_region rg)) -> NoDup (ids (walk_region (dd_region L rg))).
Proof.
  intros Hn. apply (NoDup_count_occ Nat.eq_dec). intros i.
  assert (H1 := proj1 (NoDup_count_occ Nat.eq_dec _) Hn i).
  assert (H2 : cnt (walk_region (dd_region L rg)) i <= cnt (walk_region rg) i).
  { apply cnt_dd_region_aux. intros b y _ _. apply cnt_dd_op. }
  unfold cnt in H2. lia.
Qed.

Theorem region_dce_nodup r r' ch :
  NoDup (ids (walk_region r)) -> region_dce r = Some (r', ch) -> NoDup (ids (walk_region r')).
Proof.
  intros Hnd E. destruct (region_dce_inv r r' ch E) as (st & _ & -> & _). apply dd_region_nodup. exact Hnd.
Qed.

(* C13_complete_iterated: region_dce iterated until it reports no change (the pass since 12db68a)
   leaves no trivially dead operation and no unreachable block *)
Theorem dce_iter_complete fuel : forall r r'',
  NoDup (ids (walk_region r)) -> dce_iter fuel r = Some r'' -> complete r''.
Proof.
  induction fuel as [|f IH]; intros r r'' Hnd E; simpl in E; [discriminate|].
  destruct (region_dce r) as [[r' ch]|] eqn:Er; [|discriminate].
  destruct ch.
  - eapply IH; [|exact E]. eapply region_dce_nodup; eauto.
  - inversion E; subst r''. destruct (complete_if_unchanged r r' Hnd Er) as [-> Hc]. exact Hc.
Qed.

Theorem region_dce_total r : exists r' ch, region_dce r = Some (r', ch).
Proof. destruct (region_dce_unfold r) as (st & _ & _ & E). eauto. Qed.

Theorem terminates r :
  (exists st, liveness r = Some st /\ ls_err st = false) /\ exists r' ch, region_dce r = Some (r', ch).
Proof.
  split; [|apply region_dce_total].
  destruct (liveness_total r) as (st & E & _ & He). exists st. split; assumption.
Qed.

(* ONE run of region_dce (all the pass did before 12db68a) is not complete: two witnesses *)

(* %0 = pure ; %1 = pure { %2 = pure(%0) ; term(%2) } ; term
   the nested terminator keeps %2 and hence %0 alive, then op 1 is deleted with its region *)
Definition witness_nested_use : region :=
  [Blk 0 [] [Op 0 [0] [] [] [] false false (Some []) false;
             Op 1 [1] [] [] [[Blk 1 [] [Op 2 [2] [0] [] [] false false (Some []) false;
                                        Op 3 [] [2] [] [] true false None false]]]
                false false (Some []) false;
             Op 4 [] [] [] [] true false None false]].

(* %0 = rec { ^1: pure-term ; ^2 (unreachable): write ; term } ; term
   op 0 is live because of the write in the unreachable block, which is then deleted *)
Definition witness_unreachable_effect : region :=
  [Blk 0 [] [Op 0 [0] [] [] [[Blk 1 [] [Op 1 [] [] [] [] true false (Some []) false];
                              Blk 2 [] [Op 2 [] [] [] [] false false (Some [EWrite]) false;
                                        Op 3 [] [] [] [] true false None false]]]
                false false None true;
             Op 4 [] [] [] [] true false None false]].

Definition leaves_trivially_dead (r : region) : Prop :=
  exists r' ch o, NoDup (ids (walk_region r)) /\ region_dce r = Some (r', ch) /\ dce_pass r = Some r' /\
                  In o (walk_region r') /\ is_trivially_dead (walk_region r') o = true.

Theorem complete_refuted :
  leaves_trivially_dead witness_nested_use /\ leaves_trivially_dead witness_unreachable_effect.
Proof.
  split.
  - exists [Blk 0 [] [Op 0 [0] [] [] [] false false (Some []) false; Op 4 [] [] [] [] true false None false]],
           true, (Op 0 [0] [] [] [] false false (Some []) false).
    split; [|split; [vm_compute; reflexivity|split; [vm_compute; reflexivity|split; [left; reflexivity|vm_compute; reflexivity]]]].
    vm_compute. repeat (constructor; [simpl; intuition discriminate|]). constructor.
  - exists [Blk 0 [] [Op 0 [0] [] [] [[Blk 1 [] [Op 1 [] [] [] [] true false (Some []) false]]] false false None true;
                      Op 4 [] [] [] [] true false None false]],
           true, (Op 0 [0] [] [] [[Blk 1 [] [Op 1 [] [] [] [] true false (Some []) false]]] false false None true).
    split; [|split; [vm_compute; reflexivity|split; [vm_compute; reflexivity|split; [left; reflexivity|vm_compute; reflexivity]]]].
    vm_compute. repeat (constructor; [simpl; intuition discriminate|]). constructor.
Qed.

(* the iterated pass removes them *)
Example iter_removes_witnesses :
  dce_pass_iter witness_nested_use = Some [Blk 0 [] [Op 4 [] [] [] [] true false None false]] /\
  dce_pass_iter witness_unreachable_effect = Some [Blk 0 [] [Op 4 [] [] [] [] true false None false]].
Proof. vm_compute. split; reflexivity. Qed.
