(* C14/ProofsInt.v -- proofs about the signless integer folders / canonicalization patterns
   (generated model Gen/C14_Arith.v) and the hand models of the other folding passes
   (C14/ModelInt.v) against the bit-pattern semantics C14/SpecInt.v. *)
From Coq Require Import ZArith Bool Lia ZifyBool List.
From XV Require Import C14.Pre Gen.C14_Arith C14.SpecInt C14.ModelInt.
Local Open Scope Z_scope.


Lemma pow2_split : forall w, 1 <= w -> 2 ^ w = 2 * 2 ^ (w - 1).
Proof.
  intros w H. replace w with (Z.succ (w - 1)) at 1 by lia.
  rewrite Z.pow_succ_r by lia. reflexivity.
Qed.

Lemma pow2_pos : forall w, 0 <= w -> 0 < 2 ^ w.
Proof. intros. apply Z.pow_pos_nonneg; lia. Qed.

(* pose the two basic facts about 2^w and 2^(w-1); afterwards lia sees both as atoms *)
Ltac pw w :=
  let H1 := fresh "Hpw" in let H2 := fresh "Hpp" in
  assert (H1 : 2 ^ w = 2 * 2 ^ (w - 1)) by (apply pow2_split; lia);
  assert (H2 : 0 < 2 ^ (w - 1)) by (apply pow2_pos; lia).

Lemma uub_pow : forall w, unsigned_upper_bound w = 2 ^ w.
Proof. intros. unfold unsigned_upper_bound. apply Z.shiftl_1_l. Qed.

Lemma half_pow : forall w, 1 <= w -> Z.shiftr (2 ^ w) 1 = 2 ^ (w - 1).
Proof.
  intros w H. rewrite Z.shiftr_div_pow2 by lia. rewrite (pow2_split w H).
  change (2 ^ 1) with 2. rewrite Z.mul_comm. apply Z.div_mul. lia.
Qed.

Lemma slb_pow : forall w, 1 <= w -> signed_lower_bound w = - 2 ^ (w - 1).
Proof.
  intros w H. unfold signed_lower_bound. rewrite Z.shiftl_1_l, half_pow by assumption. reflexivity.
Qed.

Lemma sub_pow : forall w, 1 <= w -> signed_upper_bound w = 2 ^ (w - 1).
Proof.
  intros w H. unfold signed_upper_bound. rewrite Z.max_l by lia. apply Z.shiftl_1_l.
Qed.


(* `_cf`: closed forms of the generated normalized_value / int_attr / in_signless_range *)
Definition norm_cf (w v : Z) : Z := if 2 ^ (w - 1) <=? v then v - 2 ^ w else v.
Definition in_range_cf (w v : Z) : bool := (- 2 ^ (w - 1) <=? v) && (v <? 2 ^ w).

Lemma normalized_value_cf : forall w v t, 1 <= w ->
  normalized_value w v t =
    if in_range_cf w v then Some (norm_cf w v)
    else if t then Some (norm_cf w (v mod 2 ^ w)) else None.
Proof.
  intros w v t H. unfold normalized_value, signless_value_range, in_range_cf, norm_cf.
  rewrite slb_pow, uub_pow, sub_pow by assumption. cbv zeta.
  destruct ((- 2 ^ (w - 1) <=? v) && (v <? 2 ^ w)); cbn [negb].
  - destruct (2 ^ (w - 1) <=? v); reflexivity.
  - destruct t; cbn [negb]; [|reflexivity].
    destruct (2 ^ (w - 1) <=? v mod 2 ^ w); reflexivity.
Qed.

Lemma int_attr_cf : forall w v t, 1 <= w ->
  int_attr (TInt w) v t =
    if in_range_cf w v then norm_cf w v
    else if t then norm_cf w (v mod 2 ^ w) else v.
Proof.
  intros w v t H. unfold int_attr. rewrite normalized_value_cf by assumption.
  destruct (in_range_cf w v); [reflexivity|]. destruct t; reflexivity.
Qed.

Lemma in_signless_range_cf : forall w v, 1 <= w -> in_signless_range w v = in_range_cf w v.
Proof.
  intros w v H. unfold in_signless_range, signless_value_range, in_range_cf.
  rewrite slb_pow, uub_pow by assumption. reflexivity.
Qed.


(* the stored values an IntegerAttr of width 1 / of width w can hold (normalized_value keeps the signed range) *)
Definition i1_stored (a : Z) : Prop := a = 0 \/ a = -1.
Definition canonical (w a : Z) : Prop := - 2 ^ (w - 1) <= a < 2 ^ (w - 1).

Lemma i1_of_bool : forall c : bool,
  i1_stored (if c then -1 else 0) /\ negb (wrap 1 (if c then -1 else 0) =? 0) = c.
Proof. intros [|]; (split; [unfold i1_stored; tauto|reflexivity]). Qed.

Lemma wrap_small : forall w x, 0 <= x < 2 ^ w -> wrap w x = x.
Proof. intros. unfold wrap. apply Z.mod_small. assumption. Qed.

Lemma wrap_range : forall w x, 0 <= w -> 0 <= wrap w x < 2 ^ w.
Proof. intros. unfold wrap. apply Z.mod_pos_bound. apply pow2_pos; lia. Qed.

Lemma wrap_wrap : forall w x, wrap w (wrap w x) = wrap w x.
Proof. intros. unfold wrap. apply Zmod_mod. Qed.

Lemma wrap_sub_mod : forall w x, wrap w (x - 2 ^ w) = wrap w x.
Proof.
  intros. unfold wrap. replace (x - 2 ^ w) with (x + (-1) * 2 ^ w) by lia.
  apply Z_mod_plus_full.
Qed.

Lemma wrap_add_mod : forall w x, wrap w (x + 2 ^ w) = wrap w x.
Proof.
  intros. unfold wrap. replace (x + 2 ^ w) with (x + 1 * 2 ^ w) by lia.
  apply Z_mod_plus_full.
Qed.

Lemma wrap_0 : forall w, wrap w 0 = 0.
Proof. intros. unfold wrap. apply Zmod_0_l. Qed.

Lemma wrap_1 : forall w, 1 <= w -> wrap w 1 = 1.
Proof. intros w H. apply wrap_small. pw w. lia. Qed.

Lemma wrap_norm_cf : forall w v, wrap w (norm_cf w v) = wrap w v.
Proof.
  intros. unfold norm_cf. destruct (2 ^ (w - 1) <=? v); [apply wrap_sub_mod|reflexivity].
Qed.

Lemma wrap_sgn : forall w x, wrap w (sgn w x) = wrap w x.
Proof.
  intros. unfold sgn. destruct (x <? 2 ^ (w - 1)); [reflexivity|apply wrap_sub_mod].
Qed.

Lemma wrap_sgn_pat : forall w x, pattern_range w x -> wrap w (sgn w x) = x.
Proof. intros. rewrite wrap_sgn. apply wrap_small. assumption. Qed.

Lemma sgn_range : forall w x, 1 <= w -> pattern_range w x -> canonical w (sgn w x).
Proof.
  intros w x H Hx. unfold pattern_range in Hx. unfold canonical, sgn. pw w.
  destruct (x <? 2 ^ (w - 1)) eqn:E; lia.
Qed.

Lemma wrap_canonical : forall w a, 1 <= w -> canonical w a ->
  wrap w a = if a <? 0 then a + 2 ^ w else a.
Proof.
  intros w a H Ha. unfold canonical in Ha. pw w.
  destruct (a <? 0) eqn:E.
  - rewrite <- (wrap_add_mod w a). apply wrap_small. lia.
  - apply wrap_small. lia.
Qed.

Lemma sgn_wrap : forall w a, 1 <= w -> canonical w a -> sgn w (wrap w a) = a.
Proof.
  intros w a H Ha. rewrite wrap_canonical by assumption. unfold canonical in Ha. pw w.
  unfold sgn. destruct (a <? 0) eqn:E.
  - destruct (a + 2 ^ w <? 2 ^ (w - 1)) eqn:E2; lia.
  - destruct (a <? 2 ^ (w - 1)) eqn:E2; lia.
Qed.

Lemma wrap_eqb_canonical : forall w a b, 1 <= w -> canonical w a -> canonical w b ->
  (wrap w a =? wrap w b) = (a =? b).
Proof.
  intros w a b H Ha Hb. destruct (Z.eqb_spec a b) as [->|N].
  - apply Z.eqb_refl.
  - apply Z.eqb_neq. intros E. apply N.
    rewrite <- (sgn_wrap w a H Ha), <- (sgn_wrap w b H Hb), E. reflexivity.
Qed.

Lemma wrap_compare_same_sign : forall w a b, 1 <= w -> canonical w a -> canonical w b ->
  (0 <= a /\ 0 <= b) \/ (a < 0 /\ b < 0) -> (wrap w a ?= wrap w b) = (a ?= b).
Proof.
  intros w a b H Ha Hb S. rewrite !wrap_canonical by assumption.
  destruct S as [[A B]|[A B]].
  - rewrite (proj2 (Z.ltb_ge a 0) A), (proj2 (Z.ltb_ge b 0) B). reflexivity.
  - rewrite (proj2 (Z.ltb_lt a 0) A), (proj2 (Z.ltb_lt b 0) B), !(Z.add_comm _ (2 ^ w)).
    apply Z.add_compare_mono_l.
Qed.


Lemma norm_cf_canonical : forall w v, 1 <= w -> - 2 ^ (w - 1) <= v < 2 ^ w ->
  canonical w (norm_cf w v).
Proof.
  intros w v H Hv. unfold canonical, norm_cf. pw w.
  destruct (2 ^ (w - 1) <=? v) eqn:E; lia.
Qed.

Lemma int_attr_trunc : forall w v, 1 <= w ->
  wrap w (int_attr (TInt w) v true) = wrap w v /\
  - 2 ^ (w - 1) <= int_attr (TInt w) v true < 2 ^ (w - 1).
Proof.
  intros w v H. rewrite int_attr_cf by assumption. pw w.
  destruct (in_range_cf w v) eqn:E.
  - split; [apply wrap_norm_cf|]. apply norm_cf_canonical; [lia|].
    unfold in_range_cf in E. lia.
  - split.
    + rewrite wrap_norm_cf. apply (wrap_wrap w v).
    + apply norm_cf_canonical; [lia|].
      pose proof (wrap_range w v ltac:(lia)) as R. unfold wrap in R. lia.
Qed.

Lemma int_attr_notrunc : forall w v, 1 <= w -> - 2 ^ (w - 1) <= v < 2 ^ w ->
  wrap w (int_attr (TInt w) v false) = wrap w v /\
  - 2 ^ (w - 1) <= int_attr (TInt w) v false < 2 ^ (w - 1).
Proof.
  intros w v H Hv. rewrite int_attr_cf by assumption.
  assert (E : in_range_cf w v = true) by (unfold in_range_cf; lia).
  rewrite E. split; [apply wrap_norm_cf|]. apply norm_cf_canonical; assumption.
Qed.

Lemma int_attr_index : forall v t, int_attr TIndex v t = v.
Proof. reflexivity. Qed.

Lemma int_attr_canonical : forall w v t, 1 <= w -> canonical w v -> int_attr (TInt w) v t = v.
Proof.
  intros w v t H Hv. unfold canonical in Hv. rewrite int_attr_cf by assumption. pw w.
  assert (E : in_range_cf w v = true) by (unfold in_range_cf; lia).
  rewrite E. unfold norm_cf. destruct (2 ^ (w - 1) <=? v) eqn:E2; lia.
Qed.

Lemma wrap_int_attr_trunc : forall ty w v, 1 <= w -> ty_width ty w ->
  wrap w (int_attr ty v true) = wrap w v.
Proof.
  intros ty w v H Hty. destruct ty as [w'|]; simpl in Hty.
  - subst w'. apply int_attr_trunc. assumption.
  - reflexivity.
Qed.

Lemma wrap_int_attr_one : forall ty w, 1 <= w -> ty_width ty w ->
  wrap w (int_attr ty 1 false) = 1.
Proof.
  intros ty w H Hty. destruct ty as [w'|]; simpl in Hty.
  - subst w'. pw w. destruct (int_attr_notrunc w 1 H ltac:(lia)) as [E _].
    rewrite E. apply wrap_1. assumption.
  - simpl. apply wrap_1. assumption.
Qed.


Lemma bitop_mod : forall (op : Z -> Z -> Z) (f : bool -> bool -> bool),
  (forall a b n, Z.testbit (op a b) n = f (Z.testbit a n) (Z.testbit b n)) -> f false false = false ->
  forall w a b, 0 <= w -> op (a mod 2 ^ w) (b mod 2 ^ w) = (op a b) mod 2 ^ w.
Proof.
  intros op f Hop Hf w a b H. apply Z.bits_inj'. intros n Hn. rewrite Hop.
  destruct (Z.lt_ge_cases n w).
  - rewrite !Z.mod_pow2_bits_low by lia. symmetry. apply Hop.
  - rewrite !Z.mod_pow2_bits_high by lia. exact Hf.
Qed.

Lemma fold_int : forall o w a b v, 1 <= w -> py_operation o a b = Some v ->
  sem o w (wrap w a) (wrap w b) = Some (wrap w v).
Proof.
  intros o w a b v H Hop.
  destruct o; simpl in Hop; try discriminate; injection Hop as <-; unfold sem, wrap; f_equal.
  - symmetry. apply Zplus_mod.
  - symmetry. apply Zmult_mod.
  - symmetry. apply Zminus_mod.
  - apply (bitop_mod Z.land andb Z.land_spec); [reflexivity|lia].
  - apply (bitop_mod Z.lor orb Z.lor_spec); [reflexivity|lia].
  - apply (bitop_mod Z.lxor xorb Z.lxor_spec); [reflexivity|lia].
Qed.


Lemma sem_commutative : forall o w x y, commutative o = true -> sem o w x y = sem o w y x.
Proof.
  intros o w x y H. destruct o; simpl in H; try discriminate; unfold sem.
  - rewrite Z.add_comm. reflexivity.
  - rewrite Z.mul_comm. reflexivity.
  - rewrite Z.land_comm. reflexivity.
  - rewrite Z.lor_comm. reflexivity.
  - rewrite Z.lxor_comm. reflexivity.
Qed.

Lemma sgn_one : forall w, 2 <= w -> sgn w 1 = 1.
Proof.
  intros w H. unfold sgn.
  assert (2 ^ (w - 1) = 2 * 2 ^ (w - 1 - 1)) by (apply pow2_split; lia).
  assert (0 < 2 ^ (w - 1 - 1)) by (apply pow2_pos; lia).
  destruct (1 <? 2 ^ (w - 1)) eqn:E; lia.
Qed.

Lemma pattern_range_1 : forall x, pattern_range 1 x -> x = 0 \/ x = 1.
Proof. unfold pattern_range. intros x H. change (2 ^ 1) with 2 in H. lia. Qed.

Lemma sdiv_undef_one : forall w sx, sdiv_undef w sx 1 = false.
Proof. intros. unfold sdiv_undef. rewrite andb_false_r. reflexivity. Qed.

(* At type index the stored value is the bit pattern, so `is_right_unit o TIndex` is the test read on
   patterns.  The operations that test for the attribute 1 : x op 1 = x *)
Lemma right_unit_one : forall o w x r, 1 <= w -> pattern_range w x ->
  is_right_unit o TIndex 1 = true -> sem o w x 1 = Some r -> r = x.
Proof.
  intros o w x r H Hx Hu Hs.
  destruct (Z.eq_dec w 1) as [->|Hw].
  - (* at i1 the pattern 1 reads -1 as a signed number: the two patterns are checked one by one *)
    apply pattern_range_1 in Hx.
    destruct Hx as [-> | ->]; destruct o; try discriminate Hu; vm_compute in Hs; congruence.
  - assert (S1 : sgn w 1 = 1) by (apply sgn_one; lia).
    destruct o; try discriminate Hu; unfold sem in Hs;
      rewrite ?S1, ?sdiv_undef_one in Hs; simpl in Hs; injection Hs as <-.
    + rewrite Z.mul_1_r. apply wrap_small, Hx.
    + apply Z.div_1_r.
    + rewrite Z.quot_1_r. apply wrap_sgn_pat, Hx.
    + rewrite Z.div_1_r. apply wrap_sgn_pat, Hx.
    + rewrite Z.div_1_r, Z.opp_involutive. apply wrap_sgn_pat, Hx.
    + rewrite Z.div_1_r, Z.opp_involutive. apply wrap_small, Hx.
Qed.

(* the operations that test for the attribute 0 : x op 0 = x *)
Lemma right_unit_zero : forall o w x r, 1 <= w -> pattern_range w x ->
  is_right_unit o TIndex 0 = true -> sem o w x 0 = Some r -> r = x.
Proof.
  intros o w x r H Hx Hu Hs.
  assert (W : (w <=? 0) = false) by lia.
  destruct o; try discriminate Hu; unfold sem in Hs; rewrite ?W in Hs; injection Hs as <-.
  - rewrite Z.add_0_r. apply wrap_small, Hx.
  - rewrite Z.sub_0_r. apply wrap_small, Hx.
  - apply Z.lor_0_r.
  - apply Z.lxor_0_r.
  - (* a shift by 0 is the identity by computation *)
    apply wrap_small, Hx.
  - reflexivity.
  - apply wrap_sgn_pat, Hx.
Qed.

Lemma is_right_unit_pattern : forall o ty w a, 1 <= w -> ty_width ty w -> is_right_unit o ty a = true ->
  (wrap w a = 0 \/ wrap w a = 1) /\ is_right_unit o TIndex (wrap w a) = true.
Proof.
  intros o ty w a H Hty Hu.
  destruct o; simpl in Hu; try discriminate Hu; apply Z.eqb_eq in Hu; subst a;
    rewrite ?wrap_0, ?(wrap_int_attr_one ty w H Hty); split; auto.
Qed.

Lemma right_unit : forall o ty w a x r, 1 <= w -> ty_width ty w -> pattern_range w x ->
  is_right_unit o ty a = true -> sem o w x (wrap w a) = Some r -> r = x.
Proof.
  intros o ty w a x r H Hty Hx Hu Hs.
  destruct (is_right_unit_pattern o ty w a H Hty Hu) as [[E|E] U]; rewrite E in U, Hs.
  - exact (right_unit_zero o w x r H Hx U Hs).
  - exact (right_unit_one o w x r H Hx U Hs).
Qed.

Lemma left_unit : forall o ty w a x r, 1 <= w -> ty_width ty w -> pattern_range w x ->
  commutative o = true -> is_right_unit o ty a = true -> sem o w (wrap w a) x = Some r -> r = x.
Proof.
  intros o ty w a x r H Hty Hx Hc Hu Hs. rewrite sem_commutative in Hs by assumption.
  eapply right_unit; eassumption.
Qed.

Lemma right_zero : forall o ty w a x r, 1 <= w -> ty_width ty w -> pattern_range w x ->
  is_right_zero o ty a = true -> sem o w x (wrap w a) = Some r -> r = wrap w a.
Proof.
  intros o ty w a x r H Hty Hx Hz Hs.
  destruct o; simpl in Hz; try discriminate; apply Z.eqb_eq in Hz; subst a;
    rewrite wrap_0 in *; unfold sem in Hs; injection Hs as <-.
  - rewrite Z.mul_0_r. apply wrap_0.
  - apply Z.land_0_r.
Qed.


(* the part of `fold` after the constant-constant case (it occurs three times in the if-tree) *)
Definition fold_tail (o : binop) (ty : ity) (l r : option Z) : outcome :=
  if issome r && is_right_unit o ty (oget r) then ReplLhs
  else if negb (commutative o) then NoChange
  else if issome l && is_right_unit o ty (oget l) then ReplRhs else NoChange.

Lemma fold_unfold : forall o ty l r,
  fold o ty l r =
  match l, r with
  | Some a, Some b =>
      match py_operation o a b with
      | Some v => ReplConst (int_attr ty v true)
      | None => fold_tail o ty l r
      end
  | _, _ => fold_tail o ty l r
  end.
Proof.
  intros o ty l r. unfold fold, fold_tail.
  destruct l as [a|], r as [b|]; simpl; try reflexivity.
  destruct (py_operation o a b); reflexivity.
Qed.

Lemma fold_tail_sound : forall o ty w lhs_c rhs_c x y r, 1 <= w -> ty_width ty w ->
  pattern_range w x -> pattern_range w y -> is_const w lhs_c x -> is_const w rhs_c y ->
  sem o w x y = Some r ->
  fold_tail o ty lhs_c rhs_c = NoChange \/ out_val w x y 0 (fold_tail o ty lhs_c rhs_c) = Some r.
Proof.
  intros o ty w l rc x y r H Hty Hx Hy Hl Hr Hs. unfold fold_tail.
  destruct (issome rc && is_right_unit o ty (oget rc)) eqn:E1.
  - right. apply andb_prop in E1. destruct E1 as [E0 E1].
    destruct rc as [b|]; [|discriminate]. simpl in *. subst y.
    f_equal. symmetry. eapply right_unit; eassumption.
  - destruct (commutative o) eqn:Ec; simpl; [|left; reflexivity].
    destruct (issome l && is_right_unit o ty (oget l)) eqn:E2; [|left; reflexivity].
    right. apply andb_prop in E2. destruct E2 as [E0 E2].
    destruct l as [a|]; [|discriminate]. simpl in *. subst x.
    f_equal. symmetry. eapply left_unit; eassumption.
Qed.

Lemma const_const_sound : forall o ty w a b v r, 1 <= w -> ty_width ty w ->
  py_operation o a b = Some v -> sem o w (wrap w a) (wrap w b) = Some r ->
  wrap w (int_attr ty v true) = r.
Proof.
  intros o ty w a b v r H Hty Hop Hs.
  rewrite (fold_int o w a b v H Hop) in Hs. injection Hs as <-.
  apply wrap_int_attr_trunc; assumption.
Qed.

Lemma fold_sound : forall o ty w lhs_c rhs_c x y r, 1 <= w -> ty_width ty w ->
  pattern_range w x -> pattern_range w y -> is_const w lhs_c x -> is_const w rhs_c y ->
  sem o w x y = Some r ->
  fold o ty lhs_c rhs_c = NoChange \/ out_val w x y 0 (fold o ty lhs_c rhs_c) = Some r.
Proof.
  intros o ty w l rc x y r H Hty Hx Hy Hl Hr Hs. rewrite fold_unfold.
  pose proof (fold_tail_sound o ty w l rc x y r H Hty Hx Hy Hl Hr Hs) as T.
  destruct l as [a|]; [|exact T]. destruct rc as [b|]; [|exact T].
  destruct (py_operation o a b) as [v|] eqn:Eop; [|exact T].
  right. simpl in Hl, Hr. subst x y. simpl. f_equal.
  eapply const_const_sound; eassumption.
Qed.

Lemma zero_or_unit_right_sound : forall o ty w rhs_c x y r, 1 <= w -> ty_width ty w ->
  pattern_range w x -> pattern_range w y -> is_const w rhs_c y -> sem o w x y = Some r ->
  pat_zero_or_unit_right o ty rhs_c = NoChange \/ out_val w x y 0 (pat_zero_or_unit_right o ty rhs_c) = Some r.
Proof.
  intros o ty w rc x y r H Hty Hx Hy Hr Hs. unfold pat_zero_or_unit_right.
  destruct rc as [b|]; simpl; [|left; reflexivity]. simpl in Hr. subst y.
  destruct (is_right_zero o ty b) eqn:Ez.
  - right. simpl. f_equal. symmetry. apply (right_zero o ty w b x r); assumption.
  - destruct (is_right_unit o ty b) eqn:Eu; [|left; reflexivity].
    right. simpl. f_equal. symmetry. apply (right_unit o ty w b x r); assumption.
Qed.

Lemma constant_prop_sound : forall o ty w lhs_c rhs_c x y r, 1 <= w -> ty_width ty w ->
  pattern_range w x -> pattern_range w y -> is_const w lhs_c x -> is_const w rhs_c y ->
  sem o w x y = Some r ->
  pat_constant_prop o ty lhs_c rhs_c = NoChange \/
  (pat_constant_prop o ty lhs_c rhs_c = NewSwapped /\ sem o w y x = Some r) \/
  out_val w x y 0 (pat_constant_prop o ty lhs_c rhs_c) = Some r.
Proof.
  intros o ty w l rc x y r H Hty Hx Hy Hl Hr Hs. unfold pat_constant_prop.
  destruct l as [a|]; simpl; [|left; reflexivity].
  destruct rc as [b|]; simpl.
  - destruct (py_operation o a b) as [v|] eqn:Eop; simpl; [|left; reflexivity].
    right. right. simpl in Hl, Hr. subst x y. f_equal.
    eapply const_const_sound; eassumption.
  - destruct (commutative o) eqn:Ec; simpl; [|left; reflexivity].
    right. left. split; [reflexivity|]. rewrite sem_commutative by assumption. exact Hs.
Qed.


Lemma select_const_sound : forall a x y, i1_stored a ->
  out_val 1 x y (wrap 1 a) (pat_select_const (Some a)) = Some (select_sem (wrap 1 a) x y).
Proof. intros a x y [-> | ->]; reflexivity. Qed.

Lemma select_const_nochange : pat_select_const None = NoChange.
Proof. reflexivity. Qed.

Lemma ity_eqb_true : forall a b, ity_eqb a b = true -> a = b.
Proof.
  intros [x|] [y|]; simpl; intros E; try discriminate; [|reflexivity].
  apply Z.eqb_eq in E. subst. reflexivity.
Qed.

Lemma select_true_false_sound : forall ty l r c, i1_stored l -> i1_stored r -> (c = 0 \/ c = 1) ->
  let o := pat_select_true_false ty (Some l) (Some r) in
  let s := select_sem c (wrap 1 l) (wrap 1 r) in
  o = NoChange \/ (o = ReplCond /\ s = c) \/ (o = NewXoriCondRhs /\ ty = TInt 1 /\ s = Z.lxor c (wrap 1 r)).
Proof.
  intros ty l r c Hl Hr Hc. cbv zeta. unfold pat_select_true_false.
  destruct (ity_eqb ty (TInt 1)) eqn:Ety; simpl; [|left; reflexivity].
  apply ity_eqb_true in Ety.
  destruct Hl as [-> | ->], Hr as [-> | ->]; simpl.
  - left; reflexivity.
  - right; right. split; [reflexivity|]. split; [exact Ety|]. destruct Hc as [-> | ->]; reflexivity.
  - right; left. split; [reflexivity|]. destruct Hc as [-> | ->]; reflexivity.
  - left; reflexivity.
Qed.

Lemma select_true_false_nochange : forall ty l r, (l = None \/ r = None) -> pat_select_true_false ty l r = NoChange.
Proof.
  intros ty l r H. unfold pat_select_true_false.
  destruct (ity_eqb ty (TInt 1)); simpl; [|reflexivity].
  destruct H as [-> | ->]; simpl; [reflexivity|]. rewrite orb_true_r. reflexivity.
Qed.

Lemma select_same_sound : forall c x, out_val 1 x x c (pat_select_same true) = Some (select_sem c x x)
                                   /\ pat_select_same false = NoChange.
Proof.
  intros c x. split; [|reflexivity]. simpl. unfold select_sem. destruct (c =? 0); reflexivity.
Qed.

Lemma cmpi_sem_pred : forall pred w x y b, cmpi_sem pred w x y = Some b ->
  pred = 0 \/ pred = 1 \/ pred = 2 \/ pred = 3 \/ pred = 4 \/ pred = 5 \/ pred = 6 \/ pred = 7 \/
  pred = 8 \/ pred = 9.
Proof.
  intros pred w x y b H. unfold cmpi_sem in H.
  destruct pred as [|p|p]; [lia| |discriminate].
  do 4 (try (destruct p as [p|p|]; try discriminate H)); lia.
Qed.

Lemma cmpi_equal_operands_sound : forall pred w x b, 1 <= w -> cmpi_sem pred w x x = Some b ->
  exists v, pat_cmpi_equal_operands true pred = ReplConst v /\ i1_stored v /\ (negb (wrap 1 v =? 0)) = b.
Proof.
  intros pred w x b H Hs. exists (if b then -1 else 0). split; [|apply i1_of_bool].
  pose proof (cmpi_sem_pred _ _ _ _ _ Hs) as Hp. unfold cmpi_sem in Hs.
  destruct Hp as [->|[->|[->|[->|[->|[->|[->|[->|[->| ->]]]]]]]]]; injection Hs as <-;
    rewrite ?Z.eqb_refl, ?Z.ltb_irrefl, ?Z.leb_refl; reflexivity.
Qed.

Lemma cmpi_equal_operands_nochange : forall pred, pat_cmpi_equal_operands false pred = NoChange.
Proof. reflexivity. Qed.

Lemma fold_tail_no_conflict : forall o ty l r, fold_tail o ty l r <> Conflict.
Proof.
  intros. unfold fold_tail.
  destruct (issome r && _); [discriminate|]. destruct (negb _); [discriminate|].
  destruct (issome l && _); discriminate.
Qed.

Lemma no_conflict : forall o ty l r c s p,
  fold o ty l r <> Conflict /\ pat_zero_or_unit_right o ty r <> Conflict /\
  pat_constant_prop o ty l r <> Conflict /\ pat_select_const c <> Conflict /\
  pat_select_true_false ty l r <> Conflict /\ pat_select_same s <> Conflict /\
  pat_cmpi_equal_operands s p <> Conflict.
Proof.
  intros o ty l r c s p. repeat split.
  - rewrite fold_unfold. pose proof (fold_tail_no_conflict o ty l r) as T.
    destruct l; [|exact T]. destruct r; [|exact T].
    destruct (py_operation o z z0); [discriminate|exact T].
  - unfold pat_zero_or_unit_right. destruct (isnone r); [discriminate|].
    destruct (is_right_zero _ _ _); [discriminate|].
    destruct (is_right_unit _ _ _); discriminate.
  - unfold pat_constant_prop. destruct (isnone l); [discriminate|].
    destruct (isnone r).
    + destruct (commutative o); discriminate.
    + destruct (isnone _); discriminate.
  - unfold pat_select_const. destruct (isnone c); [discriminate|].
    destruct (negb _); discriminate.
  - unfold pat_select_true_false. destruct (negb _); [discriminate|].
    destruct (isnone l || isnone r); [discriminate|].
    destruct (oget l =? 0), (oget r =? 0); discriminate.
  - destruct s; discriminate.
  - destruct s; discriminate.
Qed.


Lemma to_signed_cf : forall w z, 1 <= w ->
  to_signed z w = (z + 2 ^ (w - 1)) mod 2 ^ w - 2 ^ (w - 1).
Proof. intros w z H. unfold to_signed. rewrite uub_pow, half_pow by assumption. reflexivity. Qed.

Lemma to_signed_canonical : forall w z, 1 <= w -> canonical w (to_signed z w).
Proof.
  intros w z H. rewrite to_signed_cf by assumption. unfold canonical. pw w.
  pose proof (Z.mod_pos_bound (z + 2 ^ (w - 1)) (2 ^ w) ltac:(lia)). lia.
Qed.

Lemma to_signed_id : forall w a, 1 <= w -> canonical w a -> to_signed a w = a.
Proof.
  intros w a H Ha. rewrite to_signed_cf by assumption. unfold canonical in Ha. pw w.
  rewrite Z.mod_small by lia. lia.
Qed.

Lemma wrap_to_signed : forall w z, 1 <= w -> wrap w (to_signed z w) = wrap w z.
Proof.
  intros w z H. rewrite to_signed_cf by assumption. unfold wrap.
  rewrite Zminus_mod_idemp_l. f_equal. lia.
Qed.

Lemma in_range_canonical : forall w v, 1 <= w -> canonical w v -> in_range_cf w v = true.
Proof. intros w v H Hv. unfold canonical in Hv. unfold in_range_cf. pw w. lia. Qed.

Lemma checked_attr_old_canonical : forall w v, 1 <= w -> canonical w v ->
  checked_attr_old (TInt w) v = Folded v.
Proof.
  intros w v H Hv. unfold checked_attr_old.
  rewrite in_signless_range_cf, in_range_canonical by assumption.
  rewrite int_attr_canonical by assumption. reflexivity.
Qed.

Lemma checked_attr_old_folded : forall w z v, 1 <= w -> checked_attr_old (TInt w) z = Folded v ->
  wrap w v = wrap w z.
Proof.
  intros w z v H E. unfold checked_attr_old in E.
  destruct (in_signless_range w z) eqn:R; [|discriminate]. injection E as <-.
  rewrite in_signless_range_cf in R by assumption. unfold in_range_cf in R.
  apply int_attr_notrunc; lia.
Qed.

Lemma checked_attr_old_raised : forall w z,
  (exists e, checked_attr_old (TInt w) z = Raised e) <-> in_signless_range w z = false.
Proof.
  intros w z. unfold checked_attr_old. destruct (in_signless_range w z); split.
  - intros [e E]. discriminate.
  - discriminate.
  - reflexivity.
  - intros _. eexists. reflexivity.
Qed.

Lemma cfi_old_arith : forall o w a b v, 1 <= w -> canonical w a -> canonical w b ->
  py_operation o a b = Some v -> cfi_binop_old o (TInt w) a b = Folded (to_signed v w).
Proof.
  intros o w a b v H Ha Hb Hop.
  destruct o; simpl in Hop; try discriminate; injection Hop as <-;
    unfold cfi_binop_old; cbn [pure_trait negb width_of interp_run_old interp_impl];
    rewrite (to_signed_id w a), (to_signed_id w b) by assumption;
    apply checked_attr_old_canonical; try assumption; apply to_signed_canonical; assumption.
Qed.

Lemma cfi_old_shli : forall ty a b, cfi_binop_old ShLIOp ty a b =
  if b >=? 0 then checked_attr_old ty (Z.shiftl a b) else Raised EXC_Assertion.
Proof. intros. unfold cfi_binop_old. cbn [pure_trait negb interp_run_old interp_impl]. destruct (b >=? 0); reflexivity. Qed.

Lemma cfi_old_shrsi : forall ty a b, cfi_binop_old ShRSIOp ty a b =
  if b >=? 0 then checked_attr_old ty (Z.shiftr a b) else Raised EXC_Assertion.
Proof. intros. unfold cfi_binop_old. cbn [pure_trait negb interp_run_old interp_impl]. destruct (b >=? 0); reflexivity. Qed.

Lemma cfi_old_remsi : forall ty a b, cfi_binop_old RemSIOp ty a b =
  if negb (b =? 0) then checked_attr_old ty (a - trunc_div_py a b * b) else Raised EXC_Assertion.
Proof. intros. unfold cfi_binop_old. cbn [pure_trait negb interp_run_old interp_impl]. destruct (negb (b =? 0)); reflexivity. Qed.

Lemma cfi_old_floordivsi : forall ty a b, cfi_binop_old FloorDivSIOp ty a b =
  if negb (b =? 0) then checked_attr_old ty (a / b) else Raised EXC_Assertion.
Proof. intros. unfold cfi_binop_old. cbn [pure_trait negb interp_run_old interp_impl]. destruct (negb (b =? 0)); reflexivity. Qed.

(* Python's emulation of truncating division is Z.quot *)
Lemma trunc_div_py_quot : forall a b, b <> 0 -> trunc_div_py a b = Z.quot a b.
Proof.
  intros a b Hb. unfold trunc_div_py. rewrite Z.quot_div by assumption.
  destruct a as [|p|p].
  - (* both sides are 0 *)
    change (Z.abs 0 / Z.abs b) with 0. destruct (negb _); reflexivity.
  - generalize (Z.abs (Z.pos p) / Z.abs b). intros d.
    destruct b as [|q|q]; [contradiction| |]; cbn [Z.gtb Z.compare Bool.eqb negb Z.sgn]; lia.
  - generalize (Z.abs (Z.neg p) / Z.abs b). intros d.
    destruct b as [|q|q]; [contradiction| |]; cbn [Z.gtb Z.compare Bool.eqb negb Z.sgn]; lia.
Qed.

Lemma py_rem : forall a b, b <> 0 -> a - trunc_div_py a b * b = Z.rem a b.
Proof.
  intros a b Hb. rewrite trunc_div_py_quot by assumption.
  pose proof (Z.quot_rem' a b). lia.
Qed.

Lemma rem_canonical : forall w a b, b <> 0 -> canonical w a -> canonical w (Z.rem a b).
Proof.
  intros w a b Hb Ha. unfold canonical in *.
  assert (L : Z.abs (Z.rem a b) <= Z.abs a).
  { rewrite <- Z.rem_abs by assumption. apply Z.rem_le; lia. }
  (* the remainder has the sign of the dividend *)
  destruct (Z.le_gt_cases 0 a) as [N|N].
  - pose proof (Z.rem_nonneg a b Hb N). lia.
  - pose proof (Z.rem_nonpos a b Hb (Z.lt_le_incl _ _ N)). lia.
Qed.

Lemma div_pos_bounds : forall a d, 0 < d ->
  (0 <= a -> 0 <= a / d <= a) /\ (a < 0 -> a <= a / d < 0).
Proof.
  intros a d Hd. split; intros N.
  - split; [apply Z.div_pos; assumption|]. apply Z.div_le_upper_bound; [assumption|nia].
  - split; [apply Z.div_le_lower_bound; [assumption|nia] | apply Z.div_lt_upper_bound; lia].
Qed.

Lemma div_abs_le : forall a b, b <> 0 -> - Z.abs a <= a / b <= Z.abs a.
Proof.
  assert (P : forall a d, 0 < d -> - Z.abs a <= a / d <= Z.abs a).
  { intros a d Hd. destruct (div_pos_bounds a d Hd) as [P1 P2]. lia. }
  intros a b Hb. destruct (Z.lt_ge_cases 0 b).
  - apply P; lia.
  - rewrite <- Z.div_opp_opp by lia. specialize (P (- a) (- b)).
    rewrite Z.abs_opp in P. apply P. lia.
Qed.

Lemma floordiv_in_range : forall w a b, 1 <= w -> b <> 0 -> canonical w a ->
  in_range_cf w (a / b) = true.
Proof.
  intros w a b H Hb Ha. unfold canonical in Ha. unfold in_range_cf. pw w.
  pose proof (div_abs_le a b Hb). lia.
Qed.

Lemma shiftr_canonical : forall w a b, 0 <= b -> canonical w a -> canonical w (Z.shiftr a b).
Proof.
  intros w a b Hb Ha. unfold canonical in *. rewrite Z.shiftr_div_pow2 by assumption.
  destruct (div_pos_bounds a (2 ^ b) (pow2_pos b Hb)) as [P1 P2]. lia.
Qed.

(* the operations on which the old pass does anything: the six arithmetic folds and the four
   interpreter functions that assert *)
Lemma cfi_old_active : forall o ty a b, cfi_binop_old o ty a b <> Unchanged ->
  py_operation o a b <> None \/ o = ShLIOp \/ o = ShRSIOp \/ o = RemSIOp \/ o = FloorDivSIOp.
Proof.
  intros o ty a b N.
  destruct o; try (left; discriminate); try (exfalso; apply N; reflexivity); auto.
Qed.

Lemma cfi_raises_iff : forall o w a b, 1 <= w -> canonical w a -> canonical w b ->
  ((exists e, cfi_binop_old o (TInt w) a b = Raised e) <->
   (o = ShLIOp /\ (b < 0 \/ in_signless_range w (Z.shiftl a b) = false)) \/
   (o = ShRSIOp /\ b < 0) \/
   ((o = RemSIOp \/ o = FloorDivSIOp) /\ b = 0)).
Proof.
  intros o w a b H Ha Hb. split.
  - intros [e E].
    destruct (cfi_old_active o (TInt w) a b) as [P|[->|[->|[->| ->]]]]; [rewrite E; discriminate|..].
    + (* an arithmetic fold does not raise *)
      destruct (py_operation o a b) as [z|] eqn:Eop; [|contradiction].
      rewrite (cfi_old_arith o w a b z H Ha Hb Eop) in E. discriminate E.
    + left. split; [reflexivity|]. rewrite cfi_old_shli in E.
      destruct (b >=? 0) eqn:Eb; [right|left; lia]. apply checked_attr_old_raised. exists e. exact E.
    + (* a right shift of a canonical value is canonical *)
      right; left. split; [reflexivity|]. rewrite cfi_old_shrsi in E.
      destruct (b >=? 0) eqn:Eb; [|lia].
      rewrite checked_attr_old_canonical in E by first [assumption | apply shiftr_canonical; [lia|assumption]].
      discriminate.
    + (* so is a remainder *)
      right; right. split; [tauto|]. rewrite cfi_old_remsi in E.
      destruct (b =? 0) eqn:Eb; [lia|]. cbn [negb] in E. rewrite py_rem in E by lia.
      rewrite checked_attr_old_canonical in E by first [assumption | apply rem_canonical; [lia|assumption]].
      discriminate.
    + (* a quotient of a canonical value is in range *)
      right; right. split; [tauto|]. rewrite cfi_old_floordivsi in E.
      destruct (b =? 0) eqn:Eb; [lia|]. cbn [negb] in E. unfold checked_attr_old in E.
      rewrite in_signless_range_cf, floordiv_in_range in E by (assumption || lia). discriminate.
  - intros [[-> [B|R]] | [[-> B] | [[->| ->] ->]]].
    + rewrite cfi_old_shli. destruct (b >=? 0) eqn:Eb; [lia|]. eexists. reflexivity.
    + rewrite cfi_old_shli. destruct (b >=? 0); [|eexists; reflexivity]. apply checked_attr_old_raised. exact R.
    + rewrite cfi_old_shrsi. destruct (b >=? 0) eqn:Eb; [lia|]. eexists. reflexivity.
    + rewrite cfi_old_remsi. eexists. reflexivity.
    + rewrite cfi_old_floordivsi. eexists. reflexivity.
Qed.

Lemma wrap_nonneg_canonical : forall w b, 1 <= w -> canonical w b -> 0 <= b -> wrap w b = b.
Proof. intros w b H Hb B. apply wrap_small. unfold canonical in Hb. pw w. lia. Qed.

Lemma shli_sound : forall w a b r, 1 <= w -> canonical w b -> 0 <= b ->
  sem ShLIOp w (wrap w a) (wrap w b) = Some r -> wrap w (Z.shiftl a b) = r.
Proof.
  intros w a b r H Hb B Hs. unfold sem in Hs. rewrite wrap_nonneg_canonical in Hs by assumption.
  destruct (w <=? b); [discriminate|]. injection Hs as <-.
  rewrite !Z.shiftl_mul_pow2 by lia. unfold wrap. rewrite Zmult_mod_idemp_l. reflexivity.
Qed.

Lemma cfi_old_value_sound : forall o w a b v r, 1 <= w -> canonical w a -> canonical w b ->
  cfi_binop_old o (TInt w) a b = Folded v -> sem o w (wrap w a) (wrap w b) = Some r -> wrap w v = r.
Proof.
  intros o w a b v r H Ha Hb E Hs.
  destruct (cfi_old_active o (TInt w) a b) as [P|[->|[->|[->| ->]]]]; [rewrite E; discriminate|..].
  - destruct (py_operation o a b) as [z|] eqn:Eop; [|contradiction].
    rewrite (cfi_old_arith o w a b z H Ha Hb Eop) in E. injection E as <-.
    rewrite (fold_int o w a b z H Eop) in Hs. injection Hs as <-.
    apply wrap_to_signed. assumption.
  - rewrite cfi_old_shli in E. destruct (b >=? 0) eqn:Eb; [|discriminate].
    apply checked_attr_old_folded in E; [|assumption]. rewrite E.
    apply (shli_sound w a b r); (assumption || lia).
  - rewrite cfi_old_shrsi in E. destruct (b >=? 0) eqn:Eb; [|discriminate].
    apply checked_attr_old_folded in E; [|assumption]. rewrite E.
    unfold sem in Hs. rewrite sgn_wrap, wrap_nonneg_canonical in Hs by (assumption || lia).
    destruct (w <=? b); [discriminate|]. injection Hs as <-. reflexivity.
  - rewrite cfi_old_remsi in E. destruct (negb (b =? 0)) eqn:Eb; [|discriminate].
    apply checked_attr_old_folded in E; [|assumption]. rewrite E, py_rem by lia.
    unfold sem in Hs. rewrite !sgn_wrap in Hs by assumption.
    destruct (sdiv_undef w a b); [discriminate|]. injection Hs as <-. reflexivity.
  - rewrite cfi_old_floordivsi in E. destruct (negb (b =? 0)); [|discriminate].
    apply checked_attr_old_folded in E; [|assumption]. rewrite E.
    unfold sem in Hs. rewrite !sgn_wrap in Hs by assumption.
    destruct (sdiv_undef w a b); [discriminate|]. injection Hs as <-. reflexivity.
Qed.

Lemma cfi_index_unchanged_or_raises : forall o a b v, cfi_binop_old o TIndex a b <> Folded v.
Proof.
  intros o a b v. unfold cfi_binop_old.
  destruct (negb (pure_trait o)); [discriminate|].
  destruct (interp_run_old o (width_of TIndex) a b); discriminate.
Qed.

Lemma cfi_shli_refuted : cfi_binop_old ShLIOp (TInt 8) 100 2 = Raised EXC_Verify /\ sem ShLIOp 8 (wrap 8 100) (wrap 8 2) = Some 144.
Proof. split; vm_compute; reflexivity. Qed.

Lemma cfi_floordivsi_refuted : cfi_binop_old FloorDivSIOp (TInt 8) 7 0 = Raised EXC_Assertion.
Proof. vm_compute. reflexivity. Qed.

Lemma cfi_cmpi_old_refuted : cfi_cmpi_old 6 100 (-3) = Folded 0 /\ cmpi_sem 6 8 (wrap 8 100) (wrap 8 (-3)) = Some true.
Proof. split; vm_compute; reflexivity. Qed.

(* convert_to_attr catches the verifier's exception *)
Lemma checked_attr_never_raises : forall ty v e, checked_attr ty v <> Raised e.
Proof.
  intros [w|] v e; [|discriminate]. unfold checked_attr.
  destruct (in_signless_range w v); discriminate.
Qed.

Lemma checked_attr_bool : forall c : bool,
  checked_attr (TInt 1) (if c then 1 else 0) = Folded (if c then -1 else 0).
Proof. intros [|]; vm_compute; reflexivity. Qed.

(* on canonical constants the comparison of the stored values is the MLIR comparison of the patterns:
   eq / ne because the constants are determined by their patterns, the signed predicates because the signed
   reading of the pattern is the constant, the unsigned ones when both constants have the same sign *)
Lemma interp_cmpi_old_sound : forall pred w a b r, 1 <= w -> canonical w a -> canonical w b ->
  (pred < 6 \/ (0 <= a /\ 0 <= b) \/ (a < 0 /\ b < 0)) ->
  cmpi_sem pred w (wrap w a) (wrap w b) = Some r -> interp_cmpi_old pred a b = Some r.
Proof.
  intros pred w a b r H Ha Hb Hp Hs. pose proof (cmpi_sem_pred _ _ _ _ _ Hs) as Hpred.
  rewrite <- Hs. unfold cmpi_sem. rewrite !sgn_wrap by assumption.
  pose proof (wrap_eqb_canonical w a b H Ha Hb) as E.
  assert (C : 6 <= pred -> (wrap w a ?= wrap w b) = (a ?= b)).
  { intros G. apply wrap_compare_same_sign; try assumption. destruct Hp as [Hp|Hp]; [lia|exact Hp]. }
  destruct Hpred as [->|[->|[->|[->|[->|[->|[->|[->|[->| ->]]]]]]]]]; cbn [interp_cmpi_old].
  - rewrite E. reflexivity.
  - rewrite E. reflexivity.
  - reflexivity.
  - reflexivity.
  - rewrite Z.gtb_ltb. reflexivity.
  - rewrite Z.geb_leb. reflexivity.
  - unfold Z.ltb. rewrite C by lia. reflexivity.
  - unfold Z.leb. rewrite C by lia. reflexivity.
  - rewrite <- (Z.gtb_ltb (wrap w a)). unfold Z.gtb. rewrite C by lia. reflexivity.
  - rewrite <- (Z.geb_leb (wrap w a)). unfold Z.geb. rewrite C by lia. reflexivity.
Qed.

Lemma cfi_cmpi_old_sound_partial : forall pred w a b v r, 1 <= w -> canonical w a -> canonical w b ->
  (pred < 6 \/ (0 <= a /\ 0 <= b) \/ (a < 0 /\ b < 0)) ->
  cfi_cmpi_old pred a b = Folded v -> cmpi_sem pred w (wrap w a) (wrap w b) = Some r ->
  i1_stored v /\ negb (wrap 1 v =? 0) = r.
Proof.
  intros pred w a b v r H Ha Hb Hp E Hs. unfold cfi_cmpi_old in E.
  rewrite (interp_cmpi_old_sound pred w a b r H Ha Hb Hp Hs), checked_attr_bool in E.
  injection E as <-. apply i1_of_bool.
Qed.

Lemma cfi_cmpi_old_never_raises : forall pred a b e, cfi_cmpi_old pred a b <> Raised e.
Proof.
  intros pred a b e. unfold cfi_cmpi_old.
  destruct (interp_cmpi_old pred a b) as [c|]; [apply checked_attr_never_raises|discriminate].
Qed.


Lemma tcf_refuted : tcf_addi_old (TInt 8) (OConst 100) OArg = Raised EXC_Other /\
  tcf_addi_old (TInt 8) (OConst 100) OOp = Raised EXC_Assertion /\
  tcf_addi_old (TInt 8) (OConst (-100)) (OConst (-100)) = Raised EXC_Verify.
Proof. repeat split; vm_compute; reflexivity. Qed.

Lemma tcf_partial : forall w a b, 1 <= w -> - 2 ^ (w - 1) <= a + b < 2 ^ w ->
  exists v, tcf_addi_old (TInt w) (OConst a) (OConst b) = Folded v /\ wrap w v = wrap w (a + b) /\ canonical w v.
Proof.
  intros w a b H R. unfold tcf_addi_old. rewrite in_signless_range_cf by assumption.
  assert (E : in_range_cf w (a + b) = true) by (unfold in_range_cf; lia).
  rewrite E. eexists. split; [reflexivity|]. apply int_attr_notrunc; assumption.
Qed.

Lemma tscf_partial : forall a b, tscf_addi (OConst a) (OConst b) = Folded (a + b).
Proof. reflexivity. Qed.

(* constant-fold-interp and test-constant-folding as they are after commits af5e19c and 20a3e4d;
   `cfi_binop_old`, `checked_attr_old`, `tcf_addi_old` model the code before them *)
Lemma checked_attr_vs_old : forall ty v,
  checked_attr ty v = match checked_attr_old ty v with Raised _ => Unchanged | x => x end.
Proof.
  intros ty v. unfold checked_attr, checked_attr_old. destruct ty as [w|]; [|reflexivity].
  destruct (in_signless_range w v); reflexivity.
Qed.

Lemma interp_run_canonical : forall o w a b, 1 <= w -> canonical w a -> canonical w b -> o <> ShLIOp ->
  interp_run o w a b = interp_run_old o w a b.
Proof.
  intros o w a b H Ha Hb Ho. unfold interp_run, interp_run_old.
  destruct o; try reflexivity; try contradiction;
    cbv zeta; rewrite ?(to_signed_id w a H Ha), ?(to_signed_id w b H Hb); reflexivity.
Qed.

Lemma checked_attr_canonical : forall w v, 1 <= w -> canonical w v -> checked_attr (TInt w) v = Folded v.
Proof.
  intros w v H Hv. rewrite checked_attr_vs_old, checked_attr_old_canonical by assumption. reflexivity.
Qed.

(* constant-fold-interp never aborts on a binary integer op with constant operands, whatever they are *)
Lemma cfi_never_raises : forall o ty a b e, cfi_binop o ty a b <> Raised e.
Proof.
  intros o ty a b e. unfold cfi_binop.
  destruct (negb (pure_trait o)); [discriminate|].
  destruct (interp_run o (width_of ty) a b) as [v| |]; try discriminate.
  apply checked_attr_never_raises.
Qed.

Lemma cfi_binop_vs_old : forall o w a b, 1 <= w -> canonical w a -> canonical w b -> o <> ShLIOp ->
  cfi_binop o (TInt w) a b = match cfi_binop_old o (TInt w) a b with Raised _ => Unchanged | x => x end.
Proof.
  intros o w a b H Ha Hb Ho. unfold cfi_binop, cfi_binop_old.
  destruct (negb (pure_trait o)); [reflexivity|].
  cbn [width_of]. rewrite interp_run_canonical by assumption.
  destruct (interp_run_old o w a b) as [v| |]; try reflexivity.
  apply checked_attr_vs_old.
Qed.

Lemma cfi_shli : forall w a b, 1 <= w ->
  cfi_binop ShLIOp (TInt w) a b = if b >=? 0 then Folded (to_signed (Z.shiftl a b) w) else Unchanged.
Proof.
  intros w a b H. unfold cfi_binop. cbn [pure_trait negb interp_run interp_impl width_of].
  destruct (b >=? 0); [|reflexivity].
  apply checked_attr_canonical; [assumption|]. apply to_signed_canonical. assumption.
Qed.

Lemma cfi_value_sound_new : forall o w a b v r, 1 <= w -> canonical w a -> canonical w b ->
  cfi_binop o (TInt w) a b = Folded v -> sem o w (wrap w a) (wrap w b) = Some r -> wrap w v = r.
Proof.
  intros o w a b v r H Ha Hb E Hs.
  assert (D : o = ShLIOp \/ o <> ShLIOp) by (destruct o; (left; reflexivity) || (right; discriminate)).
  destruct D as [-> | Ho].
  - rewrite cfi_shli in E by assumption. destruct (b >=? 0) eqn:Eb; [|discriminate].
    injection E as <-. rewrite wrap_to_signed by assumption.
    apply (shli_sound w a b r); (assumption || lia).
  - rewrite cfi_binop_vs_old in E by assumption.
    destruct (cfi_binop_old o (TInt w) a b) as [v'| |e] eqn:Eo; try discriminate.
    inversion E; subst. exact (cfi_old_value_sound o w a b v r H Ha Hb Eo Hs).
Qed.

(* the cases that used to abort: left in place, or (shli, after 4351108) folded to the wrapped result *)
Lemma cfi_fixed_witnesses :
  cfi_binop ShLIOp (TInt 8) 100 2 = Folded (-112) /\ wrap 8 (-112) = 144 /\
  cfi_binop FloorDivSIOp (TInt 8) 7 0 = Unchanged /\
  cfi_binop ShLIOp (TInt 8) 1 (-1) = Unchanged /\ cfi_binop AddiOp (TInt 8) 100 100 = Folded (-56).
Proof. repeat split; vm_compute; reflexivity. Qed.

Lemma cfi_cmpi_canonical : forall pred w a b, 1 <= w -> canonical w a -> canonical w b ->
  cfi_cmpi pred (TInt w) a b = cfi_cmpi_old pred a b.
Proof.
  intros pred w a b H Ha Hb. unfold cfi_cmpi, cfi_cmpi_old, interp_cmpi, interp_cmpi_old.
  cbn [width_of]. cbv zeta. rewrite (to_signed_id w a H Ha), (to_signed_id w b H Hb). reflexivity.
Qed.

Lemma cfi_cmpi_never_raises : forall pred ty a b e, cfi_cmpi pred ty a b <> Raised e.
Proof.
  intros pred ty a b e. unfold cfi_cmpi.
  destruct (interp_cmpi pred (width_of ty) a b) as [c|]; [apply checked_attr_never_raises|discriminate].
Qed.

(* canonical constants: correct for eq/ne/signed predicates, and for unsigned ones on operands of equal sign *)
Lemma cfi_cmpi_sound_partial : forall pred w a b v r, 1 <= w -> canonical w a -> canonical w b ->
  (pred < 6 \/ (0 <= a /\ 0 <= b) \/ (a < 0 /\ b < 0)) ->
  cfi_cmpi pred (TInt w) a b = Folded v -> cmpi_sem pred w (wrap w a) (wrap w b) = Some r ->
  i1_stored v /\ negb (wrap 1 v =? 0) = r.
Proof.
  intros pred w a b v r H Ha Hb Hp E Hs. rewrite cfi_cmpi_canonical in E by assumption.
  exact (cfi_cmpi_old_sound_partial pred w a b v r H Ha Hb Hp E Hs).
Qed.

(* after e4f2eb2: eq / ne / signed predicates are right for ANY representatives of the bit patterns *)
Lemma cfi_cmpi_signed_sound : forall pred w a b v r, 1 <= w -> pred < 6 ->
  cfi_cmpi pred (TInt w) a b = Folded v -> cmpi_sem pred w (wrap w a) (wrap w b) = Some r ->
  i1_stored v /\ negb (wrap 1 v =? 0) = r.
Proof.
  intros pred w a b v r H Hp E Hs.
  (* for these predicates the interpreter compares the canonical representatives *)
  assert (E' : cfi_cmpi_old pred (to_signed a w) (to_signed b w) = Folded v).
  { rewrite <- E. pose proof (cmpi_sem_pred _ _ _ _ _ Hs) as Hpred.
    destruct Hpred as [->|[->|[->|[->|[->|[->|Hpred]]]]]]; [reflexivity..|lia]. }
  rewrite <- (wrap_to_signed w a H), <- (wrap_to_signed w b H) in Hs.
  exact (cfi_cmpi_old_sound_partial pred w _ _ v r H (to_signed_canonical w a H) (to_signed_canonical w b H)
                                    (or_introl Hp) E' Hs).
Qed.

(* STILL wrong: an unsigned predicate on operands of different sign *)
Lemma cfi_cmpi_refuted : cfi_cmpi 6 (TInt 8) 100 (-3) = Folded 0 /\ cmpi_sem 6 8 (wrap 8 100) (wrap 8 (-3)) = Some true.
Proof. split; vm_compute; reflexivity. Qed.

(* fixed by e4f2eb2: non-canonical index constants compared with eq *)
Lemma cfi_cmpi_index_fixed :
  cfi_cmpi_old 0 18446744073709551615 (-1) = Folded 0 /\ cfi_cmpi 0 TIndex 18446744073709551615 (-1) = Folded (-1).
Proof. split; vm_compute; reflexivity. Qed.

(* test-constant-folding: never raises; folds exactly two constants, to the wrapped, canonical sum *)
Lemma tcf_never_raises : forall ty l r e, tcf_addi ty l r <> Raised e.
Proof. intros ty [a| |] [b| |] e; discriminate. Qed.

Lemma tcf_leaves_non_constants : forall ty l r,
  (forall a, l <> OConst a) \/ (forall b, r <> OConst b) -> tcf_addi ty l r = Unchanged.
Proof.
  intros ty [a| |] [b| |] [H|H]; try reflexivity;
    try (exfalso; eapply H; reflexivity).
Qed.

Lemma tcf_value : forall w a b, 1 <= w ->
  exists v, tcf_addi (TInt w) (OConst a) (OConst b) = Folded v /\ wrap w v = wrap w (a + b) /\ canonical w v.
Proof.
  intros w a b H. exists (int_attr (TInt w) (a + b) true). split; [reflexivity|].
  exact (int_attr_trunc w (a + b) H).
Qed.

(* the specialised variant is unchanged and still aborts on non-constant operands *)
Lemma tscf_refuted : tscf_addi (OConst 100) OArg = Raised EXC_Other /\ tscf_addi OOp (OConst 1) = Raised EXC_Assertion.
Proof. split; reflexivity. Qed.
