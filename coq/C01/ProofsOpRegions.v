(* C01/ProofsOpRegions.v -- WF is preserved by the region-in-operation mutators
   Operation.add_region and Operation.detach_region (by region and by index).
   Only the T3 group (o_regions / r_parent) is written; every other clause of WF follows by
   the frame relations. *)
From Coq Require Import ZArith List Bool PArith FMapPositive Lia.
From XV Require Import C01.Model C01.Spec C01.ProofsBase C01.ProofsFrame C01.ProofsUses C01.ProofsOperands
  C01.ProofsDll C01.ProofsOps C01.ProofsBlocks.
Import ListNotations.
Local Open Scope Z_scope.

(* frame of the region-in-operation programs: they keep every frame relation that is kept by the two
   primitive writes of the T3 group *)
Record keeps_T3_writes (R : state -> state -> Prop) : Prop := {
  k3_frame : frame_rel R;
  k3_regions : forall o v, preserves R (updO o (set_o_regions v));
  k3_parent : forall r v, preserves R (updR r (set_r_parent v)) }.

Lemma k3_T1 : keeps_T3_writes same_T1. Proof. split; [apply fr_T1|..]; intros; pres fr_T1. Qed.
Lemma k3_T2 : keeps_T3_writes same_T2. Proof. split; [apply fr_T2|..]; intros; pres fr_T2. Qed.
Lemma k3_U : keeps_T3_writes same_U. Proof. split; [apply fr_U|..]; intros; pres fr_U. Qed.
Lemma k3_I : keeps_T3_writes same_I. Proof. split; [apply fr_I|..]; intros; pres fr_I. Qed.
Lemma k3_A : keeps_T3_writes same_A. Proof. split; [apply fr_A|..]; intros; pres fr_A. Qed.

(* `pres` after unfolding the region-in-operation programs *)
Ltac pres_opreg FR :=
  unfold add_region, detach_region, detach_region_idx, get_region_index, detach_region_at; pres FR.

Lemma add_region_pres : forall R, keeps_T3_writes R -> forall o r, preserves R (add_region o r).
Proof. intros R [FR ? ?] o r. pres_opreg FR. Qed.
Lemma detach_region_pres : forall R, keeps_T3_writes R -> forall o r, preserves R (detach_region o r).
Proof. intros R [FR ? ?] o r. pres_opreg FR. Qed.
Lemma detach_region_idx_pres : forall R, keeps_T3_writes R -> forall o i, preserves R (detach_region_idx o i).
Proof. intros R [FR ? ?] o i. pres_opreg FR. Qed.

(* WF from the T3 group *)
Lemma WF_groups_T3 : forall {A} (m : M A) s s' r, WF s ->
  (forall R, keeps_T3_writes R -> preserves R m) -> m s = (s', Ok r) -> WF_opregs s' -> WF s'.
Proof.
  intros A m s s' r W K H WO.
  pose proof (K _ k3_T1 _ _ _ H) as T1. pose proof (K _ k3_T2 _ _ _ H) as T2.
  apply (WF_containment s s' W (K _ k3_U _ _ _ H) (K _ k3_I _ _ _ H) (K _ k3_A _ _ _ H)).
  - exact (WF_block_same s s' T1 (wf_block s W)).
  - exact (WF_region_same s s' T2 (wf_region s W)).
  - exact WO.
  - exact (WF_detached_same s s' T1 T2 (wf_detached s W)).
Qed.

Lemma opreg_NoDup_snoc : forall {A} (l : list A) x, NoDup l -> ~ In x l -> NoDup (l ++ [x]).
Proof. intros A l x ND NI. apply NoDup_insert; rewrite app_nil_r; assumption. Qed.

Lemma opreg_nth_split : forall {A} (l : list A) n r, nth_error l n = Some r ->
  l = firstn n l ++ r :: skipn (S n) l.
Proof.
  intros A l. induction l as [|a t IH]; intros n r N; destruct n as [|n]; simpl in N; try discriminate.
  - injection N as <-. reflexivity.
  - simpl. f_equal. apply IH. exact N.
Qed.

Lemma opreg_remove_nth : forall {A} (l : list A) n r, nth_error l n = Some r -> NoDup l ->
  NoDup (firstn n l ++ skipn (S n) l) /\
  forall x, In x (firstn n l ++ skipn (S n) l) <-> In x l /\ x <> r.
Proof.
  intros A l n r N ND. pose proof (opreg_nth_split l n r N) as E.
  set (l1 := firstn n l) in *. set (l2 := skipn (S n) l) in *. clearbody l1 l2. subst l.
  destruct (NoDup_remove _ _ _ ND) as [ND' NI]. split; [exact ND'|].
  intro x. split.
  - intro I. split.
    + apply in_app_iff in I. apply in_app_iff. simpl. tauto.
    + intro E. subst x. contradiction.
  - intros [I Nx]. apply in_app_iff in I. simpl in I. apply in_app_iff.
    destruct I as [I|[E|I]]; [left; exact I| |right; exact I]. exfalso. apply Nx. symmetry. exact E.
Qed.

Lemma opreg_py_slices : forall {A} (l : list A) n, (n < length l)%nat ->
  py_slice_to l (Z.of_nat n) ++ py_slice_from l (Z.of_nat n + 1) = firstn n l ++ skipn (S n) l.
Proof.
  intros A l n L. unfold zlen in *. rewrite slice_to_eq, slice_from_eq by (unfold zlen; lia).
  rewrite Nat2Z.id. replace (Z.to_nat (Z.of_nat n + 1)) with (S n) by lia. reflexivity.
Qed.

Lemma find_index_spec : forall l x k i, find_index l x k = Some i ->
  exists n, i = k + Z.of_nat n /\ nth_error l n = Some x.
Proof.
  induction l as [|y t IH]; intros x k i H; simpl in H; [discriminate|].
  destruct (Pos.eqb_spec y x) as [->|N].
  - injection H as <-. exists 0%nat. split; [lia|reflexivity].
  - destruct (IH _ _ _ H) as (n & -> & Nn). exists (S n). split; [lia|exact Nn].
Qed.

Lemma py_index_norm : forall {A} (l : list A) idx r, py_index l idx = Some r ->
  exists n, norm_index (zlen l) idx = Z.of_nat n /\ nth_error l n = Some r.
Proof.
  intros A l idx r H. unfold py_index, py_norm in H. unfold norm_index.
  destruct (Z.ltb_spec idx 0).
  - destruct (Z.ltb_spec (idx + zlen l) 0); [discriminate|].
    exists (Z.to_nat (idx + zlen l)). split; [lia|exact H].
  - destruct (Z.ltb_spec idx (zlen l)); [|discriminate].
    exists (Z.to_nat idx). split; [lia|exact H].
Qed.

(* no liveness is needed: if o is erased its clause is vacuous, and r (parent None) is a member of
   no live op's list *)
Lemma add_region_opregs : forall s s' o r res,
  WF_opregs s -> add_region o r s = (s', Ok res) -> WF_opregs s'.
Proof.
  intros s s' o r res W H. unfold add_region in H.
  apply bind_ok in H as (s0 & rr & Hg & H). apply getR_ok in Hg as [-> Fr0].
  destruct (is_some (r_parent rr)) eqn:Pn; [exfalso; exact (raise_ok _ _ _ _ H)|]. apply is_some_false in Pn.
  apply bind_ok in H as (s0 & x0 & Hg & H). apply getO_ok in Hg as [-> Fx0].
  apply bind_ok in H as (s1 & ? & Hu & H). apply updO_ok in Hu as (xa & Fa & ->).
  rewrite Fx0 in Fa. injection Fa as <-.
  apply updR_ok in H as (rr1 & Fr & ->). simpl in Fr. rewrite Fr0 in Fr. injection Fr as <-.
  intros o' x' F' E'. simpl in F'. rewrite find_add in F'. simpl.
  destruct (Pos.eqb_spec o' o) as [->|No].
  - injection F' as <-. simpl in E'. simpl. destruct (W o x0 Fx0 E') as (ND & M1 & M2).
    assert (NI : ~ In r (o_regions x0)).
    { intro I. destruct (M1 r I) as (rr' & Fr' & Pr'). rewrite Fr0 in Fr'. injection Fr' as <-.
      rewrite Pn in Pr'. discriminate. }
    split; [apply opreg_NoDup_snoc; assumption|]. split.
    + intros r' Ir. apply in_app_iff in Ir. rewrite find_add. destruct (Pos.eqb_spec r' r) as [->|Nr].
      * eexists. split; reflexivity.
      * destruct Ir as [Ir|[E|[]]]; [apply M1; exact Ir|]. exfalso. apply Nr. symmetry. exact E.
    + intros r' rr' Fr' Er' Pr'. rewrite find_add in Fr'. apply in_app_iff.
      destruct (Pos.eqb_spec r' r) as [->|Nr]; [right; left; reflexivity|]. left. eapply M2; eauto.
  - destruct (W o' x' F' E') as (ND & M1 & M2). split; [exact ND|]. split.
    + intros r' Ir. destruct (M1 r' Ir) as (rr' & Fr' & Pr'). exists rr'. rewrite find_add.
      destruct (Pos.eqb_spec r' r) as [->|Nr]; [|auto].
      rewrite Fr0 in Fr'. injection Fr' as <-. rewrite Pn in Pr'. discriminate.
    + intros r' rr' Fr' Er' Pr'. rewrite find_add in Fr'. destruct (Pos.eqb_spec r' r) as [->|Nr].
      * injection Fr' as <-. simpl in Pr'. injection Pr' as E. exfalso. apply No. symmetry. exact E.
      * eapply M2; eauto.
Qed.

Theorem add_region_WF_gen : forall s s' o r res,
  WF s -> add_region o r s = (s', Ok res) -> WF s'.
Proof.
  intros s s' o r res W H.
  apply (WF_groups_T3 _ s s' res W (fun R K => add_region_pres R K o r) H).
  eapply add_region_opregs; [apply (wf_opregs s W)|exact H].
Qed.

Theorem add_region_WF : forall s s' o r res,
  WF s -> op_live s o -> reg_live s r -> add_region o r s = (s', Ok res) -> WF s'.
Proof. intros s s' o r res W _ _ H. eapply add_region_WF_gen; eauto. Qed.

(* the core: region r, whose parent is o, sits at position n of o's list *)
Lemma detach_region_at_opregs : forall s s' o n r res x0 rr,
  WF_opregs s ->
  PM.find o (s_ops s) = Some x0 -> PM.find r (s_regions s) = Some rr -> r_parent rr = Some o ->
  nth_error (o_regions x0) n = Some r ->
  detach_region_at o (Z.of_nat n) r s = (s', Ok res) -> WF_opregs s'.
Proof.
  intros s s' o n r res x0 rr W Fx0 Fr0 Pr0 Nn H.
  unfold detach_region_at in H.
  apply bind_ok in H as (s1 & ? & H1 & H). apply updR_ok in H1 as (rr1 & Fr & ->).
  rewrite Fr0 in Fr. injection Fr as <-.
  apply bind_ok in H as (s1' & orec & Hg & H). apply getO_ok in Hg as [-> Fo]. simpl in Fo.
  rewrite Fx0 in Fo. injection Fo as <-.
  apply bind_ok in H as (s2 & ? & Hu & H). apply updO_ok in Hu as (xa & Fa & ->). simpl in Fa.
  rewrite Fx0 in Fa. injection Fa as <-. apply ret_ok in H as [-> _].
  assert (Ln : (n < length (o_regions x0))%nat) by (apply nth_error_Some; congruence).
  rewrite (opreg_py_slices _ _ Ln).
  intros o' x' F' E'. simpl in F'. rewrite find_add in F'. simpl.
  destruct (Pos.eqb_spec o' o) as [->|No].
  - injection F' as <-. simpl in E'. simpl. destruct (W o x0 Fx0 E') as (ND & M1 & M2).
    destruct (opreg_remove_nth _ _ _ Nn ND) as [ND' IN'].
    split; [exact ND'|]. split.
    + intros r' Ir. apply IN' in Ir. destruct Ir as [Ir Nr]. destruct (M1 r' Ir) as (rr' & Fr' & Pr').
      exists rr'. rewrite find_add. destruct (Pos.eqb_spec r' r); [contradiction|]. auto.
    + intros r' rr' Fr' Er' Pr'. rewrite find_add in Fr'. destruct (Pos.eqb_spec r' r) as [->|Nr].
      * injection Fr' as <-. simpl in Pr'. discriminate.
      * apply IN'. split; [eapply M2; eauto|exact Nr].
  - destruct (W o' x' F' E') as (ND & M1 & M2). split; [exact ND|]. split.
    + intros r' Ir. destruct (M1 r' Ir) as (rr' & Fr' & Pr'). exists rr'. rewrite find_add.
      destruct (Pos.eqb_spec r' r) as [->|Nr]; [|auto].
      rewrite Fr0 in Fr'. injection Fr' as <-. rewrite Pr0 in Pr'. injection Pr' as E.
      exfalso. apply No. symmetry. exact E.
    + intros r' rr' Fr' Er' Pr'. rewrite find_add in Fr'. destruct (Pos.eqb_spec r' r) as [->|Nr].
      * injection Fr' as <-. simpl in Pr'. discriminate.
      * eapply M2; eauto.
Qed.

(* no liveness is needed: get_region_index checks r.parent == o, so r is a member of no other live
   op's list, and if o itself is erased its clause is vacuous *)
Theorem detach_region_WF_gen : forall s s' o r res,
  WF s -> detach_region o r s = (s', Ok res) -> WF s'.
Proof.
  intros s s' o r res W H.
  apply (WF_groups_T3 _ s s' res W (fun R K => detach_region_pres R K o r) H).
  unfold detach_region in H. apply bind_ok in H as (s0 & i & Hi & H). unfold get_region_index in Hi.
  apply bind_ok in Hi as (s0' & rr & Hg & Hi). apply getR_ok in Hg as [-> Fr0].
  destruct (opt_eqb (r_parent rr) (Some o)) eqn:Pe; cbn [negb] in Hi; [|exfalso; exact (raise_ok _ _ _ _ Hi)].
  apply opt_eqb_eq in Pe.
  apply bind_ok in Hi as (s0' & x0 & Hg & Hi). apply getO_ok in Hg as [-> Fx0].
  destruct (find_index (o_regions x0) r 0) as [z|] eqn:FI; [|exfalso; exact (raise_ok _ _ _ _ Hi)].
  apply ret_ok in Hi as [-> ->].
  destruct (find_index_spec _ _ _ _ FI) as (n & -> & Nn). rewrite Z.add_0_l in H.
  eapply detach_region_at_opregs; [apply (wf_opregs s W)|exact Fx0|exact Fr0|exact Pe|exact Nn|exact H].
Qed.

Theorem detach_region_WF : forall s s' o r res,
  WF s -> op_live s o -> reg_live s r -> detach_region o r s = (s', Ok res) -> WF s'.
Proof. intros s s' o r res W _ _ H. eapply detach_region_WF_gen; eauto. Qed.

(* here o must be live: the region found at the index is known to point back to o (and hence to be
   in no other list) only through o's own WF_opregs clause *)
Theorem detach_region_idx_WF : forall s s' o idx res,
  WF s -> op_live s o -> detach_region_idx o idx s = (s', Ok res) -> WF s'.
Proof.
  intros s s' o idx res W (x0' & Fx & Ex) H.
  apply (WF_groups_T3 _ s s' res W (fun R K => detach_region_idx_pres R K o idx) H).
  unfold detach_region_idx in H.
  apply bind_ok in H as (s0 & x0 & Hg & H). apply getO_ok in Hg as [-> Fx0].
  rewrite Fx in Fx0. injection Fx0 as <-.
  apply bind_ok in H as (s0 & r & Hi & H). apply index_or_raise_ok in Hi as [-> Pi].
  destruct (py_index_norm _ _ _ Pi) as (n & En & Nn). rewrite En in H.
  destruct (wf_opregs s W o x0' Fx Ex) as (_ & M1 & _).
  destruct (M1 r (nth_error_In _ _ Nn)) as (rr & Fr & Pr).
  eapply detach_region_at_opregs; [apply (wf_opregs s W)|exact Fx|exact Fr|exact Pr|exact Nn|exact H].
Qed.
