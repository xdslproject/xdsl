(* C28/ProofsCreate.v -- eqsat-create-eclasses on a well-formed source function, and the composed
   theorem: create ; add-costs (with a default cost) ; extract gives an executable function that returns
   what the source returns, for every input. *)
From Coq Require Import ZArith List Bool Lia.
From XV Require Import C28.Model C28.Proofs C28.ProofsCosts C28.ProofsExtract.
Import ListNotations.
Local Open Scope Z_scope.

Lemma ordered_app : forall a b d,
    ordered d (a ++ b) <-> ordered d a /\ ordered (map nid a ++ d) b.
Proof.
  induction a as [|n r IH]; simpl; intros b d.
  - tauto.
  - rewrite IH. split.
    + intros [H1 [H2 H3]]. repeat split; auto. eapply ordered_weaken; [|exact H3].
      intros j Hj. apply in_app_or in Hj. destruct Hj as [Hj|[Hj|Hj]].
      * right. apply in_or_app. auto.
      * left. auto.
      * right. apply in_or_app. auto.
    + intros [[H1 H2] H3]. repeat split; auto. eapply ordered_weaken; [|exact H3].
      intros j [Hj|Hj].
      * apply in_or_app. right. left. auto.
      * apply in_app_or in Hj. apply in_or_app. destruct Hj; [left; auto | right; right; auto].
Qed.

Lemma ordered_rename : forall p o cnew l D D',
    ordered D l -> (forall j, In j D -> In j D') -> In cnew D' ->
    ordered D' (replace_uses_if p o (VRes cnew) l).
Proof.
  intros p o cnew. induction l as [|n r IH]; simpl; intros D D' Ho Hs Hc; auto. destruct Ho as [Hh Ht]. split.
  - intros j Hj. destruct (p n); simpl in Hj; auto.
    apply in_map_subst in Hj. destruct Hj as [Hj|[Hj _]]; auto. inversion Hj; subst; auto.
  - assert (Hid : nid (if p n then set_ops n (map (subst_val o (VRes cnew)) (nops n)) else n) = nid n)
      by (destruct (p n); reflexivity).
    rewrite Hid. apply (IH (nid n :: D)); auto.
    + intros j [Hj|Hj]; [left; auto | right; auto].
    + right; auto.
Qed.

Lemma replace_id : forall p o new l,
    (forall n, In n l -> ~ In o (nops n)) -> replace_uses_if p o new l = l.
Proof.
  intros p o new. induction l as [|n r IH]; simpl; intros H; auto.
  rewrite IH by (intros; apply H; right; auto).
  destruct (p n); auto. rewrite map_subst_id by (apply H; left; auto). destruct n; reflexivity.
Qed.

Lemma replace_app : forall p o new a b,
    replace_uses_if p o new (a ++ b) = replace_uses_if p o new a ++ replace_uses_if p o new b.
Proof. intros. unfold replace_uses_if. apply map_app. Qed.

(* `todo`: ids of the source operations that still have to get their class *)
Record cinv (next : Z) (todo : list Z) (B : list node) : Prop := {
  c_struct : structural B;
  c_bound : forall n, In n B -> nid n < next /\ forall j, In (VRes j) (nops n) -> j < next;
  c_cls : forall cl, In cl B -> is_class cl = true -> nname cl = N_CLASS /\ exists m, nops cl = [m];
  c_members : members_ok B;
  c_ret : has_ret B;
  c_ru : ret_unref B;
  c_todo : forall x cl, In x todo -> In cl B -> is_class cl = true -> ~ In (VRes x) (nops cl);
  c_todo_lt : forall x, In x todo -> x < next }.

Definition class_node (cnew : Z) (o : val) : node := mk_class cnew o.

Lemma not_ClassOp_class : forall cnew o, not_ClassOp (class_node cnew o) = false.
Proof. reflexivity. Qed.

(* shape of one step: B = pre ++ post, nodes of pre do not use o;  B' = pre ++ class :: renamed post *)
Definition step_shape (o : val) (cnew : Z) (pre post : list node) : list node :=
  pre ++ class_node cnew o :: replace_uses_if not_ClassOp o (VRes cnew) post.

Definition rename (o : val) (cnew : Z) (n : node) : node :=
  if not_ClassOp n then set_ops n (map (subst_val o (VRes cnew)) (nops n)) else n.

Lemma rename_head : forall o cnew n,
    nid (rename o cnew n) = nid n /\ nname (rename o cnew n) = nname n /\
    nres (rename o cnew n) = nres n /\ ncost (rename o cnew n) = ncost n.
Proof. intros o cnew n. unfold rename. destruct (not_ClassOp n); repeat split. Qed.

Lemma rename_ops : forall o cnew n j,
    In (VRes j) (nops (rename o cnew n)) -> In (VRes j) (nops n) \/ j = cnew.
Proof.
  intros o cnew n j H. unfold rename in H. destruct (not_ClassOp n); auto.
  apply in_map_subst in H. destruct H as [H|[H _]]; auto. inversion H; auto.
Qed.

Lemma rename_ClassOp : forall o cnew n, nname n = N_CLASS -> rename o cnew n = n.
Proof. intros o cnew n H. unfold rename, not_ClassOp, is_ClassOp. rewrite H. reflexivity. Qed.

Lemma step_shape_In : forall o next pre post n',
    In n' (step_shape o next pre post) ->
    n' = class_node next o \/ In n' pre \/ exists n, In n post /\ n' = rename o next n.
Proof.
  intros o next pre post n' H. unfold step_shape in H. apply in_app_or in H. destruct H as [H|[H|H]]; auto.
  right. right. apply in_map_iff in H. destruct H as [n [E Hn]]. exists n. auto.
Qed.

Lemma step_shape_orig : forall o next pre post n',
    In n' (step_shape o next pre post) ->
    n' = class_node next o \/
    exists n, In n (pre ++ post) /\ nid n' = nid n /\ nname n' = nname n /\ nres n' = nres n /\ ncost n' = ncost n.
Proof.
  intros o next pre post n' H. destruct (step_shape_In _ _ _ _ _ H) as [A|[A|[n [A ->]]]]; auto; right.
  - exists n'. repeat split; auto. apply in_or_app; auto.
  - exists n. split; [apply in_or_app; auto | apply rename_head].
Qed.

Lemma step_shape_conv : forall o next pre post n, In n (pre ++ post) ->
    exists n', In n' (step_shape o next pre post) /\ nid n' = nid n /\ nname n' = nname n /\ nres n' = nres n.
Proof.
  intros o next pre post n H. unfold step_shape. apply in_app_or in H. destruct H as [H|H].
  - exists n. split; auto. apply in_or_app; auto.
  - exists (rename o next n). destruct (rename_head o next n) as [A [B [C _]]]. split; auto.
    apply in_or_app. right. right. apply (in_map (rename o next)). exact H.
Qed.

Lemma step_inv : forall next todo o pre post,
    cinv next todo (pre ++ post) ->
    (forall n, In n pre -> ~ In o (nops n)) ->
    (* o is a block argument, or the result of the LAST node of pre, an ordinary operation *)
    (match o with
     | VArg _ => True
     | VRes x => (exists xn, In xn pre /\ nid xn = x /\ plain xn) /\
                 (forall cl, In cl (pre ++ post) -> is_class cl = true -> ~ In (VRes x) (nops cl))
     end) ->
    forall todo', (forall y, In y todo' -> In y todo /\ o <> VRes y) ->
    cinv (next + 1) todo' (step_shape o next pre post).
Proof.
  intros next todo o pre post [[Hnd Ho] Hb Hcls Hmem Hret Hru Htodo Htlt] Hpre Ho_ok todo' Htodo'.
  assert (HinB' := step_shape_In o next pre post).
  assert (Horig := step_shape_orig o next pre post).
  set (c := class_node next o) in *.
  assert (Hops' : forall n' j, In n' (step_shape o next pre post) -> In (VRes j) (nops n') ->
             j = next \/ (n' = c /\ o = VRes j) \/
             exists n, In n (pre ++ post) /\ nid n' = nid n /\ nname n' = nname n /\ In (VRes j) (nops n)).
  { intros n' j H Hj. destruct (HinB' n' H) as [A|[A|[n [A ->]]]].
    - subst n'. simpl in Hj. destruct Hj as [Hj|[]]. right. left. auto.
    - right. right. exists n'. repeat split; auto. apply in_or_app; auto.
    - destruct (rename_head o next n) as [B [C _]]. destruct (rename_ops _ _ _ _ Hj) as [Hj'|Hj']; auto.
      right. right. exists n. repeat split; auto. apply in_or_app; auto. }
  (* the classes are the new one and the old ones, which are ClassOps and therefore not renamed *)
  assert (Hclass : forall cl, In cl (step_shape o next pre post) -> is_class cl = true ->
                              cl = c \/ In cl (pre ++ post)).
  { intros cl H Hcl. destruct (HinB' cl H) as [A|[A|[n [A ->]]]]; auto; right; apply in_or_app; auto.
    destruct (rename_head o next n) as [_ [C _]]. rewrite (is_class_name _ _ C) in Hcl.
    destruct (Hcls n (in_or_app _ _ _ (or_intror A)) Hcl) as [Hnm _]. rewrite (rename_ClassOp _ _ _ Hnm). auto. }
  constructor.
  - (* structural *)
    split.
    + unfold step_shape. rewrite map_app. simpl.
      assert (Hids : map nid (replace_uses_if not_ClassOp o (VRes next) post) = map nid post).
      { unfold replace_uses_if. rewrite map_map. apply map_ext. intro n. destruct (not_ClassOp n); reflexivity. }
      rewrite Hids. apply (NoDup_Add (Add_app next _ _)). rewrite <- map_app. split; [exact Hnd|].
      intro Hin. apply in_map_iff in Hin. destruct Hin as [n [Hn Hin]]. destruct (Hb n Hin) as [Hlt _]. lia.
    + unfold step_shape. apply ordered_app. apply ordered_app in Ho. destruct Ho as [Ho1 Ho2].
      split; auto. simpl. split.
      * intros j [Hj|[]]. destruct o as [i|x]; try discriminate. inversion Hj; subst.
        destruct Ho_ok as [[xn [Hxn [Hid _]]] _]. apply in_or_app. left. rewrite <- Hid. apply in_map. auto.
      * eapply ordered_rename; eauto. intros j Hj. right; auto. left; auto.
  - (* bounds *)
    intros n' H. split.
    + destruct (Horig n' H) as [A|[n [A [B _]]]]; [subst; simpl; lia|]. destruct (Hb n A). lia.
    + intros j Hj. destruct (Hops' n' j H Hj) as [A|[[A B]|[n [A [_ [_ B]]]]]]; try lia.
      * subst. destruct Ho_ok as [[xn [Hxn [Hid _]]] _].
        destruct (Hb xn (in_or_app _ _ _ (or_introl Hxn))). lia.
      * destruct (Hb n A) as [_ Hb2]. specialize (Hb2 j B). lia.
  - (* classes have the ClassOp name and one member *)
    intros cl H Hcl. destruct (Hclass cl H Hcl) as [->|A]; [split; auto; exists o; reflexivity | auto].
  - (* members_ok *)
    intros cl H Hcl. destruct (Hclass cl H Hcl) as [->|A].
    + (* the new class, of o = VRes j *)
      split. { constructor; [intros []|constructor]. }
      intros j [Hj|[]]. subst o. destruct Ho_ok as [[xn [Hxn [Hxid Hxp]]] Hnocls]. split.
      * intros m' Hm' Hmid. destruct (Horig m' Hm') as [E|[n [E [B [C _]]]]].
        -- subst m'. simpl in Hmid. destruct (Hb xn (in_or_app _ _ _ (or_introl Hxn))). lia.
        -- assert (n = xn).
           { eapply NoDup_nid_inj; eauto. apply in_or_app; auto. congruence. }
           subst n. destruct Hxp as [P1 P2].
           split; [rewrite (is_class_name _ _ C) | rewrite (is_ret_name _ _ C)]; assumption.
      * intros n' Hn' Hu. destruct (HinB' n' Hn') as [E|[E|[n [E ->]]]].
        -- subst. reflexivity.
        -- exfalso. apply (Hpre n' E). exact Hu.
        -- exfalso. unfold rename in Hu. destruct (not_ClassOp n) eqn:Fp.
           ++ revert Hu. apply no_subst_left. intro Heq. inversion Heq.
              destruct (Hb xn (in_or_app _ _ _ (or_introl Hxn))). lia.
           ++ (* an unrenamed node of post is a ClassOp: no class has x as member yet *)
              apply (Hnocls n (in_or_app _ _ _ (or_intror E))); auto.
              unfold not_ClassOp in Fp. apply negb_false_iff in Fp. unfold is_class. unfold is_ClassOp in Fp.
              rewrite Fp. reflexivity.
    + (* an older class *)
      destruct (Hmem cl A Hcl) as [Hndc Hmj]. split; [exact Hndc|].
      intros j Hj. destruct (Hmj j Hj) as [Hp0 Hu0].
      assert (Hjn : j < next) by (apply (Hb cl A), Hj).
      split.
      * intros m' Hm' Hmid. destruct (Horig m' Hm') as [E|[n [E [B [C _]]]]].
        -- subst m'. simpl in Hmid. lia.
        -- destruct (Hp0 n E) as [P1 P2]; [congruence|].
           split; [rewrite (is_class_name _ _ C) | rewrite (is_ret_name _ _ C)]; assumption.
      * intros n' Hn' Hu. destruct (Hops' n' j Hn' Hu) as [E|[[E F]|[n [E [B [_ D]]]]]].
        -- lia.
        -- (* the new class has member o = VRes j: but j is already a member of cl *)
           exfalso. subst o. destruct Ho_ok as [_ Hnocls]. apply (Hnocls cl A Hcl). exact Hj.
        -- rewrite B. apply Hu0; auto.
  - (* has_ret *)
    destruct Hret as [n0 [Hn0 Hr0]]. destruct (step_shape_conv o next pre post n0 Hn0) as [n' [A [_ [C _]]]].
    exists n'. split; auto. rewrite (is_ret_name _ _ C). auto.
  - (* operands never name a return *)
    intros n' j m' Hn' Hj Hm' Hmid.
    destruct (Horig m' Hm') as [A|[m [A [B [C _]]]]]; [subst; reflexivity|].
    rewrite (is_ret_name _ _ C).
    destruct (Hops' n' j Hn' Hj) as [D|[[D E]|[n [D [_ [_ E]]]]]].
    + exfalso. destruct (Hb m A). lia.
    + subst o. destruct Ho_ok as [[xn [Hxn [Hxid [_ Hxp]]]] _].
      assert (m = xn) by (eapply NoDup_nid_inj; eauto; [apply in_or_app; auto | congruence]). subst. auto.
    + apply (Hru n j m); auto. congruence.
  - (* the classes of the remaining operations are still to be created *)
    intros y cl Hy Hcl Hclc Hu. destruct (Htodo' y Hy) as [Hy1 Hy2].
    destruct (Hops' cl y Hcl Hu) as [D|[[D E]|[n [D [_ [F E]]]]]].
    + subst y. specialize (Htlt _ Hy1). lia.
    + congruence.
    + apply (Htodo y n Hy1 D); auto. rewrite <- (is_class_name _ _ F). auto.
  - intros y Hy. destruct (Htodo' y Hy) as [Hy1 _]. specialize (Htlt _ Hy1). lia.
Qed.

Lemma insert_after_split : forall x c pre xn post,
    ~ In x (map nid pre) -> nid xn = x ->
    insert_after x c (pre ++ xn :: post) = pre ++ xn :: c :: post.
Proof.
  intros x c. induction pre as [|n r IH]; simpl; intros xn post Hni Hx.
  - rewrite Hx, Z.eqb_refl. reflexivity.
  - destruct (nid n =? x) eqn:E. { apply Z.eqb_eq in E. tauto. }
    rewrite IH; auto.
Qed.

Lemma ordered_ops_in : forall l d n j,
    ordered d l -> In n l -> In (VRes j) (nops n) -> In j (map nid l) \/ In j d.
Proof.
  induction l as [|m r IH]; simpl; intros d n j Ho Hn Hj; try tauto. destruct Ho as [Hh Ht].
  destruct Hn as [Hn|Hn].
  - subst. right. auto.
  - destruct (IH _ _ _ Ht Hn Hj) as [A|[A|A]]; auto.
Qed.

Lemma prefix_no_use : forall pre xn post,
    NoDup (map nid (pre ++ xn :: post)) -> ordered [] (pre ++ xn :: post) ->
    ~ In (nid xn) (map nid pre) /\ forall n, In n (pre ++ [xn]) -> ~ In (VRes (nid xn)) (nops n).
Proof.
  intros pre xn post Hnd Ho. rewrite map_app in Hnd. simpl in Hnd.
  assert (Hni : ~ In (nid xn) (map nid pre)).
  { apply NoDup_remove_2 in Hnd. intro H. apply Hnd. apply in_or_app. auto. }
  split; auto. intros n Hn Hu.
  replace (pre ++ xn :: post) with ((pre ++ [xn]) ++ post) in Ho by (rewrite <- app_assoc; reflexivity).
  apply ordered_app in Ho. destruct Ho as [Ho _]. apply ordered_app in Ho. destruct Ho as [Ho1 Ho2].
  apply in_app_or in Hn. destruct Hn as [Hn|[Hn|[]]].
  - destruct (ordered_ops_in _ _ _ _ Ho1 Hn Hu) as [A|[]]. auto.
  - subst n. simpl in Ho2. destruct Ho2 as [Hh _]. apply Hh in Hu. rewrite app_nil_r in Hu. auto.
Qed.

Lemma ops_step_shape : forall x cnew pre xn post,
    NoDup (map nid (pre ++ xn :: post)) -> ordered [] (pre ++ xn :: post) -> nid xn = x ->
    replace_uses_if not_ClassOp (VRes x) (VRes cnew) (insert_after x (mk_class cnew (VRes x)) (pre ++ xn :: post))
    = step_shape (VRes x) cnew (pre ++ [xn]) post.
Proof.
  intros x cnew pre xn post Hnd Ho Hx. destruct (prefix_no_use pre xn post Hnd Ho) as [Hni Hnu].
  rewrite Hx in *. rewrite insert_after_split; auto.
  replace (pre ++ xn :: mk_class cnew (VRes x) :: post) with ((pre ++ [xn]) ++ mk_class cnew (VRes x) :: post)
    by (rewrite <- app_assoc; reflexivity).
  rewrite replace_app. rewrite (replace_id _ _ _ (pre ++ [xn])); auto.
Qed.

Definition node_fine (n : node) : Prop :=
  ncost n <> CBad /\ (forall c, ncost n = CInt c -> 0 <= c) /\
  (if is_ret n then nres n = 0 else nres n = 1).

Definition wf_src (body : list node) : Prop :=
  structural body /\ (forall n, In n body -> is_class n = false /\ node_fine n) /\ has_ret body /\
  (forall n j m, In n body -> In (VRes j) (nops n) -> In m body -> nid m = j -> is_ret m = false).

Lemma fresh_id_gt : forall body n, In n body -> nid n < fresh_id body.
Proof.
  induction body as [|m r IH]; simpl; intros n H; try tauto. unfold fresh_id in *. simpl.
  destruct H as [H|H]; [subst; lia | specialize (IH n H); lia].
Qed.

Definition todo_ids (snap : list node) : list Z := map nid (filter (fun n => negb (is_ret n)) snap).

Lemma wf_src_cinv : forall body, wf_src body -> cinv (fresh_id body) (todo_ids body) body.
Proof.
  intros body [[Hnd Ho] [Hn [Hr Hru]]]. constructor; auto.
  - split; auto.
  - intros n Hin. split. apply fresh_id_gt; auto. intros j Hj.
    destruct (ordered_ops_in _ _ _ _ Ho Hin Hj) as [A|[]]. apply in_map_iff in A.
    destruct A as [m [Hm Hmin]]. rewrite <- Hm. apply fresh_id_gt; auto.
  - intros cl Hcl Hc. destruct (Hn cl Hcl). congruence.
  - intros cl Hcl Hc. destruct (Hn cl Hcl). congruence.
  - intros x cl _ Hcl Hc. destruct (Hn cl Hcl). congruence.
  - intros x Hx. unfold todo_ids in Hx. apply in_map_iff in Hx. destruct Hx as [n [Hn' Hin]].
    apply filter_In in Hin. rewrite <- Hn'. apply fresh_id_gt. tauto.
Qed.

Section StepSem.
  Variable sem : Z -> Z -> list Z -> Z.
  Variable args : Z -> Z.

  Definition upd (rho : Z -> Z) (k v : Z) : Z -> Z := fun id => if id =? k then v else rho id.

  Lemma vval_upd : forall rho k v w, (forall j, w = VRes j -> j <> k) -> vval args (upd rho k v) w = vval args rho w.
  Proof.
    intros rho k v w H. destruct w as [i|j]; simpl; auto. unfold upd.
    destruct (j =? k) eqn:E; auto. apply Z.eqb_eq in E. exfalso. apply (H j); auto.
  Qed.

  Lemma node_ok_upd : forall rho k v n,
      nid n <> k -> (forall j, In (VRes j) (nops n) -> j <> k) ->
      node_ok sem args rho n -> node_ok sem args (upd rho k v) n.
  Proof.
    intros rho k v n Hid Hops H. unfold node_ok in *.
    assert (Hm : map (vval args (upd rho k v)) (nops n) = map (vval args rho) (nops n)).
    { apply map_ext_in. intros w Hw. apply vval_upd. intros j Hj. subst. auto. }
    assert (Hr : upd rho k v (nid n) = rho (nid n)).
    { unfold upd. destruct (nid n =? k) eqn:E; auto. apply Z.eqb_eq in E. congruence. }
    destruct (is_class n).
    - intros m Hin. rewrite Hr. rewrite vval_upd. auto. intros j Hj. subst. auto.
    - destruct (is_ret n); auto. rewrite Hr, Hm. exact H.
  Qed.

  Lemma obs_upd : forall rho k v l,
      (forall n j, In n l -> In (VRes j) (nops n) -> j <> k) ->
      obs args (upd rho k v) l = obs args rho l.
  Proof.
    intros rho k v. induction l as [|n r IH]; intros H; auto. unfold obs in *. simpl.
    destruct (is_ret n); simpl.
    - f_equal. apply map_ext_in. intros w Hw. apply vval_upd. intros j Hj. subst. eapply H; eauto. left; auto.
      apply IH. intros m j Hm. apply H. right; auto.
    - apply IH. intros m j Hm. apply H. right; auto.
  Qed.

  Lemma obs_app : forall rho a b, obs args rho (a ++ b) = obs args rho a ++ obs args rho b.
  Proof. intros. unfold obs. rewrite filter_app, map_app. reflexivity. Qed.

  Lemma step_sem : forall rho next o pre post,
      (forall n, In n (pre ++ post) -> nid n < next /\ forall j, In (VRes j) (nops n) -> j < next) ->
      (forall x, o = VRes x -> x < next) ->
      models sem args rho (pre ++ post) ->
      let rho' := upd rho next (vval args rho o) in
      models sem args rho' (step_shape o next pre post) /\
      obs args rho' (step_shape o next pre post) = obs args rho (pre ++ post).
  Proof.
    intros rho next o pre post Hb Ho Hm rho'.
    assert (Hagree : forall n, In n (pre ++ post) -> node_ok sem args rho' n).
    { intros n Hn. destruct (Hb n Hn) as [B1 B2]. apply node_ok_upd; auto; try lia.
      intros j Hj. specialize (B2 j Hj). lia. }
    assert (Hvo : vval args rho' o = vval args rho' (VRes next)).
    { simpl. unfold rho' at 2. unfold upd. rewrite Z.eqb_refl. apply vval_upd.
      intros j Hj. specialize (Ho j Hj). lia. }
    split.
    - intros n Hn. unfold step_shape in Hn. apply in_app_or in Hn. destruct Hn as [Hn|[Hn|Hn]].
      + apply Hagree. apply in_or_app; auto.
      + subst n. unfold node_ok. simpl. intros m [Hm'|[]]. subst m. exact Hvo.
      + revert n Hn. apply models_replace; auto. intros n Hn. apply Hagree. apply in_or_app; auto.
    - unfold step_shape. rewrite obs_app. rewrite obs_app.
      assert (Hc : obs args rho' (class_node next o :: replace_uses_if not_ClassOp o (VRes next) post)
                   = obs args rho' (replace_uses_if not_ClassOp o (VRes next) post)) by reflexivity.
      rewrite Hc. rewrite obs_replace; auto.
      f_equal; apply obs_upd; intros n j Hn Hj.
      + destruct (Hb n (in_or_app _ _ _ (or_introl Hn))) as [_ B2]. specialize (B2 j Hj). lia.
      + destruct (Hb n (in_or_app _ _ _ (or_intror Hn))) as [_ B2]. specialize (B2 j Hj). lia.
  Qed.

End StepSem.

Lemma step_fine : forall o next pre post,
    (forall n, In n (pre ++ post) -> node_fine n) ->
    forall n', In n' (step_shape o next pre post) -> node_fine n'.
Proof.
  intros o next pre post H n' Hn'. destruct (step_shape_orig _ _ _ _ _ Hn') as [A|[n [A [B [C [D E]]]]]].
  - subst. unfold node_fine. simpl. repeat split; try discriminate.
  - destruct (H n A) as [F1 [F2 F3]]. unfold node_fine. rewrite E, D, (is_ret_name _ _ C). auto.
Qed.

Section Loops.
  Variable src : list node.

  Definition create_inv (next : Z) (todo : list Z) (B : list node) : Prop :=
    cinv next todo B /\ (forall n, In n B -> node_fine n) /\
    forall sem args rho0, models sem args rho0 src ->
      exists rho, models sem args rho B /\ obs args rho B = obs args rho0 src.

  Lemma full_step : forall next todo o pre post todo',
      create_inv next todo (pre ++ post) ->
      (forall n, In n pre -> ~ In o (nops n)) ->
      (match o with
       | VArg _ => True
       | VRes x => (exists xn, In xn pre /\ nid xn = x /\ plain xn) /\
                   (forall cl, In cl (pre ++ post) -> is_class cl = true -> ~ In (VRes x) (nops cl))
       end) ->
      (forall y, In y todo' -> In y todo /\ o <> VRes y) ->
      create_inv (next + 1) todo' (step_shape o next pre post).
  Proof.
    intros next todo o pre post todo' [Hc [Hf Hsem]] H1 H2 H3. split; [|split].
    - eapply step_inv; eauto.
    - apply step_fine; auto.
    - intros sem args rho0 Hm0. destruct (Hsem sem args rho0 Hm0) as [rho [Hm Hobs]].
      exists (upd rho next (vval args rho o)).
      destruct (step_sem sem args rho next o pre post) as [A B]; auto.
      + apply (c_bound _ _ _ Hc).
      + intros x Hx. subst o. destruct H2 as [[xn [Hxn [Hid _]]] _].
        destruct (c_bound _ _ _ Hc xn (in_or_app _ _ _ (or_introl Hxn))). lia.
      + split; auto. congruence.
  Qed.

  Lemma create_ops_full : forall snap B next,
      create_inv next (todo_ids snap) B ->
      NoDup (map nid snap) ->
      (forall s, In s snap -> exists n, In n B /\ nid n = nid s /\ nname n = nname s /\ nres n = nres s /\
                                        is_class n = false) ->
      exists B' next', create_ops snap B next = Ok (B', next') /\ create_inv next' [] B'.
  Proof.
    induction snap as [|s rest IH]; intros B next Hfull Hnd Hsrc.
    - exists B, next. split; auto.
    - simpl. inversion Hnd as [|? ? Hsni Hnd']; subst.
      assert (Hsrc' : forall s0, In s0 rest -> exists n, In n B /\ nid n = nid s0 /\ nname n = nname s0 /\
                                                         nres n = nres s0 /\ is_class n = false)
        by (intros; apply Hsrc; right; auto).
      destruct (nname s =? N_RET) eqn:Eret.
      + apply IH; auto. unfold todo_ids in *. simpl in Hfull. unfold is_ret in Hfull at 1.
        rewrite Eret in Hfull. exact Hfull.
      + destruct (Hsrc s (or_introl eq_refl)) as [xn [Hxn [Hxid [Hxnm [Hxres Hxcl]]]]].
        destruct Hfull as [Hc [Hf Hsem]].
        assert (Hxret : is_ret xn = false) by (unfold is_ret; rewrite Hxnm; exact Eret).
        assert (Hres1 : nres s = 1).
        { destruct (Hf xn Hxn) as [_ [_ F3]]. rewrite Hxret in F3. congruence. }
        rewrite Hres1. simpl.
        destruct (in_split xn B Hxn) as [pre [post HB]]. subst B.
        destruct (c_struct _ _ _ Hc) as [HndB HoB].
        rewrite <- Hxid. rewrite (ops_step_shape (nid xn) next pre xn post); auto.
        assert (Htodo_eq : todo_ids (s :: rest) = nid s :: todo_ids rest).
        { unfold todo_ids. simpl. unfold is_ret at 1. rewrite Eret. reflexivity. }
        assert (Hfull2 : create_inv (next + 1) (todo_ids rest) (step_shape (VRes (nid xn)) next (pre ++ [xn]) post)).
        { apply (full_step next (todo_ids (s :: rest))).
          - rewrite <- app_assoc. simpl. split; auto.
          - destruct (prefix_no_use pre xn post HndB HoB) as [_ Hnu]. exact Hnu.
          - split.
            + exists xn. split. apply in_or_app; right; left; auto. split; auto. split; auto.
            + rewrite <- app_assoc. simpl. intros cl Hcl Hclc.
              apply (c_todo _ _ _ Hc (nid xn) cl); auto. rewrite Htodo_eq. left. auto.
          - intros y Hy. split. rewrite Htodo_eq. right; auto.
            intro Heq. inversion Heq. apply Hsni. unfold todo_ids in Hy. apply in_map_iff in Hy.
            destruct Hy as [n [Hn Hin]]. apply filter_In in Hin. rewrite <- Hxid, H0, <- Hn. apply in_map. tauto. }
        apply IH; auto.
        intros s0 Hs0. destruct (Hsrc' s0 Hs0) as [n [Hn [A [B [C D]]]]].
        assert (Hn' : In n ((pre ++ [xn]) ++ post)) by (rewrite <- app_assoc; exact Hn).
        destruct (step_shape_conv (VRes (nid xn)) next (pre ++ [xn]) post n Hn') as [n' [A' [B' [C' D']]]].
        exists n'. split; auto. repeat split; try congruence. rewrite (is_class_name _ _ C'). exact D.
  Qed.

  Lemma create_args_full : forall ids B next,
      create_inv next [] B ->
      exists B' next', create_args ids B next = (B', next') /\ create_inv next' [] B'.
  Proof.
    induction ids as [|i rest IH]; intros B next Hfull; simpl.
    - exists B, next. auto.
    - change (replace_uses_if not_ClassOp (VArg i) (VRes next) (mk_class next (VArg i) :: B))
        with (step_shape (VArg i) next [] B).
      apply IH. apply (full_step next [] (VArg i) [] B []); auto; intros ? [].
  Qed.

End Loops.

Lemma exists_model : forall sem args body d rho,
    ordered d body -> NoDup (map nid body) -> (forall n, In n body -> is_class n = false) ->
    (forall j, In j d -> ~ In j (map nid body)) ->
    exists rho', (forall id, ~ In id (map nid body) -> rho' id = rho id) /\ models sem args rho' body.
Proof.
  intros sem args. induction body as [|n r IH]; intros d rho Ho Hnd Hnc Hd.
  - exists rho. split; auto. intros n [].
  - simpl in Ho. destruct Ho as [Hh Ht]. inversion Hnd as [|? ? Hni Hnd']; subst.
    set (v := sem (nname n) (nattr n) (map (vval args rho) (nops n))).
    destruct (IH (nid n :: d) (upd rho (nid n) v)) as [rho' [Hag Hm]]; auto.
    + intros m Hm. apply Hnc. right; auto.
    + intros j [Hj|Hj] Hin.
      * subst. auto.
      * apply (Hd j Hj). right. exact Hin.
    + exists rho'. split.
      * intros id Hid. rewrite Hag. unfold upd. destruct (id =? nid n) eqn:E; auto.
        apply Z.eqb_eq in E. subst. exfalso. apply Hid. left; auto.
        intro Hin. apply Hid. right. exact Hin.
      * intros m [Hm'|Hm']; [|apply Hm; auto]. subst m. unfold node_ok.
        rewrite (Hnc n (or_introl eq_refl)). destruct (is_ret n); auto.
        rewrite (Hag (nid n) Hni). unfold upd at 1. rewrite Z.eqb_refl. unfold v. f_equal.
        apply map_ext_in. intros w Hw. destruct w as [i|j]; simpl; auto.
        rewrite Hag. unfold upd. destruct (j =? nid n) eqn:E; auto.
        apply Z.eqb_eq in E. subst. exfalso. apply (Hd (nid n) (Hh _ Hw)). left; auto.
        intro Hin. apply (Hd j (Hh _ Hw)). right. exact Hin.
Qed.

Theorem create_ok : forall p,
    wf_src (p_body p) ->
    exists g,
      create p = Ok g /\ p_nargs g = p_nargs p /\
      (exists next, cinv next [] (p_body g)) /\ (forall n, In n (p_body g) -> node_fine n) /\
      forall sem args rho0, models sem args rho0 (p_body p) ->
        exists rho, models sem args rho (p_body g) /\ obs args rho (p_body g) = obs args rho0 (p_body p).
Proof.
  intros p Hwf. assert (Hwf' := Hwf). destruct Hwf' as [[Hnd Ho] [Hn [Hr Hru]]].
  destruct (create_ops_full (p_body p) (p_body p) (p_body p) (fresh_id (p_body p)))
    as [B1 [next1 [He1 Hf1]]]; auto.
  { split; [apply wf_src_cinv; auto|]. split; [intros n Hin; destruct (Hn n Hin); auto|]. eauto. }
  { intros s Hs. exists s. destruct (Hn s Hs). repeat split; auto. }
  destruct (create_args_full (p_body p) (arg_ids (p_nargs p)) B1 next1 Hf1)
    as [B2 [next2 [He2 [Hc2 [Hfine2 Hsem2]]]]].
  exists (Prog (p_nargs p) B2). unfold create. rewrite He1, He2. simpl. eauto 7.
Qed.

Section AllCostable.
  Variable body : list node.
  Variable dd : Z.
  Hypothesis Hnd : NoDup (map nid body).
  Hypothesis Hnb : forall n, In n body -> ncost n <> CBad.
  Hypothesis Hone : forall cl, In cl body -> is_class cl = true -> exists m, nops cl = [m].
  Hypothesis Hpl : forall cl j m, In cl body -> is_class cl = true -> In (VRes j) (nops cl) ->
                                  In m body -> nid m = j -> is_class m = false.

  Definition scope_costable (defs : list Z) : Prop :=
    forall j, In j defs -> exists nj, find_node j body = Some nj /\
                                      (forall j', In (VRes j') (nops nj) -> In j' defs) /\
                                      (is_class nj = true -> costable body (Some dd) j).

  Lemma costable_walk : forall l defs,
      (forall n, In n l -> In n body) -> ordered defs l -> scope_costable defs ->
      forall cl, In cl l -> is_class cl = true -> costable body (Some dd) (nid cl).
  Proof.
    induction l as [|n r IH]; simpl; intros defs Hsub Ho HQ cl Hcl Hclc; try tauto.
    destruct Ho as [Hh Ht]. assert (Hn : In n body) by (apply Hsub; left; auto).
    assert (Hcn : is_class n = true -> costable body (Some dd) (nid n)).
    { intro Hc. destruct (Hone n Hn Hc) as [m Hm]. apply (costable_intro body (Some dd) n m); auto.
      { rewrite Hm. left; auto. }
      destruct m as [i|y]; [constructor|].
      assert (Hy : In y defs) by (apply Hh; rewrite Hm; left; auto).
      destruct (HQ y Hy) as [ny [Hfy [Hopsy _]]].
      assert (Hyn := Hfy). apply find_node_In in Hyn. destruct Hyn as [Hny Hyid].
      assert (Hncl : is_class ny = false).
      { apply (Hpl n y ny); auto. rewrite Hm. left; auto. }
      assert (Hbc : exists nc, base_cost ny (Some dd) = Ok (Some nc)).
      { unfold base_cost. specialize (Hnb ny Hny). destruct (ncost ny); eauto. congruence. }
      destruct Hbc as [nc Hbc]. apply (mo_op body (Some dd) y ny nc); auto.
      intros j' dj Hj' Hfj Hdc. destruct (HQ j' (Hopsy j' Hj')) as [nj' [Hfj' [_ Hc']]].
      rewrite Hfj in Hfj'. inversion Hfj'; subst. auto. }
    assert (HQ' : scope_costable (nid n :: defs)).
    { intros j [Hj|Hj].
      - subst j. exists n. split. apply find_node_NoDup; auto. split; auto. intros j' Hj'. right. auto.
      - destruct (HQ j Hj) as [nj [A [B C]]]. exists nj. split; auto. split; auto. intros j' Hj'. right. auto. }
    destruct Hcl as [Hcl|Hcl].
    - subst cl. auto.
    - apply (IH (nid n :: defs)); auto.
  Qed.

  Lemma all_costable : ordered [] body ->
      forall cl, In cl body -> is_class cl = true -> costable body (Some dd) (nid cl).
  Proof. intros Ho. apply (costable_walk body []); auto. intros j []. Qed.
End AllCostable.

Lemma keeps_structural : forall f b, keeps f -> structural b -> structural (map f b).
Proof.
  intros f b Hf [Hnd Ho]. split; [rewrite keeps_ids; assumption|]. apply ordered_map; [|exact Ho].
  intro n. destruct (Hf n) as [H1 [_ [_ [H4 _]]]]. auto.
Qed.

Lemma keeps_members_ok : forall f b, keeps f -> members_ok b -> members_ok (map f b).
Proof.
  intros f b Hf Hm cn' Hcn' Hcl'. apply in_map_iff in Hcn'. destruct Hcn' as [cn [<- Hcn]].
  destruct (Hf cn) as [A1 [A2 [_ [A4 _]]]]. rewrite (is_class_name _ _ A2) in Hcl'.
  destruct (Hm cn Hcn Hcl') as [Hnd Hj]. rewrite A4. split; auto.
  intros j Hjin. destruct (Hj j Hjin) as [Hp Hu]. split.
  - intros m' Hm' Hmid. apply in_map_iff in Hm'. destruct Hm' as [m [<- Hm0]]. destruct (Hf m) as [B1 [B2 _]].
    destruct (Hp m Hm0) as [P1 P2]; [congruence|].
    split; [rewrite (is_class_name _ _ B2) | rewrite (is_ret_name _ _ B2)]; assumption.
  - intros n' Hn' Hu'. apply in_map_iff in Hn'. destruct Hn' as [n [<- Hn0]].
    destruct (Hf n) as [B1 [_ [_ [B4 _]]]]. rewrite B1, A1. apply Hu; auto. rewrite <- B4. exact Hu'.
Qed.

Lemma keeps_has_ret : forall f b, keeps f -> has_ret b -> has_ret (map f b).
Proof.
  intros f b Hf [n [Hn Hr]]. exists (f n). split; [apply in_map; exact Hn|].
  destruct (Hf n) as [_ [H2 _]]. rewrite (is_ret_name _ _ H2). exact Hr.
Qed.

Lemma add_costs_created : forall fuel dd dict g next,
    cinv next [] (p_body g) -> (forall n, In n (p_body g) -> node_fine n) ->
    add_costs fuel (Some dd) dict g <> OutOfFuel ->
    exists g', add_costs fuel (Some dd) dict g = Ok g' /\ wf_egraph (p_body g').
Proof.
  intros fuel dd dict g next Hc Hfine Hnoof. destruct (c_struct _ _ _ Hc) as [Hnd Ho].
  set (b1 := map (fp (Some dd) dict) (p_body g)).
  assert (Hk1 := fp_keeps (Some dd) dict).
  destruct (keeps_structural _ _ Hk1 (conj Hnd Ho)) as [Hnd1 Ho1]. fold b1 in Hnd1, Ho1.
  assert (Hnb1 : forall n, In n b1 -> ncost n <> CBad).
  { intros n Hn. apply in_map_iff in Hn. destruct Hn as [n0 [<- Hn0]].
    destruct (fp_cost (Some dd) dict n0) as [E|[c [E _]]]; rewrite E; [apply (Hfine n0 Hn0) | discriminate]. }
  assert (Hfp : first_pass (Some dd) dict (p_body g) = Ok b1).
  { destruct (first_pass_cases (Some dd) dict (p_body g)) as [E|[_ [n [Hn [H0 H1]]]]]; [exact E|].
    destruct (Hfine n Hn) as [_ [_ F]]. destruct (is_ret n); contradiction. }
  destruct (add_costs fuel (Some dd) dict g) as [g'|e|] eqn:Eg; [|exfalso|contradiction].
  - exists g'. split; [reflexivity|]. destruct (add_costs_map _ _ _ _ _ Eg) as [_ [f [Hf Hb]]].
    split; [|split; [|split]].
    + rewrite Hb. apply keeps_structural; [exact Hf | split; assumption].
    + rewrite Hb. apply keeps_members_ok; [exact Hf | apply (c_members _ _ _ Hc)].
    + unfold add_costs in Eg. destruct (existsb is_class (p_body g)) eqn:Ex.
      * (* every class is costable, hence chosen *)
        destruct (add_eqsat_costs fuel (Some dd) dict (p_body g)) as [b'| |] eqn:Ea; inversion Eg; subst g'.
        destruct (costable_chosen _ _ _ _ _ Hnd Ea) as [b1' [Hb1' Hch]].
        rewrite Hfp in Hb1'. inversion Hb1'; subst b1'. simpl.
        intros c' Hc' Hcl'. apply Hch; auto. simpl in Hb. rewrite Hb in Hc'.
        apply in_map_iff in Hc'. destruct Hc' as [c0 [<- Hc0]]. destruct (Hf c0) as [A1 [A2 _]].
        rewrite A1. rewrite (is_class_name _ _ A2) in Hcl'.
        destruct (Hk1 c0) as [B1 [B2 _]]. rewrite <- B1.
        apply all_costable; auto.
        -- intros cl Hcl Hclc. apply in_map_iff in Hcl. destruct Hcl as [cl0 [<- Hcl0]].
           destruct (Hk1 cl0) as [_ [C2 [_ [C4 _]]]].
           rewrite C4. apply (c_cls _ _ _ Hc cl0 Hcl0). rewrite <- (is_class_name _ _ C2). exact Hclc.
        -- intros cl j m Hcl Hclc Hj Hm Hmid.
           destruct (keeps_members_ok _ _ Hk1 (c_members _ _ _ Hc) cl Hcl Hclc) as [_ Hmm].
           destruct (Hmm j Hj) as [Hp _]. destruct (Hp m Hm Hmid). auto.
        -- apply (in_map (fp (Some dd) dict)). exact Hc0.
        -- rewrite (is_class_name _ _ B2). exact Hcl'.
      * inversion Eg; subst g'. intros cn Hcn Hcl.
        assert (existsb is_class (p_body g) = true) by (apply existsb_exists; eauto). congruence.
    + rewrite Hb. apply keeps_has_ret; [exact Hf | apply (c_ret _ _ _ Hc)].
  - (* no exception *)
    unfold add_costs, add_eqsat_costs in Eg. rewrite Hfp in Eg.
    destruct (existsb is_class (p_body g)); [|discriminate].
    destruct (fix_loop fuel b1 (Some dd) [] []) as [[cs ms]| |] eqn:Efl; try discriminate.
    revert Efl. apply fix_loop_no_err. split; [exact Hnb1|].
    intros n Hn j Hj. destruct (ordered_ops_in _ _ _ _ Ho1 Hn Hj) as [A|[]]. apply find_node_some; auto.
Qed.

Theorem create_extract_id : forall p d dict,
    wf_src (p_body p) -> 0 <= d -> (forall k c, lookup k dict = Some c -> 0 <= c) ->
    exists fuel, forall k, exists g g' p',
      create p = Ok g /\ add_costs (fuel + k) (Some d) dict g = Ok g' /\ extract g' = Ok p' /\
      (forall n, In n (p_body p') -> is_class n = false) /\
      forall sem args, exists rs, eval sem args p = Some rs /\ eval sem args p' = Some rs.
Proof.
  intros p d dict Hwf Hd Hdict.
  destruct (create_ok p Hwf) as [g [Hcr [Hna [[next Hc] [Hfine Hsem]]]]].
  assert (Hpre : forall n c, In n (p_body g) -> ncost n = CInt c -> 0 <= c).
  { intros n c Hn Hcn. destruct (Hfine n Hn) as [_ [F _]]. eauto. }
  assert (Hdef : forall c, Some d = Some c -> 0 <= c) by (intros c Hc'; inversion Hc'; subst; auto).
  destruct (add_costs_terminates (Some d) dict g Hpre Hdict Hdef) as [fuel Hfuel].
  exists fuel. intro k. destruct (Hfuel k) as [Hnoof _].
  destruct (add_costs_created _ _ _ _ _ Hc Hfine Hnoof) as [g' [Hg' Hwf']].
  destruct (extract_total (fun _ _ _ => 0) (fun _ => 0) g' Hwf') as [p' [_ [Hex [Hnc _]]]].
  exists g, g', p'. repeat split; auto.
  intros sem args.
  destruct (extract_total sem args g' Hwf') as [p2 [rs [Hex2 [_ Hev]]]].
  rewrite Hex in Hex2. inversion Hex2; subst p2.
  exists rs. split; auto.
  (* the source is executable and returns rho0's values; the extracted function returns rho's *)
  destruct Hwf as [[Hnds Hos] [Hns [Hrs _]]].
  assert (Hsc : forall n, In n (p_body p) -> is_class n = false) by (intros n Hn; apply (Hns n Hn)).
  destruct (exists_model sem args (p_body p) [] (fun _ => 0)) as [rho0 [_ Hm0]]; auto.
  destruct (Hsem sem args rho0 Hm0) as [rho [Hm Hobs]].
  destruct (eval_total sem args (p_body p) [] [] Hos) as [rs0 Hrs0]; auto. { intros j []. }
  assert (H0 : hd_error (obs args rho0 (p_body p)) = Some rs0).
  { eapply eval_models; eauto. intros id v Hl. discriminate. }
  assert (H1 : hd_error (obs args rho (p_body g)) = Some rs).
  { eapply costs_extract_sound; eauto. split; [apply (c_struct _ _ _ Hc) | apply (c_ru _ _ _ Hc)]. }
  unfold eval. rewrite Hrs0. f_equal. congruence.
Qed.
