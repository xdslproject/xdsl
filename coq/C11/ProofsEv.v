(* C11/ProofsEv.v -- the heap model `cir_sem` (C11/IR.v) satisfies Proofs.EvLaws: which operations
   each primitive mutation can create, kill, or change the operand list of.  The same walk through
   each primitive also shows that none but erase kills an operation, which ProofsLive.v turns into
   Proofs.StructLaws. *)
From Coq Require Import List Arith Bool ZArith Lia.
From XV Require Import C11.Model C11.IR C11.Proofs.
Import ListNotations.

Lemma aget_aset {A} (m : amap A) k (v : A) k' :
  aget (aset m k v) k' = if Nat.eqb k' k then Some v else aget m k'.
Proof.
  induction m as [|[k0 v0] r IH]; simpl.
  - destruct (Nat.eqb k' k); reflexivity.
  - destruct (Nat.eqb k k0) eqn:E; simpl.
    + apply Nat.eqb_eq in E. subst k0. destruct (Nat.eqb k' k); reflexivity.
    + rewrite IH. destruct (Nat.eqb k' k0) eqn:E0; auto.
      apply Nat.eqb_eq in E0. subst k0.
      destruct (Nat.eqb k' k) eqn:E1; auto. apply Nat.eqb_eq in E1. subst. rewrite Nat.eqb_refl in E. discriminate.
Qed.

Lemma aget_in_keys {A} (m : amap A) k v : aget m k = Some v -> In k (map fst m).
Proof.
  induction m as [|[k0 v0] r IH]; simpl; [discriminate|].
  destruct (Nat.eqb k k0) eqn:E; intros H.
  - apply Nat.eqb_eq in E. auto.
  - right. auto.
Qed.

Definition aupd {A} (m : amap A) (k : nat) (f : A -> A) : amap A :=
  match aget m k with Some r => aset m k (f r) | None => m end.

Lemma aget_aupd {A} (m : amap A) k f k' :
  aget (aupd m k f) k' = if Nat.eqb k' k then option_map f (aget m k) else aget m k'.
Proof.
  unfold aupd. destruct (aget m k) as [r|] eqn:E.
  - rewrite aget_aset. reflexivity.
  - destruct (Nat.eqb k' k) eqn:Ek; [|reflexivity]. apply Nat.eqb_eq in Ek. subst k'. exact E.
Qed.

Lemma table_upd_op c k f : c_ops (upd_op c k f) = aupd (c_ops c) k f.
Proof. unfold upd_op, aupd. destruct (aget (c_ops c) k); reflexivity. Qed.
Lemma table_upd_blk c k f : c_blks (upd_blk c k f) = aupd (c_blks c) k f.
Proof. unfold upd_blk, aupd. destruct (aget (c_blks c) k); reflexivity. Qed.
Lemma table_upd_reg c k f : c_regs (upd_reg c k f) = aupd (c_regs c) k f.
Proof. unfold upd_reg, aupd. destruct (aget (c_regs c) k); reflexivity. Qed.
Lemma table_upd_val c k f : c_vals (upd_val c k f) = aupd (c_vals c) k f.
Proof. unfold upd_val, aupd. destruct (aget (c_vals c) k); reflexivity. Qed.

Definition info (c : cir) (o : op) : option (list operand * bool) :=
  option_map (fun r => (o_operands r, o_dead r)) (aget (c_ops c) o).

Lemma operands_info c o :
  g_operands c o = match info c o with Some (l, _) => l | None => [] end.
Proof. unfold g_operands, info. destruct (aget (c_ops c) o); reflexivity. Qed.

Lemma alive_info c o : In o (g_alive c) <-> exists l, info c o = Some (l, false).
Proof.
  unfold g_alive, op_alive, info. rewrite filter_In. split.
  - intros [_ H]. destruct (aget (c_ops c) o) as [r|]; [|discriminate].
    exists (o_operands r). simpl. destruct (o_dead r); [discriminate|reflexivity].
  - intros [l H]. destruct (aget (c_ops c) o) as [r|] eqn:E; [|discriminate].
    simpl in H. inversion H. split; [eapply aget_in_keys; eauto|].
    rewrite H2. reflexivity.
Qed.

Lemma same_info_not_changed c c' o : info c' o = info c o -> ~ changed cir_sem c c' o.
Proof.
  intros E [H|[[H1 H2]|[H1 H2]]]; simpl in *.
  - apply H. rewrite !operands_info, E. reflexivity.
  - apply H2. apply alive_info. apply alive_info in H1. rewrite E. exact H1.
  - apply H1. apply alive_info. apply alive_info in H2. rewrite <- E. exact H2.
Qed.

(* `keeps S c c'`: outside S, no op changes its operand list or dead flag.
   `nokill c c'`: every op alive in c is alive in c'.
   `frame S c c'`: both -- what every primitive except erase does to the operation table, S being the
   operations it may touch. *)
Definition keeps (S : list op) (c c' : cir) : Prop := forall o, ~ In o S -> info c' o = info c o.
Definition nokill (c c' : cir) : Prop := forall o, In o (g_alive c) -> In o (g_alive c').
Definition frame (S : list op) (c c' : cir) : Prop := keeps S c c' /\ nokill c c'.

Lemma frame_refl S c : frame S c c.
Proof. split; [intros o _; reflexivity | intros o H; exact H]. Qed.
Lemma frame_trans S c c1 c2 : frame S c c1 -> frame S c1 c2 -> frame S c c2.
Proof.
  intros [K1 N1] [K2 N2]. split; [intros o Ho; rewrite K2, K1; auto | intros o H; auto].
Qed.
Lemma frame_weaken S S' c c' : (forall o, In o S -> In o S') -> frame S c c' -> frame S' c c'.
Proof. intros Hs [K N]. split; [|exact N]. intros o Ho. apply K. intro. apply Ho. auto. Qed.
Lemma frame_ops_eq S c c' : c_ops c' = c_ops c -> frame S c c'.
Proof.
  intros E. split; [intros o _; unfold info; rewrite E; reflexivity|].
  intros o H. apply alive_info. apply alive_info in H. unfold info in *. rewrite E. exact H.
Qed.
Lemma frame_fold {A} S (step : cir -> A -> cir) (l : list A) :
  (forall c x, In x l -> frame S c (step c x)) -> forall c, frame S c (fold_left step l c).
Proof.
  induction l as [|x l IH]; simpl; intros H c.
  - apply frame_refl.
  - eapply frame_trans; [apply H; auto|]. apply IH. intros; apply H; auto.
Qed.

Lemma ops_upd_val c v f : c_ops (upd_val c v f) = c_ops c.
Proof. unfold upd_val. destruct (aget (c_vals c) v); reflexivity. Qed.
Lemma ops_upd_blk c b f : c_ops (upd_blk c b f) = c_ops c.
Proof. unfold upd_blk. destruct (aget (c_blks c) b); reflexivity. Qed.
Lemma ops_upd_reg c g f : c_ops (upd_reg c g f) = c_ops c.
Proof. unfold upd_reg. destruct (aget (c_regs c) g); reflexivity. Qed.
Lemma ops_add_use c v u : c_ops (add_use c v u) = c_ops c.
Proof. apply ops_upd_val. Qed.
Lemma ops_remove_use c v u : c_ops (remove_use c v u) = c_ops c.
Proof. apply ops_upd_val. Qed.

Lemma ops_fold {A} (step : cir -> A -> cir) (l : list A) :
  (forall c x, c_ops (step c x) = c_ops c) -> forall c, c_ops (fold_left step l c) = c_ops c.
Proof. induction l as [|x l IH]; simpl; intros H c; auto. rewrite IH; auto. Qed.

Lemma ops_alloc_vals tys : forall c ow, c_ops (fst (alloc_vals c ow tys)) = c_ops c.
Proof.
  induction tys as [|t r IH]; simpl; intros c ow; auto.
  destruct (alloc_vals _ ow r) as [c2 vs] eqn:E. simpl.
  specialize (IH (with_next (with_vals c (aset (c_vals c) (c_next c) {| v_type := t; v_owner := ow; v_uses := [] |})) (S (c_next c))) ow).
  rewrite E in IH. simpl in IH. exact IH.
Qed.
Lemma ops_mk_block c id tys : c_ops (mk_block c id tys) = c_ops c.
Proof.
  unfold mk_block. pose proof (ops_alloc_vals tys c (VOBlock id)) as H.
  destruct (alloc_vals c (VOBlock id) tys) as [c1 vs]. simpl in *. exact H.
Qed.
Lemma ops_mk_region c p : c_ops (fst (mk_region c p)) = c_ops c.
Proof. reflexivity. Qed.
Lemma ops_append_block c g b : c_ops (append_block c g b) = c_ops c.
Proof. unfold append_block. rewrite ops_upd_blk, ops_upd_reg. reflexivity. Qed.
Lemma ops_place_blocks c bs tgt : c_ops (place_blocks c bs tgt) = c_ops c.
Proof.
  unfold place_blocks. destruct tgt as [g before].
  rewrite ops_fold; [apply ops_upd_reg|]. intros; apply ops_upd_blk.
Qed.
Lemma ops_add_uses_from vs : forall c o i, c_ops (add_uses_from c o i vs) = c_ops c.
Proof. induction vs as [|v r IH]; simpl; intros; auto. rewrite IH. apply ops_add_use. Qed.

Lemma info_upd_op c k f o :
  info (upd_op c k f) o =
  if Nat.eqb o k then option_map (fun r => (o_operands (f r), o_dead (f r))) (aget (c_ops c) k)
  else info c o.
Proof.
  unfold info. rewrite table_upd_op, aget_aupd.
  destruct (Nat.eqb o k); [destruct (aget (c_ops c) k)|]; reflexivity.
Qed.

Lemma frame_upd_op S c k f :
  (forall r, o_dead (f r) = o_dead r) -> In k S \/ (forall r, o_operands (f r) = o_operands r) ->
  frame S c (upd_op c k f).
Proof.
  intros Hd Hk. split.
  - intros o Ho. rewrite info_upd_op. destruct (Nat.eqb o k) eqn:E; [|reflexivity].
    apply Nat.eqb_eq in E. subst o. destruct Hk as [Hk|Hk]; [contradiction|].
    unfold info. destruct (aget (c_ops c) k) as [r|]; simpl; [rewrite Hk, Hd|]; reflexivity.
  - intros o H. apply alive_info. apply alive_info in H. destruct H as [l H].
    rewrite info_upd_op. destruct (Nat.eqb o k) eqn:E; [|eauto].
    apply Nat.eqb_eq in E. subst o. unfold info in H. destruct (aget (c_ops c) k) as [r|]; [|discriminate].
    simpl in *. inversion H. rewrite Hd. eauto.
Qed.

Lemma nokill_ops_eq c c' : c_ops c' = c_ops c -> nokill c c'.
Proof. intros E. exact (proj2 (frame_ops_eq [] c c' E)). Qed.
Lemma nokill_upd_op c k f : (forall r, o_dead (f r) = o_dead r) -> nokill c (upd_op c k f).
Proof. intros Hd. exact (proj2 (frame_upd_op [k] c k f Hd (or_introl (or_introl eq_refl)))). Qed.

Lemma frame_place_ops S c os tgt : frame S c (place_ops c os tgt).
Proof.
  unfold place_ops. destruct tgt as [b before].
  eapply frame_trans; [apply frame_ops_eq, ops_upd_blk|].
  apply frame_fold. intros c0 x _. apply frame_upd_op; [|right]; reflexivity.
Qed.

Lemma frame_set_operand S c u x : In (fst u) S -> frame S c (set_operand c u x).
Proof. intros H. unfold set_operand. apply frame_upd_op; [reflexivity | left; exact H]. Qed.

Lemma frame_move_use S v t c u : In (fst u) S -> frame S c (move_use v t c u).
Proof.
  intros H. unfold move_use.
  eapply frame_trans; [apply frame_set_operand; exact H|].
  eapply frame_trans; [apply frame_ops_eq, ops_remove_use|]. apply frame_ops_eq, ops_add_use.
Qed.

Lemma frame_rauw v t c : frame (map fst (g_uses c v)) c (cp_rauw v t c).
Proof.
  unfold cp_rauw. destruct (Nat.eqb v t); [apply frame_refl|].
  apply frame_fold. intros c0 u Hu. apply frame_move_use. apply in_map. exact Hu.
Qed.

Lemma frame_erase_value v c : frame (map fst (g_uses c v)) c (cp_erase_value v c).
Proof.
  unfold cp_erase_value. apply frame_fold. intros c0 u Hu.
  eapply frame_trans; [apply frame_set_operand; apply in_map; exact Hu|].
  apply frame_ops_eq, ops_remove_use.
Qed.

Lemma frame_rauw_if v t p c :
  frame (map fst (filter (eval_upred p) (g_uses c v))) c (cp_rauw_if v t p c).
Proof.
  unfold cp_rauw_if. apply frame_fold. intros c0 u Hu.
  destruct (eval_upred p u) eqn:E; [|apply frame_refl].
  apply frame_move_use. apply in_map. apply filter_In. auto.
Qed.

Lemma ops_drop_operand_uses c s : c_ops (drop_operand_uses c s) = c_ops c.
Proof.
  unfold drop_operand_uses. generalize (g_operands c s) as l. generalize 0 as i.
  assert (G : forall l i c0, c_ops (fst (fold_left
              (fun (acc : cir * nat) (x : operand) =>
                 let '(c, i) := acc in
                 (match x with OVal v => remove_use c v (s, i) | OErased => c end, S i)) l (c0, i))) = c_ops c0).
  { induction l as [|x l IH]; simpl; intros i c0; auto.
    rewrite IH. destruct x; auto. apply ops_remove_use. }
  intros i l. apply G.
Qed.

Lemma keeps_erase o1 c : keeps (g_subops c o1) c (cp_erase o1 c).
Proof.
  unfold cp_erase. intros o Ho.
  assert (G : forall l c0, ~ In o l -> info (fold_left (fun c s => upd_op c s set_dead) l c0) o = info c0 o).
  { induction l as [|s l IH]; simpl; intros c0 Hl; [reflexivity|].
    rewrite IH, info_upd_op by tauto. destruct (Nat.eqb o s) eqn:E; [|reflexivity].
    apply Nat.eqb_eq in E. subst s. tauto. }
  rewrite G by exact Ho. unfold info. rewrite ops_fold by apply ops_drop_operand_uses.
  destruct (g_parent c o1); [rewrite ops_upd_blk|]; reflexivity.
Qed.

Lemma info_mk_op c id pure st opers restys o :
  info (mk_op c id pure st opers restys) o =
  if Nat.eqb o id then Some (map OVal opers, false) else info c o.
Proof.
  unfold mk_op.
  pose proof (ops_alloc_vals restys (add_uses_from c id 0 opers) (VOOp id)) as H.
  destruct (alloc_vals (add_uses_from c id 0 opers) (VOOp id) restys) as [c2 rs]. simpl in H.
  unfold info. simpl. rewrite aget_aset. destruct (Nat.eqb o id); [reflexivity|].
  rewrite H, ops_add_uses_from. reflexivity.
Qed.
Lemma frame_mk_op S c id pure st opers restys :
  In id S -> frame S c (mk_op c id pure st opers restys) /\ In id (g_alive (mk_op c id pure st opers restys)).
Proof.
  intros Hid. split; [split|].
  - intros o Ho. rewrite info_mk_op. destruct (Nat.eqb o id) eqn:E; [|reflexivity].
    apply Nat.eqb_eq in E. subst o. contradiction.
  - intros o H. apply alive_info. apply alive_info in H. destruct H as [l H].
    rewrite info_mk_op. destruct (Nat.eqb o id); eauto.
  - apply alive_info. rewrite info_mk_op, Nat.eqb_refl. eauto.
Qed.

Lemma frame_append_op S c b o : frame S c (append_op c b o).
Proof.
  unfold append_op. eapply frame_trans; [apply frame_ops_eq, ops_upd_blk|].
  apply frame_upd_op; [|right]; reflexivity.
Qed.

Lemma frame_attach_regions S c o gs : frame S c (attach_regions c o gs).
Proof.
  unfold attach_regions.
  apply frame_trans with (c1 := upd_op c o (fun r => set_regions (o_regions r ++ gs) r)).
  - apply frame_upd_op; [|right]; reflexivity.
  - apply frame_ops_eq. apply ops_fold. intros; apply ops_upd_reg.
Qed.

Lemma frame_create_leaf S c b l : In (lf_id l) S -> frame S c (create_leaf c b l).
Proof.
  intros H. unfold create_leaf.
  eapply frame_trans; [apply frame_mk_op; exact H | apply frame_append_op].
Qed.

Lemma frame_create_blk S c g nb :
  (forall l, In l (nb_body nb) -> In (lf_id l) S) -> frame S c (create_blk c g nb).
Proof.
  intros H. unfold create_blk.
  set (c1 := mk_block c (nb_id nb) (nb_argtys nb)).
  apply frame_trans with (c1 := c1); [apply frame_ops_eq, ops_mk_block|].
  apply frame_trans with (c1 := fold_left (fun c l => create_leaf c (nb_id nb) l) (nb_body nb) c1).
  - apply frame_fold. intros c0 l Hl. apply frame_create_leaf. auto.
  - apply frame_ops_eq, ops_append_block.
Qed.

(* create_new: the regions first, by a fold of this step over the regions of the new op *)
Definition new_region_step (limbo0 : list nat) (acc : cir * list nat) (nr : newreg) : cir * list nat :=
  let '(c, gs) := acc in
  match nr with
  | NRFresh bs => let '(c1, g) := mk_region c None in
                  (fold_left (fun c nb => create_blk c g nb) bs c1, gs ++ [g])
  | NRLimbo k => (c, gs ++ [nth k limbo0 0])
  end.
Lemma create_new_eq limbo0 c n :
  create_new limbo0 c n =
  let '(c1, gs) := fold_left (new_region_step limbo0) (no_regions n) (c, []) in
  attach_regions (mk_op c1 (no_id n) (no_pure n) 0 (no_operands n) (no_restys n)) (no_id n) gs.
Proof. reflexivity. Qed.

Lemma frame_create_new limbo0 c n :
  frame (newop_ids n) c (create_new limbo0 c n) /\ In (no_id n) (g_alive (create_new limbo0 c n)).
Proof.
  rewrite create_new_eq. set (step := new_region_step limbo0).
  assert (G : forall rs acc, (forall g, In g rs -> In g (no_regions n)) ->
                frame (newop_ids n) (fst acc) (fst (fold_left step rs acc))).
  { induction rs as [|nr rs IH]; simpl; intros acc Hin; [apply frame_refl|].
    eapply frame_trans; [|apply IH; intros; apply Hin; auto].
    destruct acc as [c0 gs]. simpl. destruct nr as [bs|k]; simpl; [|apply frame_refl].
    match goal with |- frame _ _ (fold_left _ _ ?cc) =>
      apply frame_trans with (c1 := cc); [apply frame_ops_eq; reflexivity|] end.
    apply frame_fold. intros c1 nb Hnb. apply frame_create_blk. intros l Hl.
    unfold newop_ids. right. apply in_flat_map. exists (NRFresh bs). split; [apply Hin; auto|].
    apply in_flat_map. exists nb. split; auto. apply in_map. exact Hl. }
  specialize (G (no_regions n) (c, []) (fun g H => H)).
  destruct (fold_left step (no_regions n) (c, [])) as [c1 gs]. simpl in G.
  destruct (frame_mk_op (newop_ids n) c1 (no_id n) (no_pure n) 0 (no_operands n) (no_restys n)
              (or_introl eq_refl)) as [Hm Ha].
  split.
  - eapply frame_trans; [exact G|]. eapply frame_trans; [exact Hm | apply frame_attach_regions].
  - apply (proj2 (frame_attach_regions [] _ _ _)). exact Ha.
Qed.

Lemma frame_insert news ip c :
  frame (flat_map newop_ids news) c (cp_insert news ip c) /\
  (ip_target c ip <> None -> forall n, In n news -> In (no_id n) (g_alive (cp_insert news ip c))).
Proof.
  unfold cp_insert. destruct (ip_target c ip) as [tgt|]; [|split; [apply frame_refl | congruence]].
  set (limbo0 := c_limbo c). set (S := flat_map newop_ids news).
  assert (G : forall l c0, (forall n, In n l -> In n news) ->
                frame S c0 (fold_left (create_new limbo0) l c0) /\
                forall n, In n l -> In (no_id n) (g_alive (fold_left (create_new limbo0) l c0))).
  { induction l as [|n l IH]; simpl; intros c0 Hl; [split; [apply frame_refl | intros n []]|].
    destruct (frame_create_new limbo0 c0 n) as [Hf Ha].
    destruct (IH (create_new limbo0 c0 n) (fun n' H => Hl n' (or_intror H))) as [Hf' Ha'].
    split.
    - eapply frame_trans; [|exact Hf']. eapply frame_weaken; [|exact Hf].
      intros o Ho. apply in_flat_map. exists n. auto.
    - intros n' [<-|Hn]; [apply (proj2 Hf'); exact Ha | apply Ha'; exact Hn]. }
  destruct (G news c (fun n H => H)) as [Hf Ha].
  assert (Hfin : frame S (fold_left (create_new limbo0) news c)
                   (place_ops (with_limbo (fold_left (create_new limbo0) news c)
                                          (drop_limbo limbo0 (limbo_used news))) (map no_id news) tgt)).
  { apply frame_trans with (c1 := with_limbo (fold_left (create_new limbo0) news c)
                                               (drop_limbo limbo0 (limbo_used news)));
      [apply frame_ops_eq; reflexivity | apply frame_place_ops]. }
  split.
  - eapply frame_trans; [exact Hf | exact Hfin].
  - intros _ n Hn. apply (proj2 Hfin). apply Ha. exact Hn.
Qed.

(* inline_block: the arguments of the block are replaced first, then its operations move *)
Lemma frame_inline_block b ip args c :
  nokill c (cp_inline_block b ip args c) /\ (args = [] -> frame [] c (cp_inline_block b ip args c)).
Proof.
  unfold cp_inline_block. destruct (ip_target c ip) as [tgt|]; [|split; [intros o H; exact H | intros _; apply frame_refl]].
  set (c1 := fold_left (fun c av => cp_rauw (fst av) (snd av) c) (combine (g_bargs c b) args) c).
  assert (H1 : nokill c c1 /\ (args = [] -> c1 = c)).
  { split; [|intros ->; unfold c1; rewrite combine_nil; reflexivity].
    assert (G : forall l c0, nokill c0 (fold_left (fun c av => cp_rauw (fst av) (snd av) c) l c0)).
    { induction l as [|av l IH]; simpl; intros c0 o Ho; [exact Ho|].
      apply IH. apply (proj2 (frame_rauw (fst av) (snd av) c0)). exact Ho. }
    apply G. }
  set (c3 := place_ops (upd_blk c1 b (set_bops [])) (g_bops c1 b) tgt).
  assert (H3 : frame [] c1 c3).
  { unfold c3. eapply frame_trans; [apply frame_ops_eq, ops_upd_blk | apply frame_place_ops]. }
  assert (H4 : frame [] c1 (match g_bparent c3 b with
                            | Some g => upd_blk (upd_reg c3 g (fun r => set_rblocks (remove1 b (r_blocks r)) r)) b (set_bparent None)
                            | None => c3 end)).
  { destruct (g_bparent c3 b); [|exact H3].
    eapply frame_trans; [exact H3|]. apply frame_ops_eq. rewrite ops_upd_blk, ops_upd_reg. reflexivity. }
  split.
  - intros o Ho. apply (proj2 H4). apply (proj1 H1). exact Ho.
  - intros E. rewrite (proj2 H1 E) in H4. exact H4.
Qed.

Lemma ops_move_region o k c : c_ops (cp_move_region o k c) = c_ops c.
Proof.
  unfold cp_move_region. destruct (nth_error (g_regions c o) k); auto.
  simpl. rewrite ops_fold; [|intros; apply ops_upd_blk]. rewrite !ops_upd_reg. reflexivity.
Qed.
Lemma ops_inline_region o k bp c : c_ops (cp_inline_region o k bp c) = c_ops c.
Proof.
  unfold cp_inline_region. destruct (nth_error (g_regions c o) k); auto.
  destruct (bp_target c bp); auto. rewrite ops_place_blocks, ops_upd_reg. reflexivity.
Qed.
Lemma ops_create_block id bp tys c : c_ops (cp_create_block id bp tys c) = c_ops c.
Proof.
  unfold cp_create_block. destruct (bp_target c bp); auto. rewrite ops_place_blocks, ops_mk_block. reflexivity.
Qed.
Lemma ops_insert_arg b idx ty c : c_ops (cp_insert_arg b idx ty c) = c_ops c.
Proof.
  unfold cp_insert_arg. pose proof (ops_alloc_vals [ty] c (VOBlock b)) as H.
  destruct (alloc_vals c (VOBlock b) [ty]) as [c1 vs]. simpl in H. rewrite ops_upd_blk. exact H.
Qed.
Lemma frame_bump o c : frame [] c (cp_bump o c).
Proof.
  unfold cp_bump. destruct (aget (c_ops c) o) as [r|]; [|apply frame_refl].
  destruct (o_dead r); [apply frame_refl|]. apply frame_upd_op; [|right]; reflexivity.
Qed.

Lemma uses_upd_blk c b f v : g_uses (upd_blk c b f) v = g_uses c v.
Proof. unfold upd_blk, g_uses. destruct (aget (c_blks c) b); reflexivity. Qed.

Lemma frame_erase_arg v c : frame (map fst (g_uses c v)) c (cp_erase_arg v c).
Proof.
  unfold cp_erase_arg. destruct (aget (c_vals c) v) as [r|]; [|apply frame_refl].
  destruct (v_owner r) as [o|b]; [apply frame_refl|].
  eapply frame_trans; [apply frame_ops_eq, ops_upd_blk|].
  rewrite <- (uses_upd_blk c b (fun r0 => set_bargs (remove1 v (b_args r0)) r0) v).
  apply frame_erase_value.
Qed.

Lemma uses_set_operand c u x v : g_uses (set_operand c u x) v = g_uses c v.
Proof. unfold set_operand, upd_op, g_uses. destruct (aget (c_ops c) (fst u)); reflexivity. Qed.

Lemma uses_upd_val c v f w :
  g_uses (upd_val c v f) w =
  if Nat.eqb w v then match aget (c_vals c) v with Some r => v_uses (f r) | None => [] end else g_uses c w.
Proof.
  unfold g_uses. rewrite table_upd_val, aget_aupd.
  destruct (Nat.eqb w v); [destruct (aget (c_vals c) v)|]; reflexivity.
Qed.
Lemma uses_remove_use c v u w :
  g_uses (remove_use c v u) w = if Nat.eqb w v then remove_use_l u (g_uses c v) else g_uses c w.
Proof.
  unfold remove_use. rewrite uses_upd_val. unfold g_uses.
  destruct (Nat.eqb w v); auto. destruct (aget (c_vals c) v); reflexivity.
Qed.

Lemma use_eqb_refl u : use_eqb u u = true.
Proof. unfold use_eqb. rewrite !Nat.eqb_refl. reflexivity. Qed.

Lemma erase_value_uses v c : g_uses (cp_erase_value v c) v = [].
Proof.
  unfold cp_erase_value.
  assert (G : forall l c0, g_uses c0 v = l ->
              g_uses (fold_left (fun c u => remove_use (set_operand c u OErased) v u) l c0) v = []).
  { induction l as [|u l IH]; simpl; intros c0 H; auto.
    apply IH. rewrite uses_remove_use, Nat.eqb_refl, uses_set_operand, H. simpl. rewrite use_eqb_refl. reflexivity. }
  apply G. reflexivity.
Qed.

Theorem cir_ev_laws : EvLaws cir_sem.
Proof.
  split; [|exact erase_value_uses].
  intros p c o Hc.
  assert (K : forall S, keeps S c (run_prim cir_sem p c) -> In o S).
  { intros S HS. destruct (in_dec Nat.eq_dec o S) as [Hi|Hn]; auto.
    exfalso. eapply same_info_not_changed; [apply HS; exact Hn | exact Hc]. }
  destruct p; simpl in *.
  - specialize (K _ (proj1 (proj1 (frame_insert news ip c)))). apply in_flat_map in K.
    destruct K as (n & Hn & Ho). eauto.
  - exact (K _ (keeps_erase o0 c)).
  - exact (K _ (proj1 (frame_rauw v t c))).
  - exact (K _ (proj1 (frame_erase_value v c))).
  - exact (K _ (proj1 (frame_rauw_if v t p c))).
  - destruct (K [] (proj1 (frame_ops_eq _ _ _ (ops_upd_val _ _ _)))).
  - destruct (K [] (proj1 (frame_ops_eq _ _ _ (ops_insert_arg _ _ _ _)))).
  - exact (K _ (proj1 (frame_erase_arg v c))).
  - intros ->. destruct (K [] (proj1 (proj2 (frame_inline_block b ip [] c) eq_refl))).
  - destruct (K [] (proj1 (frame_ops_eq _ _ _ (ops_move_region _ _ _)))).
  - destruct (K [] (proj1 (frame_ops_eq _ _ _ (ops_inline_region _ _ _ _)))).
  - destruct (K [] (proj1 (frame_ops_eq _ _ _ (ops_create_block _ _ _ _)))).
  - destruct (K [] (proj1 (frame_bump o0 c))).
Qed.
