(* C01/ProofsWfb.v -- soundness of the boolean checker: wf_b s = true -> WF s. *)
From Coq Require Import ZArith List Bool PArith FMapPositive Lia.
From XV Require Import C01.Model C01.Spec C01.ProofsBase.
Import ListNotations.
Local Open Scope Z_scope.

Lemma container_b_sound : forall {N} (ntbl : PM.t N) (nxt prv : positive -> option (option positive))
    (up : N -> option positive) (er : N -> bool) fl (c : positive) first last,
  match chain_b nxt fl first, chain_b prv fl last with
  | Some l, Some l' =>
      list_eqb l' (rev l) && nodup_b l &&
      forallb (fun o => match PM.find o ntbl with
                        | Some x => opt_eqb (up x) (Some c)
                        | None => false end) l &&
      forallb (fun p => let x := snd p in er x || negb (opt_eqb (up x) (Some c)) || mem (fst p) l)
              (PM.elements ntbl)
  | _, _ => false
  end = true ->
  exists l, chain nxt first l /\ chain prv last (rev l) /\ NoDup l /\
            (forall o, In o l -> exists x, PM.find o ntbl = Some x /\ up x = Some c) /\
            (forall o x, PM.find o ntbl = Some x -> er x = false -> up x = Some c -> In o l).
Proof.
  intros N ntbl nxt prv up er fl c first last Hb.
  destruct (chain_b nxt fl first) as [l|] eqn:C1; [|discriminate].
  destruct (chain_b prv fl last) as [l'|] eqn:C2; [|discriminate].
  apply andb_true_iff in Hb as [Hb Hall]. apply andb_true_iff in Hb as [Hb Hpar]. apply andb_true_iff in Hb as [Hb Hnd].
  apply list_eqb_eq in Hb. subst l'.
  exists l. split; [eapply chain_b_sound; eauto|]. split; [eapply chain_b_sound; eauto|].
  split; [apply nodup_b_NoDup; assumption|]. split.
  - intros o Io. rewrite forallb_forall in Hpar. specialize (Hpar o Io).
    destruct (PM.find o ntbl) as [x|]; [|discriminate].
    exists x. split; [reflexivity|]. apply opt_eqb_eq. exact Hpar.
  - intros o x Fo Eo Po.
    pose proof (forallb_elements _ _ Hall o x Fo) as Ho. simpl in Ho.
    rewrite Eo, Po in Ho. simpl in Ho.
    rewrite Pos.eqb_refl in Ho. apply mem_In. exact Ho.
Qed.

Lemma wfb_block_sound : forall s fl,
  forallb (fun p => wfb_block s fl (fst p) (snd p)) (PM.elements (s_blocks s)) = true -> WF_block s.
Proof.
  intros s fl H b br F E.
  pose proof (forallb_elements _ _ H b br F) as Hb. simpl in Hb. unfold wfb_block in Hb. rewrite E in Hb.
  exact (container_b_sound (s_ops s) _ _ o_parent o_erased fl b _ _ Hb).
Qed.

Lemma wfb_region_sound : forall s fl,
  forallb (fun p => wfb_region s fl (fst p) (snd p)) (PM.elements (s_regions s)) = true -> WF_region s.
Proof.
  intros s fl H r rr F E.
  pose proof (forallb_elements _ _ H r rr F) as Hb. simpl in Hb. unfold wfb_region in Hb. rewrite E in Hb.
  exact (container_b_sound (s_blocks s) _ _ b_parent b_erased fl r _ _ Hb).
Qed.

Lemma wfb_opregs_sound : forall s,
  forallb (fun p => wfb_opregs s (fst p) (snd p)) (PM.elements (s_ops s)) = true -> WF_opregs s.
Proof.
  intros s H o x F E.
  pose proof (forallb_elements _ _ H o x F) as Hb. simpl in Hb.
  unfold wfb_opregs in Hb. rewrite E in Hb.
  repeat (apply andb_true_iff in Hb; destruct Hb as [Hb ?]).
  split; [apply nodup_b_NoDup; assumption|]. split.
  - intros r Ir. rewrite forallb_forall in H1. specialize (H1 r Ir).
    destruct (PM.find r (s_regions s)) as [rr|]; [|discriminate].
    exists rr. split; [reflexivity|]. apply opt_eqb_eq. exact H1.
  - intros r rr Fr Er Pr.
    pose proof (forallb_elements _ _ H0 r rr Fr) as Ho. simpl in Ho.
    rewrite Er, Pr in Ho. simpl in Ho.
    rewrite ?Pos.eqb_refl in Ho. simpl in Ho. apply mem_In. exact Ho.
Qed.

Lemma prevs_b_sound : forall s l prev, prevs_b s prev l = true -> prevs_ok s prev l.
Proof.
  intros s l. induction l as [|u r IH]; intros prev H; simpl in *.
  - exact I.
  - apply andb_true_iff in H. destruct H as [H1 H2].
    destruct (PM.find u (s_uses s)) as [ur|] eqn:F; [|discriminate].
    split; [exists ur; split; [reflexivity|apply opt_eqb_eq; exact H1]|apply IH; exact H2].
Qed.

Lemma znth_is_sound : forall l i x, znth_is l i x = true -> znth l i = Some x.
Proof.
  intros l i x H. unfold znth_is in H. destruct (znth l i) as [y|]; [|discriminate].
  apply Pos.eqb_eq in H. congruence.
Qed.

Lemma use_chain_b_sound : forall s fl si su self fu,
  use_chain_b s fl si su self fu = true -> use_chain_ok s si su self fu.
Proof.
  intros s fl si su self fu H. unfold use_chain_b in H.
  destruct (chain_b (use_next s) fl fu) as [l|] eqn:C; [|discriminate].
  repeat (apply andb_true_iff in H; destruct H as [H ?]).
  exists l. split; [eapply chain_b_sound; eauto|]. split; [apply nodup_b_NoDup; assumption|].
  split; [apply prevs_b_sound; assumption|].
  intros u Iu. rewrite forallb_forall in H0. specialize (H0 u Iu).
  destruct (PM.find u (s_uses s)) as [ur|] eqn:Fu; [|discriminate].
  destruct (PM.find (u_op ur) (s_ops s)) as [x|] eqn:Fx; [|discriminate].
  repeat (apply andb_true_iff in H0; destruct H0 as [H0 ?]).
  exists ur, x. split; [reflexivity|]. split; [exact Fx|].
  split; [apply negb_true_iff; exact H0|]. split; apply znth_is_sound; assumption.
Qed.

Lemma slots_b_sound : forall s fl o fuo items uses i,
  slots_b s fl o i items uses fuo = true ->
  length items = length uses /\
  forall k item u, nth_error items k = Some item -> nth_error uses k = Some u ->
    (exists ur, PM.find u (s_uses s) = Some ur /\ u_op ur = o /\ u_idx ur = i + Z.of_nat k) /\
    (exists fu l, fuo item = Some fu /\ chain (use_next s) fu l /\ In u l).
Proof.
  intros s fl o fuo items. induction items as [|item ri IH]; intros uses i H; destruct uses as [|u ru]; simpl in H; try discriminate.
  - split; [reflexivity|]. intros k item u Hk. destruct k; discriminate.
  - repeat (apply andb_true_iff in H; destruct H as [H ?]).
    destruct (IH _ _ H0) as [L R]. split; [simpl; congruence|].
    intros k item' u' Hk Hu. destruct k as [|k]; simpl in Hk, Hu.
    + inversion Hk; inversion Hu; subst. split.
      * destruct (PM.find u' (s_uses s)) as [ur|]; [|discriminate].
        apply andb_true_iff in H. destruct H as [Ha Hb].
        exists ur. split; [reflexivity|]. split; [apply Pos.eqb_eq; exact Ha|]. apply Z.eqb_eq in Hb. lia.
      * destruct (fuo item') as [fu|]; [|discriminate].
        destruct (chain_b (use_next s) fl fu) as [l|] eqn:C; [|discriminate].
        exists fu, l. split; [reflexivity|]. split; [eapply chain_b_sound; eauto|apply mem_In; assumption].
    + destruct (R k item' u' Hk Hu) as [(ur & F1 & F2 & F3) R2]. split; [|exact R2].
      exists ur. repeat split; try assumption. lia.
Qed.

Lemma slots_b_ok : forall s fl o fuo items uses,
  slots_b s fl o 0 items uses fuo = true -> slots_ok s o items uses fuo.
Proof.
  intros s fl o fuo items uses H. destruct (slots_b_sound _ _ _ _ _ _ _ H) as [L R]. split; [exact L|].
  intros i item u Hi Hu. exact (R i item u Hi Hu).
Qed.

Lemma kind_eqb_eq : forall a b, kind_eqb a b = true -> a = b.
Proof.
  intros [o i|b i|v] [o' i'|b' i'|v']; simpl; intro H; try discriminate.
  - apply andb_true_iff in H. destruct H as [H1 H2]. apply Pos.eqb_eq in H1. apply Z.eqb_eq in H2. congruence.
  - apply andb_true_iff in H. destruct H as [H1 H2]. apply Pos.eqb_eq in H1. apply Z.eqb_eq in H2. congruence.
  - apply Pos.eqb_eq in H. congruence.
Qed.

Lemma indexed_b_sound : forall s mk l i, indexed_b s mk i l = true ->
  forall k v, nth_error l k = Some v -> exists vr, PM.find v (s_values s) = Some vr /\ v_kind vr = mk (i + Z.of_nat k).
Proof.
  intros s mk l. induction l as [|v r IH]; intros i H k v' Hk; simpl in H.
  - destruct k; discriminate.
  - apply andb_true_iff in H. destruct H as [H1 H2]. destruct k as [|k]; simpl in Hk.
    + inversion Hk; subst. destruct (PM.find v' (s_values s)) as [vr|]; [|discriminate].
      exists vr. split; [reflexivity|]. apply kind_eqb_eq in H1. rewrite H1. f_equal. lia.
    + destruct (IH _ H2 k v' Hk) as (vr & F & K). exists vr. split; [exact F|]. rewrite K. f_equal. lia.
Qed.

Lemma below_b_sound : forall {R} (tbl : PM.t R) n, below_b tbl n = true -> below tbl n.
Proof.
  intros R tbl n H i x F. pose proof (forallb_elements _ _ H i x F) as Hb. simpl in Hb.
  apply Pos.ltb_lt. exact Hb.
Qed.

Theorem wf_b_sound : forall s, wf_b s = true -> WF s.
Proof.
  intros s H. unfold wf_b in H.
  apply andb_true_iff in H as [H Hbu].
  apply andb_true_iff in H as [H Hbv].
  apply andb_true_iff in H as [H Hbr].
  apply andb_true_iff in H as [H Hbb].
  apply andb_true_iff in H as [H Hbo].
  apply andb_true_iff in H as [H Hdetb].
  apply andb_true_iff in H as [H Hdeto].
  apply andb_true_iff in H as [H Hdisj].
  apply andb_true_iff in H as [H Hown].
  apply andb_true_iff in H as [H Hargs].
  apply andb_true_iff in H as [H Hops].
  apply andb_true_iff in H as [H Hbuses].
  apply andb_true_iff in H as [H Hvuses].
  apply andb_true_iff in H as [H Hopregs].
  apply andb_true_iff in H as [Hblk Hreg].
  constructor.
  - eapply wfb_block_sound; eauto.
  - eapply wfb_region_sound; eauto.
  - eapply wfb_opregs_sound; eauto.
  - intros v vr F. pose proof (forallb_elements _ _ Hvuses v vr F) as Hb. simpl in Hb.
    eapply use_chain_b_sound; eauto.
  - intros b br F. pose proof (forallb_elements _ _ Hbuses b br F) as Hb. simpl in Hb.
    eapply use_chain_b_sound; eauto.
  - intros o x F E. pose proof (forallb_elements _ _ Hops o x F) as Hb. simpl in Hb.
    rewrite E in Hb. simpl in Hb.
    apply andb_true_iff in Hb as [Hb _]. apply andb_true_iff in Hb as [Hopnd _].
    exact (slots_b_ok _ _ _ _ _ _ Hopnd).
  - intros o x F E. pose proof (forallb_elements _ _ Hops o x F) as Hb. simpl in Hb.
    rewrite E in Hb. simpl in Hb.
    apply andb_true_iff in Hb as [Hb _]. apply andb_true_iff in Hb as [_ Hsucc].
    exact (slots_b_ok _ _ _ _ _ _ Hsucc).
  - intros o x F E u I1 I2. pose proof (forallb_elements _ _ Hdisj o x F) as Hb. simpl in Hb.
    rewrite E in Hb. simpl in Hb. rewrite forallb_forall in Hb. specialize (Hb u I1).
    apply negb_true_iff in Hb. apply mem_false in Hb. contradiction.
  - intros o x F E i v Hi. pose proof (forallb_elements _ _ Hops o x F) as Hb. simpl in Hb.
    rewrite E in Hb. simpl in Hb.
    apply andb_true_iff in Hb; destruct Hb as [Hb Hres].
    destruct (indexed_b_sound _ _ _ _ Hres i v Hi) as (vr & Fv & K). exists vr. split; [exact Fv|]. rewrite K. f_equal.
  - intros b br F E i v Hi. pose proof (forallb_elements _ _ Hargs b br F) as Hb. simpl in Hb.
    rewrite E in Hb. simpl in Hb.
    destruct (indexed_b_sound _ _ _ _ Hb i v Hi) as (vr & Fv & K). exists vr. split; [exact Fv|]. rewrite K. f_equal.
  - intros v vr F D. pose proof (forallb_elements _ _ Hown v vr F) as Hb. simpl in Hb.
    unfold wfb_owner in Hb. rewrite D in Hb.
    destruct (v_kind vr) as [o i|b i|old].
    + destruct (PM.find o (s_ops s)) as [x|]; [|discriminate]. exists x. split; [reflexivity|apply znth_is_sound; exact Hb].
    + destruct (PM.find b (s_blocks s)) as [x|]; [|discriminate]. exists x. split; [reflexivity|apply znth_is_sound; exact Hb].
    + exact I.
  - split.
    + intros o x F E P. pose proof (forallb_elements _ _ Hdeto o x F) as Hb. simpl in Hb.
      rewrite E, P in Hb. simpl in Hb. apply andb_true_iff in Hb. destruct Hb as [B1 B2].
      apply negb_true_iff in B1, B2. apply is_some_false in B1, B2. auto.
    + intros b x F E P. pose proof (forallb_elements _ _ Hdetb b x F) as Hb. simpl in Hb.
      rewrite E, P in Hb. simpl in Hb. apply andb_true_iff in Hb. destruct Hb as [B1 B2].
      apply negb_true_iff in B1, B2. apply is_some_false in B1, B2. auto.
  - repeat split; apply below_b_sound; assumption.
Qed.
