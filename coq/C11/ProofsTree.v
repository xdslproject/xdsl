(* C11/ProofsTree.v -- the tree half of the heap invariant (the region walk yields only live operations):
   the invariant TInv, its consequence for the walk, and its preservation by erase and by the eight
   primitives that do not touch the tree.  Not done: insert, inline_block, inline_region,
   move_region_contents_to_new_regions, create_block (see Props/C11.v C11_tree_invariant_model_partial). *)
From Coq Require Import List Arith Bool ZArith Lia.
From XV Require Import C11.Model C11.IR C11.Proofs C11.ProofsEv C11.ProofsLive C11.ProofsInv.
Import ListNotations.

Definition g_rparent (c : cir) (g : nat) : option op :=
  match aget (c_regs c) g with Some r => r_parent r | None => None end.

Record TInv (c : cir) : Prop := {
  t1 : forall b o, In o (g_bops c b) -> In o (g_alive c) -> g_parent c o = Some b;
  t2 : forall g b, In b (g_blocks c g) -> g_bparent c b = Some g;
  t3 : forall p g, In g (g_regions c p) -> In p (g_alive c) -> g_rparent c g = Some p;
  ta : forall p g b o, In p (g_alive c) -> In g (g_regions c p) -> In b (g_blocks c g) ->
                       In o (g_bops c b) -> In o (g_alive c);
  tr : In root (g_alive c)
}.

Lemma in_ord {A} rev (l : list A) x : In x (ord rev l) <-> In x l.
Proof. unfold ord. destruct rev; [symmetry; apply in_rev | reflexivity]. Qed.

Lemma in_walk_op_S c rev rf f o x :
  In x (walk_op (S f) c rev rf o) <->
  x = o \/ exists g b y, In g (g_regions c o) /\ In b (g_blocks c g) /\ In y (g_bops c b) /\
                         In x (walk_op f c rev rf y).
Proof.
  assert (Hin : In x (flat_map (fun g => flat_map (fun b => flat_map (walk_op f c rev rf) (ord rev (g_bops c b)))
                                                  (ord rev (g_blocks c g))) (ord rev (g_regions c o))) <->
                exists g b y, In g (g_regions c o) /\ In b (g_blocks c g) /\ In y (g_bops c b) /\
                              In x (walk_op f c rev rf y)).
  { split.
    - intros H. apply in_flat_map in H. destruct H as (g & Hg & H). apply in_ord in Hg.
      apply in_flat_map in H. destruct H as (b & Hb & H). apply in_ord in Hb.
      apply in_flat_map in H. destruct H as (y & Hy & H). apply in_ord in Hy.
      exists g, b, y. auto.
    - intros (g & b & y & Hg & Hb & Hy & H).
      apply in_flat_map. exists g. split; [apply in_ord; exact Hg|].
      apply in_flat_map. exists b. split; [apply in_ord; exact Hb|].
      apply in_flat_map. exists y. split; [apply in_ord; exact Hy | exact H]. }
  simpl. destruct rf; split.
  - intros H. apply in_app_or in H. destruct H as [H|[<-|[]]]; [right; apply Hin; exact H | left; reflexivity].
  - intros [->|H]; apply in_or_app; [right; left; reflexivity | left; apply Hin; exact H].
  - intros [<-|H]; [left; reflexivity | right; apply Hin; exact H].
  - intros [->|H]; [left; reflexivity | right; apply Hin; exact H].
Qed.

Lemma walk_parent c rev rf : forall f o x,
  In x (walk_op f c rev rf o) ->
  x = o \/ exists p g b, In p (walk_op f c rev rf o) /\ In g (g_regions c p) /\ In b (g_blocks c g) /\ In x (g_bops c b).
Proof.
  induction f as [|f IH]; intros o x H; [destruct H|].
  apply in_walk_op_S in H. destruct H as [->|(g & b & y & Hg & Hb & Hy & H)]; [left; reflexivity|]. right.
  destruct (IH y x H) as [->|(p & g' & b' & Hp & Hg' & Hb' & Hx)].
  - exists o, g, b. split; [apply in_walk_op_S; left; reflexivity | auto].
  - exists p, g', b'. split; [apply in_walk_op_S; right; exists g, b, y; auto | auto].
Qed.

Lemma walk_alive c rev rf (T : TInv c) : forall f o x,
  In o (g_alive c) -> In x (walk_op f c rev rf o) -> In x (g_alive c).
Proof.
  induction f as [|f IH]; intros o x Ho H; [destruct H|].
  apply in_walk_op_S in H. destruct H as [->|(g & b & y & Hg & Hb & Hy & H)]; [exact Ho|].
  apply (IH y x); [exact (ta c T o g b y Ho Hg Hb Hy) | exact H].
Qed.

Lemma tinv_walk c (T : TInv c) rev rf o : In o (g_walk rev rf c) -> In o (g_alive c).
Proof.
  unfold g_walk, remove1. intros H. apply filter_In in H. destruct H as [H _].
  eapply walk_alive; eauto. apply (tr c T).
Qed.

Definition osig (c : cir) (o : op) := option_map (fun r => (o_parent r, o_regions r, o_dead r)) (aget (c_ops c) o).
Definition bsig (c : cir) (b : block) := option_map (fun r => (b_parent r, b_ops r)) (aget (c_blks c) b).
Definition rsig (c : cir) (g : nat) := option_map (fun r => (r_parent r, r_blocks r)) (aget (c_regs c) g).
Definition tree_eq (c c' : cir) : Prop :=
  (forall o, osig c' o = osig c o) /\ (forall b, bsig c' b = bsig c b) /\ (forall g, rsig c' g = rsig c g).

Lemma alive_osig c o : In o (g_alive c) <-> exists p rs, osig c o = Some (p, rs, false).
Proof.
  rewrite alive_info. unfold info, osig. destruct (aget (c_ops c) o) as [r|]; simpl.
  - split; [intros [l H]; inversion H; eauto | intros (p & rs & H); inversion H; eauto].
  - split; [intros [l H] | intros (p & rs & H)]; discriminate.
Qed.
Lemma parent_osig c o : g_parent c o = match osig c o with Some (p, _, _) => p | None => None end.
Proof. unfold g_parent, osig. destruct (aget (c_ops c) o); reflexivity. Qed.
Lemma regions_osig c o : g_regions c o = match osig c o with Some (_, rs, _) => rs | None => [] end.
Proof. unfold g_regions, osig. destruct (aget (c_ops c) o); reflexivity. Qed.
Lemma bops_bsig c b : g_bops c b = match bsig c b with Some (_, l) => l | None => [] end.
Proof. unfold g_bops, bsig. destruct (aget (c_blks c) b); reflexivity. Qed.
Lemma bparent_bsig c b : g_bparent c b = match bsig c b with Some (p, _) => p | None => None end.
Proof. unfold g_bparent, bsig. destruct (aget (c_blks c) b); reflexivity. Qed.
Lemma blocks_rsig c g : g_blocks c g = match rsig c g with Some (_, l) => l | None => [] end.
Proof. unfold g_blocks, rsig. destruct (aget (c_regs c) g); reflexivity. Qed.
Lemma rparent_rsig c g : g_rparent c g = match rsig c g with Some (p, _) => p | None => None end.
Proof. unfold g_rparent, rsig. destruct (aget (c_regs c) g); reflexivity. Qed.

Lemma tree_eq_refl c : tree_eq c c.
Proof. repeat split. Qed.
Lemma tree_eq_trans c c1 c2 : tree_eq c c1 -> tree_eq c1 c2 -> tree_eq c c2.
Proof. intros (A & B & C0) (A' & B' & C'). repeat split; intros; congruence. Qed.

Lemma tinv_tree_eq c c' : tree_eq c c' -> TInv c -> TInv c'.
Proof.
  intros (Eo & Eb & Er) T.
  assert (Ea : forall o, In o (g_alive c') <-> In o (g_alive c)) by (intros o; rewrite !alive_osig, Eo; reflexivity).
  assert (Ep : forall o, g_parent c' o = g_parent c o) by (intros; rewrite !parent_osig, Eo; reflexivity).
  assert (Erg : forall o, g_regions c' o = g_regions c o) by (intros; rewrite !regions_osig, Eo; reflexivity).
  assert (Ebo : forall b, g_bops c' b = g_bops c b) by (intros; rewrite !bops_bsig, Eb; reflexivity).
  assert (Ebp : forall b, g_bparent c' b = g_bparent c b) by (intros; rewrite !bparent_bsig, Eb; reflexivity).
  assert (Ebl : forall g, g_blocks c' g = g_blocks c g) by (intros; rewrite !blocks_rsig, Er; reflexivity).
  assert (Erp : forall g, g_rparent c' g = g_rparent c g) by (intros; rewrite !rparent_rsig, Er; reflexivity).
  split.
  - intros b o. rewrite Ebo, Ea, Ep. apply (t1 c T).
  - intros g b. rewrite Ebl, Ebp. apply (t2 c T).
  - intros p g. rewrite Erg, Ea, Erp. apply (t3 c T).
  - intros p g b o. rewrite !Ea, Erg, Ebl, Ebo. apply (ta c T).
  - apply Ea. apply (tr c T).
Qed.

Lemma tree_eq_upd_val c v f : tree_eq c (upd_val c v f).
Proof. unfold upd_val. destruct (aget (c_vals c) v); repeat split. Qed.
Lemma osig_upd_op c k f o :
  osig (upd_op c k f) o =
  if Nat.eqb o k then option_map (fun r => (o_parent (f r), o_regions (f r), o_dead (f r))) (aget (c_ops c) k)
  else osig c o.
Proof.
  unfold osig. rewrite table_upd_op, aget_aupd.
  destruct (Nat.eqb o k); [destruct (aget (c_ops c) k)|]; reflexivity.
Qed.
Lemma bsig_upd_blk c k f b :
  bsig (upd_blk c k f) b =
  if Nat.eqb b k then option_map (fun r => (b_parent (f r), b_ops (f r))) (aget (c_blks c) k)
  else bsig c b.
Proof.
  unfold bsig. rewrite table_upd_blk, aget_aupd.
  destruct (Nat.eqb b k); [destruct (aget (c_blks c) k)|]; reflexivity.
Qed.
Lemma rsig_upd_reg c k f g :
  rsig (upd_reg c k f) g =
  if Nat.eqb g k then option_map (fun r => (r_parent (f r), r_blocks (f r))) (aget (c_regs c) k)
  else rsig c g.
Proof.
  unfold rsig. rewrite table_upd_reg, aget_aupd.
  destruct (Nat.eqb g k); [destruct (aget (c_regs c) k)|]; reflexivity.
Qed.
Lemma osig_upd_blk c k f o : osig (upd_blk c k f) o = osig c o.
Proof. unfold osig. rewrite ops_upd_blk. reflexivity. Qed.
Lemma osig_upd_reg c k f o : osig (upd_reg c k f) o = osig c o.
Proof. unfold osig. rewrite ops_upd_reg. reflexivity. Qed.
Lemma bsig_upd_op c k f b : bsig (upd_op c k f) b = bsig c b.
Proof. unfold upd_op, bsig. destruct (aget (c_ops c) k); reflexivity. Qed.
Lemma bsig_upd_reg c k f b : bsig (upd_reg c k f) b = bsig c b.
Proof. unfold upd_reg, bsig. destruct (aget (c_regs c) k); reflexivity. Qed.
Lemma rsig_upd_op c k f g : rsig (upd_op c k f) g = rsig c g.
Proof. unfold upd_op, rsig. destruct (aget (c_ops c) k); reflexivity. Qed.
Lemma rsig_upd_blk c k f g : rsig (upd_blk c k f) g = rsig c g.
Proof. unfold upd_blk, rsig. destruct (aget (c_blks c) k); reflexivity. Qed.

Lemma tree_eq_upd_op_pres c k f :
  (forall r, o_parent (f r) = o_parent r /\ o_regions (f r) = o_regions r /\ o_dead (f r) = o_dead r) ->
  tree_eq c (upd_op c k f).
Proof.
  intros Hf. split; [|split]; intros x; [|apply bsig_upd_op | apply rsig_upd_op].
  rewrite osig_upd_op. destruct (Nat.eqb x k) eqn:E; auto. apply Nat.eqb_eq in E. subst.
  unfold osig. destruct (aget (c_ops c) k) as [r|]; simpl; auto. destruct (Hf r) as (-> & -> & ->). reflexivity.
Qed.
Lemma tree_eq_upd_blk_pres c k f :
  (forall r, b_parent (f r) = b_parent r /\ b_ops (f r) = b_ops r) -> tree_eq c (upd_blk c k f).
Proof.
  intros Hf. split; [|split]; intros x; [apply osig_upd_blk | | apply rsig_upd_blk].
  rewrite bsig_upd_blk. destruct (Nat.eqb x k) eqn:E; auto. apply Nat.eqb_eq in E. subst.
  unfold bsig. destruct (aget (c_blks c) k) as [r|]; simpl; auto. destruct (Hf r) as (-> & ->). reflexivity.
Qed.
Lemma tree_eq_fold {A} (step : cir -> A -> cir) (l : list A) :
  (forall c x, tree_eq c (step c x)) -> forall c, tree_eq c (fold_left step l c).
Proof.
  induction l as [|x l IH]; simpl; intros H c; [apply tree_eq_refl|].
  eapply tree_eq_trans; [apply H|]. apply IH. exact H.
Qed.
Lemma tree_eq_alloc_vals tys : forall c ow, tree_eq c (fst (alloc_vals c ow tys)).
Proof.
  induction tys as [|t r IH]; simpl; intros c ow; [apply tree_eq_refl|].
  set (c1 := with_next (with_vals c (aset (c_vals c) (c_next c) {| v_type := t; v_owner := ow; v_uses := [] |})) (S (c_next c))).
  specialize (IH c1 ow). destruct (alloc_vals c1 ow r) as [c2 vs]. simpl in *.
  eapply tree_eq_trans; [|exact IH]. repeat split.
Qed.

Lemma tree_eq_set_operand c u x : tree_eq c (set_operand c u x).
Proof. unfold set_operand. apply tree_eq_upd_op_pres. intros r; repeat split. Qed.
Lemma tree_eq_move_use v t c u : tree_eq c (move_use v t c u).
Proof.
  unfold move_use, add_use, remove_use.
  eapply tree_eq_trans; [apply tree_eq_set_operand|].
  eapply tree_eq_trans; apply tree_eq_upd_val.
Qed.
Lemma tree_eq_rauw v t c : tree_eq c (cp_rauw v t c).
Proof.
  unfold cp_rauw. destruct (Nat.eqb v t); [apply tree_eq_refl|]. apply tree_eq_fold. intros; apply tree_eq_move_use.
Qed.
Lemma tree_eq_rauw_if v t p c : tree_eq c (cp_rauw_if v t p c).
Proof.
  unfold cp_rauw_if. apply tree_eq_fold. intros c0 u. destruct (eval_upred p u); [apply tree_eq_move_use | apply tree_eq_refl].
Qed.
Lemma tree_eq_erase_value v c : tree_eq c (cp_erase_value v c).
Proof.
  unfold cp_erase_value. apply tree_eq_fold. intros c0 u. unfold remove_use.
  eapply tree_eq_trans; [apply tree_eq_set_operand | apply tree_eq_upd_val].
Qed.
Lemma tree_eq_retype v ty c : tree_eq c (cp_retype v ty c).
Proof. apply tree_eq_upd_val. Qed.
Lemma tree_eq_insert_arg b idx ty c : tree_eq c (cp_insert_arg b idx ty c).
Proof.
  unfold cp_insert_arg. pose proof (tree_eq_alloc_vals [ty] c (VOBlock b)) as H.
  destruct (alloc_vals c (VOBlock b) [ty]) as [c1 vs]. simpl in H.
  eapply tree_eq_trans; [exact H|]. apply tree_eq_upd_blk_pres. intros r; split; reflexivity.
Qed.
Lemma tree_eq_erase_arg v c : tree_eq c (cp_erase_arg v c).
Proof.
  unfold cp_erase_arg. destruct (aget (c_vals c) v) as [r|]; [|apply tree_eq_refl].
  destruct (v_owner r) as [o|b]; [apply tree_eq_refl|].
  apply tree_eq_trans with (c1 := upd_blk c b (fun r0 => set_bargs (remove1 v (b_args r0)) r0)).
  - apply tree_eq_upd_blk_pres. intros r0; split; reflexivity.
  - apply tree_eq_erase_value.
Qed.
Lemma tree_eq_bump o c : tree_eq c (cp_bump o c).
Proof.
  unfold cp_bump. destruct (aget (c_ops c) o) as [r|]; [|apply tree_eq_refl].
  destruct (o_dead r); [apply tree_eq_refl|]. apply tree_eq_upd_op_pres. intros r0; repeat split.
Qed.

Lemma tree_eq_drop_operand_uses c s : tree_eq c (drop_operand_uses c s).
Proof.
  rewrite drop_operand_uses_eq. generalize (g_operands c s) as l. generalize 0 as k. intros k l. revert k c.
  induction l as [|x l IH]; intros k c; [apply tree_eq_refl|].
  rewrite drop_from_cons. eapply tree_eq_trans; [|apply IH].
  destruct x; [apply tree_eq_upd_val | apply tree_eq_refl].
Qed.

Lemma osig_fold_set_dead l : forall c o,
  osig (fold_left (fun c s => upd_op c s set_dead) l c) o =
  if mem o l then option_map (fun '(p, rs, d) => (None, rs, true)) (osig c o) else osig c o.
Proof.
  induction l as [|s l IH]; simpl; intros c o; auto.
  rewrite IH. rewrite osig_upd_op. unfold mem. simpl.
  destruct (Nat.eqb o s) eqn:E; simpl.
  - apply Nat.eqb_eq in E. subst. unfold osig. destruct (aget (c_ops c) s) as [r|]; simpl;
      destruct (existsb (Nat.eqb s) l); reflexivity.
  - reflexivity.
Qed.
Lemma mem_in x l : mem x l = true <-> In x l.
Proof.
  unfold mem. rewrite existsb_exists. split.
  - intros (y & Hy & E). apply Nat.eqb_eq in E. subst. exact Hy.
  - intros H. exists x. split; auto. apply Nat.eqb_refl.
Qed.

Lemma bsig_fold_set_dead l : forall c b, bsig (fold_left (fun c s => upd_op c s set_dead) l c) b = bsig c b.
Proof. induction l as [|s l IH]; simpl; intros c b; auto. rewrite IH. apply bsig_upd_op. Qed.
Lemma rsig_fold_set_dead l : forall c g, rsig (fold_left (fun c s => upd_op c s set_dead) l c) g = rsig c g.
Proof. induction l as [|s l IH]; simpl; intros c g; auto. rewrite IH. apply rsig_upd_op. Qed.

(* what erase does to the tree: op.walk() dies, the erased op leaves its block, nothing else moves *)
Lemma erase_tree o1 c :
  let c' := cp_erase o1 c in
  let subs := g_subops c o1 in
  (forall o, In o (g_alive c') <-> In o (g_alive c) /\ ~ In o subs) /\
  (forall o, g_regions c' o = g_regions c o) /\
  (forall o, ~ In o subs -> g_parent c' o = g_parent c o) /\
  (forall g, g_blocks c' g = g_blocks c g) /\
  (forall g, g_rparent c' g = g_rparent c g) /\
  (forall b, g_bparent c' b = g_bparent c b) /\
  (forall b x, In x (g_bops c' b) -> In x (g_bops c b) /\ (g_parent c o1 = Some b -> x <> o1)).
Proof.
  unfold cp_erase. set (subs := g_subops c o1).
  set (c1 := match g_parent c o1 with
             | Some b => upd_blk c b (fun r => set_bops (remove1 o1 (b_ops r)) r)
             | None => c end).
  set (c2 := fold_left drop_operand_uses subs c1).
  set (c3 := fold_left (fun c s => upd_op c s set_dead) subs c2).
  assert (E12 : tree_eq c1 c2) by (apply tree_eq_fold; intros; apply tree_eq_drop_operand_uses).
  destruct E12 as (Eo12 & Eb12 & Er12).
  assert (Eo1 : forall o, osig c1 o = osig c o).
  { intros o. unfold c1. destruct (g_parent c o1); [apply osig_upd_blk | reflexivity]. }
  assert (Er1 : forall g, rsig c1 g = rsig c g).
  { intros g. unfold c1. destruct (g_parent c o1); [apply rsig_upd_blk | reflexivity]. }
  assert (Eo3 : forall o, osig c3 o = if mem o subs then option_map (fun '(p, rs, d) => (None, rs, true)) (osig c o) else osig c o).
  { intros o. unfold c3. rewrite osig_fold_set_dead, Eo12, Eo1. reflexivity. }
  assert (Eb3 : forall b, bsig c3 b = bsig c1 b).
  { intros b. unfold c3. rewrite bsig_fold_set_dead. apply Eb12. }
  assert (Er3 : forall g, rsig c3 g = rsig c g).
  { intros g. unfold c3. rewrite rsig_fold_set_dead, Er12. apply Er1. }
  assert (Ha3 : forall o, In o (g_alive c3) <-> In o (g_alive c) /\ ~ In o subs).
  { intros o. rewrite !alive_osig, Eo3. destruct (mem o subs) eqn:Em.
    - apply mem_in in Em. split; [|tauto]. intros (p & rs & H). destruct (osig c o) as [[[p0 rs0] d0]|]; simpl in H; discriminate.
    - split; [intros H; split; auto; intros Hin; apply mem_in in Hin; congruence | tauto]. }
  assert (Hreg3 : forall o, g_regions c3 o = g_regions c o).
  { intros o. rewrite !regions_osig, Eo3. destruct (mem o subs); auto. destruct (osig c o) as [[[p0 rs0] d0]|]; reflexivity. }
  assert (Hpar3 : forall o, ~ In o subs -> g_parent c3 o = g_parent c o).
  { intros o Hn. rewrite !parent_osig, Eo3. destruct (mem o subs) eqn:Em; auto. apply mem_in in Em. contradiction. }
  assert (Hblk3 : forall g, g_blocks c3 g = g_blocks c g) by (intros; rewrite !blocks_rsig, Er3; reflexivity).
  assert (Hrp3 : forall g, g_rparent c3 g = g_rparent c g) by (intros; rewrite !rparent_rsig, Er3; reflexivity).
  assert (Hbp3 : forall b, g_bparent c3 b = g_bparent c b).
  { intros b. rewrite !bparent_bsig, Eb3. unfold c1. destruct (g_parent c o1) as [b0|]; auto.
    rewrite bsig_upd_blk. destruct (Nat.eqb b b0) eqn:E; auto. apply Nat.eqb_eq in E. subst.
    unfold bsig. destruct (aget (c_blks c) b0); reflexivity. }
  assert (Hbo3 : forall b x, In x (g_bops c3 b) -> In x (g_bops c b) /\ (g_parent c o1 = Some b -> x <> o1)).
  { intros b x. rewrite !bops_bsig, Eb3. unfold c1. destruct (g_parent c o1) as [b0|] eqn:Ep.
    - rewrite bsig_upd_blk. destruct (Nat.eqb b b0) eqn:E.
      + apply Nat.eqb_eq in E. subst. unfold bsig. destruct (aget (c_blks c) b0) as [r|]; simpl; [|intros []].
        unfold remove1. intros H. apply filter_In in H. destruct H as [H Hne]. split; auto.
        intros _ ->. rewrite Nat.eqb_refl in Hne. discriminate.
      + apply Nat.eqb_neq in E. intros H. split; auto. intros E'. inversion E'. congruence.
    - intros H. split; auto. discriminate. }
  exact (conj Ha3 (conj Hreg3 (conj Hpar3 (conj Hblk3 (conj Hrp3 (conj Hbp3 Hbo3)))))).
Qed.

Lemma tinv_erase o1 c :
  In o1 (g_alive c) -> ~ In root (g_subops c o1) -> TInv c -> TInv (cp_erase o1 c).
Proof.
  intros Ho1 Hroot T.
  destruct (erase_tree o1 c) as (Ha3 & Hreg3 & Hpar3 & Hblk3 & Hrp3 & Hbp3 & Hbo3).
  set (c3 := cp_erase o1 c) in *. set (subs := g_subops c o1) in *.
  (* a live op of c3 has no child in subs *)
  assert (Hchild : forall p g b o, In p (g_alive c3) -> In g (g_regions c p) -> In b (g_blocks c g) ->
                                   In o (g_bops c3 b) -> In o (g_alive c) /\ ~ In o subs).
  { intros p g b o Hp Hg Hb Ho. apply Ha3 in Hp. destruct Hp as [Hp Hpn].
    destruct (Hbo3 b o Ho) as [Hoc Hne].
    assert (Hoa : In o (g_alive c)) by (eapply (ta c T); eauto).
    split; auto. intros Hos.
    destruct (walk_parent c false false _ o1 o Hos) as [->|(p' & g' & b' & Hp' & Hg' & Hb' & Ho')].
    - apply Hne; [apply (t1 c T b o1 Hoc Ho1) | reflexivity].
    - assert (Hp'a : In p' (g_alive c)) by (exact (walk_alive c false false T _ o1 p' Ho1 Hp')).
      pose proof (t1 c T b o Hoc Hoa) as P1. pose proof (t1 c T b' o Ho' Hoa) as P2.
      rewrite P1 in P2. inversion P2; subst b'.
      pose proof (t2 c T g b Hb) as Q1. pose proof (t2 c T g' b Hb') as Q2.
      rewrite Q1 in Q2. inversion Q2; subst g'.
      pose proof (t3 c T p g Hg Hp) as R1. pose proof (t3 c T p' g Hg' Hp'a) as R2.
      rewrite R1 in R2. inversion R2; subst p'. contradiction. }
  split.
  - intros b o Ho Hoa. apply Ha3 in Hoa. destruct Hoa as [Hoa Hon].
    rewrite Hpar3; auto. apply (t1 c T); auto. apply (Hbo3 b o Ho).
  - intros g b. rewrite Hblk3, Hbp3. apply (t2 c T).
  - intros p g. rewrite Hreg3, Hrp3. intros Hg Hp. apply Ha3 in Hp. apply (t3 c T); tauto.
  - intros p g b o Hp Hg Hb Ho. rewrite Hreg3 in Hg. rewrite Hblk3 in Hb.
    apply Ha3. eapply Hchild; eauto.
  - apply Ha3. split; [apply (tr c T) | exact Hroot].
Qed.

Definition tree_covered (p : prim) : Prop :=
  match p with
  | PErase _ | PRauw _ _ | PEraseValue _ | PRauwIf _ _ _ | PRetype _ _ | PInsertArg _ _ _ | PEraseArg _ | PBump _ => True
  | PInsert _ _ | PInlineBlock _ _ _ | PMoveRegion _ _ | PInlineRegion _ _ _ | PCreateBlock _ _ _ => False
  end.
(* erase is called on a live operation that does not enclose the owner of the rewritten region *)
Definition erase_side (p : prim) (c : cir) : Prop :=
  match p with PErase o => In o (g_alive c) /\ ~ In root (g_subops c o) | _ => True end.

Theorem tinv_prim_covered p c :
  tree_covered p -> erase_side p c -> TInv c -> TInv (run_prim cir_sem p c).
Proof.
  intros Hc Hs T. destruct p; simpl in *; try contradiction.
  - destruct Hs. apply tinv_erase; assumption.
  - eapply tinv_tree_eq; [apply tree_eq_rauw | exact T].
  - eapply tinv_tree_eq; [apply tree_eq_erase_value | exact T].
  - eapply tinv_tree_eq; [apply tree_eq_rauw_if | exact T].
  - eapply tinv_tree_eq; [apply tree_eq_retype | exact T].
  - eapply tinv_tree_eq; [apply tree_eq_insert_arg | exact T].
  - eapply tinv_tree_eq; [apply tree_eq_erase_arg | exact T].
  - eapply tinv_tree_eq; [apply tree_eq_bump | exact T].
Qed.

Definition cov_erase_ok (c : cir) (o : op) : Prop := In o (g_alive c) /\ ~ In root (g_subops c o).

Lemma tinv_prim_side p c :
  TInv c -> prim_side cir_sem cir_ins_ok tree_covered cov_erase_ok p c -> TInv (run_prim cir_sem p c).
Proof.
  intros T [Hc Hs]. apply tinv_prim_covered; auto. destruct p; simpl in *; auto.
Qed.

Theorem cir_inv_laws_covered :
  InvLaws cir_sem (fun c => UInv c /\ TInv c) cir_ins_ok tree_covered cov_erase_ok.
Proof.
  apply cir_inv_laws.
  - exact tinv_prim_side.
  - intros c rev rf o T Ho. exact (tinv_walk c T rev rf o Ho).
Qed.

(* the invariants hold initially (ModuleOp([])), so the hypotheses of the theorems are satisfiable *)
Lemma inv_empty_module : UInv empty_module /\ TInv empty_module.
Proof.
  split.
  - split; unfold g_uses; simpl; intros; try contradiction. constructor.
  - split.
    + intros b o H. unfold g_bops in H. simpl in H. destruct (Nat.eqb b 0); simpl in H; contradiction.
    + intros g b H. unfold g_blocks in H. simpl in H. destruct (Nat.eqb g 0) eqn:E; simpl in H; [|contradiction].
      destruct H as [<-|[]]. apply Nat.eqb_eq in E. subst. reflexivity.
    + intros p g H _. unfold g_regions in H. simpl in H. destruct (Nat.eqb p 0) eqn:E; simpl in H; [|contradiction].
      destruct H as [<-|[]]. apply Nat.eqb_eq in E. subst. reflexivity.
    + intros p g b o _ _ _ H. unfold g_bops in H. simpl in H. destruct (Nat.eqb b 0); simpl in H; contradiction.
    + vm_compute. auto.
Qed.
