(* C05/ProofsTok.v -- token-list lemmas: parsing a printed comma-separated list gives the list back *)
From Coq Require Import ZArith String Bool Arith List Lia.
From XV Require Import C05.Model C05.Check C05.ProofsBase C05.ProofsState.
Import ListNotations.
Local Open Scope string_scope.
Local Open Scope list_scope.

Definition not_comma_hd (tail : list tok) : Prop :=
  forall t, hd_error tail = Some t -> is_lit "," t = false.

Lemma sep_cons : forall x l, sep (x :: l) = x :: flat_map (fun y => [comma; y]) l.
Proof.
  intros x l; revert x; induction l as [|y r IH]; intro x; simpl; [reflexivity|].
  f_equal. f_equal. specialize (IH y). simpl in IH. exact IH.
Qed.

Lemma hd_sep_map : forall A (f : A -> tok) x xs tail, hd_error (sep (map f (x :: xs)) ++ tail) = Some (f x).
Proof. intros; cbn [map]; rewrite sep_cons; reflexivity. Qed.

Section ListParse.
  Context {A : Type}.
  Variable item : tok -> ires A.
  Variable f : A -> tok.

  Lemma parse_more_tail : forall tail, not_comma_hd tail -> parse_more item tail = Some ([], tail).
  Proof.
    intros [|t r] H; simpl; [reflexivity|].
    rewrite (H t eq_refl). reflexivity.
  Qed.

  Lemma parse_more_sep : forall xs tail,
    (forall x, In x xs -> item (f x) = Item x) ->
    not_comma_hd tail ->
    parse_more item (flat_map (fun y => [comma; y]) (map f xs) ++ tail) = Some (xs, tail).
  Proof.
    induction xs as [|x r IH]; intros tail Hit Hc.
    - simpl. apply parse_more_tail; exact Hc.
    - simpl map. simpl flat_map. simpl app.
      cbn [parse_more]. change (is_lit "," comma) with true. cbv iota.
      rewrite (Hit x (or_introl eq_refl)).
      rewrite (IH tail); [reflexivity| |exact Hc].
      intros y Hy; apply Hit; right; exact Hy.
  Qed.

  Lemma parse_opt_list_sep : forall xs tail,
    (forall x, In x xs -> item (f x) = Item x) ->
    not_comma_hd tail ->
    (xs = [] -> forall t, hd_error tail = Some t -> item t = NoItem) ->
    parse_opt_list item (sep (map f xs) ++ tail) = Some (xs, tail).
  Proof.
    intros [|x r] tail Hit Hc Hn.
    - simpl. destruct tail as [|t tr]; [reflexivity|].
      simpl. rewrite (Hn eq_refl t eq_refl). reflexivity.
    - simpl map. rewrite sep_cons. simpl app. cbn [parse_opt_list].
      rewrite (Hit x (or_introl eq_refl)).
      rewrite parse_more_sep; [reflexivity| |exact Hc].
      intros y Hy; apply Hit; right; exact Hy.
  Qed.

  Lemma parse_kind_sep : forall k xs tail,
    (forall x, In x xs -> item (f x) = Item x) ->
    kind_len k (length xs) ->
    (k = KVar -> not_comma_hd tail) ->
    (xs = [] -> forall t, hd_error tail = Some t -> item t = NoItem) ->
    parse_kind k item (sep (map f xs) ++ tail) = Some (xs, tail).
  Proof.
    intros k xs tail Hit Hlen Hc Hn. destruct k; simpl in Hlen.
    - destruct xs as [|x [|y r]]; simpl in Hlen; try lia.
      simpl. rewrite (Hit x (or_introl eq_refl)). reflexivity.
    - destruct xs as [|x [|y r]]; simpl in Hlen; try lia.
      + simpl. destruct tail as [|t tr]; [reflexivity|].
        simpl. rewrite (Hn eq_refl t eq_refl). reflexivity.
      + simpl. rewrite (Hit x (or_introl eq_refl)). reflexivity.
    - simpl. apply parse_opt_list_sep; auto.
  Qed.
End ListParse.

Lemma val_item_TVal : forall v, val_item (TVal v) = Item v.
Proof. reflexivity. Qed.
Lemma type_item_TAttr : forall a, starts_type (av_full a) = true -> type_item (TAttr a) = Item a.
Proof. intros a H; simpl; rewrite H; reflexivity. Qed.
Lemma attr_item_TAttr : forall a, starts_attr (av_full a) = true -> attr_item (TAttr a) = Item a.
Proof. intros a H; simpl; rewrite H; reflexivity. Qed.

Lemma val_item_NoItem : forall t, tok_matches GVal t = false -> val_item t = NoItem.
Proof. intros [ | | | | ]; simpl; intros; try reflexivity; discriminate. Qed.
Lemma type_item_NoItem : forall t, tok_matches GType t = false -> type_item t = NoItem.
Proof.
  intros t H; unfold tok_matches in H; unfold type_item.
  destruct t as [s l|v|a|a|[|] dct]; cbn in *; try rewrite H; try reflexivity; try discriminate.
Qed.
Lemma attr_item_NoItem : forall t, tok_matches GAttr t = false -> attr_item t = NoItem.
Proof.
  intros t H; unfold tok_matches in H; unfold attr_item.
  destruct t as [s l|v|a|a|[|] dct]; cbn in *; try rewrite H; try reflexivity; try discriminate.
Qed.
