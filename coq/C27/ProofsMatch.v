(* C27/ProofsMatch.v -- the direct matcher (PDLMatcher.match_operation ...) succeeds exactly when every predicate
   the conversion extracts holds under the position semantics, and then binds every pattern value to the
   denotation of the position the conversion recorded for it. *)
From Coq Require Import ZArith List Bool Lia.
From XV Require Import C27.Model C27.ProofsChain.
Import ListNotations.
Local Open Scope Z_scope.

Section PatInd.
Variable Po : op_pat -> Prop.
Variable Px : operand_pat -> Prop.
Hypothesis Hop : forall id name attrs operands rtys, Forall Px operands -> Po (Op id name attrs operands rtys).
Hypothesis Hfree : forall v, Px (OFree v).
Hypothesis Hres : forall rid idx o, Po o -> Px (ORes rid idx o).
Hypothesis Hreuse : forall rid, Px (OReuse rid).
Fixpoint op_pat_ind2 (o : op_pat) : Po o :=
  match o with
  | Op id name attrs operands rtys =>
      Hop id name attrs operands rtys
        ((fix go (l : list operand_pat) : Forall Px l :=
            match l with
            | [] => Forall_nil Px
            | x :: r => Forall_cons x (operand_pat_ind2 x) (go r)
            end) operands)
  end
with operand_pat_ind2 (x : operand_pat) : Px x :=
  match x with
  | OFree v => Hfree v
  | ORes rid idx o => Hres rid idx o (op_pat_ind2 o)
  | OReuse rid => Hreuse rid
  end.
End PatInd.

(* ------------------------------------------------------------------ the static class of patterns of the theorem *)
Fixpoint kmem (k : key) (l : list key) : bool :=
  match l with [] => false | k' :: r => key_eqb k' k || kmem k r end.
Section LinLoop.
Variable f : operand_pat -> list key -> option (list key).
Fixpoint lin_with (ops : list operand_pat) (seen : list key) : option (list key) :=
  match ops with
  | [] => Some seen
  | x :: r => match f x seen with Some s => lin_with r s | None => None end
  end.
End LinLoop.
(* every pdl.operation and every pdl.result value occurs once in the tree; no re-used pdl.result value *)
Fixpoint lin_op (o : op_pat) (seen : list key) : option (list key) :=
  match o with
  | Op id _ _ operands _ =>
      if kmem (KOp id) seen then None else lin_with (fun x s => lin_operand x s) operands (KOp id :: seen)
  end
with lin_operand (x : operand_pat) (seen : list key) : option (list key) :=
  match x with
  | OFree _ => Some seen
  | ORes rid _ o => if kmem (KResult rid) seen then None else lin_op o (KResult rid :: seen)
  | OReuse _ => None
  end.
(* every pdl.result index lies within the declared result types of its operation;
   with sr = true additionally: every operation reached through a pdl.result declares exactly one result *)
Fixpoint idx_op (sr : bool) (o : op_pat) : Prop :=
  match o with
  | Op _ _ _ operands _ => fold_right (fun x acc => idx_operand sr x /\ acc) True operands
  end
with idx_operand (sr : bool) (x : operand_pat) : Prop :=
  match x with
  | OFree _ => True
  | ORes _ idx o => 0 <= idx < zlen (op_rtys o) /\ (sr = true -> zlen (op_rtys o) = 1) /\ idx_op sr o
  | OReuse _ => True
  end.

Definition wf_val (pl : payload) (v : val) : Prop :=
  match v with
  | VRes pid k => forall y, find_op pl pid = Some y -> 0 <= k < zlen (o_rtys y)
  | VArg _ => True
  end.
(* operands that are operation results refer to existing results (SSA well-formedness of the payload) *)
Definition payload_wf (pl : payload) : Prop :=
  forall pid x, find_op pl pid = Some x -> Forall (wf_val pl) (o_operands x).

Lemma key_eqb_eq : forall a b, key_eqb a b = true <-> a = b.
Proof.
  destruct a, b; simpl; rewrite ?Z.eqb_eq; split; intro H; try discriminate H; congruence.
Qed.
Lemma key_eqb_refl : forall a, key_eqb a a = true.
Proof. intro a. apply key_eqb_eq. reflexivity. Qed.
Lemma klookup_cons_eq : forall A (l : list (key * A)) k v, klookup ((k, v) :: l) k = Some v.
Proof. intros. simpl. rewrite key_eqb_refl. reflexivity. Qed.
Lemma klookup_cons_neq : forall A (l : list (key * A)) k k' v, k <> k' -> klookup ((k, v) :: l) k' = klookup l k'.
Proof.
  intros A l k k' v H. simpl. destruct (key_eqb k k') eqn:E; [apply key_eqb_eq in E; contradiction | reflexivity].
Qed.
Lemma kmem_In : forall k l, kmem k l = true <-> In k l.
Proof.
  intros k l. induction l as [|x l IH]; simpl; [split; [discriminate | tauto] |].
  rewrite orb_true_iff, IH, key_eqb_eq. tauto.
Qed.

Lemma val_eqb_eq : forall a b, val_eqb a b = true <-> a = b.
Proof.
  destruct a, b; simpl; try (split; [discriminate | intro H; discriminate H]).
  - rewrite Z.eqb_eq. split; [intros ->; reflexivity | intro H; inversion H; reflexivity].
  - rewrite andb_true_iff, !Z.eqb_eq. split; [intros [-> ->]; reflexivity | intro H; inversion H; auto].
Qed.
Lemma list_eqb_eq : forall A (f : A -> A -> bool), (forall a b, f a b = true <-> a = b) ->
  forall l m, list_eqb f l m = true <-> l = m.
Proof.
  intros A f Hf. induction l as [|x l IH]; destruct m as [|y m]; simpl; try (split; [discriminate | intro H; discriminate H]); try tauto.
  rewrite andb_true_iff, Hf, IH. split; [intros [-> ->]; reflexivity | intro H; inversion H; auto].
Qed.
Lemma obj_eqb_eq : forall a b, obj_eqb a b = true <-> a = b.
Proof.
  destruct a, b; simpl;
    rewrite ?Z.eqb_eq, ?val_eqb_eq, ?(list_eqb_eq _ _ val_eqb_eq), ?(list_eqb_eq _ _ Z.eqb_eq);
    split; intro H; try discriminate H; congruence.
Qed.
Lemma obj_eqb_sym : forall a b, obj_eqb a b = obj_eqb b a.
Proof.
  intros a b. destruct (obj_eqb a b) eqn:E1, (obj_eqb b a) eqn:E2; try reflexivity.
  - apply obj_eqb_eq in E1. subst. rewrite (proj2 (obj_eqb_eq b b) eq_refl) in E2. discriminate.
  - apply obj_eqb_eq in E2. subst. rewrite (proj2 (obj_eqb_eq a a) eq_refl) in E1. discriminate.
Qed.

Lemma find_op_in_id : forall l pid x, find_op_in l pid = Some x -> o_id x = pid.
Proof.
  induction l as [|y l IH]; intros pid x H; simpl in H; [discriminate |].
  destruct (o_id y =? pid) eqn:E; [inversion H; subst; apply Z.eqb_eq; exact E | eauto].
Qed.
Lemma find_op_id : forall pl pid x, find_op pl pid = Some x -> o_id x = pid.
Proof. intros pl pid x. apply find_op_in_id. Qed.

Lemma znth_nil : forall A (i : Z), @znth A [] i = None.
Proof. intros A i. unfold znth. destruct (i <? 0); [reflexivity |]. destruct (Z.to_nat i); reflexivity. Qed.
Lemma znth_cons_0 : forall A (x : A) l, znth (x :: l) 0 = Some x.
Proof. reflexivity. Qed.
Lemma znth_cons_S : forall A (x : A) l i, 0 <= i -> znth (x :: l) (i + 1) = znth l i.
Proof.
  intros A x l i Hi. unfold znth. destruct (i + 1 <? 0) eqn:E1; [apply Z.ltb_lt in E1; lia |].
  destruct (i <? 0) eqn:E2; [apply Z.ltb_lt in E2; lia |].
  replace (Z.to_nat (i + 1)) with (S (Z.to_nat i)) by lia. reflexivity.
Qed.
Lemma zlen_cons : forall A (x : A) l, zlen (x :: l) = zlen l + 1.
Proof. intros. unfold zlen. simpl length. lia. Qed.
Lemma zlen_nonneg : forall A (l : list A), 0 <= zlen l.
Proof. intros. unfold zlen. lia. Qed.
Lemma znth_in_range : forall A (l : list A) i, 0 <= i < zlen l -> exists x, znth l i = Some x.
Proof.
  intros A l i [H1 H2]. unfold znth, zlen in *. destruct (i <? 0) eqn:E; [apply Z.ltb_lt in E; lia |].
  destruct (nth_error l (Z.to_nat i)) eqn:E2; [eauto |]. apply nth_error_None in E2. lia.
Qed.

Lemma op_preds_perm : forall A (Q : A -> Prop) h0 hn pa po pr oc rc,
  Forall Q ((h0 ++ hn ++ [oc; rc]) ++ pa ++ po ++ pr) <-> Forall Q (h0 ++ hn ++ pa ++ [oc] ++ po ++ [rc] ++ pr ++ []).
Proof. intros. rewrite !Forall_app, !Forall_cons_iff. tauto. Qed.

Section Match.
Variable fx : fixes.
Variable P : pattern.
Variable pl : payload.
Variable root : Z.

Notation ev := (eval_pos fx pl root).
Definition holds (pr : pred) : Prop := eval_pred fx pl root pr = Some true.

Hypothesis Hfalsy : fx_falsy fx = true \/ (forall a c, p_aconst P a = Some c -> truthy c = true).
Hypothesis Hattr : fx_attrorder fx = true \/
                   (forall pid x n, find_op pl pid = Some x -> get_attr_or_prop x n = get_attr_then_prop x n).

Definition structk (k : key) : Prop := match k with KOp _ | KResult _ => True | _ => False end.

(* env of the direct matcher vs `inputs` of the conversion: same leaf keys (R_dom), bound => recorded (R_sub),
   recorded operations / results are in seen (R_seen), a bound value is the denotation of its recorded position
   (R_val) and not null (R_nn), every recorded position has a denotation (R_ev) *)
Record R (e : env) (inp : inputs) (seen : list key) : Prop := {
  R_dom : forall k, ~ structk k -> (klookup e k = None <-> klookup inp k = None);
  R_sub : forall k, klookup e k <> None -> klookup inp k <> None;
  R_seen : forall k, structk k -> klookup inp k <> None -> In k seen;
  R_val : forall k v p, klookup e k = Some v -> klookup inp k = Some p -> ev p = Some v;
  R_nn : forall k v, klookup e k = Some v -> v <> ONull;
  R_ev : forall k p, klookup inp k = Some p -> ev p <> None
}.

Definition agree (r : mres) (preds : list pred) (inp' : inputs) (seen' : list key) : Prop :=
  match r with
  | MOk e' => Forall holds preds /\ R e' inp' seen'
  | MFail => ~ Forall holds preds
  | MErr => False
  end.

(* the matcher runs its stages one after the other and stops at the first that fails,
   the conversion appends the predicates of the stages *)
Lemma agree_fail_l : forall ps qs inp seen, ~ Forall holds ps -> agree MFail (ps ++ qs) inp seen.
Proof. intros ps qs inp seen H H2. apply Forall_app in H2. apply H, H2. Qed.
Lemma agree_fail_r : forall ps qs inp seen, ~ Forall holds qs -> agree MFail (ps ++ qs) inp seen.
Proof. intros ps qs inp seen H H2. apply Forall_app in H2. apply H, H2. Qed.
Lemma agree_holds_app : forall r ps qs inp seen, Forall holds ps -> agree r qs inp seen -> agree r (ps ++ qs) inp seen.
Proof.
  intros r ps qs inp seen Hps H. destruct r as [| |e]; cbn [agree] in *.
  - intro H2. apply Forall_app in H2. apply H, H2.
  - exact H.
  - split; [apply Forall_app; split; [exact Hps | apply H] | apply H].
Qed.
Lemma agree_bind : forall r f ps qs inp1 seen1 inp2 seen2,
  agree r ps inp1 seen1 -> (forall e1, R e1 inp1 seen1 -> agree (f e1) qs inp2 seen2) ->
  agree (match r with MOk e1 => f e1 | MFail => MFail | MErr => MErr end) (ps ++ qs) inp2 seen2.
Proof.
  intros r f ps qs inp1 seen1 inp2 seen2 H1 H2. destruct r as [| |e1]; cbn [agree] in H1.
  - apply agree_fail_l. exact H1.
  - destruct H1.
  - apply agree_holds_app; [apply H1 | apply H2, H1].
Qed.
(* a boolean test of the matcher (b = "reject") against the predicates g the conversion emits for it *)
Lemma agree_guard : forall (b : bool) g r qs inp seen,
  (if b then ~ Forall holds g else Forall holds g) -> (b = false -> agree r qs inp seen) ->
  agree (if b then MFail else r) (g ++ qs) inp seen.
Proof.
  intros b g r qs inp seen Hg H. destruct b; [apply agree_fail_l; exact Hg | apply agree_holds_app; [exact Hg | apply H; reflexivity]].
Qed.
Lemma agree_test : forall (b : bool) pr e' inp seen,
  eval_pred fx pl root pr = Some b -> (b = true -> R e' inp seen) -> agree (if b then MOk e' else MFail) [pr] inp seen.
Proof.
  intros [|] pr e' inp seen H HR; cbn [agree].
  - split; [constructor; [exact H | constructor] | apply HR; reflexivity].
  - intro HF. inversion HF as [| ? ? H1 _]. unfold holds in H1. congruence.
Qed.
Lemma holds_bool : forall pr b, eval_pred fx pl root pr = Some b -> if negb b then ~ Forall holds [pr] else Forall holds [pr].
Proof.
  intros pr b H. destruct b; cbn [negb]; [constructor; [exact H | constructor] |].
  intro H2. inversion H2 as [| ? ? H3 _]. unfold holds in H3. congruence.
Qed.
Lemma agree_perm : forall r l l' inp seen, (Forall holds l' <-> Forall holds l) -> agree r l inp seen -> agree r l' inp seen.
Proof.
  intros r l l' inp seen Hl H. destruct r as [| |e]; cbn [agree] in *; [rewrite Hl; exact H | exact H | rewrite Hl; exact H].
Qed.

Lemma R_bind : forall e inp seen k v p,
  R e inp seen -> ~ structk k -> klookup e k = None -> ev p = Some v -> v <> ONull ->
  R ((k, v) :: e) ((k, p) :: inp) seen.
Proof.
  intros e inp seen k v p HR Hk He Hp Hv. destruct HR as [Hd Hs Hn Hval Hnn Hev]. constructor.
  - intros k' Hk'. simpl. destruct (key_eqb k k'); [split; discriminate | apply Hd; exact Hk'].
  - intros k'. simpl. destruct (key_eqb k k'); [discriminate | apply Hs].
  - intros k' Hk' H. simpl in H. destruct (key_eqb k k') eqn:E; [apply key_eqb_eq in E; subst; contradiction | eauto].
  - intros k' v' p' H1 H2. simpl in H1, H2. destruct (key_eqb k k'); [inversion H1; inversion H2; subst; exact Hp | eauto].
  - intros k' v' H1. simpl in H1. destruct (key_eqb k k'); [inversion H1; subst; exact Hv | eauto].
  - intros k' p' H1. simpl in H1. destruct (key_eqb k k'); [inversion H1; subst; congruence | eauto].
Qed.

Lemma eval_eq_pred : forall ex p b x,
  ev ex = Some b -> ev p = Some x -> eval_pred fx pl root (eq_pred ex p) = Some (obj_eqb b x).
Proof.
  intros ex p b x H1 H2. unfold eq_pred. destruct (depth ex <? depth p); unfold eval_pred; simpl.
  - rewrite H2. simpl. rewrite H1. rewrite obj_eqb_sym. reflexivity.
  - rewrite H1. simpl. rewrite H2. reflexivity.
Qed.

(* a value that is already bound: direct compares, the conversion emits an equality predicate *)
Lemma bound_case : forall e inp seen k b p x,
  R e inp seen -> klookup e k = Some b -> ev p = Some x ->
  exists ex, klookup inp k = Some ex /\
             agree (if obj_eqb b x then MOk e else MFail) [eq_pred ex p] inp seen.
Proof.
  intros e inp seen k b p x HR Hb Hp.
  destruct (klookup inp k) as [ex|] eqn:Ei.
  2:{ exfalso. eapply (R_sub _ _ _ HR k); [rewrite Hb; discriminate | exact Ei]. }
  exists ex. split; [reflexivity |].
  apply agree_test; [| intros _; exact HR].
  exact (eval_eq_pred _ _ _ _ (R_val _ _ _ HR _ _ _ Hb Ei) Hp).
Qed.

Lemma type_ok : forall e inp seen t xty p,
  R e inp seen -> ev p = Some (OType xty) ->
  agree (match_type P e t xty) (fst (extract_type P inp t p)) (snd (extract_type P inp t p)) seen.
Proof.
  intros e inp seen t xty p HR Hp. unfold match_type, bound_or, extract_type.
  destruct (klookup e (KType t)) as [b|] eqn:Eb.
  - destruct (bound_case _ _ _ _ _ _ _ HR Eb Hp) as (ex & Hex & Hag). rewrite Hex. exact Hag.
  - assert (Hi : klookup inp (KType t) = None) by (apply (R_dom _ _ _ HR); [intros [] | exact Eb]).
    rewrite Hi. simpl.
    destruct (p_tconst P t) as [c|] eqn:Ec.
    + apply agree_test; [| intros _; apply R_bind; [exact HR | intros [] | exact Eb | exact Hp | discriminate]].
      unfold eval_pred. simpl. rewrite Hp. simpl. rewrite Z.eqb_sym. reflexivity.
    + simpl. split; [constructor | apply R_bind; [exact HR | intros [] | exact Eb | exact Hp | discriminate]].
Qed.

Lemma attr_ok : forall e inp seen q x n a,
  R e inp seen -> ev q = Some (OOp (o_id x)) -> find_op pl (o_id x) = Some x ->
  agree (match get_attr_or_prop x n with
         | None => MFail
         | Some xa => match_attribute P e a xa
         end)
        (fst (extract_attr fx P inp a (PAttr q n))) (snd (extract_attr fx P inp a (PAttr q n))) seen.
Proof.
  intros e inp seen q x n a HR Hq Hx.
  assert (Hp : ev (PAttr q n) = Some (match get_attr_or_prop x n with Some a => OAttr a | None => ONull end)).
  { cbn [eval_pos]. rewrite Hq. simpl as_op. rewrite Hx.
    destruct Hattr as [-> | H]; [reflexivity |]. rewrite <- (H _ _ n Hx). destruct (fx_attrorder fx); reflexivity. }
  unfold extract_attr, match_attribute, bound_or.
  destruct (klookup e (KAttr a)) as [b|] eqn:Eb.
  - destruct (bound_case _ _ _ _ _ _ _ HR Eb Hp) as (ex & Hex & Hag). rewrite Hex.
    destruct (get_attr_or_prop x n) as [xa|]; [exact Hag |].
    simpl fst. simpl snd.
    assert (Hb : obj_eqb b ONull = false).
    { destruct (obj_eqb b ONull) eqn:E; [| reflexivity]. apply obj_eqb_eq in E. exfalso. eapply (R_nn _ _ _ HR); eauto. }
    rewrite Hb in Hag. exact Hag.
  - assert (Hi : klookup inp (KAttr a) = None) by (apply (R_dom _ _ _ HR); [intros [] | exact Eb]).
    rewrite Hi. cbn [fst snd].
    destruct (get_attr_or_prop x n) as [xa|].
    + apply (agree_holds_app _ [(PAttr q n, QNotNull)]).
      { constructor; [| constructor]. unfold holds, eval_pred. simpl fst. rewrite Hp. reflexivity. }
      assert (HRb : R ((KAttr a, OAttr xa) :: e) ((KAttr a, PAttr q n) :: inp) seen)
        by (apply R_bind; [exact HR | intros [] | exact Eb | exact Hp | discriminate]).
      destruct (p_aconst P a) as [c|] eqn:Ec; [| split; [constructor | exact HRb]].
      assert (Ht : truthy c || fx_falsy fx = true).
      { destruct Hfalsy as [-> | H]; [apply orb_true_r | rewrite (H _ _ Ec); reflexivity]. }
      rewrite Ht. apply agree_test; [| intros _; exact HRb].
      unfold eval_pred. simpl fst. rewrite Hp. simpl. rewrite Z.eqb_sym. reflexivity.
    + apply (agree_fail_l [_]), (holds_bool _ false). unfold eval_pred. simpl fst. rewrite Hp. reflexivity.
Qed.

Lemma attrs_ok : forall attrs e inp seen q x,
  R e inp seen -> ev q = Some (OOp (o_id x)) -> find_op pl (o_id x) = Some x ->
  agree (match_attrs P x e attrs) (fst (extract_attrs fx P inp q attrs)) (snd (extract_attrs fx P inp q attrs)) seen.
Proof.
  induction attrs as [|[n a] attrs IH]; intros e inp seen q x HR Hq Hx.
  - simpl. split; [constructor | exact HR].
  - cbn [match_attrs extract_attrs].
    pose proof (attr_ok e inp seen q x n a HR Hq Hx) as H1.
    destruct (extract_attr fx P inp a (PAttr q n)) as [ps inp1].
    pose proof (fun e1 HR1 => IH e1 inp1 seen q x HR1 Hq Hx) as H2.
    destruct (extract_attrs fx P inp1 q attrs) as [qs inp2]. cbn [fst snd] in *.
    destruct (get_attr_or_prop x n) as [xa|]; [| apply agree_fail_l; exact H1].
    exact (agree_bind _ _ _ _ _ _ _ _ H1 H2).
Qed.

Lemma znth_some_range : forall A (l : list A) i y, znth l i = Some y -> 0 <= i < zlen l.
Proof.
  intros A l i y H. unfold znth, zlen in *. destruct (i <? 0) eqn:E; [discriminate |].
  apply Z.ltb_ge in E. assert (H2 : nth_error l (Z.to_nat i) <> None) by congruence.
  apply nth_error_Some in H2. lia.
Qed.

Lemma ev_result : forall q x i y,
  ev q = Some (OOp (o_id x)) -> find_op pl (o_id x) = Some x -> znth (o_rtys x) i = Some y ->
  ev (PResult q i) = Some (OVal (VRes (o_id x) i)) /\ ev (PType (PResult q i)) = Some (OType y).
Proof.
  intros q x i y Hq Hx Hy. pose proof (znth_some_range _ _ _ _ Hy) as [H1 H2].
  assert (E : ev (PResult q i) = Some (OVal (VRes (o_id x) i))).
  { cbn [eval_pos]. rewrite Hq. simpl as_op. rewrite Hx.
    replace (0 <=? i) with true by (symmetry; apply Z.leb_le; lia).
    replace (i <? zlen (o_rtys x)) with true by (symmetry; apply Z.ltb_lt; lia). reflexivity. }
  split; [exact E |]. cbn [eval_pos] in *. rewrite E. simpl vtype. rewrite Hx, Hy. reflexivity.
Qed.

Lemma rtys_ok : forall ts xs e inp seen q x i,
  R e inp seen -> ev q = Some (OOp (o_id x)) -> find_op pl (o_id x) = Some x -> 0 <= i ->
  (forall j, 0 <= j -> znth xs j = znth (o_rtys x) (i + j)) -> length ts = length xs ->
  agree (match_types P e ts xs) (fst (extract_rtys P inp q i ts)) (snd (extract_rtys P inp q i ts)) seen.
Proof.
  induction ts as [|t ts IH]; intros xs e inp seen q x i HR Hq Hx Hi Hxs Hlen.
  - destruct xs; simpl; (split; [constructor | exact HR]).
  - destruct xs as [|y xs]; [discriminate |]. cbn [match_types extract_rtys].
    assert (Hy : znth (o_rtys x) i = Some y).
    { rewrite <- (Z.add_0_r i), <- Hxs by lia. reflexivity. }
    destruct (ev_result _ _ _ _ Hq Hx Hy) as [Er Et].
    pose proof (type_ok e inp seen t y _ HR Et) as H1.
    destruct (extract_type P inp t (PType (PResult q i))) as [ps inp1].
    assert (Hxs' : forall j, 0 <= j -> znth xs j = znth (o_rtys x) (i + 1 + j)).
    { intros j Hj. rewrite <- (znth_cons_S _ y xs j Hj), Hxs by lia. f_equal. lia. }
    pose proof (fun e1 HR1 => IH xs e1 inp1 seen q x (i + 1) HR1 Hq Hx ltac:(lia) Hxs' ltac:(simpl in Hlen; lia)) as H2.
    destruct (extract_rtys P inp1 q (i + 1) ts) as [qs inp2]. cbn [fst snd] in *.
    apply (agree_holds_app _ [(PResult q i, QNotNull)]).
    + constructor; [| constructor]. unfold holds, eval_pred. simpl fst. rewrite Er. reflexivity.
    + exact (agree_bind _ _ _ _ _ _ _ _ H1 H2).
Qed.

Lemma R_ext : forall e inp inp' seen, (forall k, klookup inp' k = klookup inp k) -> R e inp seen -> R e inp' seen.
Proof.
  intros e inp inp' seen H [Hd Hs Hn Hv Hnn Hev]. constructor; intros.
  - rewrite H. apply Hd. assumption.
  - rewrite H. apply Hs. assumption.
  - rewrite H in *. eapply Hn; eassumption.
  - rewrite H in *. eapply Hv; eassumption.
  - eapply Hnn; eassumption.
  - rewrite H in *. eapply Hev; eassumption.
Qed.
Lemma klookup_swap : forall A (l : list (key * A)) k1 v1 k2 v2 k, k1 <> k2 ->
  klookup ((k1, v1) :: (k2, v2) :: l) k = klookup ((k2, v2) :: (k1, v1) :: l) k.
Proof.
  intros A l k1 v1 k2 v2 k H. simpl. destruct (key_eqb k1 k) eqn:E1, (key_eqb k2 k) eqn:E2; try reflexivity.
  apply key_eqb_eq in E1, E2. congruence.
Qed.

Lemma free_ok : forall e inp seen ov v p,
  R e inp seen -> ev p = Some (OVal v) ->
  agree (match_free_operand P pl e ov v)
        (fst (extract_operand fx P inp (OFree ov) p)) (snd (extract_operand fx P inp (OFree ov) p)) seen.
Proof.
  intros e inp seen ov v p HR Hp. unfold match_free_operand, bound_or. cbn [extract_operand].
  destruct (klookup e (KOperand ov)) as [b|] eqn:Eb.
  - destruct (bound_case _ _ _ _ _ _ _ HR Eb Hp) as (ex & Hex & Hag). rewrite Hex. exact Hag.
  - assert (Hi : klookup inp (KOperand ov) = None) by (apply (R_dom _ _ _ HR); [intros [] | exact Eb]).
    rewrite Hi.
    assert (Hnn : Forall holds [(p, QNotNull)]).
    { constructor; [| constructor]. unfold holds, eval_pred. simpl fst. rewrite Hp. reflexivity. }
    assert (HRb : forall e1 inp1, R e1 inp1 seen -> klookup e1 (KOperand ov) = None ->
              R ((KOperand ov, OVal v) :: e1) ((KOperand ov, p) :: inp1) seen)
      by (intros e1 inp1 HR1 E1; apply R_bind; [exact HR1 | intros [] | exact E1 | exact Hp | discriminate]).
    destruct (p_otype P ov) as [t|]; [| exact (agree_holds_app (MOk _) _ [] _ _ Hnn (conj (Forall_nil _) (HRb _ _ HR Eb)))].
    assert (Ht : ev (PType p) = Some (OType (vtype pl v))) by (cbn [eval_pos]; rewrite Hp; reflexivity).
    unfold extract_type, match_type, bound_or.
    rewrite (klookup_cons_neq _ inp (KOperand ov) (KType t) p) by discriminate.
    destruct (klookup e (KType t)) as [bt|] eqn:Ebt.
    + destruct (bound_case _ _ _ _ _ _ _ HR Ebt Ht) as (ex & Hex & Hag). rewrite Hex. cbn [fst snd].
      apply (agree_holds_app _ _ _ _ _ Hnn).
      destruct (obj_eqb bt (OType (vtype pl v))); [split; [apply Hag | exact (HRb _ _ HR Eb)] | exact Hag].
    + assert (Hit : klookup inp (KType t) = None) by (apply (R_dom _ _ _ HR); [intros [] | exact Ebt]).
      rewrite Hit. cbn [fst snd].
      (* the matcher binds the type first, the conversion records the operand first *)
      assert (HR2 : R ((KOperand ov, OVal v) :: (KType t, OType (vtype pl v)) :: e)
                      ((KType t, PType p) :: (KOperand ov, p) :: inp) seen).
      { eapply R_ext; [intro k; apply klookup_swap; discriminate |].
        apply HRb; [| rewrite klookup_cons_neq by discriminate; exact Eb].
        apply R_bind; [exact HR | intros [] | exact Ebt | exact Ht | discriminate]. }
      apply (agree_holds_app _ _ _ _ _ Hnn).
      destruct (p_tconst P t) as [c|]; [| split; [constructor | exact HR2]].
      assert (Hq : eval_pred fx pl root (PType p, QType c) = Some (c =? vtype pl v))
        by (unfold eval_pred; simpl fst; rewrite Ht; simpl; rewrite Z.eqb_sym; reflexivity).
      destruct (c =? vtype pl v);
        [exact (agree_test true _ _ _ _ Hq (fun _ => HR2)) | exact (agree_fail_l [_] [] _ _ (holds_bool _ false Hq))].
Qed.

(* ---- the conversion's `inputs` only grows: a recorded position is never replaced *)
Definition mono (inp inp' : inputs) : Prop := forall k p0, klookup inp k = Some p0 -> klookup inp' k = Some p0.
Lemma mono_refl : forall inp, mono inp inp.
Proof. intros inp k p0 H. exact H. Qed.
Lemma mono_trans : forall a b c, mono a b -> mono b c -> mono a c.
Proof. intros a b c H1 H2 k p0 H. apply H2, H1, H. Qed.
Lemma mono_cons : forall inp k p, klookup inp k = None -> mono inp ((k, p) :: inp).
Proof.
  intros inp k p Hn k' p0 H. simpl. destruct (key_eqb k k') eqn:E; [apply key_eqb_eq in E; subst; congruence | exact H].
Qed.
Lemma extract_type_mono : forall inp t p, mono inp (snd (extract_type P inp t p)).
Proof.
  intros inp t p. unfold extract_type. destruct (klookup inp (KType t)) eqn:E; simpl; [apply mono_refl | apply mono_cons; exact E].
Qed.
Lemma extract_attr_mono : forall inp a p, mono inp (snd (extract_attr fx P inp a p)).
Proof.
  intros inp a p. unfold extract_attr. destruct (klookup inp (KAttr a)) eqn:E; simpl; [apply mono_refl | apply mono_cons; exact E].
Qed.
Lemma extract_attrs_mono : forall attrs inp q, mono inp (snd (extract_attrs fx P inp q attrs)).
Proof.
  induction attrs as [|[n a] attrs IH]; intros inp q; simpl; [apply mono_refl |].
  pose proof (extract_attr_mono inp a (PAttr q n)) as H1.
  destruct (extract_attr fx P inp a (PAttr q n)) as [ps inp1]. specialize (IH inp1 q).
  destruct (extract_attrs fx P inp1 q attrs) as [qs inp2]. simpl in *. eapply mono_trans; eassumption.
Qed.
Lemma extract_rtys_mono : forall ts inp q i, mono inp (snd (extract_rtys P inp q i ts)).
Proof.
  induction ts as [|t ts IH]; intros inp q i; simpl; [apply mono_refl |].
  pose proof (extract_type_mono inp t (PType (PResult q i))) as H1.
  destruct (extract_type P inp t (PType (PResult q i))) as [ps inp1]. specialize (IH inp1 q (i + 1)).
  destruct (extract_rtys P inp1 q (i + 1) ts) as [qs inp2]. simpl in *. eapply mono_trans; eassumption.
Qed.
Lemma extract_operands_mono : forall ops,
  Forall (fun x => forall inp p, mono inp (snd (extract_operand fx P inp x p))) ops ->
  forall inp q i, mono inp (snd (extract_operands_with (fun inp x q => extract_operand fx P inp x q) inp q i ops)).
Proof.
  induction ops as [|x ops IH]; intros HF inp q i; simpl; [apply mono_refl |].
  inversion HF as [| ? ? Hx HF']; subst. pose proof (Hx inp (POperand q i)) as H1.
  destruct (extract_operand fx P inp x (POperand q i)) as [ps inp1]. specialize (IH HF' inp1 q (i + 1)).
  destruct (extract_operands_with _ inp1 q (i + 1) ops) as [qs inp2]. simpl in *. eapply mono_trans; eassumption.
Qed.
Lemma extract_mono :
  (forall o inp q, mono inp (snd (extract_op fx P inp o q))) /\
  (forall x inp p, mono inp (snd (extract_operand fx P inp x p))).
Proof.
  set (Po := fun o => forall inp q, mono inp (snd (extract_op fx P inp o q))).
  set (Px := fun x => forall inp p, mono inp (snd (extract_operand fx P inp x p))).
  assert (Hop : forall id name attrs operands rtys, Forall Px operands -> Po (Op id name attrs operands rtys)).
  { intros id name attrs operands rtys HF inp q. cbn [extract_op].
    destruct (klookup inp (KOp id)) eqn:E; [simpl; apply mono_refl |].
    pose proof (extract_attrs_mono attrs ((KOp id, q) :: inp) q) as H1.
    destruct (extract_attrs fx P ((KOp id, q) :: inp) q attrs) as [pa inp1].
    pose proof (extract_operands_mono operands HF inp1 q 0) as H2.
    destruct (extract_operands_with _ inp1 q 0 operands) as [po inp2].
    pose proof (extract_rtys_mono rtys inp2 q 0) as H3.
    destruct (extract_rtys P inp2 q 0 rtys) as [pr inp3]. simpl in *.
    eapply mono_trans; [apply mono_cons; exact E |]. eapply mono_trans; [exact H1 |]. eapply mono_trans; eassumption. }
  assert (Hfree : forall v, Px (OFree v)).
  { intros v inp p. cbn [extract_operand]. destruct (klookup inp (KOperand v)) eqn:E; [simpl; apply mono_refl |].
    destruct (p_otype P v) as [t|]; [| simpl; apply mono_cons; exact E].
    pose proof (extract_type_mono ((KOperand v, p) :: inp) t (PType p)) as H1.
    destruct (extract_type P ((KOperand v, p) :: inp) t (PType p)) as [ps inp1]. simpl in *.
    eapply mono_trans; [apply mono_cons; exact E | exact H1]. }
  assert (Hres : forall rid idx o, Po o -> Px (ORes rid idx o)).
  { intros rid idx o IH inp p. cbn [extract_operand]. destruct (klookup inp (KResult rid)) eqn:E; [simpl; apply mono_refl |].
    specialize (IH ((KResult rid, p) :: inp) (PDefOp p)).
    destruct (extract_op fx P ((KResult rid, p) :: inp) o (PDefOp p)) as [ps inp1]. simpl in *.
    eapply mono_trans; [apply mono_cons; exact E | exact IH]. }
  assert (Hreuse : forall rid, Px (OReuse rid)).
  { intros rid inp p. cbn [extract_operand]. destruct (klookup inp (KResult rid)); simpl; apply mono_refl. }
  split; [exact (op_pat_ind2 Po Px Hop Hfree Hres Hreuse) | exact (operand_pat_ind2 Po Px Hop Hfree Hres Hreuse)].
Qed.

(* ---- entering / leaving a pdl.operation or pdl.result: the conversion records it first, the matcher last *)
Lemma R_fresh : forall e inp seen k, R e inp seen -> structk k -> ~ In k seen -> klookup e k = None /\ klookup inp k = None.
Proof.
  intros e inp seen k HR Hk Hn.
  assert (Hi : klookup inp k = None).
  { destruct (klookup inp k) eqn:E; [| reflexivity]. exfalso. apply Hn. eapply (R_seen _ _ _ HR); [exact Hk | congruence]. }
  split; [| exact Hi]. destruct (klookup e k) eqn:E; [| reflexivity]. exfalso.
  eapply (R_sub _ _ _ HR k); [congruence | exact Hi].
Qed.
Lemma R_pend : forall e inp seen k p, R e inp seen -> structk k -> ~ In k seen -> ev p <> None -> R e ((k, p) :: inp) (k :: seen).
Proof.
  intros e inp seen k p HR Hk Hn Hpe. destruct (R_fresh _ _ _ _ HR Hk Hn) as [He Hi].
  destruct HR as [Hd Hs Hse Hv Hnn Hev]. constructor.
  - intros k' Hk'. simpl. destruct (key_eqb k k') eqn:E; [apply key_eqb_eq in E; subst; contradiction | apply Hd; exact Hk'].
  - intros k' H. simpl. destruct (key_eqb k k'); [discriminate | apply Hs; exact H].
  - intros k' Hk' H. simpl in H. destruct (key_eqb k k') eqn:E; [apply key_eqb_eq in E; subst; left; reflexivity | right; eauto].
  - intros k' v' p' H1 H2. simpl in H2. destruct (key_eqb k k') eqn:E; [apply key_eqb_eq in E; subst; congruence | eauto].
  - exact Hnn.
  - intros k' p' H1. simpl in H1. destruct (key_eqb k k'); [inversion H1; subst; exact Hpe | eauto].
Qed.
Lemma R_close : forall e inp seen k v p,
  R e inp seen -> structk k -> klookup inp k = Some p -> ev p = Some v -> v <> ONull -> R ((k, v) :: e) inp seen.
Proof.
  intros e inp seen k v p [Hd Hs Hse Hv Hnn Hev] Hk Hi Hp Hvn. constructor.
  - intros k' Hk'. simpl. destruct (key_eqb k k') eqn:E; [apply key_eqb_eq in E; subst; contradiction | apply Hd; exact Hk'].
  - intros k' H. simpl in H. destruct (key_eqb k k') eqn:E; [apply key_eqb_eq in E; subst; congruence | apply Hs; exact H].
  - exact Hse.
  - intros k' v' p' H1 H2. simpl in H1. destruct (key_eqb k k') eqn:E; [apply key_eqb_eq in E; subst; inversion H1; subst; congruence | eauto].
  - intros k' v' H1. simpl in H1. destruct (key_eqb k k'); [inversion H1; subst; exact Hvn | eauto].
  - exact Hev.
Qed.

Hypothesis Hresidx : fx_resindex fx = true \/ payload_wf pl.
Let sr := negb (fx_resindex fx).

Definition P_operand (x : operand_pat) : Prop :=
  forall e inp seen seen' p v,
    R e inp seen -> ev p = Some (OVal v) -> (fx_resindex fx = true \/ wf_val pl v) ->
    lin_operand x seen = Some seen' -> idx_operand sr x ->
    agree (match_operand fx P pl e x v)
          (fst (extract_operand fx P inp x p)) (snd (extract_operand fx P inp x p)) seen'.
Definition P_op (o : op_pat) : Prop :=
  forall e inp seen seen' q x,
    R e inp seen -> ev q = Some (OOp (o_id x)) -> find_op pl (o_id x) = Some x ->
    lin_op o seen = Some seen' -> idx_op sr o ->
    agree (match_op fx P pl e o x) (fst (extract_op fx P inp o q)) (snd (extract_op fx P inp o q)) seen'.

Lemma ev_operand : forall q x i v,
  ev q = Some (OOp (o_id x)) -> find_op pl (o_id x) = Some x -> znth (o_operands x) i = Some v ->
  ev (POperand q i) = Some (OVal v).
Proof. intros q x i v Hq Hx Hv. cbn [eval_pos]. rewrite Hq. simpl as_op. rewrite Hx, Hv. reflexivity. Qed.

Lemma operands_ok : forall ops, Forall P_operand ops ->
  forall vals e inp seen seen' q x i,
    R e inp seen -> ev q = Some (OOp (o_id x)) -> find_op pl (o_id x) = Some x -> 0 <= i ->
    (forall j, 0 <= j -> znth vals j = znth (o_operands x) (i + j)) -> length ops = length vals ->
    (fx_resindex fx = true \/ Forall (wf_val pl) vals) ->
    lin_with (fun x s => lin_operand x s) ops seen = Some seen' ->
    fold_right (fun x acc => idx_operand sr x /\ acc) True ops ->
    agree (match_operands_with (fun e op v => match_operand fx P pl e op v) e ops vals)
          (fst (extract_operands_with (fun inp x q => extract_operand fx P inp x q) inp q i ops))
          (snd (extract_operands_with (fun inp x q => extract_operand fx P inp x q) inp q i ops)) seen'.
Proof.
  induction ops as [|op ops IH]; intros HF vals e inp seen seen' q x i HR Hq Hx Hi Hvals Hlen Hwf Hlin Hidx.
  - simpl in Hlin. inversion Hlin; subst. destruct vals; simpl; (split; [constructor | exact HR]).
  - destruct vals as [|v vals]; [discriminate |]. inversion HF as [| ? ? Hop HF']; subst.
    cbn [match_operands_with extract_operands_with]. cbn [lin_with] in Hlin. cbn [fold_right] in Hidx.
    destruct Hidx as [Hidx1 Hidx2].
    destruct (lin_operand op seen) as [seen1|] eqn:El; [| discriminate].
    assert (Hv : znth (o_operands x) i = Some v) by (rewrite <- (Z.add_0_r i), <- Hvals by lia; reflexivity).
    assert (Hwf1 : fx_resindex fx = true \/ wf_val pl v).
    { destruct Hwf as [H|H]; [left; exact H | right; inversion H; assumption]. }
    pose proof (Hop e inp seen seen1 (POperand q i) v HR (ev_operand _ _ _ _ Hq Hx Hv) Hwf1 El Hidx1) as H1.
    destruct (extract_operand fx P inp op (POperand q i)) as [ps inp1].
    assert (Hvals' : forall j, 0 <= j -> znth vals j = znth (o_operands x) (i + 1 + j)).
    { intros j Hj. rewrite <- (znth_cons_S _ v vals j Hj), Hvals by lia. f_equal. lia. }
    assert (Hwf' : fx_resindex fx = true \/ Forall (wf_val pl) vals).
    { destruct Hwf as [H|H]; [left; exact H | right; inversion H; assumption]. }
    pose proof (fun e1 HR1 => IH HF' vals e1 inp1 seen1 seen' q x (i + 1) HR1 Hq Hx ltac:(lia) Hvals'
                                 ltac:(simpl in Hlen; lia) Hwf' Hlin Hidx2) as H2.
    destruct (extract_operands_with _ inp1 q (i + 1) ops) as [qs inp2]. cbn [fst snd] in *.
    exact (agree_bind _ _ _ _ _ _ _ _ H1 H2).
Qed.

Lemma holds_count : forall q x n, ev q = Some (OOp (o_id x)) -> find_op pl (o_id x) = Some x ->
  (eval_pred fx pl root (q, QOperandCount n) = Some (n =? zlen (o_operands x))) /\
  (eval_pred fx pl root (q, QResultCount n) = Some (n =? zlen (o_rtys x))) /\
  (eval_pred fx pl root (q, QNotNull) = Some true) /\
  (forall m, eval_pred fx pl root (q, QName m) = Some (o_name x =? m)).
Proof.
  intros q x n Hq Hx. unfold eval_pred. simpl fst. rewrite Hq. simpl. rewrite Hx, !(Z.eqb_sym n). repeat split; reflexivity.
Qed.

Lemma not_all_in : forall pr l inp seen, eval_pred fx pl root pr = Some false -> In pr l -> agree MFail l inp seen.
Proof.
  intros pr l inp seen H Hin HF. rewrite Forall_forall in HF. specialize (HF _ Hin). unfold holds in HF. congruence.
Qed.
Lemma not_all_cons : forall pr l, eval_pred fx pl root pr = Some false -> forall l0, In pr l0 -> ~ Forall holds (l0 ++ l).
Proof. intros pr l H l0 Hin. exact (not_all_in pr (l0 ++ l) [] [] H (in_or_app _ _ _ (or_introl Hin))). Qed.

Lemma extract_operands_mono_all : forall ops inp q i,
  mono inp (snd (extract_operands_with (fun inp x q => extract_operand fx P inp x q) inp q i ops)).
Proof.
  intros ops. apply extract_operands_mono. apply Forall_forall. intros x _. apply (proj2 extract_mono).
Qed.

Lemma op_ok : forall id name attrs operands rtys, Forall P_operand operands -> P_op (Op id name attrs operands rtys).
Proof.
  intros id name attrs operands rtys HF e inp seen seen' q x HR Hq Hx Hlin Hidx.
  cbn [lin_op] in Hlin. destruct (kmem (KOp id) seen) eqn:Ek; [discriminate |].
  assert (Hn : ~ In (KOp id) seen) by (intro H; apply kmem_In in H; congruence).
  destruct (R_fresh _ _ _ (KOp id) HR I Hn) as [He Hi].
  cbn [match_op extract_op]. unfold bound_or. rewrite He, Hi.
  pose proof (R_pend _ _ _ (KOp id) q HR I Hn ltac:(congruence)) as HR0.
  destruct (holds_count q x (zlen operands) Hq Hx) as (Hoc & _ & Hnn & Hname).
  destruct (holds_count q x (zlen rtys) Hq Hx) as (_ & Hrc & _ & _).
  pose proof (attrs_ok attrs e ((KOp id, q) :: inp) (KOp id :: seen) q x HR0 Hq Hx) as Ha.
  pose proof (extract_attrs_mono attrs ((KOp id, q) :: inp) q) as Hm1.
  destruct (extract_attrs fx P ((KOp id, q) :: inp) q attrs) as [pa inp1]. cbn [fst snd] in Ha, Hm1.
  pose proof (extract_operands_mono_all operands inp1 q 0) as Hm2.
  pose proof (fun e1 HR1 Hlen Hwf => operands_ok operands HF (o_operands x) e1 inp1 (KOp id :: seen) seen' q x 0
                                       HR1 Hq Hx (Z.le_refl 0) (fun j _ => eq_refl) Hlen Hwf Hlin Hidx) as Hops.
  destruct (extract_operands_with (fun inp x q => extract_operand fx P inp x q) inp1 q 0 operands) as [po inp2].
  cbn [fst snd] in Hops, Hm2.
  pose proof (extract_rtys_mono rtys inp2 q 0) as Hm3.
  pose proof (fun e2 HR2 Hlen => rtys_ok rtys (o_rtys x) e2 inp2 seen' q x 0 HR2 Hq Hx (Z.le_refl 0) (fun j _ => eq_refl) Hlen)
    as Hrt.
  destruct (extract_rtys P inp2 q 0 rtys) as [pr inp3]. cbn [fst snd] in Hrt, Hm3 |- *.
  (* the conversion lists both counts ahead of the attributes; the matcher checks, in this order: name, attributes,
     operand count, operands, result count, result types *)
  eapply agree_perm; [apply op_preds_perm |].
  apply agree_holds_app; [destruct q; constructor; try constructor; exact Hnn |].
  apply agree_guard; [destruct name as [n|]; [apply holds_bool; exact (Hname n) | constructor] |]. intros _.
  refine (agree_bind _ _ _ _ _ _ _ _ Ha _). intros e1 HR1.
  apply agree_guard; [apply holds_bool; exact Hoc |]. intro Eoc. apply negb_false_iff, Z.eqb_eq in Eoc.
  refine (agree_bind _ _ _ _ _ _ _ _ (Hops e1 HR1 _ _) _).
  { unfold zlen in Eoc. lia. }
  { destruct Hresidx as [H|H]; [left; exact H | right; eapply H; exact Hx]. }
  intros e2 HR2.
  apply agree_guard; [apply holds_bool; exact Hrc |]. intro Erc. apply negb_false_iff, Z.eqb_eq in Erc.
  refine (agree_bind _ _ _ _ _ _ _ _ (Hrt e2 HR2 _) _); [unfold zlen in Erc; lia |]. intros e3 HR3.
  split; [constructor |]. eapply R_close; [exact HR3 | exact I | | exact Hq | discriminate].
  apply Hm3, Hm2, Hm1. apply klookup_cons_eq.
Qed.

Lemma extract_fresh_count : forall o inp q,
  klookup inp (KOp (op_id o)) = None ->
  In (q, QResultCount (zlen (op_rtys o))) (fst (extract_op fx P inp o q)).
Proof.
  intros [id name attrs operands rtys] inp q H. cbn [extract_op op_id op_rtys] in *. rewrite H.
  destruct (extract_attrs fx P ((KOp id, q) :: inp) q attrs) as [pa inp1].
  destruct (extract_operands_with _ inp1 q 0 operands) as [po inp2].
  destruct (extract_rtys P inp2 q 0 rtys) as [pr inp3]. cbn [fst].
  apply in_or_app. left. apply in_or_app. right. apply in_or_app. right. right. left. reflexivity.
Qed.

Lemma lin_op_fresh : forall o seen seen', lin_op o seen = Some seen' -> ~ In (KOp (op_id o)) seen.
Proof.
  intros [id name attrs operands rtys] seen seen' H. cbn [lin_op op_id] in *.
  destruct (kmem (KOp id) seen) eqn:E; [discriminate |]. intro Hin. apply kmem_In in Hin. congruence.
Qed.

Lemma res_ok : forall rid idx o, P_op o -> P_operand (ORes rid idx o).
Proof.
  intros rid idx o IH e inp seen seen' p v HR Hp Hwf Hlin Hidx.
  cbn [lin_operand] in Hlin. destruct (kmem (KResult rid) seen) eqn:Ek; [discriminate |].
  assert (Hn : ~ In (KResult rid) seen) by (intro H; apply kmem_In in H; congruence).
  destruct (R_fresh _ _ _ (KResult rid) HR I Hn) as [He Hi].
  cbn [idx_operand] in Hidx. destruct Hidx as (Hrange & Hsr & Hidxo).
  cbn [match_operand extract_operand]. unfold bound_or. rewrite He, Hi.
  pose proof (R_pend _ _ _ (KResult rid) p HR I Hn ltac:(congruence)) as HR0.
  assert (Hnn : holds (p, QNotNull)) by (unfold holds, eval_pred; simpl fst; rewrite Hp; reflexivity).
  pose proof (proj1 extract_mono o ((KResult rid, p) :: inp) (PDefOp p)) as Hm.
  assert (Hfresh : klookup ((KResult rid, p) :: inp) (KOp (op_id o)) = None).
  { apply (R_fresh _ _ _ (KOp (op_id o)) HR0 I). eapply lin_op_fresh. exact Hlin. }
  pose proof (extract_fresh_count o _ (PDefOp p) Hfresh) as Hcnt.
  destruct v as [a | pid k].
  { (* block argument: not an OpResult *)
    destruct (extract_op fx P ((KResult rid, p) :: inp) o (PDefOp p)) as [ps inp1]. cbn [fst snd].
    apply (not_all_in (PDefOp p, QNotNull)); [| right; left; reflexivity].
    unfold eval_pred. simpl fst. cbn [eval_pos]. rewrite Hp. reflexivity. }
  destruct (find_op pl pid) as [y|] eqn:Ey.
  2:{ destruct (extract_op fx P ((KResult rid, p) :: inp) o (PDefOp p)) as [ps inp1]. cbn [fst snd].
      apply (not_all_in (PDefOp p, QNotNull)); [| right; left; reflexivity].
      unfold eval_pred. simpl fst. cbn [eval_pos]. rewrite Hp, Ey. reflexivity. }
  pose proof (find_op_id _ _ _ Ey) as Hid.
  assert (Hd : ev (PDefOp p) = Some (OOp (o_id y))) by (cbn [eval_pos]; rewrite Hp, Ey, Hid; reflexivity).
  assert (Hy : find_op pl (o_id y) = Some y) by (rewrite Hid; exact Ey).
  specialize (IH e _ _ seen' (PDefOp p) y HR0 Hd Hy Hlin Hidxo).
  destruct (extract_op fx P ((KResult rid, p) :: inp) o (PDefOp p)) as [ps inp1]. cbn [fst snd] in *.
  destruct (match_op fx P pl e o y) as [| |e'].
  { apply (agree_fail_r [_; _; _]). exact IH. }
  { destruct IH. }
  destruct IH as [Hps HR1].
  assert (Hdn : holds (PDefOp p, QNotNull)) by (unfold holds, eval_pred; simpl fst; rewrite Hd; reflexivity).
  assert (Hpre : negb (zlen (op_rtys o) =? 0) && (zlen (op_rtys o) <=? idx) = false).
  { apply andb_false_iff. right. apply Z.leb_gt. lia. }
  rewrite Hpre.
  assert (Her : ev (PResult (PDefOp p) idx) =
                Some (if (0 <=? idx) && (idx <? zlen (o_rtys y)) then OVal (VRes (o_id y) idx) else ONull)).
  { cbn [eval_pos] in *. rewrite Hd. simpl as_op. rewrite Hy. reflexivity. }
  assert (Heq : eval_pred fx pl root (PResult (PDefOp p) idx, QEqual p) =
                Some (obj_eqb (if (0 <=? idx) && (idx <? zlen (o_rtys y)) then OVal (VRes (o_id y) idx) else ONull)
                              (OVal (VRes pid k)))).
  { unfold eval_pred. simpl fst. rewrite Her. simpl. rewrite Hp. reflexivity. }
  assert (Hinp1 : klookup inp1 (KResult rid) = Some p) by (apply Hm; apply klookup_cons_eq).
  (* in both versions: success iff the operand is result #idx of its owner *)
  assert (Hdone : (0 <=? idx) && (idx <? zlen (o_rtys y)) = true -> k = idx ->
            agree (MOk ((KResult rid, OVal (VRes (o_id y) idx)) :: e'))
                  ((p, QNotNull) :: (PDefOp p, QNotNull) :: (PResult (PDefOp p) idx, QEqual p) :: ps) inp1 seen').
  { intros Hin Hk. split.
    - constructor; [exact Hnn |]. constructor; [exact Hdn |]. constructor; [| exact Hps].
      unfold holds. rewrite Heq, Hin. simpl. rewrite Hid, Hk, !Z.eqb_refl. reflexivity.
    - eapply R_close; [exact HR1 | exact I | exact Hinp1 | | discriminate]. rewrite Hp, Hid, Hk. reflexivity. }
  destruct (fx_resindex fx) eqn:Efx.
  - destruct ((0 <=? idx) && (idx <? zlen (o_rtys y)) && (k =? idx)) eqn:Ec.
    + apply andb_true_iff in Ec. destruct Ec as [Ec1 Ec2]. apply Z.eqb_eq in Ec2. apply Hdone; assumption.
    + apply (not_all_in (PResult (PDefOp p) idx, QEqual p)); [| right; right; left; reflexivity].
      rewrite Heq. f_equal. apply andb_false_iff in Ec. destruct Ec as [Ec | Ec].
      * rewrite Ec. reflexivity.
      * destruct ((0 <=? idx) && (idx <? zlen (o_rtys y))); [| reflexivity]. simpl.
        rewrite (Z.eqb_sym idx k), Ec. apply andb_false_r.
  - (* as found: one declared result, well-formed payload *)
    assert (Hone : zlen (op_rtys o) = 1) by (apply Hsr; subst sr; try rewrite Efx; reflexivity).
    assert (Hcy : zlen (o_rtys y) = 1).
    { rewrite Forall_forall in Hps. specialize (Hps _ Hcnt). unfold holds in Hps.
      destruct (holds_count (PDefOp p) y (zlen (op_rtys o)) Hd Hy) as (_ & Hrc & _ & _).
      rewrite Hrc in Hps. inversion Hps as [Hc]. apply Z.eqb_eq in Hc. lia. }
    assert (Hk : 0 <= k < zlen (o_rtys y)).
    { destruct Hwf as [H | H]; [congruence |]. simpl in H. apply H. exact Ey. }
    assert (Hin : (0 <=? idx) && (idx <? zlen (o_rtys y)) = true).
    { apply andb_true_iff. split; [apply Z.leb_le | apply Z.ltb_lt]; lia. }
    rewrite Hin. apply Hdone; [exact Hin | lia].
Qed.

(* P_op o: from related e / inp, matching o against an operation at position q `agree`s with the predicates and
   inputs the conversion extracts for o at q (any sub-pattern, any position) *)
Theorem sim_op : forall o, P_op o.
Proof.
  apply (op_pat_ind2 P_op P_operand).
  - exact op_ok.
  - intros v e inp seen seen' p x HR Hp _ Hlin _. cbn [lin_operand] in Hlin. inversion Hlin; subst.
    cbn [match_operand]. apply free_ok; assumption.
  - exact res_ok.
  - intros rid e inp seen seen' p x _ _ _ Hlin. discriminate Hlin.
Qed.

End Match.
