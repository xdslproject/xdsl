(* C19/ProofsLoop2.v -- a function with ONE riscv_scf.for (no pre-assigned registers): the allocation is three
   straight-line walks over the virtual block  pre ++ H :: body ++ Y :: post  (post, body, pre), joined by the
   loop end (groups, reservation, re-basing) and the loop header (back to the plain typing). *)
From Coq Require Import ZArith List Bool Arith Lia.
From XV Require Import C19.Model C19.ProofsSpec C19.ProofsStack C19.ProofsAlloc C19.ProofsOp C19.ProofsStep
                       C19.ProofsMain C19.ProofsFunc C19.ProofsLoop.
Import ListNotations.
Local Open Scope Z_scope.

Definition step_list (f : forop) : list value := match f_step f with Some s => [s] | None => [] end.

(* pseudo-operations standing for the loop header and the back edge / loop exit:
   H reads lb, ub, step, ties every iter operand to its carried block argument and defines the induction
   variable; Y reads the induction variable, the body's live-ins, ub and step (so they are live throughout
   the body) and ties every yield operand to the loop result *)
Definition Hop (f : forop) : sop :=
  mkSop (f_lb f :: f_ub f :: step_list f) (firstn 1 (f_bargs f)) (combine (f_iters f) (tl (f_bargs f))) KOther false.
Definition Yop (f : forop) : sop :=
  mkSop (firstn 1 (f_bargs f) ++ live_ins_body f ++ f_ub f :: step_list f) [] (combine (f_yield f) (f_res f))
        KOther false.
Definition virt (pre : list sop) (f : forop) (post : list sop) : list sop :=
  pre ++ Hop f :: f_body f ++ Yop f :: post.
Definition groups (f : forop) : list (list value) := zip4 (tl (f_bargs f)) (f_iters f) (f_yield f) (f_res f).

(* values the loop forces into one register: in/out pairs of the virtual block (incl. H and Y) and the
   back edge (carried block argument ~ yield operand); tconn = connected by such ties *)
Definition ltie (pre : list sop) (f : forop) (post : list sop) (a b : value) : Prop :=
  tied (virt pre f post) a b \/ In (a, b) (combine (tl (f_bargs f)) (f_yield f)).
Inductive tconn (pre : list sop) (f : forop) (post : list sop) : value -> value -> Prop :=
| tc_refl : forall v, tconn pre f post v v
| tc_step : forall u v w, tconn pre f post u v -> (ltie pre f post v w \/ ltie pre f post w v) -> tconn pre f post u w.

Lemma tconn_trans : forall pre f post u v w, tconn pre f post u v -> tconn pre f post v w -> tconn pre f post u w.
Proof.
  intros pre f post u v w H1 H2. induction H2 as [|v x y H2 IH Hs]; [exact H1|].
  exact (tc_step pre f post u x y (IH H1) Hs).
Qed.
Lemma tconn_sym : forall pre f post u v, tconn pre f post u v -> tconn pre f post v u.
Proof.
  intros pre f post u v H. induction H as [|u v w H IH Hs]; [constructor|].
  apply (tconn_trans pre f post w v u); [|exact IH].
  apply (tc_step pre f post w w v (tc_refl pre f post w)). destruct Hs as [Hs|Hs]; [right|left]; exact Hs.
Qed.

Lemma fold_res_single : forall {A S} (g : A -> S -> res S) x s, fold_res g [x] s = g x s.
Proof. intros. simpl. destruct (g x s); reflexivity. Qed.

Lemma allocate_block_loop : forall c pre f post a,
  allocate_block c (map Simple pre ++ For f :: map Simple post) a
  = bind (allocate_sops c post a) (fun a1 => bind (allocate_for c f a1) (allocate_sops c pre)).
Proof.
  intros c pre f post a. unfold allocate_block. rewrite rev_app_distr. simpl. rewrite <- app_assoc. simpl.
  rewrite fold_res_app. rewrite <- map_rev. rewrite fold_res_map_simple.
  unfold allocate_sops at 1. destruct (fold_res (allocate_sop c) (rev post) a) as [a1|e]; simpl; [|reflexivity].
  destruct (allocate_for c f a1) as [a2|e]; simpl; [|reflexivity].
  rewrite <- map_rev. rewrite fold_res_map_simple. reflexivity.
Qed.

Lemma allocate_for_steps : forall c f iv cb a ah, f_bargs f = iv :: cb -> allocate_for c f a = Ok ah ->
  exists a1 a2 a5 a7 s8,
    fold_res (allocate_value c) (live_ins_body f) a = Ok a1
    /\ fold_res allocate_values_same_reg (groups f) a1 = Ok a2
    /\ fold_res (allocate_value c) (iv :: f_ub f :: step_list f) a2 = Ok a5
    /\ let regs := somes (map (ty a5) (f_iters f)) in
       let a6 := set_stk a5 (fold_left (fun s r => reserve_register r s) regs (stk a5)) in
       allocate_sops c (f_body f) a6 = Ok a7
       /\ fold_res unreserve_register regs (stk a7) = Ok s8
       /\ allocate_value c (f_lb f) (free_value iv (set_stk a7 s8)) = Ok ah.
Proof.
  intros c f iv cb a ah Hb H. unfold allocate_for in H. unfold groups. rewrite Hb in *. cbn [tl firstn] in *.
  destruct (fold_res (allocate_value c) (live_ins_body f) a) as [a1|e] eqn:E1; cbn [bind] in H; [|discriminate].
  destruct (fold_res allocate_values_same_reg _ a1) as [a2|e] eqn:E2; cbn [bind] in H; [|discriminate].
  rewrite fold_res_single in H.
  destruct (allocate_value c iv a2) as [a3|e] eqn:E3; cbn [bind] in H; [|discriminate].
  destruct (allocate_value c (f_ub f) a3) as [a4|e] eqn:E4; cbn [bind] in H; [|discriminate].
  destruct (match f_step f with Some s0 => allocate_value c s0 a4 | None => Ok a4 end) as [a5|e] eqn:E5;
    cbn [bind] in H; [|discriminate].
  destruct (allocate_sops c (f_body f) _) as [a7|e] eqn:E7; cbn [bind] in H; [|discriminate].
  destruct (fold_res unreserve_register _ (stk a7)) as [s8|e] eqn:E8; cbn [bind] in H; [|discriminate].
  exists a1, a2, a5, a7, s8. split; [reflexivity|]. split; [exact E2|]. split; [|split; [exact E7 | split; [exact E8 | exact H]]].
  cbn [fold_res]. rewrite E3. cbn [bind]. rewrite E4. cbn [bind].
  unfold step_list. destruct (f_step f); [rewrite fold_res_single|]; exact E5.
Qed.

Lemma zip4_concat_in : forall a b c d g u, In g (zip4 a b c d) -> In u g -> In u (concat (zip4 a b c d)).
Proof. intros. eapply concat_in; eassumption. Qed.

Lemma zip4_shape : forall a b c d g, In g (zip4 a b c d) ->
  exists x y z w, g = [x; y; z; w] /\ In (y, x) (combine b a) /\ In (z, w) (combine c d) /\ In (x, z) (combine a c).
Proof.
  induction a as [|x a IH]; intros b c d g H; simpl in H; [destruct H|].
  destruct b as [|y b]; [destruct H|]. destruct c as [|z c]; [destruct H|]. destruct d as [|w d]; [destruct H|].
  destruct H as [H|H].
  - exists x, y, z, w. subst g. simpl. repeat split; try reflexivity; left; reflexivity.
  - destruct (IH b c d g H) as [x' [y' [z' [w' [E [H1 [H2 H3]]]]]]].
    exists x', y', z', w'. simpl. repeat split; try assumption; right; assumption.
Qed.

Lemma zip4_pairs : forall a b c d x y,
  length b = length a -> length c = length a -> length d = length a ->
  In (x, y) (combine a b) \/ In (x, y) (combine a c) \/ In (y, x) (combine d a) ->
  exists g, In g (zip4 a b c d) /\ In x g /\ In y g.
Proof.
  induction a as [|xa a IH]; intros b c d x y Lb Lc Ld H.
  - destruct d; simpl in H; destruct H as [[]|[[]|[]]].
  - destruct b as [|xb b], c as [|xc c], d as [|xd d]; try discriminate. simpl in *.
    pose proof (IH b c d x y (eq_add_S _ _ Lb) (eq_add_S _ _ Lc) (eq_add_S _ _ Ld)) as IHt.
    assert (Htl : (exists g, In g (zip4 a b c d) /\ In x g /\ In y g) ->
                  exists g, ([xa; xb; xc; xd] = g \/ In g (zip4 a b c d)) /\ In x g /\ In y g).
    { intros [g [Hg Hxy]]. exists g. split; [right; exact Hg | exact Hxy]. }
    destruct H as [[H|H]|[[H|H]|[H|H]]];
      [injection H as <- <- | exact (Htl (IHt (or_introl H)))
      |injection H as <- <- | exact (Htl (IHt (or_intror (or_introl H))))
      |injection H as <- <- | exact (Htl (IHt (or_intror (or_intror H))))];
      (exists [xa; xb; xc; xd]; split; [left; reflexivity | split; [left; reflexivity | simpl; auto]]).
Qed.

Lemma in_concat_zip4 : forall a b c d v,
  length b = length a -> length c = length a -> length d = length a ->
  In v (concat (zip4 a b c d)) <-> In v a \/ In v b \/ In v c \/ In v d.
Proof.
  induction a as [|xa a IH]; intros b c d v Lb Lc Ld; destruct b as [|xb b], c as [|xc c], d as [|xd d]; try discriminate.
  - simpl. tauto.
  - simpl. rewrite (IH b c d v (eq_add_S _ _ Lb) (eq_add_S _ _ Lc) (eq_add_S _ _ Ld)). tauto.
Qed.

Lemma NoDup_concat_in : forall (gs : list (list value)) g, NoDup (concat gs) -> In g gs -> NoDup g.
Proof.
  induction gs as [|h t IH]; intros g Hnd Hg; [destruct Hg|]. simpl in Hnd.
  destruct Hg as [Hg|Hg]; [subst; exact (NoDup_app_l _ _ Hnd) | exact (IH g (NoDup_app_r _ _ Hnd) Hg)].
Qed.
Lemma in_combine_fst : forall (a b : list value) x y, In (x, y) (combine a b) -> In x (map fst (combine a b)).
Proof. intros a b x y H. apply in_map_iff. exists (x, y). split; [reflexivity | exact H]. Qed.
Lemma in_combine_snd : forall (a b : list value) x y, In (x, y) (combine a b) -> In y (map snd (combine a b)).
Proof. intros a b x y H. apply in_map_iff. exists (x, y). split; [reflexivity | exact H]. Qed.

Lemma in_combine_l_ex : forall (a b : list value) x, In x a -> (length a <= length b)%nat ->
  exists y, In (x, y) (combine a b).
Proof.
  induction a as [|h a IH]; intros b x Hx Hl; [destruct Hx|].
  destruct b as [|hb b]; [simpl in Hl; lia|]. simpl in *. destruct Hx as [Hx|Hx].
  - subst. exists hb. left. reflexivity.
  - destruct (IH b x Hx) as [y Hy]; [lia|]. exists y. right. exact Hy.
Qed.
Lemma map_snd_combine : forall (a b : list value), (length b <= length a)%nat -> map snd (combine a b) = b.
Proof.
  induction a as [|x a IH]; intros b L; destruct b as [|y b]; simpl in *; try reflexivity; try lia.
  rewrite IH by lia. reflexivity.
Qed.
Lemma map_fst_combine : forall (a b : list value), (length a <= length b)%nat -> map fst (combine a b) = a.
Proof.
  induction a as [|x a IH]; intros b L; destruct b as [|y b]; simpl in *; try reflexivity; try lia.
  rewrite IH by lia. reflexivity.
Qed.

Lemma in_somes_map : forall {A} (g : A -> option Z) l r,
  In r (somes (map g l)) <-> exists x, In x l /\ g x = Some r.
Proof.
  induction l as [|x t IH]; intros r; simpl; [split; [intros [] | intros [x [[] _]]]|].
  destruct (g x) as [q|] eqn:E; simpl; rewrite IH; split.
  - intros [H|[y [Hy Hg]]]; [subst q; exists x; split; [left; reflexivity | exact E] | exists y; split; [right; exact Hy | exact Hg]].
  - intros [y [[Hy|Hy] Hg]]; [subst y; rewrite E in Hg; inversion Hg; left; reflexivity | right; exists y; split; assumption].
  - intros [y [Hy Hg]]; exists y; split; [right; exact Hy | exact Hg].
  - intros [y [[Hy|Hy] Hg]]; [subst y; rewrite E in Hg; discriminate | exists y; split; assumption].
Qed.

Lemma add_allocated_list : forall c t0 (FR : value -> Z -> Prop), (forall v r, t0 v = Some r -> FR v r) ->
  forall vs (L : value -> Prop) E (M : value -> Prop) a,
  Inv c t0 FR L E M a -> (forall v, In v vs -> (L v \/ ~ M v) /\ exists r, ty a v = Some r) ->
  Inv c t0 FR (setof L vs) E (setof M vs) a.
Proof.
  intros c t0 FR Hpre vs. induction vs as [|v t IH]; intros L E M a HI Hvs.
  - apply (Inv_weaken c t0 FR L _ E M _ a HI); intros w; apply setof_nil.
  - destruct (Hvs v (or_introl eq_refl)) as [Hc [r Hr]].
    pose proof (add_allocated c t0 FR Hpre L E M a v r HI Hc Hr) as HI1.
    assert (HI2 : Inv c t0 FR (setof (addv L v) t) E (setof (addv M v) t) a);
      [|apply (Inv_weaken c t0 FR _ _ E _ _ a HI2); intros w; apply setof_cons].
    apply (IH _ E _ a HI1). intros w Hw. destruct (Hvs w (or_intror Hw)) as [Hcw Hrw]. split; [|exact Hrw].
    destruct (Nat.eq_dec w v) as [->|Hne]; [left; right; reflexivity|].
    destruct Hcw as [H|H]; [left; left; exact H | right; intros [Hm|He]; contradiction].
Qed.

Lemma use_live : forall c (FR : value -> Z -> Prop) o s v, op_facts c FR o s -> In v (uses o) -> live (o :: s) v.
Proof.
  intros c FR o s v F Hv. destruct (of_use c FR o s F v Hv) as [N1 N2].
  split; [apply used_in_cons; left; exact Hv|]. intro Hc. apply defined_in_cons in Hc. destruct Hc; contradiction.
Qed.

Definition t00 : value -> option Z := fun _ => None.
Definition FR00 : value -> Z -> Prop := fun _ _ => False.
Lemma FR00_pre : forall v r, t00 v = Some r -> FR00 v r.
Proof. intros v r H. discriminate. Qed.
Lemma no_pset00 : forall r, ~ Pset t00 r.
Proof. intros r [w Hw]. discriminate. Qed.

Lemma init_sok00 : forall zr pool allow fn,
  (zr = true -> ~ In 0 pool) -> (forall r, In r pool -> 0 <= r) -> (forall v, ty0 fn v = None) ->
  sok (mk_cfg zr fn) t00 (init_state pool allow fn) /\ (forall v, ty (init_state pool allow fn) v = None).
Proof.
  intros zr pool allow fn Hz Hpool Hnone. split; [|exact Hnone].
  assert (Hin : input_ok zr pool fn).
  { split; [|exact Hpool]. intros Hzr. split; [exact (Hz Hzr) | intros v; rewrite Hnone; discriminate]. }
  apply (sok_retype _ (ty0 fn) t00 _ (init_sok zr pool allow fn Hin)).
  - intros v r Hv. discriminate.
  - intros r HP. destruct (no_pset00 r HP).
  - intros _. apply no_pset00.
  - intros r [w Hw]. rewrite Hnone in Hw. discriminate.
Qed.

Section OneLoop.
  Variable zr : bool.
  Variable pool : list Z.
  Variable allow : bool.
  Variable types : list (option Z).
  Variable pre : list sop.
  Variable f : forop.
  Variable post : list sop.
  Variable iv : value.
  Variable cb : list value.
  Variable af : astate.
  Notation fn := (mkFunc types (map Simple pre ++ For f :: map Simple post)).
  Notation c := (mk_cfg zr fn).
  Notation V := (virt pre f post).
  Notation gs := (groups f).
  Notation gv := (concat (groups f)).
  Notation H_ := (Hop f).
  Notation Y_ := (Yop f).
  Notation li := (live_ins_body f).
  Notation R_ := (f_body f ++ Y_ :: post).

  Hypothesis Hz : zr = true -> ~ In 0 pool.
  Hypothesis Hpool : forall r, In r pool -> 0 <= r.
  Hypothesis Hnone : forall v, ty0 fn v = None.
  Hypothesis Hb : f_bargs f = iv :: cb.
  Hypothesis Hwf : wf_prog V.
  Hypothesis Hio : io_ok V.
  Hypothesis Hnz : forall o x y, In o V -> In (x, y) (s_io o) -> ~ In y (zconsts c).
  Hypothesis Hlen : length (f_iters f) = length cb /\ length (f_iters f) = length (f_yield f)
                    /\ length (f_iters f) = length (f_res f).
  Hypothesis Hgs : NoDup gv.
  Hypothesis Hscope : forall v, In v (iv :: cb) \/ defined_in (f_body f) v -> ~ used_in post v.
  Hypothesis Hiv : ~ In iv gv.
  Hypothesis Hli : forall v, In v li -> ~ In v gv /\ v <> iv.
  Hypothesis Hbnd : forall v, In v (f_lb f :: f_ub f :: step_list f) -> ~ In v gv /\ v <> iv.

  Lemma FR00_tie : forall o' x y, In o' V -> In (x, y) (s_io o') -> forall r, (FR00 x r -> FR00 y r) /\ (FR00 y r -> FR00 x r).
  Proof. intros. split; intros []. Qed.

  Lemma V_split_H : V = pre ++ H_ :: R_.
  Proof. reflexivity. Qed.
  Lemma V_split_Y : V = (pre ++ H_ :: f_body f) ++ Y_ :: post.
  Proof. unfold virt. rewrite <- app_assoc. reflexivity. Qed.

  Lemma uses_H : uses H_ = (f_lb f :: f_ub f :: step_list f) ++ f_iters f.
  Proof.
    unfold uses, sop_operands, Hop. simpl. rewrite Hb. simpl.
    rewrite map_fst_combine by (destruct Hlen as [L _]; lia). reflexivity.
  Qed.
  Lemma defs_H_eq : defs H_ = iv :: cb.
  Proof.
    unfold defs, sop_results, Hop. simpl. rewrite Hb. simpl.
    rewrite map_snd_combine by (destruct Hlen as [L _]; lia). reflexivity.
  Qed.
  Lemma defs_H : forall d, In d (defs H_) <-> d = iv \/ In d cb.
  Proof. intros d. rewrite defs_H_eq. simpl. split; (intros [H|H]; [left; symmetry; exact H | right; exact H]). Qed.
  Lemma io_H : s_io H_ = combine (f_iters f) cb.
  Proof. unfold Hop. simpl. rewrite Hb. reflexivity. Qed.
  Lemma uses_Y : uses Y_ = (iv :: li ++ f_ub f :: step_list f) ++ f_yield f.
  Proof.
    unfold uses, sop_operands, Yop. simpl. rewrite Hb. simpl.
    rewrite map_fst_combine by (destruct Hlen as [_ [L2 L3]]; lia). reflexivity.
  Qed.
  Lemma defs_Y : defs Y_ = f_res f.
  Proof.
    unfold defs, sop_results, Yop. simpl. apply map_snd_combine. destruct Hlen as [_ [L2 L3]]. lia.
  Qed.

  Lemma FH : forall FR : value -> Z -> Prop, (forall o' x y, In o' V -> In (x, y) (s_io o') -> forall r, (FR x r -> FR y r) /\ (FR y r -> FR x r)) ->
    op_facts c FR H_ R_.
  Proof. intros FR Ht. exact (op_facts_at c FR V pre H_ _ Hwf Hio Hnz Ht V_split_H). Qed.
  Lemma FY : forall FR : value -> Z -> Prop, (forall o' x y, In o' V -> In (x, y) (s_io o') -> forall r, (FR x r -> FR y r) /\ (FR y r -> FR x r)) ->
    op_facts c FR Y_ post.
  Proof. intros FR Ht. exact (op_facts_at c FR V _ Y_ post Hwf Hio Hnz Ht V_split_Y). Qed.

  Lemma group_members : forall g, In g gs -> exists b it y r_,
    g = [b; it; y; r_] /\ In (it, b) (s_io H_) /\ In (y, r_) (s_io Y_) /\ In (b, y) (combine cb (f_yield f)).
  Proof.
    intros g Hg. unfold groups in Hg. rewrite Hb in Hg. simpl in Hg.
    destruct (zip4_shape _ _ _ _ g Hg) as [b [it [y [r_ [E [H1 [H2 H3]]]]]]].
    exists b, it, y, r_. rewrite io_H. repeat split; assumption.
  Qed.

  Lemma gv_in : forall g u, In g gs -> In u g -> In u gv.
  Proof. intros g u Hg Hu. exact (concat_in gs g u Hg Hu). Qed.

  Lemma pair_group : forall x y,
    In (x, y) (combine cb (f_iters f)) \/ In (x, y) (combine cb (f_yield f)) \/ In (y, x) (combine (f_res f) cb) ->
    exists g, In g gs /\ In x g /\ In y g.
  Proof.
    intros x y H. unfold groups. rewrite Hb. simpl. destruct Hlen as [L1 [L2 L3]].
    apply zip4_pairs; [lia | lia | lia | exact H].
  Qed.

  Lemma in_gv_iff : forall v, In v gv <-> In v cb \/ In v (f_iters f) \/ In v (f_yield f) \/ In v (f_res f).
  Proof.
    intros v. unfold groups. rewrite Hb. destruct Hlen as [L1 [L2 L3]].
    apply in_concat_zip4; simpl; congruence.
  Qed.
  Lemma iters_uses_H : forall it, In it (f_iters f) -> In it (uses H_).
  Proof. intros it Hit. rewrite uses_H. apply in_or_app. right. exact Hit. Qed.

  Lemma uses_Y_post : forall v, In v (uses Y_) -> live post v \/ ~ ment post v.
  Proof. intros v Hv. apply live_or_untouched. exact (proj2 (of_use c FR00 Y_ post (FY FR00 FR00_tie) v Hv)). Qed.
  Lemma uses_H_post : forall v, In v (uses H_) -> live post v \/ ~ ment post v.
  Proof.
    intros v Hv. apply live_or_untouched. intro Hc. apply (proj2 (of_use c FR00 H_ _ (FH FR00 FR00_tie) v Hv)).
    apply defined_in_app. right. apply defined_in_cons. right. exact Hc.
  Qed.
  Lemma untouched_post : forall v, In v (iv :: cb) \/ In v (f_iters f) \/ In v (f_yield f) -> ~ ment post v.
  Proof.
    intros v [Hv|[Hv|Hv]] [Hu|Hd].
    - exact (Hscope v (or_introl Hv) Hu).
    - rewrite <- defs_H_eq in Hv. apply (of_def c FR00 H_ _ (FH FR00 FR00_tie) v Hv). apply defined_in_app. right.
      apply defined_in_cons. right. exact Hd.
    - apply (of_io_dead c FR00 H_ _ (FH FR00 FR00_tie) v).
      + rewrite io_H, map_fst_combine by (destruct Hlen as [L _]; lia). exact Hv.
      + apply used_in_app. right. apply used_in_cons. right. exact Hu.
    - destruct (uses_H_post v (iters_uses_H v Hv)) as [[_ H]|H]; [exact (H Hd) | exact (H (or_intror Hd))].
    - apply (of_io_dead c FR00 Y_ post (FY FR00 FR00_tie) v); [|exact Hu].
      unfold Yop. simpl. rewrite map_fst_combine by (destruct Hlen as [_ [L2 L3]]; lia). exact Hv.
    - assert (HvY : In v (uses Y_)) by (rewrite uses_Y; apply in_or_app; right; exact Hv).
      destruct (uses_Y_post v HvY) as [[_ H]|H]; [exact (H Hd) | exact (H (or_intror Hd))].
  Qed.

  Notation Inv0 := (Inv c t00 FR00).

  (* the typing and forced relation used from the loop end to the loop header *)
  Definition t0' (a6 : astate) : value -> option Z := rebased t00 gv a6.
  Definition FR' (a6 : astate) (v : value) (r : Z) : Prop :=
    exists w, In w gv /\ ty a6 w = Some r /\ tconn pre f post w v.

  (* what allocate_for allocates before the body, in this order: live-ins, groups, induction variable, ub, step *)
  Definition acc_of : list value := li ++ gv ++ iv :: f_ub f :: step_list f.

  Lemma in_acc : forall v, In v acc_of <-> In v li \/ In v gv \/ In v (iv :: f_ub f :: step_list f).
  Proof.
    intros v. unfold acc_of. rewrite !in_app_iff. reflexivity.
  Qed.

  Lemma setof_acc : forall (S : value -> Prop) w,
    setof (setof (setof S li) gv) (iv :: f_ub f :: step_list f) w <-> setof S acc_of w.
  Proof.
    intros S w. split; intro H.
    - exact (proj2 (setof_app S li _ w) (proj2 (setof_app (setof S li) gv _ w) H)).
    - exact (proj1 (setof_app (setof S li) gv _ w) (proj1 (setof_app S li _ w) H)).
  Qed.

  Notation Lpost := (live post).
  Notation Mpost := (ment post).

  Lemma carried_group_ok : forall g, In g gs -> group_ok c t00 FR00 (setof Lpost li) (setof Mpost li) g.
  Proof.
    intros g Hg. destruct (group_members g Hg) as [b [it [y [r_ [E [HinH [HinY _]]]]]]]. rewrite io_H in HinH.
    assert (Hnli : forall u, In u g -> ~ In u li) by (intros u Hu Hc; exact (proj1 (Hli u Hc) (gv_in g u Hg Hu))).
    pose proof (NoDup_concat_in gs g Hgs Hg) as Hndg. subst g.
    exists [b; it; y], r_. split; [reflexivity|]. split; [exact Hndg|].
    split; [|split; [reflexivity | split; [|split; [|intros u w r _ _ []]]]].
    - intros u Hu. split; [|reflexivity].
      intros [Hc|Hc]; [|exact (Hnli u (in_or_app [b; it; y] [r_] u (or_introl Hu)) Hc)].
      revert Hc. apply untouched_post. destruct Hu as [Hu|[Hu|[Hu|[]]]]; subst u.
      + left. right. exact (in_combine_r _ _ _ _ HinH).
      + right. left. exact (in_combine_l _ _ _ _ HinH).
      + right. right. exact (in_combine_l _ _ _ _ HinY).
    - assert (HrY : In r_ (defs Y_)) by (rewrite defs_Y; exact (in_combine_r _ _ _ _ HinY)).
      destruct (live_or_untouched post r_ (of_def c FR00 Y_ post (FY FR00 FR00_tie) r_ HrY)) as [H|H]; [left; left; exact H | right].
      intros [Hc|Hc]; [exact (H Hc) | exact (Hnli r_ (or_intror (or_intror (or_intror (or_introl eq_refl)))) Hc)].
    - apply (Hnz Y_ y r_); [|exact HinY]. rewrite V_split_Y. apply in_or_app. right. left. reflexivity.
  Qed.

  (* the loop end, from the invariant after `post` (state a) to the state a6 in which the body is walked: the
     values of acc_of are protected on top of what is live after the loop, the group registers are reserved *)
  Lemma yphase : forall a a1 a2 a5,
    Inv0 Lpost Enone Mpost a ->
    fold_res (allocate_value c) li a = Ok a1 ->
    fold_res allocate_values_same_reg gs a1 = Ok a2 ->
    fold_res (allocate_value c) (iv :: f_ub f :: step_list f) a2 = Ok a5 ->
    let regs := somes (map (ty a5) (f_iters f)) in
    let a6 := set_stk a5 (fold_left (fun s r => reserve_register r s) regs (stk a5)) in
    Inv0 (setof Lpost acc_of) (Eg gs) (setof Mpost acc_of) a6
    /\ mono a a6
    /\ (forall v, In v acc_of -> exists r, ty a6 v = Some r)
    /\ (forall g, In g gs -> exists R, (forall u, In u g -> ty a6 u = Some R) /\ is_reserved R (stk a6) = true).
  Proof.
    intros a a1 a2 a5 HI0 E1 E2 E35 regs a6.
    pose proof (Inv_E_weaken c t00 FR00 Lpost Enone (Eg gs) Mpost a HI0 (fun x y (H : Enone x y) => match H with end)) as HI0'.
    destruct (alloc_list c t00 FR00 FR00_pre (Eg gs) li Lpost Mpost a a1 HI0') as [HI1 [Hm1 [Hal1 _]]]; [|exact E1|].
    { intros v Hv. apply uses_Y_post. rewrite uses_Y. apply in_or_app. left. right. apply in_or_app. left. exact Hv. }
    destruct (groups_phase c t00 FR00 gs Hgs gs (setof Lpost li) (setof Mpost li) a1 a2 (incl_refl gs) HI1 carried_group_ok Hgs E2)
      as [HI2 [Hm2 [Hg2 _]]].
    destruct (alloc_list c t00 FR00 FR00_pre (Eg gs) (iv :: f_ub f :: step_list f) _ _ a2 a5 HI2) as [HI5' [Hm25 [Hal5 _]]];
      [|exact E35|].
    { intros v Hv. apply setof_pre, setof_pre. destruct Hv as [Hv|Hv]; [subst v; right; apply untouched_post; left; left; reflexivity|].
      apply uses_H_post. rewrite uses_H. apply in_or_app. left. right. exact Hv. }
    assert (HI5 : Inv0 (setof Lpost acc_of) (Eg gs) (setof Mpost acc_of) a5).
    { apply (Inv_weaken c t00 FR00 _ _ (Eg gs) _ _ a5 HI5'); intros w; apply setof_acc. }
    assert (Hgreg : forall g, In g gs -> exists R, (forall u, In u g -> ty a5 u = Some R) /\ In R regs).
    { intros g Hg. destruct (Hg2 g Hg) as [R HR]. exists R. split; [intros u Hu; apply Hm25; exact (HR u Hu)|].
      destruct (group_members g Hg) as [b [it [y [r_ [Eg_ [HinH _]]]]]]. subst g.
      apply in_somes_map. exists it. rewrite io_H in HinH.
      split; [exact (in_combine_l _ _ _ _ HinH) | apply Hm25; apply HR; right; left; reflexivity]. }
    pose proof HI5 as [Hs5 [H15 _]].
    assert (HI6 : Inv0 (setof Lpost acc_of) (Eg gs) (setof Mpost acc_of) a6).
    { apply (reserve_inv c t00 FR00 _ _ _ a5 regs HI5). intros r Hr.
      apply in_somes_map in Hr. destruct Hr as [it [Hit Hty]].
      assert (HL : setof Lpost acc_of it) by (right; apply in_acc; right; left; apply in_gv_iff; right; left; exact Hit).
      split; [exact (H15 it r HL Hty) | intros Hneg; exact (proj1 (so_neg_ty c t00 a5 Hs5 it r Hty Hneg))]. }
    split; [exact HI6|]. split.
    { intros w q Hq. unfold a6. simpl. apply Hm25. apply Hm2. apply Hm1. exact Hq. }
    split.
    { intros v Hv. unfold a6. simpl. apply in_acc in Hv. destruct Hv as [Hv|[Hv|Hv]].
      - destruct (Hal1 v Hv) as [r Hr]. exists r. apply Hm25. apply Hm2. exact Hr.
      - apply in_concat in Hv. destruct Hv as [g [Hg Hvg]]. destruct (Hgreg g Hg) as [R [HR _]].
        exists R. exact (HR v Hvg).
      - exact (Hal5 v Hv). }
    intros g Hg. destruct (Hgreg g Hg) as [R [HR HRin]]. exists R. split; [exact HR|].
    unfold a6. simpl. apply reserve_keys. right. exact HRin.
  Qed.

  Lemma acc_uses_Y : forall v, In v acc_of <-> In v (uses Y_) \/ In v gv.
  Proof.
    intros v. rewrite in_acc, uses_Y, in_app_iff. simpl. rewrite in_app_iff. simpl. split.
    - intros [H|[H|[H|[H|H]]]]; [left; left; right; left; exact H | right; exact H | left; left; left; exact H
                                 | left; left; right; right; left; exact H | left; left; right; right; right; exact H].
    - intros [[[H|[H|[H|H]]]|H]|H]; [right; right; left; exact H | left; exact H | right; right; right; left; exact H
                                     | right; right; right; right; exact H | right; left; apply in_gv_iff; right; right; left; exact H | right; left; exact H].
  Qed.

  (* members of different groups sit in different registers *)
  Definition apart (a6 : astate) : Prop :=
    forall w1 w2 r, In w1 gv -> In w2 gv -> ty a6 w1 = Some r -> ty a6 w2 = Some r ->
      exists g, In g gs /\ In w1 g /\ In w2 g.
  (* the registers of the loop-carried groups and of the induction variable, as fixed at the loop end *)
  Definition carried (a6 : astate) : Prop :=
    apart a6
    /\ (forall g, In g gs -> exists R, forall u, In u g -> ty a6 u = Some R)
    /\ (exists riv, ty a6 iv = Some riv /\ forall w, In w gv -> ty a6 w <> Some riv).
  (* ... they are ordinary registers: allocatable, or infinite ones that are allowed *)
  Definition ordinary (a6 : astate) : Prop :=
    forall w r, In w gv -> ty a6 w = Some r ->
      (r < 0 -> allow_inf (stk a6) = true)
      /\ (In r (allocatable (stk a6)) \/ (r < 0 /\ allow_inf (stk a6) = true)).

  Lemma carried_ty : forall a6, carried a6 -> forall v, In v gv -> exists r, ty a6 v = Some r.
  Proof.
    intros a6 [_ [GT _]] v Hv. apply in_concat in Hv. destruct Hv as [g [Hg Hvg]].
    destruct (GT g Hg) as [R HR]. exists R. exact (HR v Hvg).
  Qed.

  Lemma pset' : forall a6 r, Pset (t0' a6) r <-> exists w, In w gv /\ ty a6 w = Some r.
  Proof.
    intros a6 r. unfold Pset, t0', rebased, t00. split; intros [w Hw]; exists w.
    - destruct (memN w gv) eqn:Em; [|discriminate]. split; [apply memN_In; exact Em | exact Hw].
    - destruct Hw as [Hw Hr]. apply memN_In in Hw. rewrite Hw. exact Hr.
  Qed.

  Lemma live_Y_acc : forall v, live (Y_ :: post) v -> setof (live post) acc_of v.
  Proof.
    intros v [Hu Hnd]. apply used_in_cons in Hu. destruct Hu as [Hu|Hu].
    - right. apply acc_uses_Y. left. exact Hu.
    - left. split; [exact Hu | intro Hc; apply Hnd; apply defined_in_cons; right; exact Hc].
  Qed.

  (* ---- the state a6 at the loop end: live-ins, groups, induction variable, ub, step allocated, the group
     registers reserved ---- *)
  Section LoopEnd.
    Variable a6 : astate.
    Hypothesis HI6 : Inv0 (setof (live post) acc_of) (Eg gs) (setof (ment post) acc_of) a6.
    Hypothesis Hallacc : forall v, In v acc_of -> exists r, ty a6 v = Some r.
    Hypothesis Hgreg : forall g, In g gs ->
      exists R, (forall u, In u g -> ty a6 u = Some R) /\ is_reserved R (stk a6) = true.

    Lemma gv_reserved : forall v, In v gv -> exists R, ty a6 v = Some R /\ is_reserved R (stk a6) = true.
    Proof.
      intros v Hv. apply in_concat in Hv. destruct Hv as [g [Hg Hvg]]. destruct (Hgreg g Hg) as [R [HR Hres]].
      exists R. split; [exact (HR v Hvg) | exact Hres].
    Qed.

    (* a group register is not zero: it holds a loop result, and results of in/out pairs are no zero constants *)
    Lemma gv_nonzero : zero_rule c = true -> forall v, In v gv -> ty a6 v <> Some 0.
    Proof.
      intros Hzr v Hv Hc. apply in_concat in Hv. destruct Hv as [g [Hg Hvg]].
      destruct (Hgreg g Hg) as [R [HR _]]. rewrite (HR v Hvg) in Hc. inversion Hc; subst R.
      destruct (group_members g Hg) as [b [it [y [r_ [Eg_ [_ [HinY _]]]]]]]. subst g.
      apply (Hnz Y_ y r_); [rewrite V_split_Y; apply in_or_app; right; left; reflexivity | exact HinY|].
      destruct HI6 as [Hs6 _]. apply (so_zero_ty c t00 a6 Hs6 r_ Hzr). apply HR. right. right. right. left. reflexivity.
    Qed.

    Lemma share_group : forall v w r, setof (live post) acc_of v -> In w gv -> v <> w ->
      ty a6 v = Some r -> ty a6 w = Some r -> Eg gs v w.
    Proof.
      intros v w r Hv Hw Hne Hrv Hrw. destruct HI6 as [_ [_ [H26 _]]].
      assert (Hwa : setof (live post) acc_of w) by (right; apply acc_uses_Y; right; exact Hw).
      destruct (H26 v w r Hv Hwa Hne Hrv Hrw) as [HP|[[Hzr H0]|HE]].
      - exfalso. exact (no_pset00 r HP).
      - exfalso. subst r. exact (gv_nonzero Hzr w Hw Hrw).
      - exact HE.
    Qed.

    Lemma end_carried : carried a6.
    Proof.
      split; [|split].
      - intros w1 w2 r Hw1 Hw2 Hr1 Hr2. destruct (Nat.eq_dec w1 w2) as [E|E].
        + subst w2. apply in_concat in Hw1. destruct Hw1 as [g [Hg Hwg]]. exists g. repeat split; assumption.
        + apply (share_group w1 w2 r); try assumption. right. apply acc_uses_Y. right. exact Hw1.
      - intros g Hg. destruct (Hgreg g Hg) as [R [HR _]]. exists R. exact HR.
      - assert (Hivacc : In iv acc_of) by (apply in_acc; right; right; left; reflexivity).
        destruct (Hallacc iv Hivacc) as [riv Hriv]. exists riv. split; [exact Hriv|].
        intros w Hw Hc. assert (Hne : iv <> w) by (intro; subst; contradiction).
        destruct (share_group iv w riv (or_intror Hivacc) Hw Hne Hriv Hc) as [g [Hg [Hivg _]]]. exact (Hiv (gv_in g iv Hg Hivg)).
    Qed.

    Lemma end_ordinary : ordinary a6.
    Proof.
      intros w r Hw Hr. destruct HI6 as [Hs6 _]. split.
      - intros Hneg. destruct (so_neg_ty c t00 a6 Hs6 w r Hr Hneg) as [_ [H|H]]; [exact H | exfalso; exact (no_pset00 r H)].
      - destruct (so_prov c t00 a6 Hs6 w r Hr eq_refl) as [H|[H|[[Hzr [H0 _]]|H]]];
          [left; exact H | right; exact H | exfalso; subst r; exact (gv_nonzero Hzr w Hw Hr) | exfalso; exact (no_pset00 r H)].
    Qed.

    Lemma yrebase : (forall v, live post v -> exists r, ty a6 v = Some r) ->
      Inv c (t0' a6) (FR' a6) (live (Y_ :: post)) Enone (ment (Y_ :: post)) a6
      /\ (forall v, live (Y_ :: post) v -> exists r, ty a6 v = Some r).
    Proof.
      intros HallS.
      assert (HI' : Inv c (t0' a6) (FR' a6) (setof (live post) acc_of) (Eg gs) (setof (ment post) acc_of) a6).
      { apply (rebase c t00 FR00 (FR' a6) gv a6 _ _ _ HI6).
        - intros v Hv. right. apply acc_uses_Y. right. exact Hv.
        - exact gv_reserved.
        - exact gv_nonzero.
        - intros v r [].
        - intros v r Hv Hr [w [Hw Hrw]]. destruct (in_dec Nat.eq_dec v gv) as [Hvg|Hvg].
          + exists v. split; [exact Hvg|]. split; [exact Hr | constructor].
          + exfalso. assert (Hne : v <> w) by (intro; subst; contradiction).
            destruct (share_group v w r Hv Hw Hne Hr Hrw) as [g [Hg [Hvg' _]]]. exact (Hvg (gv_in g v Hg Hvg')). }
      destruct HI' as [Hs' [H1' [H2' [Hf' H5']]]]. destruct HI6 as [_ [_ [_ [Hf6 _]]]].
      split.
      - split; [exact Hs'|]. split; [|split; [|split]].
        + intros v r Hv. exact (H1' v r (live_Y_acc v Hv)).
        + intros v1 v2 r Hv1 Hv2 Hne Hq1 Hq2.
          destruct (H2' v1 v2 r (live_Y_acc v1 Hv1) (live_Y_acc v2 Hv2) Hne Hq1 Hq2) as [H|[H|[g [Hg [Hg1 _]]]]];
            [left; exact H | right; left; exact H|].
          left. apply pset'. exists v1. split; [exact (gv_in g v1 Hg Hg1) | exact Hq1].
        + intros v Hv. unfold t0', rebased. destruct (memN v gv) eqn:Em; [reflexivity|].
          assert (Hvg : ~ In v gv) by (intro Hc; apply memN_In in Hc; congruence).
          apply Hf6. intros [Hm|Hacc]; apply Hv.
          * destruct Hm as [Hu|Hd]; [left; apply used_in_cons; right; exact Hu | right; apply defined_in_cons; right; exact Hd].
          * apply acc_uses_Y in Hacc. destruct Hacc as [Hu|Hg]; [|contradiction]. left. apply used_in_cons. left. exact Hu.
        + intros v r Hv. exact (H5' v r (live_Y_acc v Hv)).
      - intros v Hv. destruct (live_Y_acc v Hv) as [HS|Hacc]; [exact (HallS v HS) | exact (Hallacc v Hacc)].
    Qed.
  End LoopEnd.

  Lemma FR'_pre : forall a6 v r, t0' a6 v = Some r -> FR' a6 v r.
  Proof.
    intros a6 v r H. unfold t0', rebased, t00 in H. destruct (memN v gv) eqn:Em; [|discriminate].
    exists v. split; [apply memN_In; exact Em|]. split; [exact H | constructor].
  Qed.
  Lemma FR'_tie : forall a6 o' x y, In o' V -> In (x, y) (s_io o') ->
    forall r, (FR' a6 x r -> FR' a6 y r) /\ (FR' a6 y r -> FR' a6 x r).
  Proof.
    intros a6 o' x y Ho Hin r. assert (Ht : ltie pre f post x y) by (left; exists o'; split; assumption).
    split; intros [w [Hw [Hr Hc]]]; exists w; (split; [exact Hw|]); (split; [exact Hr|]).
    - exact (tc_step pre f post w x y Hc (or_introl Ht)).
    - exact (tc_step pre f post w y x Hc (or_intror Ht)).
  Qed.
  Lemma group_conn : forall g u w, In g gs -> In u g -> In w g -> tconn pre f post u w.
  Proof.
    intros g u w Hg Hu Hw. destruct (group_members g Hg) as [b [it [y [r_ [E [HinH [HinY Hby]]]]]]]. subst g.
    assert (T1 : ltie pre f post it b).
    { left. exists H_. split; [rewrite V_split_H; apply in_or_app; right; left; reflexivity | exact HinH]. }
    assert (T2 : ltie pre f post b y). { right. rewrite Hb. simpl. exact Hby. }
    assert (T3 : ltie pre f post y r_).
    { left. exists Y_. split; [rewrite V_split_Y; apply in_or_app; right; left; reflexivity | exact HinY]. }
    assert (Cb : forall x, In x [b; it; y; r_] -> tconn pre f post b x).
    { intros x Hx. simpl in Hx. destruct Hx as [Hx|[Hx|[Hx|[Hx|[]]]]]; subst x.
      - constructor.
      - exact (tc_step _ _ _ b b it (tc_refl _ _ _ b) (or_intror T1)).
      - exact (tc_step _ _ _ b b y (tc_refl _ _ _ b) (or_introl T2)).
      - exact (tc_step _ _ _ b y r_ (tc_step _ _ _ b b y (tc_refl _ _ _ b) (or_introl T2)) (or_introl T3)). }
    exact (tconn_trans _ _ _ u b w (tconn_sym _ _ _ b u (Cb u Hu)) (Cb w Hw)).
  Qed.

  Lemma FR'_conn : forall a6 v1 v2 r, apart a6 -> FR' a6 v1 r -> FR' a6 v2 r -> tconn pre f post v1 v2.
  Proof.
    intros a6 v1 v2 r DG [w1 [Hw1 [Hr1 C1]]] [w2 [Hw2 [Hr2 C2]]].
    destruct (DG w1 w2 r Hw1 Hw2 Hr1 Hr2) as [g [Hg [Hg1 Hg2]]].
    apply (tconn_trans _ _ _ v1 w1 v2); [apply tconn_sym; exact C1|].
    exact (tconn_trans _ _ _ w1 w2 v2 (group_conn g w1 w2 Hg Hg1 Hg2) C2).
  Qed.

  Hypothesis Htie_ok : forall p s, V = p ++ s -> forall v1 v2, live s v1 -> live s v2 -> v1 <> v2 ->
    tconn pre f post v1 v2 -> False.          (* values tied into one register are never live together *)

  Lemma live_R_iv : live R_ iv.
  Proof.
    split.
    - apply used_in_app. right. apply used_in_cons. left. rewrite uses_Y. left. reflexivity.
    - apply (of_def c _ H_ _ (FH FR00 FR00_tie) iv). apply defs_H. left. reflexivity.
  Qed.

  Lemma uses_H_live : forall v, In v (uses H_) -> live (H_ :: R_) v.
  Proof. intros v. exact (use_live c FR00 H_ R_ v (FH FR00 FR00_tie)). Qed.

  (* what is protected / touched when the walk arrives at the loop header: the carried block arguments are
     about to be defined (they stop being live), the iter operands are read *)
  Definition Lh (v : value) : Prop := (live R_ v /\ ~ In v cb) \/ In v (f_iters f).
  Definition Mh (v : value) : Prop := ment R_ v \/ In v (f_iters f) \/ In v gv.

  Lemma Lh_live : forall v, Lh v -> v <> iv -> live (H_ :: R_) v.
  Proof.
    intros v [[[Hu Hnd] Hncb]|Hit] Hne; [|exact (uses_H_live v (iters_uses_H v Hit))].
    split; [apply used_in_cons; right; exact Hu|]. intro Hc. apply defined_in_cons in Hc.
    destruct Hc as [Hc|Hc]; [|exact (Hnd Hc)]. apply defs_H in Hc. destruct Hc as [Hc|Hc]; [exact (Hne Hc) | exact (Hncb Hc)].
  Qed.

  (* ---- at the loop header, back to the typing without pre-assignments: the group registers are ordinary
     registers again, and a group register shared by two protected values would make them tie-connected ---- *)
  Lemma header_retype : forall a6 a7,
    carried a6 -> ordinary a6 ->
    Inv c (t0' a6) (FR' a6) (live R_) Enone (ment R_) a7 ->
    mono a6 a7 -> same_pool (stk a6) (stk a7) ->
    Inv0 Lh Enone Mh a7.
  Proof.
    intros a6 a7 Hcar RF HI7 Hm67 [Pal Pallow].
    pose proof (carried_ty a6 Hcar) as Hgvty. destruct Hcar as [DG [_ [riv [Hivty IVF]]]].
    pose proof (FH (FR' a6) (FR'_tie a6)) as FHf.
    assert (Hit_facts : forall it, In it (f_iters f) -> (live R_ it \/ ~ ment R_ it) /\ exists r, ty a7 it = Some r).
    { intros it Hit. split.
      - right. intros [Hu|Hd]; [|exact (proj2 (of_use c _ H_ _ FHf it (iters_uses_H it Hit)) Hd)].
        apply (of_io_dead c _ H_ _ FHf it); [|exact Hu]. rewrite io_H, map_fst_combine by (destruct Hlen as [L _]; lia). exact Hit.
      - destruct (Hgvty it (proj2 (in_gv_iff it) (or_intror (or_introl Hit)))) as [r Hr]. exists r. apply Hm67. exact Hr. }
    pose proof (add_allocated_list c (t0' a6) (FR' a6) (FR'_pre a6) (f_iters f) (live R_) Enone (ment R_) a7 HI7 Hit_facts)
      as [Hs' [H1' [H2' [Hf' H5']]]].
    assert (Hsub : forall v, Lh v -> setof (live R_) (f_iters f) v).
    { intros v [[Hv _]|Hv]; [left; exact Hv | right; exact Hv]. }
    split; [|split; [|split; [|split]]].
    - apply (sok_retype c (t0' a6) t00 a7 Hs').
      + intros v r Hv. discriminate.
      + intros r HP. destruct (no_pset00 r HP).
      + intros _. apply no_pset00.
      + intros r HP. right. apply pset' in HP. destruct HP as [w [Hw Hrw]]. rewrite Pal, Pallow. exact (RF w r Hw Hrw).
    - intros v r Hv Hr. exact (H1' v r (Hsub v Hv) Hr).
    - intros v1 v2 r Hv1 Hv2 Hne Hq1 Hq2.
      destruct (H2' v1 v2 r (Hsub v1 Hv1) (Hsub v2 Hv2) Hne Hq1 Hq2) as [HP|[Hzr|[]]]; [|right; left; exact Hzr].
      exfalso. pose proof (proj1 (pset' a6 r) HP) as [w [Hw Hrw]].
      assert (Hniv : forall v, ty a7 v = Some r -> v <> iv).
      { intros v Hq Hc. subst v. rewrite (Hm67 iv riv Hivty) in Hq. inversion Hq; subst r. exact (IVF w Hw Hrw). }
      apply (Htie_ok pre (H_ :: R_) V_split_H v1 v2 (Lh_live v1 Hv1 (Hniv v1 Hq1)) (Lh_live v2 Hv2 (Hniv v2 Hq2)) Hne).
      exact (FR'_conn a6 v1 v2 r DG (H5' v1 r (Hsub v1 Hv1) Hq1 HP) (H5' v2 r (Hsub v2 Hv2) Hq2 HP)).
    - intros v Hv. rewrite (Hf' v).
      + unfold t0', rebased. destruct (memN v gv) eqn:Em; [|reflexivity].
        exfalso. apply Hv. right. right. apply memN_In. exact Em.
      + intros [Hc|Hc]; apply Hv; [left; exact Hc | right; left; exact Hc].
    - intros v r _ _ HP. exfalso. exact (no_pset00 r HP).
  Qed.

  (* the loop header, from the invariant at the top of the body (state a7, re-based typing) to the invariant
     before the pseudo-operation H under the plain typing: unreserve, free the induction variable, allocate lb *)
  Lemma hphase : forall a6 a7 s8 a',
    carried a6 -> ordinary a6 ->
    Inv c (t0' a6) (FR' a6) (live R_) Enone (ment R_) a7 ->
    (forall v, live R_ v -> exists r, ty a7 v = Some r) ->
    mono a6 a7 -> same_pool (stk a6) (stk a7) ->
    fold_res unreserve_register (somes (map (ty a6) (f_iters f))) (stk a7) = Ok s8 ->
    allocate_value c (f_lb f) (free_value iv (set_stk a7 s8)) = Ok a' ->
    Inv0 (live (H_ :: R_)) Enone (ment (H_ :: R_)) a'
    /\ (forall v, live (H_ :: R_) v -> exists r, ty a' v = Some r) /\ mono a7 a'.
  Proof.
    intros a6 a7 s8 a' Hcar RF HI7 Hall7 Hm67 Hsp Hunres Hlb.
    pose proof (header_retype a6 a7 Hcar RF HI7 Hm67 Hsp) as HI00.
    pose proof (carried_ty a6 Hcar) as Hgvty. destruct Hcar as [_ [_ [riv [Hivty _]]]].
    pose proof (FH FR00 FR00_tie) as FHf.
    assert (Hiv_ty7 : ty a7 iv = Some riv) by (apply Hm67; exact Hivty).
    pose proof (unreserve_inv c t00 FR00 Lh Enone Mh a7 _ s8 HI00 no_pset00 Hunres) as HI8.
    assert (HLhiv : Lh iv).
    { left. split; [exact live_R_iv | intro Hc; exact (Hiv (proj2 (in_gv_iff iv) (or_introl Hc)))]. }
    destruct (free_inv c t00 FR00 Lh Enone Mh (set_stk a7 s8) iv riv HI8 HLhiv Hiv_ty7) as [HI9 Hty9].
    { intros w. split; intros []. }
    rewrite <- (fold_res_single (allocate_value c) (f_lb f)) in Hlb.
    assert (HuH_lb : In (f_lb f) (uses H_)) by (rewrite uses_H; left; reflexivity).
    destruct (alloc_list c t00 FR00 FR00_pre Enone [f_lb f] (delv Lh iv) Mh _ a' HI9) as [HIf [Hmf [Half _]]]; [|exact Hlb|].
    { intros v [Hv|[]]. subst v. destruct (Hbnd (f_lb f) (or_introl eq_refl)) as [Hngv Hneiv].
      destruct (classic_ment R_ (f_lb f)) as [[Hu|Hd]|Hm].
      - left. split; [|exact Hneiv]. left. split.
        + split; [exact Hu | exact (proj2 (of_use c _ H_ _ FHf _ HuH_lb))].
        + intro Hc. exact (Hngv (proj2 (in_gv_iff _) (or_introl Hc))).
      - exfalso. exact (proj2 (of_use c _ H_ _ FHf _ HuH_lb) Hd).
      - right. intros [Hc|[Hc|Hc]]; [exact (Hm Hc) | exact (Hngv (proj2 (in_gv_iff _) (or_intror (or_introl Hc)))) | exact (Hngv Hc)]. }
    assert (Hm7f : mono a7 a').
    { intros w q Hq. apply Hmf. rewrite Hty9. simpl. exact Hq. }
    assert (Hsubf : forall v, live (H_ :: R_) v -> setof (delv Lh iv) [f_lb f] v).
    { intros v [Hu Hnd]. assert (Hnd1 : ~ In v (defs H_)) by (intro Hc; apply Hnd; apply defined_in_cons; left; exact Hc).
      assert (Hnd2 : ~ defined_in R_ v) by (intro Hc; apply Hnd; apply defined_in_cons; right; exact Hc).
      assert (Hneiv : v <> iv) by (intro Hc; apply Hnd1; apply defs_H; left; exact Hc).
      assert (Hncb : ~ In v cb) by (intro Hc; apply Hnd1; apply defs_H; right; exact Hc).
      assert (HY : In v (f_ub f :: step_list f) -> live R_ v).
      { intros Hc. split; [|exact Hnd2]. apply used_in_app. right. apply used_in_cons. left. rewrite uses_Y.
        apply in_or_app. left. right. apply in_or_app. right. exact Hc. }
      apply used_in_cons in Hu. destruct Hu as [Hu|Hu].
      - rewrite uses_H in Hu. apply in_app_or in Hu. destruct Hu as [[Hu|Hu]|Hu].
        + right. left. exact Hu.
        + left. split; [|exact Hneiv]. left. split; [exact (HY Hu) | exact Hncb].
        + left. split; [|exact Hneiv]. right. exact Hu.
      - left. split; [|exact Hneiv]. left. split; [split; assumption | exact Hncb]. }
    split; [|split; [|exact Hm7f]].
    - apply (Inv_weaken c t00 FR00 _ (live (H_ :: R_)) Enone _ (ment (H_ :: R_)) a' HIf Hsubf).
      intros v [[Hm|[Hit|Hg]]|Hlbv].
      + destruct Hm as [Hu|Hd]; [left; apply used_in_cons; right; exact Hu | right; apply defined_in_cons; right; exact Hd].
      + left. exact (proj1 (uses_H_live v (iters_uses_H v Hit))).
      + destruct (proj1 (in_gv_iff v) Hg) as [H|[H|[H|H]]].
        * right. apply defined_in_cons. left. apply defs_H. right. exact H.
        * left. exact (proj1 (uses_H_live v (iters_uses_H v H))).
        * left. apply used_in_cons. right. apply used_in_app. right. apply used_in_cons. left.
          rewrite uses_Y. apply in_or_app. right. exact H.
        * right. apply defined_in_cons. right. apply defined_in_app. right. apply defined_in_cons. left.
          rewrite defs_Y. exact H.
      + destruct Hlbv as [Hlbv|[]]. subst v. left. apply used_in_cons. left. exact HuH_lb.
    - intros v Hv. destruct (Hsubf v Hv) as [[[[HL7 _]|Hit] _]|Hlbv].
      + destruct (Hall7 v HL7) as [r Hr]. exists r. apply Hm7f. exact Hr.
      + destruct (Hgvty v (proj2 (in_gv_iff v) (or_intror (or_introl Hit)))) as [r Hr]. exists r. apply Hm7f. apply Hm67. exact Hr.
      + exact (Half v Hlbv).
  Qed.

  Lemma virt_split : forall p s, V = p ++ s ->
    (exists ps', pre = p ++ ps' /\ s = ps' ++ H_ :: R_)
    \/ (exists bp bs, f_body f = bp ++ bs /\ p = pre ++ H_ :: bp /\ s = bs ++ Y_ :: post)
    \/ (exists pp, post = pp ++ s /\ p = (pre ++ H_ :: f_body f ++ [Y_]) ++ pp).
  Proof.
    intros p s Hsp. rewrite V_split_H in Hsp. apply app_eq_app in Hsp.
    destruct Hsp as [l [[E1 E2]|[E1 E2]]].
    - left. exists l. split; assumption.
    - destruct l as [|o l'].
      + left. exists []. simpl in E2. rewrite app_nil_r in E1. split; [rewrite app_nil_r; symmetry; exact E1 | symmetry; exact E2].
      + simpl in E2. inversion E2 as [[Eo E3]]. subst o. apply app_eq_app in E3.
        destruct E3 as [l2 [[F1 F2]|[F1 F2]]].
        * right. left. exists l', l2. split; [exact F1 | split; [exact E1 | exact F2]].
        * destruct l2 as [|o2 l3].
          -- right. left. exists (f_body f), []. simpl in F2. rewrite app_nil_r in F1. subst l'.
             split; [rewrite app_nil_r; reflexivity | split; [exact E1 | symmetry; exact F2]].
          -- simpl in F2. inversion F2 as [[Eo2 F3]]. subst o2. right. right. exists l3.
             split; [first [exact F3 | reflexivity]|]. rewrite E1, F1. rewrite <- !app_assoc. simpl. rewrite <- app_assoc. reflexivity.
  Qed.

  Hypothesis Htie_ok_def : forall p o s, V = p ++ o :: s -> forall d v, In d (defs o) -> live s v -> d <> v ->
    tconn pre f post d v -> False.     (* ... and none is written while another one is live *)
  Hypothesis Hrun : allocate_func zr pool allow fn = Ok af.

  (* the allocation is three walks: post from the initial state, the body from the state a6 at the loop end
     under the typing that pre-assigns the group members, pre from the state ah at the loop header *)
  Lemma loop_states : exists ap a6 a7 ah,
    seg c t00 FR00 V (pre ++ H_ :: f_body f ++ [Y_]) post [] (init_state pool allow fn) ap
    /\ seg c (t0' a6) (FR' a6) V (pre ++ [H_]) (f_body f) (Y_ :: post) a6 a7
    /\ seg c t00 FR00 V [] pre (H_ :: R_) ah af
    /\ mono ap af /\ mono a6 af /\ mono a7 af /\ carried a6 /\ sok c t00 af.
  Proof.
    destruct (init_sok00 zr pool allow fn Hz Hpool Hnone) as [Hsok0 Hty0].
    pose proof Hrun as Epre. unfold allocate_func in Epre. cbn [fn_ops] in Epre. rewrite allocate_block_loop in Epre.
    set (a0 := init_state pool allow fn) in *.
    destruct (allocate_sops c post a0) as [ap|e] eqn:Epost; simpl in Epre; [|discriminate].
    destruct (allocate_for c f ap) as [ah|e] eqn:Efor; simpl in Epre; [|discriminate].
    assert (HIstart : Inv0 (live []) Enone (ment []) a0).
    { split; [exact Hsok0|]. split; [|split; [|split]].
      - intros v r [[o [[] _]] _].
      - intros v1 v2 r [[o [[] _]] _].
      - intros v _. exact (Hty0 v).
      - intros v r [[o [[] _]] _]. }
    assert (Hallstart : forall v, live [] v -> exists r, ty a0 v = Some r) by (intros v [[o [[] _]] _]).
    assert (Hlp : V = (pre ++ H_ :: f_body f ++ [Y_]) ++ post ++ []).
    { rewrite app_nil_r. unfold virt. repeat rewrite <- app_assoc; simpl; repeat rewrite <- app_assoc; simpl; reflexivity. }
    pose proof (@Build_seg c t00 FR00 V _ _ _ _ _ FR00_pre Hwf Hio Hnz FR00_tie Hlp HIstart Hallstart Epost) as Sp.
    destruct (seg_top Sp) as [HIp [Hallp _]]. rewrite app_nil_r in HIp, Hallp.
    destruct (allocate_for_steps c f iv cb ap ah Hb Efor) as [a1 [a2 [a5 [a7 [s8 [E1 [E2' [E35 Hrest]]]]]]]].
    set (regs := somes (map (ty a5) (f_iters f))) in *.
    set (a6 := set_stk a5 (fold_left (fun s r => reserve_register r s) regs (stk a5))) in *.
    destruct Hrest as [E7 [E8 Efor']].
    destruct (yphase ap a1 a2 a5 HIp E1 E2' E35) as [HI6 [Hmp6 [Hacc6 Hgreg6]]].
    fold regs in HI6, Hgreg6, Hacc6, Hmp6. fold a6 in HI6, Hgreg6, Hacc6, Hmp6.
    assert (HallS6 : forall v, live post v -> exists r, ty a6 v = Some r).
    { intros v Hv. destruct (Hallp v Hv) as [r Hr]. exists r. apply Hmp6. exact Hr. }
    destruct (yrebase a6 HI6 Hacc6 Hgreg6 HallS6) as [HI6' Hall6'].
    pose proof (end_carried a6 HI6 Hacc6 Hgreg6) as Hcar. pose proof (end_ordinary a6 HI6 Hgreg6) as RF.
    assert (Hlb : V = (pre ++ [H_]) ++ f_body f ++ Y_ :: post).
    { unfold virt. rewrite <- app_assoc. reflexivity. }
    pose proof (@Build_seg c (t0' a6) (FR' a6) V _ _ _ _ _ (FR'_pre a6) Hwf Hio Hnz (FR'_tie a6) Hlb HI6' Hall6' E7) as Sb.
    destruct (seg_top Sb) as [HI7 [Hall7 Hm67]].
    destruct (hphase a6 a7 s8 ah Hcar RF HI7 Hall7 Hm67 (allocate_sops_pool c _ a6 a7 E7) E8 Efor')
      as [HIh [Hallh Hm7h]].
    pose proof (@Build_seg c t00 FR00 V [] pre (H_ :: R_) _ _ FR00_pre Hwf Hio Hnz FR00_tie eq_refl HIh Hallh Epre) as Sr.
    destruct (seg_top Sr) as [[Hsf _] [_ Hmhf]].
    assert (Hm7f : mono a7 af) by (intros w q Hq; apply Hmhf; apply Hm7h; exact Hq).
    assert (Hm6f : mono a6 af) by (intros w q Hq; apply Hm7f; apply Hm67; exact Hq).
    exists ap, a6, a7, ah.
    split; [exact Sp|]. split; [exact Sb|]. split; [exact Sr|].
    split; [intros w q Hq; apply Hm6f; apply Hmp6; exact Hq|]. split; [exact Hm6f|]. split; [exact Hm7f|].
    split; [exact Hcar | exact Hsf].
  Qed.

  Theorem loop_no_interference : forall p s, V = p ++ s ->
    (forall v, live s v -> exists r, ty af v = Some r)
    /\ (forall v1 v2 r, live s v1 -> live s v2 -> v1 <> v2 -> ty af v1 = Some r -> ty af v2 = Some r ->
          zr = true /\ r = 0).
  Proof.
    intros p s Hsp. destruct loop_states as [ap [a6 [a7 [ah [Sp [Sb [Sr [Mp [_ [M7 [[DG _] _]]]]]]]]]]].
    pose proof (mono_refl af) as Mf.
    destruct (virt_split p s Hsp) as [[ps' [Ep Es]]|[[bp [bs [Eb [Ep Es]]]]|[pp [Ep _]]]].
    - (* a point in the code before the loop (or just before the loop) *)
      subst s. split; [intros v Hv; exact (seg_live_allocated Sr Mf _ _ Ep Hv)|].
      intros v1 v2 r Hv1 Hv2 Hne H1 H2.
      destruct (seg_live_confined Sr Mf _ _ Ep Hv1 Hv2 Hne H1 H2) as [HP|Hzr]; [destruct (no_pset00 r HP) | exact Hzr].
    - (* a point inside the loop body (incl. its start and its end) *)
      subst s. split; [intros v Hv; exact (seg_live_allocated Sb M7 _ _ Eb Hv)|].
      intros v1 v2 r Hv1 Hv2 Hne H1 H2.
      destruct (seg_live_confined Sb M7 _ _ Eb Hv1 Hv2 Hne H1 H2) as [HP|Hzr]; [exfalso | exact Hzr].
      apply (Htie_ok p _ Hsp v1 v2 Hv1 Hv2 Hne).
      exact (FR'_conn a6 v1 v2 r DG (seg_live_forced Sb M7 _ _ Eb Hv1 H1 HP) (seg_live_forced Sb M7 _ _ Eb Hv2 H2 HP)).
    - (* a point in the code after the loop *)
      rewrite <- (app_nil_r s). split; [intros v Hv; exact (seg_live_allocated Sp Mp _ _ Ep Hv)|].
      intros v1 v2 r Hv1 Hv2 Hne H1 H2.
      destruct (seg_live_confined Sp Mp _ _ Ep Hv1 Hv2 Hne H1 H2) as [HP|Hzr]; [destruct (no_pset00 r HP) | exact Hzr].
  Qed.

  (* EVERY operation of the virtual block, the pseudo-operations H (defines the induction variable and the
     carried block arguments) and Y (defines the results) included: its results have registers, and none
     is written into the register of a value that is live after the operation *)
  Theorem loop_defs : forall p o s, V = p ++ o :: s ->
    (forall d, In d (defs o) -> exists r, ty af d = Some r)
    /\ (forall d v r, In d (defs o) -> live s v -> d <> v -> ty af d = Some r -> ty af v = Some r ->
          zr = true /\ r = 0).
  Proof.
    intros p o s Hsp.
    destruct loop_states as [ap [a6 [a7 [ah [Sp [Sb [Sr [Mp [M6 [M7 [[DG [GT [riv [Hiv6 IVF]]]] _]]]]]]]]]]].
    pose proof (mono_refl af) as Mf.
    assert (Hgv : forall w, In w gv -> exists r, ty a6 w = Some r /\ ty af w = Some r).
    { intros w Hw. apply in_concat in Hw. destruct Hw as [g [Hg Hwg]]. destruct (GT g Hg) as [R HR].
      exists R. split; [exact (HR w Hwg) | exact (M6 w R (HR w Hwg))]. }
    assert (Hgvf : forall w r, In w gv -> ty af w = Some r -> FR' a6 w r /\ Pset (t0' a6) r).
    { intros w r Hw Hr. destruct (Hgv w Hw) as [r' [H6 Hf]]. rewrite Hr in Hf. inversion Hf; subst r'.
      split; [exists w; split; [exact Hw | split; [exact H6 | constructor]] | apply pset'; exists w; split; assumption]. }
    assert (Hconn : forall d v r q1 q2, f_body f = q1 ++ q2 -> In d gv -> live (q2 ++ Y_ :: post) v ->
              ty af d = Some r -> ty af v = Some r -> tconn pre f post d v).
    { intros d v r q1 q2 E Hd Hv H1 H2. destruct (Hgvf d r Hd H1) as [Fd HP].
      exact (FR'_conn a6 d v r DG Fd (seg_live_forced Sb M7 _ _ E Hv H2 HP)). }
    destruct (virt_split p (o :: s) Hsp) as [[ps' [Ep Es]]|[[bp [bs [Eb [Ep Es]]]]|[pp [Ep _]]]].
    - destruct ps' as [|o' l2]; simpl in Es; inversion Es; subst.
      + (* the loop header *)
        split; [intros d Hd | intros d v r Hd Hv Hne H1 H2]; apply defs_H in Hd; destruct Hd as [Hd|Hd].
        * subst d. exists riv. exact (M6 iv riv Hiv6).
        * destruct (Hgv d (proj2 (in_gv_iff d) (or_introl Hd))) as [r [_ Hr]]. exists r. exact Hr.
        * subst d.
          destruct (seg_live_confined Sb M7 _ _ (eq_refl : f_body f = [] ++ f_body f) live_R_iv Hv Hne H1 H2) as [HP|Hzr];
            [exfalso | exact Hzr].
          apply pset' in HP. destruct HP as [w [Hw Hrw]].
          rewrite <- (mono_inj iv M6 Hiv6 H1) in Hrw. exact (IVF w Hw Hrw).
        * exfalso.
          apply (Htie_ok_def p H_ R_ Hsp d v); [apply defs_H; right; exact Hd | exact Hv | exact Hne|].
          exact (Hconn d v r [] (f_body f) eq_refl (proj2 (in_gv_iff d) (or_introl Hd)) Hv H1 H2).
      + (* an operation before the loop *)
        destruct (seg_def Sr Mf _ _ _ Ep) as [D1 [D2 _]]. split; [exact D1|].
        intros d v r Hd Hv Hne H1 H2.
        destruct (D2 d v r Hd Hv Hne H1 H2) as [HP|Hzr]; [destruct (no_pset00 r HP) | exact Hzr].
    - destruct bs as [|o' l2]; simpl in Es; inversion Es; subst.
      + (* the back edge / loop exit: the results *)
        split; [intros d Hd | intros d v r Hd Hv Hne H1 H2]; pose proof Hd as Hdg; rewrite defs_Y in Hdg;
          apply (fun H => proj2 (in_gv_iff d) (or_intror (or_intror (or_intror H)))) in Hdg.
        * destruct (Hgv d Hdg) as [r [_ Hr]]. exists r. exact Hr.
        * exfalso. apply (Htie_ok_def _ Y_ post Hsp d v Hd Hv Hne).
          destruct (in_dec Nat.eq_dec v (f_res f)) as [HvY|HvY].
          -- destruct (Hgvf d r Hdg H1) as [Fd _].
             destruct (Hgvf v r (proj2 (in_gv_iff v) (or_intror (or_intror (or_intror HvY)))) H2) as [Fv _].
             exact (FR'_conn a6 d v r DG Fd Fv).
          -- apply (Hconn d v r (f_body f) []); [symmetry; apply app_nil_r | exact Hdg | | exact H1 | exact H2].
             destruct Hv as [Hu Hnd]. split; [apply used_in_cons; right; exact Hu|].
             intro Hc. apply defined_in_cons in Hc. rewrite defs_Y in Hc. destruct Hc; contradiction.
      + (* an operation of the body *)
        destruct (seg_def Sb M7 _ _ _ Eb) as [D1 [D2 D3]]. split; [exact D1|].
        intros d v r Hd Hv Hne H1 H2.
        destruct (D2 d v r Hd Hv Hne H1 H2) as [HP|Hzr]; [exfalso | exact Hzr].
        apply (Htie_ok_def _ o' _ Hsp d v Hd Hv Hne).
        assert (E' : f_body f = (bp ++ [o']) ++ l2) by (rewrite Eb, <- app_assoc; reflexivity).
        exact (FR'_conn a6 d v r DG (D3 d r Hd H1 HP) (seg_live_forced Sb M7 _ _ E' Hv H2 HP)).
    - (* an operation after the loop *)
      destruct (seg_def Sp Mp _ _ _ Ep) as [D1 [D2 _]]. rewrite app_nil_r in D2. split; [exact D1|].
      intros d v r Hd Hv Hne H1 H2.
      destruct (D2 d v r Hd Hv Hne H1 H2) as [HP|Hzr]; [destruct (no_pset00 r HP) | exact Hzr].
  Qed.

  (* no result of an operation before, inside or after the loop is written into the register of a value
     that is live after that operation; the loop header's write of the induction variable clobbers
     nothing that is live in the body *)
  Theorem loop_no_clobber :
    (forall l1 o l2 rest, (pre = l1 ++ o :: l2 /\ rest = l2 ++ H_ :: R_)
                          \/ (f_body f = l1 ++ o :: l2 /\ rest = l2 ++ Y_ :: post)
                          \/ (post = l1 ++ o :: l2 /\ rest = l2) ->
       forall d v r, In d (defs o) -> live rest v -> d <> v -> ty af d = Some r -> ty af v = Some r ->
         zr = true /\ r = 0)
    /\ (forall v r, live R_ v -> v <> iv -> ty af iv = Some r -> ty af v = Some r -> zr = true /\ r = 0).
  Proof.
    split.
    - intros l1 o l2 rest [[E Er]|[[E Er]|[E Er]]]; subst rest.
      + apply (loop_defs l1 o). unfold virt. rewrite E, <- app_assoc. reflexivity.
      + apply (loop_defs (pre ++ H_ :: l1) o). unfold virt. rewrite E. repeat rewrite <- app_assoc; simpl. reflexivity.
      + apply (loop_defs (pre ++ H_ :: f_body f ++ Y_ :: l1) o). unfold virt. rewrite E.
        repeat rewrite <- app_assoc; simpl; repeat rewrite <- app_assoc; simpl; reflexivity.
    - intros v r Hv Hne H1 H2.
      apply (proj2 (loop_defs pre H_ R_ V_split_H) iv v r); [apply defs_H; left; reflexivity | exact Hv | | exact H1 | exact H2].
      intro Hc. exact (Hne (eq_sym Hc)).
  Qed.

  Lemma loop_zero_ty : forall v, zr = true -> ty af v = Some 0 -> In v (zconsts c).
  Proof.
    intros v Hzr Hr. destruct loop_states as [ap [a6 [a7 [ah [_ [_ [_ [_ [_ [_ [_ Hsf]]]]]]]]]]].
    exact (so_zero_ty c t00 af Hsf v Hzr Hr).
  Qed.

  Theorem loop_reg_facts :
    (forall g, In g gs -> exists R, forall u, In u g -> ty af u = Some R)
    /\ (exists riv, ty af iv = Some riv /\ forall w, In w gv -> ty af w <> Some riv).
  Proof.
    destruct loop_states as [ap [a6 [a7 [ah [_ [_ [_ [_ [M6 [_ [[_ [GT [riv [Hiv6 IVF]]]] _]]]]]]]]]]].
    split.
    - intros g Hg. destruct (GT g Hg) as [R HR]. exists R. intros u Hu. exact (M6 u R (HR u Hu)).
    - exists riv. split; [exact (M6 iv riv Hiv6)|]. intros w Hw Hr. apply (IVF w Hw).
      apply in_concat in Hw. destruct Hw as [g [Hg Hwg]]. destruct (GT g Hg) as [R HR].
      rewrite (mono_inj w M6 (HR w Hwg) Hr) in HR. exact (HR w Hwg).
  Qed.
End OneLoop.

(* ---- the live-ins computed by _live_ins_per_block cover every outer value the body reads: the
   liveness of the virtual block (where Y reads the live-ins) is the true liveness of the loop ---- *)
Lemma oset_update_keep : forall vs s v, In v s -> In v (oset_update s vs).
Proof.
  induction vs as [|x t IH]; intros s v H; simpl; [exact H|]. unfold oset_update in *. simpl.
  apply IH. destruct (memN x s); [exact H | apply in_or_app; left; exact H].
Qed.
Lemma oset_update_in : forall vs s v, In v vs -> In v (oset_update s vs).
Proof.
  induction vs as [|x t IH]; intros s v H; [destruct H|]. unfold oset_update in *. simpl.
  destruct H as [H|H].
  - subst x. apply (oset_update_keep t). destruct (memN v s) eqn:E; [apply memN_In; exact E | apply in_or_app; right; left; reflexivity].
  - apply IH. exact H.
Qed.
Lemma oset_diff_in : forall s vs v, In v s -> ~ In v vs -> In v (oset_diff s vs).
Proof.
  intros s vs v H Hn. unfold oset_diff. apply filter_In. split; [exact H|].
  destruct (memN v vs) eqn:E; [apply memN_In in E; contradiction | reflexivity].
Qed.

Lemma live_ins_complete : forall f v,
  (used_in (f_body f) v \/ In v (f_yield f)) -> ~ defined_in (f_body f) v -> ~ In v (f_bargs f) ->
  In v (live_ins_body f).
Proof.
  intros f v Hu Hnd Hnb. unfold live_ins_body. apply oset_diff_in; [|exact Hnb].
  set (step := fun s o => oset_update (oset_diff s (sop_results o)) (sop_operands o)).
  assert (Hgen : forall bs, (used_in bs v \/ In v (f_yield f)) -> ~ defined_in bs v ->
            In v (fold_left step (rev bs) (oset_update [] (f_yield f)))).
  { induction bs as [|o bs IH]; intros Hu' Hnd'.
    - simpl. destruct Hu' as [[o [[] _]]|Hy]. apply oset_update_in. exact Hy.
    - simpl. rewrite fold_left_app. simpl. unfold step at 1.
      assert (Hndo : ~ In v (sop_results o)) by (intro Hc; apply Hnd'; apply defined_in_cons; left; exact Hc).
      assert (Hndb : ~ defined_in bs v) by (intro Hc; apply Hnd'; apply defined_in_cons; right; exact Hc).
      destruct Hu' as [Hu'|Hy].
      + apply used_in_cons in Hu'. destruct Hu' as [Ho|Hb].
        * apply oset_update_in. exact Ho.
        * apply oset_update_keep. apply oset_diff_in; [exact (IH (or_introl Hb) Hndb) | exact Hndo].
      + apply oset_update_keep. apply oset_diff_in; [exact (IH (or_intror Hy) Hndb) | exact Hndo]. }
  exact (Hgen (f_body f) Hu Hnd).
Qed.