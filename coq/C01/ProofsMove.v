(* C01/ProofsMove.v -- WF is preserved by Region.move_blocks and Region.move_blocks_before (all
   blocks of a region are appended to another region, or inserted before a block of it).

   `spliced V c1 c2 p n sf sl l2` is the view after the whole list l2 = sf .. sl of container c2
   has been put between the neighbours p and n in container c1; it keeps `Dabs` and `Ddet`. *)
From Coq Require Import ZArith List Bool PArith FMapPositive Lia.
From XV Require Import C01.Model C01.Spec C01.ProofsBase C01.ProofsFrame C01.ProofsUses C01.ProofsOperands
  C01.ProofsDll C01.ProofsOps C01.ProofsBlocks.
Import ListNotations.

Definition spliced (V : dview) (c1 c2 : positive) (p n : option positive) (sf sl : positive)
           (l2 : list positive) : dview :=
  mkView (fupd (match p with Some y => fupd (dN V) y (Some (Some sf)) | None => dN V end) sl (Some n))
         (fupd (match n with Some y => fupd (dP V) y (Some (Some sl)) | None => dP V end) sf (Some p))
         (fun y => if mem y l2 then Some (Some c1) else dPar V y) (dLive V)
         (fupd (fupd (dFL V) c1 (match dFL V c1 with
                                 | Some (f, la) => Some (match p with Some _ => f | None => Some sf end,
                                                         match n with Some _ => la | None => Some sl end)
                                 | None => None
                                 end)) c2 (Some (None, None))).

(* one direction: the chain l2, which ends in sl, is put between a and b *)
Lemma chain_splice : forall (N : lnk) st a b sf sl l2,
  chain N st (a ++ b) -> chain N (Some sf) l2 -> last_or None l2 = Some sl ->
  NoDup (a ++ b) -> NoDup l2 -> (forall x, In x (a ++ b) -> In x l2 -> False) ->
  chain (fupd (match last_or None a with Some y => fupd N y (Some (Some sf)) | None => N end) sl (Some (hd_error b)))
        (match last_or None a with Some _ => st | None => Some sf end) (a ++ l2 ++ b).
Proof.
  intros N st a b sf sl l2 C C2 Ls ND ND2 DJ.
  destruct (list_snoc_cases l2) as [->|(t & q & ->)]; [discriminate|].
  rewrite last_or_app in Ls. injection Ls as ->.
  assert (Isl : In sl (t ++ [sl])) by (apply in_or_app; right; left; reflexivity).
  set (N' := fupd _ sl _).
  (* nodes other than sl and the last of a keep their link *)
  assert (K : forall y, y <> sl -> last_or None a <> Some y -> N' y = N y).
  { intros y N1 N2. unfold N'. rewrite fupd_other by exact N1.
    destruct (last_or None a) as [p|]; [apply fupd_other; intro; subst; contradiction|reflexivity]. }
  assert (Ka : forall y, last_or None a = Some y -> In y a) by (intros y E; apply last_In, E).
  assert (S2 : seg N' (Some sf) (t ++ [sl]) (hd_error b)).
  { apply chain_seg, seg_snoc_inv in C2. destruct C2 as [S _]. destruct (NoDup_app_inv _ _ ND2) as (_ & _ & Dq).
    eapply seg_app; [eapply seg_ext; [|exact S]|econstructor; [apply fupd_same|constructor]].
    intros y Iy. apply K.
    - intro; subst. eapply Dq; [exact Iy|left; reflexivity].
    - intro E. eapply DJ; [apply in_or_app; left; apply Ka, E|apply in_or_app; left; exact Iy]. }
  assert (Kb : forall y, In y b -> N' y = N y).
  { intros y Iy. apply K.
    - intro; subst. eapply DJ; [apply in_or_app; right; exact Iy|exact Isl].
    - intro E. destruct (NoDup_app_inv _ _ ND) as (_ & _ & Dab). eapply Dab; [apply Ka, E|exact Iy]. }
  destruct (list_snoc_cases a) as [->|(a' & p & ->)].
  - simpl in *. eapply seg_chain_app; [exact S2|]. rewrite <- (chain_head _ _ _ C).
    eapply chain_ext; [|exact C]. exact Kb.
  - rewrite last_or_app in *. rewrite <- app_assoc in *. simpl in *.
    destruct (chain_split _ _ _ _ _ C) as (Sa & nn & Np & Cb). rewrite (chain_head _ _ _ Cb) in Cb.
    destruct (NoDup_app_inv _ _ ND) as (_ & _ & Dp).
    assert (Nps : p <> sl) by (intro; subst; eapply DJ; [apply in_or_app; right; left; reflexivity|exact Isl]).
    eapply seg_chain_app.
    + eapply seg_ext; [|exact Sa]. intros y Iy. apply K.
      * intro; subst. eapply DJ; [apply in_or_app; left; exact Iy|exact Isl].
      * intro E. injection E as <-. eapply Dp; [exact Iy|left; reflexivity].
    + econstructor; [unfold N'; rewrite fupd_other, last_or_app, fupd_same by exact Nps; reflexivity|].
      eapply seg_chain_app; [exact S2|]. eapply chain_ext; [|exact Cb]. exact Kb.
Qed.

Lemma spliced_wf : forall V c1 c2 a b f1 la1 sf sl l2,
  Dabs V -> Ddet V -> c1 <> c2 -> dFL V c1 = Some (f1, la1) -> dll_at V c1 f1 la1 (a ++ b) ->
  dFL V c2 = Some (Some sf, Some sl) -> dll_at V c2 (Some sf) (Some sl) l2 ->
  Dabs (spliced V c1 c2 (last_or None a) (hd_error b) sf sl l2) /\
  Ddet (spliced V c1 c2 (last_or None a) (hd_error b) sf sl l2).
Proof.
  intros V c1 c2 a b f1 la1 sf sl l2 D DD Nc FL1 D1 FL2 D2.
  pose proof D1 as (C1 & B1 & ND1 & M1 & K1). pose proof D2 as (C2 & B2 & ND2 & M2 & K2).
  assert (DJ : forall x, In x (a ++ b) -> In x l2 -> False).
  { intros x I1 I2. pose proof (M1 x I1) as Q1. rewrite (M2 x I2) in Q1. congruence. }
  pose proof (dll_last_of _ _ _ _ _ D2) as Ls. symmetry in Ls.
  pose proof (chain_head _ _ _ C2) as Hs. symmetry in Hs.
  set (V' := spliced V c1 c2 (last_or None a) (hd_error b) sf sl l2).
  (* nodes outside both lists are not written *)
  assert (OUT : forall y, ~ In y (a ++ b) -> ~ In y l2 ->
                dN V' y = dN V y /\ dP V' y = dP V y /\ dPar V' y = dPar V y).
  { intros y NI1 NI2. cbn.
    assert (y <> sl) by (intro; subst; apply NI2, last_In, Ls).
    assert (y <> sf) by (intro; subst; apply NI2, hd_error_In, Hs).
    assert (N2 : last_or None a <> Some y) by (intro E; apply NI1, in_or_app; left; apply last_In, E).
    assert (N3 : hd_error b <> Some y) by (intro E; apply NI1, in_or_app; right; apply hd_error_In, E).
    rewrite !fupd_other by assumption. apply mem_false in NI2. rewrite NI2.
    destruct (last_or None a) as [q|], (hd_error b) as [q'|];
      rewrite ?fupd_other by (intro; subst; contradiction); auto. }
  split.
  - intros d f' la' Hd. cbn in Hd.
    destruct (Pos.eq_dec d c2) as [->|Nd2]; [|destruct (Pos.eq_dec d c1) as [->|Nd1]].
    + rewrite fupd_same in Hd. injection Hd as <- <-. exists []. repeat split; try constructor.
      * intros x [].
      * intros x Lx Px. cbn in Lx, Px. destruct (mem x l2) eqn:Mx; [congruence|].
        apply mem_false in Mx. apply Mx, K2; assumption.
    + rewrite fupd_other, fupd_same, FL1 in Hd by exact Nd2. injection Hd as <- <-.
      exists (a ++ l2 ++ b). split; [apply chain_splice; assumption|]. split; [|split; [|split]].
      * replace (rev (a ++ l2 ++ b)) with (rev b ++ rev l2 ++ rev a)
          by (rewrite !rev_app_distr, app_assoc; reflexivity).
        rewrite rev_app_distr in B1. cbn [V' spliced dP].
        rewrite <- (last_or_rev_hd b), <- (hd_error_rev a). apply chain_splice; try assumption.
        -- rewrite last_or_rev_hd. exact Hs.
        -- rewrite <- rev_app_distr. apply NoDup_rev, ND1.
        -- apply NoDup_rev, ND2.
        -- intros x I1 I2. rewrite <- rev_app_distr in I1. apply in_rev in I1. apply in_rev in I2. eauto.
      * destruct (NoDup_app_inv _ _ ND1) as (NDa & NDb & Dab).
        apply NoDup_app_intro; [exact NDa|apply NoDup_app_intro; [exact ND2|exact NDb|]|].
        -- intros x I2 Ib. eapply DJ; [apply in_or_app; right; exact Ib|exact I2].
        -- intros x Ia I. apply in_app_or in I. destruct I as [I|I]; [|eauto].
           eapply DJ; [apply in_or_app; left; exact Ia|exact I].
      * intros x Ix. cbn. destruct (mem x l2) eqn:Mx; [reflexivity|]. apply mem_false in Mx.
        apply M1. apply in_app_or in Ix. apply in_or_app. destruct Ix as [I|I]; [left; exact I|].
        apply in_app_or in I. destruct I as [I|I]; [contradiction|right; exact I].
      * intros x Lx Px. cbn in Lx, Px. destruct (mem x l2) eqn:Mx.
        -- apply mem_In in Mx. apply in_or_app. right. apply in_or_app. left. exact Mx.
        -- pose proof (K1 x Lx Px) as I. apply in_app_or in I. apply in_or_app.
           destruct I as [I|I]; [left; exact I|right; apply in_or_app; right; exact I].
    + rewrite !fupd_other in Hd by assumption. destruct (D d f' la' Hd) as (l & DL). exists l.
      eapply dll_frame; [exact DL| |].
      * intros x Px. apply OUT; intro I; [rewrite (M1 x I) in Px|rewrite (M2 x I) in Px]; congruence.
      * intros x Lx Px. cbn in Lx, Px. split; [exact Lx|]. destruct (mem x l2); [congruence|exact Px].
  - intros y Ly Py. cbn in Ly, Py. destruct (mem y l2) eqn:My; [discriminate|]. apply mem_false in My.
    assert (NI : ~ In y (a ++ b)) by (intro I; rewrite (M1 y I) in Py; discriminate).
    destruct (OUT y NI My) as (E1 & E2 & _). rewrite E1, E2. apply DD; assumption.
Qed.

Lemma set_parent_loop_view : forall fl cur region s s' r l,
  set_parent_blocks_from fl cur region s = (s', Ok r) -> chain (blk_next s) cur l ->
  veq (with_parents (viewT2 s) l region) (viewT2 s').
Proof.
  induction fl as [|f IH]; intros cur region s s' r l H C; simpl in H.
  - exfalso. eapply raise_ok; eauto.
  - destruct cur as [b|].
    + apply bind_ok in H as (s0 & br & Hg & H). apply getB_ok in Hg as [-> Fb].
      apply bind_ok in H as (s1 & ? & H1 & H).
      view_of (updB_parent_view2 _ _ _ _ _ H1) N1 P1 R1 L1 F1.
      destruct (chain_cons_inv _ _ _ C) as (n & t & -> & Nb & Ct).
      destruct (getB_view2 _ _ _ Fb) as (Vn & _ & _). simpl in Vn. rewrite Vn in Nb. injection Nb as <-.
      assert (Ct1 : chain (blk_next s1) (b_next br) t).
      { eapply chain_ext; [|exact Ct]. intros y _. exact (N1 y). }
      view_of (IH _ _ _ _ _ _ H Ct1) N2 P2 R2 L2 F2.
      repeat split; intro z; cbn [with_parents dN dP dPar dLive dFL]; vrew; try reflexivity.
      simpl. destruct (Pos.eqb z b), (mem z t); reflexivity.
    + apply ret_ok in H as [-> _]. inversion C; subst. repeat split.
Qed.

Lemma set_parent_blocks_from_pres : forall R, keeps_T2_writes R ->
  forall fl cur region, preserves R (set_parent_blocks_from fl cur region).
Proof.
  intros R [FR ? ? ? ? ?] fl. induction fl as [|f IH]; intros cur region; simpl; pres FR.
Qed.

Lemma move_blocks_pres : forall R, keeps_T2_writes R -> forall a b, preserves R (move_blocks a b).
Proof.
  intros R K a b. pose proof (set_parent_blocks_from_pres R K). destruct K as [FR ? ? ? ? ?].
  unfold move_blocks. pres FR.
Qed.

Theorem move_blocks_WF : forall s s' self region r,
  WF s -> reg_live s self -> reg_live s region -> move_blocks self region s = (s', Ok r) -> WF s'.
Proof.
  intros s s' self region r W RLs RLr H. destruct (WF_viewT2 s W) as [D DD].
  pose proof H as H0. unfold move_blocks in H0.
  destruct (Pos.eqb_spec region self) as [E|Nrs]; [exfalso; eapply raise_ok; eauto|].
  apply bind_ok in H0 as (s0 & sr & Hg & H0). apply getR_ok in Hg as [-> Fself].
  destruct RLs as (sr0 & Fs0 & Es0). rewrite Fself in Fs0. injection Fs0 as <-.
  destruct RLr as (rr0 & Fr0 & Er0).
  assert (FLs : dFL (viewT2 s) self = Some (r_first sr, r_last sr)) by (simpl; unfold rFL; rewrite Fself, Es0; reflexivity).
  assert (FLr : dFL (viewT2 s) region = Some (r_first rr0, r_last rr0)) by (simpl; unfold rFL; rewrite Fr0, Er0; reflexivity).
  destruct (r_first sr) as [sf|].
  2:{ apply ret_ok in H0 as [<- _]. exact W. }
  destruct (r_last sr) as [sl|]; [|exfalso; eapply raise_ok; eauto].
  apply bind_ok in H0 as (s0 & rr & Hg & H0). apply getR_ok in Hg as [-> Fr]. rewrite Fr0 in Fr. injection Fr as <-.
  destruct (D self _ _ FLs) as (l2 & D2). destruct (D region _ _ FLr) as (l1 & D1).
  apply (WF_groups_T2 _ s s' r (spliced (viewT2 s) region self (r_last rr0) None sf sl l2) W
           (fun R K => move_blocks_pres R K self region) H).
  2:{ rewrite (dll_last_of _ _ _ _ _ D1). rewrite <- (app_nil_r l1) in D1.
      apply (spliced_wf (viewT2 s) region self l1 [] _ _ sf sl l2 D DD Nrs FLr D1 FLs D2). }
  pose proof (last_next_none _ _ _ _ D FLs) as Nsl. pose proof (first_prev_none _ _ _ _ D FLs) as Psf.
  pose proof D2 as (C2 & _ & _ & M2 & _).
  apply bind_ok in H0 as (sA & ? & HA & H0).
  apply bind_ok in H0 as (sB & ? & HB & H0).
  view_of (updR_last_view2 _ _ _ _ _ HB) NB PB RB LB FB.
  apply bind_ok in H0 as (sB' & fl & Hf & H0). unfold get_fuel in Hf. apply gets_ok in Hf as [-> ->].
  apply bind_ok in H0 as (sB' & sr' & Hg & H0). apply getR_ok in Hg as [-> Fself'].
  apply bind_ok in H0 as (sC & ? & HC & H0).
  apply bind_ok in H0 as (sD & ? & HD & HE).
  view_of (updR_first_view2 _ _ _ _ _ HD) ND PD RD LD FD.
  view_of (updR_last_view2 _ _ _ _ _ HE) NE PE RE LE FE.
  destruct (r_last rr0) as [ol|] eqn:LastR.
  - apply bind_ok in HA as (sA1 & ? & HA1 & HA2).
    view_of (updB_prev_view2 _ _ _ _ _ HA1) N1 P1 R1 L1 F1.
    view_of (updB_next_view2 _ _ _ _ _ HA2) N2 P2 R2 L2 F2.
    assert (FLn : dFL (viewT2 s) region <> None) by congruence.
    pose proof (vin_par _ _ _ D FLn (vin_last _ _ _ _ FLr)) as Pol.
    assert (Nol : forall y, In y l2 -> y <> ol) by (intros y Iy ->; rewrite (M2 ol Iy) in Pol; congruence).
    assert (Ef' : r_first sr' = Some sf).
    { assert (Q : dFL (viewT2 sB) self = Some (Some sf, Some sl)).
      { rewrite FB, fupd_other, F2, F1 by congruence. exact FLs. }
      simpl in Q. unfold rFL in Q. rewrite Fself' in Q. destruct (r_erased sr'); [discriminate|]. injection Q as Q _. exact Q. }
    rewrite Ef' in HC.
    assert (C2B : chain (blk_next sB) (Some sf) l2).
    { eapply chain_ext; [|exact C2]. intros y Iy. change (dN (viewT2 sB) y = dN (viewT2 s) y).
      rewrite NB, N2, fupd_other, N1 by (apply Nol, Iy). reflexivity. }
    view_of (set_parent_loop_view _ _ _ _ _ _ _ HC C2B) NC PC RC LC FC.
    pose proof (Nol sl (last_In _ _ (eq_sym (dll_last_of _ _ _ _ _ D2)))) as Nsl'.
    unfold spliced. veq_solve2 FLs FLr.
  - view_of (updR_first_view2 _ _ _ _ _ HA) N1 P1 R1 L1 F1.
    assert (Ef' : r_first sr' = Some sf).
    { assert (Q : dFL (viewT2 sB) self = Some (Some sf, Some sl)).
      { rewrite FB, fupd_other, F1, fupd_other by congruence. exact FLs. }
      simpl in Q. unfold rFL in Q. rewrite Fself' in Q. destruct (r_erased sr'); [discriminate|]. injection Q as Q _. exact Q. }
    rewrite Ef' in HC.
    assert (C2B : chain (blk_next sB) (Some sf) l2).
    { eapply chain_ext; [|exact C2]. intros y Iy. change (dN (viewT2 sB) y = dN (viewT2 s) y).
      rewrite NB, N1. reflexivity. }
    view_of (set_parent_loop_view _ _ _ _ _ _ _ HC C2B) NC PC RC LC FC.
    unfold spliced. veq_solve2 FLs FLr.
Qed.

Lemma move_blocks_before_pres : forall R, keeps_T2_writes R -> forall a t, preserves R (move_blocks_before a t).
Proof.
  intros R K a t. pose proof (set_parent_blocks_from_pres R K). destruct K as [FR ? ? ? ? ?].
  unfold move_blocks_before. pres FR.
Qed.

Theorem move_blocks_before_WF : forall s s' self target region tx r,
  WF s -> reg_live s self ->
  PM.find target (s_blocks s) = Some tx -> b_erased tx = false -> b_parent tx = Some region -> reg_live s region ->
  move_blocks_before self target s = (s', Ok r) -> WF s'.
Proof.
  intros s s' self target region tx r W RLs Ft Et Pt RLr H. destruct (WF_viewT2 s W) as [D DD].
  pose proof H as H0. unfold move_blocks_before in H0.
  apply bind_ok in H0 as (s0 & tr & Hg & H0). apply getB_ok in Hg as [-> Ft']. rewrite Ft in Ft'. injection Ft' as <-.
  rewrite Pt in H0.
  destruct (opt_eqb (Some region) (Some self)) eqn:Q; [exfalso; eapply raise_ok; eauto|].
  apply opt_eqb_neq in Q. assert (Nrs : region <> self) by congruence. clear Q.
  apply bind_ok in H0 as (s0 & sr & Hg & H0). apply getR_ok in Hg as [-> Fself].
  destruct RLs as (sr0 & Fs0 & Es0). rewrite Fself in Fs0. injection Fs0 as <-.
  destruct RLr as (rr0 & Fr0 & Er0).
  assert (FLs : dFL (viewT2 s) self = Some (r_first sr, r_last sr)) by (simpl; unfold rFL; rewrite Fself, Es0; reflexivity).
  assert (FLr : dFL (viewT2 s) region = Some (r_first rr0, r_last rr0)) by (simpl; unfold rFL; rewrite Fr0, Er0; reflexivity).
  assert (FLn : dFL (viewT2 s) region <> None) by congruence.
  destruct (r_first sr) as [sf|].
  2:{ apply ret_ok in H0 as [<- _]. exact W. }
  destruct (r_last sr) as [sl|]; [|exfalso; eapply raise_ok; eauto].
  destruct (D self _ _ FLs) as (l2 & D2). destruct (D region _ _ FLr) as (l1 & D1).
  destruct (getB_view2 _ _ _ Ft) as (_ & Vpt & Vpart). rewrite Pt in Vpart.
  pose proof (vin_live _ _ _ (blive_view _ _ _ Ft Et) Vpart) as It.
  destruct (in_split _ _ (It _ _ _ FLr D1)) as (a & b & ->).
  apply (WF_groups_T2 _ s s' r (spliced (viewT2 s) region self (b_prev tx) (Some target) sf sl l2) W
           (fun R K => move_blocks_before_pres R K self target) H).
  2:{ pose proof (dll_prev_of _ _ _ _ _ _ _ D1) as Q. rewrite Vpt in Q. injection Q as ->.
      apply (spliced_wf (viewT2 s) region self a (target :: b) _ _ sf sl l2 D DD Nrs FLr D1 FLs D2). }
  pose proof (last_next_none _ _ _ _ D FLs) as Nsl. pose proof (first_prev_none _ _ _ _ D FLs) as Psf.
  pose proof D2 as (C2 & _ & _ & M2 & _).
  assert (Nl2 : forall y q, In y l2 -> dPar (viewT2 s) q = Some (Some region) -> y <> q).
  { intros y q Iy Pq ->. rewrite (M2 q Iy) in Pq. congruence. }
  pose proof (Nl2 sl target (last_In _ _ (eq_sym (dll_last_of _ _ _ _ _ D2))) Vpart) as Nslt.
  pose proof (Nl2 sf target (hd_error_In _ _ (eq_sym (dll_first_of _ _ _ _ _ D2))) Vpart) as Nsft.
  apply bind_ok in H0 as (sA & ? & HA & H0).
  apply bind_ok in H0 as (sA' & fl & Hf & H0). unfold get_fuel in Hf. apply gets_ok in Hf as [-> ->].
  apply bind_ok in H0 as (sA' & sr' & Hg & H0). apply getR_ok in Hg as [-> Fself'].
  apply bind_ok in H0 as (sC & ? & HC & H0).
  apply bind_ok in H0 as (sD & ? & HD & H0).
  view_of (updB_next_view2 _ _ _ _ _ HD) ND PD RD LD FD.
  apply bind_ok in H0 as (sE & ? & HE & H0).
  view_of (updB_prev_view2 _ _ _ _ _ HE) NE PE RE LE FE.
  apply bind_ok in H0 as (sF & ? & HF & HG).
  view_of (updR_first_view2 _ _ _ _ _ HF) NF PF RF LF FF.
  view_of (updR_last_view2 _ _ _ _ _ HG) NG PG RG LG FG.
  destruct (b_prev tx) as [tp|].
  - apply bind_ok in HA as (sA1 & ? & HA1 & HA2).
    view_of (updB_next_view2 _ _ _ _ _ HA1) N1 P1 R1 L1 F1.
    apply bind_ok in HA2 as (sA1' & tr' & Hg & HA2). apply getB_ok in Hg as [-> Ft1].
    view_of (updB_prev_view2 _ _ _ _ _ HA2) N2 P2 R2 L2 F2.
    destruct (getB_view2 _ _ _ Ft1) as (_ & Vp1 & _). rewrite P1, Vpt in Vp1. injection Vp1 as E1. rewrite <- E1 in *.
    destruct (vin_prev _ _ _ _ D FLn It Vpt) as [Itp _]. pose proof (vin_par _ _ _ D FLn Itp) as Ptp.
    assert (Ef' : r_first sr' = Some sf).
    { assert (Q : dFL (viewT2 sA) self = Some (Some sf, Some sl)) by (rewrite F2, F1; exact FLs).
      simpl in Q. unfold rFL in Q. rewrite Fself' in Q. destruct (r_erased sr'); [discriminate|]. injection Q as Q _. exact Q. }
    rewrite Ef' in HC.
    assert (C2A : chain (blk_next sA) (Some sf) l2).
    { eapply chain_ext; [|exact C2]. intros y Iy. change (dN (viewT2 sA) y = dN (viewT2 s) y).
      rewrite N2, N1, fupd_other by (eapply Nl2; eauto). reflexivity. }
    view_of (set_parent_loop_view _ _ _ _ _ _ _ HC C2A) NC PC RC LC FC.
    pose proof (Nl2 sl tp (last_In _ _ (eq_sym (dll_last_of _ _ _ _ _ D2))) Ptp) as Nsltp.
    unfold spliced. veq_solve2 FLs FLr.
  - view_of (updR_first_view2 _ _ _ _ _ HA) N1 P1 R1 L1 F1.
    assert (Ef' : r_first sr' = Some sf).
    { assert (Q : dFL (viewT2 sA) self = Some (Some sf, Some sl)) by (rewrite F1, fupd_other by congruence; exact FLs).
      simpl in Q. unfold rFL in Q. rewrite Fself' in Q. destruct (r_erased sr'); [discriminate|]. injection Q as Q _. exact Q. }
    rewrite Ef' in HC.
    assert (C2A : chain (blk_next sA) (Some sf) l2).
    { eapply chain_ext; [|exact C2]. intros y Iy. change (dN (viewT2 sA) y = dN (viewT2 s) y). apply N1. }
    view_of (set_parent_loop_view _ _ _ _ _ _ _ HC C2A) NC PC RC LC FC.
    unfold spliced. veq_solve2 FLs FLr.
Qed.
