(* C01/ProofsUses.v -- the use-list half of WF.

   The five use clauses of WF are equivalent to an invariant `Uabs s S` that reads only the use
   table and the first_use pointers, relative to an abstract slot relation S
   (S h o i u : "use u is slot i of op o and the item in that slot is holder h"), instantiated
   with `real_slot s` (the slots of the live ops of s).  add_use / remove_use are proved once
   against Uabs (pure pointer reasoning); the mutators then only have to say how they change
   the slot relation. *)
From Coq Require Import ZArith List Bool PArith FMapPositive Lia.
From XV Require Import C01.Model C01.Spec C01.ProofsBase C01.ProofsFrame.
Import ListNotations.
Local Open Scope Z_scope.

Lemma znth_of_nat : forall {A} (l : list A) n, znth l (Z.of_nat n) = nth_error l n.
Proof.
  intros A l n. unfold znth. destruct (Z.ltb_spec (Z.of_nat n) 0); [lia|]. rewrite Nat2Z.id. reflexivity.
Qed.
Lemma znth_some : forall {A} (l : list A) i x, znth l i = Some x ->
  exists n, i = Z.of_nat n /\ nth_error l n = Some x.
Proof.
  intros A l i x H. unfold znth in H. destruct (Z.ltb_spec i 0); [discriminate|].
  exists (Z.to_nat i). split; [lia|exact H].
Qed.
Lemma znth_In : forall {A} (l : list A) i x, znth l i = Some x -> In x l.
Proof. intros A l i x H. destruct (znth_some _ _ _ H) as (n & _ & E). eapply nth_error_In; eauto. Qed.
Lemma znth_lt : forall {A} (l : list A) i x, znth l i = Some x -> 0 <= i < zlen l.
Proof.
  intros A l i x H. destruct (znth_some _ _ _ H) as (n & -> & E).
  assert (n < length l)%nat by (apply nth_error_Some; congruence). unfold zlen. lia.
Qed.

Lemma slice_to_eq : forall {A} (l : list A) i, 0 <= i <= zlen l -> py_slice_to l i = firstn (Z.to_nat i) l.
Proof.
  intros A l i R. unfold py_slice_to, py_clamp. destruct (Z.ltb_spec i 0); [lia|].
  rewrite Z.min_l by lia. reflexivity.
Qed.
Lemma slice_from_eq : forall {A} (l : list A) i, 0 <= i <= zlen l -> py_slice_from l i = skipn (Z.to_nat i) l.
Proof.
  intros A l i R. unfold py_slice_from, py_clamp. destruct (Z.ltb_spec i 0); [lia|].
  rewrite Z.min_l by lia. reflexivity.
Qed.

Definition hfirst (s : state) (h : holder) : option (option uid) :=
  match h with
  | HV v => link (s_values s) v_first_use v
  | HB b => link (s_blocks s) b_first_use b
  end.
Definition hid (h : holder) : positive := match h with HV v => v | HB b => b end.
Definition hitems (h : holder) (x : op_rec) : list positive :=
  match h with HV _ => o_operands x | HB _ => o_successors x end.
Definition huses (h : holder) (x : op_rec) : list uid :=
  match h with HV _ => o_operand_uses x | HB _ => o_successor_uses x end.

Lemma holder_eq_dec : forall a b : holder, {a = b} + {a <> b}.
Proof. decide equality; apply Pos.eq_dec. Qed.

(* The two sides of the use structure: operands, held by values (true), and successors, held by
   blocks (false).  The mutators of the two sides are mirror images; they are stated once, for a side. *)
Definition hmk (sd : bool) (a : positive) : holder := if sd then HV a else HB a.
Definition sitems (sd : bool) (x : op_rec) : list positive := if sd then o_operands x else o_successors x.
Definition suses (sd : bool) (x : op_rec) : list uid := if sd then o_operand_uses x else o_successor_uses x.
Definition hset_items (sd : bool) : list positive -> op_rec -> op_rec :=
  if sd then set_o_operands else set_o_successors.
Definition hset_uses (sd : bool) : list uid -> op_rec -> op_rec :=
  if sd then set_o_operand_uses else set_o_successor_uses.

Lemma hid_hmk : forall sd a, hid (hmk sd a) = a.
Proof. intros []; reflexivity. Qed.
Lemma hitems_hmk : forall sd a x, hitems (hmk sd a) x = sitems sd x.
Proof. intros []; reflexivity. Qed.
Lemma huses_hmk : forall sd a x, huses (hmk sd a) x = suses sd x.
Proof. intros []; reflexivity. Qed.
Lemma hmk_inj : forall sd a b, hmk sd a = hmk sd b -> a = b.
Proof. intros [] a b E; injection E as E; exact E. Qed.
Lemma hmk_negb : forall sd a b, hmk sd a = hmk (negb sd) b -> False.
Proof. intros []; discriminate. Qed.
Lemma holder_side : forall sd h, exists a, h = hmk sd a \/ h = hmk (negb sd) a.
Proof. intros [] [a|a]; exists a; auto. Qed.

Lemma sitems_set_items : forall sd l x, sitems sd (hset_items sd l x) = l.
Proof. intros []; reflexivity. Qed.
Lemma suses_set_uses : forall sd l x, suses sd (hset_uses sd l x) = l.
Proof. intros []; reflexivity. Qed.
Lemma suses_set_items : forall sd sd' l x, suses sd' (hset_items sd l x) = suses sd' x.
Proof. intros [] []; reflexivity. Qed.
Lemma sitems_set_uses : forall sd sd' l x, sitems sd' (hset_uses sd l x) = sitems sd' x.
Proof. intros [] []; reflexivity. Qed.
Lemma sitems_set_other : forall sd l x, sitems (negb sd) (hset_items sd l x) = sitems (negb sd) x.
Proof. intros []; reflexivity. Qed.
Lemma suses_set_other : forall sd l x, suses (negb sd) (hset_uses sd l x) = suses (negb sd) x.
Proof. intros []; reflexivity. Qed.
Lemma erased_set_items : forall sd l x, o_erased (hset_items sd l x) = o_erased x.
Proof. intros []; reflexivity. Qed.
Lemma erased_set_uses : forall sd l x, o_erased (hset_uses sd l x) = o_erased x.
Proof. intros []; reflexivity. Qed.
#[export] Hint Rewrite hid_hmk hitems_hmk huses_hmk sitems_set_items suses_set_uses suses_set_items
  sitems_set_uses sitems_set_other suses_set_other erased_set_items erased_set_uses : side.

Definition slotrel := holder -> oid -> Z -> uid -> Prop.

Definition real_slot (s : state) : slotrel := fun h o i u =>
  exists x, PM.find o (s_ops s) = Some x /\ o_erased x = false /\
            znth (hitems h x) i = Some (hid h) /\ znth (huses h x) i = Some u.

Definition use_info (s : state) (u : uid) : option (oid * Z) :=
  option_map (fun r => (u_op r, u_idx r)) (PM.find u (s_uses s)).

(* ua_chain: every member of the use chain of a holder is a slot of it; ua_slot: a slot records its (op,
   index) and is a member of the chain of its holder; ua_one: a use object serves one holder *)
Record Uabs (s : state) (S : slotrel) : Prop := {
  ua_chain : forall h fu, hfirst s h = Some fu ->
     exists l, chain (use_next s) fu l /\ NoDup l /\ prevs_ok s None l /\
               (forall u, In u l -> exists o i, S h o i u);
  ua_slot : forall h o i u, S h o i u ->
     use_info s u = Some (o, i) /\
     exists fu l, hfirst s h = Some fu /\ chain (use_next s) fu l /\ In u l;
  ua_one : forall h h' o o' i i' u, S h o i u -> S h' o' i' u -> h = h' }.

Definition lens_ok (s : state) : Prop :=
  forall o x, PM.find o (s_ops s) = Some x -> o_erased x = false ->
    length (o_operands x) = length (o_operand_uses x) /\
    length (o_successors x) = length (o_successor_uses x).

(* the use-list half of WF *)
Definition UWF (s : state) : Prop :=
  WF_vuses s /\ WF_buses s /\ WF_operands s /\ WF_successors s /\ WF_disjoint s.

Lemma use_info_some : forall s u o i, use_info s u = Some (o, i) ->
  exists ur, PM.find u (s_uses s) = Some ur /\ u_op ur = o /\ u_idx ur = i.
Proof.
  intros s u o i H. unfold use_info in H. destruct (PM.find u (s_uses s)) as [ur|]; [|discriminate].
  simpl in H. injection H as <- <-. exists ur. auto.
Qed.

Lemma lens_side : forall sd s o x, lens_ok s -> PM.find o (s_ops s) = Some x -> o_erased x = false ->
  length (sitems sd x) = length (suses sd x).
Proof. intros [] s o x L F E; apply (L o x F E). Qed.

Lemma use_slot : forall sd s o x u, PM.find o (s_ops s) = Some x -> o_erased x = false ->
  length (sitems sd x) = length (suses sd x) -> In u (suses sd x) ->
  exists a j, real_slot s (hmk sd a) o (Z.of_nat j) u.
Proof.
  intros sd s o x u F E Len I. destruct (In_nth_error _ _ I) as (j & Nj).
  destruct (nth_error (sitems sd x) j) as [a|] eqn:Na.
  - exists a, j, x. autorewrite with side. rewrite !znth_of_nat. auto.
  - apply nth_error_None in Na. assert (j < length (suses sd x))%nat by (apply nth_error_Some; congruence). lia.
Qed.

Lemma real_slot_info : forall s, WF_operands s -> WF_successors s -> forall h o i u, real_slot s h o i u ->
  use_info s u = Some (o, i) /\
  exists fu l, hfirst s h = Some fu /\ chain (use_next s) fu l /\ In u l.
Proof.
  intros s Wo Ws h o i u (x & Fx & E & Z1 & Z2).
  destruct (znth_some _ _ _ Z1) as (n & -> & N1). rewrite znth_of_nat in Z2.
  assert (Q : slots_ok s o (hitems h x) (huses h x) (fun a => hfirst s (match h with HV _ => HV a | HB _ => HB a end))).
  { destruct h; [apply (Wo o x Fx E)|apply (Ws o x Fx E)]. }
  destruct Q as [_ R]. destruct (R n _ u N1 Z2) as [(ur & Fu & U1 & U2) Mem].
  split; [unfold use_info; rewrite Fu; simpl; congruence|]. destruct h; exact Mem.
Qed.

Lemma UWF_Uabs : forall s, UWF s -> Uabs s (real_slot s) /\ lens_ok s.
Proof.
  intros s (Wv & Wb & Wo & Ws & Wd). split.
  - constructor.
    + intros h fu Hf.
      assert (Q : use_chain_ok s (hitems h) (huses h) (hid h) fu).
      { destruct h as [v|b]; simpl in Hf; unfold link in Hf.
        - destruct (PM.find v (s_values s)) as [vr|] eqn:F; [|discriminate]. injection Hf as <-. apply (Wv v vr F).
        - destruct (PM.find b (s_blocks s)) as [br|] eqn:F; [|discriminate]. injection Hf as <-. apply (Wb b br F). }
      destruct Q as (l & C & ND & P & M). exists l. repeat split; try assumption.
      intros u Iu. destruct (M u Iu) as (ur & x & Fu & Fx & E & Z1 & Z2).
      exists (u_op ur), (u_idx ur), x. auto.
    + apply (real_slot_info s Wo Ws).
    + intros h h' o o' i i' u R R'.
      destruct (real_slot_info s Wo Ws _ _ _ _ R) as [I1 _]. destruct (real_slot_info s Wo Ws _ _ _ _ R') as [I2 _].
      rewrite I1 in I2. injection I2 as <- <-.
      destruct R as (x & Fx & E & Z1 & Z2). destruct R' as (x' & Fx' & _ & Z1' & Z2').
      rewrite Fx in Fx'. injection Fx' as <-.
      (* the same use in an operand slot and in a successor slot would contradict WF_disjoint *)
      destruct h as [v|b], h' as [v'|b']; simpl in *; try congruence;
        exfalso; eapply Wd; eauto; eapply znth_In; eauto.
  - intros o x F E. split; [apply (Wo o x F E)|apply (Ws o x F E)].
Qed.

Lemma Uabs_UWF : forall s, Uabs s (real_slot s) -> lens_ok s -> UWF s.
Proof.
  intros s [UC US U1] L.
  assert (chain_ok : forall h fu, hfirst s h = Some fu -> use_chain_ok s (hitems h) (huses h) (hid h) fu).
  { intros h fu Hf. destruct (UC h fu Hf) as (l & C & ND & P & M). exists l. repeat split; try assumption.
    intros u Iu. destruct (M u Iu) as (o & i & R). pose proof R as (x & Fx & E & Z1 & Z2).
    destruct (US _ _ _ _ R) as [Inf _]. destruct (use_info_some _ _ _ _ Inf) as (ur & Fu & <- & <-).
    exists ur, x. auto. }
  assert (slots : forall h o x i u, PM.find o (s_ops s) = Some x -> o_erased x = false ->
            nth_error (hitems h x) i = Some (hid h) -> nth_error (huses h x) i = Some u ->
            (exists ur, PM.find u (s_uses s) = Some ur /\ u_op ur = o /\ u_idx ur = Z.of_nat i) /\
            (exists fu l, hfirst s h = Some fu /\ chain (use_next s) fu l /\ In u l)).
  { intros h o x i u Fx E N1 N2.
    assert (R : real_slot s h o (Z.of_nat i) u) by (exists x; rewrite !znth_of_nat; auto).
    destruct (US _ _ _ _ R) as [Inf Mem]. destruct (use_info_some _ _ _ _ Inf) as (ur & Fu & Q1 & Q2).
    split; [exists ur; auto|exact Mem]. }
  split; [|split; [|split; [|split]]].
  - intros v vr F. apply (chain_ok (HV v)). simpl. unfold link. rewrite F. reflexivity.
  - intros b br F. apply (chain_ok (HB b)). simpl. unfold link. rewrite F. reflexivity.
  - intros o x F E. split; [apply (L o x F E)|].
    intros i item u N1 N2. apply (slots (HV item) o x i u F E N1 N2).
  - intros o x F E. split; [apply (L o x F E)|].
    intros i item u N1 N2. apply (slots (HB item) o x i u F E N1 N2).
  - intros o x F E u I1 I2. destruct (L o x F E) as [L1 L2].
    destruct (use_slot true s o x u F E L1 I1) as (a & j & R1).
    destruct (use_slot false s o x u F E L2 I2) as (b & k & R2).
    pose proof (U1 _ _ _ _ _ _ _ R1 R2). discriminate.
Qed.

Definition use_prev (s : state) := link (s_uses s) u_prev.

Fixpoint last_or (p : option uid) (l : list uid) : option uid :=
  match l with [] => p | x :: r => last_or (Some x) r end.

Fixpoint prevs_v (P : uid -> option (option uid)) (p : option uid) (l : list uid) : Prop :=
  match l with
  | [] => True
  | u :: r => P u = Some p /\ prevs_v P (Some u) r
  end.

Lemma prevs_ok_v : forall s l p, prevs_ok s p l <-> prevs_v (use_prev s) p l.
Proof.
  intros s l. induction l as [|u r IH]; intros p; simpl; [tauto|].
  rewrite IH. split.
  - intros [(ur & F & Q) H]. split; [|exact H]. unfold use_prev, link. rewrite F. simpl. f_equal. exact Q.
  - intros [Q H]. split; [|exact H]. unfold use_prev, link in Q.
    destruct (PM.find u (s_uses s)) as [ur|]; [|discriminate]. simpl in Q.
    exists ur. split; [reflexivity|]. inversion Q. reflexivity.
Qed.

Lemma prevs_v_app : forall P l1 l2 p, prevs_v P p (l1 ++ l2) <-> prevs_v P p l1 /\ prevs_v P (last_or p l1) l2.
Proof.
  intros P l1. induction l1 as [|x r IH]; intros l2 p; simpl; [tauto|].
  rewrite IH. tauto.
Qed.

Lemma prevs_v_ext : forall P P' l p, (forall x, In x l -> P' x = P x) -> prevs_v P p l -> prevs_v P' p l.
Proof.
  intros P P' l. induction l as [|u r IH]; intros p E H; simpl in *; [exact I|].
  destruct H as [H1 H2]. split; [rewrite E; auto|apply IH; auto].
Qed.

Lemma last_or_app : forall l p x, last_or p (l ++ [x]) = Some x.
Proof. induction l as [|y r IH]; intros p x; simpl; [reflexivity|apply IH]. Qed.

Lemma last_or_In : forall l p x, last_or p l = Some x -> p = Some x \/ In x l.
Proof.
  induction l as [|y r IH]; intros p x H; simpl in *; [left; exact H|].
  destruct (IH _ _ H) as [E|I]; [inversion E; right; left; reflexivity|right; right; exact I].
Qed.

Lemma chain_head : forall nxt st l, chain nxt st l -> st = hd_error l.
Proof. intros nxt st l H. destruct H; reflexivity. Qed.

Lemma chain_split : forall nxt st l1 u l2, chain nxt st (l1 ++ u :: l2) ->
  seg nxt st l1 (Some u) /\ exists nn, nxt u = Some nn /\ chain nxt nn l2.
Proof.
  intros nxt st l1 u l2 H. apply chain_seg in H. apply seg_split in H. destruct H as (b & S1 & S2).
  inversion S2; subst. split; [exact S1|]. exists n. split; [assumption|apply chain_seg; assumption].
Qed.

Lemma seg_chain_app : forall nxt st l1 b l2, seg nxt st l1 b -> chain nxt b l2 -> chain nxt st (l1 ++ l2).
Proof. intros nxt st l1 b l2 S C. apply chain_seg. eapply seg_app; [exact S|apply chain_seg; exact C]. Qed.

Lemma seg_snoc_inv : forall nxt st l p b, seg nxt st (l ++ [p]) b -> seg nxt st l (Some p) /\ nxt p = Some b.
Proof.
  intros nxt st l p b H. apply seg_split in H. destruct H as (c & S1 & S2).
  apply seg_cons_inv in S2. destruct S2 as [-> (n & Np & S3)]. inversion S3; subst. auto.
Qed.

Lemma list_snoc_cases : forall {A} (l : list A), l = [] \/ exists l' x, l = l' ++ [x].
Proof.
  intros A l. destruct (rev l) as [|x r] eqn:E.
  - left. apply (f_equal (@rev A)) in E. rewrite rev_involutive in E. exact E.
  - right. exists (rev r), x. apply (f_equal (@rev A)) in E. rewrite rev_involutive in E. simpl in E. exact E.
Qed.

Lemma match_snoc : forall {A B} (l : list A) x (a b : B),
  match l ++ [x] with [] => a | _ :: _ => b end = b.
Proof. intros A B l x a b. destruct l; reflexivity. Qed.

Lemma NoDup_app_inv : forall {A} (l1 l2 : list A), NoDup (l1 ++ l2) ->
  NoDup l1 /\ NoDup l2 /\ forall x, In x l1 -> In x l2 -> False.
Proof.
  intros A l1. induction l1 as [|a r IH]; intros l2 H; simpl in *.
  - split; [constructor|]. split; [exact H|]. intros x [].
  - inversion H; subst. destruct (IH _ H3) as (N1 & N2 & D). split.
    + constructor; [|exact N1]. intro I. apply H2. apply in_or_app. left. exact I.
    + split; [exact N2|]. intros x [E|I] I2.
      * subst. apply H2. apply in_or_app. right. exact I2.
      * eapply D; eauto.
Qed.

Lemma NoDup_app_intro : forall {A} (l1 l2 : list A), NoDup l1 -> NoDup l2 ->
  (forall x, In x l1 -> In x l2 -> False) -> NoDup (l1 ++ l2).
Proof.
  intros A l1. induction l1 as [|a t IH]; intros l2 N1 N2 D; simpl; [exact N2|].
  inversion N1 as [|? ? Na Nt]; subst. constructor.
  - intro I. apply in_app_or in I. destruct I as [I|I]; [contradiction|]. eapply D; [left; reflexivity|exact I].
  - apply IH; [exact Nt|exact N2|]. intros x I1 I2. eapply D; [right; exact I1|exact I2].
Qed.

Lemma chain_remove : forall (N N' : positive -> option (option positive)) st a x b,
  chain N st (a ++ x :: b) -> NoDup (a ++ x :: b) ->
  (forall y, y <> x -> last_or None a <> Some y -> N' y = N y) ->
  (forall p, last_or None a = Some p -> N' p = N x) ->
  chain N' (match a with [] => hd_error b | _ => st end) (a ++ b).
Proof.
  intros N N' st a x b C ND E Ep.
  destruct (chain_split _ _ _ _ _ C) as (S1 & nn & Nx & C2).
  pose proof (chain_head _ _ _ C2) as Hnn. subst nn.
  destruct (NoDup_app_inv _ _ ND) as (NDa & NDx & D). inversion NDx; subst.
  assert (TL : chain N' (hd_error b) b).
  { eapply chain_ext; [|exact C2]. intros y Iy. apply E.
    - intro; subst. contradiction.
    - intro L. apply last_or_In in L. destruct L as [L|L]; [discriminate|]. eapply D; [exact L|right; exact Iy]. }
  destruct (list_snoc_cases a) as [->|(a' & p & ->)].
  - simpl. exact TL.
  - rewrite match_snoc. rewrite <- app_assoc. simpl.
    destruct (seg_snoc_inv _ _ _ _ _ S1) as [S1' Np].
    destruct (NoDup_app_inv _ _ NDa) as (_ & _ & Dp).
    eapply seg_chain_app.
    + eapply seg_ext; [|exact S1']. intros y Iy. apply E.
      * intro; subst. eapply D; [apply in_or_app; left; exact Iy|left; reflexivity].
      * rewrite last_or_app. intro L. injection L as <-. eapply Dp; [exact Iy|left; reflexivity].
    + econstructor; [rewrite (Ep p (last_or_app _ _ _)); exact Nx|exact TL].
Qed.

(* Uabs only reads the first_use pointers and the entries of the use table that it mentions:
   it survives an extension of the table *)
Lemma Uabs_mono : forall s s' S S',
  (forall u r, PM.find u (s_uses s) = Some r -> PM.find u (s_uses s') = Some r) ->
  (forall h, hfirst s' h = hfirst s h) ->
  (forall h o i u, S' h o i u <-> S h o i u) ->
  Uabs s S -> Uabs s' S'.
Proof.
  intros s s' S S' EU EH ES [UC US U1].
  (* the members of a chain are in the table *)
  assert (K : forall h fu l, hfirst s h = Some fu -> chain (use_next s) fu l ->
                forall x, In x l -> forall g, link (s_uses s') g x = link (s_uses s) g x).
  { intros h fu l Hf C x Ix g. destruct (UC h fu Hf) as (l' & C' & _ & _ & M).
    assert (l' = l) by (eapply chain_fun; eauto). subst l'.
    destruct (M x Ix) as (o & i & Q). destruct (US _ _ _ _ Q) as [Inf _].
    destruct (use_info_some _ _ _ _ Inf) as (ur & F & _). unfold link. rewrite F, (EU _ _ F). reflexivity. }
  constructor.
  - intros h fu Hf. rewrite EH in Hf. destruct (UC h fu Hf) as (l & C & ND & P & M). exists l.
    split; [eapply chain_ext; [|exact C]; intros x Ix; apply (K h fu l Hf C x Ix)|]. split; [exact ND|]. split.
    + apply prevs_ok_v. apply prevs_ok_v in P. eapply prevs_v_ext; [|exact P].
      intros x Ix. apply (K h fu l Hf C x Ix).
    + intros u Iu. destruct (M u Iu) as (o & i & Q). exists o, i. apply ES. exact Q.
  - intros h o i u Q. apply ES in Q. destruct (US _ _ _ _ Q) as [Inf (fu & l & Hf & C & Iu)]. split.
    + destruct (use_info_some _ _ _ _ Inf) as (ur & F & E1 & E2). unfold use_info. rewrite (EU _ _ F). simpl. congruence.
    + exists fu, l. rewrite EH. split; [exact Hf|]. split; [|exact Iu].
      eapply chain_ext; [|exact C]. intros x Ix. apply (K h fu l Hf C x Ix).
  - intros h h' o o' i i' u Q1 Q2. apply ES in Q1. apply ES in Q2. eapply U1; eauto.
Qed.

Lemma Uabs_ext : forall s s' S S',
  (forall u, PM.find u (s_uses s') = PM.find u (s_uses s)) ->
  (forall h, hfirst s' h = hfirst s h) ->
  (forall h o i u, S' h o i u <-> S h o i u) ->
  Uabs s S -> Uabs s' S'.
Proof. intros s s' S S' EU. apply Uabs_mono. intros u r F. rewrite EU. exact F. Qed.

Lemma Uabs_iff : forall s S S', (forall h o i u, S' h o i u <-> S h o i u) -> Uabs s S -> Uabs s S'.
Proof. intros s S S' E. apply Uabs_ext; [reflexivity|reflexivity|exact E]. Qed.

(* a change of the links that leaves all uses outside `t` alone, `t` holding uses of h only, leaves the
   chains of the other holders as they are *)
Lemma Uabs_others : forall s s' S h (t : list uid), Uabs s S ->
  (forall x, ~ In x t -> use_next s' x = use_next s x /\ use_prev s' x = use_prev s x) ->
  (forall x h' o i, In x t -> S h' o i x -> h' = h) ->
  forall h' fu' l', h' <> h -> hfirst s h' = Some fu' -> chain (use_next s) fu' l' ->
  chain (use_next s') fu' l' /\ NoDup l' /\ prevs_ok s' None l' /\ (forall x, In x l' -> exists o i, S h' o i x).
Proof.
  intros s s' S h t [UC US U1] E D h' fu' l' Nh Hf C.
  destruct (UC h' fu' Hf) as (l & C0 & ND & P & M).
  assert (l = l') by (eapply chain_fun; eauto). subst l.
  assert (K : forall x, In x l' -> use_next s' x = use_next s x /\ use_prev s' x = use_prev s x).
  { intros x Ix. apply E. intro It. destruct (M x Ix) as (o & i & Q). apply Nh. eapply D; eauto. }
  split; [eapply chain_ext; [|exact C]; intros x Ix; apply (K x Ix)|]. split; [exact ND|]. split; [|exact M].
  apply prevs_ok_v. apply prevs_ok_v in P. eapply prevs_v_ext; [|exact P]. intros x Ix. apply (K x Ix).
Qed.

Definition minus_use (S : slotrel) (u : uid) : slotrel := fun h o i u' => S h o i u' /\ u' <> u.

Lemma Uabs_remove : forall s s' S h o i u fu l1 l2,
  Uabs s S -> S h o i u ->
  hfirst s h = Some fu -> chain (use_next s) fu (l1 ++ u :: l2) ->
  (forall x, use_info s' x = use_info s x) ->
  (forall x, last_or None l1 <> Some x -> use_next s' x = use_next s x) ->
  (forall p, last_or None l1 = Some p -> use_next s' p = Some (hd_error l2)) ->
  (forall x, hd_error l2 <> Some x -> use_prev s' x = use_prev s x) ->
  (forall n, hd_error l2 = Some n -> use_prev s' n = Some (last_or None l1)) ->
  hfirst s' h = Some (match l1 with [] => hd_error l2 | _ => fu end) ->
  (forall h', h' <> h -> hfirst s' h' = hfirst s h') ->
  Uabs s' (minus_use S u).
Proof.
  intros s s' S h o i u fu l1 l2 UA Su Hf C EI EN ENp EP EPn Hf' Hfo. pose proof UA as [UC US U1].
  destruct (UC h fu Hf) as (l & C0 & ND & P & M).
  assert (l = l1 ++ u :: l2) by (eapply chain_fun; eauto). subst l. clear C0.
  destruct (chain_split _ _ _ _ _ C) as (S1 & nn & Nu & C2).
  pose proof (chain_head _ _ _ C2) as Hnn. subst nn.
  destruct (NoDup_app_inv _ _ ND) as (ND1 & ND2u & D12).
  inversion ND2u as [|? ? Nu2 ND2]; subst.
  apply prevs_ok_v in P. apply prevs_v_app in P. destruct P as [P1 P2]. simpl in P2. destruct P2 as [Pu P2].
  (* the new chain of h *)
  assert (CH : chain (use_next s') (match l1 with [] => hd_error l2 | _ => fu end) (l1 ++ l2) /\
               prevs_v (use_prev s') None (l1 ++ l2)).
  { split.
    - eapply chain_remove; [exact C|exact ND| |].
      + intros y _ Ny. apply EN. exact Ny.
      + intros p Lp. rewrite Nu. apply ENp. exact Lp.
    - apply prevs_v_app. split.
      + eapply prevs_v_ext; [|exact P1]. intros x Ix. apply EP. intro E.
        eapply D12; [exact Ix|right]. destruct l2; simpl in E; [discriminate|]. inversion E. left. reflexivity.
      + destruct l2 as [|n l2']; simpl; [exact I|]. simpl in P2. destruct P2 as [Pn P2']. split.
        * apply EPn. reflexivity.
        * eapply prevs_v_ext; [|exact P2']. intros x Ix. apply EP. simpl. intro E. inversion E; subst.
          inversion ND2; subst. contradiction. }
  destruct CH as [CH PH].
  (* only p and n change, both uses of h *)
  assert (OTH := Uabs_others s s' S h (l1 ++ u :: l2) UA).
  assert (UN : forall x, ~ In x (l1 ++ u :: l2) -> use_next s' x = use_next s x /\ use_prev s' x = use_prev s x).
  { intros x NI. split; [apply EN|apply EP]; intro E; apply NI; apply in_or_app.
    - apply last_or_In in E. destruct E as [E|E]; [discriminate|left; exact E].
    - right. right. destruct l2; simpl in E; [discriminate|]. inversion E. left. reflexivity. }
  assert (D : forall x h' o' i', In x (l1 ++ u :: l2) -> S h' o' i' x -> h' = h).
  { intros x h' o' i' Ix Q. destruct (M x Ix) as (o2 & i2 & Q2). eapply U1; eauto. }
  specialize (OTH UN D).
  constructor.
  - intros h' fu' Hf2. destruct (holder_eq_dec h' h) as [->|Nh].
    + rewrite Hf' in Hf2. inversion Hf2; subst fu'. exists (l1 ++ l2).
      split; [exact CH|]. split.
      { apply NoDup_remove_1 in ND. exact ND. }
      split; [apply prevs_ok_v; exact PH|].
      intros x Ix. assert (I2 : In x (l1 ++ u :: l2)).
      { apply in_app_or in Ix. apply in_or_app. destruct Ix; [left|right; right]; assumption. }
      destruct (M x I2) as (o' & i' & Sx). exists o', i'. split; [exact Sx|].
      intro E. subst x. apply NoDup_remove_2 in ND. contradiction.
    + rewrite (Hfo h' Nh) in Hf2. destruct (UC h' fu' Hf2) as (l' & C' & _).
      destruct (OTH h' fu' l' Nh Hf2 C') as (C'' & ND' & P' & M').
      exists l'. split; [exact C''|]. split; [exact ND'|]. split; [exact P'|].
      intros x Ix. destruct (M' x Ix) as (o' & i' & Sx). exists o', i'. split; [exact Sx|].
      intro E. subst x. apply Nh. eapply U1; eauto.
  - intros h' o' i' u' [Sx Nx]. destruct (US _ _ _ _ Sx) as [Inf (fu' & l' & Hf2 & C' & Iu')].
    split; [rewrite EI; exact Inf|].
    destruct (holder_eq_dec h' h) as [->|Nh].
    + rewrite Hf in Hf2. inversion Hf2; subst fu'.
      assert (l' = l1 ++ u :: l2) by (eapply chain_fun; eauto). subst l'.
      exists (match l1 with [] => hd_error l2 | _ => fu end), (l1 ++ l2).
      split; [exact Hf'|]. split; [exact CH|].
      apply in_app_or in Iu'. apply in_or_app. destruct Iu' as [I1|[E|I2]]; [left; exact I1|congruence|right; exact I2].
    + exists fu', l'. rewrite (Hfo h' Nh). split; [exact Hf2|]. split; [|exact Iu'].
      apply (OTH h' fu' l' Nh Hf2 C').
  - intros h1 h2 o1 o2 i1 i2 x [Q1 _] [Q2 _]. eapply U1; eauto.
Qed.

Definition plus_use (S : slotrel) (h : holder) (o : oid) (i : Z) (u : uid) : slotrel :=
  fun h' o' i' u' => S h' o' i' u' \/ (h' = h /\ o' = o /\ i' = i /\ u' = u).

Lemma Uabs_add : forall s s' S h o i u fu l,
  Uabs s S -> (forall h' o' i', ~ S h' o' i' u) ->
  use_info s u = Some (o, i) ->
  hfirst s h = Some fu -> chain (use_next s) fu l ->
  (forall x, use_info s' x = use_info s x) ->
  (forall x, x <> u -> use_next s' x = use_next s x) ->
  use_next s' u = Some fu ->
  (forall x, x <> u -> hd_error l <> Some x -> use_prev s' x = use_prev s x) ->
  use_prev s' u = Some None ->
  (forall f, hd_error l = Some f -> use_prev s' f = Some (Some u)) ->
  hfirst s' h = Some (Some u) ->
  (forall h', h' <> h -> hfirst s' h' = hfirst s h') ->
  Uabs s' (plus_use S h o i u).
Proof.
  intros s s' S h o i u fu l UA Fl Inf Hf C EI EN ENu EP EPu EPf Hf' Hfo. pose proof UA as [UC US U1].
  destruct (UC h fu Hf) as (l0 & C0 & ND & P & M).
  assert (l0 = l) by (eapply chain_fun; eauto). subst l0. clear C0.
  assert (NIu : forall h' fu' l', hfirst s h' = Some fu' -> chain (use_next s) fu' l' -> ~ In u l').
  { intros h' fu' l' Hf2 C' I2. destruct (UC h' fu' Hf2) as (l'' & C'' & _ & _ & M'').
    assert (l'' = l') by (eapply chain_fun; eauto). subst l''.
    destruct (M'' u I2) as (o' & i' & Q). eapply Fl; eauto. }
  assert (Nul : ~ In u l) by (eapply NIu; eauto).
  assert (CH : chain (use_next s') (Some u) (u :: l)).
  { econstructor; [exact ENu|]. eapply chain_ext; [|exact C]. intros x Ix. apply EN. intro E; subst; contradiction. }
  assert (PH : prevs_v (use_prev s') None (u :: l)).
  { simpl. split; [exact EPu|]. apply prevs_ok_v in P. destruct l as [|f r]; simpl; [exact I|].
    simpl in P. destruct P as [Pf Pr]. split; [apply EPf; reflexivity|].
    eapply prevs_v_ext; [|exact Pr]. intros x Ix. apply EP.
    - intro E; subst. apply Nul. right. exact Ix.
    - simpl. intro E. inversion E; subst. inversion ND; subst. contradiction. }
  (* only u and the old first use change *)
  assert (OTH := Uabs_others s s' S h (u :: l) UA).
  assert (UN : forall x, ~ In x (u :: l) -> use_next s' x = use_next s x /\ use_prev s' x = use_prev s x).
  { intros x NI. assert (Nx : x <> u) by (intro E; apply NI; left; auto).
    split; [apply EN; exact Nx|]. apply EP; [exact Nx|]. intro E. apply NI. right.
    destruct l; simpl in E; [discriminate|inversion E; left; reflexivity]. }
  assert (D : forall x h' o' i', In x (u :: l) -> S h' o' i' x -> h' = h).
  { intros x h' o' i' [<-|Ix] Q; [destruct (Fl _ _ _ Q)|]. destruct (M x Ix) as (o2 & i2 & Q2). eapply U1; eauto. }
  specialize (OTH UN D).
  constructor.
  - intros h' fu' Hf2. destruct (holder_eq_dec h' h) as [->|Nh].
    + rewrite Hf' in Hf2. inversion Hf2; subst fu'. exists (u :: l).
      split; [exact CH|]. split; [constructor; assumption|]. split; [apply prevs_ok_v; exact PH|].
      intros x [E|Ix].
      * subst x. exists o, i. right. auto.
      * destruct (M x Ix) as (o' & i' & Q). exists o', i'. left. exact Q.
    + rewrite (Hfo h' Nh) in Hf2. destruct (UC h' fu' Hf2) as (l' & C' & _).
      destruct (OTH h' fu' l' Nh Hf2 C') as (C'' & ND' & P' & M').
      exists l'. split; [exact C''|]. split; [exact ND'|]. split; [exact P'|].
      intros x Ix. destruct (M' x Ix) as (o' & i' & Q). exists o', i'. left. exact Q.
  - intros h' o' i' u' [Q|(-> & -> & -> & ->)].
    + destruct (US _ _ _ _ Q) as [Inf' (fu' & l' & Hf2 & C' & Iu')].
      split; [rewrite EI; exact Inf'|].
      destruct (holder_eq_dec h' h) as [->|Nh].
      * rewrite Hf in Hf2. inversion Hf2; subst fu'.
        assert (l' = l) by (eapply chain_fun; eauto). subst l'.
        exists (Some u), (u :: l). split; [exact Hf'|]. split; [exact CH|right; exact Iu'].
      * exists fu', l'. rewrite (Hfo h' Nh). split; [exact Hf2|]. split; [|exact Iu'].
        apply (OTH h' fu' l' Nh Hf2 C').
    + split; [rewrite EI; exact Inf|]. exists (Some u), (u :: l).
      split; [exact Hf'|]. split; [exact CH|left; reflexivity].
  - intros h1 h2 o1 o2 i1 i2 x [Q1|(-> & -> & -> & ->)] [Q2|(-> & -> & -> & E2)].
    + eapply U1; eauto.
    + subst x. exfalso. eapply Fl; eauto.
    + exfalso. eapply Fl; eauto.
    + reflexivity.
Qed.

Lemma link_add : forall {R} (t : PM.t R) (g : R -> option positive) p y x,
  link (PM.add p y t) g x = if Pos.eqb x p then Some (g y) else link t g x.
Proof. intros. unfold link. rewrite find_add. destruct (Pos.eqb x p); reflexivity. Qed.

Lemma set_first_use_eff : forall h fu s s' r, set_first_use h fu s = (s', Ok r) ->
  hfirst s' h = Some fu /\ (forall h', h' <> h -> hfirst s' h' = hfirst s h') /\
  s_uses s' = s_uses s /\ s_ops s' = s_ops s.
Proof.
  intros h fu s s' r H. destruct h as [v|b]; simpl in H.
  - apply updV_ok in H as (x & _ & ->). simpl. repeat split.
    + rewrite link_add, Pos.eqb_refl. reflexivity.
    + intros [v'|b'] N; simpl; [|reflexivity]. rewrite link_add.
      destruct (Pos.eqb_spec v' v); [subst; contradiction|reflexivity].
  - apply updB_ok in H as (x & _ & ->). simpl. repeat split.
    + rewrite link_add, Pos.eqb_refl. reflexivity.
    + intros [v'|b'] N; simpl; [reflexivity|]. rewrite link_add.
      destruct (Pos.eqb_spec b' b); [subst; contradiction|reflexivity].
Qed.

Lemma get_first_use_eff : forall h s s' fu, get_first_use h s = (s', Ok fu) -> s' = s /\ hfirst s h = Some fu.
Proof.
  intros h s s' fu H. destruct h as [v|b]; simpl in H;
    apply bind_ok in H as (s0 & x & Hg & H); apply ret_ok in H as [-> ->].
  - apply getV_ok in Hg as [-> F]. split; [reflexivity|]. simpl. unfold link. rewrite F. reflexivity.
  - apply getB_ok in Hg as [-> F]. split; [reflexivity|]. simpl. unfold link. rewrite F. reflexivity.
Qed.

Lemma hfirst_with_uses : forall t s h, hfirst (with_uses t s) h = hfirst s h.
Proof. intros t s [v|b]; reflexivity. Qed.

(* `updU k f` for an optional key, on the table *)
Definition oset (k : option uid) (f : use_rec -> use_rec) (t : PM.t use_rec) : PM.t use_rec :=
  match k with
  | Some k => match PM.find k t with Some r => PM.add k (f r) t | None => t end
  | None => t
  end.

Lemma opt_updU_ok : forall k f s s' r,
  match k with Some k => updU k f | None => ret tt end s = (s', Ok r) -> s' = with_uses (oset k f (s_uses s)) s.
Proof.
  intros [k|] f s s' r H; simpl.
  - apply updU_ok in H as (x & F & ->). rewrite F. reflexivity.
  - apply ret_ok in H as [-> _]. destruct s; reflexivity.
Qed.

Lemma omap_oset : forall {P} (p : use_rec -> P) k f t (x : positive),
  option_map p (PM.find x (oset k f t)) =
  if opt_eqb (Some x) k then option_map (fun r => p (f r)) (PM.find x t) else option_map p (PM.find x t).
Proof.
  intros P p [k|] f t x; simpl; [|reflexivity]. destruct (PM.find k t) as [r|] eqn:F.
  - rewrite find_add. destruct (Pos.eqb_spec x k) as [->|]; [rewrite F|]; reflexivity.
  - destruct (Pos.eqb_spec x k) as [->|]; [rewrite F|]; reflexivity.
Qed.
Lemma omap_oset_same : forall {P} (p : use_rec -> P) k f t (x : positive), (forall r, p (f r) = p r) ->
  option_map p (PM.find x (oset k f t)) = option_map p (PM.find x t).
Proof.
  intros P p k f t x E. rewrite omap_oset. destruct (opt_eqb (Some x) k); [|reflexivity].
  destruct (PM.find x t); simpl; [rewrite E|]; reflexivity.
Qed.
Lemma omap_oset_const : forall {P} (p : use_rec -> P) k f t (x : positive) v, (forall r, p (f r) = v) ->
  option_map p (PM.find x (oset k f t)) =
  if opt_eqb (Some x) k then option_map (fun _ => v) (PM.find x t) else option_map p (PM.find x t).
Proof.
  intros P p k f t x v E. rewrite omap_oset. destruct (opt_eqb (Some x) k); [|reflexivity].
  destruct (PM.find x t); simpl; [rewrite E|]; reflexivity.
Qed.

Lemma chain_In : forall nxt st l x, chain nxt st l -> In x l -> exists n, nxt x = Some n.
Proof. intros nxt st l x C. induction C; intros I; [destruct I|destruct I as [<-|I]; eauto]. Qed.

Lemma last_or_None : forall (l : list uid), last_or None l = None -> l = [].
Proof.
  intros [|y t]; [reflexivity|]. simpl. intro H. exfalso. revert y H.
  induction t; simpl; intros; [discriminate|eauto].
Qed.

Lemma remove_use_Uabs : forall s s' S h o i u r,
  Uabs s S -> S h o i u -> remove_use h u s = (s', Ok r) ->
  Uabs s' (minus_use S u) /\ s_ops s' = s_ops s /\ (forall x, use_info s' x = use_info s x).
Proof.
  intros s s' S h o i u r UA Su H.
  destruct (ua_slot _ _ UA _ _ _ _ Su) as [Inf (fu & l & Hf & C & Iu)].
  destruct (in_split _ _ Iu) as (l1 & l2 & ->).
  destruct (ua_chain _ _ UA h fu Hf) as (l0 & C0 & _ & P & _).
  assert (l0 = l1 ++ u :: l2) by (eapply chain_fun; eauto). subst l0. clear C0.
  destruct (chain_split _ _ _ _ _ C) as (_ & nn & Nu & C2). rewrite (chain_head _ _ _ C2) in Nu.
  apply prevs_ok_v in P. apply prevs_v_app in P. destruct P as [_ [Pu _]].
  (* the neighbours p (before u) and n (after u), when there are any, are in the table *)
  assert (X : forall x, last_or None l1 = Some x \/ hd_error l2 = Some x -> PM.find x (s_uses s) <> None).
  { intros x E. destruct (chain_In _ _ _ x C) as (n' & Q).
    - apply in_or_app. destruct E as [E|E].
      + left. destruct (last_or_In _ _ _ E); [discriminate|assumption].
      + right. right. destruct l2; [discriminate|injection E as <-; left; reflexivity].
    - unfold use_next, link in Q. intro N. rewrite N in Q. discriminate. }
  unfold remove_use in H.
  apply bind_ok in H as (s0 & a & Hg & H). apply getU_ok in Hg as [-> Hget].
  unfold use_prev, use_next, link in Pu, Nu. rewrite Hget in Pu, Nu. injection Pu as Ep. injection Nu as En.
  cbv zeta in H. rewrite Ep, En in H.
  apply bind_ok in H as (s1 & r1 & Hp & H). apply opt_updU_ok in Hp. subst s1.
  apply bind_ok in H as (s2 & r2 & Hn & Hfst). apply opt_updU_ok in Hn. simpl in Hn.
  (* first_use of the holder moves on when u was the first use *)
  assert (F' : hfirst s' h = Some (match l1 with [] => hd_error l2 | _ => fu end) /\
               (forall h', h' <> h -> hfirst s' h' = hfirst s h') /\ s_uses s' = s_uses s2 /\ s_ops s' = s_ops s).
  { assert (H2 : forall h', hfirst s2 h' = hfirst s h') by (intro h'; subst s2; rewrite !hfirst_with_uses; reflexivity).
    assert (O2 : s_ops s2 = s_ops s) by (subst s2; reflexivity).
    destruct (last_or None l1) as [p|] eqn:Lp.
    - apply ret_ok in Hfst as [-> _]. destruct l1; [discriminate|]. rewrite H2. auto.
    - apply set_first_use_eff in Hfst as (F1 & F2 & F3 & F4). rewrite (last_or_None _ Lp).
      split; [exact F1|]. split; [intros h' N; rewrite (F2 h' N); apply H2|]. split; [exact F3|congruence]. }
  destruct F' as (F1 & F2 & F3 & F4).
  (* the links of s': p points forward to n, n points back to p, nothing else has changed *)
  assert (N2 : forall x, use_next s' x =
            if opt_eqb (Some x) (last_or None l1) then option_map (fun _ => hd_error l2) (PM.find x (s_uses s))
            else use_next s x).
  { intro x. unfold use_next, link. rewrite F3. subst s2. cbn [s_uses with_uses].
    rewrite omap_oset_same by reflexivity. apply omap_oset_const. reflexivity. }
  assert (P2 : forall x, use_prev s' x =
            if opt_eqb (Some x) (hd_error l2) then option_map (fun _ => last_or None l1) (PM.find x (s_uses s))
            else use_prev s x).
  { intro x. unfold use_prev, link. rewrite F3. subst s2. cbn [s_uses with_uses].
    rewrite (omap_oset_const u_prev _ _ _ _ (last_or None l1)) by reflexivity.
    rewrite !omap_oset_same by reflexivity. reflexivity. }
  assert (I2 : forall x, use_info s' x = use_info s x).
  { intro x. unfold use_info. rewrite F3. subst s2. cbn [s_uses with_uses].
    rewrite !omap_oset_same by reflexivity. reflexivity. }
  split; [|split; [exact F4|exact I2]].
  eapply (Uabs_remove s s' S h o i u fu l1 l2 UA Su Hf C).
  - exact I2.
  - intros x N. rewrite N2.
    destruct (opt_eqb _ _) eqn:Q; [apply opt_eqb_eq in Q; destruct (N (eq_sym Q))|reflexivity].
  - intros p E. rewrite N2, E. simpl. rewrite Pos.eqb_refl.
    destruct (PM.find p (s_uses s)) eqn:F; [reflexivity|destruct (X p (or_introl E) F)].
  - intros x N. rewrite P2.
    destruct (opt_eqb _ _) eqn:Q; [apply opt_eqb_eq in Q; destruct (N (eq_sym Q))|reflexivity].
  - intros n E. rewrite P2, E. simpl. rewrite Pos.eqb_refl.
    destruct (PM.find n (s_uses s)) eqn:F; [reflexivity|destruct (X n (or_intror E) F)].
  - exact F1.
  - exact F2.
Qed.

Lemma add_use_Uabs : forall s s' S h o i u r,
  Uabs s S -> (forall h' o' i', ~ S h' o' i' u) -> use_info s u = Some (o, i) ->
  add_use h u s = (s', Ok r) ->
  Uabs s' (plus_use S h o i u) /\ s_ops s' = s_ops s /\ (forall x, use_info s' x = use_info s x).
Proof.
  intros s s' S h o i u r UA Fl Inf H.
  unfold add_use in H.
  apply bind_ok in H as (s0 & fu & Hg & H). apply get_first_use_eff in Hg as [-> Hf].
  apply bind_ok in H as (s1 & r1 & H1 & H). apply (opt_updU_ok (Some u)) in H1. subst s1.
  apply bind_ok in H as (s2 & r2 & H2 & H). apply (opt_updU_ok (Some u)) in H2. subst s2.
  apply bind_ok in H as (s3 & r3 & H3 & Hfst). apply opt_updU_ok in H3. cbn [s_uses with_uses] in H3.
  apply set_first_use_eff in Hfst as (G1 & G2 & G3 & G4).
  destruct (ua_chain _ _ UA h fu Hf) as (l & C & _ & _ & M).
  pose proof (chain_head _ _ _ C) as Hhd.
  assert (Nul : ~ In u l).
  { intro I2. destruct (M u I2) as (o' & i' & Q). eapply Fl; eauto. }
  (* u and the old first use f (when there is one) are in the table, and f is not u *)
  assert (Xu : PM.find u (s_uses s) <> None).
  { destruct (use_info_some _ _ _ _ Inf) as (ur & Fu & _). congruence. }
  assert (Xf : forall f, fu = Some f -> PM.find f (s_uses s) <> None /\ f <> u).
  { intros f E. rewrite E in Hhd. destruct l as [|f' l']; [discriminate|]. injection Hhd as <-. split.
    - destruct (chain_In _ _ _ f C (or_introl eq_refl)) as (n' & Q). unfold use_next, link in Q.
      intro N. rewrite N in Q. discriminate.
    - intro Q. apply Nul. left. exact Q. }
  (* the links of s': u points forward to the old first use and back to nothing, the old first use back to u *)
  assert (N3 : forall x, use_next s' x =
            if opt_eqb (Some x) (Some u) then option_map (fun _ => fu) (PM.find x (s_uses s)) else use_next s x).
  { intro x. unfold use_next, link. rewrite G3. subst s3. cbn [s_uses with_uses].
    rewrite !omap_oset_same by reflexivity. apply omap_oset_const. reflexivity. }
  assert (P3 : forall x, use_prev s' x =
            if opt_eqb (Some x) fu then option_map (fun _ => Some u) (PM.find x (s_uses s))
            else if opt_eqb (Some x) (Some u) then option_map (fun _ => None) (PM.find x (s_uses s))
            else use_prev s x).
  { intro x. unfold use_prev, link. rewrite G3. subst s3. cbn [s_uses with_uses].
    rewrite (omap_oset_const u_prev _ _ _ _ (Some u)) by reflexivity.
    rewrite (omap_oset_const u_prev _ _ _ _ None) by reflexivity.
    rewrite !omap_oset_same by reflexivity. reflexivity. }
  assert (I3 : forall x, use_info s' x = use_info s x).
  { intro x. unfold use_info. rewrite G3. subst s3. cbn [s_uses with_uses].
    rewrite !omap_oset_same by reflexivity. reflexivity. }
  assert (O3 : s_ops s' = s_ops s) by (rewrite G4; subst s3; reflexivity).
  assert (F3 : forall h', hfirst s3 h' = hfirst s h') by (intro h'; subst s3; rewrite !hfirst_with_uses; reflexivity).
  clear H3.
  split; [|split; [exact O3|exact I3]].
  eapply (Uabs_add s s' S h o i u fu l UA Fl Inf Hf C).
  - exact I3.
  - intros x N. rewrite N3.
    destruct (opt_eqb _ _) eqn:Q; [apply opt_eqb_eq in Q; injection Q as Q; contradiction|reflexivity].
  - rewrite N3. simpl. rewrite Pos.eqb_refl.
    destruct (PM.find u (s_uses s)); [reflexivity|destruct (Xu eq_refl)].
  - intros x N Nh. rewrite P3.
    destruct (opt_eqb _ fu) eqn:Q1; [apply opt_eqb_eq in Q1; rewrite Hhd in Q1; destruct (Nh (eq_sym Q1))|].
    destruct (opt_eqb _ (Some u)) eqn:Q; [apply opt_eqb_eq in Q; injection Q as Q; contradiction|reflexivity].
  - rewrite P3.
    destruct (opt_eqb _ fu) eqn:Q1; [apply opt_eqb_eq in Q1; destruct (Xf u (eq_sym Q1)) as [_ N]; destruct (N eq_refl)|].
    simpl. rewrite Pos.eqb_refl. destruct (PM.find u (s_uses s)); [reflexivity|destruct (Xu eq_refl)].
  - intros f E. rewrite <- Hhd in E. rewrite P3, E.
    simpl. rewrite Pos.eqb_refl. destruct (PM.find f (s_uses s)) eqn:F; [reflexivity|destruct (Xf f E) as [N _]; destruct (N F)].
  - rewrite G1. reflexivity.
  - intros h' Nh. rewrite (G2 h' Nh). apply F3.
Qed.

(* the use clauses transfer along same_U *)
Lemma UWF_same : forall s s', UWF s -> same_U s s' -> UWF s'.
Proof.
  intros s s' UW SU. destruct (UWF_Uabs s UW) as [UA LN]. destruct SU as (Ao & Av & Ab & Au).
  apply Uabs_UWF.
  - eapply Uabs_ext; [| | |exact UA].
    + intro u. specialize (Au u). destruct (PM.find u (s_uses s')), (PM.find u (s_uses s)); simpl in Au; congruence.
    + intros [v|b]; simpl; unfold link.
      * specialize (Av v). unfold pU_val in Av.
        destruct (PM.find v (s_values s')), (PM.find v (s_values s)); simpl in *; congruence.
      * specialize (Ab b). unfold pU_blk in Ab.
        destruct (PM.find b (s_blocks s')), (PM.find b (s_blocks s)); simpl in *; congruence.
    + intros h o i u. unfold real_slot. split.
      * intros (x' & F' & E' & Z1 & Z2). destruct (agree_find _ _ _ _ _ Ao F') as (x & F & P).
        unfold pU_op in P. injection P as P1 P2 P3 P4 P5. exists x. split; [exact F|]. split; [congruence|].
        destruct h; simpl in *; rewrite <- ?P1, <- ?P2, <- ?P3, <- ?P4; auto.
      * intros (x & F & E & Z1 & Z2). destruct (agree_find_rev _ _ _ _ _ Ao F) as (x' & F' & P).
        unfold pU_op in P. injection P as P1 P2 P3 P4 P5. exists x'. split; [exact F'|]. split; [congruence|].
        destruct h; simpl in *; rewrite ?P1, ?P2, ?P3, ?P4; auto.
  - intros o x' F' E'. destruct (agree_find _ _ _ _ _ Ao F') as (x & F & P).
    unfold pU_op in P. injection P as P1 P2 P3 P4 P5. rewrite P5 in E'.
    destruct (LN o x F E') as [L1 L2]. rewrite P1, P2, P3, P4. auto.
Qed.
