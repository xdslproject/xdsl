(* Props/C29.v -- property C29: symbol lookup returns the operation the nesting rules designate.
   ONLY theorem statements closed by `exact` (+ Examples by vm_compute).
   Spec (top of C29/Proofs.v): `nearest_table t p q` -- q is the longest prefix of the start op's
   path p that is a symbol table (the op itself counts); `first_child_named o n i` -- child i of o
   is the first child carrying symbol name n; `resolve_nested` -- every further component is looked
   up inside the previous result, which must be a symbol table, and a private result is refused;
   `resolve_from t p sym r` -- the reference sym, looked up from the op at p, designates the op at r.
   Ops are identified by their path from the root of the tree t (C29/Model.v). *)
From Coq Require Import List Arith.
From XV Require Import C29.Model C29.Proofs C29.ProofsCached C29.ProofsTraits.
Import ListNotations.

(* xdsl.utils.symbol_table: direct lookups = Spec; all trees, all references, all start ops *)
Theorem C29_nearest_table : forall t p o q, get t p = Some o ->
  (get_nearest_symbol_table t p = Some q <-> nearest_table t p q).
Proof. exact get_nearest_spec. Qed.
Print Assumptions C29_nearest_table.

(* lookup_nearest_symbol_from never raises and returns exactly the designated op, or None if none *)
Theorem C29_lookup_spec : forall t p o sym, get t p = Some o ->
  exists x, lookup_nearest_symbol_from t p sym = Val x /\
            forall r, x = Some r <-> resolve_from t p sym r.
Proof. exact lookup_nearest_spec. Qed.
Print Assumptions C29_lookup_spec.

(* lookup_symbol_in: AssertionError on an op that is not a symbol table, else the designated op *)
Theorem C29_lookup_in_spec : forall t q o sym, get t q = Some o ->
  (is_symbol_table o = false -> lookup_symbol_in t q sym = Raise AssertionError) /\
  (is_symbol_table o = true -> exists x, lookup_symbol_in t q sym = Val x /\
      forall r, x = Some r <-> resolve_in t q (sym_root sym) (sym_nested sym) r).
Proof. exact lookup_symbol_in_spec. Qed.
Print Assumptions C29_lookup_in_spec.

(* all_symbols=True: None exactly when the plain lookup is None; otherwise one op per component,
   the k-th being the resolution of the first k nested components, the last being the plain result *)
Theorem C29_lookup_all_symbols : forall t q o sym, get t q = Some o -> is_symbol_table o = true ->
  exists x, lookup_symbol_in_all t q sym = Val x /\
    (x = None <-> lookup_symbol_in t q sym = Val None) /\
    (forall l, x = Some l ->
       length l = S (length (sym_nested sym)) /\
       (exists r, lookup_symbol_in t q sym = Val (Some r) /\ last l [] = r) /\
       forall k r, nth_error l k = Some r ->
                   resolve_in t q (sym_root sym) (firstn k (sym_nested sym)) r).
Proof. exact lookup_symbol_in_all_spec. Qed.
Print Assumptions C29_lookup_all_symbols.

(* the Spec designates at most one op; with unique names per table "first child named n" is
   "the child named n" *)
Theorem C29_spec_functional : forall t p sym r r',
  resolve_from t p sym r -> resolve_from t p sym r' -> r = r'.
Proof. exact resolve_from_fun. Qed.
Print Assumptions C29_spec_functional.

Theorem C29_unique_first_is_only : forall o n i, NoDup (sym_names (children o)) ->
  (first_child_named o n i <-> exists c, nth_error (children o) i = Some c /\ named c n).
Proof. exact first_child_named_unique. Qed.
Print Assumptions C29_unique_first_is_only.

(* cached SymbolTable / SymbolTableCollection *)
(* one table with unique names: SymbolTable(op).lookup(n) = the direct scan *)
Theorem C29_cached_table_agrees : forall t q o n, get t q = Some o -> is_symbol_table o = true ->
  NoDup (sym_names (children o)) ->
  exists d, symtab_init t q = Val d /\ symtab_lookup q d n = lookup_direct t q n.
Proof. exact cached_table_agrees. Qed.
Print Assumptions C29_cached_table_agrees.

(* every module with unique names per table (every verified module), every state of the cache
   reachable by lookups (coll_ok; the empty collection is coll_ok): the collection's lookups return
   what the direct lookups return -- including the AssertionError on a non-table -- and leave a
   valid cache, hence so does every sequence of lookups through one collection *)
Theorem C29_cached_agrees : forall t c q sym, unique_names t -> coll_ok t c ->
  exists c', coll_ok t c' /\ coll_lookup_symbol_in t c q sym = (c', lookup_symbol_in t q sym).
Proof. exact coll_lookup_symbol_in_agrees. Qed.
Print Assumptions C29_cached_agrees.

Theorem C29_cached_all_agrees : forall t c q sym, unique_names t -> coll_ok t c ->
  exists c', coll_ok t c' /\ coll_lookup_symbol_in_all t c q sym = (c', lookup_symbol_in_all t q sym).
Proof. exact coll_lookup_symbol_in_all_agrees. Qed.
Print Assumptions C29_cached_all_agrees.

Theorem C29_cached_nearest_agrees : forall t c p sym, unique_names t -> coll_ok t c ->
  exists c', coll_ok t c' /\
    coll_lookup_nearest_symbol_from t c p sym = (c', lookup_nearest_symbol_from t p sym).
Proof. exact coll_lookup_nearest_agrees. Qed.
Print Assumptions C29_cached_nearest_agrees.

Theorem C29_cached_empty_ok : forall t, coll_ok t [].
Proof. exact coll_ok_nil. Qed.
Print Assumptions C29_cached_empty_ok.

(* without the uniqueness hypothesis: the cached table returns the LAST op with the name (all
   trees), so on a table with a duplicated name (not a verified module) it differs from the direct
   lookup, which returns the first *)
Theorem C29_cached_table_last : forall t q o n, get t q = Some o -> is_symbol_table o = true ->
  exists d, symtab_init t q = Val d /\
    forall r, symtab_lookup q d n = Some r <-> exists i, last_child_named o n i /\ r = q ++ [i].
Proof. exact cached_table_last. Qed.
Print Assumptions C29_cached_table_last.

Theorem C29_cached_duplicates_refuted :
  exists t q sym, snd (coll_lookup_symbol_in t [] q sym) <> lookup_symbol_in t q sym.
Proof. exact coll_duplicates_differ. Qed.
Print Assumptions C29_cached_duplicates_refuted.

(* traits.SymbolTable.lookup_symbol (unchanged tree): refuted, with the strongest partial results *)
(* module { @0 (not a table); @1 }: @0::@1 climbs back to the module and returns the top-level @1 *)
Theorem C29_traits_agrees_refuted : exists t p o0 sym r,
  get t p = Some o0 /\ traits_lookup_symbol t p sym = Val (Some r) /\ ~ resolve_from t p sym r.
Proof. exact traits_refuted_nontable. Qed.
Print Assumptions C29_traits_agrees_refuted.

(* module { module @0 { private @1 } }: @0::@1 returns the private symbol *)
Theorem C29_traits_private_refuted : exists t p o0 sym r,
  get t p = Some o0 /\ traits_lookup_symbol t p sym = Val (Some r) /\ ~ resolve_from t p sym r /\
  is_private_at t r = true.
Proof. exact traits_refuted_private. Qed.
Print Assumptions C29_traits_private_refuted.

(* it never misses: whenever the rules designate an op, that op is returned (all trees) *)
Theorem C29_traits_complete : forall t p o0 sym r, get t p = Some o0 ->
  resolve_from t p sym r -> traits_lookup_symbol t p sym = Val (Some r).
Proof. exact traits_complete. Qed.
Print Assumptions C29_traits_complete.

(* extra hypothesis traits_guard: every nested component is looked up inside a symbol table and
   names a non-private symbol.  Then: ValueError iff there is no enclosing symbol table, else Spec *)
Theorem C29_traits_agrees_partial : forall t p o0 sym, get t p = Some o0 -> traits_guard t p sym ->
  ((forall q, ~ nearest_table t p q) /\ traits_lookup_symbol t p sym = Raise ValueError) \/
  ((exists q, nearest_table t p q) /\
   exists x, traits_lookup_symbol t p sym = Val x /\ forall r, x = Some r <-> resolve_from t p sym r).
Proof. exact traits_partial. Qed.
Print Assumptions C29_traits_agrees_partial.

(* flat references (str / StringAttr / SymbolRefAttr without nested part): no hypothesis needed *)
Theorem C29_traits_flat : forall t p o0 sym, get t p = Some o0 -> sym_nested sym = [] ->
  ((forall q, ~ nearest_table t p q) /\ traits_lookup_symbol t p sym = Raise ValueError) \/
  ((exists q, nearest_table t p q) /\
   exists x, traits_lookup_symbol t p sym = Val x /\ forall r, x = Some r <-> resolve_from t p sym r).
Proof. exact traits_flat. Qed.
Print Assumptions C29_traits_flat.

(* the hypothesis is satisfiable by a three-component reference that resolves through two tables *)
Theorem C29_traits_guard_satisfiable :
  traits_guard wit_ok [] (SRef 0 [1; 2]) /\
  traits_lookup_symbol wit_ok [] (SRef 0 [1; 2]) = Val (Some [0; 0; 0]) /\
  lookup_nearest_symbol_from wit_ok [] (SRef 0 [1; 2]) = Val (Some [0; 0; 0]).
Proof. exact guard_satisfiable. Qed.
Print Assumptions C29_traits_guard_satisfiable.

(* the repair build/proposed_fixes/C29-1.diff (model: traits_lookup_symbol_fixed)
   satisfies the full statement: all trees, all references, all start ops *)
Theorem C29_traits_fixed_agrees : forall t p o0 sym, get t p = Some o0 ->
  ((forall q, ~ nearest_table t p q) /\ traits_lookup_symbol_fixed t p sym = Raise ValueError) \/
  ((exists q, nearest_table t p q) /\
   exists x, traits_lookup_symbol_fixed t p sym = Val x /\
             forall r, x = Some r <-> resolve_from t p sym r).
Proof. exact traits_fixed_agrees. Qed.
Print Assumptions C29_traits_fixed_agrees.

(* non-vacuity / witnesses evaluated by the kernel *)
Example C29_nonvacuous :
  (* module { module @0 { private @1 ; nested @2 ; op { <start> } } ; func @1 } *)
  let t := Op None Public true
             [Op (Some 0) Public true
                 [Op (Some 1) Private false []; Op (Some 2) Nested false [];
                  Op None Public false [Op None Public false []]];
              Op (Some 1) Public false []] in
  get_nearest_symbol_table t [0; 2; 0] = Some [0] /\
  lookup_nearest_symbol_from t [0; 2; 0] (SFlat 1) = Val (Some [0; 0]) /\   (* private is visible locally *)
  lookup_nearest_symbol_from t [] (SFlat 1) = Val (Some [1]) /\
  lookup_nearest_symbol_from t [] (SRef 0 [2]) = Val (Some [0; 1]) /\
  lookup_nearest_symbol_from t [] (SRef 0 [1]) = Val None /\               (* private through nesting *)
  lookup_nearest_symbol_from t [] (SRef 1 [1]) = Val None /\               (* @1 is not a table *)
  lookup_symbol_in t [1] (SFlat 1) = Raise AssertionError /\
  traits_lookup_symbol t [] (SRef 0 [1]) = Val (Some [0; 0]) /\            (* defect: private returned *)
  traits_lookup_symbol t [] (SRef 1 [1]) = Val (Some [1]) /\               (* defect: climbs back *)
  traits_lookup_symbol_fixed t [] (SRef 0 [1]) = Val None /\
  traits_lookup_symbol_fixed t [] (SRef 1 [1]) = Val None.
Proof. vm_compute. repeat split; reflexivity. Qed.
