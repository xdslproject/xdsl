(* C13/ProofsGreedy.v -- the trivially-dead removal of the greedy driver (model: greedy_dce, rounds of
   gd_region): every round removes only operations that are trivially dead (or nested in one), the
   iteration terminates within its fuel, and the result contains no trivially dead operation. *)
From Coq Require Import List Arith Bool Lia.
From XV Require Import C24.Model C13.Model C13.Proofs.
Import ListNotations.

Lemma gd_op_eq all o : gd_op all o = set_regs o (map (gd_region all) (o_regs o)).
Proof. destruct o; reflexivity. Qed.

Lemma gd_block_ops all b :
  b_ops (gd_block all b) =
  flat_map (fun x => if negb (is_trivially_dead all x) then [gd_op all x] else []) (b_ops b).
Proof.
  unfold gd_block. simpl. apply flat_map_ext. intros x. destruct (is_trivially_dead all x); reflexivity.
Qed.

(* one round removes only trivially dead operations and what is nested in them *)
Lemma gd_region_survive_aux all rg :
  (forall b x, In b rg -> In x (b_ops b) -> forall y, In y (walk_op x) ->
     (exists p, In p (flat_map walk_region (o_regs x)) /\ is_trivially_dead all p = true /\ In y (walk_op p))
     \/ In (o_id y) (ids (walk_op (gd_op all x)))) ->
  forall y, In y (walk_region rg) ->
    (exists p, In p (walk_region rg) /\ is_trivially_dead all p = true /\ In y (walk_op p))
    \/ In (o_id y) (ids (walk_region (gd_region all rg))).
Proof.
  intros Hop y Hy. apply in_walk_region in Hy. destruct Hy as (b & x & Hb & Hx & Hy).
  destruct (is_trivially_dead all x) eqn:Ex.
  - left. exists x. repeat split; auto. exact (walk_region_op rg b x Hb Hx).
  - destruct (Hop b x Hb Hx y Hy) as [(p & Hp & Hd & Hyp)|Hs].
    + left. exists p. repeat split; auto. apply in_flat_map in Hp. destruct Hp as (rg1 & Hrg1 & Hp).
      exact (walk_region_nested rg b x rg1 Hb Hx Hrg1 p Hp).
    + right. unfold walk_region. apply in_ids_flat_map. exists (gd_block all b).
      split; [apply in_map; exact Hb|]. unfold walk_block. apply in_ids_flat_map. exists (gd_op all x).
      split; [|exact Hs]. rewrite gd_block_ops. apply in_flat_map_cond. exists x. rewrite Ex. auto.
Qed.

Lemma gd_op_survive all o : forall y, In y (walk_op o) ->
  (exists p, In p (flat_map walk_region (o_regs o)) /\ is_trivially_dead all p = true /\ In y (walk_op p))
  \/ In (o_id y) (ids (walk_op (gd_op all o))).
Proof.
  induction o as [o IH] using op_ind2. intros y Hy. apply in_walk_op in Hy.
  destruct Hy as [->|(rg & Hrg & Hy)].
  - right. rewrite gd_op_eq, walk_op_eq. apply in_ids_cons. left. reflexivity.
  - destruct (gd_region_survive_aux all rg (fun b x Hb Hx => IH rg b x Hrg Hb Hx) y Hy) as [(p & Hp & Hd & Hyp)|Hs].
    + left. exists p. repeat split; auto. apply in_flat_map. exists rg. auto.
    + right. rewrite gd_op_eq, walk_op_eq. apply in_ids_cons. right. apply in_ids_flat_map.
      exists (gd_region all rg). split; [simpl; apply in_map; exact Hrg | exact Hs].
Qed.

Theorem gd_round_sound all r i :
  In i (ids (walk_region r)) -> ~ In i (ids (walk_region (gd_region all r))) ->
  exists p, In p (walk_region r) /\ is_trivially_dead all p = true /\ In i (ids (walk_op p)).
Proof.
  intros Hi Hn. unfold ids in Hi. apply in_map_iff in Hi. destruct Hi as (y & <- & Hy).
  destruct (gd_region_survive_aux all r (fun b x _ _ => gd_op_survive all x) y Hy) as [(p & Hp & Hd & Hyp)|Hs].
  - exists p. repeat split; auto. apply in_map. exact Hyp.
  - contradiction.
Qed.

(* rounds; the result has no trivially dead operation *)
Inductive grounds : region -> region -> Prop :=
| grounds_done r : (forall o, In o (walk_region r) -> is_trivially_dead (walk_region r) o = false) -> grounds r r
| grounds_step r r' : grounds (gd_region (walk_region r) r) r' -> grounds r r'.

Lemma gd_iter_rounds fuel : forall r r', gd_iter fuel r = Some r' -> grounds r r'.
Proof.
  induction fuel as [|f IH]; intros r r' E; simpl in E; [discriminate|].
  destruct (existsb (is_trivially_dead (walk_region r)) (walk_region r)) eqn:Ex.
  - apply grounds_step. apply IH. exact E.
  - inversion E; subst. apply grounds_done. intros o Ho. exact (existsb_false _ _ Ex o Ho).
Qed.

Lemma grounds_final r r' : grounds r r' ->
  forall o, In o (walk_region r') -> is_trivially_dead (walk_region r') o = false.
Proof. induction 1; auto. Qed.

(* termination: a round with a trivially dead operation removes at least one operation *)
Lemma length_flat_map {A B} (f : A -> list B) l :
  length (flat_map f l) = list_sum (map (fun a => length (f a)) l).
Proof. induction l as [|a l IH]; simpl; auto. rewrite app_length, IH. reflexivity. Qed.

Definition wsz_op (o : op) : nat := length (walk_op o).
Definition wsz_block (b : block) : nat := list_sum (map wsz_op (b_ops b)).
Definition wsz_region (r : region) : nat := list_sum (map wsz_block r).

Lemma wsz_block_len b : length (walk_block b) = wsz_block b.
Proof. unfold walk_block, wsz_block, wsz_op. apply length_flat_map. Qed.
Lemma wsz_region_len r : length (walk_region r) = wsz_region r.
Proof.
  unfold walk_region, wsz_region. rewrite length_flat_map. f_equal. apply map_ext. apply wsz_block_len.
Qed.
Lemma wsz_op_eq o : wsz_op o = S (list_sum (map wsz_region (o_regs o))).
Proof.
  unfold wsz_op. rewrite walk_op_eq. simpl. rewrite length_flat_map. f_equal. f_equal.
  apply map_ext. apply wsz_region_len.
Qed.
Lemma wsz_op_pos o : 0 < wsz_op o.
Proof. rewrite wsz_op_eq. lia. Qed.

Definition gshrinks (all : list op) (o : op) : Prop :=
  wsz_op (gd_op all o) <= wsz_op o /\
  ((exists y, In y (flat_map walk_region (o_regs o)) /\ is_trivially_dead all y = true) ->
   wsz_op (gd_op all o) < wsz_op o).

Lemma gshrinks_block all b : (forall x, In x (b_ops b) -> gshrinks all x) ->
  wsz_block (gd_block all b) <= wsz_block b /\
  ((exists y, In y (walk_block b) /\ is_trivially_dead all y = true) -> wsz_block (gd_block all b) < wsz_block b).
Proof.
  intros Hop. unfold wsz_block. rewrite gd_block_ops.
  assert (Hle : forall x, In x (b_ops b) -> wsz_op (gd_op all x) <= wsz_op x) by (intros x Hx; apply (Hop x Hx)).
  split.
  - apply (sum_cond_le (fun x => negb (is_trivially_dead all x)) (gd_op all) wsz_op). exact Hle.
  - intros (y & Hy & Hd). apply (sum_cond_lt (fun x => negb (is_trivially_dead all x)) (gd_op all) wsz_op); [exact Hle|].
    apply in_walk_block in Hy. destruct Hy as (x & Hx & Hy). exists x. split; auto.
    destruct (is_trivially_dead all x) eqn:Ex.
    + left. split; auto. apply wsz_op_pos.
    + right. apply (Hop x Hx). apply in_walk_op in Hy. destruct Hy as [->|(rg & Hrg & Hy)]; [congruence|].
      exists y. split; auto. apply in_flat_map. exists rg. auto.
Qed.

Lemma gshrinks_region_aux all rg : (forall b x, In b rg -> In x (b_ops b) -> gshrinks all x) ->
  wsz_region (gd_region all rg) <= wsz_region rg /\
  ((exists y, In y (walk_region rg) /\ is_trivially_dead all y = true) ->
   wsz_region (gd_region all rg) < wsz_region rg).
Proof.
  intros Hop. unfold wsz_region, gd_region.
  assert (Hblk : forall b, In b rg -> _) by (intros b Hb; exact (gshrinks_block all b (fun x Hx => Hop b x Hb Hx))).
  assert (Hle : forall b, In b rg -> wsz_block (gd_block all b) <= wsz_block b) by (intros b Hb; apply (Hblk b Hb)).
  split.
  - apply (sum_map_le (gd_block all) wsz_block). exact Hle.
  - intros (y & Hy & Hd). apply (sum_map_lt (gd_block all) wsz_block); [exact Hle|].
    unfold walk_region in Hy. apply in_flat_map in Hy. destruct Hy as (b & Hb & Hy).
    exists b. split; auto. apply (Hblk b Hb). exists y. auto.
Qed.

Lemma gshrinks_all all o : gshrinks all o.
Proof.
  induction o as [o IH] using op_ind2. unfold gshrinks.
  rewrite gd_op_eq, (wsz_op_eq o), wsz_op_eq.
  change (o_regs (set_regs o (map (gd_region all) (o_regs o)))) with (map (gd_region all) (o_regs o)).
  assert (Hreg : forall rg, In rg (o_regs o) -> _)
    by (intros rg Hrg; exact (gshrinks_region_aux all rg (fun b x Hb Hx => IH rg b x Hrg Hb Hx))).
  assert (Hle : forall rg, In rg (o_regs o) -> wsz_region (gd_region all rg) <= wsz_region rg)
    by (intros rg Hrg; apply (Hreg rg Hrg)).
  split.
  - apply le_n_S. apply (sum_map_le (gd_region all) wsz_region). exact Hle.
  - intros (y & Hy & Hd). apply -> Nat.succ_lt_mono. apply (sum_map_lt (gd_region all) wsz_region); [exact Hle|].
    apply in_flat_map in Hy. destruct Hy as (rg & Hrg & Hy). exists rg. split; auto.
    apply (Hreg rg Hrg). exists y. auto.
Qed.

Lemma gd_round_shrinks all r :
  existsb (is_trivially_dead all) (walk_region r) = true ->
  length (walk_region (gd_region all r)) < length (walk_region r).
Proof.
  intros Hex. rewrite !wsz_region_len. apply existsb_exists in Hex. destruct Hex as (y & Hy & Hd).
  apply (gshrinks_region_aux all r (fun b x _ _ => gshrinks_all all x)). exists y. auto.
Qed.

Lemma gd_iter_terminates fuel : forall r, length (walk_region r) < fuel -> exists r', gd_iter fuel r = Some r'.
Proof.
  induction fuel as [|f IH]; intros r Hf; [lia|]. simpl.
  destruct (existsb (is_trivially_dead (walk_region r)) (walk_region r)) eqn:Ex; [|eauto].
  apply IH. pose proof (gd_round_shrinks _ _ Ex). lia.
Qed.

(* C13_greedy_total_complete: terminates; proceeds by rounds each of which removes only trivially dead operations
   (gd_round_sound); the result has no trivially dead operation *)
Theorem greedy_total r :
  exists r', greedy_dce r = Some r' /\ grounds r r' /\
             forall o, In o (walk_region r') -> is_trivially_dead (walk_region r') o = false.
Proof.
  unfold greedy_dce. destruct (gd_iter_terminates (S (length (walk_region r))) r (Nat.lt_succ_diag_r _)) as [r' E].
  exists r'. split; [exact E|]. assert (Hg := gd_iter_rounds _ _ _ E). split; [exact Hg|].
  apply grounds_final with (r := r). exact Hg.
Qed.
