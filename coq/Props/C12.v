(* Props/C12.v -- property C12: worklist, union-find, scoped dictionary follow
   their abstract models.  ONLY theorem statements closed by `exact`
   (+ one Example by vm_compute). *)
From Coq Require Import List Arith ZArith.
From XV Require Import C12.Model C12.ProofsWorklist C12.ProofsScoped C12.ProofsUF.
Import ListNotations.

(* Every history of push/pop/remove/bool calls on the tombstone worklist returns
   exactly what a LIFO stack without duplicates returns, and its live contents are
   that stack. *)
Theorem C12_worklist_refines : forall ops,
  snd (wl_run wl_empty ops) = snd (aw_run [] ops) /\
  absl (stack (fst (wl_run wl_empty ops))) = fst (aw_run [] ops) /\
  NoDup (fst (aw_run [] ops)).
Proof. exact worklist_refines_lifo_set. Qed.
Print Assumptions C12_worklist_refines.

(* pop of the abstract stack returns the most recently pushed item still present *)
Theorem C12_abstract_pop_is_last : forall l x l',
  aw_step l WPop = (l', OItem x) -> l = l' ++ [x].
Proof. exact aw_pop_is_last. Qed.
Print Assumptions C12_abstract_pop_is_last.

(* All lookup forms of a scoped dictionary resolve to the innermost defining scope. *)
Theorem C12_scoped_consistent : forall d k df,
  sd_getitem d k = innermost d k /\
  sd_get d k df = match innermost d k with Some v => v | None => df end /\
  (sd_contains d k = true <-> innermost d k <> None).
Proof. exact scoped_consistent. Qed.
Print Assumptions C12_scoped_consistent.

Theorem C12_scoped_set_get : forall sc ps k v k',
  innermost (sd_setitem (sc :: ps) k v) k' =
  if Nat.eqb k' k then Some v else innermost (sc :: ps) k'.
Proof. exact scoped_set_get. Qed.
Print Assumptions C12_scoped_set_get.

(* several ScopedDict objects alive at once: every lookup form on any scope of a forest
   resolves along that scope's own parent chain to the innermost defining scope *)
Theorem C12_scoped_forest_consistent : forall t s k df,
  sd_getitem (chain_of t s) k = innermost (chain_of t s) k /\
  sd_get (chain_of t s) k df = match innermost (chain_of t s) k with Some v => v | None => df end /\
  (sd_contains (chain_of t s) k = true <-> innermost (chain_of t s) k <> None).
Proof. exact (fun t s => scoped_consistent (chain_of t s)). Qed.
Print Assumptions C12_scoped_forest_consistent.

(* recorded refutation of the pre-fix code (known_findings.json: fixed) *)
Theorem C12_scoped_old_get_refuted :
  exists d k, sd_getitem d k = Some None /\ sd_get_old d k None = Some 5%Z.
Proof. exact scoped_old_get_refuted. Qed.
Print Assumptions C12_scoped_old_get_refuted.

(* Union-find (path compression, union by size, left-biased union), for every
   history from `IntDisjointSet(size=n)`: the fuel of the modelled while-loops is
   never exhausted (the loops terminate), `connected` decides exactly the
   equivalence closure of the unions performed (spec `equiv`/`unions_of` at the top
   of C12/ProofsUF.v), `find` returns a member of the class, left-biased union keeps
   the left representative, and `roots` lists exactly the representatives. *)
Theorem C12_uf_never_out_of_fuel : forall n ops, ~ In UFFuel (snd (uf_run (uf_init n) ops)).
Proof. exact uf_never_out_of_fuel. Qed.
Print Assumptions C12_uf_never_out_of_fuel.

Theorem C12_uf_partition : forall n ops a b,
  let u := fst (uf_run (uf_init n) ops) in
  let '(us, n') := unions_of n ops in
  length (parent u) = n' /\
  (a < n' -> b < n' ->
     (snd (uf_connected u a b) = UOk true <-> equiv n' us a b) /\
     (exists r, snd (uf_find u a) = UOk r /\ equiv n' us a r)).
Proof. exact uf_partition. Qed.
Print Assumptions C12_uf_partition.

Theorem C12_uf_union_left_keeps_left_rep : forall n ops a b r,
  let u := fst (uf_run (uf_init n) ops) in
  a < length (parent u) -> b < length (parent u) ->
  snd (uf_find u a) = UOk r ->
  snd (uf_find (fst (uf_union_left u a b)) a) = UOk r /\
  snd (uf_find (fst (uf_union_left u a b)) b) = UOk r.
Proof. exact uf_union_left_keeps_left_rep. Qed.
Print Assumptions C12_uf_union_left_keeps_left_rep.

Theorem C12_uf_roots_are_representatives : forall n ops r,
  let u := fst (uf_run (uf_init n) ops) in
  In r (uf_roots u) <-> (r < length (parent u) /\ snd (uf_find u r) = UOk r).
Proof. exact uf_roots_are_representatives. Qed.
Print Assumptions C12_uf_roots_are_representatives.

(* non-vacuity: a concrete history with tombstones in the middle of the stack *)
Example C12_nonvacuous :
  snd (wl_run wl_empty [WPush 1; WPush 2; WPush 3; WRemove 2; WPush 1; WPop; WPop; WPop; WBool])
  = [ONone; ONone; ONone; ONone; ONone; OItem 3; OItem 1; OIndexError; OBool false].
Proof. vm_compute. reflexivity. Qed.
