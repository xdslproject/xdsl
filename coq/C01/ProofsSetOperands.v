(* C01/ProofsSetOperands.v -- WF is preserved by the Operation.operands and Operation.successors
   setters (fresh Use objects, removal of every old use, insertion of every new one).  The two
   setters are the two sides of one program, `set_slots sd`; everything is proved for a side. *)
From Coq Require Import ZArith List Bool PArith FMapPositive Lia.
From XV Require Import C01.Model C01.Spec C01.ProofsBase C01.ProofsFrame C01.ProofsUses C01.ProofsOperands.
Import ListNotations.
Local Open Scope Z_scope.

Lemma allocU_T1 : forall x, preserves same_T1 (allocU x).
Proof. intros x s s' r H. unfold allocU in H. injection H as <- _. split; apply agree_refl. Qed.
Lemma allocU_T2 : forall x, preserves same_T2 (allocU x).
Proof. intros x s s' r H. unfold allocU in H. injection H as <- _. split; apply agree_refl. Qed.
Lemma allocU_T3 : forall x, preserves same_T3 (allocU x).
Proof. intros x s s' r H. unfold allocU in H. injection H as <- _. split; apply agree_refl. Qed.
Lemma allocU_I : forall x, preserves same_I (allocU x).
Proof. intros x s s' r H. unfold allocU in H. injection H as <- _. split; [|split]; apply agree_refl. Qed.
#[export] Hint Resolve allocU_T1 allocU_T2 allocU_T3 allocU_I : pres.

Lemma alloc_uses_pres : forall R, frame_rel R -> (forall x, preserves R (allocU x)) ->
  forall o idxs, preserves R (alloc_uses o idxs).
Proof.
  intros R FR HA o idxs. induction idxs as [|i r IH]; simpl.
  - apply (pres_ret _ FR).
  - apply (pres_bind _ FR); [apply HA|intro u]. apply (pres_bind _ FR); [exact IH|intro us]. apply (pres_ret _ FR).
Qed.

Definition relink (sd : bool) (o : oid) (new : list positive) (new_uses : list uid) : M unit :=
  orec <- getO o ;;
  forM (zip (sitems sd orec) (suses sd orec)) (fun p => remove_use (hmk sd (fst p)) (snd p)) ;;;
  forM (zip new new_uses) (fun p => add_use (hmk sd (fst p)) (snd p)) ;;;
  updO o (hset_items sd new) ;;;
  updO o (hset_uses sd new_uses).

(* `set_slots true` is `set_operands`, `set_slots false` is `set_successors` *)
Definition set_slots (sd : bool) (o : oid) (new : list positive) : M unit :=
  new_uses <- alloc_uses o (range_from 0 (length new)) ;; relink sd o new new_uses.

Lemma set_slots_T1 : forall sd o new, preserves same_T1 (set_slots sd o new).
Proof. intros [] o new; unfold set_slots, relink; pres fr_T1; apply alloc_uses_pres; auto with pres. Qed.
Lemma set_slots_T2 : forall sd o new, preserves same_T2 (set_slots sd o new).
Proof. intros [] o new; unfold set_slots, relink; pres fr_T2; apply alloc_uses_pres; auto with pres. Qed.
Lemma set_slots_T3 : forall sd o new, preserves same_T3 (set_slots sd o new).
Proof. intros [] o new; unfold set_slots, relink; pres fr_T3; apply alloc_uses_pres; auto with pres. Qed.
Lemma set_slots_I : forall sd o new, preserves same_I (set_slots sd o new).
Proof. intros [] o new; unfold set_slots, relink; pres fr_I; apply alloc_uses_pres; auto with pres. Qed.
Lemma relink_A : forall sd o new us, preserves same_A (relink sd o new us).
Proof. intros [] o new us; unfold relink; pres fr_A. Qed.

Lemma set_operands_T3 : forall o new, preserves same_T3 (set_operands o new).
Proof. exact (set_slots_T3 true). Qed.
Lemma set_operands_I : forall o new, preserves same_I (set_operands o new).
Proof. exact (set_slots_I true). Qed.

(* what the rest of the proof needs to know about the state after alloc_uses *)
Record alloc_post (s s1 : state) (o : oid) (start : Z) (us : list uid) : Prop := {
  ap_ops : s_ops s1 = s_ops s;
  ap_values : s_values s1 = s_values s;
  ap_blocks : s_blocks s1 = s_blocks s;
  ap_regions : s_regions s1 = s_regions s;
  ap_counters : n_op s1 = n_op s /\ n_block s1 = n_block s /\ n_region s1 = n_region s /\ n_value s1 = n_value s;
  ap_old : forall u x, PM.find u (s_uses s) = Some x -> PM.find u (s_uses s1) = Some x;
  ap_new : forall k u, nth_error us k = Some u ->
             PM.find u (s_uses s) = None /\ PM.find u (s_uses s1) = Some (mkUse o (start + Z.of_nat k) None None);
  ap_nodup : NoDup us;
  ap_below : below (s_uses s1) (n_use s1) }.

Lemma alloc_uses_post : forall o n start s s1 us,
  below (s_uses s) (n_use s) ->
  alloc_uses o (range_from start n) s = (s1, Ok us) ->
  alloc_post s s1 o start us /\ length us = n.
Proof.
  intros o n. induction n as [|n IH]; intros start s s1 us B H; simpl in H.
  - apply ret_ok in H as [-> ->]. split; [|reflexivity].
    constructor; try reflexivity; auto.
    + intros k u N. destruct k; discriminate.
    + constructor.
  - apply bind_ok in H as (s0 & u & Ha & H). unfold allocU in Ha. injection Ha as <- <-.
    apply bind_ok in H as (s2 & us' & Hr & H). apply ret_ok in H as [<- ->].
    set (u := n_use s) in *.
    assert (Fu : PM.find u (s_uses s) = None).
    { destruct (PM.find u (s_uses s)) as [x|] eqn:F; [|reflexivity]. specialize (B _ _ F). unfold u in B. lia. }
    match type of Hr with alloc_uses _ _ ?sx = _ => set (s0 := sx) in * end.
    assert (B0 : below (s_uses s0) (n_use s0)).
    { intros i x F. simpl in F. rewrite find_add in F. simpl. destruct (Pos.eqb_spec i u) as [->|N]; [lia|].
      specialize (B _ _ F). fold u in B. lia. }
    destruct (IH (start + 1) s0 s1 us' B0 Hr) as [AP L]. destruct AP. split; [|simpl; lia].
    constructor; try (etransitivity; [eassumption|reflexivity]).
    + destruct ap_counters0 as (C1 & C2 & C3 & C4). repeat split; assumption.
    + intros v x F. apply ap_old0. simpl. rewrite find_add. destruct (Pos.eqb_spec v u); [subst; congruence|exact F].
    + intros k v N. destruct k as [|k]; simpl in N.
      * injection N as <-. split; [exact Fu|]. replace (start + Z.of_nat 0) with start by lia.
        apply ap_old0. simpl. rewrite find_add_same. reflexivity.
      * destruct (ap_new0 k v N) as [Q1 Q2]. split.
        -- simpl in Q1. rewrite find_add in Q1. destruct (Pos.eqb_spec v u); [discriminate|exact Q1].
        -- rewrite Q2. f_equal. f_equal. lia.
    + constructor; [|exact ap_nodup0]. intro I. destruct (In_nth_error _ _ I) as (k & N).
      destruct (ap_new0 k u N) as [Q _]. simpl in Q. rewrite find_add_same in Q. discriminate.
    + exact ap_below0.
Qed.

(* the use-list invariant is untouched by the allocation (the fresh uses float) *)
Lemma Uabs_alloc_uses : forall s s1 o start us S,
  Uabs s S -> alloc_post s s1 o start us -> Uabs s1 S.
Proof.
  intros s s1 o start us S UA AP. destruct AP. eapply Uabs_mono; [exact ap_old0| |reflexivity|exact UA].
  intros [v|b]; simpl; [rewrite ap_values0|rewrite ap_blocks0]; reflexivity.
Qed.

Definition minus_uses (Sl : slotrel) (us : list uid) : slotrel := fun h o i u => Sl h o i u /\ ~ In u us.

Definition plus_uses (mk : positive -> holder) (Sl : slotrel) (o : oid) (k0 : Z)
           (pairs : list (positive * uid)) : slotrel :=
  fun h o' i u => Sl h o' i u \/
    exists k v, nth_error pairs k = Some (v, u) /\ h = mk v /\ o' = o /\ i = k0 + Z.of_nat k.

Section Loops.
  Variable mk : positive -> holder.

  Lemma remove_loop : forall (pairs : list (positive * uid)) s s' Sl o k0 r,
    Uabs s Sl ->
    (forall k v u, nth_error pairs k = Some (v, u) -> Sl (mk v) o (k0 + Z.of_nat k) u) ->
    forM pairs (fun p => remove_use (mk (fst p)) (snd p)) s = (s', Ok r) ->
    Uabs s' (minus_uses Sl (map snd pairs)) /\ s_ops s' = s_ops s /\ (forall x, use_info s' x = use_info s x).
  Proof.
    induction pairs as [|[v u] rest IH]; intros s s' Sl o k0 r UA INV H; simpl in H.
    - apply ret_ok in H as [-> _]. split; [|auto]. eapply Uabs_iff; [|exact UA].
      intros h o' i q. unfold minus_uses. simpl. tauto.
    - apply bind_ok in H as (s1 & ? & H1 & H2). simpl in H1.
      pose proof (INV 0%nat v u eq_refl) as S0. rewrite Z.add_0_r in S0.
      destruct (remove_use_Uabs _ _ _ _ _ _ _ _ UA S0 H1) as (UA1 & Ops1 & Inf1).
      assert (INV1 : forall k v' u', nth_error rest k = Some (v', u') -> minus_use Sl u (mk v') o (k0 + 1 + Z.of_nat k) u').
      { intros k v' u' N. pose proof (INV (Datatypes.S k) v' u' N) as Q.
        replace (k0 + Z.of_nat (Datatypes.S k)) with (k0 + 1 + Z.of_nat k) in Q by lia.
        split; [exact Q|]. intro E. subst u'.
        (* one use object serves one index *)
        destruct (ua_slot _ _ UA _ _ _ _ Q) as [I1 _]. destruct (ua_slot _ _ UA _ _ _ _ S0) as [I2 _].
        rewrite I1 in I2. injection I2 as E. lia. }
      destruct (IH s1 s' (minus_use Sl u) o (k0 + 1) r UA1 INV1 H2) as (UA' & Ops' & Inf').
      split; [|split; [congruence|intro q; rewrite Inf', Inf1; reflexivity]].
      eapply Uabs_iff; [|exact UA']. intros h o' i q. unfold minus_uses, minus_use. simpl. intuition congruence.
  Qed.

  Lemma add_loop : forall (pairs : list (positive * uid)) s s' Sl o k0 r,
    Uabs s Sl -> NoDup (map snd pairs) ->
    (forall k v u, nth_error pairs k = Some (v, u) ->
       use_info s u = Some (o, k0 + Z.of_nat k) /\ forall h' o' i', ~ Sl h' o' i' u) ->
    forM pairs (fun p => add_use (mk (fst p)) (snd p)) s = (s', Ok r) ->
    Uabs s' (plus_uses mk Sl o k0 pairs) /\ s_ops s' = s_ops s /\ (forall x, use_info s' x = use_info s x).
  Proof.
    induction pairs as [|[v u] rest IH]; intros s s' Sl o k0 r UA ND INV H; simpl in H.
    - apply ret_ok in H as [-> _]. split; [|auto]. eapply Uabs_iff; [|exact UA].
      intros h o' i q. split; [intros [Q|(k & w & N & _)]; [exact Q|destruct k; discriminate]|left; assumption].
    - apply bind_ok in H as (s1 & ? & H1 & H2). simpl in H1. simpl in ND. inversion ND as [|? ? NI ND']; subst.
      destruct (INV 0%nat v u eq_refl) as [Inf Fl]. rewrite Z.add_0_r in Inf.
      destruct (add_use_Uabs _ _ _ _ _ _ _ _ UA Fl Inf H1) as (UA1 & Ops1 & Inf1).
      assert (INV1 : forall k v' u', nth_error rest k = Some (v', u') ->
                use_info s1 u' = Some (o, k0 + 1 + Z.of_nat k) /\ forall h' o' i', ~ plus_use Sl (mk v) o k0 u h' o' i' u').
      { intros k v' u' N. destruct (INV (Datatypes.S k) v' u' N) as [I2 F2]. split.
        - rewrite Inf1, I2. f_equal. f_equal. lia.
        - intros h' o' i' [Q|(_ & _ & _ & E)]; [eapply F2; eauto|]. subst u'. apply NI.
          apply nth_error_In in N. apply (in_map snd) in N. exact N. }
      destruct (IH s1 s' (plus_use Sl (mk v) o k0 u) o (k0 + 1) r UA1 ND' INV1 H2) as (UA' & Ops' & Inf').
      split; [|split; [congruence|intro q; rewrite Inf', Inf1; reflexivity]].
      eapply Uabs_iff; [|exact UA']. intros h o' i q. unfold plus_uses, plus_use. split.
      + intros [Q|(k & v' & N & -> & -> & ->)].
        * left. left. exact Q.
        * destruct k as [|k]; simpl in N.
          -- injection N as <- <-. left. right. repeat split; try reflexivity. lia.
          -- right. exists k, v'. repeat split; try assumption; try reflexivity. lia.
      + intros [[Q|(-> & -> & -> & ->)]|(k & v' & N & -> & -> & ->)].
        * left. exact Q.
        * right. exists 0%nat, v. simpl. repeat split; try reflexivity. lia.
        * right. exists (Datatypes.S k), v'. simpl. repeat split; try assumption; try reflexivity. lia.
  Qed.
End Loops.

Lemma nth_error_zip : forall {A B} (l : list A) (l' : list B) k a b,
  nth_error (zip l l') k = Some (a, b) <-> nth_error l k = Some a /\ nth_error l' k = Some b.
Proof.
  intros A B l. induction l as [|x r IH]; intros l' k a b.
  - simpl. destruct k; split; intro H; try discriminate; destruct H; discriminate.
  - destruct l' as [|y r']; simpl.
    + destruct k; split; intro H; try discriminate; destruct H; discriminate.
    + destruct k as [|k]; simpl.
      * split; [intro H; injection H as <- <-; auto|intros [H1 H2]; congruence].
      * apply IH.
Qed.

Lemma map_snd_zip_incl : forall {A B} (l : list A) (l' : list B) x, In x (map snd (zip l l')) -> In x l'.
Proof.
  intros A B l. induction l as [|a r IH]; intros l' x H; simpl in H; [destruct H|].
  destruct l' as [|b r']; simpl in H; [destruct H|]. destruct H as [<-|H]; [left; reflexivity|right; eapply IH; eauto].
Qed.

Lemma NoDup_map_snd_zip : forall {A B} (l : list A) (l' : list B), NoDup l' -> NoDup (map snd (zip l l')).
Proof.
  intros A B l. induction l as [|a r IH]; intros l' ND; simpl; [constructor|].
  destruct l' as [|b r']; simpl; [constructor|]. inversion ND; subst. constructor; [|apply IH; assumption].
  intro I. apply map_snd_zip_incl in I. contradiction.
Qed.

Lemma map_snd_zip_eq : forall {A B} (l : list A) (l' : list B), length l = length l' -> map snd (zip l l') = l'.
Proof.
  intros A B l. induction l as [|a t IH]; intros [|b t'] L; simpl in *; try discriminate; try reflexivity.
  f_equal. apply IH. lia.
Qed.

Lemma set_slots_slots : forall sd s s' o x0 new us,
  Uabs s (real_slot s) -> PM.find o (s_ops s) = Some x0 -> o_erased x0 = false ->
  length (sitems sd x0) = length (suses sd x0) ->
  (forall o', PM.find o' (s_ops s') =
     if Pos.eqb o' o then Some (hset_uses sd us (hset_items sd new x0)) else PM.find o' (s_ops s)) ->
  forall h o' i u,
    real_slot s' h o' i u <->
    plus_uses (hmk sd) (minus_uses (real_slot s) (suses sd x0)) o 0 (zip new us) h o' i u.
Proof.
  intros sd s s' o x0 new us UA Fx0 Ex0 Len OPS h o' i u.
  (* an old use of this side serves op o and a holder of this side only *)
  assert (OLD : forall h' o1 i1, In u (suses sd x0) -> real_slot s h' o1 i1 u -> o1 = o /\ exists a, h' = hmk sd a).
  { intros h' o1 i1 I R2. destruct (use_slot sd s o x0 u Fx0 Ex0 Len I) as (a & j & R1). split.
    - destruct (ua_slot _ _ UA _ _ _ _ R1) as [I1 _]. destruct (ua_slot _ _ UA _ _ _ _ R2) as [I2 _]. congruence.
    - exists a. eapply (ua_one _ _ UA); eauto. }
  unfold real_slot at 1. rewrite OPS. destruct (Pos.eqb_spec o' o) as [->|No].
  - destruct (holder_side sd h) as (a & [-> | ->]).
    + (* a holder of this side: its slots in o are those of (new, us) *)
      split.
      * intros (x' & F' & E' & Z1 & Z2). injection F' as <-. autorewrite with side in Z1, Z2.
        destruct (znth_some _ _ _ Z1) as (k & -> & N1). rewrite znth_of_nat in Z2.
        right. exists k, a. split; [apply nth_error_zip; auto|auto].
      * intros [[(x' & F' & _ & _ & Z2) NI]|(k & v & N & E & _ & ->)].
        -- exfalso. apply NI. rewrite Fx0 in F'. injection F' as <-. rewrite huses_hmk in Z2. eapply znth_In; eauto.
        -- apply hmk_inj in E. subst v. apply nth_error_zip in N. destruct N as [N1 N2].
           eexists. split; [reflexivity|]. autorewrite with side. rewrite Z.add_0_l, !znth_of_nat. auto.
    + (* a holder of the other side: untouched, and none of its uses is an old use of this side *)
      split.
      * intros (x' & F' & E' & Z1 & Z2). injection F' as <-. autorewrite with side in E', Z1, Z2.
        assert (R : real_slot s (hmk (negb sd) a) o i u) by (exists x0; autorewrite with side; auto).
        left. split; [exact R|]. intro I. destruct (OLD _ _ _ I R) as (_ & b & E). symmetry in E. exact (hmk_negb _ _ _ E).
      * intros [[(x' & F' & E' & Z1 & Z2) _]|(k & v & _ & E & _)]; [|symmetry in E; destruct (hmk_negb _ _ _ E)].
        rewrite Fx0 in F'. injection F' as <-. autorewrite with side in Z1, Z2.
        eexists. split; [reflexivity|]. autorewrite with side. auto.
  - split.
    + intros R. left. split; [exact R|]. intro I. destruct (OLD _ _ _ I R) as [E _]. contradiction.
    + intros [[R _]|(k & v & _ & _ & E & _)]; [exact R|contradiction].
Qed.

Lemma WF_alloc_uses : forall s s1 o start us, WF_alloc s -> alloc_post s s1 o start us -> WF_alloc s1.
Proof.
  intros s s1 o start us (B1 & B2 & B3 & B4 & _) [E1 E2 E3 E4 (C1 & C2 & C3 & C4) _ _ _ B].
  unfold WF_alloc. rewrite E1, E2, E3, E4, C1, C2, C3, C4. auto.
Qed.

Theorem set_slots_WF : forall sd s s' o new r,
  WF s -> op_live s o -> set_slots sd o new s = (s', Ok r) -> WF s'.
Proof.
  intros sd s s' o new r W (x0 & Fx0 & Ex0) H.
  destruct (UWF_Uabs s (WF_UWF s W)) as [UA LN].
  pose proof (lens_side sd s o x0 LN Fx0 Ex0) as Len.
  eapply (WF_groups_alloc s s' W);
    [eapply set_slots_T1|eapply set_slots_T2|eapply set_slots_T3|eapply set_slots_I| |]; try exact H.
  all: apply bind_ok in H as (s1 & new_uses & Hal & H).
  all: destruct (alloc_uses_post o (length new) 0 s s1 new_uses (proj2 (proj2 (proj2 (proj2 (wf_alloc s W))))) Hal) as [AP Lnew].
  - eapply WF_alloc_same; [exact (relink_A _ _ _ _ _ _ _ H)|]. eapply WF_alloc_uses; [apply W|exact AP].
  - pose proof (Uabs_alloc_uses s s1 o 0 new_uses (real_slot s) UA AP) as UA1.
    destruct AP as [ap_ops0 _ _ _ _ _ ap_new0 ap_nodup0 _].
    apply bind_ok in H as (s1' & orec & Hg & H). apply getO_ok in Hg as [-> Fo1].
    rewrite ap_ops0, Fx0 in Fo1. injection Fo1 as <-.
    apply bind_ok in H as (s2 & ? & Hrm & H).
    apply bind_ok in H as (s3 & ? & Had & H).
    apply bind_ok in H as (s4 & ? & Hu1 & Hu2).
    (* removal of the old uses *)
    assert (INVr : forall k v u, nth_error (zip (sitems sd x0) (suses sd x0)) k = Some (v, u) ->
                     real_slot s (hmk sd v) o (0 + Z.of_nat k) u).
    { intros k v u N. apply nth_error_zip in N. destruct N as [N1 N2]. exists x0.
      autorewrite with side. rewrite Z.add_0_l, !znth_of_nat. auto. }
    destruct (remove_loop (hmk sd) _ s1 s2 (real_slot s) o 0 _ UA1 INVr Hrm) as (UA2 & Ops2 & Inf2).
    rewrite (map_snd_zip_eq _ _ Len) in UA2.
    (* insertion of the new uses *)
    assert (INVa : forall k v u, nth_error (zip new new_uses) k = Some (v, u) ->
                     use_info s2 u = Some (o, 0 + Z.of_nat k) /\
                     forall h' o' i', ~ minus_uses (real_slot s) (suses sd x0) h' o' i' u).
    { intros k v u N. apply nth_error_zip in N. destruct N as [N1 N2]. destruct (ap_new0 k u N2) as [Q1 Q2]. split.
      - rewrite Inf2. unfold use_info. rewrite Q2. reflexivity.
      - intros h' o' i' [Q _]. destruct (ua_slot _ _ UA _ _ _ _ Q) as [Inf _].
        destruct (use_info_some _ _ _ _ Inf) as (ur & F & _). congruence. }
    destruct (add_loop (hmk sd) _ s2 s3 _ o 0 _ UA2 (NoDup_map_snd_zip new new_uses ap_nodup0) INVa Had) as (UA3 & Ops3 & Inf3).
    apply updO_ok in Hu1 as (xa & Fa & ->). apply updO_ok in Hu2 as (xb & Fb & ->).
    rewrite Ops3, Ops2, ap_ops0, Fx0 in Fa. injection Fa as <-.
    simpl in Fb. rewrite find_add_same in Fb. injection Fb as <-.
    match goal with |- UWF ?sf => set (s5 := sf) end.
    assert (OPS : forall o', PM.find o' (s_ops s5) =
              if Pos.eqb o' o then Some (hset_uses sd new_uses (hset_items sd new x0)) else PM.find o' (s_ops s)).
    { intro o'. simpl. rewrite !find_add. destruct (Pos.eqb_spec o' o); [reflexivity|]. rewrite Ops3, Ops2, ap_ops0. reflexivity. }
    apply Uabs_UWF.
    + eapply Uabs_ext; [| |exact (set_slots_slots sd s s5 o x0 new new_uses UA Fx0 Ex0 Len OPS)|exact UA3].
      * intro y. reflexivity.
      * intros [v|b]; reflexivity.
    + intros o' x' F' E'. rewrite OPS in F'. destruct (Pos.eqb_spec o' o) as [->|No]; [|apply (LN o' x' F' E')].
      injection F' as <-. destruct (LN o x0 Fx0 Ex0) as [L1 L2]. symmetry in Lnew. destruct sd; split; assumption.
Qed.

Theorem set_operands_WF : forall s s' o new r,
  WF s -> op_live s o -> set_operands o new s = (s', Ok r) -> WF s'.
Proof. exact (set_slots_WF true). Qed.
