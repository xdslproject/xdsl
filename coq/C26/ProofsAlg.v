(* C26/ProofsAlg.v -- value preservation of the smart constructors, of
   replace_dims_and_symbols and of compose.  The specification every theorem is stated
   against is `eval` / `eval_kind` of Model.v (the five arithmetic arms; Python `//`, `%`
   are Z.div, Z.modulo): a result `Ok v`, or the exception evaluation raises. *)
From Coq Require Import ZArith List Bool Arith Lia.
From XV Require Import C26.Model.
Import ListNotations.
Local Open Scope Z_scope.

Lemma bind_ok {A B} (r : res A) (f : A -> res B) b :
  bind r f = Ok b -> exists a, r = Ok a /\ f a = Ok b.
Proof. destruct r as [a|e]; simpl; intros H; [eauto | discriminate]. Qed.

Lemma Ok_inj {A} (a b : A) : Ok a = Ok b -> a = b.
Proof. intros H. inversion H. reflexivity. Qed.

Lemma mapM_Forall2 {A B} (f : A -> res B) l l' :
  mapM f l = Ok l' -> Forall2 (fun x y => f x = Ok y) l l'.
Proof.
  revert l'. induction l as [|x r IH]; simpl; intros l' H.
  - apply Ok_inj in H. subst l'. constructor.
  - apply bind_ok in H. destruct H as [y [Hy H]].
    apply bind_ok in H. destruct H as [ys [Hys H]]. apply Ok_inj in H. subst l'.
    constructor; auto.
Qed.

(* the arm `if c =? n then e else ..` of add_const (n = 0) and of mul_const (n = 1) *)
Lemma neutral_arm (op : Z -> Z -> Z) n (Hn : forall a, op a n = a) c e e' d s :
  eval e' d s = (do a <- eval e d s; Ok (op a c)) ->
  eval (if c =? n then e else e') d s = (do a <- eval e d s; Ok (op a c)).
Proof.
  intros H. destruct (c =? n) eqn:Hc; [|exact H]. apply Z.eqb_eq in Hc. subst c.
  destruct (eval e d s); simpl; [rewrite Hn|]; reflexivity.
Qed.

Lemma add_const_eval e c d s :
  eval (add_const e c) d s = (do a <- eval e d s; Ok (a + c)).
Proof.
  revert c. induction e as [p|p|v|k l IHl r IHr]; intros c; cbn [add_const].
  1-2: apply (neutral_arm Z.add 0 Z.add_0_r); reflexivity.
  - simpl. f_equal. lia.
  - apply (neutral_arm Z.add 0 Z.add_0_r). destruct k; try reflexivity.
    destruct r as [p|p|v|k' l' r']; try reflexivity.
    rewrite IHl. simpl. destruct (eval l d s); simpl; [f_equal; lia | reflexivity].
Qed.

Lemma add_eval a b d s :
  eval (add a b) d s = (do x <- eval a d s; do y <- eval b d s; Ok (x + y)).
Proof.
  destruct a as [p|p|v|k l r].
  3: { unfold add. rewrite add_const_eval. simpl. destruct (eval b d s); simpl; [f_equal; lia | reflexivity]. }
  all: destruct b as [q|q|w|k' l' r']; try reflexivity; unfold add; rewrite add_const_eval; reflexivity.
Qed.

Lemma mul_const_eval e c d s :
  eval (mul_const e c) d s = (do a <- eval e d s; Ok (a * c)).
Proof.
  revert c. induction e as [p|p|v|k l IHl r IHr]; intros c; cbn [mul_const].
  1-2: apply (neutral_arm Z.mul 1 Z.mul_1_r); reflexivity.
  - simpl. f_equal. lia.
  - apply (neutral_arm Z.mul 1 Z.mul_1_r). destruct k; try reflexivity.
    + (* Add: distribute *)
      rewrite add_eval, IHl, IHr. simpl.
      destruct (eval l d s); simpl; [|reflexivity].
      destruct (eval r d s); simpl; [f_equal; lia | reflexivity].
    + destruct r as [p|p|v|k' l' r']; try reflexivity.
      rewrite IHl. simpl. destruct (eval l d s); simpl; [f_equal; lia | reflexivity].
Qed.

Lemma mul_eval a b e d s :
  mul a b = Ok e ->
  eval e d s = (do x <- eval a d s; do y <- eval b d s; Ok (x * y)).
Proof.
  unfold mul. intros H.
  destruct a as [p|p|v|k l r].
  3: { apply Ok_inj in H. subst e. rewrite mul_const_eval. simpl.
       destruct (eval b d s); simpl; [f_equal; lia | reflexivity]. }
  all: destruct b as [q|q|w|k' l' r']; try discriminate;
    apply Ok_inj in H; subst e; rewrite mul_const_eval; reflexivity.
Qed.

Lemma mul_raises_iff a b : (exists e, mul a b = Ok e) <-> (is_const a = true \/ is_const b = true).
Proof.
  unfold mul. split.
  - intros [e H]. destruct a; try (left; reflexivity); destruct b; try (right; reflexivity); discriminate H.
  - intros [H|H].
    + destruct a; try discriminate H. eexists. reflexivity.
    + destruct b; try discriminate H. destruct a; eexists; reflexivity.
Qed.

Lemma fold_kind_is_eval_kind k a b : fold_kind k a b = eval_kind k a b.
Proof. destruct k; reflexivity. Qed.

Lemma divlike_eval k a b e d s :
  divlike k a b = Ok e ->
  eval e d s = (do x <- eval a d s; do y <- eval b d s; eval_kind k x y).
Proof.
  unfold divlike, try_fold_constant. intros H.
  destruct a as [p|p|v|k1 l r]; destruct b as [q|q|w|k2 l2 r2]; simpl in H; try discriminate;
    try (apply Ok_inj in H; subst e; reflexivity).
  rewrite fold_kind_is_eval_kind in H. simpl.
  destruct (eval_kind k v w); simpl in H; inversion H; subst. reflexivity.
Qed.

Lemma divlike_pos_total k a c : c <> 0 -> exists e, divlike k a (Const c) = Ok e.
Proof.
  intros Hc. unfold divlike, try_fold_constant.
  destruct a as [p|p|v|k1 l r]; simpl; eauto.
  assert (Hz : (c =? 0) = false) by (apply Z.eqb_neq; auto).
  destruct k; simpl; rewrite ?Hz; simpl; eauto.
Qed.

Lemma binary_eval k a b e d s :
  binary k a b = Ok e ->
  eval e d s = (do x <- eval a d s; do y <- eval b d s; eval_kind k x y).
Proof.
  destruct k; simpl; intros H.
  - apply Ok_inj in H. subst e. apply add_eval.
  - rewrite (mul_eval _ _ _ d s H). reflexivity.
  - apply (divlike_eval Mod); auto.
  - apply (divlike_eval FloorDiv); auto.
  - apply (divlike_eval CeilDiv); auto.
Qed.

Corollary binary_eval_bin k a b e d s :
  binary k a b = Ok e -> eval e d s = eval (Bin k a b) d s.
Proof. intros H. rewrite (binary_eval _ _ _ _ d s H). reflexivity. Qed.

(* the Bin case of `replace` and of re-parsing a printed expression *)
Lemma binary_rebuild_eval k rl rr e' vl vr d s :
  (do l' <- rl; do r' <- rr; binary k l' r') = Ok e' ->
  (forall l', rl = Ok l' -> eval l' d s = vl) ->
  (forall r', rr = Ok r' -> eval r' d s = vr) ->
  eval e' d s = (do x <- vl; do y <- vr; eval_kind k x y).
Proof.
  intros H Hl Hr. apply bind_ok in H. destruct H as [l' [El H]].
  apply bind_ok in H. destruct H as [r' [Er H]].
  rewrite (binary_eval _ _ _ _ d s H), (Hl _ El), (Hr _ Er). reflexivity.
Qed.

Lemma neg_eval e d s : eval (neg e) d s = (do a <- eval e d s; Ok (- a)).
Proof.
  assert (H : forall e', eval (mul_const e' (-1)) d s = (do a <- eval e' d s; Ok (- a))).
  { intros e'. rewrite mul_const_eval. destruct (eval e' d s); simpl; [f_equal; lia | reflexivity]. }
  destruct e; [apply H | apply H | reflexivity | apply H].
Qed.

Lemma sub_eval a b d s :
  eval (sub a b) d s = (do x <- eval a d s; do y <- eval b d s; Ok (x - y)).
Proof.
  unfold sub. rewrite add_eval, mul_const_eval.
  destruct (eval a d s); simpl; auto. destruct (eval b d s); simpl; auto. f_equal. lia.
Qed.

(* `c - e` as coded returns e - c; the repaired form is correct *)
Lemma rsub_as_coded_eval e c d s :
  eval (rsub_as_coded e c) d s = (do a <- eval e d s; Ok (a - c)).
Proof.
  unfold rsub_as_coded. rewrite sub_eval. simpl. destruct (eval e d s); reflexivity.
Qed.

Lemma rsub_as_coded_refuted :
  exists e c d s v, eval e d s = Ok v /\ eval (rsub_as_coded e c) d s <> Ok (c - v).
Proof.
  exists (Dim 0), 3, [10], [], 10. split; [reflexivity|]. vm_compute. intros H. discriminate H.
Qed.

Lemma rsub_fixed_eval e c d s :
  eval (rsub_fixed e c) d s = (do a <- eval e d s; Ok (c - a)).
Proof.
  unfold rsub_fixed. rewrite add_eval, neg_eval. simpl.
  destruct (eval e d s); simpl; auto. f_equal. lia.
Qed.

(* the assignment seen by the original expression: replaced positions take the values of
   the replacement expressions, positions beyond the replacement list keep theirs *)
Definition subst_env (vals env : list Z) : list Z := vals ++ skipn (length vals) env.

Lemma nth_error_subst_env_hit vals env p v :
  nth_error vals p = Some v -> nth_error (subst_env vals env) p = Some v.
Proof.
  intros H. unfold subst_env. rewrite nth_error_app1; auto.
  apply nth_error_Some. congruence.
Qed.

Lemma nth_error_skipn_add {A} (l : list A) k p : nth_error (skipn k l) p = nth_error l (k + p).
Proof.
  revert l. induction k as [|k IH]; intros l; simpl; auto.
  destruct l; simpl; auto. destruct p; reflexivity.
Qed.

Lemma nth_error_subst_env_miss vals env p :
  (length vals <= p)%nat -> nth_error (subst_env vals env) p = nth_error env p.
Proof.
  intros H. unfold subst_env. rewrite nth_error_app2; auto.
  rewrite nth_error_skipn_add. f_equal. lia.
Qed.

Lemma Forall2_nth_error_l {A B} (R : A -> B -> Prop) l l' p x :
  Forall2 R l l' -> nth_error l p = Some x -> exists y, nth_error l' p = Some y /\ R x y.
Proof.
  intros H. revert p. induction H as [|a b l l' Hab H IH]; intros p Hp.
  - destruct p; discriminate.
  - destruct p; simpl in *.
    + inversion Hp; subst. eauto.
    + eauto.
Qed.

Lemma Forall2_length' {A B} (R : A -> B -> Prop) l l' : Forall2 R l l' -> length l = length l'.
Proof. induction 1; simpl; auto. Qed.

Lemma replace_eval e nd ns e' d s vd vs :
  replace e nd ns = Ok e' ->
  Forall2 (fun x v => eval x d s = Ok v) nd vd ->
  Forall2 (fun x v => eval x d s = Ok v) ns vs ->
  eval e' d s = eval e (subst_env vd d) (subst_env vs s).
Proof.
  intros H Hd Hs. revert e' H.
  induction e as [p|p|v|k l IHl r IHr]; intros e' H; simpl in H.
  - destruct (nth_error nd p) as [x|] eqn:Hp; apply Ok_inj in H; subst e'.
    + destruct (Forall2_nth_error_l _ _ _ _ _ Hd Hp) as [v [Hv Hx]].
      simpl. rewrite (nth_error_subst_env_hit _ _ _ _ Hv). auto.
    + simpl. rewrite nth_error_subst_env_miss; auto.
      apply nth_error_None in Hp. rewrite <- (Forall2_length' _ _ _ Hd). auto.
  - destruct (nth_error ns p) as [x|] eqn:Hp; apply Ok_inj in H; subst e'.
    + destruct (Forall2_nth_error_l _ _ _ _ _ Hs Hp) as [v [Hv Hx]].
      simpl. rewrite (nth_error_subst_env_hit _ _ _ _ Hv). auto.
    + simpl. rewrite nth_error_subst_env_miss; auto.
      apply nth_error_None in Hp. rewrite <- (Forall2_length' _ _ _ Hs). auto.
  - apply Ok_inj in H. subst e'. reflexivity.
  - exact (binary_rebuild_eval _ _ _ _ _ _ d s H IHl IHr).
Qed.

(* AffineExpr.compose(map): dimensions become the map's results, symbols are kept *)
Lemma compose_expr_eval e m e' d s vals :
  compose_expr e m = Ok e' ->
  Forall2 (fun r v => eval r d s = Ok v) (results m) vals ->
  eval e' d s = eval e (subst_env vals d) s.
Proof.
  unfold compose_expr. intros H Hv.
  rewrite (replace_eval _ _ _ _ d s vals [] H Hv (Forall2_nil _)). reflexivity.
Qed.

Fixpoint syms_below (n : nat) (e : expr) : Prop :=
  match e with
  | Sym p => (p < n)%nat
  | Bin _ l r => syms_below n l /\ syms_below n r
  | _ => True
  end.

Lemma nth_error_map_seq {A} (f : nat -> A) a n p :
  nth_error (map f (seq a n)) p = if (p <? n)%nat then Some (f (a + p)%nat) else None.
Proof.
  revert a p. induction n as [|n IH]; intros a p; simpl.
  - destruct p; reflexivity.
  - destruct p; simpl.
    + f_equal. f_equal. lia.
    + rewrite IH. change (S p <? S n)%nat with (p <? n)%nat.
      destruct (p <? n)%nat; auto. f_equal. f_equal. lia.
Qed.

(* the renaming used by AffineMap.compose on `other`: dims stay, symbol q becomes symbol k+q *)
Lemma replace_rename_eval e n k n2 e' d s :
  replace e (map Dim (seq 0 n)) (map Sym (seq k n2)) = Ok e' ->
  syms_below n2 e ->
  eval e' d s = eval e d (skipn k s).
Proof.
  revert e'. induction e as [p|p|v|kd l IHl r IHr]; intros e' H Hw; simpl in H.
  - rewrite nth_error_map_seq in H. destruct (p <? n)%nat; apply Ok_inj in H; subst e'; reflexivity.
  - rewrite nth_error_map_seq in H. simpl in Hw.
    apply Nat.ltb_lt in Hw. rewrite Hw in H. apply Ok_inj in H. subst e'. simpl.
    rewrite nth_error_skipn_add. reflexivity.
  - apply Ok_inj in H. subst e'. reflexivity.
  - destruct Hw as [Hwl Hwr].
    exact (binary_rebuild_eval _ _ _ _ _ _ d s H (fun l' E => IHl l' E Hwl) (fun r' E => IHr r' E Hwr)).
Qed.

Lemma map_compose_eval m1 m2 m d s vals :
  map_compose m1 m2 = Ok m ->
  Forall (syms_below (num_syms m2)) (results m2) ->
  Forall2 (fun r v => eval r d (skipn (num_syms m1) s) = Ok v) (results m2) vals ->
  num_dims m = num_dims m2 /\ num_syms m = (num_syms m1 + num_syms m2)%nat /\
  Forall2 (fun r' r => eval r' d s = eval r (subst_env vals d) s) (results m) (results m1).
Proof.
  unfold map_compose. intros H Hw Hv.
  destruct (negb (num_dims m1 =? length (results m2))%nat); [discriminate|].
  apply bind_ok in H. destruct H as [nm [Hnm H]].
  apply bind_ok in H. destruct H as [rs [Hrs H]]. apply Ok_inj in H. subst m. simpl.
  split; [reflexivity|]. split; [reflexivity|].
  unfold map_replace in Hnm. apply bind_ok in Hnm. destruct Hnm as [rs2 [Hrs2 Hnm]].
  apply Ok_inj in Hnm. subst nm.
  apply mapM_Forall2 in Hrs2. apply mapM_Forall2 in Hrs. simpl in Hrs.
  (* the renamed results of m2 evaluate, under (d, s), like m2's results under its own symbols *)
  assert (Hvals : Forall2 (fun r v => eval r d s = Ok v) rs2 vals).
  { clear Hrs. revert vals Hv Hw. induction Hrs2 as [|x y l l' Hxy Hll IH]; intros vals Hv Hw.
    - inversion Hv. constructor.
    - inversion Hv; subst. inversion Hw; subst. constructor; auto.
      rewrite (replace_rename_eval _ _ _ _ _ d s Hxy); auto. }
  clear Hrs2 Hv Hw.
  induction Hrs as [|x y l l' Hxy Hll IH]; constructor; auto.
  apply (compose_expr_eval _ _ _ d s vals Hxy). simpl. exact Hvals.
Qed.
