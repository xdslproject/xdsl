(* Props/C10.v -- property C10: IRDL operation verification matches the operation definition.
   The theorem statements closed by `exact`, and Examples closed by evaluation or by `exact`.
   Spec (top of C10/Proofs.v): size_ok / same_sizes / segmentation / split_sizes / shape / norm /
   well_defined; (C10/ProofsAcc.v): run / expected (the accessor results; C10_accessors writes them
   out) / same_nonvacuous; (C10/ProofsVerify.v): sat / all_sat / verify_pairs / arg_pairs /
   region_pairs / named_pairs / op_pairs / built_pairs / single_ok / present_ok / seg_for / op_valid;
   preconditions attr_disciplined / op_disciplined / def_nonvacuous / consistent / def_consistent.
   Model (C10/Model.v): verify_variadic_size, acc_index, irdl_op_arg_definition,
   irdl_build_arg_list, init_option, opdef_verify, irdl_op_init.
   `version` (Model.v) says which of the two repairs C10-1, C10-2 the modelled code contains:
   v_pinned = neither (the unrepaired code), v_repaired = both (the code the harness compares with:
   harness/props/c10.py code_version); every theorem below is stated for the versions it holds for. *)
From Coq Require Import ZArith List Bool.
From XV Require Import C10.Model C10.Proofs C10.ProofsAcc C10.ProofsVerify.
Import ListNotations.
Local Open Scope Z_scope.

(* segment sizes: no option / SameVariadic*Size  (every version):
   For every definition list for which the class can be defined, every argument count: the size
   verification accepts exactly when the list can be split into the declared segments. *)
Theorem C10_verify_sizes_iff : forall v opt defs n attr,
  opt <> AttrSized -> well_defined v opt defs ->
  (verify_variadic_size v opt defs n attr = Ok tt <-> exists sizes, segmentation opt defs n sizes).
Proof. exact verify_sizes_iff. Qed.
Print Assumptions C10_verify_sizes_iff.

(* ... and that split is unique (so the accessors have no choice) *)
Theorem C10_segmentation_unique : forall v opt defs n s1 s2,
  opt <> AttrSized -> well_defined v opt defs ->
  segmentation opt defs n s1 -> segmentation opt defs n s2 -> s1 = s2.
Proof. exact segmentation_unique. Qed.
Print Assumptions C10_segmentation_unique.

(* segment sizes: AttrSized*Segments:
   REFUTED on the faithful model of the unrepaired code (fix_attr_sum = false): the sum of the sizes is
   never compared with the number of arguments, and negative sizes of variadic definitions are
   accepted. *)
Theorem C10_verify_sizes_attr_refuted : forall v, fix_attr_sum v = false -> exists defs n sizes,
  verify_variadic_size v AttrSized defs n (Dense true sizes) = Ok tt /\
  ~ segmentation AttrSized defs n sizes.
Proof. exact attr_size_refuted_sum. Qed.
Print Assumptions C10_verify_sizes_attr_refuted.

Theorem C10_verify_sizes_attr_refuted_negative : forall v, fix_attr_sum v = false ->
  exists defs n sizes,
  verify_variadic_size v AttrSized defs n (Dense true sizes) = Ok tt /\ zsum sizes = n /\
  ~ segmentation AttrSized defs n sizes.
Proof. exact attr_size_refuted_negative. Qed.
Print Assumptions C10_verify_sizes_attr_refuted_negative.

(* what the attr-sized path checks, exactly (size_chk false = nothing about variadic sizes;
   nothing about n unless repaired) *)
Theorem C10_verify_sizes_attr_exact : forall fx defs attr n,
  verify_variadic_attr_size fx attr defs n = Ok tt <->
  exists sizes, attr = Dense true sizes /\ Forall2 (size_chk fx) defs sizes /\
                (fx = true -> zsum sizes = n).
Proof. exact attr_size_exact. Qed.
Print Assumptions C10_verify_sizes_attr_exact.

(* PARTIAL (every version): with the two missing conditions as hypotheses the statement holds;
   every valid operation is accepted unconditionally *)
Theorem C10_verify_sizes_attr_partial : forall v defs n sizes,
  Forall (fun s => 0 <= s) sizes -> zsum sizes = n ->
  (verify_variadic_size v AttrSized defs n (Dense true sizes) = Ok tt <->
   segmentation AttrSized defs n sizes).
Proof. exact attr_size_iff_partial. Qed.
Print Assumptions C10_verify_sizes_attr_partial.

Theorem C10_verify_sizes_attr_complete : forall v defs n sizes,
  segmentation AttrSized defs n sizes ->
  verify_variadic_size v AttrSized defs n (Dense true sizes) = Ok tt.
Proof. exact attr_size_complete. Qed.
Print Assumptions C10_verify_sizes_attr_complete.

(* FULL statement for the repaired code (C10-1.diff: reject negative sizes, compare the sum) *)
Theorem C10_verify_sizes_attr_repaired_iff : forall defs attr n,
  verify_variadic_attr_size true attr defs n = Ok tt <->
  exists sizes, attr = Dense true sizes /\ segmentation AttrSized defs n sizes.
Proof. exact attr_size_repaired_iff. Qed.
Print Assumptions C10_verify_sizes_attr_repaired_iff.

(* accessors:
   Whenever `sizes` is a segmentation of the argument list (for attr-sized: the recorded one),
   the i-th generated accessor returns exactly the i-th segment, in the shape of its definition
   (one value / None-or-value / sequence); the segments concatenate to the argument list and have
   the declared sizes.  Python negative indices and slice clamping are part of the model.
   same_nonvacuous v opt defs := opt = SameSize -> fix_same_novar v = false -> 0 < num_variadics defs
   (a hypothesis for the unrepaired code only; vacuous after C10-2.diff). *)
Theorem C10_accessors : forall T v opt defs accs attr (args : list T) sizes,
  irdl_op_arg_definition v opt defs = Ok accs ->
  segmentation opt defs (len args) sizes ->
  (opt = AttrSized -> exists b, attr = Dense b sizes) ->
  same_nonvacuous v opt defs ->
  map (fun a => acc_index a attr args) accs
  = map (fun p => Ok (shape (fst p) (snd p))) (combine defs (split_sizes sizes args)).
Proof. exact accessors_spec. Qed.
Print Assumptions C10_accessors.

Theorem C10_accessors_partition : forall T opt defs (args : list T) sizes,
  segmentation opt defs (len args) sizes ->
  concat (split_sizes sizes args) = args /\ map len (split_sizes sizes args) = sizes.
Proof. exact accessors_partition. Qed.
Print Assumptions C10_accessors_partition.

(* REFUTED for the unrepaired code: (1) an attr-sized operation that verifies but whose accessor
   results do not partition the operands; (2) SameVariadic*Size on a construct without any variadic
   definition: the sizes segment the list, and every accessor raises ZeroDivisionError *)
Theorem C10_accessors_attr_refuted : forall v, fix_attr_sum v = false ->
  exists defs sizes accs (args : list Z),
  irdl_op_arg_definition v AttrSized defs = Ok accs /\
  verify_variadic_size v AttrSized defs (len args) (Dense true sizes) = Ok tt /\
  concat (map (fun r => match r with Ok a => accres_list a | Raise _ => [] end)
              (map (fun a => acc_index a (Dense true sizes) args) accs)) <> args.
Proof. exact attr_accessors_refuted. Qed.
Print Assumptions C10_accessors_attr_refuted.

Theorem C10_same_size_no_variadic_refuted : forall v, fix_same_novar v = false ->
  exists defs accs (args : list Z) sizes,
  irdl_op_arg_definition v SameSize defs = Ok accs /\
  segmentation SameSize defs (len args) sizes /\
  map (fun a => acc_index a Missing args) accs
  = [Raise ZeroDivisionError; Raise ZeroDivisionError].
Proof. exact same_size_no_variadic_refuted. Qed.
Print Assumptions C10_same_size_no_variadic_refuted.

(* the generated constructor (one list):
   If irdl_build_arg_list and the option handling of irdl_op_init succeed, the flattened list
   with the recorded sizes is a segmentation, size verification accepts it, and the accessors
   return the constructor's arguments (None -> nothing, a value -> itself, a sequence -> itself). *)
Theorem C10_built_construct_verifies :
  forall T v opt defs (args : list (barg T)) flat sizes given attr accs,
  irdl_build_arg_list defs args = Ok (flat, sizes) ->
  init_option opt defs sizes given = Ok attr ->
  irdl_op_arg_definition v opt defs = Ok accs ->
  same_nonvacuous v opt defs ->
  segmentation opt defs (len flat) sizes /\
  (opt = AttrSized -> attr = Dense true sizes) /\
  verify_variadic_size v opt defs (len flat) attr = Ok tt /\
  map (fun a => acc_index a attr flat) accs
  = map (fun p => Ok (shape (fst p) (snd p))) (combine defs (map norm args)).
Proof. exact built_construct_verifies. Qed.
Print Assumptions C10_built_construct_verifies.

(* OpDef.verify as a whole:
   Threading the ConstraintContext through all checks is the same as the existence of ONE
   assignment of the constraint variables satisfying every (constraint, value) pair.
   The value universe A holds attributes AND ints (of_int / as_int in Model.v), the keys of the
   assignment cover attribute variables (VarConstraint) AND integer variables (IntVarConstraint:
   segment lengths through RangeOf(..).of_length(..), IntAttr payloads through IntAttr.constr(..));
   a variable is bound on its first occurrence -- whatever the value, 0 included -- and compared on
   every later one. *)
Theorem C10_constraint_threading_iff :
  forall A A_eqb, (forall a b : A, A_eqb a b = true <-> a = b) ->
  forall base ps, consistent A base (map fst ps) ->
  ((exists ctx', verify_pairs A A_eqb ps [] = Ok ctx') <-> exists sg, all_sat A sg ps).
Proof. exact verify_pairs_iff. Qed.
Print Assumptions C10_constraint_threading_iff.

(* OpDef.verify accepts exactly the valid operations (op_valid: the four lists split into the
   declared segments, single-block regions, required properties/attributes present, no undeclared
   property, and all pieces, segment LENGTHS, properties and attributes satisfy their constraints
   under one assignment of the attribute and integer variables: op_pairs lists, for a
   variadic/optional segment with a length constraint, the pair (length constraint, of_int (len seg))
   before its elements, and for an IntAttr-constrained property the pair (int constraint, payload)).
   PARTIAL for the unrepaired code: op_disciplined (attr-sized size vectors are
   non-negative and sum to the list length) and def_nonvacuous (a same-size option comes with a
   variadic definition) exclude the two refuted cases and are vacuous for the repaired code;
   def_consistent: all uses of a variable carry the same base constraint. *)
Theorem C10_verify_iff :
  forall A A_eqb, (forall a b : A, A_eqb a b = true <-> a = b) ->
  forall v of_int as_int d x o,
  get_accessors A v d = Ok x -> op_disciplined A v d o -> def_nonvacuous A v d -> def_consistent A d ->
  (opdef_verify A A_eqb v of_int as_int d x o = Ok tt <-> op_valid A of_int as_int d o).
Proof. exact opdef_verify_iff. Qed.
Print Assumptions C10_verify_iff.

(* FULL statement once both repairs are in the code *)
Theorem C10_verify_iff_repaired :
  forall A A_eqb, (forall a b : A, A_eqb a b = true <-> a = b) ->
  forall of_int as_int d x o,
  get_accessors A v_repaired d = Ok x -> def_consistent A d ->
  (opdef_verify A A_eqb v_repaired of_int as_int d x o = Ok tt <-> op_valid A of_int as_int d o).
Proof. exact opdef_verify_iff_repaired. Qed.
Print Assumptions C10_verify_iff_repaired.

(* Operations built by the generated constructor: every accessor returns the constructor's
   argument, and verification succeeds exactly when those arguments satisfy the constraints
   (no size condition is left: the constructor's output always segments correctly). *)
Theorem C10_built_verifies :
  forall A A_eqb, (forall a b : A, A_eqb a b = true <-> a = b) ->
  forall v of_int as_int d x b o,
  get_accessors A v d = Ok x -> irdl_op_init A d b = Ok o ->
  def_nonvacuous A v d -> same_nonvacuous v (d_sucopt A d) (d_succs A d) -> def_consistent A d ->
  run (x_operands x) (o_opseg A o) (o_operands A o)
    = expected (map (akind A) (d_operands A d)) (map norm (b_operands A b)) /\
  run (x_results x) (o_resseg A o) (o_results A o)
    = expected (map (akind A) (d_results A d)) (map norm (b_results A b)) /\
  run (x_regions x) (o_regseg A o) (o_regions A o)
    = expected (map (rkind A) (d_regions A d)) (map norm (b_regions A b)) /\
  run (x_succs x) (o_sucseg A o) (o_succs A o) = expected (d_succs A d) (map norm (b_succs A b)) /\
  (opdef_verify A A_eqb v of_int as_int d x o = Ok tt <->
   single_ok A (d_regions A d) (map norm (b_regions A b)) /\
   present_ok A of_int as_int (d_props A d) (b_props A b) /\ b_extra_prop A b = false /\
   present_ok A of_int as_int (d_attrs A d) (b_attrs A b) /\
   exists sg, all_sat A sg (built_pairs A of_int as_int d b)).
Proof. exact built_op_verifies. Qed.
Print Assumptions C10_built_verifies.

(* non-vacuity / witnesses by computation:
   ex_def / ex_op_p (end of C10/ProofsVerify.v): operands = variadic V0 in {1,2} of length N + single
   V0 in {1,2}, attr-sized; one optional result V0; two same-size variadic successors; a required
   IntAttr property whose payload is N;
   ex_op_p seg res p: three operands of type 2, operandSegmentSizes = seg, result types res,
   property value p (1000 + k = IntAttr(k)); ex_op seg res = ex_op_p seg res 1002 *)
Example C10_nonvacuous :
  define_and_verify Z Z.eqb v_pinned zof_int zas_int ex_def (ex_op [2; 1] [2]) = Ok tt /\           (* valid *)
  define_and_verify Z Z.eqb v_pinned zof_int zas_int ex_def (ex_op [2; 1] [1]) = Raise VerifyException /\  (* V0 inconsistent *)
  define_and_verify Z Z.eqb v_pinned zof_int zas_int ex_def (ex_op [2; 1] [2; 2]) = Raise VerifyException /\ (* two results *)
  define_and_verify Z Z.eqb v_pinned zof_int zas_int ex_def (ex_op_p [1; 1] [2] 1001) = Ok tt /\          (* DEFECT: sum 2 <> 3 operands *)
  define_and_verify Z Z.eqb v_pinned zof_int zas_int ex_def (ex_op [-1; 1] [2]) = Ok tt /\         (* DEFECT: negative size *)
  define_and_verify Z Z.eqb v_pinned zof_int zas_int ex_def (ex_op [5; 1] [2]) = Raise IndexError /\ (* DEFECT: crash *)
  define_and_verify Z Z.eqb v_repaired zof_int zas_int ex_def (ex_op [2; 1] [2]) = Ok tt /\
  define_and_verify Z Z.eqb v_repaired zof_int zas_int ex_def (ex_op [1; 1] [2]) = Raise VerifyException /\
  define_and_verify Z Z.eqb v_repaired zof_int zas_int ex_def (ex_op [-1; 1] [2]) = Raise VerifyException /\
  define_and_verify Z Z.eqb v_repaired zof_int zas_int ex_def (ex_op [5; 1] [2]) = Raise VerifyException.
Proof. vm_compute. repeat split; reflexivity. Qed.

(* integer variables: ex_len_def = three attr-sized variadic operand segments sharing the length
   variable N; equal lengths (0 included) verify, (0,0,3) and (0,1,1) -- a variable bound to 0 is
   bound -- do not; ex_def's IntAttr property shares N with the length of its variadic operand *)
Example C10_int_variables :
  define_and_verify Z Z.eqb v_repaired zof_int zas_int ex_len_def (ex_len_op [2; 2; 2]) = Ok tt /\
  define_and_verify Z Z.eqb v_repaired zof_int zas_int ex_len_def (ex_len_op [0; 0; 0]) = Ok tt /\
  define_and_verify Z Z.eqb v_repaired zof_int zas_int ex_len_def (ex_len_op [0; 0; 3]) = Raise VerifyException /\
  define_and_verify Z Z.eqb v_repaired zof_int zas_int ex_len_def (ex_len_op [0; 1; 1]) = Raise VerifyException /\
  define_and_verify Z Z.eqb v_repaired zof_int zas_int ex_len_def (ex_len_op [1; 1; 2]) = Raise VerifyException /\
  define_and_verify Z Z.eqb v_repaired zof_int zas_int ex_def (ex_op_p [2; 1] [2] 1002) = Ok tt /\
  define_and_verify Z Z.eqb v_repaired zof_int zas_int ex_def (ex_op_p [2; 1] [2] 1000) = Raise VerifyException /\
  define_and_verify Z Z.eqb v_repaired zof_int zas_int ex_def (ex_op_p [2; 1] [2] 2) = Raise VerifyException.
Proof. vm_compute. repeat split; reflexivity. Qed.

(* the hypotheses of C10_verify_iff are satisfiable by a non-trivial operation (any version) *)
Example C10_hypotheses_satisfiable : forall v,
  op_disciplined Z v ex_def (ex_op [2; 1] [2]) /\ def_nonvacuous Z v ex_def /\
  def_consistent Z ex_def /\ same_nonvacuous v (d_sucopt Z ex_def) (d_succs Z ex_def).
Proof. exact ex_hypotheses. Qed.
