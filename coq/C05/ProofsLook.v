(* C05/ProofsLook.v -- soundness of the lookahead analysis: when nf d g k holds, the first token
   printed by the directives k (or, when they print nothing, the token that follows the operation)
   does not match the trigger g. *)
From Coq Require Import ZArith String Bool Arith List Lia.
From XV Require Import C05.Model C05.Check C05.ProofsBase C05.ProofsTok C05.ProofsState C05.ProofsElem.
Import ListNotations.
Local Open Scope string_scope.
Local Open Scope list_scope.

(* literal triggers only ever name a literal of the format (or the keyword `attributes`) *)
Definition trig_wf (f : format) (g : atrig) : Prop :=
  match g with GLit s => In s ("attributes" :: fmt_lits f) | _ => True end.

Lemma follower_unmatched : forall d f g t,
  trig_wf f g -> is_follower d f t = true ->
  (if od_terminator d then follow_safe_term g else follow_safe g) = true ->
  tok_matches g t = false.
Proof.
  intros d f g t Hwf Hfol Hsafe.
  destruct t as [s l|v|a|a|kw dct]; cbn [is_follower] in Hfol; try discriminate.
  - apply andb_true_iff in Hfol. destruct Hfol as [Hl Hs].
    apply negb_true_iff in Hs.
    assert (forall s', In s' ("," :: "attributes" :: "(" :: "{" :: fmt_lits f) -> String.eqb s s' = false) as Hne.
    { intros s' Hin. destruct (String.eqb s s') eqn:E; [|reflexivity].
      apply String.eqb_eq in E; subst s'. apply mem_In in Hin. rewrite Hin in Hs; discriminate. }
    (* a follower literal is a bare word, or, after a non-terminator, a string or number *)
    assert (l = LNone \/ (l = LAttr /\ od_terminator d = false)) as Hcase.
    { destruct l; try discriminate; [left; reflexivity | right; split; [reflexivity|]].
      simpl in Hl. destruct (od_terminator d); [discriminate | reflexivity]. }
    destruct g as [| | | |l'|s']; cbn [tok_matches tok_is_kw is_lit tok_lead].
    + reflexivity.
    + apply Hne. left; reflexivity.
    + destruct Hcase as [->|[-> _]]; reflexivity.
    + destruct Hcase as [->|[-> Ht]]; [reflexivity|]. rewrite Ht in Hsafe. discriminate.
    + destruct Hcase as [->|[-> Ht]]; [|rewrite Ht in Hsafe];
        destruct l'; try reflexivity; destruct (od_terminator d); discriminate.
    + simpl in Hwf. apply Hne. destruct Hwf as [<- | Hin].
      * right; left; reflexivity.
      * right; right; right; right; exact Hin.
  - destruct (od_terminator d) eqn:Et; cbn [negb] in Hfol; [discriminate|].
    destruct g as [| | | |l'|s']; simpl in *; try reflexivity; try discriminate.
    destruct l'; simpl in *; try reflexivity; discriminate.
Qed.

Lemma first_safe_sound : forall fx d i g e t r,
  IOK d i -> first_safe g e = true -> print_elem fx d i e = Some (t :: r) -> tok_matches g t = false.
Proof.
  intros fx d i g e t r Hio Hs Hp.
  destruct e as [s l|kw rs ex|s|s|a b|n p k o dflt]; cbn [print_elem first_safe] in *.
  - injection Hp as <- _. apply negb_true_iff in Hs; exact Hs.
  - destruct (existsb _ (i_attrs i)); [discriminate|].
    destruct (dict_shown d i rs ex) as [|e0 sh]; [discriminate|]. injection Hp as <- _.
    destruct kw; apply negb_true_iff in Hs;
      destruct g as [| | | |l'|s']; cbn in Hs |- *; try reflexivity; try exact Hs; try discriminate.
    rewrite String.eqb_sym; exact Hs.
  - destruct (src_vals i s) as [[|v vr]|]; try discriminate.
    cbn [option_map map] in Hp. rewrite sep_cons in Hp. injection Hp as <- _.
    destruct g as [| | | |[]|s']; try reflexivity; discriminate.
  - destruct (src_types i s) as [|ty tr] eqn:Et; [discriminate|].
    cbn [map] in Hp. rewrite sep_cons in Hp. injection Hp as <- _.
    assert (starts_type (av_full ty) = true) as Hst
      by (eapply src_types_start; [eassumption|]; rewrite Et; left; reflexivity).
    destruct g as [| | | |l'|s']; try reflexivity; try discriminate.
    cbn [tok_matches tok_lead]. destruct (av_full ty); try discriminate; destruct l'; try reflexivity; discriminate.
  - injection Hp as <- _. apply negb_true_iff in Hs; exact Hs.
  - destruct (attr_of i n p) as [a|]; [|discriminate].
    destruct (is_default a dflt); [discriminate|].
    destruct k as [|trig|u]; try discriminate; injection Hp as <- _; destruct g; try reflexivity; discriminate.
Qed.

Lemma always_prints_nonempty : forall fx d i e ts,
  IOK d i -> always_prints d e = true -> print_elem fx d i e = Some ts -> ts <> [].
Proof.
  intros fx d i e ts Hio Hal Hp.
  destruct e as [s l|kw rs ex|s|s|a b|n p k o dflt]; cbn [print_elem always_prints] in *; try discriminate.
  - injection Hp as <-. discriminate.
  - (* a Single operand: exactly one value *)
    destruct (src_kind d s) as [[| |]|] eqn:Ek; try discriminate.
    pose proof (src_kind_len d i s KSingle Hio Ek) as Hl.
    destruct s as [j|j| |]; try discriminate. cbn in Hp, Hl. injection Hp as <-. rewrite map_length in Hl.
    destruct (nth j (i_operands i) []) as [|x [|y r]]; discriminate.
  - destruct (src_kind d s) as [[| |]|] eqn:Ek; try discriminate.
    pose proof (src_kind_len d i s KSingle Hio Ek) as Hl. injection Hp as <-.
    destruct (src_types i s) as [|v [|v2 vr]]; discriminate.
  - injection Hp as <-. discriminate.
Qed.

Lemma print_elems_app : forall fx d i a b,
  print_elems fx d i (a ++ b) =
  match print_elems fx d i a, print_elems fx d i b with
  | Some x, Some y => Some (x ++ y)
  | _, _ => None
  end.
Proof.
  induction a as [|e r IH]; intro b; simpl.
  - destruct (print_elems fx d i b); reflexivity.
  - rewrite IH. destruct (print_elem fx d i e); [|reflexivity].
    destruct (print_elems fx d i r); [|reflexivity].
    destruct (print_elems fx d i b); [|reflexivity].
    rewrite app_assoc; reflexivity.
Qed.
Lemma print_fmt_app : forall fx d i a b,
  print_fmt fx d i (a ++ b) =
  match print_fmt fx d i a, print_fmt fx d i b with
  | Some x, Some y => Some (x ++ y)
  | _, _ => None
  end.
Proof.
  induction a as [|e r IH]; intro b; simpl.
  - destruct (print_fmt fx d i b); reflexivity.
  - rewrite IH. destruct (print_dir fx d i e); [|reflexivity].
    destruct (print_fmt fx d i r); [|reflexivity].
    destruct (print_fmt fx d i b); [|reflexivity].
    rewrite app_assoc; reflexivity.
Qed.
Lemma print_fmt_DE : forall fx d i es, print_fmt fx d i (map DE es) = print_elems fx d i es.
Proof.
  induction es as [|e r IH]; simpl; [reflexivity|]. rewrite IH. reflexivity.
Qed.

Definition groups_ok (d : opdef) (k : list dir) : bool :=
  forallb (fun x => match x with DGroup a fe ts => group_ok d a fe ts | DE _ => true end) k.

Lemma opt_av_eqb_eq : forall a b, opt_av_eqb a b = true -> a = b.
Proof.
  intros [x|] [y|] H; simpl in H; try discriminate; try reflexivity.
  apply av_eqb_eq in H; subst; reflexivity.
Qed.

Lemma in_attr_group_inv : forall d n p dflt n' p' k o dflt',
  elem_in_attr_group d n p dflt (EAttr n' p' k o dflt') = true ->
  n' = n /\ p' = p /\ dflt' = dflt /\ attr_decl_ok d n p k o dflt = true.
Proof.
  intros d n p dflt n' p' k o dflt' H. cbn [elem_in_attr_group] in H.
  apply andb_true_iff in H. destruct H as [H Hdecl]. apply andb_true_iff in H. destruct H as [H Hd].
  apply andb_true_iff in H. destruct H as [Hn Hp].
  apply String.eqb_eq in Hn. apply eqb_prop in Hp. apply opt_av_eqb_eq in Hd. subst. auto.
Qed.

Lemma src_eqb_eq : forall a b, src_eqb a b = true -> a = b.
Proof.
  intros [x|x| |] [y|y| |] H; simpl in H; try discriminate; try reflexivity;
    apply Nat.eqb_eq in H; subst; reflexivity.
Qed.

Lemma vals_types_length : forall i s vs, vals_src s = true -> src_vals i s = Some vs ->
  length vs = length (src_types i s).
Proof.
  intros i s vs Hv Hs. destruct s as [k|k| |]; simpl in *; try discriminate.
  - inversion Hs; subst. rewrite !map_length. reflexivity.
  - inversion Hs; subst. rewrite !concat_map_map. rewrite !map_length. reflexivity.
Qed.

Lemma src_vals_some : forall i s, vals_src s = true -> exists vs, src_vals i s = Some vs.
Proof. intros i [k|k| |] H; simpl in *; try discriminate; eexists; reflexivity. Qed.

Lemma anchor_src_nonempty : forall i a s,
  (a = AnVals s \/ a = AnTypes s) -> (a = AnVals s -> vals_src s = true) ->
  anchor_present i a = true -> src_types i s <> [].
Proof.
  intros i a s Ha Hv Hp Hnil. destruct Ha as [-> | ->]; simpl in Hp.
  - destruct (src_vals i s) as [vs|] eqn:E; [|discriminate].
    pose proof (vals_types_length i s vs (Hv eq_refl) E) as Hl. rewrite Hnil in Hl.
    destruct vs; [discriminate | simpl in Hl; lia].
  - rewrite Hnil in Hp; discriminate.
Qed.

Lemma group_src_facts : forall d a s fe ts,
  (a = AnVals s \/ a = AnTypes s) -> group_ok d a fe ts = true ->
  src_in_range d s = true /\ src_varlike d s = true /\ empty_ok d s = true /\
  (a = AnVals s -> vals_src s = true) /\
  elem_in_src_group d s fe = true /\ (match fe with ETypes _ => False | _ => True end) /\
  forallb (elem_in_src_group d s) ts = true.
Proof.
  intros d a s fe ts Ha Hg. unfold group_ok in Hg.
  assert (src_in_range d s && src_varlike d s && empty_ok d s &&
          match a with AnVals _ => vals_src s | _ => true end &&
          match fe with
          | ELit l _ => negb (String.eqb l "attributes")
          | EVals s' => src_eqb s s' && vals_src s
          | _ => false
          end && forallb (elem_in_src_group d s) ts = true) as H.
  { destruct Ha as [-> | ->]; exact Hg. }
  clear Hg. repeat (apply andb_true_iff in H; destruct H as [H ?]).
  split; [assumption|]. split; [assumption|]. split; [assumption|].
  split. { intros ->. assumption. }
  split. { destruct fe; try discriminate; assumption. }
  split. { destruct fe; try discriminate; exact I. }
  assumption.
Qed.

Lemma group_attr_facts : forall d n p dflt fe ts,
  group_ok d (AnAttr n p dflt) fe ts = true ->
  elem_in_attr_group d n p dflt fe = true /\
  (match fe with ELit _ _ | EAttr _ _ AKGeneric true _ => True | _ => False end) /\
  forallb (elem_in_attr_group d n p dflt) ts = true.
Proof.
  intros d n p dflt fe ts H. unfold group_ok in H.
  apply andb_true_iff in H. destruct H as [H _]. apply andb_true_iff in H. destruct H as [Hf Ht].
  split; [|split; [|exact Ht]]; destruct fe as [| | | | |n' p' [| |] [|] dflt']; try discriminate; try exact I; exact Hf.
Qed.

Lemma src_group_first_prints : forall fx d i a s fe ts,
  (a = AnVals s \/ a = AnTypes s) -> group_ok d a fe ts = true -> anchor_present i a = true ->
  exists t r, print_elem fx d i fe = Some (t :: r).
Proof.
  intros fx d i a s fe ts Has Hg Hp.
  destruct (group_src_facts d a s fe ts Has Hg) as [_ [_ [_ [Hv [Hfin [Hnt _]]]]]].
  pose proof (anchor_src_nonempty i a s Has Hv Hp) as Hne.
  destruct fe as [l ld| |s'| | |]; cbn [elem_in_src_group] in Hfin; try discriminate; try contradiction.
  - eexists; eexists; reflexivity.
  - apply andb_true_iff in Hfin. destruct Hfin as [He Hvs]. apply src_eqb_eq in He. subst s'.
    destruct (src_vals_some i s Hvs) as [vs Hvs']. cbn [print_elem]. rewrite Hvs'.
    pose proof (vals_types_length i s vs Hvs Hvs') as Hl.
    destruct vs as [|v vr]; [exfalso; apply Hne, length_zero_iff_nil; symmetry; exact Hl|].
    cbn [option_map map]. rewrite sep_cons. eexists; eexists; reflexivity.
Qed.

Lemma group_first_prints : forall fx d i a fe ts,
  IOK d i -> group_ok d a fe ts = true -> anchor_present i a = true ->
  exists t r, print_elem fx d i fe = Some (t :: r).
Proof.
  intros fx d i a fe ts Hio Hg Hp. destruct a as [s|s|n p dflt].
  - apply (src_group_first_prints fx d i (AnVals s) s fe ts); auto.
  - apply (src_group_first_prints fx d i (AnTypes s) s fe ts); auto.
  - destruct (group_attr_facts d n p dflt fe ts Hg) as [Hfin [Hsh _]]. simpl in Hp.
    destruct fe as [l ld| | | | |n' p' k o dflt']; try contradiction.
    + eexists; eexists; reflexivity.
    + destruct (in_attr_group_inv _ _ _ _ _ _ _ _ _ Hfin) as [-> [-> [-> _]]].
      destruct k; try contradiction. destruct o; try contradiction.
      cbn [print_elem].
      destruct (attr_of i n p) as [a|]; [|discriminate].
      apply negb_true_iff in Hp. rewrite Hp.
      eexists; eexists; reflexivity.
Qed.

Lemma nf_sound : forall fx d f i g,
  IOK d i -> trig_wf f g ->
  forall k tk rest,
    groups_ok d k = true -> nf d g k = true ->
    print_fmt fx d i k = Some tk -> rest_ok d f rest = true ->
    forall t, hd_error (tk ++ rest) = Some t -> tok_matches g t = false.
Proof.
  intros fx d f i g Hio Hwf. induction k as [|x r IH]; intros tk rest Hg Hnf Hp Hr t Ht.
  - simpl in Hp. inversion Hp; subst tk. simpl in Ht.
    destruct rest as [|t0 rr]; [discriminate|]. inversion Ht; subst t0.
    simpl in Hr. exact (follower_unmatched d f g t Hwf Hr Hnf).
  - simpl in Hg. apply andb_true_iff in Hg. destruct Hg as [Hgx Hgr].
    simpl in Hp.
    destruct (print_dir fx d i x) as [tx|] eqn:Ex; [|discriminate].
    destruct (print_fmt fx d i r) as [tr|] eqn:Er; [|discriminate].
    inversion Hp; subst tk. clear Hp.
    destruct x as [e|a fe ts].
    + simpl in Hnf. apply andb_true_iff in Hnf. destruct Hnf as [Hfs Hrest].
      simpl in Ex.
      destruct tx as [|t0 tx'].
      * simpl in Ht.
        destruct (always_prints d e) eqn:Eal.
        -- exfalso. exact (always_prints_nonempty fx d i e [] Hio Eal Ex eq_refl).
        -- simpl in Hrest. exact (IH tr rest Hgr Hrest eq_refl Hr t Ht).
      * simpl in Ht. inversion Ht; subst t0.
        exact (first_safe_sound fx d i g e t tx' Hio Hfs Ex).
    + simpl in Hnf. apply andb_true_iff in Hnf. destruct Hnf as [Hfs Hrest].
      simpl in Ex. destruct (anchor_present i a) eqn:Ea.
      * destruct (group_first_prints fx d i a fe ts Hio Hgx Ea) as [t0 [r0 Hfe]].
        cbn [print_elems] in Ex. rewrite Hfe in Ex.
        destruct (print_elems fx d i ts) as [tts|]; [|discriminate].
        inversion Ex; subst tx. simpl in Ht. inversion Ht; subst t0.
        exact (first_safe_sound fx d i g fe t r0 Hio Hfs Hfe).
      * inversion Ex; subst tx. simpl in Ht. exact (IH tr rest Hgr Hrest eq_refl Hr t Ht).
Qed.

Lemma nf_all_untrig : forall fx d f i gs k tk rest,
  IOK d i -> (forall g, In g gs -> trig_wf f g) ->
  groups_ok d k = true -> nf_all d gs k = true ->
  print_fmt fx d i k = Some tk -> rest_ok d f rest = true ->
  untrig gs (tk ++ rest).
Proof.
  intros fx d f i gs k tk rest Hio Hwf Hg Hnf Hp Hr t Ht g Hin.
  unfold nf_all in Hnf. rewrite forallb_forall in Hnf.
  eapply nf_sound; eauto.
Qed.
