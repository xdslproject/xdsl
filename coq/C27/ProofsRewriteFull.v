(* C27/ProofsRewriteFull.v -- statement by statement, the generated rewriter function goes through the payload edits
   of the direct rewrite (`stmt_sim`): the same payload whenever the direct rewrite succeeds (`stmts_sim`), and every
   outcome the same, exceptions included, for the rewrites the static check `frag_all` accepts (`stmts_full`). *)
From Coq Require Import ZArith List Bool Lia.
From XV Require Import C27.Model C27.ProofsChain C27.ProofsMatch C27.Proofs C27.ProofsRewrite.
Import ListNotations.
Local Open Scope Z_scope.

Definition norange (v : obj) : Prop := match v with OVals _ | OTypes _ => False | _ => True end.

(* keys a statement reads *)
Definition stmt_keys (s : stmt) : list key :=
  match s with
  | SOp _ _ operands attrs tys => map vref_key operands ++ map (fun na => aref_key (snd na)) attrs ++ map tref_key tys
  | SResult _ lop _ => [KLocal lop]
  | SReplaceVals vs => map vref_key vs
  | SReplaceOp l => [KLocal l]
  | _ => []
  end.
(* static result counts of the operations the rewrite creates: local id -> Some n (an operation with n results) or
   None (not an operation / count not known statically) *)
Definition tenv := list (Z * option Z).
Fixpoint tlook (t : tenv) (l : Z) : option (option Z) :=
  match t with [] => None | (l', c) :: r => if l' =? l then Some c else tlook r l end.
Definition tstep (rootpat : op_pat) (t : tenv) (s : stmt) (later : list stmt) : tenv :=
  match s with
  | SAttr l _ | SType l _ | SResult l _ _ => (l, None) :: t
  | SOp l _ _ _ tys =>
      (l, match tys with
          | [] => if existsb (is_replace_with l) later then Some (zlen (op_rtys rootpat)) else Some 0
          | _ => Some (zlen tys)
          end) :: t
  | SReplaceVals _ | SReplaceOp _ | SErase => []
  end.
(* the fragment: a pdl.result only of a new operation whose result count (declared, or inferred from the root) covers
   the index, no empty replacement list, a replacement operation without results for a root without result types *)
Definition frag (rootpat : op_pat) (t : tenv) (s : stmt) : bool :=
  match s with
  | SResult _ lop idx => match tlook t lop with Some (Some n) => (0 <=? idx) && (idx <? n) | _ => false end
  | SReplaceVals [] => false
  | SReplaceOp l => match op_rtys rootpat with
                    | [] => match tlook t l with Some (Some 0) => true | _ => false end
                    | _ => true
                    end
  | _ => true
  end.
Fixpoint frag_all (rootpat : op_pat) (t : tenv) (l : list stmt) : bool :=
  match l with
  | [] => true
  | s :: r => frag rootpat t s && frag_all rootpat (tstep rootpat t s r) r
  end.

Lemma find_le : forall l p x, find_op_in l p = Some x -> p <= maxid l.
Proof.
  induction l as [|y l IH]; intros p x H; simpl in H; [discriminate |].
  destruct (o_id y =? p) eqn:E; [apply Z.eqb_eq in E; simpl; lia | specialize (IH _ _ H); simpl; lia].
Qed.
Lemma insert_before_new : forall l root n l', insert_before l root n = Some l' -> maxid l < o_id n ->
  find_op_in l' (o_id n) = Some n.
Proof.
  induction l as [|y l IH]; intros root n l' H Hm; simpl in H; [discriminate |].
  destruct (o_id y =? root) eqn:E.
  - inversion H; subst. simpl. rewrite Z.eqb_refl. reflexivity.
  - destruct (insert_before l root n) eqn:E2; [| discriminate]. inversion H; subst. simpl. simpl in Hm.
    destruct (o_id y =? o_id n) eqn:E3; [apply Z.eqb_eq in E3; lia | eapply IH; [exact E2 | lia]].
Qed.
Lemma create_op_old : forall pl root name vs ats ts pl' id p x,
  create_op pl root name vs ats ts = Some (pl', id) -> find_op pl p = Some x -> find_op pl' p = Some x.
Proof.
  intros pl root name vs ats ts pl' id p x H Hx. unfold create_op in H. destruct (split_attrs ats) as [as_ ps].
  match type of H with match ?ib with _ => _ end = _ => destruct ib as [l|] eqn:E end; [| discriminate].
  inversion H; subst. unfold find_op in *. simpl. rewrite (insert_before_find _ _ _ _ p E); [exact Hx |].
  simpl. pose proof (find_le _ _ _ Hx). unfold fresh. lia.
Qed.
Lemma create_op_new : forall pl root name vs ats ts pl' id,
  create_op pl root name vs ats ts = Some (pl', id) -> exists xn, find_op pl' id = Some xn /\ o_rtys xn = ts.
Proof.
  intros pl root name vs ats ts pl' id H. unfold create_op in H. destruct (split_attrs ats) as [as_ ps].
  match type of H with match ?ib with _ => _ end = _ => destruct ib as [l|] eqn:E end; [| discriminate].
  inversion H; subst.
  exists {| o_id := fresh pl; o_name := name; o_operands := vs; o_attrs := as_; o_props := ps; o_rtys := ts |}.
  split; [| reflexivity]. unfold find_op. simpl.
  apply (insert_before_new _ _ _ _ E). simpl. unfold fresh. lia.
Qed.

Section Full.
Variable fx : fixes.
Variable P : pattern.
Variable inp : inputs.
Variable rootpat : op_pat.
Variable pid : Z.
Variable e0 : env.
Variable regs0 : list (rreg * obj).
Variable usedF : list pos.

Hypothesis Herase : fx_erase fx = true.
Hypothesis Hrange : fx_range fx = true.
Hypothesis Hinfer : fx_infer fx = true.
Hypothesis Hnoloc : forall l, klookup inp (KLocal l) = None.
Hypothesis Hinj : forall k1 k2 p, klookup inp k1 = Some p -> klookup inp k2 = Some p -> k1 = k2.
Hypothesis HArg : forall k p j, klookup inp k = Some p -> znth usedF j = Some p ->
                                exists v, klookup e0 k = Some v /\ rrlookup regs0 (RA j) = Some v.
Hypothesis HCa : forall a c v, p_aconst P a = Some c -> klookup e0 (KAttr a) = Some v -> v = OAttr c.
Hypothesis HCt : forall t c v, p_tconst P t = Some c -> klookup e0 (KType t) = Some v -> v = OType c.
Hypothesis Hroot : klookup e0 (KOp (op_id rootpat)) = Some (OOp pid).
(* every recorded pattern value is bound by the matcher *)
Hypothesis HB : forall k p, klookup inp k = Some p -> klookup e0 k <> None.

Notation Inv' := (Inv inp e0 regs0).
Let mv_sim := map_value_sim fx P inp pid e0 regs0 usedF Hnoloc Hinj HArg HCa HCt.
Let mvs_sim := map_values_sim fx P inp pid e0 regs0 usedF Hnoloc Hinj HArg HCa HCt.
Let root_b := root_bound0 rootpat pid e0 Hroot.
Let root_r := root_reg inp rootpat pid e0 regs0 Hroot.

(* no range object among the direct bindings: rr_types then finds exactly the types get_type finds *)
Definition NR (e : env) : Prop := forall k v, klookup e k = Some v -> norange v.
Lemma NR_cons : forall e k v, NR e -> norange v -> NR ((k, v) :: e).
Proof.
  intros e k v H Hv k' v' Hk. simpl in Hk. destruct (key_eqb k k'); [injection Hk as <-; exact Hv | eapply H; exact Hk].
Qed.
Lemma rr_types_exact : forall e regs (tys : list tref) rs, Forall2 (agree_kr e regs) (map tref_key tys) rs -> NR e ->
  rr_types fx regs rs = all_some (map (fun t => get_type e (tref_key t)) tys).
Proof.
  intros e regs. induction tys as [|t tys IH]; intros rs H HN; inversion H as [| ? r ? rs' (v & H1 & H2) HF]; subst; [reflexivity |].
  cbn [map all_some rr_types]. rewrite H2, (IH _ HF HN).
  replace (get_type e (tref_key t)) with (match v with OType t => Some t | _ => None end) by (unfold get_type; rewrite H1; reflexivity).
  specialize (HN _ _ H1).
  destruct v; try contradiction; destruct (all_some (map (fun t0 => get_type e (tref_key t0)) tys)); reflexivity.
Qed.

(* what the fragment check guarantees about one statement when it is reached *)
Definition typed (s : stmt) (e : env) (pl : payload) : Prop :=
  match s with
  | SResult _ lop idx => forall p x, get_opid e (KLocal lop) = Some p -> find_op pl p = Some x ->
                                     (0 <=? idx) && (idx <? zlen (o_rtys x)) = true
  | SReplaceVals vs => vs <> []
  | SReplaceOp l => op_rtys rootpat = [] ->
                    exists p x, get_opid e (KLocal l) = Some p /\ find_op pl p = Some x /\ o_rtys x = []
  | _ => True
  end.

(* the code c of a statement against the outcome r of the direct step; a direct failure is matched under the guard G *)
Definition sim_out (G : Prop) (c : list rinstr) (st1 : rg) (regs : list (rreg * obj)) (pl : payload)
                   (r : option (env * payload)) : Prop :=
  match r with
  | Some (e', pl') => exists regs', runs fx pid c regs pl (Some (regs', pl')) /\ Inv' e' st1 regs' /\ RI rootpat pid pl'
  | None => G -> runs fx pid c regs pl None
  end.
Lemma sim_out_app : forall G c1 c2 st1 regs pl regs1 r,
  runs fx pid c1 regs pl (Some (regs1, pl)) -> sim_out G c2 st1 regs1 pl r -> sim_out G (c1 ++ c2) st1 regs pl r.
Proof.
  intros G c1 c2 st1 regs pl regs1 r H1 H2. destruct r as [[e' pl']|]; cbn [sim_out] in *.
  - destruct H2 as (regs' & S & H). exists regs'. split; [eapply runs_app; eassumption | exact H].
  - intro HG. eapply runs_app; [exact H1 | exact (H2 HG)].
Qed.

Definition stmt_ok (s : stmt) : Prop := forall later st st1 c1 e regs pl,
  Inv' e st regs -> RI rootpat pid pl -> gen_stmt fx P inp rootpat st s later = Some (st1, c1) ->
  pre (rg_used st1) usedF -> Forall (bound0 e0) (stmt_keys s) ->
  sim_out (NR e /\ typed s e pl) c1 st1 regs pl (step_rw fx pid s later e pl).

Lemma sim_attr : forall l c, stmt_ok (SAttr l c).
Proof.
  intros l c later st st1 c1 e regs pl HI HR Hg _ _. cbn [gen_stmt] in Hg. unfold rtmp in Hg. injection Hg as <- <-.
  eexists. split; [intro rest; reflexivity | split; [apply (Inv_local _ _ _ Hnoloc); exact HI | exact HR]].
Qed.
Lemma sim_type : forall l c, stmt_ok (SType l c).
Proof.
  intros l c later st st1 c1 e regs pl HI HR Hg _ _. cbn [gen_stmt] in Hg. unfold rtmp in Hg. injection Hg as <- <-.
  eexists. split; [intro rest; reflexivity | split; [apply (Inv_local _ _ _ Hnoloc); exact HI | exact HR]].
Qed.

Lemma sim_create : forall (G : Prop) (l name : Z) (operands : list vref) (attrs : list (Z * aref)) ro ra rt sc e regs pl tyexpr,
  Inv' e sc regs -> RI rootpat pid pl ->
  Forall2 (agree_kr e regs) (map vref_key operands) ro ->
  Forall2 (agree_kr e regs) (map (fun na => aref_key (snd na)) attrs) ra ->
  match tyexpr with Some ts => rr_types fx regs rt = Some ts | None => G -> rr_types fx regs rt = None end ->
  sim_out G [RCreateOp (RT (rg_ntmp sc)) name ro (combine (map fst attrs) ra) rt]
          {| rg_vals := (KLocal l, RT (rg_ntmp sc)) :: rg_vals sc; rg_used := rg_used sc; rg_nargs := rg_nargs sc;
             rg_ntmp := rg_ntmp sc + 1 |} regs pl
          (match all_some (map (fun v => get_val e (vref_key v)) operands),
                 all_some (map (fun na : Z * aref => match get_attr e (aref_key (snd na)) with
                                                     | Some a => Some (fst na, a) | None => None end) attrs),
                 tyexpr with
           | Some vs, Some ats, Some ts =>
               match create_op pl pid name vs ats ts with
               | Some (pl', id) => Some ((KLocal l, OOp id) :: e, pl')
               | None => None
               end
           | _, _, _ => None
           end).
Proof.
  intros G l name operands attrs ro ra rt sc e regs pl tyexpr HI HR Fo Fa Hty.
  pose proof (run_create_op fx pid e regs pl (RT (rg_ntmp sc)) name operands attrs ro ra rt Fo Fa) as S.
  destruct (all_some (map (fun v => get_val e (vref_key v)) operands)) as [vs|]; [| intros _; exact S].
  destruct (all_some (map _ attrs)) as [ats|]; [| intros _; exact S].
  destruct tyexpr as [ts|]; [rewrite Hty in S | intro HG; rewrite (Hty HG) in S; exact S].
  destruct (create_op pl pid name vs ats ts) as [[pl' id]|] eqn:Dc; [| intros _; exact S].
  eexists. split; [exact S | split; [apply (Inv_local _ _ _ Hnoloc); exact HI | eapply RI_create; eassumption]].
Qed.

Lemma sim_op_stmt : forall l name operands attrs tys, stmt_ok (SOp l name operands attrs tys).
Proof.
  intros l name operands attrs tys later st st1 c1 e regs pl HI HR Hg Hp Hb.
  cbn [stmt_keys] in Hb. apply Forall_app in Hb. destruct Hb as [Hbo Hb]. apply Forall_app in Hb. destruct Hb as [Hba Hbt].
  cbn [gen_stmt] in Hg.
  destruct (map_values fx P inp st (map vref_key operands)) as [[[sa ca] ro]|] eqn:Ea; [| discriminate].
  destruct (map_values fx P inp sa (map (fun na => aref_key (snd na)) attrs)) as [[[sb cb] ra]|] eqn:Eb; [| discriminate].
  assert (Hpa : pre (rg_used sb) usedF -> exists regs2, Inv' e sb regs2 /\
              Forall2 (agree_kr e regs2) (map vref_key operands) ro /\
              Forall2 (agree_kr e regs2) (map (fun na => aref_key (snd na)) attrs) ra /\
              forall G c st' r, sim_out G c st' regs2 pl r -> sim_out G (ca ++ cb ++ c) st' regs pl r).
  { intro Hpb.
    destruct (mvs_sim _ _ _ _ _ _ _ HI Hbo Ea (grows_pre _ _ _ _ (map_values_grows _ _ _ _ _ _ _ _ Eb) Hpb))
      as (regs1 & S1 & I1 & F1 & X1).
    destruct (mvs_sim _ _ _ _ _ _ _ I1 Hba Eb Hpb) as (regs2 & S2 & I2 & F2 & X2).
    exists regs2. split; [exact I2 |]. split; [eapply agree_ext; eassumption |]. split; [exact F2 |].
    intros G c st' r H. apply (sim_out_app _ _ _ _ _ _ _ _ (S1 pl)), (sim_out_app _ _ _ _ _ _ _ _ (S2 pl)), H. }
  cbn [step_rw].
  destruct tys as [|t0 tys].
  - destruct (existsb (is_replace_with l) later).
    + (* Strategy 3: no declared types, the new operation replaces the root *)
      destruct (map_value fx P inp sb (KOp (op_id rootpat))) as [[[sc cc] rroot]|] eqn:Ec; [| discriminate].
      unfold rtmp in Hg. injection Hg as <- <-. cbn [rg_used] in Hp.
      destruct Hpa as (regs2 & I2 & Fo & Fa & Hrun2); [exact (grows_pre _ _ _ _ (map_value_grows _ _ _ _ _ _ _ _ Ec) Hp) |].
      destruct (mv_sim _ _ _ _ _ _ _ I2 root_b Ec Hp) as (regs3 & S3 & I3 & A3 & X3).
      rewrite Hinfer. cbn [andb].
      pose proof (run_root_types fx pid Hrange regs3 pl (RT (rg_ntmp sc)) (RT (rg_ntmp sc + 1)) rroot (root_r _ _ _ _ I3 A3)
                    ltac:(intro H; injection H; lia)) as S4.
      apply Hrun2. rewrite <- app_assoc. apply (sim_out_app _ _ _ _ _ _ _ _ (S3 pl)).
      destruct (find_op pl pid) as [x|].
      * pose proof (Inv_tmp_none _ _ _ _ _ _ (OVals (op_results x)) I3) as I4.
        pose proof (Inv_tmp_none _ _ _ _ _ _ (OTypes (o_rtys x)) I4) as I5.
        assert (X5 : ext regs3 ((RT (rg_ntmp sc + 1), OTypes (o_rtys x)) :: (RT (rg_ntmp sc), OVals (op_results x)) :: regs3)).
        { eapply ext_trans; [eapply ext_tmp; exact I3 | eapply (ext_tmp _ _ _ _ _ _ _ I4)]. }
        apply (sim_out_app _ _ _ _ _ _ _ _ S4).
        refine (sim_create _ l name operands attrs ro ra _ _ e _ pl (Some (o_rtys x)) I5 HR
                  (agree_ext _ _ _ _ _ (ext_trans _ _ _ X3 X5) Fo) (agree_ext _ _ _ _ _ (ext_trans _ _ _ X3 X5) Fa) _).
        cbn [rr_types]. rewrite rrlookup_cons_eq, Hrange, app_nil_r. reflexivity.
      * (* the root is gone: both raise *)
        pose proof (runs_fail fx pid _ [RCreateOp (RT (rg_ntmp sc + 1 + 1)) name ro (combine (map fst attrs) ra) [RT (rg_ntmp sc + 1)]] _ _ S4) as S5.
        destruct (all_some (map (fun v => get_val e (vref_key v)) operands)); [| intros _; exact S5].
        destruct (all_some (map _ attrs)); intros _; exact S5.
    + (* Strategy 4: no declared types, no results *)
      unfold rtmp in Hg. injection Hg as <- <-. cbn [rg_used] in Hp. rewrite andb_false_r.
      destruct Hpa as (regs2 & I2 & Fo & Fa & Hrun2); [exact Hp |].
      apply Hrun2. exact (sim_create _ l name operands attrs ro ra [] sb e regs2 pl (Some []) I2 HR Fo Fa eq_refl).
  - (* Strategy 1: declared result types *)
    destruct (map_values fx P inp sb (map tref_key (t0 :: tys))) as [[[sc cc] rt]|] eqn:Ec; [| discriminate].
    unfold rtmp in Hg. injection Hg as <- <-. cbn [rg_used] in Hp.
    destruct Hpa as (regs2 & I2 & Fo & Fa & Hrun2); [exact (grows_pre _ _ _ _ (map_values_grows _ _ _ _ _ _ _ _ Ec) Hp) |].
    destruct (mvs_sim _ _ _ _ _ _ _ I2 Hbt Ec Hp) as (regs3 & S3 & I3 & F3 & X3).
    apply Hrun2, (sim_out_app _ _ _ _ _ _ _ _ (S3 pl)).
    refine (sim_create _ l name operands attrs ro ra rt sc e regs3 pl _ I3 HR
              (agree_ext _ _ _ _ _ X3 Fo) (agree_ext _ _ _ _ _ X3 Fa) _).
    destruct (all_some (map (fun t => get_type e (tref_key t)) (t0 :: tys))) as [ts|] eqn:Dt.
    + exact (rr_types_agree fx _ _ _ _ _ F3 Dt).
    + intros [HN _]. rewrite (rr_types_exact _ _ _ _ F3 HN). exact Dt.
Qed.

Lemma sim_result : forall l lop idx, stmt_ok (SResult l lop idx).
Proof.
  intros l lop idx later st st1 c1 e regs pl HI HR Hg Hp _. cbn [gen_stmt] in Hg.
  destruct (map_value fx P inp st (KLocal lop)) as [[[sa ca] r]|] eqn:Ea; [| discriminate].
  unfold rtmp in Hg. injection Hg as <- <-. cbn [rg_used] in Hp.
  destruct (mv_sim _ _ _ _ _ _ _ HI (local_bound0 e0 lop) Ea Hp) as (regs1 & S1 & I1 & A1 & X1).
  apply (sim_out_app _ _ _ _ _ _ _ _ (S1 pl)). cbn [step_rw].
  pose proof (run_get_result fx pid e regs1 pl (RT (rg_ntmp sa)) r (KLocal lop) idx A1) as S2.
  destruct (get_opid e (KLocal lop)) as [p|] eqn:Dg; [| intros _; exact S2].
  destruct (find_op pl p) as [x|] eqn:Df; [| intros _; exact S2].
  destruct ((0 <=? idx) && (idx <? zlen (o_rtys x))) eqn:Dr.
  - eexists. split; [exact S2 | split; [apply (Inv_local _ _ _ Hnoloc); exact I1 | exact HR]].
  - (* beyond the results the rewriter would go on with a null value: excluded by the fragment *)
    intros [_ Ht]. rewrite (Ht p x Dg Df) in Dr. discriminate.
Qed.

Lemma sim_replace_vals : forall vs, stmt_ok (SReplaceVals vs).
Proof.
  intros vs later st st1 c1 e regs pl HI HR Hg Hp Hb. cbn [gen_stmt] in Hg. cbn [stmt_keys] in Hb.
  destruct (map_values fx P inp st (map vref_key vs)) as [[[sa ca] rs]|] eqn:Ea; [| discriminate].
  destruct (map_value fx P inp sa (KOp (op_id rootpat))) as [[[sb cb] rroot]|] eqn:Eb; [| discriminate].
  injection Hg as <- <-.
  destruct (mvs_sim _ _ _ _ _ _ _ HI Hb Ea (grows_pre _ _ _ _ (map_value_grows _ _ _ _ _ _ _ _ Eb) Hp))
    as (regs1 & S1 & I1 & F1 & X1).
  destruct (mv_sim _ _ _ _ _ _ _ I1 root_b Eb Hp) as (regs2 & S2 & I2 & A2 & X2).
  apply (sim_out_app _ _ _ _ _ _ _ _ (S1 pl)), (sim_out_app _ _ _ _ _ _ _ _ (S2 pl)). cbn [step_rw].
  destruct vs as [|v0 vs]; [intros [_ Ht]; exfalso; apply Ht; reflexivity |].
  destruct rs as [|r0 rs]; [inversion F1 |].
  pose proof (run_replace fx pid regs2 pl rroot (map (fun r => (false, r)) (r0 :: rs)) (root_r _ _ _ _ I2 A2)) as S3.
  rewrite repl_values_false, (rr_val_agree e regs2 _ vref_key (v0 :: vs) (r0 :: rs) (agree_ext _ _ _ _ _ X2 F1)) in S3.
  destruct (all_some (map (fun v => get_val e (vref_key v)) (v0 :: vs))) as [news|]; [| intros _; exact S3].
  destruct (replace_op pl pid news) as [pl'|] eqn:Dp; [| intros _; exact S3].
  exists regs2. split; [exact S3 | split; [exact I2 | apply RI_gone; eapply find_after_replace; exact Dp]].
Qed.

Lemma sim_replace_op : forall l, stmt_ok (SReplaceOp l).
Proof.
  intros l later st st1 c1 e regs pl HI HR Hg Hp _. cbn [gen_stmt] in Hg. cbn [step_rw].
  destruct (op_rtys rootpat) as [|t0 ts0] eqn:Ert.
  - (* a root without result types is erased by the lowering; the direct rewrite does the same for a replacement
       without results and fails for one with results, which the fragment excludes *)
    destruct (map_value fx P inp st (KOp (op_id rootpat))) as [[[sa ca] rroot]|] eqn:Ea; [| discriminate].
    injection Hg as <- <-.
    destruct (mv_sim _ _ _ _ _ _ _ HI root_b Ea Hp) as (regs1 & S1 & I1 & A1 & X1).
    apply (sim_out_app _ _ _ _ _ _ _ _ (S1 pl)).
    pose proof (run_erase fx pid Herase regs1 pl rroot (root_r _ _ _ _ I1 A1)) as S2.
    assert (Hty : NR e /\ typed (SReplaceOp l) e pl ->
              exists p xn, get_opid e (KLocal l) = Some p /\ find_op pl p = Some xn /\ op_results xn = []).
    { intros [_ Ht]. destruct (Ht Ert) as (p & xn & H1 & H2 & H3). exists p, xn. unfold op_results. rewrite H3. auto. }
    destruct (get_opid e (KLocal l)) as [p|] eqn:Dg; [| intro HG; destruct (Hty HG) as (p & xn & H1 & _); congruence].
    destruct (find_op pl p) as [xn|] eqn:Df; [| intro HG; destruct (Hty HG) as (p' & xn & H1 & H2 & _); congruence].
    rewrite (replace_resultless _ _ _ _ HR Ert).
    destruct (op_results xn) eqn:Hn; [| intro HG; destruct (Hty HG) as (p' & xn' & H1 & H2 & H3); congruence].
    destruct (find_op pl pid); [| intros _; exact S2].
    destruct (erase_op pl pid) as [pl'|] eqn:De; [| intros _; exact S2].
    exists regs1. split; [exact S2 | split; [exact I1 | apply RI_gone; eapply find_after_erase; exact De]].
  - destruct (map_value fx P inp st (KLocal l)) as [[[sa ca] r]|] eqn:Ea; [| discriminate].
    unfold rtmp in Hg.
    match type of Hg with context [map_value fx P inp ?s (KOp (op_id rootpat))] => set (sa' := s) in * end.
    destruct (map_value fx P inp sa' (KOp (op_id rootpat))) as [[[sb cb] rroot]|] eqn:Eb; [| discriminate].
    injection Hg as <- <-.
    assert (Hpa : pre (rg_used sa) usedF) by exact (grows_pre _ _ _ _ (map_value_grows _ _ _ _ _ _ _ _ Eb) Hp).
    destruct (mv_sim _ _ _ _ _ _ _ HI (local_bound0 e0 l) Ea Hpa) as (regs1 & S1 & I1 & A1 & X1).
    apply (sim_out_app _ _ _ _ _ _ _ _ (S1 pl)).
    pose proof (run_get_results fx pid e regs1 pl (RT (rg_ntmp sa)) r (KLocal l) A1) as S2.
    destruct (get_opid e (KLocal l)) as [p|]; [| intros _; exact (runs_fail fx pid [_] _ _ _ S2)].
    destruct (find_op pl p) as [xn|]; [| intros _; exact (runs_fail fx pid [_] _ _ _ S2)].
    apply (sim_out_app _ _ _ _ _ _ _ _ S2).
    pose proof (Inv_tmp_none _ _ _ _ _ _ (OVals (op_results xn)) I1) as I1'. fold sa' in I1'.
    destruct (mv_sim _ _ _ _ _ _ _ I1' root_b Eb Hp) as (regs2 & S3 & I2 & A2 & X2).
    apply (sim_out_app _ _ _ _ _ _ _ _ (S3 pl)).
    pose proof (run_replace fx pid regs2 pl rroot [(true, RT (rg_ntmp sa))] (root_r _ _ _ _ I2 A2)) as S4.
    cbn [repl_values] in S4. rewrite (X2 _ _ (rrlookup_cons_eq _ _ _)), app_nil_r in S4.
    destruct (replace_op pl pid (op_results xn)) as [pl'|] eqn:Dp; [| intros _; exact S4].
    exists regs2. split; [exact S4 | split; [exact I2 | apply RI_gone; eapply find_after_replace; exact Dp]].
Qed.

Lemma sim_erase : stmt_ok SErase.
Proof.
  intros later st st1 c1 e regs pl HI HR Hg Hp _. cbn [gen_stmt] in Hg.
  destruct (map_value fx P inp st (KOp (op_id rootpat))) as [[[sa ca] rroot]|] eqn:Ea; [| discriminate].
  injection Hg as <- <-.
  destruct (mv_sim _ _ _ _ _ _ _ HI root_b Ea Hp) as (regs1 & S1 & I1 & A1 & X1).
  apply (sim_out_app _ _ _ _ _ _ _ _ (S1 pl)). cbn [step_rw].
  pose proof (run_erase fx pid Herase regs1 pl rroot (root_r _ _ _ _ I1 A1)) as S2.
  destruct (find_op pl pid); [| intros _; exact S2].
  destruct (erase_op pl pid) as [pl'|] eqn:De; [| intros _; exact S2].
  exists regs1. split; [exact S2 | split; [exact I1 | apply RI_gone; eapply find_after_erase; exact De]].
Qed.

(* stmt_ok s: the code generated for s simulates the direct step of s from related states (sim_out), its failure
   included once NR and `typed` hold *)
Theorem stmt_sim : forall s, stmt_ok s.
Proof.
  destruct s; [apply sim_attr | apply sim_type | apply sim_op_stmt | apply sim_result | apply sim_replace_vals
               | apply sim_replace_op | apply sim_erase].
Qed.

Lemma step_rw_bound : forall s later e pl r,
  step_rw fx pid s later e pl = Some r -> Forall (fun k => klookup e k <> None) (stmt_keys s).
Proof.
  intros s later e pl r H.
  assert (Hop : forall k, get_opid e k <> None -> klookup e k <> None)
    by (intros k Hk; unfold get_opid in Hk; destruct (klookup e k); congruence).
  assert (Hval : forall v, get_val e (vref_key v) <> None -> klookup e (vref_key v) <> None)
    by (intros v Hv; unfold get_val in Hv; destruct (klookup e (vref_key v)); congruence).
  destruct s; cbn [step_rw] in H; cbn [stmt_keys].
  - constructor.
  - constructor.
  - destruct (all_some (map (fun v => get_val e (vref_key v)) operands)) eqn:Dv; [| discriminate].
    destruct (all_some (map _ attrs)) eqn:Da; [| discriminate].
    apply Forall_app. split; [exact (all_some_bound e _ _ vref_key _ _ _ Hval Dv) |]. apply Forall_app. split.
    + refine (all_some_bound e _ _ (fun na => aref_key (snd na)) _ _ _ _ Da).
      intros [n a] Ha. cbn [fst snd] in *. unfold get_attr in Ha. destruct (klookup e (aref_key a)); congruence.
    + destruct tys as [|t0 tys]; [constructor |].
      destruct (all_some (map (fun t => get_type e (tref_key t)) (t0 :: tys))) eqn:Dt; [| discriminate].
      refine (all_some_bound e _ _ tref_key _ _ _ _ Dt).
      intros t Ht. unfold get_type in Ht. destruct (klookup e (tref_key t)); congruence.
  - constructor; [| constructor]. apply Hop. destruct (get_opid e (KLocal lop)); [discriminate | discriminate H].
  - destruct vs as [|v0 vs]; [discriminate |].
    destruct (all_some (map (fun v => get_val e (vref_key v)) (v0 :: vs))) eqn:Dv; [| discriminate].
    exact (all_some_bound e _ _ vref_key _ _ _ Hval Dv).
  - constructor; [| constructor]. apply Hop. destruct (get_opid e (KLocal l)); [discriminate | discriminate H].
  - constructor.
Qed.

Theorem stmts_sim : forall l st stF code e regs pl plF,
  Inv' e st regs -> gen_stmts fx P inp rootpat st l = Some (stF, code) -> pre (rg_used stF) usedF ->
  RI rootpat pid pl ->
  run_rw fx pid l e pl = ROk plF ->
  run_rewriter fx pid (code ++ [RFinalize]) regs pl = ROk plF.
Proof.
  induction l as [|s l IH]; intros st stF code e regs pl plF HI Hg Hpre HR Hd.
  - simpl in Hg. injection Hg as <- <-. exact Hd.
  - cbn [gen_stmts] in Hg. destruct (gen_stmt fx P inp rootpat st s l) as [[st1 c1]|] eqn:E1; [| discriminate].
    destruct (gen_stmts fx P inp rootpat st1 l) as [[st2 c2]|] eqn:E2; [| discriminate]. injection Hg as <- <-.
    rewrite run_rw_step in Hd. destruct (step_rw fx pid s l e pl) as [[e' pl']|] eqn:Es; [| discriminate].
    assert (Hb : Forall (bound0 e0) (stmt_keys s)).
    { eapply Forall_impl; [| exact (step_rw_bound _ _ _ _ _ Es)].
      intros k Hk Hnl. rewrite <- (I_env _ _ _ _ _ _ HI k Hnl). exact Hk. }
    pose proof (stmt_sim s l st st1 c1 e regs pl HI HR E1
                  (grows_pre _ _ _ _ (gen_stmts_grows _ _ _ _ _ _ _ _ E2) Hpre) Hb) as Ho.
    rewrite Es in Ho. destruct Ho as (regs' & S & HI' & HR'). rewrite <- app_assoc, S.
    exact (IH _ _ _ _ _ _ _ HI' E2 Hpre HR' Hd).
Qed.

Definition TY (t : tenv) (e : env) (pl : payload) : Prop :=
  forall l n, tlook t l = Some (Some n) ->
    exists id xn, klookup e (KLocal l) = Some (OOp id) /\ find_op pl id = Some xn /\ zlen (o_rtys xn) = n.
Lemma TY_nil : forall e pl, TY [] e pl.
Proof. intros e pl l n H. discriminate H. Qed.
Lemma TY_shadow : forall t e pl l w, TY t e pl -> TY ((l, None) :: t) ((KLocal l, w) :: e) pl.
Proof.
  intros t e pl l w H l' n Hl. simpl in Hl. destruct (l =? l') eqn:E; [discriminate |].
  destruct (H _ _ Hl) as (id & xn & H1 & H2 & H3). exists id, xn. split; [| auto].
  rewrite klookup_cons_neq; [exact H1 |]. intro X. inversion X. subst. rewrite Z.eqb_refl in E. discriminate.
Qed.
Lemma TY_create : forall t e pl root name vs ats ts pl' id l cnt,
  create_op pl root name vs ats ts = Some (pl', id) -> TY t e pl ->
  (forall n, cnt = Some n -> zlen ts = n) ->
  TY ((l, cnt) :: t) ((KLocal l, OOp id) :: e) pl'.
Proof.
  intros t e pl root name vs ats ts pl' id l cnt Hc H Hcnt l' n Hl. simpl in Hl. destruct (l =? l') eqn:E.
  - apply Z.eqb_eq in E. subst l'. inversion Hl; subst cnt.
    destruct (create_op_new _ _ _ _ _ _ _ _ Hc) as (xn & H1 & H2). exists id, xn.
    split; [apply klookup_cons_eq | split; [exact H1 | rewrite H2; apply Hcnt; reflexivity]].
  - destruct (H _ _ Hl) as (id' & xn & H1 & H2 & H3). exists id', xn. split; [| split; [eapply create_op_old; eassumption | exact H3]].
    rewrite klookup_cons_neq; [exact H1 |]. intro X. inversion X. subst. rewrite Z.eqb_refl in E. discriminate.
Qed.

(* the payload root has as many results as the pattern root declares (until it is replaced / erased) *)
Definition RL (pl : payload) : Prop := forall x, find_op pl pid = Some x -> zlen (o_rtys x) = zlen (op_rtys rootpat).
Lemma RL_gone : forall pl, find_op pl pid = None -> RL pl.
Proof. intros pl H x Hx. congruence. Qed.
Lemma RL_create : forall pl name vs ats ts pl' id, create_op pl pid name vs ats ts = Some (pl', id) -> RL pl -> RL pl'.
Proof. intros pl name vs ats ts pl' id H HR x Hx. rewrite (create_op_find _ _ _ _ _ _ _ _ H) in Hx. apply HR. exact Hx. Qed.
Lemma RL_RI : forall pl, RL pl -> RI rootpat pid pl.
Proof.
  intros pl H Hn x Hx. specialize (H x Hx). rewrite Hn in H. destruct (o_rtys x); [reflexivity | discriminate H].
Qed.

Lemma step_rw_keeps : forall s later t e pl e' pl',
  NR e -> RL pl -> TY t e pl -> step_rw fx pid s later e pl = Some (e', pl') ->
  NR e' /\ RL pl' /\ TY (tstep rootpat t s later) e' pl'.
Proof.
  intros s later t e pl e' pl' HN HL HT H. destruct s; cbn [step_rw] in H; cbn [tstep].
  - injection H as <- <-. split; [apply NR_cons; [exact HN | exact I] | split; [exact HL | apply TY_shadow; exact HT]].
  - injection H as <- <-. split; [apply NR_cons; [exact HN | exact I] | split; [exact HL | apply TY_shadow; exact HT]].
  - destruct (all_some (map (fun v => get_val e (vref_key v)) operands)) as [vs|]; [| discriminate].
    destruct (all_some (map _ attrs)) as [ats|]; [| discriminate].
    match type of H with match ?ty with _ => _ end = _ => destruct ty as [ts|] eqn:Dt end; [| discriminate].
    destruct (create_op pl pid name vs ats ts) as [[pl1 id]|] eqn:Dc; [| discriminate]. injection H as <- <-.
    split; [apply NR_cons; [exact HN | exact I] | split; [eapply RL_create; eassumption |]].
    eapply TY_create; [exact Dc | exact HT |]. intros n Hn.
    destruct tys as [|t0 tys].
    + rewrite Hinfer in Dt. cbn [andb] in Dt. destruct (existsb (is_replace_with l) later).
      * destruct (find_op pl pid) as [x|] eqn:Df; [| discriminate]. injection Dt as <-. injection Hn as <-. exact (HL _ Df).
      * injection Dt as <-. injection Hn as <-. reflexivity.
    + injection Hn as <-. unfold zlen. rewrite (all_some_length _ _ _ _ _ Dt). reflexivity.
  - destruct (get_opid e (KLocal lop)) as [p|]; [| discriminate]. destruct (find_op pl p) as [x|]; [| discriminate].
    destruct ((0 <=? idx) && (idx <? zlen (o_rtys x))); [| discriminate]. injection H as <- <-.
    split; [apply NR_cons; [exact HN | exact I] | split; [exact HL | apply TY_shadow; exact HT]].
  - destruct vs as [|v0 vs]; [discriminate |].
    destruct (all_some (map (fun v => get_val e (vref_key v)) (v0 :: vs))) as [news|]; [| discriminate].
    destruct (replace_op pl pid news) as [pl1|] eqn:Dp; [| discriminate]. injection H as <- <-.
    split; [exact HN | split; [apply RL_gone; eapply find_after_replace; exact Dp | apply TY_nil]].
  - destruct (get_opid e (KLocal l)) as [p|]; [| discriminate]. destruct (find_op pl p) as [xn|]; [| discriminate].
    destruct (replace_op pl pid (op_results xn)) as [pl1|] eqn:Dp; [| discriminate]. injection H as <- <-.
    split; [exact HN | split; [apply RL_gone; eapply find_after_replace; exact Dp | apply TY_nil]].
  - destruct (find_op pl pid); [| discriminate]. destruct (erase_op pl pid) as [pl1|] eqn:De; [| discriminate].
    injection H as <- <-. split; [exact HN | split; [apply RL_gone; eapply find_after_erase; exact De | apply TY_nil]].
Qed.

Lemma frag_typed : forall t s e pl, TY t e pl -> frag rootpat t s = true -> typed s e pl.
Proof.
  intros t s e pl HT Hf. destruct s; cbn [frag] in Hf; cbn [typed]; try exact I.
  - destruct (tlook t lop) as [[n|]|] eqn:Et; try discriminate. destruct (HT _ _ Et) as (id & xn & Hl & Hx & Hn).
    intros p x Hp Hpx. unfold get_opid in Hp. rewrite Hl in Hp. injection Hp as <-.
    assert (x = xn) by congruence. subst x. rewrite Hn. exact Hf.
  - destruct vs; [discriminate | discriminate].
  - intro Ert. rewrite Ert in Hf. destruct (tlook t l) as [[[| |]|]|] eqn:Et; try discriminate.
    destruct (HT _ _ Et) as (id & xn & Hl & Hx & Hn). exists id, xn.
    split; [unfold get_opid; rewrite Hl; reflexivity | split; [exact Hx |]].
    destruct (o_rtys xn); [reflexivity | discriminate Hn].
Qed.

Theorem stmts_full : forall l t st stF code e regs pl,
  Inv' e st regs -> NR e -> gen_stmts fx P inp rootpat st l = Some (stF, code) -> pre (rg_used stF) usedF ->
  RL pl -> TY t e pl -> frag_all rootpat t l = true ->
  (forall s, In s l -> forall k, In k (stmt_keys s) -> ~ localk k -> klookup inp k <> None) ->
  run_rewriter fx pid (code ++ [RFinalize]) regs pl = run_rw fx pid l e pl.
Proof.
  induction l as [|s l IH]; intros t st stF code e regs pl HI HN Hg Hpre HL HT Hfr Hk.
  - simpl in Hg. injection Hg as <- <-. reflexivity.
  - cbn [gen_stmts] in Hg. destruct (gen_stmt fx P inp rootpat st s l) as [[st1 c1]|] eqn:E1; [| discriminate].
    destruct (gen_stmts fx P inp rootpat st1 l) as [[st2 c2]|] eqn:E2; [| discriminate]. injection Hg as <- <-.
    cbn [frag_all] in Hfr. apply andb_true_iff in Hfr. destruct Hfr as [Hfs Hfl].
    assert (Hb : Forall (bound0 e0) (stmt_keys s)).
    { apply Forall_forall. intros k Hin Hnl. destruct (klookup inp k) as [p|] eqn:Ei; [exact (HB _ _ Ei) |].
      exfalso. exact (Hk s (or_introl eq_refl) k Hin Hnl Ei). }
    pose proof (stmt_sim s l st st1 c1 e regs pl HI (RL_RI _ HL) E1
                  (grows_pre _ _ _ _ (gen_stmts_grows _ _ _ _ _ _ _ _ E2) Hpre) Hb) as Ho.
    rewrite run_rw_step, <- app_assoc.
    destruct (step_rw fx pid s l e pl) as [[e' pl']|] eqn:Es; cbn [sim_out] in Ho.
    + destruct Ho as (regs' & S & HI' & _). rewrite S.
      destruct (step_rw_keeps _ _ _ _ _ _ _ HN HL HT Es) as (HN' & HL' & HT').
      exact (IH _ _ _ _ _ _ _ HI' HN' E2 Hpre HL' HT' Hfl (fun s' Hs' => Hk s' (or_intror Hs'))).
    + apply Ho. split; [exact HN | exact (frag_typed _ _ _ _ HT Hfs)].
Qed.
End Full.
