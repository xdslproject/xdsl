(* C27/ProofsGuard.v -- a static, executable check on the ordered predicate list ("every dereference is
   preceded by the is_not_null check that protects it") and the proof that a chain passing it never raises. *)
From Coq Require Import ZArith List Bool Lia.
From XV Require Import C27.Model C27.ProofsChain C27.ProofsOrder.
Import ListNotations.
Local Open Scope Z_scope.

Definition is_value_pos (p : pos) : bool := match p with POperand _ _ | PResult _ _ => true | _ => false end.
(* the operation at position q is known to be present once the predicates in `seen` hold *)
Definition op_guarded (seen : list pred) (q : pos) : bool :=
  match q with
  | PRoot => true
  | PDefOp _ => mem_pred (q, QNotNull) seen
  | _ => false
  end.
Fixpoint guarded_pos (seen : list pred) (p : pos) : bool :=
  match p with
  | PRoot => true
  | POperand q _ | PResult q _ | PAttr q _ => guarded_pos seen q && op_guarded seen q
  | PDefOp q => guarded_pos seen q && is_value_pos q
  | PType q => guarded_pos seen q && is_value_pos q && mem_pred (q, QNotNull) seen
  end.
Definition guarded_pred (seen : list pred) (pq : pred) : bool :=
  guarded_pos seen (fst pq) &&
  match snd pq with
  | QName _ | QOperandCount _ | QResultCount _ => op_guarded seen (fst pq)
  | QEqual other => guarded_pos seen other
  | _ => true
  end.
Fixpoint guarded_list (seen : list pred) (l : list pred) : bool :=
  match l with
  | [] => true
  | x :: r => guarded_pred seen x && guarded_list (x :: seen) r
  end.
(* the whole compiled matcher of a pattern: predicates in chain order, then the positions handed to the rewriter *)
Definition compile_guarded (fx : fixes) (P : pattern) : bool :=
  let '(preds, inp) := extract fx P in
  match gen_stmts fx P inp (p_root P) rg_init (p_rw P) with
  | Some (st, _) => guarded_list [] (ordered preds) &&
                    forallb (guarded_pos (rev (ordered preds))) (rg_used st)
  | None => false
  end.

Section Sem.
Variable fx : fixes.
Variable pl : payload.
Variable root : Z.
Hypothesis Hroot : find_op pl root <> None.
Notation ev := (eval_pos fx pl root).

Definition op_like (v : obj) : Prop := v = ONull \/ exists pid, v = OOp pid /\ find_op pl pid <> None.
Definition val_like (v : obj) : Prop := v = ONull \/ exists w, v = OVal w.

Lemma kind_op : forall p v, ev p = Some v -> match p with PRoot | PDefOp _ => op_like v | _ => True end.
Proof.
  intros p v H. destruct p; try exact I.
  - simpl in H. inversion H; subst. right. eexists. split; [reflexivity | exact Hroot].
  - cbn [eval_pos] in H. destruct (ev p) as [[| | [k|pid k] | | | |]|]; try discriminate.
    + inversion H. left. reflexivity.
    + inversion H. left. reflexivity.
    + inversion H. destruct (find_op pl pid) eqn:E; [right; eexists; split; [reflexivity | congruence] | left; reflexivity].
Qed.
Lemma kind_val : forall p v, ev p = Some v -> is_value_pos p = true -> val_like v.
Proof.
  intros p v H Hp. destruct p; try discriminate; cbn [eval_pos] in H;
    destruct (as_op pl (ev p)) as [x|]; try discriminate; inversion H.
  - destruct (znth (o_operands x) i); [right; eauto | left; reflexivity].
  - destruct ((0 <=? i) && (i <? zlen (o_rtys x))); [right; eauto | left; reflexivity].
Qed.

Definition all_hold (seen : list pred) : Prop := forall x, In x seen -> eval_pred fx pl root x = Some true.

Lemma mem_pred_holds : forall seen x, all_hold seen -> mem_pred x seen = true -> eval_pred fx pl root x = Some true.
Proof. intros seen x H Hm. apply H. apply mem_pred_In. exact Hm. Qed.

Lemma op_guarded_sound : forall seen q v,
  all_hold seen -> op_guarded seen q = true -> ev q = Some v -> exists x, as_op pl (Some v) = Some x.
Proof.
  intros seen q v Hall Hg Hv. pose proof (kind_op q v Hv) as Hk. destruct q; try discriminate.
  - destruct Hk as [-> | (pid & -> & Hf)]; [simpl in Hv; discriminate |].
    simpl. destruct (find_op pl pid); [eauto | congruence].
  - simpl in Hg. pose proof (mem_pred_holds _ _ Hall Hg) as Hh. unfold eval_pred in Hh. simpl fst in Hh.
    rewrite Hv in Hh. simpl in Hh.
    destruct Hk as [-> | (pid & -> & Hf)]; [simpl in Hh; discriminate |].
    simpl. destruct (find_op pl pid); [eauto | congruence].
Qed.

Lemma op_guarded_as_op : forall seen q, all_hold seen ->
  (guarded_pos seen q = true -> exists v, ev q = Some v) ->
  guarded_pos seen q && op_guarded seen q = true -> exists x, as_op pl (ev q) = Some x.
Proof.
  intros seen q Hall IH Hg. apply andb_true_iff in Hg. destruct Hg as [H1 H2]. destruct (IH H1) as [v Hv].
  rewrite Hv. exact (op_guarded_sound _ _ _ Hall H2 Hv).
Qed.

Lemma guarded_pos_sound : forall seen p, all_hold seen -> guarded_pos seen p = true -> exists v, ev p = Some v.
Proof.
  intros seen p Hall. induction p; intro Hg; cbn [guarded_pos] in Hg.
  - eexists. reflexivity.
  - destruct (op_guarded_as_op _ _ Hall IHp Hg) as [x Hx]. cbn [eval_pos]. rewrite Hx. eauto.
  - apply andb_true_iff in Hg. destruct Hg as [H1 H2]. destruct (IHp H1) as [v Hv].
    cbn [eval_pos]. rewrite Hv. destruct (kind_val _ _ Hv H2) as [-> | (w & ->)]; [eauto |]. destruct w; eauto.
  - destruct (op_guarded_as_op _ _ Hall IHp Hg) as [x Hx]. cbn [eval_pos]. rewrite Hx. eauto.
  - destruct (op_guarded_as_op _ _ Hall IHp Hg) as [x Hx]. cbn [eval_pos]. rewrite Hx. eauto.
  - apply andb_true_iff in Hg. destruct Hg as [H12 H3]. apply andb_true_iff in H12. destruct H12 as [H1 H2].
    destruct (IHp H1) as [v Hv]. pose proof (mem_pred_holds _ _ Hall H3) as Hh.
    unfold eval_pred in Hh. simpl fst in Hh. rewrite Hv in Hh. simpl in Hh.
    cbn [eval_pos]. rewrite Hv. destruct (kind_val _ _ Hv H2) as [-> | (w & ->)]; [simpl in Hh; discriminate | eauto].
Qed.

Lemma guarded_pred_sound : forall seen pq, all_hold seen -> guarded_pred seen pq = true -> eval_pred fx pl root pq <> None.
Proof.
  intros seen [p q] Hall Hg. unfold guarded_pred in Hg. cbn [fst snd] in Hg. apply andb_true_iff in Hg.
  destruct Hg as [H1 H2]. destruct (guarded_pos_sound _ _ Hall H1) as [v Hv]. unfold eval_pred. cbn [fst snd]. rewrite Hv.
  destruct q; cbn [eval_quest]; try discriminate.
  - destruct (op_guarded_sound _ _ _ Hall H2 Hv) as [x ->]. discriminate.
  - destruct (op_guarded_sound _ _ _ Hall H2 Hv) as [x ->]. discriminate.
  - destruct (op_guarded_sound _ _ _ Hall H2 Hv) as [x ->]. discriminate.
  - destruct (guarded_pos_sound _ _ Hall H2) as [w ->]. discriminate.
Qed.

Lemma guarded_pos_mono : forall seen seen' p,
  (forall x, mem_pred x seen = true -> mem_pred x seen' = true) -> guarded_pos seen p = true -> guarded_pos seen' p = true.
Proof.
  intros seen seen' p Hsub. induction p; cbn [guarded_pos]; intro H; try reflexivity;
    repeat (apply andb_true_iff in H; destruct H as [H ?]); repeat (apply andb_true_iff; split); auto;
    try (match goal with H : op_guarded seen ?q = true |- op_guarded seen' ?q = true => destruct q; simpl in *; auto end).
Qed.

(* a guarded list never raises; `seen` = the predicates already passed, which all hold *)
Lemma guarded_list_sound : forall l seen used,
  all_hold seen -> guarded_list seen l = true ->
  forallb (guarded_pos (rev l ++ seen)) used = true ->
  seq_eval fx pl root l used <> IErr.
Proof.
  induction l as [|x l IH]; intros seen used Hall Hg Hu; cbn [seq_eval].
  - simpl in Hu. destruct (all_some (map ev used)) eqn:E; [discriminate |]. exfalso.
    clear Hg. induction used as [|p used IHu]; [discriminate |].
    simpl in Hu. apply andb_true_iff in Hu. destruct Hu as [H1 H2]. destruct (guarded_pos_sound _ _ Hall H1) as [v Hv].
    simpl in E. rewrite Hv in E. destruct (all_some (map ev used)); [discriminate | auto].
  - cbn [guarded_list] in Hg. apply andb_true_iff in Hg. destruct Hg as [H1 H2].
    pose proof (guarded_pred_sound _ _ Hall H1) as Hx.
    destruct (eval_pred fx pl root x) as [[|]|] eqn:E; try discriminate; [| congruence].
    apply (IH (x :: seen)).
    + intros y [<- | Hy]; [exact E | apply Hall; exact Hy].
    + exact H2.
    + simpl rev in Hu. rewrite <- app_assoc in Hu. exact Hu.
Qed.
End Sem.

Theorem compile_guarded_no_raise : forall fx P pl x c,
  compile_guarded fx P = true -> find_op pl (o_id x) = Some x -> compile fx P = Some c ->
  interp_match fx c pl x <> IErr.
Proof.
  intros fx P pl x c Hg Hx Hc. unfold compile_guarded, compile in *.
  destruct (extract fx P) as [preds inp].
  destruct (gen_stmts fx P inp (p_root P) rg_init (p_rw P)) as [[st code]|]; [| discriminate].
  inversion Hc; subst c; clear Hc. apply andb_true_iff in Hg. destruct Hg as [H1 H2].
  unfold interp_match. cbn [c_matcher]. rewrite chain_sound.
  apply (guarded_list_sound fx pl (o_id x) ltac:(congruence) (ordered preds) [] (rg_used st)).
  - intros y [].
  - exact H1.
  - rewrite app_nil_r. exact H2.
Qed.
