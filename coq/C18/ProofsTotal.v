(* C18/ProofsTotal.v -- parse_pipeline is total: for every input string it returns specs,
   ArgSpecParseError, or the ValueError of int() on a literal of more than 4300 digits; reading
   past EOF (StopIteration), the assertion and fuel exhaustion are unreachable.  For inputs of at
   most 4300 characters the only exception is ArgSpecParseError. *)
From Coq Require Import ZArith List Bool Lia.
From XV Require Import C18.Model C18.ProofsLex.
Import ListNotations.
Local Open Scope Z_scope.

Section Total.
  Variable F : Type.
  Variable fparse : str -> F.
  Variable N : nat.                (* a bound on the input length *)
  Variable G : err -> Prop.        (* the exception kinds considered acceptable *)

  Definition tok_inv (t : tok) : Prop :=
    match t with
    | T k text => (length text <= N)%nat
    | _ => True
    end.
  Definition stream_ok (l : list tok) : Prop := well_terminated l /\ Forall tok_inv l.

  Lemma lexed_inv : forall s l, lexed s l -> (length s <= N)%nat -> Forall tok_inv l.
  Proof.
    induction 1 as [|s Hs Hn|s k t r l Hn Hl IH]; intros HN.
    - repeat constructor.
    - repeat constructor.
    - pose proof (next_token_consumes _ _ _ _ Hn) as [E _]. subst s.
      rewrite app_length in HN. constructor; [cbn; lia|apply IH; lia].
  Qed.

  Lemma lex_stream_ok : forall s, (length s <= N)%nat -> stream_ok (lex s).
  Proof.
    intros s HN. split; [apply lex_well_terminated|]. eapply lexed_inv; [apply lexed_lex|exact HN].
  Qed.

  Lemma stream_ok_nonempty : forall l, stream_ok l -> (0 < length l)%nat.
  Proof. intros l [Hw _]. inversion Hw; cbn; lia. Qed.

  Lemma stream_ok_inv : forall l, stream_ok l ->
    l = [TEOF] \/ l = [TLexErr] \/ exists k t l', l = T k t :: l' /\ tok_inv (T k t) /\ stream_ok l'.
  Proof.
    intros l [Hw Hf]. inversion Hw; subst; [left; reflexivity|right; left; reflexivity|].
    right; right. inversion Hf; subst. exists k, t, l0. split; [reflexivity|]. split; [assumption|]. split; assumption.
  Qed.

  Hypothesis G_argspec : G EArgSpec.
  Hypothesis G_value : forall t e, tok_inv t -> value_of_token F fparse t = Err e -> G e.

  Definition good_res {A} (P : A -> Prop) (r : res A) : Prop :=
    match r with Ok a => P a | Err e => G e end.

  Definition shorter (toks : list tok) {A} (x : A * list tok) : Prop :=
    stream_ok (snd x) /\ (length (snd x) < length toks)%nat.

  Tactic Notation "inv_stream" hyp(H) "as" ident(k) ident(t) ident(l) ident(Ht) ident(Hs) :=
    destruct (stream_ok_inv _ H) as [-> | [-> | (k & t & l & -> & Ht & Hs)]].

  Lemma stream_ok_cons : forall k t l, tok_inv (T k t) -> stream_ok l -> stream_ok (T k t :: l).
  Proof. intros k t l Ht [Hw Hf]. split; [constructor; exact Hw|constructor; assumption]. Qed.

  Lemma parse_values_total : forall n toks, (length toks <= n)%nat -> stream_ok toks ->
    good_res (shorter toks) (parse_values F fparse toks).
  Proof.
    induction n as [|n IH]; intros toks Hlen Hok.
    - apply stream_ok_nonempty in Hok. lia.
    - inv_stream Hok as k t l Ht Hs.
      + cbn. exact G_argspec.
      + cbn. exact G_argspec.
      + cbn [parse_values peek]. destruct (value_of_token F fparse (T k t)) as [v|e] eqn:Ev.
        2:{ cbn. eapply G_value; eassumption. }
        assert (Hs' := Hs). inv_stream Hs as k2 t2 l2 Ht2 Hs2.
        * cbn. split; [exact Hs'|cbn; lia].
        * cbn. exact G_argspec.
        * cbn [peek]. destruct k2; try (cbn; split; [exact Hs'|cbn; lia]).
          (* a comma: one more value *)
          specialize (IH l2 ltac:(cbn in Hlen; lia) Hs2).
          destruct (parse_values F fparse l2) as [[vs out]|e]; cbn in IH |- *.
          -- destruct IH as [Ho Hl]. split; [exact Ho|cbn in *; lia].
          -- exact IH.
  Qed.

  Lemma parse_params_total : forall fuel args toks, (length toks <= fuel)%nat -> stream_ok toks ->
    good_res (shorter toks) (parse_params F fparse fuel args toks).
  Proof.
    induction fuel as [|fuel IH]; intros args toks Hlen Hok.
    - apply stream_ok_nonempty in Hok. lia.
    - inv_stream Hok as k t l Ht Hs; try (cbn; exact G_argspec).
      cbn [parse_params peek tl].
      destruct k; try (cbn; exact G_argspec).
      + (* option name *)
        inv_stream Hs as k2 t2 l2 Ht2 Hs2; try (cbn; exact G_argspec).
        cbn [peek tl]. destruct k2; try (cbn; exact G_argspec).
        * (* `}` *)
          cbn. split; [exact Hs2|cbn; lia].
        * (* `=` *)
          pose proof (parse_values_total (length l2) l2 (le_n _) Hs2) as Hv.
          destruct (parse_values F fparse l2) as [[vs toks2]|e]; cbn in Hv; [|cbn; exact Hv].
          destruct Hv as [Ho2 Hl2]. cbn [snd] in *.
          inv_stream Ho2 as k3 t3 l3 Ht3 Hs3; try (cbn; exact G_argspec).
          cbn [peek tl]. destruct k3; try (cbn; exact G_argspec).
          -- cbn. split; [exact Hs3|cbn in *; lia].
          -- specialize (IH (dict_set args t vs) l3 ltac:(cbn in *; lia) Hs3).
             destruct (parse_params F fparse fuel (dict_set args t vs) l3) as [[a out]|e]; cbn in IH |- *; [|exact IH].
             destruct IH as [Ho Hl]. split; [exact Ho|cbn in *; lia].
        * (* space: next option *)
          specialize (IH (dict_set args t []) l2 ltac:(cbn in *; lia) Hs2).
          destruct (parse_params F fparse fuel (dict_set args t []) l2) as [[a out]|e]; cbn in IH |- *; [|exact IH].
          destruct IH as [Ho Hl]. split; [exact Ho|cbn in *; lia].
      + (* `}` at once *)
        cbn. split; [exact Hs|cbn; lia].
  Qed.

  Lemma parse_spec_total : forall fuel toks, (length toks <= fuel)%nat -> stream_ok toks ->
    good_res (shorter toks) (parse_spec F fparse fuel toks).
  Proof.
    intros fuel toks Hlen Hok. unfold parse_spec.
    inv_stream Hok as k t l Ht Hs; try (cbn; exact G_argspec).
    cbn [peek tl]. destruct k; try (cbn; exact G_argspec).
    assert (Hs' := Hs). inv_stream Hs as k2 t2 l2 Ht2 Hs2; try (cbn; exact G_argspec).
    - (* name EOF *) cbn. split; [exact Hs'|cbn; lia].
    - cbn [peek tl]. destruct k2; try (cbn; exact G_argspec).
      + (* { *)
        pose proof (parse_params_total fuel [] l2 ltac:(cbn in *; lia) Hs2) as Hp.
        destruct (parse_params F fparse fuel [] l2) as [[ps out]|e]; cbn in Hp |- *; [|exact Hp].
        destruct Hp as [Ho Hl]. split; [exact Ho|cbn in *; lia].
      + (* [...] *)
        destruct (str_eqb t s_mlir_opt); [|cbn; exact G_argspec].
        cbn. split; [exact Hs2|cbn; lia].
      + (* , *)
        cbn. split; [exact Hs'|cbn; lia].
  Qed.

  Lemma parse_pipeline_toks_total : forall fuel toks, (length toks <= fuel)%nat -> stream_ok toks ->
    good_res (fun _ => True) (parse_pipeline_toks F fparse fuel toks).
  Proof.
    induction fuel as [|fuel IH]; intros toks Hlen Hok.
    - apply stream_ok_nonempty in Hok. lia.
    - cbn [parse_pipeline_toks].
      pose proof (parse_spec_total (length toks) toks (le_n _) Hok) as Hsp.
      inv_stream Hok as k t l Ht Hs; try (cbn; first [exact I|exact G_argspec]).
      cbn [peek]. cbv iota.
      destruct (parse_spec F fparse (length (T k t :: l)) (T k t :: l)) as [[sp toks1]|e]; cbn in Hsp; [|cbn; exact Hsp].
      destruct Hsp as [Ho Hl]. cbn [snd] in *.
      inv_stream Ho as k2 t2 l2 Ht2 Hs2; try (cbn; first [exact I|exact G_argspec]).
      cbn [peek tl]. destruct k2; try (cbn; exact G_argspec).
      specialize (IH l2 ltac:(cbn in *; lia) Hs2).
      destruct (parse_pipeline_toks F fparse fuel l2); cbn in IH |- *; [exact I|exact IH].
  Qed.
End Total.

Section Results.
  Variable F : Type.
  Variable fparse : str -> F.

  (* the exception kinds parse_pipeline can raise *)
  Definition acceptable (e : err) : Prop := e = EArgSpec \/ e = EValue.

  Lemma unescape_errors : forall s e, unescape s = Err e -> e = EArgSpec.
  Proof.
    intros s e H. unfold unescape in H. destruct (unescape_items s) as [items|]; [|inversion H; reflexivity].
    destruct (decode_items items); inversion H; reflexivity.
  Qed.

  Lemma opt_sign_length : forall t sg ds, opt_sign t = (sg, ds) -> (length ds <= length t)%nat.
  Proof.
    intros t sg ds H. apply opt_sign_eq in H. subst. rewrite app_length. lia.
  Qed.

  (* errors of _parse_parameter_value_element, given a bound N on the token length *)
  Lemma value_errors : forall N t e, tok_inv N t -> value_of_token F fparse t = Err e ->
    e = EArgSpec \/ (e = EValue /\ max_str_digits < Z.of_nat N).
  Proof.
    intros N t e Hinv H. destruct t as [k text| | |]; cbn in H; try (inversion H; left; reflexivity).
    destruct k; try (inversion H; left; reflexivity).
    - destruct (str_eqb text s_true); [discriminate|]. destruct (str_eqb text s_false); discriminate.
    - destruct (mem 46 text); [discriminate|]. unfold parse_int in H.
      destruct (opt_sign text) as [sg ds] eqn:Es. apply opt_sign_length in Es. cbn in Hinv.
      destruct (max_str_digits <? Z.of_nat (length ds)) eqn:El; [|discriminate].
      apply Z.ltb_lt in El. inversion H. right. split; [reflexivity|lia].
    - destruct (unescape (removelast (tl text))) eqn:E; inversion H; subst.
      left. eapply unescape_errors. exact E.
  Qed.

  (* every exception of parse_pipeline: the pipeline parse error, or int() refusing a literal of more than
     4300 digits, which the input must then contain *)
  Lemma parse_errors : forall s,
    match parse_pipeline F fparse s with
    | Ok _ => True
    | Err e => e = EArgSpec \/ (e = EValue /\ max_str_digits < Z.of_nat (length s))
    end.
  Proof.
    intros s. unfold parse_pipeline.
    pose proof (parse_pipeline_toks_total F fparse (length s)
                  (fun e => e = EArgSpec \/ (e = EValue /\ max_str_digits < Z.of_nat (length s)))
                  (or_introl eq_refl) (value_errors (length s))
                  (length (lex s)) (lex s) (le_n _) (lex_stream_ok (length s) s (le_n _))) as H.
    destruct (parse_pipeline_toks F fparse (length (lex s)) (lex s)); exact H.
  Qed.

  Theorem parse_total : forall s,
    match parse_pipeline F fparse s with Ok _ => True | Err e => acceptable e end.
  Proof.
    intros s. pose proof (parse_errors s) as H. destruct (parse_pipeline F fparse s); [exact I|].
    destruct H as [->|[-> _]]; [left|right]; reflexivity.
  Qed.

  Theorem parse_total_short : forall s, Z.of_nat (length s) <= max_str_digits ->
    match parse_pipeline F fparse s with Ok _ => True | Err e => e = EArgSpec end.
  Proof.
    intros s Hlen. pose proof (parse_errors s) as H. destruct (parse_pipeline F fparse s); [exact I|].
    destruct H as [H|[_ H]]; [exact H|lia].
  Qed.
End Results.
