(* C19/ProofsFunc.v -- from the walk over a block to `allocate_func`: the initial state built by
   RegisterStack.get + exclude_register satisfies the invariant; the pool is never changed by the
   walk; what the invariant at every point means for the final assignment; the register-machine
   simulation. *)
From Coq Require Import ZArith List Bool Arith Lia.
From XV Require Import C19.Model C19.ProofsSpec C19.ProofsStack C19.ProofsAlloc C19.ProofsOp C19.ProofsStep
                       C19.ProofsMain C19.ProofsSem.
Import ListNotations.
Local Open Scope Z_scope.

Lemma all_sops_simple : forall sl, all_sops (map Simple sl) = sl.
Proof. induction sl as [|o t IH]; simpl; [reflexivity | rewrite IH; reflexivity]. Qed.

Lemma fold_res_map_simple : forall c sl a,
  fold_res (allocate_op c) (map Simple sl) a = fold_res (allocate_sop c) sl a.
Proof.
  intros c sl. induction sl as [|o t IH]; intros a; simpl; [reflexivity|].
  destruct (allocate_sop c o a); simpl; [apply IH | reflexivity].
Qed.

Lemma allocate_block_simple : forall c sl a, allocate_block c (map Simple sl) a = allocate_sops c sl a.
Proof.
  intros c sl a. unfold allocate_block, allocate_sops. rewrite <- map_rev. apply fold_res_map_simple.
Qed.

Definition same_pool (s s' : rstack) : Prop :=
  allocatable s' = allocatable s /\ allow_inf s' = allow_inf s.

Lemma same_pool_refl : forall s, same_pool s s.
Proof. intros s. split; reflexivity. Qed.
Lemma same_pool_trans : forall s1 s2 s3, same_pool s1 s2 -> same_pool s2 s3 -> same_pool s1 s3.
Proof. intros s1 s2 s3 [A1 B1] [A2 B2]. split; congruence. Qed.

Lemma pop_pool : forall s r s', pop s = Ok (r, s') -> same_pool s s'.
Proof. intros s r s' H. destruct (pop_cases_res s r s' H) as [A [_ [B _]]]. split; assumption. Qed.

Lemma push_pool : forall r s, same_pool s (push r s).
Proof. intros r s. destruct (push_fields r s) as [A [_ [_ B]]]. split; assumption. Qed.

(* functions on allocator states that leave the pool alone; closed under bind and fold *)
Definition keeps_pool (f : astate -> res astate) : Prop :=
  forall a a', f a = Ok a' -> same_pool (stk a) (stk a').

Lemma keeps_bind : forall f g, keeps_pool f -> keeps_pool g -> keeps_pool (fun a => bind (f a) g).
Proof.
  intros f g Hf Hg a a' H. destruct (f a) as [a1|e] eqn:E; [|discriminate].
  exact (same_pool_trans _ _ _ (Hf a a1 E) (Hg a1 a' H)).
Qed.

Lemma keeps_fold : forall {A} (f : A -> astate -> res astate) xs,
  (forall x, keeps_pool (f x)) -> keeps_pool (fold_res f xs).
Proof.
  intros A f xs Hf. induction xs as [|x t IH]; intros a a' H.
  - injection H as <-. apply same_pool_refl.
  - exact (keeps_bind (f x) (fold_res f t) (Hf x) IH a a' H).
Qed.

Lemma allocate_value_pool : forall c v, keeps_pool (allocate_value c v).
Proof.
  intros c v a a' H. unfold allocate_value, new_type_for_value in H.
  destruct (ty a v).
  - injection H as <-. apply same_pool_refl.
  - destruct (zero_rule c && memN v (zconsts c)).
    + injection H as <-. apply same_pool_refl.
    + destruct (pop (stk a)) as [[r s]|e] eqn:Ep; [|discriminate].
      injection H as <-. exact (pop_pool _ _ _ Ep).
Qed.

Lemma assign_all_stk : forall vals r a, stk (assign_all vals r a) = stk a.
Proof.
  intros vals r. unfold assign_all. induction vals as [|v t IH]; intros a; simpl; [reflexivity|].
  rewrite IH. destruct (opt_Z_eqb (ty a v) (Some r)); reflexivity.
Qed.

Lemma same_reg_pool : forall vals, keeps_pool (allocate_values_same_reg vals).
Proof.
  intros vals a a' H. unfold allocate_values_same_reg in H.
  destruct (dedupZ (somes (map (ty a) vals))) as [|r [|r2 rest]]; [destruct (existsb _ _)| |discriminate].
  - destruct (pop (stk a)) as [[r s]|e] eqn:Ep; [|discriminate].
    injection H as <-. rewrite assign_all_stk. exact (pop_pool _ _ _ Ep).
  - injection H as <-. apply same_pool_refl.
  - injection H as <-. rewrite assign_all_stk. apply same_pool_refl.
Qed.

Lemma fold_free_pool : forall vs a, same_pool (stk a) (stk (fold_left (fun a v => free_value v a) vs a)).
Proof.
  induction vs as [|v t IH]; intros a; simpl; [apply same_pool_refl|].
  apply (same_pool_trans _ (stk (free_value v a))); [|apply IH].
  unfold free_value. destruct (ty a v); [apply push_pool | apply same_pool_refl].
Qed.

Lemma allocate_sop_pool : forall c o, keeps_pool (allocate_sop c o).
Proof.
  intros c o. unfold allocate_sop.
  apply keeps_bind; [apply keeps_fold; intros p; apply same_reg_pool|].
  apply keeps_bind; [apply keeps_fold; exact (allocate_value_pool c)|].
  intros a2 a' H. apply (same_pool_trans _ _ _ (fold_free_pool (rev (s_outs o)) a2)).
  exact (keeps_fold _ (s_ins o) (allocate_value_pool c) _ a' H).
Qed.

Lemma allocate_sops_pool : forall c sl a a', allocate_sops c sl a = Ok a' -> same_pool (stk a) (stk a').
Proof. intros c sl. exact (keeps_fold _ (rev sl) (allocate_sop_pool c)). Qed.

(* the state `allocate_func` starts from, for any function *)
Section Init.
  Variable zr : bool.
  Variable pool : list Z.
  Variable allow : bool.
  Variable fn : func.
  Let c := mk_cfg zr fn.
  Let t0 := ty0 fn.
  Let a0 := init_state pool allow fn.

  Hypothesis Hin : input_ok zr pool fn.

  Lemma dedupZ_In : forall l x, In x (dedupZ l) <-> In x l.
  Proof.
    induction l as [|y t IH]; intros x; simpl; [split; intros []|].
    destruct (memZ y t) eqn:Em; split.
    - intros H. right. apply IH. exact H.
    - intros [<-|H]; apply IH; [apply memZ_In; exact Em | exact H].
    - intros [H|H]; [left; exact H | right; apply IH; exact H].
    - intros [H|H]; [left; exact H | right; apply IH; exact H].
  Qed.

  Lemma somes_In : forall (l : list (option Z)) x, In (Some x) l -> In x (somes l).
  Proof.
    induction l as [|[y|] t IH]; intros x H; simpl in *; [destruct H| |].
    - destruct H as [H|H]; [inversion H; left; reflexivity | right; apply IH; exact H].
    - destruct H as [H|H]; [discriminate | apply IH; exact H].
  Qed.

  Lemma pre_in_used : forall v r, ty0 fn v = Some r -> In r (used_registers fn).
  Proof.
    intros v r H. unfold used_registers. apply dedupZ_In. apply in_or_app. left. apply somes_In.
    unfold ty0 in H. rewrite <- H.
    destruct (nth_in_or_default v (fn_pre fn) None) as [Hnin|Hd]; [exact Hnin | rewrite Hd in H; discriminate].
  Qed.

  Lemma init_facts :
    excl_ok (stk a0)
    /\ (forall r, In r (allocatable (stk a0)) -> In r pool /\ ~ In r (used_registers fn))
    /\ allow_inf (stk a0) = allow
    /\ (forall k, In k (map fst (reserved (stk a0))) <-> In k (used_registers fn) /\ k < 0).
  Proof.
    destruct (stack_get_ok pool allow) as [Hb [Hsub Hal]].
    destruct (exclude_all (used_registers fn) _ (base_excl_ok _ Hb)) as [Hb' [Hexc [Hal' Hres]]].
    unfold a0, init_state. simpl. split; [exact Hb'|]. split; [|split].
    - intros r Hr. destruct (Hexc r Hr) as [H1 H2]. split; [apply Hsub; exact H1 | exact H2].
    - simpl in Hal'. rewrite Hal'. exact Hal.
    - intros k. simpl in Hres. split.
      + intros H. apply Hres in H. rewrite (b_res _ Hb) in H. destruct H as [[]|H]. exact H.
      + intros H. apply Hres. right. exact H.
  Qed.

  Lemma init_alloc_sub : forall r, In r (allocatable (stk a0)) -> In r pool /\ ~ In r (used_registers fn).
  Proof. exact (proj1 (proj2 init_facts)). Qed.

  Lemma init_sok : sok c t0 a0.
  Proof.
    destruct Hin as [Hzero Hpool].
    destruct init_facts as [He [Hsub [Hal Hres]]].
    assert (Hav_pool : forall r, In r (available (stk a0)) -> 0 <= r).
    { intros r Hr. apply Hpool. exact (proj1 (Hsub r (e_sub _ He r Hr))). }
    assert (Hisres : forall k, is_reserved k (stk a0) = true <-> In k (used_registers fn) /\ k < 0).
    { intros k. unfold is_reserved. rewrite memZ_In. exact (Hres k). }
    constructor.
    - exact (e_nodup_av _ He).
    - intros r Hr. left. exact (e_sub _ He r Hr).
    - intros r Hr. destruct (is_reserved r (stk a0)) eqn:E; [|reflexivity].
      apply Hisres in E. pose proof (Hav_pool r Hr). lia.
    - intros r Hr Hneg. pose proof (Hav_pool r Hr). lia.
    - intros v r Hr Hneg. unfold a0, init_state in Hr. simpl in Hr.
      assert (Hk : is_reserved r (stk a0) = true). { apply Hisres. split; [exact (pre_in_used v r Hr) | exact Hneg]. }
      unfold is_reserved in Hk. apply memZ_In in Hk. split; [exact (proj2 (e_res_neg _ He r Hk))|].
      right. exists v. exact Hr.
    - exact (e_next _ He).
    - intros k Hk _. unfold is_reserved in Hk. apply memZ_In in Hk. exact (proj2 (e_res_neg _ He k Hk)).
    - intros r [w Hw]. destruct (Z_lt_le_dec r 0) as [Hneg|Hge].
      + left. apply Hisres. split; [exact (pre_in_used w r Hw) | exact Hneg].
      + right. split; [exact Hge|]. intros Hc. exact (proj2 (Hsub r Hc) (pre_in_used w r Hw)).
    - intros Hz. unfold c, mk_cfg in Hz. simpl in Hz. destruct (Hzero Hz) as [Hn0 Hnp]. split.
      + intro Hc. exact (Hn0 (proj1 (Hsub 0 Hc))).
      + intros [w Hw]. exact (Hnp w Hw).
    - intros v r Hr. exact Hr.
    - intros v Hz Hr. exfalso. unfold c, mk_cfg in Hz. simpl in Hz.
      destruct (Hzero Hz) as [_ Hnp]. exact (Hnp v Hr).
    - intros v r Hr Hn. unfold a0, init_state in Hr. simpl in Hr. unfold t0 in Hn. rewrite Hn in Hr. discriminate.
  Qed.

  Lemma init_allow : allow_inf (stk a0) = allow.
  Proof. exact (proj1 (proj2 (proj2 init_facts))). Qed.
End Init.

Section Func.
  Variable zr : bool.
  Variable pool : list Z.
  Variable allow : bool.
  Variable pre : list (option Z).
  Variable sl : list sop.
  Let fn := mkFunc pre (map Simple sl).
  Let c := mk_cfg zr fn.
  Let t0 := ty0 fn.
  Let a0 := init_state pool allow fn.

  Hypothesis Hin : input_ok zr pool fn.

  Lemma cfg_zconsts : zconsts c = zero_consts sl.
  Proof. unfold c, mk_cfg, fn. simpl. rewrite all_sops_simple. reflexivity. Qed.

  Lemma func_is_walk : allocate_func zr pool allow fn = allocate_sops c sl a0.
  Proof. unfold allocate_func. simpl. apply allocate_block_simple. Qed.

  Hypothesis Hwf : wf_prog sl.
  Hypothesis Hio : io_ok sl.
  Variable af : astate.
  Hypothesis Hrun : allocate_func zr pool allow fn = Ok af.

  Let Hrun' : allocate_sops c sl a0 = Ok af.
  Proof. rewrite <- func_is_walk. exact Hrun. Qed.

  Lemma zr_is_rule : zero_rule c = zr.
  Proof. reflexivity. Qed.

  Lemma func_nz : forall o x y, In o sl -> In (x, y) (s_io o) -> ~ In y (zconsts c).
  Proof. rewrite cfg_zconsts. exact (io_not_zconst sl Hwf). Qed.

  (* nothing is live below the last operation *)
  Lemma inv_start : Inv c t0 (forced t0 sl) (live []) Enone (ment []) a0
    /\ (forall v, live [] v -> exists r, ty a0 v = Some r).
  Proof.
    assert (Hno : forall v, ~ live [] v) by (intros v [[o [[] _]] _]).
    split; [|intros v Hv; destruct (Hno v Hv)].
    split; [exact (init_sok zr pool allow fn Hin)|]. split; [|split; [|split]].
    - intros v r Hv. destruct (Hno v Hv).
    - intros v1 v2 r Hv. destruct (Hno v1 Hv).
    - intros v _. reflexivity.
    - intros v r Hv. destruct (Hno v Hv).
  Qed.

  (* the invariant at a point, from the run up to that point alone (the rest of the block need not succeed) *)
  Lemma walk_inv : forall s p a, sl = p ++ s -> allocate_sops c s a0 = Ok a ->
    Inv c t0 (forced t0 sl) (live s) Enone (ment s) a
    /\ (forall v, live s v -> exists r, ty a v = Some r) /\ mono a0 a.
  Proof.
    intros s p a Hl Ha. destruct inv_start as [HI0 Hall0].
    pose proof (walk_from c t0 _ (F_pre t0 sl) sl Hwf Hio func_nz (forced_tie t0 sl) s [] p a0 a) as W.
    rewrite app_nil_r in W. exact (W Hl HI0 Hall0 Ha).
  Qed.

  (* the whole block as one stretch walked from the initial state; the final state is the one reached *)
  Lemma func_seg : seg c t0 (forced t0 sl) sl [] sl [] a0 af.
  Proof.
    destruct inv_start as [HI0 Hall0].
    constructor; [exact (F_pre t0 sl) | exact Hwf | exact Hio | exact func_nz | exact (forced_tie t0 sl)
                 | symmetry; apply app_nil_r | exact HI0 | exact Hall0 | exact Hrun'].
  Qed.

  Lemma func_sok : sok c t0 af.
  Proof. exact (proj1 (proj1 (seg_top func_seg))). Qed.

  Theorem func_preallocated : forall v r, ty0 fn v = Some r -> ty af v = Some r.
  Proof. exact (so_mono c t0 af func_sok). Qed.

  Theorem func_reserved : forall v r, ty af v = Some r -> ty0 fn v = None ->
    In r pool \/ (r < 0 /\ allow = true) \/ (zr = true /\ r = 0 /\ In v (zero_consts sl))
    \/ (exists w, ty0 fn w = Some r).
  Proof.
    intros v r H Hn.
    destruct (allocate_sops_pool c sl a0 af Hrun') as [Hal Hallow].
    destruct (so_prov c t0 af func_sok v r H Hn) as [H1|[[H1 H2]|[[H1 [H2 H3]]|H1]]].
    - left. rewrite Hal in H1. exact (proj1 (init_alloc_sub pool allow fn r H1)).
    - right. left. split; [exact H1|]. rewrite Hallow in H2. exact (eq_trans (eq_sym (init_allow pool allow fn)) H2).
    - right. right. left. rewrite cfg_zconsts in H3. repeat split; assumption.
    - right. right. right. exact H1.
  Qed.

  (* every value live at a program point has a register *)
  Theorem func_live_allocated : forall p s v, sl = p ++ s -> live s v -> exists r, ty af v = Some r.
  Proof.
    intros p s v Hl Hv. rewrite <- (app_nil_r s) in Hv. exact (seg_live_allocated func_seg (mono_refl af) p s Hl Hv).
  Qed.

  (* two values live together share a register only if the input pre-assigned that register, or it
     is the zero register *)
  Theorem func_confined : forall p s v1 v2 r, sl = p ++ s -> live s v1 -> live s v2 -> v1 <> v2 ->
    ty af v1 = Some r -> ty af v2 = Some r -> (exists w, ty0 fn w = Some r) \/ (zr = true /\ r = 0).
  Proof.
    intros p s v1 v2 r Hl Hv1 Hv2. rewrite <- (app_nil_r s) in Hv1, Hv2.
    exact (seg_live_confined func_seg (mono_refl af) p s Hl Hv1 Hv2).
  Qed.

  (* a result is never written into the register of a value that is live after the operation *)
  Theorem func_def_confined : forall p o s d v r, sl = p ++ o :: s -> In d (defs o) -> live s v -> d <> v ->
    ty af d = Some r -> ty af v = Some r -> (exists w, ty0 fn w = Some r) \/ (zr = true /\ r = 0).
  Proof.
    intros p o s d v r Hl Hd Hv. rewrite <- (app_nil_r s) in Hv.
    exact (proj1 (proj2 (seg_def func_seg (mono_refl af) p o s Hl)) d v r Hd Hv).
  Qed.

  (* in/out operand and result end up in one register *)
  Theorem func_ties : forall o x y, In o sl -> In (x, y) (s_io o) -> ty af x = ty af y /\ ty af x <> None.
  Proof.
    intros o x y Ho Hxy. apply in_split in Ho. destruct Ho as [p [s Hl]].
    exact (seg_ties func_seg (mono_refl af) p o s x y Hl Hxy).
  Qed.

  (* THE ALLOCATOR INVARIANT at every point of the backward walk: after the operations of the suffix
     s have been processed, no register of a value that is live before s is available, and every such
     value has a register *)
  Theorem func_invariant : forall p s a, sl = p ++ s -> allocate_sops c s a0 = Ok a ->
    (forall v, live s v -> exists r, ty a v = Some r /\ ~ In r (available (stk a)))
    /\ NoDup (available (stk a)).
  Proof.
    intros p s a Hl Ha.
    destruct (walk_inv s p a Hl Ha) as [[Hs [H1 _]] [Hall _]].
    split; [|exact (so_nodup c t0 a Hs)].
    intros v Hv. destruct (Hall v Hv) as [r Hr]. exists r. split; [exact Hr | exact (H1 v r Hv Hr)].
  Qed.

  Theorem func_defs_allocated : forall p o s d, sl = p ++ o :: s -> In d (defs o) -> exists r, ty af d = Some r.
  Proof. intros p o s d Hl. exact (proj1 (seg_def func_seg (mono_refl af) p o s Hl) d). Qed.

  Lemma live_forced : forall p s v r, sl = p ++ s -> live s v -> ty af v = Some r -> Pset t0 r -> forced t0 sl v r.
  Proof.
    intros p s v r Hl Hv. rewrite <- (app_nil_r s) in Hv. exact (seg_live_forced func_seg (mono_refl af) p s Hl Hv).
  Qed.

  Lemma def_forced : forall p o s d r, sl = p ++ o :: s -> In d (defs o) -> ty af d = Some r -> Pset t0 r ->
    forced t0 sl d r.
  Proof. intros p o s d r Hl. exact (proj2 (proj2 (seg_def func_seg (mono_refl af) p o s Hl)) d r). Qed.

  (* full statements under the satisfiability of the input's own constraints: a shared pre-assigned
     register would be forced on both values, which forced_ok excludes; what remains is `zero` *)
  Hypothesis Hforced : forced_ok (ty0 fn) sl.

  Lemma zero_shared : forall v1 v2, zero_rule c = true -> ty af v1 = Some 0 -> ty af v2 = Some 0 ->
    In v1 (zero_consts sl) /\ In v2 (zero_consts sl).
  Proof.
    intros v1 v2 Hz H1 H2. rewrite <- cfg_zconsts.
    split; apply (so_zero_ty c t0 af func_sok); assumption.
  Qed.

  Theorem func_no_interference : forall p s v1 v2 r, sl = p ++ s -> live s v1 -> live s v2 -> v1 <> v2 ->
    ty af v1 = Some r -> ty af v2 = Some r ->
    zr = true /\ r = 0 /\ In v1 (zero_consts sl) /\ In v2 (zero_consts sl).
  Proof.
    intros p s v1 v2 r Hl Hv1 Hv2 Hne H1 H2.
    destruct (func_confined p s v1 v2 r Hl Hv1 Hv2 Hne H1 H2) as [HP|[Hzr ->]]; [|exact (conj Hzr (conj eq_refl (zero_shared v1 v2 Hzr H1 H2)))].
    destruct (proj1 Hforced p s Hl v1 v2 r Hv1 Hv2 Hne);
      [exact (live_forced p s v1 r Hl Hv1 H1 HP) | exact (live_forced p s v2 r Hl Hv2 H2 HP)].
  Qed.

  Theorem func_no_clobber : forall p o s d v r, sl = p ++ o :: s -> In d (defs o) -> live s v -> d <> v ->
    ty af d = Some r -> ty af v = Some r ->
    zr = true /\ r = 0 /\ In d (zero_consts sl) /\ In v (zero_consts sl).
  Proof.
    intros p o s d v r Hl Hd Hv Hne H1 H2.
    destruct (func_def_confined p o s d v r Hl Hd Hv Hne H1 H2) as [HP|[Hzr ->]]; [|exact (conj Hzr (conj eq_refl (zero_shared d v Hzr H1 H2)))].
    destruct (proj2 Hforced p o s Hl d v r Hd Hv Hne); [exact (def_forced p o s d r Hl Hd H1 HP)|].
    assert (Hl' : sl = (p ++ [o]) ++ s) by (rewrite <- app_assoc; exact Hl).
    exact (live_forced (p ++ [o]) s v r Hl' Hv H2 HP).
  Qed.

  Definition asg_of (a : astate) (v : value) : Z := match ty a v with Some r => r | None => -1 end.

  Section Sem.
    Variable data : Type.
    Variable dzero : data.
    Variable fop : nat -> nat -> list data -> data.
    Variable env0 : value -> data.
    Variable rf0 : Z -> data.
    Hypothesis Hinit : forall v, live sl v -> read_reg data dzero zr (asg_of af) rf0 v = env0 v.

    Theorem func_semantics : forall p o s, sl = p ++ o :: s -> forall v, In v (uses o) ->
      read_reg data dzero zr (asg_of af) (exec_regs data dzero fop zr (asg_of af) 0 p rf0) v
      = exec_ssa data dzero fop 0 p env0 v.
    Proof.
      apply (sim_operands data dzero fop zr (asg_of af) sl Hwf).
      - (* live together *)
        intros p s Hl v1 v2 Hv1 Hv2 Hne Heq. unfold asg_of in *.
        destruct (func_live_allocated p s v1 Hl Hv1) as [r1 Hr1].
        destruct (func_live_allocated p s v2 Hl Hv2) as [r2 Hr2].
        rewrite Hr1, Hr2 in Heq. subst r2. rewrite Hr1.
        destruct (func_no_interference p s v1 v2 r1 Hl Hv1 Hv2 Hne Hr1 Hr2) as [Hz [Hr _]].
        subst r1. unfold is_zero_reg. rewrite Hz. reflexivity.
      - (* definition vs live *)
        intros p o s Hl d v Hd Hv Hne Heq. unfold asg_of in *.
        destruct (func_defs_allocated p o s d Hl Hd) as [r1 Hr1].
        assert (Hl' : sl = (p ++ [o]) ++ s). { rewrite <- app_assoc. exact Hl. }
        destruct (func_live_allocated (p ++ [o]) s v Hl' Hv) as [r2 Hr2].
        rewrite Hr1, Hr2 in Heq. subst r2. rewrite Hr1.
        destruct (func_no_clobber p o s d v r1 Hl Hd Hv Hne Hr1 Hr2) as [Hz [Hr _]].
        subst r1. unfold is_zero_reg. rewrite Hz. reflexivity.
      - (* zero register holds only constants zero *)
        intros v Hzv. unfold asg_of, is_zero_reg in Hzv. apply andb_true_iff in Hzv. destruct Hzv as [Hz Hr].
        destruct (ty af v) as [r|] eqn:Er; [|discriminate]. apply Z.eqb_eq in Hr. subst r.
        rewrite <- cfg_zconsts.
        apply (so_zero_ty c t0 af func_sok v); assumption.
      - exact Hinit.
    Qed.
  End Sem.
End Func.
