(* C05/ProofsWit.v -- evaluations.  On literal copies of five generated formats: three of the four
   conjuncts of side_ok are necessary (short_lead_ok has no witness), and two formats that the checker
   rejects are genuinely ambiguous.  On the regenerated table Gen/C05_formats.v: every format but the
   listed ones passes the checker, and the hypotheses of the theorem are satisfiable (arith.addi). *)
From Coq Require Import ZArith String Bool Arith List Lia.
From XV Require Import C05.Model C05.Check C05.ProofsBase C05.Proofs Gen.C05_formats.
Import ListNotations.
Local Open Scope string_scope.
Local Open Scope list_scope.

Fixpoint find_fmt (n : string) (l : list (string * (opdef * format))) : option (opdef * format) :=
  match l with
  | [] => None
  | (k, x) :: r => if String.eqb k n then Some x else find_fmt n r
  end.
Definition the_def (n : string) : opdef :=
  match find_fmt n all_formats with Some (d, _) => d | None => mkOpdef [] [] [] [] [] false end.
Definition the_fmt (n : string) : format :=
  match find_fmt n all_formats with Some (_, f) => f | None => [] end.

(* The witness formats below are literal copies of what the translator generated from the unchanged
   tree (func.call, func.return, llvm.fadd, pdl.replace, smt.declare_fun), not the entries of
   Gen/C05_formats.v: a refutation is a record that does not move when the table is regenerated;
   whether the real code still fails is replayed on every run (known_findings.d/C05.json). *)
Definition av1 : av := mkAv 1 LType LNone.
Definition d_call : opdef := mkOpdef [mkVdef KVar TCAny] [mkVdef KVar TCAny] [mkAdef "callee" false None None] [] [] false.
Definition f_call : format :=
  [DE (EAttr "callee" true AKGeneric false None); DE (ELit "(" LParen); DE (EVals (SOperand 0)); DE (ELit ")" LNone);
   DE (EAttrDict false ["operandSegmentSizes"] []); DE (ELit ":" LNone); DE (EFunTy (SOperand 0) (SResult 0))].
Definition d_return : opdef := mkOpdef [mkVdef KVar TCAny] [] [] [] [] true.
Definition f_return : format :=
  [DE (EAttrDict false ["operandSegmentSizes"] []);
   DGroup (AnVals (SOperand 0)) (EVals (SOperand 0)) [ELit ":" LNone; ETypes (SOperand 0)]].
Definition d_fadd : opdef :=
  mkOpdef [mkVdef KSingle (TCVar 1); mkVdef KSingle (TCVar 1)] [mkVdef KSingle (TCVar 1)]
          [mkAdef "fastmathFlags" false (Some (mkAv 1 LAttr LNone)) None] [] [] false.
Definition f_fadd : format :=
  [DE (EVals (SOperand 0)); DE (ELit "," LNone); DE (EVals (SOperand 1)); DE (EAttrDict false [] ["fastmathFlags"]);
   DE (ELit ":" LNone); DE (ETypes (SOperand 0))].
Definition d_replace : opdef :=
  mkOpdef [mkVdef KSingle (TCConst av1); mkVdef KOpt (TCConst av1); mkVdef KVar TCAny] [] [] [] ["operandSegmentSizes"] false.
Definition f_replace : format :=
  [DE (EVals (SOperand 0)); DE (ELit "with" LNone);
   DGroup (AnVals (SOperand 2)) (ELit "(" LParen) [EVals (SOperand 2); ELit ":" LNone; ETypes (SOperand 2); ELit ")" LNone];
   DE (EVals (SOperand 1)); DE (EAttrDict false ["operandSegmentSizes"] [])].
Definition d_declare : opdef := mkOpdef [] [mkVdef KSingle TCAny] [mkAdef "namePrefix" true None None] [] [] false.
Definition f_declare : format :=
  [DGroup (AnAttr "namePrefix" true None) (EAttr "namePrefix" true AKGeneric true None) [];
   DE (EAttrDict false [] []); DE (ELit ":" LNone); DE (ETypes (SResult 0))].

Definition ty (n : Z) : av := mkAv n LType LNone.
Definition fnty (n : Z) : av := mkAv n LParen LNone.      (* a function type: its text starts with ( *)
Definition at_ (n : Z) : av := mkAv n LAttr LNone.
Definition sym (n : Z) : av := mkAv n LAt LNone.
Definition closing : list tok := [TLit "}" LNone].
Definition next_value : list tok := [TVal 999; TLit "=" LNone].

(* --- 1. functional-type(...) and a lone function-typed result (func.call) *)
Definition w_funty : inst := mkInst [[]] [[fnty 100]] [("callee", sym 101)] [].
Lemma funty_refuted :
  fmt_ok d_call f_call = true /\
  inst_ok d_call w_funty = true /\
  rest_ok d_call f_call closing = true /\
  side_ok false f_call w_funty = false /\
  roundtrip false d_call f_call w_funty closing = None /\
  (* with the repair of FunctionalTypeDirective.print the same instance round-trips *)
  side_ok true f_call w_funty = true /\
  roundtrip true d_call f_call w_funty closing = Some (w_funty, closing).
Proof. vm_compute. repeat split; reflexivity. Qed.

(* --- 2. a discardable attribute whose name the dictionary reserves without printing it (func.return) *)
Definition w_dropped : inst := mkInst [[(0%Z, ty 100)]] [] [] [("operandSegmentSizes", at_ 101)].
Lemma dropped_attr_refuted :
  fmt_ok d_return f_return = true /\
  inst_ok d_return w_dropped = true /\
  rest_ok d_return f_return closing = true /\
  side_ok true f_return w_dropped = false /\
  exists i', roundtrip true d_return f_return w_dropped closing = Some (i', closing)
             /\ lookup "operandSegmentSizes" (i_attrs i') = None
             /\ lookup "operandSegmentSizes" (i_attrs w_dropped) = Some (at_ 101).
Proof. vm_compute. repeat split; try reflexivity. eexists. repeat split; reflexivity. Qed.

(* --- 3. a discardable attribute named like a property printed in the dictionary (llvm.fadd):
   printing raises *)
Definition w_clash : inst :=
  mkInst [[(0%Z, ty 100)]; [(1%Z, ty 100)]] [[ty 100]] [("fastmathFlags", at_ 101)] [("fastmathFlags", at_ 102)].
Lemma clash_refuted :
  fmt_ok d_fadd f_fadd = true /\
  inst_ok d_fadd w_clash = true /\
  side_ok true f_fadd w_clash = false /\
  print_fmt true d_fadd w_clash f_fadd = None.
Proof. vm_compute. repeat split; reflexivity. Qed.

(* --- 4. a format the checker rejects for a genuine reason: pdl.replace ends with an optional
   operand; when it is absent the next operation's result name is consumed *)
Definition w_replace : inst := mkInst [[(0%Z, ty 1)]; []; [(1%Z, ty 100)]] [] [] [].
Lemma trailing_optional_refuted :
  fmt_ok d_replace f_replace = false /\
  inst_ok d_replace w_replace = true /\
  rest_ok d_replace f_replace next_value = true /\
  (* the value defined by the next operation has become the replacement operation, and `=` is left over *)
  roundtrip true d_replace f_replace w_replace next_value
    = Some (mkInst [[(0%Z, ty 1)]; [(999%Z, ty 1)]; [(1%Z, ty 100)]] [] [] [], [TLit "=" LNone]) /\
  (* the same instance at the end of a block is fine *)
  roundtrip true d_replace f_replace w_replace closing = Some (w_replace, closing).
Proof. vm_compute. repeat split; reflexivity. Qed.

(* --- 5. smt.declare_fun: ($namePrefix^)? directly before attr-dict; without prefix a non-empty
   dictionary is taken for the prefix *)
Definition w_declare : inst := mkInst [] [[ty 100]] [] [("note", at_ 101)].
Lemma optional_attr_before_dict_refuted :
  fmt_ok d_declare f_declare = false /\
  inst_ok d_declare w_declare = true /\
  roundtrip true d_declare f_declare w_declare closing = None.
Proof. vm_compute. repeat split; reflexivity. Qed.

(* --- the hypotheses of the theorem are satisfiable on a real format with a group, a
   default-valued property printed in short form and an inferred type (arith.addi) *)
Definition w_addi : inst :=
  mkInst [[(0%Z, ty 100)]; [(1%Z, ty 100)]] [[ty 100]] [("overflowFlags", mkAv 101 LAttr LNone)] [("note", at_ 102)].
Lemma sound_nonvacuous :
  fmt_ok (the_def "arith.addi") (the_fmt "arith.addi") = true /\
  inst_ok (the_def "arith.addi") w_addi = true /\
  side_ok false (the_fmt "arith.addi") w_addi = true /\
  rest_ok (the_def "arith.addi") (the_fmt "arith.addi") next_value = true /\
  roundtrip false (the_def "arith.addi") (the_fmt "arith.addi") w_addi next_value = Some (w_addi, next_value).
Proof. vm_compute. repeat split; reflexivity. Qed.

(* --- every regenerated format passes the checker, except the listed ones *)
Definition not_shown : list string :=
  ["csl.activate"; "irdl.region"; "pdl.replace"; "seq.compreg"; "shard.shift"; "smt.declare_fun"].
Lemma formats_checked :
  forallb (fun x => mem (fst x) not_shown || fmt_ok (fst (snd x)) (snd (snd x))) all_formats = true.
Proof. vm_compute. reflexivity. Qed.

Lemma roundtrip_all : forall name d f,
  In (name, (d, f)) all_formats -> ~ In name not_shown ->
  forall fx i rest,
    inst_ok d i = true -> side_ok fx f i = true -> rest_ok d f rest = true ->
    exists i', roundtrip fx d f i rest = Some (i', rest) /\ inst_equiv d i' i.
Proof.
  intros name d f Hin Hns fx i rest Hi Hs Hr.
  pose proof formats_checked as H. rewrite forallb_forall in H. specialize (H _ Hin). simpl in H.
  apply orb_true_iff in H. destruct H as [H | H].
  - exfalso. apply Hns. apply mem_In. exact H.
  - destruct (c05_sound fx d f i rest H Hi Hs Hr) as [ts [i' [Hp [Hpa He]]]].
    exists i'. split; [|exact He]. unfold roundtrip. rewrite Hp. exact Hpa.
Qed.
