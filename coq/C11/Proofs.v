(* C11/Proofs.v -- specifications and proofs about the generic driver of C11/Model.v, valid for
   every IR model `M : Sem` that satisfies the stated primitive laws, every pattern (a sequence of
   rewriter calls), every pop policy and every walk configuration. *)
From Coq Require Import List Arith Bool ZArith Lia.
From XV Require Import C11.Model.
Import ListNotations.

Arguments ws_c {M} _.
Arguments ws_flag {M} _.
Arguments ws_k {M} _.
Arguments ws_ev {M} _.
Arguments ws_inv {M} _.

Section Generic.
Variable M : Sem.
Notation Ct := (C M).

(* Laws about the two use-replacing primitives (proved for the concrete heap in ProofsIR.v):
   `for use in tuple(self.uses)` over an empty (or entirely filtered-out) use list does nothing. *)
Record FlagLaws : Prop := {
  rauw_nouse : forall c v t, uses M c v = [] -> p_rauw M v t c = c;
  rauw_if_nouse : forall c v t p, filter (eval_upred p) (uses M c v) = [] -> p_rauw_if M v t p c = c
}.

(* The action table, column "sets has_done_action", in one statement: a call that leaves the flag
   unset has left the rewriter as it was and called no listener; that it has not changed the IR
   either is where the laws come in. *)
Definition flagged_or_id (c : Ct) (r : rw) (x : xres M) : Prop :=
  flag (snd (fst x)) = true \/ (snd (fst x) = r /\ snd x = [] /\ (FlagLaws -> fst (fst x) = c)).

Lemma flagged_or_id_mono c r x : flagged_or_id c r x -> flag r = true -> flag (snd (fst x)) = true.
Proof. intros [H|(-> & _)] Hf; assumption. Qed.

Lemma x_rauw_flagged_or_id from to c r : flagged_or_id c r (x_rauw M from to c r).
Proof.
  unfold x_rauw.
  destruct (match to with Some t0 => Nat.eqb from t0 | None => false end); [right; simpl; auto|].
  destruct to as [t0|].
  - destruct (uses M c from) eqn:Eu; simpl.
    + right. simpl. repeat split. intros L. exact (rauw_nouse L c from t0 Eu).
    + left. reflexivity.
  - left. destruct (map fst (uses M c from)); reflexivity.
Qed.

Lemma x_rauw_all_mono prs : forall c r c1 r1 t,
  x_rauw_all M prs c r = (c1, r1, t) -> flag r = true -> flag r1 = true.
Proof.
  induction prs as [|[old new] rest IH]; simpl; intros c r c1 r1 t H Hf.
  - inversion H; subst; exact Hf.
  - pose proof (flagged_or_id_mono c r _ (x_rauw_flagged_or_id old new c r) Hf) as Hf'.
    destruct (x_rauw M old new c r) as [[c' r'] t'].
    destruct (x_rauw_all M rest c' r') as [[c'' r''] t''] eqn:E2.
    inversion H; subst. exact (IH _ _ _ _ _ E2 Hf').
Qed.

Lemma exec_flagged_or_id a c r : flagged_or_id c r (exec M true a c r).
Proof.
  (* eight of the thirteen calls set the flag outright *)
  destruct a; simpl; try (left; reflexivity).
  - unfold x_insert. destruct news; left; reflexivity.
  - apply x_rauw_flagged_or_id.
  - unfold x_rauw_if. destruct (Nat.eqb from to); [right; simpl; auto|].
    destruct (filter (eval_upred p) (uses M c from)) eqn:Eu; simpl.
    + right. simpl. repeat split. intros L. exact (rauw_if_nouse L c from to p Eu).
    + left. reflexivity.
  - unfold x_replace. destruct (x_insert M news (IPBefore o) c (set_flag r)) as [[c' r'] t'].
    destruct (x_rauw_all M _ c' r') as [[c'' r''] t'']. left. reflexivity.
  - unfold x_erase_arg.
    pose proof (flagged_or_id_mono c _ _ (x_rauw_flagged_or_id v None c (set_flag r)) eq_refl) as Hf.
    destruct (x_rauw M v None c (set_flag r)) as [[c' r'] t']. left. exact Hf.
Qed.

(* C11_flag_sound (per call) *)
Theorem flag_sound (L : FlagLaws) a c r :
  apply M true a c r <> c -> sets_flag M true a c r = true.
Proof.
  unfold apply, sets_flag. intros Hne.
  destruct (exec_flagged_or_id a c r) as [H|(_ & _ & H)]; [exact H | destruct (Hne (H L))].
Qed.

Lemma run_steps_flagged_or_id recur steps : forall c r w ev c1 r1 w1 ev1,
  run_steps M true recur steps c r w ev = (c1, r1, w1, ev1) ->
  flag r1 = true \/ (r1 = r /\ w1 = w /\ ev1 = ev /\ (FlagLaws -> c1 = c)).
Proof.
  induction steps as [|s rest IH]; simpl; intros c r w ev c1 r1 w1 ev1 H.
  - inversion H. right. auto.
  - destruct s as [f|o].
    + destruct (f c r) as [a|]; [|exact (IH _ _ _ _ _ _ _ _ H)].
      pose proof (exec_flagged_or_id a c r) as Q.
      destruct (exec M true a c r) as [[c' r'] t]. unfold flagged_or_id in Q. simpl in Q.
      destruct (IH _ _ _ _ _ _ _ _ H) as [G|(-> & -> & -> & Hc)]; [left; exact G|].
      destruct Q as [Q|(-> & -> & Hc')]; [left; exact Q|].
      right. rewrite app_nil_r. repeat split. intros L. rewrite (Hc L). exact (Hc' L).
    + destruct (IH _ _ _ _ _ _ _ _ H) as [G|(-> & -> & -> & Hc)]; [left; exact G|].
      destruct (flag r); [left; reflexivity | right; auto].
Qed.

Lemma run_steps_mono recur steps : forall c r w ev c1 r1 w1 ev1,
  run_steps M true recur steps c r w ev = (c1, r1, w1, ev1) -> flag r = true -> flag r1 = true.
Proof.
  intros c r w ev c1 r1 w1 ev1 H Hf.
  destruct (run_steps_flagged_or_id _ _ _ _ _ _ _ _ _ _ H) as [G|(-> & _)]; assumption.
Qed.

Lemma run_steps_inert (L : FlagLaws) recur steps : forall c r w ev c1 r1 w1 ev1,
  run_steps M true recur steps c r w ev = (c1, r1, w1, ev1) -> flag r1 = false ->
  c1 = c /\ r1 = r /\ w1 = w /\ ev1 = ev.
Proof.
  intros c r w ev c1 r1 w1 ev1 H Hf.
  destruct (run_steps_flagged_or_id _ _ _ _ _ _ _ _ _ _ H) as [G|(-> & -> & -> & Hc)]; [congruence | auto].
Qed.

Lemma run_pats_inert (L : FlagLaws) recur ps o : forall c r w ev c1 r1 w1 ev1,
  run_pats M true recur ps o c r w ev = (c1, r1, w1, ev1) -> flag r1 = false ->
  c1 = c /\ r1 = r /\ w1 = w /\ ev1 = ev.
Proof.
  induction ps as [|p rest IH]; simpl; intros c r w ev c1 r1 w1 ev1 H Hf.
  - inversion H; subst; auto.
  - destruct (run_steps M true recur (p c o) c r w ev) as [[[c' r'] w'] ev'] eqn:E.
    destruct (flag r') eqn:Hf'.
    + inversion H; subst. congruence.
    + destruct (run_steps_inert L _ _ _ _ _ _ _ _ _ _ E Hf') as (-> & -> & -> & ->).
      eapply IH; eauto.
Qed.

Lemma run_match_inert (L : FlagLaws) recur m o c w c1 r1 w1 ev1 :
  run_match M true recur m o c w = (c1, r1, w1, ev1) -> flag r1 = false ->
  c1 = c /\ w1 = w /\ ev1 = [].
Proof.
  intros H Hf. unfold run_match in H. destruct m as [p|dce ps].
  - destruct (run_steps_inert L _ _ _ _ _ _ _ _ _ _ H Hf) as (Hc & Hr & Hw & He). auto.
  - destruct (dce && trivially_dead M c o).
    + unfold x_erase in H. inversion H; subst. discriminate Hf.
    + destruct (run_pats_inert L _ _ _ _ _ _ _ _ _ _ _ H Hf) as (Hc & Hr & Hw & He). auto.
Qed.

Lemma run_steps_indep recur steps : forall c r w ev w' ev',
  fst (fst (run_steps M true recur steps c r w ev)) = fst (fst (run_steps M true recur steps c r w' ev')).
Proof.
  induction steps as [|s rest IH]; simpl; intros; auto.
  destruct s as [f|o].
  - destruct (f c r) as [a|]; auto. destruct (exec M true a c r) as [[c' r'] t]. apply IH.
  - apply IH.
Qed.

Lemma run_pats_indep recur ps o : forall c r w ev w' ev',
  fst (fst (run_pats M true recur ps o c r w ev)) = fst (fst (run_pats M true recur ps o c r w' ev')).
Proof.
  induction ps as [|p rest IH]; simpl; intros; auto.
  pose proof (run_steps_indep recur (p c o) c r w ev w' ev') as H.
  destruct (run_steps M true recur (p c o) c r w ev) as [[[c1 r1] w1] ev1].
  destruct (run_steps M true recur (p c o) c r w' ev') as [[[c2 r2] w2] ev2].
  simpl in H. inversion H; subst. destruct (flag r2); auto.
Qed.

Lemma run_match_indep recur m o c w w' :
  fst (fst (run_match M true recur m o c w)) = fst (fst (run_match M true recur m o c w')).
Proof.
  unfold run_match. destruct m as [p|dce ps].
  - apply run_steps_indep.
  - destruct (dce && trivially_dead M c o).
    + unfold x_erase. reflexivity.
    + apply run_pats_indep.
Qed.

(* "the pattern would not change anything when applied to o": the match leaves the IR as it is
   and has_done_action unset, whatever the worklist holds *)
Definition quiescent (recur : bool) (m : matcher M) (c : Ct) (o : op) : Prop :=
  forall w, fst (fst (fst (run_match M true recur m o c w))) = c /\
            flag (snd (fst (fst (run_match M true recur m o c w)))) = false.

Lemma wl_push_in x y w : In y (wl_push x w) <-> y = x \/ In y w.
Proof.
  unfold wl_push. destruct (existsb (Nat.eqb x) w) eqn:E.
  - split; auto. intros [->|H]; auto.
    apply existsb_exists in E. destruct E as (z & Hz & Hxz). apply Nat.eqb_eq in Hxz. subst; auto.
  - rewrite in_app_iff. simpl. intuition.
Qed.

Lemma wl_remove_in x y w : In y (wl_remove x w) <-> In y w /\ y <> x.
Proof.
  unfold wl_remove. rewrite filter_In, negb_true_iff, Nat.eqb_neq.
  split; intros [H1 H2]; (split; [exact H1 | intros E; apply H2; symmetry; exact E]).
Qed.

Lemma popped_in pick k w : w <> [] -> In (popped pick k w) w.
Proof.
  intros Hw. unfold popped. apply nth_In. apply Nat.mod_upper_bound.
  destruct w; simpl; [congruence | lia].
Qed.

Lemma fold_push_in {A} (f : A -> op) l : forall w y,
  In y (fold_left (fun w x => wl_push (f x) w) l w) <-> In y w \/ In y (map f l).
Proof.
  induction l as [|x l IH]; simpl; intros w y; [tauto|].
  rewrite IH, wl_push_in. split.
  - intros [[->|H]|H]; auto.
  - intros [H|[<-|H]]; auto.
Qed.

Lemma populate_in cf c w o :
  In o (populate M cf c w) <->
  In o w \/ In o (walk M (negb (walk_reverse cf)) (negb (walk_regions_first cf)) c).
Proof. unfold populate. rewrite (fold_push_in (fun o => o)), map_id. reflexivity. Qed.

Lemma process_unflagged (L : FlagLaws) recur m pick fuel : forall w s s',
  process M true fuel recur m pick w s = Some s' -> ws_flag s' = false ->
  ws_flag s = false /\ ws_c s' = ws_c s /\ forall o, In o w -> quiescent recur m (ws_c s) o.
Proof.
  induction fuel as [|f IH]; simpl; intros w s s' H Hf; [discriminate|].
  destruct w as [|x w0].
  - inversion H; subst. split; auto. split; auto. intros o [].
  - set (w := x :: w0) in *.
    set (o := popped pick (ws_k s) w) in *.
    destruct (run_match M true recur m o (ws_c s) (wl_remove o w)) as [[[c1 r1] w1] ev1] eqn:E.
    destruct (IH _ _ _ H Hf) as (Hfs & Hc & Hq). simpl in Hfs, Hc, Hq.
    apply orb_false_iff in Hfs. destruct Hfs as [Hfs Hfr].
    destruct (run_match_inert L _ _ _ _ _ _ _ _ _ E Hfr) as (Hc1 & Hw1 & _).
    split; auto. split; [congruence|].
    intros o' Ho'. destruct (Nat.eq_dec o' o) as [Heq|Hne].
    + rewrite Heq. intros w'.
      pose proof (run_match_indep recur m o (ws_c s) w' (wl_remove o w)) as Hi.
      rewrite E in Hi. simpl in Hi.
      destruct (run_match M true recur m o (ws_c s) w') as [[[c2 r2] w2] ev2]. simpl in *.
      inversion Hi. split; [exact Hc1 | exact Hfr].
    + rewrite <- Hc1. apply Hq. rewrite Hw1. apply wl_remove_in. auto.
Qed.

(* rewrite_region runs passes, of which all but the last reported a modification *)
Inductive passes (fuel : nat) (cf : config) (m : matcher M) (pick : pick_t) : wstate M -> wstate M -> Prop :=
| passes_last s s' : one_pass M true fuel cf m pick s = Some s' -> passes fuel cf m pick s s'
| passes_next s s1 s' : one_pass M true fuel cf m pick s = Some s1 -> ws_flag s1 = true ->
                        passes fuel cf m pick s1 s' -> passes fuel cf m pick s s'.

Lemma passes_final fuel cf m pick s s' :
  passes fuel cf m pick s s' -> exists s0, one_pass M true fuel cf m pick s0 = Some s'.
Proof. induction 1; eauto. Qed.

Lemma passes_inv fuel cf m pick (P : wstate M -> Prop) :
  (forall s s', one_pass M true fuel cf m pick s = Some s' -> P s -> P s') ->
  forall s s', passes fuel cf m pick s s' -> P s -> P s'.
Proof. intros Hp s s' H. induction H; eauto. Qed.

Lemma outer_passes n fuel cf m pick : forall s s',
  outer M true n fuel cf m pick s = Some s' -> passes fuel cf m pick s s' /\ ws_flag s' = false.
Proof.
  induction n as [|n IH]; simpl; intros s s' H; [discriminate|].
  destruct (one_pass M true fuel cf m pick s) as [s1|] eqn:E; [|discriminate].
  destruct (ws_flag s1) eqn:Hf.
  - destruct (IH _ _ H) as [Hp Hf']. split; [exact (passes_next _ _ _ _ _ _ _ E Hf Hp) | exact Hf'].
  - inversion H; subst. split; [exact (passes_last _ _ _ _ _ _ E) | exact Hf].
Qed.

Lemma rewrite_region_passes n fuel cf m pick c s ret :
  rewrite_region M true n fuel cf m pick c = Some (s, ret) ->
  let s0 := {| ws_c := c; ws_flag := false; ws_k := 0; ws_ev := []; ws_inv := [] |} in
  passes fuel cf m pick s0 s /\
  (apply_recursively cf = true -> ws_flag s = false) /\
  (ret = false -> one_pass M true fuel cf m pick s0 = Some s /\ ws_flag s = false).
Proof.
  unfold rewrite_region. intros H.
  destruct (one_pass M true fuel cf m pick _) as [s1|] eqn:E1; [|discriminate].
  destruct (apply_recursively cf); simpl in H.
  - destruct (ws_flag s1) eqn:Hf.
    + destruct (outer M true n fuel cf m pick s1) as [s2|] eqn:E2; [|discriminate].
      inversion H; subst. destruct (outer_passes _ _ _ _ _ _ _ E2) as [Hp Hf2].
      split; [exact (passes_next _ _ _ _ _ _ _ E1 Hf Hp)|]. split; [intros _; exact Hf2 | discriminate].
    + inversion H; subst. split; [exact (passes_last _ _ _ _ _ _ E1)|]. split; auto.
  - inversion H; subst. split; [exact (passes_last _ _ _ _ _ _ E1)|]. split; [discriminate | auto].
Qed.

(* C11_fixpoint *)
Theorem fixpoint (L : FlagLaws) n fuel cf m pick c s ret :
  apply_recursively cf = true ->
  rewrite_region M true n fuel cf m pick c = Some (s, ret) ->
  forall o, In o (walk M (negb (walk_reverse cf)) (negb (walk_regions_first cf)) (ws_c s)) ->
            quiescent true m (ws_c s) o.
Proof.
  intros Hrec H o Ho. destruct (rewrite_region_passes _ _ _ _ _ _ _ _ H) as (Hps & Hf & _).
  specialize (Hf Hrec). destruct (passes_final _ _ _ _ _ _ Hps) as [s0 Hp].
  unfold one_pass in Hp. rewrite Hrec in Hp.
  destruct (process_unflagged L true m pick _ _ _ _ Hp Hf) as (_ & Hc & Hq). simpl in Hc, Hq.
  rewrite Hc in Ho. rewrite Hc. apply Hq. apply populate_in. right. exact Ho.
Qed.

(* C11_returns_true_if_changed *)
Theorem returns_true_if_changed (L : FlagLaws) n fuel cf m pick c s ret :
  rewrite_region M true n fuel cf m pick c = Some (s, ret) ->
  ws_c s <> c -> ret = true.
Proof.
  intros H Hne. destruct ret; [reflexivity|]. exfalso.
  destruct (rewrite_region_passes _ _ _ _ _ _ _ _ H) as (_ & _ & Hr). destruct (Hr eq_refl) as [E Hf].
  unfold one_pass in E. destruct (process_unflagged L _ m pick _ _ _ _ E Hf) as (_ & Hc & _).
  exact (Hne Hc).
Qed.

(* C11_match_flag_sound *)
Theorem match_flag_sound (L : FlagLaws) recur m o c w :
  fst (fst (fst (run_match M true recur m o c w))) <> c ->
  flag (snd (fst (fst (run_match M true recur m o c w)))) = true.
Proof.
  intros Hne. destruct (run_match M true recur m o c w) as [[[c1 r1] w1] ev1] eqn:E. simpl in *.
  destruct (flag r1) eqn:Hf; auto.
  destruct (run_match_inert L _ _ _ _ _ _ _ _ _ E Hf) as (Hc & _). contradiction.
Qed.

End Generic.

(* the primitive mutations as data, to state laws uniformly *)
Inductive prim :=
| PInsert (news : list newop) (ip : ipoint) | PErase (o : op) | PRauw (v t : value)
| PEraseValue (v : value) | PRauwIf (v t : value) (p : upred) | PRetype (v : value) (ty : Z)
| PInsertArg (b : block) (i : nat) (ty : Z) | PEraseArg (v : value)
| PInlineBlock (b : block) (ip : ipoint) (args : list value) | PMoveRegion (o : op) (k : nat)
| PInlineRegion (o : op) (k : nat) (bp : bpoint) | PCreateBlock (id : block) (bp : bpoint) (tys : list Z)
| PBump (o : op).

Section Live.
Variable M : Sem.
Notation Ct := (C M).

Definition run_prim (p : prim) (c : Ct) : Ct :=
  match p with
  | PInsert news ip => p_insert M news ip c | PErase o => p_erase M o c | PRauw v t => p_rauw M v t c
  | PEraseValue v => p_erase_value M v c | PRauwIf v t q => p_rauw_if M v t q c
  | PRetype v ty => p_retype M v ty c | PInsertArg b i ty => p_insert_arg M b i ty c
  | PEraseArg v => p_erase_arg M v c | PInlineBlock b ip args => p_inline_block M b ip args c
  | PMoveRegion o k => p_move_region M o k c | PInlineRegion o k bp => p_inline_region M o k bp c
  | PCreateBlock id bp tys => p_create_block M id bp tys c | PBump o => p_bump M o c
  end.
(* only erase kills operations, and it kills op.walk() *)
Definition kills (p : prim) (c : Ct) : list op :=
  match p with PErase o => subops M c o | _ => [] end.

(* `wf`: the part of IR well-formedness the driver relies on (use lists only name live users, the
   region walk only yields live ops); every primitive preserves it. *)
Variable wf : Ct -> Prop.
(* `ip_ok c ip`: the insertion point names an existing position (InsertPoint's own validity check) *)
Variable ip_ok : Ct -> ipoint -> Prop.
(* `ins_ok c news`: the operations to insert are new (their identifiers are unused, pairwise distinct) *)
Variable ins_ok : Ct -> list newop -> Prop.
(* `okp p`: the primitive is one the pattern set may use at all (fun _ => True for no restriction);
   `erase_ok c o`: side condition of erasing o in state c *)
Variable okp : prim -> Prop.
Variable erase_ok : Ct -> op -> Prop.
(* side conditions under which a primitive is ever called by the rewriter: insert with new operations,
   replace_uses_with_if only with two different values (x_rauw_if returns early otherwise) *)
Definition prim_side (p : prim) (c : Ct) : Prop :=
  okp p /\
  match p with
  | PInsert news _ => ins_ok c news | PRauwIf v t _ => v <> t | PErase o => erase_ok c o | _ => True
  end.
Definition okp_rauw : Prop := (forall v t, okp (PRauw v t)) /\ (forall v, okp (PEraseValue v)).
Record LiveLaws : Prop := {
  ll_wf_prim : forall p c, wf c -> prim_side p c -> wf (run_prim p c);
  ll_users : forall c v u, wf c -> In u (uses M c v) -> In (fst u) (alive M c);
  ll_walk : forall c rev rf o, wf c -> In o (walk M rev rf c) -> In o (alive M c);
  ll_survive : forall p c x, In x (alive M c) -> ~ In x (kills p c) -> In x (alive M (run_prim p c));
  ll_leaf : forall c o x, has_regions M c o = false -> In x (subops M c o) -> x = o;
  ll_inserted : forall news ip c n, ip_ok c ip -> In n news -> In (no_id n) (alive M (p_insert M news ip c))
}.

(* the same laws in two groups: facts about which operations a primitive kills / creates
   (StructLaws, proved for the heap model in ProofsLive.v) and the invariant part (InvLaws) *)
Record StructLaws : Prop := {
  sl_survive : forall p c x, In x (alive M c) -> ~ In x (kills p c) -> In x (alive M (run_prim p c));
  sl_leaf : forall c o x, has_regions M c o = false -> In x (subops M c o) -> x = o;
  sl_inserted : forall news ip c n, ip_ok c ip -> In n news -> In (no_id n) (alive M (p_insert M news ip c))
}.
Record InvLaws : Prop := {
  il_wf_prim : forall p c, wf c -> prim_side p c -> wf (run_prim p c);
  il_users : forall c v u, wf c -> In u (uses M c v) -> In (fst u) (alive M c);
  il_walk : forall c rev rf o, wf c -> In o (walk M rev rf c) -> In o (alive M c)
}.
Lemma live_laws_of : StructLaws -> InvLaws -> LiveLaws.
Proof. intros [A B C0] [D E F]. split; assumption. Qed.

(* obligations of the pattern (documented preconditions): the op it erases / replaces / notifies is
   not already erased, and the erased op has no dangling operand *)
Definition owners_alive (c : Ct) (o : op) : Prop :=
  forall v d, In (OVal v) (operands M c o) -> owner_op M c v = Some d -> In d (alive M c).
Definition replace_mid (o : op) (news : list newop) (res : option (list (option value))) (c : Ct) (r : rw) : Ct :=
  let '(c1, r1, _) := x_insert M news (IPBefore o) c (set_flag r) in
  let nres := match res with
              | Some l => l
              | None => match last_opt news with
                        | Some n => map Some (results M c1 (no_id n))
                        | None => []
                        end
              end in
  fst (fst (x_rauw_all M (combine (results M c1 o) nres) c1 r1)).
Definition live_pre (a : action) (c : Ct) (r : rw) : Prop :=
  match a with
  | AInsert news ip => ip_ok c (real_ip r ip) /\ ins_ok c news /\ okp (PInsert news (real_ip r ip))
  | AErase o => In o (alive M c) /\ owners_alive c o /\ okp (PErase o) /\ erase_ok c o
  | ARauw _ _ => okp_rauw
  | ARauwIf from to p => okp (PRauwIf from to p)
  | AReplace o news res =>
      ip_ok c (IPBefore o) /\ ins_ok c news /\ okp (PInsert news (IPBefore o)) /\ okp_rauw /\
      In o (alive M c) /\ owners_alive (replace_mid o news res c r) o /\
      okp (PErase o) /\ erase_ok (replace_mid o news res c r) o
  | ANotify o => In o (alive M c)
  | ARetype v ty => (forall p, def_parent M c v = Some p -> In p (alive M c)) /\ okp (PRetype v ty)
  | AInsertArg b i ty => okp (PInsertArg b i ty)
  | AEraseArg v => okp_rauw /\ okp (PEraseArg v)
  | AInlineBlock b ip args => okp (PInlineBlock b (real_ip r ip) args)
  | AMoveRegion o k => okp (PMoveRegion o k)
  | AInlineRegion o k bp => okp (PInlineRegion o k bp)
  | ACreateBlock id bp tys => okp (PCreateBlock id bp tys)
  end.

Definition sub (w : wl) (c : Ct) : Prop := forall x, In x w -> In x (alive M c).

Lemma handle_trace_app recur t1 t2 w :
  handle_trace M recur (t1 ++ t2) w = handle_trace M recur t2 (handle_trace M recur t1 w).
Proof. unfold handle_trace. apply fold_left_app. Qed.

Lemma sub_push w c o : sub w c -> In o (alive M c) -> sub (wl_push o w) c.
Proof. intros Hs Ho x Hx. apply wl_push_in in Hx. destruct Hx as [->|Hx]; auto. Qed.

Lemma sub_survive (L : LiveLaws) p w c : kills p c = [] -> sub w c -> sub w (run_prim p c).
Proof. intros Hk Hs x Hx. apply (ll_survive L). auto. rewrite Hk. intros []. Qed.

Lemma fold_remove_in l : forall w x,
  In x (fold_left (fun w s => wl_remove s w) l w) <-> In x w /\ ~ In x l.
Proof.
  induction l as [|s l IH]; simpl; intros w x.
  - tauto.
  - rewrite IH, wl_remove_in. split.
    + intros [[H1 H2] H3]. split; [exact H1|]. intros [E|H]; [apply H2; symmetry; exact E | exact (H3 H)].
    + intros [H1 H2]. split; [split; [exact H1 | intros E; apply H2; left; symmetry; exact E]|].
      intros H. apply H2. right. exact H.
Qed.

Lemma sub_push_events {A} recur (mk : op -> event) (f : A -> op) cs (l : list A) c :
  (forall o w, handle M recur (mk o) cs w = if recur then wl_push o w else w) ->
  (forall x, In x l -> In (f x) (alive M c)) ->
  forall w, sub w c -> sub (handle_trace M recur (map (fun x => (mk (f x), cs)) l) w) c.
Proof.
  intros Hmk. induction l as [|x l IH]; simpl; intros Hl w Hs; [exact Hs|].
  unfold handle_trace in *. simpl. rewrite Hmk. apply IH; auto.
  destruct recur; auto. apply sub_push; auto.
Qed.

Lemma sub_add_operands c o w : forall opers,
  (forall x, In x opers -> In x (operands M c o)) -> owners_alive c o -> sub w c ->
  sub (add_operands M c opers w) c.
Proof.
  unfold add_operands. intros opers. revert w.
  induction opers as [|x opers IH]; simpl; intros w Hin Ho Hs; auto.
  apply IH; auto. destruct x as [v|]; auto.
  destruct (one_use M c v); auto. destruct (owner_op M c v) as [d|] eqn:Ed; auto.
  apply sub_push; auto. eapply Ho; eauto.
Qed.

(* what a call owes the driver: the IR stays well-formed and, after the listener has seen the
   events, the worklist still holds live operations only *)
Definition live_step (recur : bool) (c c1 : Ct) (t : trace M) : Prop :=
  wf c1 /\ forall w, sub w c -> sub (handle_trace M recur t w) c1.

Lemma live_step_app recur c c1 c2 t1 t2 :
  live_step recur c c1 t1 -> live_step recur c1 c2 t2 -> live_step recur c c2 (t1 ++ t2).
Proof.
  intros [_ H1] [Hwf H2]. split; [exact Hwf|]. intros w Hs. rewrite handle_trace_app. auto.
Qed.

Lemma prim_live (L : LiveLaws) recur p c t :
  wf c -> prim_side p c -> kills p c = [] ->
  (forall w, sub w (run_prim p c) -> sub (handle_trace M recur t w) (run_prim p c)) ->
  live_step recur c (run_prim p c) t.
Proof.
  intros Hwf Hp Hk Ht. split; [exact (ll_wf_prim L p c Hwf Hp)|].
  intros w Hs. apply Ht. apply (sub_survive L); assumption.
Qed.

Lemma x_insert_live (L : LiveLaws) recur news ip c r c1 r1 t :
  x_insert M news ip c r = (c1, r1, t) -> wf c -> ip_ok c (real_ip r ip) -> ins_ok c news ->
  okp (PInsert news (real_ip r ip)) -> live_step recur c c1 t.
Proof.
  unfold x_insert. intros H Hwf Hip Hins Hok. destruct news as [|n news]; inversion H; subst.
  - split; auto.
  - apply (prim_live L recur (PInsert (n :: news) (real_ip r ip))); [exact Hwf | split; assumption | reflexivity|].
    apply (sub_push_events recur EInsert no_id _ (n :: news)); [reflexivity|].
    intros n' Hn'. exact (ll_inserted L _ _ c n' Hip Hn').
Qed.

Lemma x_erase_live (L : LiveLaws) recur o c r c1 r1 t :
  x_erase M o c r = (c1, r1, t) -> wf c -> In o (alive M c) -> owners_alive c o ->
  okp (PErase o) -> erase_ok c o -> live_step recur c c1 t.
Proof.
  unfold x_erase. intros H Hwf Ho Hd Hok Heok. inversion H; subst. clear H.
  split; [apply (ll_wf_prim L (PErase o)); [auto | split; assumption]|].
  intros w Hs x Hx. unfold handle_trace in Hx. simpl in Hx.
  set (w1 := if recur then add_operands M c (operands M c o) w else w) in *.
  assert (Hs1 : sub w1 c).
  { unfold w1. destruct recur; auto. apply sub_add_operands with (o := o); auto. }
  (* x is still on the worklist, so it is none of the removed operations: op.walk(), or o itself
     when o has no regions *)
  apply (ll_survive L (PErase o)); simpl.
  - destruct (has_regions M c o).
    + apply fold_remove_in in Hx. apply Hs1. tauto.
    + apply wl_remove_in in Hx. apply Hs1. tauto.
  - destruct (has_regions M c o) eqn:Hr.
    + apply fold_remove_in in Hx. tauto.
    + apply wl_remove_in in Hx. intros Hin. apply (ll_leaf L) in Hin; auto. tauto.
Qed.

Lemma x_rauw_shape from to c r :
  let p := match to with Some t => PRauw from t | None => PEraseValue from end in
  x_rauw M from to c r = (c, r, []) \/
  exists r1, x_rauw M from to c r =
             (run_prim p c, r1, map (fun o => (EModify o, run_prim p c)) (map fst (uses M c from))).
Proof.
  unfold x_rauw.
  destruct (match to with Some t0 => Nat.eqb from t0 | None => false end); [left; reflexivity|].
  right. destruct to; simpl; eexists; reflexivity.
Qed.

Lemma x_rauw_if_shape from to q c r :
  x_rauw_if M from to q c r = (c, r, []) \/
  from <> to /\
  exists r1, x_rauw_if M from to q c r =
             (run_prim (PRauwIf from to q) c, r1,
              map (fun o => (EModify o, run_prim (PRauwIf from to q) c))
                  (map fst (filter (eval_upred q) (uses M c from)))).
Proof.
  unfold x_rauw_if. destruct (Nat.eqb from to) eqn:E; [left; reflexivity|].
  right. split; [apply Nat.eqb_neq; exact E|]. eexists; reflexivity.
Qed.

Lemma modify_users_live (L : LiveLaws) recur p v (us : list (op * nat)) c :
  wf c -> prim_side p c -> kills p c = [] -> (forall u, In u us -> In u (uses M c v)) ->
  live_step recur c (run_prim p c) (map (fun o => (EModify o, run_prim p c)) (map fst us)).
Proof.
  intros Hwf Hp Hk Hus. apply (prim_live L); auto.
  apply (sub_push_events recur EModify (fun o => o)); [reflexivity|].
  intros o Ho. apply in_map_iff in Ho. destruct Ho as (u & <- & Hu).
  apply (ll_survive L); [exact (ll_users L c v u Hwf (Hus u Hu)) | rewrite Hk; intros []].
Qed.

(* the second half -- no operation dies -- is what x_replace needs to know that the replaced
   operation is still there to be erased *)
Lemma x_rauw_live (L : LiveLaws) recur from to c r c1 r1 t :
  x_rauw M from to c r = (c1, r1, t) -> wf c -> okp_rauw ->
  live_step recur c c1 t /\ sub (alive M c) c1.
Proof.
  intros H Hwf [Hok1 Hok2].
  destruct (x_rauw_shape from to c r) as [E|[r' E]]; rewrite E in H; inversion H; subst.
  - split; [split; auto | intros x Hx; exact Hx].
  - assert (Hk : kills (match to with Some t => PRauw from t | None => PEraseValue from end) c = [])
      by (destruct to; reflexivity).
    split; [|apply (sub_survive L); [exact Hk | intros x Hx; exact Hx]].
    apply (modify_users_live L recur _ from); auto.
    destruct to; split; auto; exact I.
Qed.

Lemma x_rauw_all_live (L : LiveLaws) recur prs : forall c r c1 r1 t,
  x_rauw_all M prs c r = (c1, r1, t) -> wf c -> okp_rauw ->
  live_step recur c c1 t /\ sub (alive M c) c1.
Proof.
  induction prs as [|[old new] rest IH]; simpl; intros c r c1 r1 t H Hwf Hok.
  - inversion H; subst. split; [split; auto | intros x Hx; exact Hx].
  - destruct (x_rauw M old new c r) as [[c' r'] t'] eqn:E1.
    destruct (x_rauw_all M rest c' r') as [[c'' r''] t''] eqn:E2.
    inversion H; subst. clear H.
    destruct (x_rauw_live L recur _ _ _ _ _ _ _ E1 Hwf Hok) as [H1 Ha1].
    destruct (IH _ _ _ _ _ E2 (proj1 H1) Hok) as [H2 Ha2].
    split; [exact (live_step_app _ _ _ _ _ _ H1 H2) | intros x Hx; auto].
Qed.

Lemma sub_replace_event (L : LiveLaws) c o nres : wf c ->
  forall w, sub w c -> sub (handle M true (EReplace o nres) c w) c.
Proof.
  intros Hwf. simpl. induction (results M c o) as [|v rs IH]; simpl; intros w Hs; [exact Hs|].
  apply IH. intros y Hy. apply fold_push_in in Hy. destruct Hy as [Hy|Hy]; [exact (Hs y Hy)|].
  apply in_map_iff in Hy. destruct Hy as (u & <- & Hu). exact (ll_users L c v u Hwf Hu).
Qed.

Lemma x_replace_live (L : LiveLaws) recur o news res c r c1 r1 t :
  x_replace M o news res c r = (c1, r1, t) -> wf c -> live_pre (AReplace o news res) c r ->
  live_step recur c c1 t.
Proof.
  intros H Hwf (Hip & Hins & Hoki & Hokr & Ho & Hd & Hoke & Heok).
  unfold replace_mid in Hd, Heok. unfold x_replace in H.
  destruct (x_insert M news (IPBefore o) c (set_flag r)) as [[c' r'] t'] eqn:E1.
  destruct (x_rauw_all M _ c' r') as [[c'' r''] t''] eqn:E2. simpl in Hd, Heok.
  destruct (x_erase M o c'' r'') as [[c3 r3] t4] eqn:E3. inversion H; subst. clear H.
  pose proof (x_insert_live L recur _ _ _ _ _ _ _ E1 Hwf Hip Hins Hoki) as H1.
  destruct (x_rauw_all_live L recur _ _ _ _ _ _ E2 (proj1 H1) Hokr) as [H2 Ha2].
  assert (Ho1 : In o (alive M c')).
  { unfold x_insert in E1. destruct news; inversion E1; subst; auto.
    apply (ll_survive L (PInsert (n :: news) (real_ip (set_flag r) (IPBefore o)))); auto. }
  pose proof (x_erase_live L recur _ _ _ _ _ _ E3 (proj1 H2) (Ha2 o Ho1) Hd Hoke Heok) as H3.
  apply (live_step_app _ _ _ _ _ _ H1). apply (live_step_app recur c' c' _ [_]); [|exact (live_step_app _ _ _ _ _ _ H2 H3)].
  split; [exact (proj1 H1)|]. intros w Hs. destruct recur; [|exact Hs].
  apply (sub_replace_event L); [exact (proj1 H1) | exact Hs].
Qed.

Lemma exec_live (L : LiveLaws) recur a c r c1 r1 t :
  exec M true a c r = (c1, r1, t) -> wf c -> live_pre a c r -> live_step recur c c1 t.
Proof.
  intros H Hwf Hp. destruct a; simpl in H.
  - destruct Hp as [Hip [Hins Hok]]. exact (x_insert_live L recur _ _ _ _ _ _ _ H Hwf Hip Hins Hok).
  - destruct Hp as (Ha & Hd & Hok & Heok). exact (x_erase_live L recur _ _ _ _ _ _ H Hwf Ha Hd Hok Heok).
  - exact (proj1 (x_rauw_live L recur _ _ _ _ _ _ _ H Hwf Hp)).
  - destruct (x_rauw_if_shape from to p c r) as [E|[Hne [r' E]]]; rewrite E in H; inversion H; subst.
    + split; auto.
    + apply (modify_users_live L recur (PRauwIf from to p) from); [exact Hwf | split; assumption | reflexivity|].
      intros u Hu. apply filter_In in Hu. exact (proj1 Hu).
  - exact (x_replace_live L recur _ _ _ _ _ _ _ _ H Hwf Hp).
  - (* the modification event is raised before the type changes *)
    unfold x_retype in H. inversion H; subst. clear H. simpl in Hp. destruct Hp as [Hp Hok].
    split; [apply (ll_wf_prim L (PRetype v ty)); [auto | split; [exact Hok | exact I]]|].
    intros w Hs. apply (sub_survive L (PRetype v ty)); auto.
    destruct (def_parent M c v) as [p|] eqn:Ep; auto.
    unfold handle_trace. simpl. destruct recur; auto. apply sub_push; auto.
  - unfold x_insert_arg in H. inversion H; subst.
    apply (prim_live L recur (PInsertArg b idx ty)); auto. split; [exact Hp | exact I].
  - unfold x_erase_arg in H. destruct (x_rauw M v None c (set_flag r)) as [[c' r'] t'] eqn:E.
    inversion H; subst. clear H. destruct Hp as [Hokr Hoka].
    destruct (x_rauw_live L recur _ _ _ _ _ _ _ E Hwf Hokr) as [[Hwf' Hs'] _].
    split; [apply (ll_wf_prim L (PEraseArg v)); [auto | split; [exact Hoka | exact I]]|].
    intros w Hs. apply (sub_survive L (PEraseArg v)); auto.
  - unfold x_inline_block in H. inversion H; subst.
    apply (prim_live L recur (PInlineBlock b (real_ip r ip) args)); auto. split; [exact Hp | exact I].
  - unfold x_move_region in H. inversion H; subst.
    apply (prim_live L recur (PMoveRegion o r0)); auto. split; [exact Hp | exact I].
  - unfold x_inline_region in H. inversion H; subst.
    apply (prim_live L recur (PInlineRegion o r0 bp)); auto. split; [exact Hp | exact I].
  - unfold x_notify in H. inversion H; subst. simpl in Hp. split; auto.
    intros w Hs. unfold handle_trace. simpl. destruct recur; auto. apply sub_push; auto.
  - unfold x_create_block in H. inversion H; subst.
    apply (prim_live L recur (PCreateBlock id bp tys)); auto. split; [exact Hp | exact I].
Qed.

Definition steps_pre (steps : list (pstep M)) : Prop :=
  (forall f, In (PAct M f) steps -> forall c r a, wf c -> f c r = Some a -> live_pre a c r) /\
  (forall o, In (PBumpIfFlag M o) steps -> okp (PBump o)).
Definition pat_pre (p : pattern M) : Prop := forall c o, steps_pre (p c o).
Definition matcher_pre (m : matcher M) : Prop :=
  match m with
  | MSingle _ p => pat_pre p
  | MGreedy _ dce ps =>
      (forall p, In p ps -> pat_pre p) /\
      (dce = true -> forall c o, wf c -> In o (alive M c) -> trivially_dead M c o = true ->
                     owners_alive c o /\ okp (PErase o) /\ erase_ok c o)
  end.

Lemma run_steps_live (L : LiveLaws) recur steps : forall c r w ev c1 r1 w1 ev1,
  steps_pre steps -> run_steps M true recur steps c r w ev = (c1, r1, w1, ev1) ->
  wf c -> sub w c -> wf c1 /\ sub w1 c1.
Proof.
  induction steps as [|s rest IH]; simpl; intros c r w ev c1 r1 w1 ev1 Hp H Hwf Hs.
  - inversion H; subst; auto.
  - assert (Hp' : steps_pre rest).
    { destruct Hp as [Hp1 Hp2]. split; [intros f Hin; apply Hp1; right; exact Hin | intros o' Hin; apply Hp2; right; exact Hin]. }
    destruct s as [f|o].
    + destruct (f c r) as [a|] eqn:Ef.
      * destruct (exec M true a c r) as [[c' r'] t] eqn:E.
        assert (Hpre : live_pre a c r) by (eapply (proj1 Hp); eauto; left; reflexivity).
        destruct (exec_live L recur _ _ _ _ _ _ E Hwf Hpre) as [Hwf' Hs'].
        eapply IH; eauto.
      * eapply IH; eauto.
    + eapply IH; eauto.
      * destruct (flag r); auto. apply (ll_wf_prim L (PBump o)); [auto | split; [apply (proj2 Hp); left; reflexivity | exact I]].
      * destruct (flag r); auto. apply (sub_survive L (PBump o)); auto.
Qed.

Lemma run_pats_live (L : LiveLaws) recur ps o : forall c r w ev c1 r1 w1 ev1,
  (forall p, In p ps -> pat_pre p) -> run_pats M true recur ps o c r w ev = (c1, r1, w1, ev1) ->
  wf c -> sub w c -> wf c1 /\ sub w1 c1.
Proof.
  induction ps as [|p rest IH]; simpl; intros c r w ev c1 r1 w1 ev1 Hp H Hwf Hs.
  - inversion H; subst; auto.
  - destruct (run_steps M true recur (p c o) c r w ev) as [[[c' r'] w'] ev'] eqn:E.
    assert (Hpp : steps_pre (p c o)) by (apply Hp; left; reflexivity).
    destruct (run_steps_live L _ _ _ _ _ _ _ _ _ _ Hpp E Hwf Hs) as [Hwf' Hs'].
    destruct (flag r').
    + inversion H; subst; auto.
    + eapply IH; eauto.
Qed.

Lemma run_match_live (L : LiveLaws) recur m o c w c1 r1 w1 ev1 :
  matcher_pre m -> run_match M true recur m o c w = (c1, r1, w1, ev1) ->
  wf c -> In o (alive M c) -> sub w c -> wf c1 /\ sub w1 c1.
Proof.
  intros Hp H Hwf Ho Hs. unfold run_match in H. destruct m as [p|dce ps]; simpl in Hp.
  - eapply run_steps_live; eauto.
  - destruct Hp as [Hp Hd]. destruct dce; simpl in H.
    + destruct (trivially_dead M c o) eqn:Ed.
      * destruct (x_erase M o c {| flag := false; dip := IPBefore o |}) as [[c' r'] t] eqn:E.
        inversion H; subst. clear H.
        destruct (Hd eq_refl c o Hwf Ho Ed) as (Hd1 & Hd2 & Hd3).
        destruct (x_erase_live L recur _ _ _ _ _ _ E Hwf Ho Hd1 Hd2 Hd3) as [Hwf' Hs'].
        unfold x_erase in E. inversion E; subst. split; [exact Hwf' | exact (Hs' w Hs)].
      * eapply run_pats_live; eauto.
    + eapply run_pats_live; eauto.
Qed.

Definition inv_ok (s : wstate M) : Prop := forall o c, In (o, c) (ws_inv s) -> In o (alive M c).

Lemma process_live (L : LiveLaws) recur m pick (Hp : matcher_pre m) fuel : forall w s s',
  process M true fuel recur m pick w s = Some s' ->
  wf (ws_c s) -> sub w (ws_c s) -> inv_ok s -> wf (ws_c s') /\ inv_ok s'.
Proof.
  induction fuel as [|f IH]; simpl; intros w s s' H Hwf Hs Hi; [discriminate|].
  destruct w as [|x w0].
  - inversion H; subst; auto.
  - set (w := x :: w0) in *.
    set (o := popped pick (ws_k s) w) in *.
    assert (Ho : In o w) by (apply popped_in; discriminate).
    destruct (run_match M true recur m o (ws_c s) (wl_remove o w)) as [[[c1 r1] w1] ev1] eqn:E.
    assert (Hs0 : sub (wl_remove o w) (ws_c s)).
    { intros y Hy. apply wl_remove_in in Hy. apply Hs. tauto. }
    destruct (run_match_live L _ _ _ _ _ _ _ _ _ Hp E Hwf (Hs o Ho) Hs0) as [Hwf1 Hs1].
    eapply IH; eauto. simpl.
    intros o' c' Hin. apply in_app_or in Hin. destruct Hin as [Hin|[Hin|[]]]; auto.
    inversion Hin; subst. auto.
Qed.

Lemma populate_sub (L : LiveLaws) cf c : wf c -> sub (populate M cf c []) c.
Proof.
  intros Hwf o Ho. apply populate_in in Ho. destruct Ho as [[]|Ho]. exact (ll_walk L c _ _ o Hwf Ho).
Qed.

Lemma one_pass_live (L : LiveLaws) fuel cf m pick (Hp : matcher_pre m) s s' :
  one_pass M true fuel cf m pick s = Some s' -> wf (ws_c s) -> inv_ok s -> wf (ws_c s') /\ inv_ok s'.
Proof.
  unfold one_pass. intros H Hwf Hi.
  eapply process_live in H; eauto; simpl; auto. apply populate_sub; auto.
Qed.

(* C11_no_stale *)
Theorem no_stale (L : LiveLaws) n fuel cf m pick c s ret :
  matcher_pre m -> wf c ->
  rewrite_region M true n fuel cf m pick c = Some (s, ret) ->
  forall o c', In (o, c') (ws_inv s) -> In o (alive M c').
Proof.
  intros Hp Hwf H. destruct (rewrite_region_passes M _ _ _ _ _ _ _ _ H) as (Hps & _).
  refine (proj2 (passes_inv M _ _ _ _ (fun s => wf (ws_c s) /\ inv_ok s) _ _ _ Hps _)).
  - intros s0 s1 E [A B]. exact (one_pass_live L _ _ _ _ Hp _ _ E A B).
  - split; [exact Hwf | intros o c' []].
Qed.

End Live.

Section Events.
Variable M : Sem.
Notation Ct := (C M).

(* the operations created together with an inserted op: itself and the ops of its new regions *)
Definition newop_ids (n : newop) : list op :=
  no_id n :: flat_map (fun g => match g with
                                | NRFresh bs => flat_map (fun b => map lf_id (nb_body b)) bs
                                | NRLimbo _ => []
                                end) (no_regions n).
Definition action_news (a : action) : list newop :=
  match a with AInsert news _ => news | AReplace _ news _ => news | _ => [] end.

(* the operations a primitive may create, kill, or whose operands it may rewrite *)
Definition touched (p : prim) (c : Ct) (o : op) : Prop :=
  match p with
  | PInsert news ip => exists n, In n news /\ In o (newop_ids n)
  | PErase o1 => In o (subops M c o1)
  | PRauw v _ | PEraseValue v | PEraseArg v => In o (map fst (uses M c v))
  | PRauwIf v _ q => In o (map fst (filter (eval_upred q) (uses M c v)))
  | PInlineBlock _ _ args => args <> []
  | _ => False
  end.

(* o was created, erased, or had its operand list changed between c and c' *)
Definition changed (c c' : Ct) (o : op) : Prop :=
  operands M c' o <> operands M c o \/
  (In o (alive M c) /\ ~ In o (alive M c')) \/
  (~ In o (alive M c) /\ In o (alive M c')).

Record EvLaws : Prop := {
  ev_touched : forall p c o, changed c (run_prim M p c) o -> touched p c o;
  ev_erased_uses : forall v c, uses M (p_erase_value M v c) v = []
}.

(* an event reports o if it is a modification of o, the removal of an operation whose walk()
   contains o at that moment, or the insertion of a new operation that o is (part of);
   `news` are the new operations handed to the call *)
Definition covers (news : list newop) (e : event) (cs : Ct) (o : op) : Prop :=
  match e with
  | EModify o' => o' = o
  | ERemove o' => In o (subops M cs o')
  | EInsert o' => exists n, In n news /\ no_id n = o' /\ In o (newop_ids n)
  | _ => False
  end.
Definition covered (news : list newop) (t : trace M) (o : op) : Prop :=
  exists e cs, In (e, cs) t /\ covers news e cs o.

Definition no_silent_rewrite (a : action) : Prop :=
  match a with AInlineBlock _ _ args => args = [] | _ => True end.

Lemma operand_eq_dec (x y : operand) : {x = y} + {x <> y}.
Proof. decide equality. apply Nat.eq_dec. Qed.

Lemma changed_refl c o : ~ changed c c o.
Proof. unfold changed. intros [H|[[H1 H2]|[H1 H2]]]; auto. Qed.

Lemma changed_chain c c1 c2 o : changed c c2 o -> changed c c1 o \/ changed c1 c2 o.
Proof.
  unfold changed. intros [H|[[H1 H2]|[H1 H2]]].
  - destruct (list_eq_dec operand_eq_dec (operands M c1 o) (operands M c o)) as [E|E].
    + right. left. rewrite E. exact H.
    + left. left. exact E.
  - destruct (in_dec Nat.eq_dec o (alive M c1)) as [E|E].
    + right. right. left. auto.
    + left. right. left. auto.
  - destruct (in_dec Nat.eq_dec o (alive M c1)) as [E|E].
    + left. right. right. auto.
    + right. right. right. auto.
Qed.

Lemma covered_app_l ns t1 t2 o : covered ns t1 o -> covered ns (t1 ++ t2) o.
Proof. intros (e & cs & Hin & Hc). exists e, cs. split; auto. apply in_or_app. auto. Qed.
Lemma covered_app_r ns t1 t2 o : covered ns t2 o -> covered ns (t1 ++ t2) o.
Proof. intros (e & cs & Hin & Hc). exists e, cs. split; auto. apply in_or_app. auto. Qed.

Lemma covered_cons ns e t o : covered ns t o -> covered ns (e :: t) o.
Proof. intros (e' & cs & Hin & Hc). exists e', cs. split; auto. right. exact Hin. Qed.

Lemma x_insert_events (L : EvLaws) news ip c r c1 r1 t o :
  x_insert M news ip c r = (c1, r1, t) -> changed c c1 o -> covered news t o.
Proof.
  unfold x_insert. intros H Hc. destruct news as [|n news].
  - inversion H; subst. destruct (changed_refl _ _ Hc).
  - inversion H; subst. clear H.
    apply (ev_touched L (PInsert (n :: news) (real_ip r ip))) in Hc. simpl in Hc.
    destruct Hc as (n' & Hn' & Ho).
    exists (EInsert (no_id n')), (p_insert M (n :: news) (real_ip r ip) c). split; [|exists n'; auto].
    exact (in_map (fun n0 => (EInsert (no_id n0), p_insert M (n :: news) (real_ip r ip) c)) (n :: news) n' Hn').
Qed.

Lemma x_erase_events (L : EvLaws) ns o1 c r c1 r1 t o :
  x_erase M o1 c r = (c1, r1, t) -> changed c c1 o -> covered ns t o.
Proof.
  unfold x_erase. intros H Hc. inversion H; subst.
  apply (ev_touched L (PErase o1)) in Hc. simpl in Hc.
  exists (ERemove o1), c. split; simpl; auto.
Qed.

Lemma modify_events_cover ns (m : list op) (c1 : Ct) o :
  In o m -> covered ns (map (fun o' => (EModify o', c1)) m) o.
Proof.
  intros Hin. exists (EModify o), c1. split; simpl; auto.
  apply in_map_iff. exists o. auto.
Qed.

Lemma x_rauw_events (L : EvLaws) ns from to c r c1 r1 t o :
  x_rauw M from to c r = (c1, r1, t) -> changed c c1 o -> covered ns t o.
Proof.
  intros H Hc. destruct (x_rauw_shape M from to c r) as [E|[r' E]]; rewrite E in H; inversion H; subst.
  - destruct (changed_refl _ _ Hc).
  - apply modify_events_cover. apply (ev_touched L) in Hc. destruct to; exact Hc.
Qed.

Lemma x_rauw_all_events (L : EvLaws) ns prs : forall c r c1 r1 t o,
  x_rauw_all M prs c r = (c1, r1, t) -> changed c c1 o -> covered ns t o.
Proof.
  induction prs as [|[old new] rest IH]; simpl; intros c r c1 r1 t o H Hc.
  - inversion H; subst. destruct (changed_refl _ _ Hc).
  - destruct (x_rauw M old new c r) as [[c' r'] t'] eqn:E1.
    destruct (x_rauw_all M rest c' r') as [[c'' r''] t''] eqn:E2.
    inversion H; subst. clear H.
    destruct (changed_chain c c' c1 o Hc) as [Hc1|Hc2].
    + apply covered_app_l. eapply x_rauw_events; eauto.
    + apply covered_app_r. eapply IH; eauto.
Qed.

(* C11_events_complete_partial *)
Theorem events_complete (L : EvLaws) a c r c1 r1 t o :
  no_silent_rewrite a -> exec M true a c r = (c1, r1, t) -> changed c c1 o -> covered (action_news a) t o.
Proof.
  intros Hns H Hc. destruct a; simpl in H.
  - eapply x_insert_events; eauto.
  - eapply x_erase_events; eauto.
  - eapply x_rauw_events; eauto.
  - destruct (x_rauw_if_shape M from to p c r) as [E|[_ [r' E]]]; rewrite E in H; inversion H; subst.
    + destruct (changed_refl _ _ Hc).
    + apply modify_events_cover. exact (ev_touched L (PRauwIf from to p) _ _ Hc).
  - unfold x_replace in H.
    destruct (x_insert M news (IPBefore o0) c (set_flag r)) as [[c' r'] t'] eqn:E1.
    destruct (x_rauw_all M _ c' r') as [[c'' r''] t''] eqn:E2.
    destruct (x_erase M o0 c'' r'') as [[c3 r3] t4] eqn:E3. inversion H; subst. clear H.
    destruct (changed_chain c c' c1 o Hc) as [Hc1|Hc1].
    + apply covered_app_l. eapply x_insert_events; eauto.
    + apply covered_app_r. apply covered_cons.
      destruct (changed_chain c' c'' c1 o Hc1) as [Hc2|Hc2].
      * apply covered_app_l. eapply x_rauw_all_events; eauto.
      * apply covered_app_r. eapply x_erase_events; eauto.
  - unfold x_retype in H. inversion H; subst.
    apply (ev_touched L (PRetype v ty)) in Hc. destruct Hc.
  - unfold x_insert_arg in H. inversion H; subst.
    apply (ev_touched L (PInsertArg b idx ty)) in Hc. destruct Hc.
  - unfold x_erase_arg in H. destruct (x_rauw M v None c (set_flag r)) as [[c' r'] t'] eqn:E.
    inversion H; subst. clear H.
    destruct (changed_chain c c' _ o Hc) as [Hc1|Hc1].
    + eapply x_rauw_events; eauto.
    + apply (ev_touched L (PEraseArg v)) in Hc1. simpl in Hc1.
      unfold x_rauw in E. destruct (map fst (uses M c v)); inversion E; subst;
        rewrite (ev_erased_uses L) in Hc1; destruct Hc1.
  - unfold x_inline_block in H. inversion H; subst. simpl in Hns. subst args.
    apply (ev_touched L (PInlineBlock b (real_ip r ip) [])) in Hc. simpl in Hc. congruence.
  - unfold x_move_region in H. inversion H; subst.
    apply (ev_touched L (PMoveRegion o0 r0)) in Hc. destruct Hc.
  - unfold x_inline_region in H. inversion H; subst.
    apply (ev_touched L (PInlineRegion o0 r0 bp)) in Hc. destruct Hc.
  - unfold x_notify in H. inversion H; subst. destruct (changed_refl _ _ Hc).
  - unfold x_create_block in H. inversion H; subst.
    apply (ev_touched L (PCreateBlock id bp tys)) in Hc. destruct Hc.
Qed.

End Events.
