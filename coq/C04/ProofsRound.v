(* C04/ProofsRound.v -- putting printer and parser together at the level of schedules:
   the printer's names satisfy what the parser simulation needs (NamesOK), hence parsing the printed
   schedule succeeds and resolves every name to its object; the labels of one region are pairwise distinct
   (C04_block_labels_unique) and have the shape of their hints;
   the printer is insensitive to an injective renaming of the object identities and to changes of hints
   it does not look at (C04_deterministic, and the basis of "the parsed IR prints the same text"). *)
From Coq Require Import ZArith List Bool Arith Lia.
From XV Require Import C04.Model C04.ProofsStr C04.ProofsGhost C04.ProofsPrint C04.ProofsParse.
Import ListNotations.

Definition lab_shape (c : cfg) (p : pst) (j : nat) (ep : bool) (b : Z) (h : hint) : Prop :=
  match eff_bhint c (use_hint_at c j ep) h with
  | Some hs => good_hint hs /\ is_default hs = false /\ exists k, bname_of p b = render hs k
  | None => bname_of p b = bb_name j
  end.

Record BInvP (c : cfg) (p : pst) (g : gst) : Prop := {
  bp_dom : forall b, lookupZ b (p_blks p) <> None -> In b (g_bseen g);
  bp_open : forall e, In e (g_bopen g) ->
      NoDup (map (bname_of p) (ids_of e)) /\
      (forall b, In b (ids_of e) -> lookupZ b (p_blks p) <> None) /\
      (exists pre, fst (fst e) = pre ++ snd e) /\
      (forall j b h, nth_error (fst (fst e)) j = Some (b, h) -> lab_shape c p j (snd (fst e)) b h);
  bp_lex : forall b n, lookupZ b (p_blks p) = Some n -> lexable n = true
}.

Lemma pb_dom : forall c b h idx u p w, lookupZ w (p_blks (pb_if_new c b h idx u p)) <> None ->
  w = b \/ lookupZ w (p_blks p) <> None.
Proof.
  intros c b h idx u p w H. unfold pb_if_new in H. destruct (lookupZ b (p_blks p)) eqn:E; [now right|].
  unfold pb in H. destruct (eff_bhint c u h); [|destruct idx]; cbn in H;
    destruct (Z.eqb_spec w b); try (now left); now right.
Qed.
Lemma pb_all_dom : forall c ls i ep p w, lookupZ w (p_blks (pb_all c ls i ep p)) <> None ->
  In w (map fst ls) \/ lookupZ w (p_blks p) <> None.
Proof.
  induction ls as [|[b h] ls IH]; intros i ep p w H; cbn in *; [now right|].
  apply IH in H. destruct H as [H|H]; [left; now right|].
  apply pb_dom in H. destruct H as [H|H]; [left; left; congruence|now right].
Qed.

Lemma lab_shape_same : forall c p p' j ep b h, bname_of p' b = bname_of p b -> lab_shape c p j ep b h -> lab_shape c p' j ep b h.
Proof. intros c p p' j ep b h E H. unfold lab_shape in *. rewrite E. exact H. Qed.

Lemma BInvP_same_blks : forall c p p' g, p_blks p' = p_blks p -> BInvP c p g -> BInvP c p' g.
Proof. intros c [v b t r] [v' b' t' r'] g E I. cbn in E. subst b'. destruct I. constructor; assumption. Qed.

Lemma pb_lex : forall c b h idx u p, bhint_ok c h ->
  (forall b' n, lookupZ b' (p_blks p) = Some n -> lexable n = true) ->
  forall b' n, lookupZ b' (p_blks (pb_if_new c b h idx u p)) = Some n -> lexable n = true.
Proof.
  intros c b h idx u p Hb L b' n H. unfold pb_if_new in H. destruct (lookupZ b (p_blks p)); [eapply L; eauto|].
  unfold pb in H. destruct (eff_bhint c u h) as [hs|] eqn:Eh.
  - cbn in H. destruct (Z.eqb b' b); [|eapply L; eauto]. inversion H; subst.
    destruct (eff_bhint_ok _ _ _ _ Hb Eh) as [G _]. apply good_lexable_render. exact G.
  - destruct idx; cbn in H; (destruct (Z.eqb b' b); [inversion H; subst; apply lexable_bb|eapply L; eauto]).
Qed.
Lemma pb_all_lex : forall c ls i ep p, Forall (fun l => bhint_ok c (snd l)) ls ->
  (forall b' n, lookupZ b' (p_blks p) = Some n -> lexable n = true) ->
  forall b' n, lookupZ b' (p_blks (pb_all c ls i ep p)) = Some n -> lexable n = true.
Proof.
  induction ls as [|[b h] ls IH]; intros i ep p Hh L; cbn; [exact L|].
  inversion Hh; subst. apply IH; [assumption|]. apply pb_lex; assumption.
Qed.

Lemma g_mention_b : forall v h g g1, g_mention v h g = Some g1 -> g_bopen g1 = g_bopen g /\ g_bseen g1 = g_bseen g.
Proof. intros v h g g1 H. destruct (g_mention_hints v h g g1 H) as [_ [_ [_ [_ [A B]]]]]. tauto. Qed.
Lemma BInvP_ghost : forall c p g g1, g_bopen g1 = g_bopen g -> g_bseen g1 = g_bseen g -> BInvP c p g -> BInvP c p g1.
Proof. intros c p g g1 E1 E2 [B1 B2 B3]. constructor; rewrite ?E1, ?E2; assumption. Qed.

Lemma named_old : forall c b h idx u p, lookupZ b (p_blks p) <> None -> pb_if_new c b h idx u p = p.
Proof. intros c b h idx u p H. unfold pb_if_new. destruct (lookupZ b (p_blks p)); [reflexivity|congruence]. Qed.

Lemma stepP_BInvP : forall c a p g g1,
  act_hints_ok c a -> BInvP c p g -> ws_step c a g = Some g1 -> BInvP c (stepP c a p) g1.
Proof.
  intros c a p g g1 Hh BI H.
  assert (Same : forall p' g', p_blks p' = p_blks p -> g_bopen g' = g_bopen g -> g_bseen g' = g_bseen g -> BInvP c p' g').
  { intros p' g' Ep E1 E2. apply (BInvP_ghost c _ g); try assumption. apply (BInvP_same_blks c p); assumption. }
  destruct a as [[v h]|[v h]| |[v h]|b|ls ep|[b h] pr|[v h]| | |[v h]|[v h]]; cbn [stepP].
  - destruct (g_mention_b _ _ _ _ H). apply Same; [apply pv_blks|assumption..].
  - cbn in H. destruct (fx_iso_operands c); [|inversion H; subst; exact BI].
    destruct (g_mention_b _ _ _ _ H). apply Same; [apply pv_blks|assumption..].
  - cbn in H. inversion H; subst. apply Same; reflexivity.
  - destruct (g_mention_b _ _ _ _ H). apply Same; [apply pv_blks|assumption..].
  - destruct (ws_succ_some _ _ _ _ H) as (-> & e & bs & Eb & R).
    rewrite named_old; [exact BI|]. destruct (bp_open _ _ _ BI e) as [_ [X _]]; [rewrite Eb; now left|]. apply X. apply R.
  - (* the blocks of the region get their names *)
    destruct (ws_rbegin_some _ _ _ _ _ H) as (N1 & Nseen & ->).
    destruct BI as [B1 B2 B3]. cbn in Hh. destruct Hh as [Hh1 Hh2].
    assert (New : forall b, In b (map fst ls) -> lookupZ b (p_blks p) = None).
    { intros b Hb. destruct (lookupZ b (p_blks p)) eqn:E; [|reflexivity]. exfalso. apply (Nseen b Hb). apply B1. congruence. }
    destruct (pb_all_spec c ep ls 0 p N1 New Hh1) as [S1 [S2 [S3 S4]]].
    assert (Stab : forall w, lookupZ w (p_blks p) <> None -> bname_of (pb_all c ls 0 ep p) w = bname_of p w).
    { intros w Hw. unfold bname_of. rewrite pb_all_bstable by exact Hw. reflexivity. }
    constructor; cbn [g_bseen g_bopen].
    + intros b Hb. apply pb_all_dom in Hb. apply in_or_app. destruct Hb as [Hb|Hb]; [now left|right; apply B1; exact Hb].
    + intros e [He|He].
      * subst e. unfold ids_of. cbn [fst snd]. split; [exact S2|]. split; [exact S4|]. split; [exists []; reflexivity|].
        intros j b h Hn. exact (S3 j b h Hn).
      * destruct (B2 e He) as [X1 [X2 [X3 X4]]]. split; [|split; [|split; [exact X3|]]].
        -- erewrite map_ext_in; [exact X1|]. intros b Hb. apply Stab. apply X2. exact Hb.
        -- intros b Hb. rewrite pb_all_bstable by (apply X2; exact Hb). apply X2. exact Hb.
        -- intros j b h Hn. apply (lab_shape_same c p); [|apply X4; exact Hn]. apply Stab. apply X2.
           apply nth_error_In in Hn. apply (in_map fst) in Hn. exact Hn.
    + apply pb_all_lex; assumption.
  - (* a label: the block has its name already *)
    destruct (ws_label_some _ _ _ _ _ _ H) as (ls & ep & rem & bs & Eb & _ & ->).
    destruct BI as [B1 B2 B3]. destruct (B2 (ls, ep, (b, h) :: rem)) as [X1 [X2 [[pre X3] X4]]]; [rewrite Eb; now left|].
    cbn [fst snd] in X3.
    assert (Hb : lookupZ b (p_blks p) <> None).
    { apply X2. unfold ids_of. cbn [fst]. rewrite X3, map_app. apply in_or_app. right. now left. }
    assert (Ep : (if pr then pb_if_new c b h None true p else p) = p) by (destruct pr; [apply named_old; exact Hb|reflexivity]).
    rewrite Ep. constructor; cbn [g_bseen g_bopen]; try assumption.
    intros e [<-|He]; [|apply B2; rewrite Eb; now right].
    split; [exact X1|]. split; [exact X2|]. split; [|exact X4].
    exists (pre ++ [(b, h)]). cbn [fst snd]. rewrite X3, <- app_assoc. reflexivity.
  - cbn in H. destruct (g_mention v h g) as [gm|] eqn:Em; [|discriminate].
    destruct (g_mention_b _ _ _ _ Em). destruct (g_define_some _ _ _ H) as (_ & _ & _ & o & os & _ & ->).
    apply Same; [apply pv_blks|assumption..].
  - destruct (ws_rend_some _ _ _ H) as (o & o2 & os & ls & ep & bs & _ & Eb & ->).
    destruct BI as [B1 B2 B3]. constructor; cbn [g_bseen g_bopen]; try assumption.
    intros e He. apply B2. rewrite Eb. now right.
  - destruct (ws_exit_some _ _ _ H) as (f & f2 & fs & _ & _ & ->). apply Same; try reflexivity.
    unfold p_exit. destruct (p_rest p); reflexivity.
  - destruct (g_use_some _ _ _ H) as (_ & _ & [[_ ->]|(_ & _ & ->)]); [exact BI|apply Same; reflexivity].
  - destruct (g_define_some _ _ _ H) as (_ & _ & _ & o & os & _ & ->). apply Same; reflexivity.
Qed.

Lemma BInvP_0 : forall c, BInvP c pst0 g0.
Proof. intro c. constructor; cbn; [tauto|intros e []|discriminate]. Qed.

Lemma runP_BInvP : forall c l p g g1,
  hints_ok c l -> BInvP c p g -> ws_run c l g = Some g1 -> BInvP c (runP c l p) g1.
Proof.
  induction l as [|a l IH]; intros p g g1 Hh BI H; cbn in H.
  - inversion H; subst. exact BI.
  - destruct (ws_step c a g) as [g2|] eqn:E; [|discriminate]. inversion Hh; subst.
    rewrite runP_cons. apply (IH (stepP c a p) g2 g1); [assumption| |exact H].
    eapply stepP_BInvP; eauto.
Qed.

Theorem printer_NamesOK : forall c l gf,
  hints_ok c l -> ws_run c l g0 = Some gf ->
  NamesOK c (name_of (runP c l pst0)) (bname_of (runP c l pst0)) l g0.
Proof.
  intros c l gf Hh Hw pre post g1 El Hp. split.
  - eapply names_unique_values; eauto.
  - subst l. intros e He.
    assert (Hpre : hints_ok c pre) by (unfold hints_ok in *; apply Forall_app in Hh; tauto).
    pose proof (runP_BInvP c pre pst0 g0 g1 Hpre (BInvP_0 c) Hp) as [B1 B2 B3].
    destruct (B2 e He) as [X1 [X2 _]].
    erewrite map_ext_in; [exact X1|]. intros b Hb. rewrite runP_app. apply keeps_bname; [apply runP_keeps|apply X2; exact Hb].
Qed.

(* where a region begins, its blocks have their final names *)
Lemma rbegin_named : forall c pre ls ep post g1 g2,
  hints_ok c (pre ++ Arbegin ls ep :: post) ->
  ws_run c pre g0 = Some g1 -> ws_step c (Arbegin ls ep) g1 = Some g2 ->
  exists p2, BInvP c p2 g2 /\ In (ls, ep, ls) (g_bopen g2) /\
    forall b, In b (map fst ls) -> bname_of (runP c (pre ++ Arbegin ls ep :: post) pst0) b = bname_of p2 b.
Proof.
  intros c pre ls ep post g1 g2 Hh H1 H2.
  replace (pre ++ Arbegin ls ep :: post) with ((pre ++ [Arbegin ls ep]) ++ post) in * by (rewrite <- app_assoc; reflexivity).
  exists (runP c (pre ++ [Arbegin ls ep]) pst0).
  assert (BI : BInvP c (runP c (pre ++ [Arbegin ls ep]) pst0) g2).
  { apply (runP_BInvP c _ pst0 g0); [apply Forall_app in Hh; apply Hh|apply BInvP_0|].
    rewrite ws_run_app, H1. cbn [ws_run]. rewrite H2. reflexivity. }
  assert (He : In (ls, ep, ls) (g_bopen g2)).
  { destruct (ws_rbegin_some _ _ _ _ _ H2) as (_ & _ & ->). now left. }
  split; [exact BI|]. split; [exact He|].
  intros b Hb. rewrite runP_app. apply keeps_bname; [apply runP_keeps|].
  destruct (bp_open _ _ _ BI _ He) as [_ [X _]]. apply X. exact Hb.
Qed.

(* C04_block_labels_unique *)
Theorem names_unique_blocks : forall c l pre ls ep post g1 g2,
  hints_ok c l -> l = pre ++ Arbegin ls ep :: post ->
  ws_run c pre g0 = Some g1 -> ws_step c (Arbegin ls ep) g1 = Some g2 ->
  NoDup (map (bname_of (runP c l pst0)) (map fst ls)).
Proof.
  intros c l pre ls ep post g1 g2 Hh -> H1 H2.
  destruct (rbegin_named c pre ls ep post g1 g2 Hh H1 H2) as (p2 & BI & He & St).
  rewrite (map_ext_in _ _ _ St). apply (bp_open _ _ _ BI _ He).
Qed.

Theorem label_shapes : forall c l pre ls ep post g1 g2,
  hints_ok c l -> l = pre ++ Arbegin ls ep :: post ->
  ws_run c pre g0 = Some g1 -> ws_step c (Arbegin ls ep) g1 = Some g2 ->
  forall j b h, nth_error ls j = Some (b, h) -> lab_shape c (runP c l pst0) j ep b h.
Proof.
  intros c l pre ls ep post g1 g2 Hh -> H1 H2 j b h Hn.
  destruct (rbegin_named c pre ls ep post g1 g2 Hh H1 H2) as (p2 & BI & He & St).
  apply (lab_shape_same c p2); [|apply (bp_open _ _ _ BI _ He); exact Hn].
  apply St. apply nth_error_In in Hn. apply (in_map fst) in Hn. exact Hn.
Qed.

Lemma InvQ_0 : forall nm bnm, InvQ nm bnm g0 qst0 [] [].
Proof.
  intros. split; [|split]; constructor; cbn; try reflexivity; try constructor; try tauto; try discriminate.
  apply incl_refl.
Qed.

Theorem roundtrip_schedule : forall c l gf,
  hints_ok c l -> ws_run c l g0 = Some gf -> g_pend gf = [] ->
  let pf := runP c l pst0 in
  exists q r rb,
    runQ c (map (name_act (name_of pf) (bname_of pf)) l) qst0 =
      Ok (q, qouts c (name_of pf) (bname_of pf) r rb l) /\
    q_fwd q = [] /\
    InvQ (name_of pf) (bname_of pf) gf q r rb.
Proof.
  intros c l gf Hh Hw Hp pf.
  destruct (runQ_sim c (name_of pf) (bname_of pf) l g0 gf qst0 [] []) as [q [r [rb [R1 [R2 _]]]]].
  - apply GInv_g0.
  - apply InvQ_0.
  - eapply printer_NamesOK; eauto.
  - exact Hw.
  - exists q, r, rb. split; [exact R1|]. split; [|exact R2].
    rewrite (iq_fwd _ _ _ _ _ _ _ _ (proj1 R2)), Hp. reflexivity.
Qed.

Section Rename.
Variable c : cfg.
Variables fv fb : Z -> Z.
Variables Dv Db : Z -> Prop.
Hypothesis fv_inj : forall x y, Dv x -> Dv y -> fv x = fv y -> x = y.
Hypothesis fb_inj : forall x y, Db x -> Db y -> fb x = fb y -> x = y.
(* what becomes of the hints of values and of labels (printed or not) *)
Variables (hv : hint -> hint) (hl : bool -> hint -> hint).

Definition ren_v (x : Z * hint) : Z * hint := (fv (fst x), hv (snd x)).
Definition ren_l (pr : bool) (l : Z * hint) : Z * hint := (fb (fst l), hl pr (snd l)).
Definition ren_act : sact -> sact := amapP ren_v ren_v ren_v fb ren_l.

(* the renaming is injective on what the act mentions, and the new hints have the same effect on the printer *)
Definition ren_ok (a : sact) : Prop :=
  match a with
  | Ares (v, h) | Aarg (v, h) | Abarg (v, h) => Dv v /\ eff_hint h = eff_hint (hv h)
  | Apre (v, h) => fx_iso_operands c = true -> Dv v /\ eff_hint h = eff_hint (hv h)
  | Asucc b => Db b
  | Arbegin ls ep => forall j b h, nth_error ls j = Some (b, h) -> Db b /\
      eff_bhint c (use_hint_at c j ep) h = eff_bhint c (use_hint_at c j ep) (hl (if j =? 0 then ep else true) h)
  | Alabel (b, h) pr => Db b /\ (pr = true -> eff_bhint c true h = eff_bhint c true (hl true h))
  | _ => True
  end.

Definition ren (f : Z -> Z) (l : list (Z * str)) : list (Z * str) := map (fun x => (f (fst x), snd x)) l.

Definition RelP (p p' : pst) : Prop :=
  p_vals p' = ren fv (p_vals p) /\ p_blks p' = ren fb (p_blks p) /\ p_top p' = p_top p /\ p_rest p' = p_rest p /\
  (forall x, In x (p_vals p) -> Dv (fst x)) /\ (forall x, In x (p_blks p) -> Db (fst x)).

Lemma lookupZ_ren : forall (f : Z -> Z) (D : Z -> Prop) l k,
  (forall x y, D x -> D y -> f x = f y -> x = y) -> D k -> (forall x, In x l -> D (fst x)) ->
  lookupZ (f k) (ren f l) = lookupZ k l.
Proof.
  intros f D l k I Hk. induction l as [|[k' a] l IH]; intro Hl; cbn; [reflexivity|].
  assert (Hk' : D k') by (apply (Hl (k', a)); now left).
  destruct (Z.eqb_spec k k') as [E|E].
  - subst. rewrite Z.eqb_refl. reflexivity.
  - destruct (Z.eqb_spec (f k) (f k')) as [E'|E']; [apply I in E'; try assumption; contradiction|].
    apply IH. intros x Hx. apply Hl. now right.
Qed.

Lemma pv_rel : forall v h h' p p', Dv v -> eff_hint h = eff_hint h' -> RelP p p' -> RelP (pv v h p) (pv (fv v) h' p').
Proof.
  intros v h h' p p' Hv Eh [R1 [R2 [R3 [R4 [R5 R6]]]]]. unfold pv. rewrite R1.
  rewrite (lookupZ_ren fv Dv) by assumption.
  destruct (lookupZ v (p_vals p)); [repeat split; assumption|].
  rewrite <- Eh. rewrite R3.
  destruct (eff_hint h); repeat split; cbn [p_vals p_blks p_top p_rest]; try assumption; rewrite ?R1; try reflexivity.
  all: intros x [Hx|Hx]; [subst x; exact Hv|apply R5; exact Hx].
Qed.

Lemma pb_rel : forall b h h' idx u p p', Db b ->
  eff_bhint c u h = eff_bhint c u h' -> RelP p p' ->
  RelP (pb_if_new c b h idx u p) (pb_if_new c (fb b) h' idx u p').
Proof.
  intros b h h' idx u p p' Hb Eh [R1 [R2 [R3 [R4 [R5 R6]]]]]. unfold pb_if_new. rewrite R2.
  rewrite (lookupZ_ren fb Db) by assumption.
  destruct (lookupZ b (p_blks p)); [repeat split; assumption|].
  unfold pb. rewrite <- Eh. rewrite R3.
  destruct (eff_bhint c u h); [|destruct idx]; repeat split; cbn [p_vals p_blks p_top p_rest]; try assumption; rewrite ?R2; try reflexivity.
  all: intros x [Hx|Hx]; [subst x; exact Hb|apply R6; exact Hx].
Qed.

Lemma pb_all_rel : forall ls i ep p p',
  (forall j b h, nth_error ls j = Some (b, h) -> Db b /\
     eff_bhint c (use_hint_at c (i + j) ep) h = eff_bhint c (use_hint_at c (i + j) ep) (hl true h)) ->
  RelP p p' -> RelP (pb_all c ls i ep p) (pb_all c (map (ren_l true) ls) i ep p').
Proof.
  induction ls as [|[b h] ls IH]; intros i ep p p' Hh R; [exact R|]. cbn [map pb_all ren_l fst snd]. apply IH.
  - intros j b' h' Hn. replace (S i + j) with (i + S j) by lia. exact (Hh (S j) b' h' Hn).
  - destruct (Hh 0 b h eq_refl) as [Hd He]. rewrite Nat.add_0_r in He. apply pb_rel; assumption.
Qed.

Lemma stepP_rel : forall a p p', ren_ok a -> RelP p p' -> RelP (stepP c a p) (stepP c (ren_act a) p').
Proof.
  intros a p p' E R.
  destruct a as [[v h]|[v h]| |[v h]|b|ls ep|[b h] pr|[v h]| | |[v h]|[v h]];
    unfold ren_act; cbn [amapP stepP ren_v ren_l fst snd ren_ok] in *; try exact R.
  - apply pv_rel; tauto.
  - destruct (fx_iso_operands c); [|exact R]. apply pv_rel; tauto.
  - destruct R as [R1 [R2 [R3 [R4 [R5 R6]]]]]. unfold RelP, p_enter. cbn [p_vals p_blks p_top p_rest]. rewrite R3, R4. auto 10.
  - apply pv_rel; tauto.
  - apply pb_rel; [assumption|reflexivity|exact R].
  - destruct ls as [|[b h] ls]; [exact R|]. cbn [labsP pb_all ren_l fst snd]. apply pb_all_rel.
    + intros j b' h' Hn. exact (E (S j) b' h' Hn).
    + destruct (E 0 b h eq_refl) as [Hd He]. apply pb_rel; assumption.
  - destruct pr; [|exact R]. apply pb_rel; [apply E|apply E; reflexivity|exact R].
  - apply pv_rel; tauto.
  - destruct R as [R1 [R2 [R3 [R4 [R5 R6]]]]]. unfold RelP, p_exit. rewrite R4.
    destruct (p_rest p) eqn:E'; cbn [p_vals p_blks p_top p_rest]; repeat split; try assumption; congruence.
Qed.

Lemma runP_rel : forall l p p', Forall ren_ok l -> RelP p p' -> RelP (runP c l p) (runP c (map ren_act l) p').
Proof.
  induction l as [|a l IH]; intros p p' F R; [exact R|]. inversion F; subst.
  cbn [map]. rewrite !runP_cons. apply IH; [assumption|]. apply stepP_rel; assumption.
Qed.

Lemma RelP_0 : RelP pst0 pst0.
Proof. repeat split; intros x []. Qed.

Lemma RelP_names : forall p p', RelP p p' ->
  (forall v, Dv v -> name_of p' (fv v) = name_of p v) /\ (forall b, Db b -> bname_of p' (fb b) = bname_of p b).
Proof.
  intros p p' [R1 [R2 [_ [_ [R5 R6]]]]]. split; intros x Hx; unfold name_of, bname_of; rewrite ?R1, ?R2.
  - rewrite (lookupZ_ren fv Dv) by assumption. reflexivity.
  - rewrite (lookupZ_ren fb Db) by assumption. reflexivity.
Qed.

End Rename.
