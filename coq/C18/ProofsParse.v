(* C18/ProofsParse.v -- printing then parsing an ArgSpec pipeline.
   Spec: `value_ok` / `spec_ok` (exactly which ArgSpecs are printable), stated on the model's
   printer and lexer classes.  Main results: spec_roundtrip, pipeline_roundtrip. *)
From Coq Require Import ZArith List Bool Lia.
From XV Require Import C18.Model C18.ProofsLex.
Import ListNotations.
Local Open Scope Z_scope.

Lemma str_eqb_refl : forall a, str_eqb a a = true.
Proof. induction a as [|x a IH]; cbn; [reflexivity|]. rewrite Z.eqb_refl. exact IH. Qed.
Lemma str_eqb_eq : forall a b, str_eqb a b = true <-> a = b.
Proof.
  induction a as [|x a IH]; intros [|y b]; cbn; split; intros H; try reflexivity; try discriminate.
  - apply andb_true_iff in H as [H1 H2]. apply Z.eqb_eq in H1. apply IH in H2. subst. reflexivity.
  - inversion H; subst. rewrite Z.eqb_refl. apply str_eqb_refl.
Qed.
Lemma str_eqb_neq : forall a b, a <> b -> str_eqb a b = false.
Proof. intros a b H. destruct (str_eqb a b) eqn:E; [apply str_eqb_eq in E; congruence|reflexivity]. Qed.

Lemma dict_set_fresh : forall {V} (d : dict V) k v, ~ In k (map fst d) -> dict_set d k v = d ++ [(k, v)].
Proof.
  induction d as [|[k' v'] d IH]; intros k v H; cbn; [reflexivity|].
  cbn in H. rewrite str_eqb_neq by (intros E; apply H; left; congruence).
  rewrite IH by tauto. reflexivity.
Qed.

Definition dstep (a d : Z) : Z := 10 * a + (d - 48).
Lemma digit_char : forall m, 0 <= m < 10 -> is_digit (48 + m) = true.
Proof. intros m H. unfold is_digit, in_range. apply andb_true_iff. split; apply Z.leb_le; lia. Qed.

Lemma digits_fuel_spec : forall f n acc, (0 < f)%nat -> 0 <= n < 2 ^ Z.of_nat f ->
  exists ds, digits_fuel f n acc = ds ++ acc /\ ds <> [] /\ forallb is_digit ds = true
             /\ forall a, fold_left dstep ds a = a * 10 ^ Z.of_nat (length ds) + n.
Proof.
  induction f as [|f IH]; intros n acc Hf Hn; [lia|].
  cbn [digits_fuel]. pose proof (Z.mod_pos_bound n 10 ltac:(lia)) as Hm.
  destruct (n <? 10) eqn:E.
  - apply Z.ltb_lt in E. exists [48 + n mod 10]. repeat split.
    + discriminate.
    + cbn [forallb]. rewrite digit_char by lia. reflexivity.
    + intros a. cbn [fold_left length]. unfold dstep. rewrite Z.mod_small by lia. change (Z.of_nat 1) with 1. lia.
  - apply Z.ltb_ge in E.
    assert (Hf' : (0 < f)%nat).
    { destruct f; [|lia]. cbn in Hn. lia. }
    assert (Hq : 0 <= n / 10 < 2 ^ Z.of_nat f).
    { split; [apply Z.div_pos; lia|].
      rewrite Nat2Z.inj_succ, Z.pow_succ_r in Hn by lia.
      apply Z.div_lt_upper_bound; lia. }
    destruct (IH (n / 10) ((48 + n mod 10) :: acc) Hf' Hq) as (ds & E1 & Hne & Hd & Hfold).
    exists (ds ++ [48 + n mod 10]). repeat split.
    + rewrite E1. rewrite <- app_assoc. reflexivity.
    + destruct ds; discriminate.
    + rewrite forallb_app, Hd. cbn [forallb]. rewrite digit_char by lia. reflexivity.
    + intros a. rewrite fold_left_app, Hfold. cbn [fold_left]. unfold dstep.
      rewrite app_length. cbn [length]. rewrite Nat2Z.inj_add. change (Z.of_nat 1) with 1.
      rewrite Z.pow_add_r by lia. change (10 ^ 1) with 10.
      pose proof (Z.div_mod n 10 ltac:(lia)) as Hdm. nia.
Qed.

Lemma print_nat_spec : forall n, 0 <= n ->
  print_nat n <> [] /\ forallb is_digit (print_nat n) = true /\ digits_value (print_nat n) = n.
Proof.
  intros n Hn. unfold print_nat.
  assert (Hb : 0 <= n < 2 ^ Z.of_nat (S (Z.to_nat (Z.log2 n)))).
  { split; [exact Hn|]. rewrite Nat2Z.inj_succ, Z2Nat.id by apply Z.log2_nonneg.
    destruct (Z.eq_dec n 0) as [->|Hz]; [cbn; lia|]. apply Z.log2_spec. lia. }
  destruct (digits_fuel_spec (S (Z.to_nat (Z.log2 n))) n [] ltac:(lia) Hb) as (ds & E & Hne & Hd & Hfold).
  rewrite app_nil_r in E. rewrite E. repeat split; try assumption.
  change (digits_value ds) with (fold_left dstep ds 0). rewrite Hfold. lia.
Qed.

Lemma digit_not_sign : forall c, is_digit c = true -> (c =? 45) || (c =? 43) = false.
Proof. intros c H. unfold is_digit, in_range in H. lia. Qed.
Lemma digit_not_dot : forall c, is_digit c = true -> (c =? 46) = false.
Proof. intros c H. unfold is_digit, in_range in H. lia. Qed.

Lemma rule_number_digits : forall ds, ds <> [] -> forallb is_digit ds = true -> rule_number ds = Some (ds, []).
Proof.
  intros ds Hne Hd. unfold rule_number. destruct ds as [|c ds]; [congruence|].
  cbn [opt_sign]. cbn in Hd. apply andb_true_iff in Hd as [Hc Hd]. rewrite (digit_not_sign c Hc).
  pose proof (span_ext is_digit (c :: ds) [] ltac:(cbn; rewrite Hc; exact Hd) I) as E.
  rewrite app_nil_r in E. rewrite E. cbn. rewrite app_nil_r. reflexivity.
Qed.
Lemma rule_number_neg_digits : forall ds, ds <> [] -> forallb is_digit ds = true ->
  rule_number (45 :: ds) = Some (45 :: ds, []).
Proof.
  intros ds Hne Hd. unfold rule_number. cbn [opt_sign]. change ((45 =? 45) || (45 =? 43)) with true. cbv iota.
  pose proof (span_ext is_digit ds [] Hd I) as E. rewrite app_nil_r in E. rewrite E.
  destruct ds as [|c ds]; [congruence|]. cbn. rewrite app_nil_r. reflexivity.
Qed.

Lemma mem_digits : forall ds, forallb is_digit ds = true -> mem 46 ds = false.
Proof.
  induction ds as [|c ds IH]; intros H; cbn; [reflexivity|].
  cbn in H. apply andb_true_iff in H as [Hc H]. rewrite (digit_not_dot c Hc). cbn. apply IH. exact H.
Qed.

(* an int is printable when its decimal representation has at most 4300 digits
   (CPython refuses longer int <-> str conversions) *)
Definition int_ok (z : Z) : Prop := Z.of_nat (length (print_nat (Z.abs z))) <= max_str_digits.

Lemma print_int_num_ok : forall z, num_ok (print_int z).
Proof.
  intros z. unfold num_ok, print_int. destruct (z <? 0) eqn:E.
  - destruct (print_nat_spec (- z) ltac:(lia)) as (Hne & Hd & _).
    apply rule_number_neg_digits; assumption.
  - destruct (print_nat_spec z ltac:(lia)) as (Hne & Hd & _).
    apply rule_number_digits; assumption.
Qed.
Lemma print_int_no_dot : forall z, mem 46 (print_int z) = false.
Proof.
  intros z. unfold print_int. destruct (z <? 0) eqn:E.
  - destruct (print_nat_spec (- z) ltac:(lia)) as (_ & Hd & _).
    cbn. apply mem_digits. exact Hd.
  - destruct (print_nat_spec z ltac:(lia)) as (_ & Hd & _). apply mem_digits. exact Hd.
Qed.
Lemma parse_print_int : forall z, int_ok z -> parse_int (print_int z) = Ok z.
Proof.
  intros z Hok. unfold int_ok in Hok. unfold parse_int, print_int. destruct (z <? 0) eqn:E.
  - rewrite Z.abs_neq in Hok by lia.
    destruct (print_nat_spec (- z) ltac:(lia)) as (_ & _ & Hv).
    cbn [opt_sign]. change ((45 =? 45) || (45 =? 43)) with true. cbv iota.
    destruct (max_str_digits <? Z.of_nat (length (print_nat (- z)))) eqn:El; [lia|].
    rewrite Hv. f_equal. lia.
  - rewrite Z.abs_eq in Hok by lia.
    destruct (print_nat_spec z ltac:(lia)) as (Hne & Hd & Hv).
    destruct (print_nat z) as [|c ds] eqn:Ep; [congruence|].
    cbn in Hd. apply andb_true_iff in Hd as [Hc Hd]. cbn [opt_sign]. rewrite (digit_not_sign c Hc).
    destruct (max_str_digits <? Z.of_nat (length (c :: ds))) eqn:El; [lia|].
    rewrite Hv. reflexivity.
Qed.

(* strings: every character is printable through _STRING_ESCAPES; only a lone surrogate has no
   UTF-8 encoding *)
Definition str_okb (s : str) : bool := forallb (fun c => negb (is_surrogate c)) s.

Lemma unescape_items_escaped : forall s, str_okb s = true -> unescape_items (escape_str s) = Some (map Chr s).
Proof.
  unfold escape_str. induction s as [|c s IH]; intros H; [reflexivity|].
  cbn [str_okb forallb] in H. apply andb_true_iff in H as [Hc H]. apply negb_true_iff in Hc.
  specialize (IH H). cbn [flat_map map].
  destruct (esc_char_cases c) as [[Hs ->]|Hin].
  - cbn [app unescape_items]. rewrite Hc, IH.
    unfold is_strch in Hs. destruct (Z.eqb_spec c 92); [lia|reflexivity].
  - repeat (destruct Hin as [<-|Hin]; [cbn; rewrite IH; reflexivity|]). destruct Hin.
Qed.
Lemma decode_items_chr : forall s, decode_items (map Chr s) = Some s.
Proof. induction s as [|c s IH]; cbn; [reflexivity|]. rewrite IH. reflexivity. Qed.
Lemma unescape_escaped : forall s, str_okb s = true -> unescape (escape_str s) = Ok s.
Proof.
  intros s H. unfold unescape. rewrite (unescape_items_escaped s H), decode_items_chr. reflexivity.
Qed.

Lemma identch_not_space : forall c, is_identch c = true -> is_space c = false.
Proof. intros c H. unfold is_identch, is_ident1, is_alpha, is_digit, is_space, in_range in *. lia. Qed.

Lemma name_ok_head : forall t, name_okb t = true -> exists c t', t = c :: t' /\ is_identch c = true.
Proof.
  intros [|c t] H; unfold name_okb in H; apply andb_true_iff in H as [Hi H]; [discriminate|].
  cbn in Hi. apply andb_true_iff in Hi as [Hc _]. eauto.
Qed.

(* `sep.join(xs)` puts the separator before every element but the first: as text, and as tokens *)
Lemma join_cons : forall sep x l, join sep (x :: l) = x ++ flat_map (app sep) l.
Proof.
  intros sep x l. revert x. induction l as [|y l IH]; intros x; [symmetry; apply app_nil_r|].
  change (join sep (x :: y :: l)) with (x ++ sep ++ join sep (y :: l)).
  cbn [flat_map]. rewrite IH, <- app_assoc. reflexivity.
Qed.

Definition seps (sep : tok) (l : list (list tok)) : list tok := flat_map (cons sep) l.
Definition join_toks (sep : tok) (l : list (list tok)) : list tok :=
  match l with [] => [] | x :: r => x ++ seps sep r end.

Lemma length_seps : forall sep l, (length l <= length (seps sep l))%nat.
Proof. unfold seps. induction l as [|x l IH]; cbn; [lia|]. rewrite app_length. lia. Qed.

(* A joined list lexes element by element, provided an element lexes both before the separator and
   before whatever may follow the list (`fol`), and the separator character is one token. *)
Lemma lexed_join : forall {A} (ok : A -> Prop) (pr : A -> str) (tk : A -> list tok) (c : cp) (k : kind)
    (fol : str -> Prop),
  (forall x r l, ok x -> fol r \/ (exists r', r = c :: r') -> lexed r l -> lexed (pr x ++ r) (tk x ++ l)) ->
  (forall x r, ok x -> next_token (c :: pr x ++ r) = Some (k, [c], pr x ++ r)) ->
  forall x xs r l, Forall ok (x :: xs) -> fol r -> lexed r l ->
  lexed (join [c] (map pr (x :: xs)) ++ r) (join_toks (T k [c]) (map tk (x :: xs)) ++ l).
Proof.
  intros A ok pr tk c k fol Helem Hsep x xs r l Hok Hr Hl. inversion Hok as [|? ? Hx Hxs]; subst.
  assert (Htail : (fol (flat_map (app [c]) (map pr xs) ++ r) \/
                   exists r', flat_map (app [c]) (map pr xs) ++ r = c :: r') /\
                  lexed (flat_map (app [c]) (map pr xs) ++ r) (seps (T k [c]) (map tk xs) ++ l)).
  { clear x Hx Hok. unfold seps. induction Hxs as [|y ys Hy _ IH]; [split; [left; exact Hr|exact Hl]|].
    destruct IH as [Hf IHl]. cbn [map flat_map]. rewrite <- !app_assoc. cbn [app].
    split; [right; eexists; reflexivity|].
    eapply lexed_cons; [apply Hsep; exact Hy|]. apply Helem; assumption. }
  destruct Htail as [Hf Ht]. cbn [map join_toks]. rewrite join_cons, <- !app_assoc.
  apply Helem; assumption.
Qed.

Section RT.
  Variable F : Type.
  Variable fparse : str -> F.
  Variable fstr : F -> str.

  Notation value := (value F).
  Notation spec := (spec F).
  Notation print_value := (print_value F fstr).
  Notation print_param := (print_param F fstr).
  Notation print_spec := (print_spec F fstr).
  Notation print_pipeline := (print_pipeline F fstr).
  Notation value_of_token := (value_of_token F fparse).
  Notation parse_values := (parse_values F fparse).
  Notation parse_params := (parse_params F fparse).
  Notation parse_spec := (parse_spec F fparse).
  Notation parse_pipeline_toks := (parse_pipeline_toks F fparse).
  Notation parse_pipeline := (parse_pipeline F fparse).

  Definition value_ok (v : value) : Prop :=
    match v with
    | VBool _ => True
    | VInt z => int_ok z
    | VStr s => str_okb s = true
    | VFloat f => num_ok (float_text (fstr f)) /\ mem 46 (float_text (fstr f)) = true
                  /\ fparse (float_text (fstr f)) = f
    end.
  Definition param_ok (p : str * list value) : Prop := name_okb (fst p) = true /\ Forall value_ok (snd p).
  Definition spec_ok (sp : spec) : Prop :=
    name_okb (fst sp) = true /\ Forall param_ok (snd sp) /\ NoDup (map fst (snd sp)).

  Definition value_tok (v : value) : tok :=
    match v with
    | VBool b => T KIdent (if b then s_true else s_false)
    | VStr s => T KString (34 :: escape_str s ++ [34])
    | VInt z => T KNumber (print_int z)
    | VFloat f => T KNumber (float_text (fstr f))
    end.
  Definition values_toks (vs : list value) : list tok :=
    join_toks (T KComma [44]) (map (fun v => [value_tok v]) vs).
  Definition param_toks (p : str * list value) : list tok :=
    T KIdent (fst p) :: match snd p with [] => [] | vs => T KEquals [61] :: values_toks vs end.
  Definition params_toks (ps : list (str * list value)) : list tok :=
    join_toks (T KSpace [32]) (map param_toks ps).
  Definition spec_toks (sp : spec) : list tok :=
    T KIdent (fst sp) ::
      match snd sp with [] => [] | ps => T KLBrace [123] :: params_toks ps ++ [T KRBrace [125]] end.
  Definition pipeline_toks (l : list spec) : list tok := join_toks (T KComma [44]) (map spec_toks l).

  Definition after_value (r : str) : Prop :=
    match r with [] => True | c :: _ => c = 44 \/ c = 32 \/ c = 125 end.
  Lemma after_value_identch : forall r, after_value r -> stops is_identch r.
  Proof. intros [|c r] H; [exact I|]. cbn in *. destruct H as [->|[->| ->]]; reflexivity. Qed.
  Lemma after_value_num : forall r, after_value r -> stops_num r.
  Proof. intros [|c r] H; [exact I|]. cbn in *. destruct H as [->|[->| ->]]; reflexivity. Qed.

  Lemma lexed_value : forall v r l, value_ok v -> after_value r -> lexed r l ->
    lexed (print_value v ++ r) (value_tok v :: l).
  Proof.
    intros v r l Hv Hd Hl. destruct v as [b|z|f|s]; cbn [print_value value_tok].
    - eapply lexed_cons; [|exact Hl]. apply next_token_ident; [destruct b; reflexivity|apply after_value_identch; exact Hd].
    - eapply lexed_cons; [|exact Hl]. apply next_token_number; [apply print_int_num_ok|apply after_value_num; exact Hd].
    - destruct Hv as (Hn & _ & _). eapply lexed_cons; [|exact Hl].
      apply next_token_number; [exact Hn|apply after_value_num; exact Hd].
    - eapply lexed_cons; [|exact Hl].
      cbn [app]. rewrite <- app_assoc. cbn [app].
      apply next_token_string.
  Qed.

  Definition after_param (r : str) : Prop := match r with [] => True | c :: _ => c = 32 \/ c = 125 end.
  Lemma after_param_value : forall r, after_param r -> after_value r.
  Proof. intros [|c r] H; [exact I|]. cbn in *. tauto. Qed.

  Lemma lexed_values : forall v vs r l, Forall value_ok (v :: vs) -> after_param r -> lexed r l ->
    lexed (join [44] (map print_value (v :: vs)) ++ r) (values_toks (v :: vs) ++ l).
  Proof.
    apply (lexed_join value_ok print_value (fun v => [value_tok v]) 44 KComma after_param).
    - intros x r l Hx Hr Hl. apply lexed_value; [exact Hx| |exact Hl].
      destruct Hr as [Hr|[r' ->]]; [apply after_param_value; exact Hr|cbn; tauto].
    - intros x r _. apply next_token_comma.
  Qed.

  Lemma lexed_param : forall p r l, param_ok p -> after_param r -> lexed r l ->
    lexed (print_param p ++ r) (param_toks p ++ l).
  Proof.
    intros [k vs] r l [Hk Hvs] Hd Hl. cbn [fst snd] in *. unfold print_param, print_param_with, param_toks. cbn [fst snd].
    destruct vs as [|v vs].
    - cbn [app]. eapply lexed_cons; [|exact Hl]. apply next_token_ident; [exact Hk|].
      apply after_value_identch, after_param_value, Hd.
    - rewrite <- app_assoc. cbn [app]. eapply lexed_cons; [apply next_token_ident; [exact Hk|reflexivity]|].
      eapply lexed_cons; [apply next_token_equals|].
      apply lexed_values; [exact Hvs|exact Hd|exact Hl].
  Qed.

  Lemma print_param_head : forall p r, param_ok p -> stops is_space (print_param p ++ r).
  Proof.
    intros [k vs] r [Hk _]. cbn [fst] in Hk. destruct (name_ok_head k Hk) as (c & t' & -> & Hc).
    unfold print_param, print_param_with. cbn [fst snd]. destruct vs; apply identch_not_space; exact Hc.
  Qed.

  Lemma lexed_params : forall p ps r l, Forall param_ok (p :: ps) -> lexed r l ->
    lexed (join [32] (map print_param (p :: ps)) ++ 125 :: r) (params_toks (p :: ps) ++ T KRBrace [125] :: l).
  Proof.
    intros p ps r l Hok Hl.
    apply (lexed_join param_ok print_param param_toks 32 KSpace (fun s => exists s', s = 125 :: s')).
    - intros x s l' Hx Hs Hl'. apply lexed_param; [exact Hx| |exact Hl'].
      destruct Hs as [[s' ->]|[s' ->]]; cbn; tauto.
    - intros x s Hx. apply next_token_space, print_param_head, Hx.
    - exact Hok.
    - eexists; reflexivity.
    - eapply lexed_cons; [apply next_token_rbrace|exact Hl].
  Qed.

  Definition after_spec (r : str) : Prop := match r with [] => True | c :: _ => c = 44 end.

  Lemma lexed_spec : forall sp r l, spec_ok sp -> after_spec r -> lexed r l ->
    lexed (print_spec sp ++ r) (spec_toks sp ++ l).
  Proof.
    intros [n ps] r l (Hn & Hps & _) Hd Hl. cbn [fst snd] in *. unfold print_spec, print_spec_with, spec_toks. cbn [fst snd]. fold print_param.
    destruct ps as [|p ps].
    - cbn [app]. eapply lexed_cons; [|exact Hl]. apply next_token_ident; [exact Hn|].
      destruct r as [|c r]; [exact I|]. cbn in *. subst. reflexivity.
    - rewrite <- !app_assoc. cbn [app]. eapply lexed_cons; [apply next_token_ident; [exact Hn|reflexivity]|].
      eapply lexed_cons; [apply next_token_lbrace|]. rewrite <- !app_assoc. cbn [app].
      apply lexed_params; [exact Hps|exact Hl].
  Qed.

  Lemma lexed_pipeline : forall sps, Forall spec_ok sps ->
    lexed (print_pipeline sps) (pipeline_toks sps ++ [TEOF]).
  Proof.
    intros [|sp sps] Hok; [constructor|]. unfold print_pipeline. rewrite <- (app_nil_r (join _ _)).
    apply (lexed_join spec_ok print_spec spec_toks 44 KComma (fun s => s = [])).
    - intros x s l Hx Hs Hl. apply lexed_spec; [exact Hx| |exact Hl].
      destruct Hs as [->|[s' ->]]; [exact I|reflexivity].
    - intros x s _. apply next_token_comma.
    - exact Hok.
    - reflexivity.
    - constructor.
  Qed.

  Lemma value_of_value_tok : forall v, value_ok v -> value_of_token (value_tok v) = Ok v.
  Proof.
    intros [b|z|f|s] Hv; cbn [value_tok value_of_token].
    - destruct b; reflexivity.
    - rewrite print_int_no_dot. rewrite (parse_print_int z Hv). reflexivity.
    - destruct Hv as (_ & Hm & Hp). rewrite Hm, Hp. reflexivity.
    - cbn [tl]. rewrite removelast_last. cbn in Hv. rewrite (unescape_escaped s Hv). reflexivity.
  Qed.

  Definition not_comma (rest : list tok) : Prop :=
    exists k t l, rest = T k t :: l /\ k <> KComma.

  Lemma parse_values_toks : forall vs v rest, Forall value_ok (v :: vs) -> not_comma rest ->
    parse_values (values_toks (v :: vs) ++ rest) = Ok (v :: vs, rest).
  Proof.
    unfold values_toks, join_toks, seps.
    induction vs as [|v2 vs IH]; intros v rest Hok Hr; inversion Hok as [|? ? Hv Hvs]; subst;
      cbn [map flat_map app].
    - destruct Hr as (k & t & l & -> & Hk). cbn [parse_values].
      assert (Hp : peek (value_tok v :: T k t :: l) = Ok (value_tok v)) by (destruct v; reflexivity).
      rewrite Hp, (value_of_value_tok v Hv). cbn [peek]. destruct k; try reflexivity. congruence.
    - specialize (IH v2 rest Hvs Hr). cbn [map flat_map app] in IH.
      (* the rest of the list stays folded while the parser reads `v ,` *)
      remember (value_tok v2 :: _) as tail. cbn [parse_values].
      assert (Hp : peek (value_tok v :: T KComma [44] :: tail) = Ok (value_tok v)) by (destruct v; reflexivity).
      rewrite Hp, (value_of_value_tok v Hv). cbn [peek]. rewrite IH. reflexivity.
  Qed.

  (* one option, `name` or `name=values`: the parser records it and looks at the token after it *)
  Lemma parse_param_step : forall p fuel acc k0 t0 more, param_ok p -> ~ In (fst p) (map fst acc) ->
    k0 = KSpace \/ k0 = KRBrace ->
    parse_params (S fuel) acc (param_toks p ++ T k0 t0 :: more) =
    match k0 with KSpace => parse_params fuel (acc ++ [p]) more | _ => Ok (acc ++ [p], more) end.
  Proof.
    intros [k vs] fuel acc k0 t0 more [_ Hvs] Hfresh Hk0. cbn [fst snd] in *. unfold param_toks. cbn [fst snd].
    destruct vs as [|v vs]; cbn [app parse_params peek tl].
    - rewrite (dict_set_fresh acc k [] Hfresh). destruct Hk0 as [-> | ->]; reflexivity.
    - rewrite (parse_values_toks vs v (T k0 t0 :: more) Hvs)
        by (exists k0, t0, more; split; [reflexivity|destruct Hk0 as [-> | ->]; discriminate]).
      cbn [peek tl]. rewrite (dict_set_fresh acc k (v :: vs) Hfresh). destruct Hk0 as [-> | ->]; reflexivity.
  Qed.

  Lemma parse_params_toks : forall ps p fuel acc rest, Forall param_ok (p :: ps) ->
    NoDup (map fst acc ++ map fst (p :: ps)) -> (length ps < fuel)%nat ->
    parse_params fuel acc (params_toks (p :: ps) ++ T KRBrace [125] :: rest) = Ok (acc ++ p :: ps, rest).
  Proof.
    unfold params_toks, join_toks, seps.
    induction ps as [|p2 ps IH]; intros p fuel acc rest Hok Hnd Hf; inversion Hok as [|? ? Hp Hps]; subst;
      (destruct fuel as [|fuel]; [cbn in Hf; lia|]); cbn [map flat_map].
    all: assert (Hfresh : ~ In (fst p) (map fst acc))
      by (intros Hin; apply NoDup_remove_2 in Hnd; apply Hnd, in_or_app; left; exact Hin).
    - rewrite app_nil_r, parse_param_step by auto. reflexivity.
    - rewrite <- !app_assoc. cbn [app]. rewrite parse_param_step by auto.
      specialize (IH p2 fuel (acc ++ [p]) rest Hps). cbn [map flat_map] in IH. rewrite <- !app_assoc in IH.
      rewrite IH; [reflexivity| |cbn in Hf; lia].
      rewrite map_app. cbn [map]. rewrite <- app_assoc. exact Hnd.
  Qed.

  Definition toks_after_spec (rest : list tok) : Prop :=
    exists l, rest = TEOF :: l \/ rest = T KComma [44] :: l.

  Lemma parse_spec_toks : forall sp fuel rest, spec_ok sp -> toks_after_spec rest ->
    (length (snd sp) <= fuel)%nat ->
    parse_spec fuel (spec_toks sp ++ rest) = Ok (sp, rest).
  Proof.
    intros [n ps] fuel rest (Hn & Hps & Hnd) [l Hr] Hf. cbn [fst snd] in *.
    unfold spec_toks. cbn [fst snd]. destruct ps as [|p ps].
    - cbn [app]. unfold parse_spec. cbn [peek tl]. destruct Hr as [-> | ->]; reflexivity.
    - cbn [app]. unfold parse_spec. cbn [peek tl]. rewrite <- app_assoc. cbn [app].
      rewrite (parse_params_toks ps p fuel [] rest Hps Hnd Hf). reflexivity.
  Qed.

  Lemma length_spec_toks : forall sp, (length (snd sp) < length (spec_toks sp))%nat.
  Proof.
    intros [n ps]. unfold spec_toks, params_toks. cbn [fst snd]. destruct ps as [|p ps]; [cbn; lia|].
    cbn [length map join_toks]. rewrite !app_length. cbn [length].
    pose proof (length_seps (T KSpace [32]) (map param_toks ps)) as H. rewrite map_length in H. lia.
  Qed.

  Lemma length_pipeline_toks : forall sps, (length sps <= length (pipeline_toks sps))%nat.
  Proof.
    intros [|sp sps]; [cbn; lia|]. unfold pipeline_toks. cbn [length map join_toks]. rewrite app_length.
    pose proof (length_seps (T KComma [44]) (map spec_toks sps)) as H. rewrite map_length in H.
    pose proof (length_spec_toks sp). lia.
  Qed.

  Lemma peek_spec_toks : forall sp l, peek (spec_toks sp ++ l) = Ok (T KIdent (fst sp)).
  Proof. intros [n ps] l. reflexivity. Qed.

  Lemma parse_pipeline_step : forall sp fuel more, spec_ok sp ->
    parse_pipeline_toks (S fuel) (spec_toks sp ++ [TEOF]) = Ok [sp] /\
    parse_pipeline_toks (S fuel) (spec_toks sp ++ T KComma [44] :: more) =
    match parse_pipeline_toks fuel more with Ok l => Ok (sp :: l) | Err e => Err e end.
  Proof.
    intros sp fuel more Hsp.
    assert (Hlen : forall G, (length (snd sp) <= length (spec_toks sp ++ G))%nat).
    { intros G. rewrite app_length.
      eapply Nat.le_trans; [apply Nat.lt_le_incl, length_spec_toks|apply Nat.le_add_r]. }
    split; cbn [parse_pipeline_toks]; rewrite peek_spec_toks, parse_spec_toks; try reflexivity;
      try exact Hsp; try apply Hlen; eexists; [left|right]; reflexivity.
  Qed.

  Lemma parse_pipeline_toks_ok : forall sps fuel, Forall spec_ok sps -> (length sps < fuel)%nat ->
    parse_pipeline_toks fuel (pipeline_toks sps ++ [TEOF]) = Ok sps.
  Proof.
    intros [|sp sps] fuel Hok Hf; [destruct fuel; [lia|reflexivity]|].
    unfold pipeline_toks, join_toks, seps. revert sp fuel Hok Hf.
    induction sps as [|sp2 sps IH]; intros sp fuel Hok Hf; inversion Hok as [|? ? Hsp Hsps]; subst;
      (destruct fuel as [|fuel]; [cbn in Hf; lia|]); cbn [map flat_map].
    - rewrite app_nil_r. exact (proj1 (parse_pipeline_step sp fuel [] Hsp)).
    - rewrite <- !app_assoc. cbn [app]. rewrite (proj2 (parse_pipeline_step sp fuel _ Hsp)).
      specialize (IH sp2 fuel Hsps (proj2 (Nat.succ_lt_mono _ _) Hf)). cbn [map flat_map] in IH. rewrite <- !app_assoc in IH.
      rewrite IH. reflexivity.
  Qed.

  Theorem pipeline_roundtrip : forall sps, Forall spec_ok sps ->
    parse_pipeline (print_pipeline sps) = Ok sps.
  Proof.
    intros sps Hok. unfold parse_pipeline.
    rewrite (lexed_is_lex _ _ (lexed_pipeline sps Hok)).
    apply parse_pipeline_toks_ok; [exact Hok|].
    rewrite app_length. cbn [length]. pose proof (length_pipeline_toks sps). lia.
  Qed.

  Theorem spec_roundtrip : forall sp, spec_ok sp -> parse_pipeline (print_spec sp) = Ok [sp].
  Proof.
    intros sp Hok. change (print_spec sp) with (print_pipeline [sp]).
    apply pipeline_roundtrip. constructor; [exact Hok|constructor].
  Qed.
End RT.
