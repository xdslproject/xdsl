(* C24/ProofsPO.v -- correctness of the PostOrderIterator model (C24/Model.v):
   termination within the fuel bound, every reachable block exactly once, no
   unreachable block, entry last; and refutation of the pre-repair code. *)
From Coq Require Import List Arith Bool Lia Permutation.
From XV Require Import C24.Model.
Import ListNotations.

Inductive reach (g : cfg) : nat -> Prop :=
| reach_entry : reach g 0
| reach_step b c : reach g b -> In c (succs g b) -> reach g c.

Lemma memb_In x l : memb x l = true <-> In x l.
Proof.
  unfold memb. rewrite existsb_exists. split.
  - intros [y [Hy E]]. apply Nat.eqb_eq in E. subst. exact Hy.
  - intros H. exists x. split; [exact H | apply Nat.eqb_refl].
Qed.

Lemma memb_false x l : memb x l = false <-> ~ In x l.
Proof. rewrite <- memb_In. symmetry. apply not_true_iff_false. Qed.

Lemma dedup_In l : forall s x, In x (dedup l s) <-> (In x l /\ ~ In x s).
Proof.
  induction l as [|a r IH]; intros s x; simpl.
  - tauto.
  - destruct (memb a s) eqn:E.
    + apply memb_In in E. rewrite IH. split.
      * intros [H1 H2]. tauto.
      * intros [[H1|H1] H2]; [subst; contradiction | tauto].
    + apply memb_false in E. simpl. rewrite IH. simpl. split.
      * intros [H|[H1 H2]]; [subst; tauto | tauto].
      * intros [[H|H] H2]; [tauto|].
        destruct (Nat.eq_dec a x) as [e|ne]; [tauto|]. right. tauto.
Qed.

Lemma dedup_NoDup l : forall s, NoDup (dedup l s).
Proof.
  induction l as [|a r IH]; intros s; simpl.
  - constructor.
  - destruct (memb a s); [apply IH|]. constructor; [|apply IH].
    rewrite dedup_In. simpl. tauto.
Qed.

Lemma filter_rev' {A} (f : A -> bool) l : filter f (rev l) = rev (filter f l).
Proof.
  induction l as [|a l IH]; simpl; [reflexivity|].
  rewrite filter_app, IH. simpl.
  destruct (f a); simpl; [reflexivity | apply app_nil_r].
Qed.

Lemma NoDup_app' {A} (p m : list A) :
  NoDup p -> NoDup m -> (forall x, In x p -> ~ In x m) -> NoDup (p ++ m).
Proof.
  induction p as [|a p IH]; intros Hp Hm Hd; simpl; [exact Hm|].
  inversion Hp as [|a' p' Ha Hp']; subst.
  constructor.
  - intros Hin. apply in_app_or in Hin. destruct Hin as [Hin|Hin].
    + contradiction.
    + apply (Hd a); [left; reflexivity | exact Hin].
  - apply IH; auto. intros x Hx. apply Hd. right. exact Hx.
Qed.

Lemma NoDup_insert {A} (l1 p l2 : list A) :
  NoDup (l1 ++ l2) -> NoDup p -> (forall x, In x p -> ~ In x (l1 ++ l2)) ->
  NoDup (l1 ++ p ++ l2).
Proof.
  intros H12 Hp Hd.
  apply (Permutation_NoDup (l := p ++ l1 ++ l2)).
  - apply Permutation_app_swap_app.
  - apply NoDup_app'; assumption.
Qed.

Lemma last_app_cons {A} (l1 : list A) x l2 d : last (l1 ++ x :: l2) d = last (x :: l2) d.
Proof.
  induction l1 as [|a l1 IH]; [reflexivity|].
  change ((a :: l1) ++ x :: l2) with (a :: (l1 ++ x :: l2)).
  remember (l1 ++ x :: l2) as m eqn:E.
  destruct m as [|y m'].
  - destruct l1; discriminate E.
  - change (last (a :: y :: m') d) with (last (y :: m') d). exact IH.
Qed.

Lemma succs_concat g b x : In x (succs g b) -> In x (concat g).
Proof.
  unfold succs. intros H.
  destruct (Nat.lt_ge_cases b (length g)) as [Hlt|Hge].
  - apply in_concat. exists (nth b g []). split; [apply nth_In; exact Hlt | exact H].
  - rewrite nth_overflow in H by exact Hge. contradiction.
Qed.

Definition pushed_of (seen ss : list nat) : list (nat * bool) :=
  rev (map (fun x => (x, false))
         (filter (fun x => negb (memb x seen)) (rev (dedup ss [])))).

Lemma pushed_fst seen ss :
  map fst (pushed_of seen ss) = filter (fun x => negb (memb x seen)) (dedup ss []).
Proof.
  unfold pushed_of. rewrite map_rev, map_map. simpl.
  rewrite map_id, filter_rev', rev_involutive. reflexivity.
Qed.

Lemma pushed_no_true seen ss x : ~ In (x, true) (pushed_of seen ss).
Proof.
  unfold pushed_of. intros H. apply in_rev in H. apply in_map_iff in H.
  destruct H as [y [E _]]. discriminate E.
Qed.

Lemma po_descend_true dd fuel g b st : po_descend dd fuel g b true st = Some (b, st).
Proof. destruct fuel; reflexivity. Qed.

Lemma po_descend_false fuel g b stk seen :
  po_descend true (S fuel) g b false {| po_stack := stk; po_seen := seen |} =
  match pushed_of seen (succs g b) ++ (b, true) :: stk with
  | [] => None
  | (b', v') :: rest =>
      po_descend true fuel g b' v' {| po_stack := rest; po_seen := seen ++ succs g b |}
  end.
Proof. reflexivity. Qed.

Lemma po_all_unfold dd f g st :
  po_all dd (S f) g st =
  match po_next dd (S (S f)) g st with
  | None => None
  | Some None => Some []
  | Some (Some (b, st')) =>
      match po_all dd f g st' with
      | None => None
      | Some l => Some (b :: l)
      end
  end.
Proof. reflexivity. Qed.

(* every block the iterator can ever see: the bound for the fuel accounting *)
Definition U (g : cfg) : list nat := 0 :: concat g.

(* the DFS invariant: stk = stack (head = top), seen, out = emitted so far *)

Record Inv (g : cfg) (stk : list (nat * bool)) (seen out : list nat) : Prop := {
  inv_nodup : NoDup (out ++ map fst stk);
  inv_reach : forall x, In x seen -> reach g x;
  inv_seen : forall x, In x seen <-> In x (out ++ map fst stk);
  inv_closed : forall b c, (In b out \/ In (b, true) stk) -> In c (succs g b) -> In c seen;
  inv_entry : In 0 seen;
  inv_last : last (out ++ map fst stk) 0 = 0;
  inv_U : forall x, In x seen -> In x (U g)
}.

Lemma Inv_init g : Inv g [(0, false)] [0] [].
Proof.
  constructor; simpl.
  - constructor; [intros []|constructor].
  - intros x [E|[]]. subst. constructor.
  - reflexivity.
  - intros b c [[]|[E|[]]]. discriminate E.
  - auto.
  - reflexivity.
  - intros x [E|[]]. left. exact E.
Qed.

Lemma Inv_descend g b rest seen out :
  Inv g ((b, false) :: rest) seen out ->
  Inv g (pushed_of seen (succs g b) ++ (b, true) :: rest) (seen ++ succs g b) out.
Proof.
  intros HI. destruct HI as [Hnd Hr Hs Hcl H0 Hlast HU]. simpl in *.
  set (P := filter (fun x => negb (memb x seen)) (dedup (succs g b) [])).
  assert (EL : out ++ map fst (pushed_of seen (succs g b) ++ (b, true) :: rest)
               = (out ++ P) ++ b :: map fst rest).
  { rewrite map_app, pushed_fst. simpl. rewrite app_assoc. reflexivity. }
  assert (HP : forall x, In x P <-> In x (succs g b) /\ ~ In x seen).
  { intros x. unfold P. rewrite filter_In, dedup_In, negb_true_iff, memb_false.
    simpl. tauto. }
  assert (Hb : In b seen).
  { apply Hs. apply in_or_app. right. left. reflexivity. }
  constructor.
  - rewrite EL, <- app_assoc. apply NoDup_insert.
    + exact Hnd.
    + unfold P. apply NoDup_filter. apply dedup_NoDup.
    + intros x Hx Hin. apply HP in Hx. apply Hs in Hin. tauto.
  - intros x Hx. apply in_app_or in Hx. destruct Hx as [Hx|Hx]; [auto|].
    eapply reach_step; [apply Hr; exact Hb | exact Hx].
  - intros x. rewrite EL, <- app_assoc, !in_app_iff, HP. specialize (Hs x). rewrite in_app_iff in Hs.
    destruct (in_dec Nat.eq_dec x seen); tauto.
  - intros b0 c Hb0 Hc. apply in_or_app.
    destruct Hb0 as [Hb0|Hb0].
    + left. apply (Hcl b0 c); [left; exact Hb0 | exact Hc].
    + apply in_app_or in Hb0. destruct Hb0 as [Hb0|[Hb0|Hb0]].
      * exfalso. exact (pushed_no_true _ _ _ Hb0).
      * inversion Hb0; subst. right. exact Hc.
      * left. apply (Hcl b0 c); [right; right; exact Hb0 | exact Hc].
  - apply in_or_app. left. exact H0.
  - rewrite EL, last_app_cons. rewrite last_app_cons in Hlast. exact Hlast.
  - intros x Hx. apply in_app_or in Hx. destruct Hx as [Hx|Hx]; [exact (HU x Hx)|].
    unfold U. right. apply succs_concat with b. exact Hx.
Qed.

Lemma Inv_emit g b s seen out :
  Inv g ((b, true) :: s) seen out -> Inv g s seen (out ++ [b]).
Proof.
  intros HI. destruct HI as [Hnd Hr Hs Hcl H0 Hlast HU]. simpl in *.
  assert (EL : (out ++ [b]) ++ map fst s = out ++ b :: map fst s).
  { rewrite <- app_assoc. reflexivity. }
  constructor; try rewrite EL; auto.
  intros b0 c Hb0 Hc. apply (Hcl b0 c); [|exact Hc].
  destruct Hb0 as [Hb0|Hb0].
  - apply in_app_or in Hb0. destruct Hb0 as [Hb0|[Hb0|[]]].
    + left. exact Hb0.
    + subst. right. left. reflexivity.
  - right. right. exact Hb0.
Qed.

Definition Final (g : cfg) (l : list nat) : Prop :=
  NoDup l /\ (forall b, In b l <-> reach g b) /\ last l 0 = 0 /\ l <> [].

Lemma Inv_final g seen out : Inv g [] seen out -> Final g out.
Proof.
  intros HI. destruct HI as [Hnd Hr Hs Hcl H0 Hlast HU]. simpl in *.
  rewrite app_nil_r in *.
  assert (Hin : forall b, reach g b -> In b out).
  { intros b Hb. induction Hb as [|b c Hb IH Hc].
    - apply Hs. exact H0.
    - apply Hs. apply (Hcl b c); [left; exact IH | exact Hc]. }
  split; [exact Hnd|]. split; [|split].
  - intros b. split; [intros Hb; apply Hr, Hs, Hb | apply Hin].
  - exact Hlast.
  - intros E. specialize (Hin 0 (reach_entry g)). rewrite E in Hin. exact Hin.
Qed.

Definition nvis (stk : list (nat * bool)) : nat := length (filter snd stk).

Lemma nvis_le stk : nvis stk <= length stk.
Proof.
  unfold nvis. induction stk as [|[b v] stk IH]; simpl; [lia|].
  destruct v; simpl; lia.
Qed.

Lemma nvis_app s1 s2 : nvis (s1 ++ s2) = nvis s1 + nvis s2.
Proof. unfold nvis. rewrite filter_app, app_length. reflexivity. Qed.

Lemma Inv_len g stk seen out :
  Inv g stk seen out -> length out + length stk <= length (U g).
Proof.
  intros HI.
  assert (H : length (out ++ map fst stk) <= length (U g)).
  { apply NoDup_incl_length; [exact (inv_nodup _ _ _ _ HI)|].
    intros x Hx. apply (inv_U _ _ _ _ HI). apply (inv_seen _ _ _ _ HI). exact Hx. }
  rewrite app_length, map_length in H. exact H.
Qed.

(* fuel: each step of po_descend turns one unvisited stack entry into a visited one (and pushes unvisited ones), and
   emitted + stacked blocks never exceed U g, so |U g| - |out| - (visited entries on the stack) steps suffice *)
Lemma descend_ok g : forall d stk seen out b v rest,
  stk = (b, v) :: rest -> Inv g stk seen out ->
  length (U g) <= d + length out + nvis stk ->
  exists b' stk' seen',
    po_descend true d g b v {| po_stack := rest; po_seen := seen |}
      = Some (b', {| po_stack := stk'; po_seen := seen' |})
    /\ Inv g ((b', true) :: stk') seen' out.
Proof.
  induction d as [|d IH]; intros stk seen out b v rest E HI Hd; subst stk.
  - destruct v.
    + exists b, rest, seen. split; [reflexivity | exact HI].
    + exfalso. pose proof (Inv_len _ _ _ _ HI) as H1. pose proof (nvis_le rest) as H2.
      unfold nvis in *. simpl in *. lia.
  - destruct v.
    + exists b, rest, seen. split; [reflexivity | exact HI].
    + rewrite po_descend_false.
      pose proof (Inv_descend _ _ _ _ _ HI) as HI'.
      remember (pushed_of seen (succs g b) ++ (b, true) :: rest) as s1 eqn:E1.
      destruct s1 as [|[b' v'] rest'].
      * exfalso. destruct (pushed_of seen (succs g b)); discriminate E1.
      * apply (IH _ _ _ b' v' rest' eq_refl HI').
        rewrite E1, nvis_app.
        change (nvis ((b, true) :: rest)) with (S (nvis rest)).
        change (nvis ((b, false) :: rest)) with (nvis rest) in Hd. lia.
Qed.

Lemma po_all_ok g : forall F stk seen out,
  Inv g stk seen out -> length (U g) + 1 <= F + length out ->
  exists l', po_all true F g {| po_stack := stk; po_seen := seen |} = Some l'
             /\ Final g (out ++ l').
Proof.
  induction F as [|F IH]; intros stk seen out HI HF.
  - exfalso. pose proof (Inv_len _ _ _ _ HI). lia.
  - rewrite po_all_unfold. unfold po_next. simpl po_stack. simpl po_seen.
    destruct stk as [|[b v] rest].
    + exists []. split; [reflexivity|]. rewrite app_nil_r.
      apply Inv_final with seen. exact HI.
    + assert (Hd : length (U g) <= S (S F) + length out + nvis ((b, v) :: rest)) by lia.
      destruct (descend_ok g (S (S F)) _ seen out b v rest eq_refl HI Hd)
        as (b' & stk' & seen' & E & HI').
      rewrite E. apply Inv_emit in HI'.
      assert (HF' : length (U g) + 1 <= F + length (out ++ [b'])).
      { rewrite app_length. change (length [b']) with 1. lia. }
      destruct (IH stk' seen' (out ++ [b']) HI' HF') as (l' & El & Hf).
      rewrite El. exists (b' :: l'). split; [reflexivity|].
      rewrite <- app_assoc in Hf. exact Hf.
Qed.

Theorem post_order_total : forall g, exists l, post_order g = Some l /\ Final g l.
Proof.
  intros g. unfold post_order, po_init.
  assert (HF : length (U g) + 1 <= po_fuel g + length (@nil nat)).
  { unfold po_fuel, U. simpl. lia. }
  destruct (po_all_ok g (po_fuel g) [(0, false)] [0] [] (Inv_init g) HF) as (l & E & Hf).
  exists l. split; [exact E | exact Hf].
Qed.

(* the fuel bound po_fuel is never exhausted (no well-formedness needed) *)
Theorem post_order_terminates : forall g, exists l, post_order g = Some l.
Proof.
  intros g. destruct (post_order_total g) as (l & E & _). exists l. exact E.
Qed.

(* every reachable block exactly once, no unreachable block, entry last *)
Theorem post_order_spec_general : forall g l, post_order g = Some l ->
  NoDup l /\ (forall b, In b l <-> reach g b) /\ last l 0 = 0 /\ l <> [].
Proof.
  intros g l E. destruct (post_order_total g) as (l' & E' & Hf).
  rewrite E in E'. inversion E'; subst. exact Hf.
Qed.

Theorem post_order_spec : forall g l, wf_cfg g -> 0 < length g -> post_order g = Some l ->
  NoDup l /\ (forall b, In b l <-> reach g b) /\ last l 0 = 0 /\ l <> [].
Proof. intros g l _ _. apply post_order_spec_general. Qed.

(* the code before the repair (no dict.fromkeys) emits a block twice *)
Theorem post_order_old_refuted : exists g l, wf_cfg g /\ post_order_old g = Some l /\ ~ NoDup l.
Proof.
  exists [[1; 1]; []], [1; 1; 0]. split; [|split].
  - intros b s. unfold succs. destruct b as [|[|b]]; simpl.
    + intros [E|[E|[]]]; subst; lia.
    + intros [].
    + destruct b; intros [].
  - vm_compute. reflexivity.
  - intros H. inversion H as [|x l Hn _]; subst. apply Hn. left. reflexivity.
Qed.

