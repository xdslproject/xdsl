(* Props/C16.v -- property C16: control-flow and loop lowerings preserve program results.
   ONLY theorem statements closed by `exact` (+ Examples by vm_compute).
   Every kernel is over an ARBITRARY loop body `body : Z -> st -> st` (induction variable, carried
   state incl. effect log).  Spec: `for_rel` (top of C16/ProofsFor.v): iterate while iv < ub, adding
   step -- MLIR scf.for, which is also what convert-scf-to-cf emits.  `for_sem` is its closed
   trip-count form; `for_fuel` the fuelled while loop defined for any step. *)
From Coq Require Import ZArith List Bool.
From XV Require Import C16.Model C16.ProofsFor C16.ProofsLoops C16.ProofsLicm C16.ProofsMore.
Import ListNotations.
Local Open Scope Z_scope.

(* reference semantics *)
Theorem C16_for_sem_spec : forall st (body : Z -> st -> st) lb ub step s, 0 < step ->
  for_rel st body ub step lb s (for_sem st body lb ub step s)
  /\ (forall s', for_rel st body ub step lb s s' -> s' = for_sem st body lb ub step s).
Proof. exact for_sem_spec. Qed.
Print Assumptions C16_for_sem_spec.

Theorem C16_for_fuel_enough : forall st (body : Z -> st -> st) fuel lb ub step s, 0 < step ->
  (Z.to_nat (trip lb ub step) < fuel)%nat ->
  for_fuel st body fuel lb ub step s = Some (for_sem st body lb ub step s).
Proof. exact for_fuel_enough. Qed.
Print Assumptions C16_for_fuel_enough.

(* convert-scf-to-cf *)
Theorem C16_for_lowering : forall st (body : Z -> st -> st) (thenf elsef : st -> st) lb ub step cond iv0 s fuel,
  0 < step -> (2 * Z.to_nat (trip lb ub step) + 3 <= fuel)%nat ->
  cfg_run st body thenf elsef lb ub step cond fuel lower_for 0%nat iv0 s
  = RDone st (for_sem st body lb ub step s).
Proof. exact for_lowering. Qed.
Print Assumptions C16_for_lowering.

Theorem C16_for_lowering_nonpositive_step_diverges :
  forall st (body : Z -> st -> st) (thenf elsef : st -> st) lb ub step cond fuel iv0 s,
  step <= 0 -> lb < ub ->
  cfg_run st body thenf elsef lb ub step cond fuel lower_for 0%nat iv0 s = RFuel st.
Proof. exact for_lowering_nonpositive_step_diverges. Qed.
Print Assumptions C16_for_lowering_nonpositive_step_diverges.

Theorem C16_if_lowering : forall st (body : Z -> st -> st) (thenf elsef : st -> st) lb ub step cond
  has_else has_results iv0 s fuel, (5 <= fuel)%nat ->
  cfg_run st body thenf elsef lb ub step cond fuel (lower_if has_else has_results) 0%nat iv0 s
  = RDone st (if_sem st thenf elsef cond has_else s).
Proof. exact if_lowering. Qed.
Print Assumptions C16_if_lowering.

(* scf-for-loop-range-folding *)
Theorem C16_fold_add : forall st (body : Z -> st -> st) c lb ub step s,
  for_sem st (fun iv => body (iv + c)) lb ub step s = for_sem st body (lb + c) (ub + c) step s.
Proof. exact fold_add. Qed.
Print Assumptions C16_fold_add.

Theorem C16_fold_mul : forall st (body : Z -> st -> st) c lb ub step s, 0 < step -> 0 < c ->
  for_sem st (fun iv => body (iv * c)) lb ub step s = for_sem st body (lb * c) (ub * c) (step * c) s.
Proof. exact fold_mul. Qed.
Print Assumptions C16_fold_mul.

(* the pass's fixpoint loop over the whole use chain; hypothesis: every multiplier it folds is > 0 *)
Theorem C16_fold_pass_partial : forall st ls (body : Z -> st -> st) lb ub step s, 0 < step ->
  (forall l, In l (fold_prefix ls) -> l_kind l = FMul -> 0 < l_c l) ->
  let '((lb', ub', step'), _) := fold_pass ls (lb, ub, step) 0 in
  0 < step' /\
  for_sem st (fun iv => body (apply_chain (fold_prefix ls) iv)) lb ub step s
  = for_sem st body lb' ub' step' s.
Proof. exact fold_pass_correct. Qed.
Print Assumptions C16_fold_pass_partial.

(* multiplier 0: fails under the cmpi-slt semantics AND raises under Python range: a finding *)
Theorem C16_fold_mul_refuted : exists lb ub step c, 0 < step /\ c = 0 /\
  forall fuel, for_fuel (list Z) log_body (S fuel) (lb * c) (ub * c) (step * c) []
               <> Some (for_sem (list Z) (fun iv => log_body (iv * c)) lb ub step []).
Proof. exact fold_mul_zero_refuted. Qed.
Print Assumptions C16_fold_mul_refuted.

Theorem C16_fold_mul_zero_range_raises : forall lb ub step, py_range (lb * 0) (ub * 0) (step * 0) = None.
Proof. exact fold_mul_zero_range_raises. Qed.
Print Assumptions C16_fold_mul_zero_range_raises.

(* multiplier < 0: fails under the cmpi-slt semantics only (semantics-dependent note, not a finding) *)
Theorem C16_fold_mul_negative_refuted : exists lb ub step c, 0 < step /\ c < 0 /\
  forall fuel, for_fuel (list Z) log_body (S fuel) (lb * c) (ub * c) (step * c) []
               <> Some (for_sem (list Z) (fun iv => log_body (iv * c)) lb ub step []).
Proof. exact fold_mul_negative_refuted. Qed.
Print Assumptions C16_fold_mul_negative_refuted.

Theorem C16_fold_mul_negative_range_ok : forall st (body : Z -> st -> st) c lb ub step s, 0 < step -> c < 0 ->
  exists ivs, py_range (lb * c) (ub * c) (step * c) = Some ivs /\
              unroll_sem st body ivs s = for_sem st (fun iv => body (iv * c)) lb ub step s.
Proof. exact fold_mul_negative_range_ok. Qed.
Print Assumptions C16_fold_mul_negative_range_ok.

(* scf-for-loop-flatten *)
(* current code (after fix commits 1ebef56 and 51aee64): FULL strength -- every outer bound, every
   inner range (empty and negative ones included), no divisibility hypothesis.  The remaining hypotheses
   are "steps > 0" (valid scf.for) and, for the fused variant, K | S which the pass checks itself. *)
Theorem C16_flatten : forall st (b : st -> st) ou os il iu is_ s, 0 < os -> 0 < is_ ->
  for_sem st (fun _ => b) 0 (unused_new_ub ou os il iu is_) os s
  = for_sem st (fun _ s1 => for_sem st (fun _ => b) il iu is_ s1) 0 ou os s.
Proof. exact flatten_unused_correct. Qed.
Print Assumptions C16_flatten.

Theorem C16_flatten_used : forall st (body : Z -> st -> st) consts ol ou S K s,
  0 < K -> 0 < S -> S mod K = 0 ->
  for_sem st body ol (used_new_ub consts ol ou S) K s
  = for_sem st (fun o s1 => for_sem st (fun i => body (o + i)) 0 S K s1) ol ou S s.
Proof. exact flatten_used_correct. Qed.
Print Assumptions C16_flatten_used.

(* recorded refutations of the code before the repairs (known_findings.d/C16.json: fixed) *)
Theorem C16_flatten_old_refuted : exists ou os il iu is_, 0 < os /\ 0 < is_ /\
  flat_unused_old Z Z.succ 0 ou os il iu is_ 0 <> nest_unused Z Z.succ 0 ou os il iu is_ 0.
Proof. exact flatten_unused_old_refuted. Qed.
Print Assumptions C16_flatten_old_refuted.

Theorem C16_flatten_old_negative_range_refuted : exists ou os il iu is_,
  0 < os /\ 0 < is_ /\ (iu - il) mod is_ = 0 /\ ou mod os = 0 /\
  flat_unused_old Z Z.succ 0 ou os il iu is_ 0 <> nest_unused Z Z.succ 0 ou os il iu is_ 0.
Proof. exact flatten_unused_old_negative_refuted. Qed.
Print Assumptions C16_flatten_old_negative_range_refuted.

Theorem C16_flatten_used_old_refuted : exists ol ou S K, 0 < K /\ 0 < S /\ S mod K = 0 /\
  flat_used (list Z) log_body ol ou K [] <> nest_used (list Z) log_body ol ou S K [].
Proof. exact flatten_used_old_refuted. Qed.
Print Assumptions C16_flatten_used_old_refuted.

(* scf-for-loop-unroll *)
Theorem C16_unroll : forall st (body : Z -> st -> st) lb ub step s, 0 < step ->
  exists ivs, py_range lb ub step = Some ivs /\
              unroll_sem st body ivs s = for_sem st body lb ub step s.
Proof. exact unroll_correct. Qed.
Print Assumptions C16_unroll.

Theorem C16_unroll_step_zero_raises : forall lb ub, py_range lb ub 0 = None.
Proof. exact unroll_step_zero_raises. Qed.
Print Assumptions C16_unroll_step_zero_raises.

Theorem C16_unroll_negative_step_differs : exists lb ub step, step < 0 /\
  py_range lb ub step = Some [2; 1] /\ for_fuel (list Z) log_body 1 lb ub step [] = Some [].
Proof. exact unroll_negative_step_differs. Qed.
Print Assumptions C16_unroll_negative_step_differs.

(* several loop-carried values: the state is a tuple and scf.yield is the SIMULTANEOUS assignment
   `yield_sim`; C16_unroll above is over an arbitrary state type, hence in particular over tuples:
   stated here for a body that ends in an arbitrary selector `sel` (permutations, rotations, mixes). *)
Theorem C16_unroll_tuple : forall (f : Z -> list Z -> Z) (sel : list Z) lb ub step (vals : list Z), 0 < step ->
  exists ivs, py_range lb ub step = Some ivs /\
    unroll_sem (list Z) (fun iv v => yield_sim sel v (f iv v)) ivs vals
    = for_sem (list Z) (fun iv v => yield_sim sel v (f iv v)) lb ub step vals.
Proof. exact (fun f sel => unroll_correct (list Z) (fun iv v => yield_sim sel v (f iv v))). Qed.
Print Assumptions C16_unroll_tuple.

(* a swap `yield %b, %a` exchanges the values; overwriting one position after the other would not *)
Example C16_yield_simultaneous :
  yield_sim [1; 0] [5; 7] 0 = [7; 5] /\ yield_seq [1; 0] [5; 7] 0 = [7; 7]
  /\ yield_sim [1; 2; 0] [1; 2; 3] 0 = [2; 3; 1] /\ yield_sim [1; -1] [5; 7] 9 = [7; 9]
  /\ for_sem (list Z) (fun iv v => yield_sim [1; 0] v 0) 0 3 1 [5; 7] = [7; 5].
Proof. vm_compute. repeat split. Qed.

(* licm *)
Theorem C16_licm : forall st (body_v : Z -> Z -> st -> st) n v iv step s,
  licm_hoisted st body_v n (Some v) iv step s = licm_orig st body_v n (Some v) iv step s.
Proof. exact licm_commutes. Qed.
Print Assumptions C16_licm.

Theorem C16_licm_partial : forall st (body_v : Z -> Z -> st -> st) n opv iv step s,
  (opv <> None \/ (0 < n)%nat) ->
  licm_hoisted st body_v n opv iv step s = licm_orig st body_v n opv iv step s.
Proof. exact licm_partial. Qed.
Print Assumptions C16_licm_partial.

Theorem C16_licm_zero_trip_refuted : forall st (body_v : Z -> Z -> st -> st) iv step s,
  licm_orig st body_v 0 None iv step s = Some s /\ licm_hoisted st body_v 0 None iv step s = None.
Proof. exact licm_zero_trip_refuted. Qed.
Print Assumptions C16_licm_zero_trip_refuted.

(* the trait table read by the pass declares trapping ops hoistable *)
Theorem C16_licm_hoistable_refuted : exists k rc a b,
  hoistable_kind k rc = true /\ (forall c, rc = Some c -> b = c) /\ op_eval k a b = None.
Proof. exact hoistable_refuted. Qed.
Print Assumptions C16_licm_hoistable_refuted.

Theorem C16_licm_hoistable_partial : forall k rc a b,
  declared_pure_division k = false ->
  hoistable_kind k rc = true -> (forall c, rc = Some c -> b = c) -> op_eval k a b <> None.
Proof. exact hoistable_partial. Qed.
Print Assumptions C16_licm_hoistable_partial.

Theorem C16_licm_pass_terminates : forall ops, exists r, licm_pass ops = Some r.
Proof. exact licm_pass_terminates. Qed.
Print Assumptions C16_licm_pass_terminates.

Theorem C16_licm_pass_sound : forall ops r, licm_pass ops = Some r -> sound_seq ops r.
Proof. exact licm_pass_sound. Qed.
Print Assumptions C16_licm_pass_sound.

(* lower-affine (expressions) *)
Theorem C16_affine_mod_refuted : exists e dims,
  aff_eval e dims [] = Some 3 /\ lower_eval e dims [] = Some (-1).
Proof. exact affine_mod_refuted. Qed.
Print Assumptions C16_affine_mod_refuted.

Theorem C16_affine_lowering_partial : forall e dims syms, mods_nonneg e dims syms ->
  lower_eval e dims syms = aff_eval e dims syms.
Proof. exact affine_lowering_partial. Qed.
Print Assumptions C16_affine_lowering_partial.

(* convert-scf-to-cf: scf.index_switch *)
(* SwitchLowering casts the index argument to i32 before cf.switch: correct whenever the argument
   survives the cast (in particular for every value in the signed 32-bit range) ... *)
Theorem C16_switch_lowering : forall st (casef : nat -> st -> st) cases arg s fuel,
  trunc32 arg = arg -> (3 <= fuel)%nat ->
  sw_run st casef fuel (lower_switch cases) arg 0%nat s = RDone st (switch_sem st casef cases arg s).
Proof. exact switch_lowering. Qed.
Print Assumptions C16_switch_lowering.

Theorem C16_trunc32_small : forall z, -2147483648 <= z < 2147483648 -> trunc32 z = z.
Proof. exact trunc32_small. Qed.
Print Assumptions C16_trunc32_small.

(* ... and wrong for an index that does not fit: 2^32 + 1 takes `case 1` instead of the default *)
Theorem C16_switch_lowering_refuted : exists cases arg,
  sw_run (list nat) (fun i s => i :: s) 3 (lower_switch cases) arg 0%nat []
  <> RDone _ (switch_sem (list nat) (fun i s => i :: s) cases arg []).
Proof. exact switch_lowering_refuted. Qed.
Print Assumptions C16_switch_lowering_refuted.

(* control-flow-hoist *)
Theorem C16_cfh : forall st (thenk elsek : Z -> st -> st) a b c s,
  cfh_hoisted st thenk elsek (Some a) (Some b) c s = cfh_orig st thenk elsek (Some a) (Some b) c s.
Proof. exact cfh_commutes. Qed.
Print Assumptions C16_cfh.

Theorem C16_cfh_refuted : forall st (thenk elsek : Z -> st -> st) b s,
  cfh_orig st thenk elsek None (Some b) false s = Some (elsek b s)
  /\ cfh_hoisted st thenk elsek None (Some b) false s = None.
Proof. exact cfh_refuted. Qed.
Print Assumptions C16_cfh_refuted.

(* the pass decides with the same trait table as licm: same refutation (remsi & co. declared Pure) *)
Theorem C16_cfh_pass_refuted : exists then_ops else_ops a b,
  cfh_pass then_ops else_ops = true /\ op_eval (fst (hd (KAddi, None) then_ops)) a b = None.
Proof. exact cfh_pass_refuted. Qed.
Print Assumptions C16_cfh_pass_refuted.

Theorem C16_cfh_pass_partial : forall then_ops else_ops o a b,
  cfh_pass then_ops else_ops = true -> In o (then_ops ++ else_ops) ->
  declared_pure_division (fst o) = false -> (forall c, snd o = Some c -> b = c) ->
  op_eval (fst o) a b <> None.
Proof. exact cfh_pass_partial. Qed.
Print Assumptions C16_cfh_pass_partial.

(* lower-affine: for / load / store *)
(* for bound maps with one closed result each (the only form LowerAffineFor accepts): the scf.for bounds it emits are the
   affine bounds (mod caveat of C16_affine_lowering_partial); the loop itself is then `for_sem` *)
Theorem C16_affine_for_lowering : forall lb ub step l u,
  mods_nonneg lb [] [] -> mods_nonneg ub [] [] ->
  lower_affine_for [lb] [ub] step = LFor l u step -> affine_for_bounds lb ub = Some (l, u).
Proof. exact lower_affine_for_correct. Qed.
Print Assumptions C16_affine_for_lowering.

(* affine.load / affine.store: every emitted index equals the affine map's result *)
Theorem C16_affine_index_lowering : forall results dims,
  Forall (fun e => mods_nonneg e dims []) results ->
  lower_index_map results dims = affine_index_map results dims.
Proof. exact lower_index_map_correct. Qed.
Print Assumptions C16_affine_index_lowering.

(* frontend-desymrefy (single block) *)
(* the update the pass forwards to a fetch (nearest preceding update of the symbol) holds exactly the
   content of the symbol's cell when the fetch executes *)
Theorem C16_desymref_last_write : forall s r ops cur c,
  fetch_reads s r ops cur = Some c -> last_write_before s r ops cur = c.
Proof. exact last_write_is_cell_content. Qed.
Print Assumptions C16_desymref_last_write.

(* store/load forwarding on a single block in SSA form (wf_block) preserves the value of every remaining
   op, for every meaning of the ops (usef), outside values (outv) and initial cell contents (init);
   `forward` is the reference result that the real pass is compared with on every generated block *)
Theorem C16_desymref_forward : forall (outv : nat -> Z) (usef : nat -> list Z -> Z) (init : nat -> Z) ops sy fe ue,
  wf_block ops [] = true ->
  sym_run outv usef init (forward ops [] []) sy fe ue = sym_run outv usef init ops sy fe ue.
Proof. exact forward_preserves_block. Qed.
Print Assumptions C16_desymref_forward.

(* blocks that also use symbols of an ENCLOSING scope (not declared in the block; `decl` = the declared
   ones): only the first unforwardable fetch and the last update of such a symbol survive; the values
   computed and the final content of every enclosing-scope cell are preserved *)
Theorem C16_desymref_forward2 : forall (outv : nat -> Z) (usef : nat -> list Z -> Z) (init : nat -> Z)
    decl ops sy fe ue, wf_block ops [] = true ->
  sym_run outv usef init (forward2 decl ops [] []) sy fe ue = sym_run outv usef init ops sy fe ue
  /\ (forall s, existsb (Nat.eqb s) decl = false ->
        sym_cell init (sym_final outv usef init (forward2 decl ops [] []) sy fe ue) s
        = sym_cell init (sym_final outv usef init ops sy fe ue) s).
Proof. exact forward2_preserves_block. Qed.
Print Assumptions C16_desymref_forward2.

(* non-vacuity / witnesses *)
(* zero-trip and negative ranges are covered by for_sem (no hypothesis lb < ub anywhere above) *)
Example C16_zero_trip : for_sem (list Z) log_body 5 5 1 [] = [] /\ for_sem (list Z) log_body 3 (-4) 2 [] = []
  /\ for_sem (list Z) log_body (-3) 4 3 [] = [3; 0; -3].
Proof. vm_compute. repeat split. Qed.
(* the flatten witness of DESIGN section 11: outer 0..3 step 2, inner 0..5 step 2: 6 becomes 3 *)
Example C16_flatten_witness :
  nest_unused Z Z.succ 0 3 2 0 5 2 0 = 6 /\ flat_unused_old Z Z.succ 0 3 2 0 5 2 0 = 3
  /\ flat_unused Z Z.succ 3 2 0 5 2 0 = 6 /\ unused_new_ub 3 2 0 5 2 = 12
  /\ flat_unused Z Z.succ (-2) 1 5 0 1 0 = 0.
Proof. vm_compute. repeat split. Qed.
Example C16_flatten_used_witness :
  nest_used (list Z) log_body 0 3 2 1 [] = [3; 2; 1; 0] /\ flat_used (list Z) log_body 0 3 1 [] = [2; 1; 0]
  /\ used_new_ub true 0 3 2 = 4 /\ flat_used (list Z) log_body 0 (used_new_ub true 0 3 2) 1 [] = [3; 2; 1; 0].
Proof. vm_compute. repeat split. Qed.
(* the hypotheses of the partial theorems are satisfiable by loops that actually run *)
Example C16_flatten_nonvacuous :
  nest_unused Z Z.succ 0 4 2 1 7 3 0 = 4 /\ flat_unused Z Z.succ 4 2 1 7 3 0 = 4
  /\ nest_used (list Z) log_body 1 9 4 2 [] = flat_used (list Z) log_body 1 9 2 []
  /\ flat_used (list Z) log_body 1 9 2 [] = [7; 5; 3; 1].
Proof. vm_compute. repeat split. Qed.
Example C16_fold_nonvacuous :
  fold_pass [mkLink 1 FAdd true 2; mkLink 1 FMul true 3; mkLink 2 FAdd true 1] (0, 4, 1) 0 = ((6, 18, 3), 2%nat)
  /\ for_sem (list Z) log_body 6 18 3 [] = [15; 12; 9; 6].
Proof. vm_compute. split; reflexivity. Qed.
Example C16_lowering_nonvacuous :
  cfg_run (list Z) log_body (fun s => s) (fun s => s) 1 8 3 false 20 lower_for 0%nat 0 [] = RDone _ [7; 4; 1].
Proof. vm_compute. reflexivity. Qed.
Example C16_licm_nonvacuous :
  licm_pass [mkBop KMuli OOut OOut None; mkBop KAddi (OOp 0) OLoop None; mkBop KRemsi (OOp 0) OOut None;
             mkBop KDivsi OOut OOut None; mkBop KSubi (OOp 2) OOut (Some 4)] = Some [0; 2; 4]%nat.
Proof. vm_compute. reflexivity. Qed.
Example C16_switch_nonvacuous :
  sw_run (list nat) (fun i s => i :: s) 3 (lower_switch [5; 1; 7]) 1 0%nat [] = RDone _ [1%nat]
  /\ sw_run (list nat) (fun i s => i :: s) 3 (lower_switch [5; 1; 7]) 2 0%nat [] = RDone _ [3%nat]
  /\ sw_run (list nat) (fun i s => i :: s) 3 (lower_switch [1]) 4294967297 0%nat [] = RDone _ [0%nat]
  /\ switch_sem (list nat) (fun i s => i :: s) [1] 4294967297 [] = [1%nat].
Proof. vm_compute. repeat split. Qed.
(* declare a; a = x; t0 = fetch a; a = y; t1 = fetch a; use(t0, t1): both fetches are forwarded *)
Example C16_desymref_nonvacuous :
  prune_definitions 40 [SDeclare 0; SUpdate 0 (VOut 7); SFetch 0 0; SUpdate 0 (VOut 8); SFetch 0 1;
                        SUse 1 [VFetch 0; VFetch 1]] = DOk [SUse 1 [VOut 7; VOut 8]]
  /\ forward [SDeclare 0; SUpdate 0 (VOut 7); SFetch 0 0; SUpdate 0 (VOut 8); SFetch 0 1;
              SUse 1 [VFetch 0; VFetch 1]] [] [] = [SUse 1 [VOut 7; VOut 8]].
Proof. vm_compute. split; reflexivity. Qed.
