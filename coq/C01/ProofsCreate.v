(* C01/ProofsCreate.v -- WF is preserved by the constructors Block(...), Region(...), Operation.create(...).

   IMPORTANT: `WF s` alone does NOT imply that creation keeps WF: no clause of WF excludes a live
   node whose `parent` field holds an id that is not allocated yet (WF_alloc bounds table keys,
   not pointers).  E.g. ops = {1 |-> parent = Some 1}, no block, n_block = 1 is WF, and after
   `block_new [] 0` the fresh block 1 has an empty op list although the live op 1 says that its
   parent is block 1 (same for region_new / op_create; checked with wf_b).  The theorems below
   therefore carry the hypothesis that the id about to be allocated is not the parent of a live
   node (`fresh_block_ok` / `fresh_region_ok` / `fresh_op_ok`); all three follow from the state
   invariant `parents_ok` (parent pointers of live nodes are below the allocation counters), which
   holds in the empty heap and is preserved by the creation functions and by every mutator (frame
   relation `par_rel`, lemmas `*_par` here and, for the tree walks, in ProofsInv.v; closing lemmas
   `parents_ok_by_nobody/_block/_region/_op`). *)
From Coq Require Import ZArith List Bool PArith FMapPositive Lia.
From XV Require Import C01.Model C01.Spec C01.ProofsBase C01.ProofsFrame C01.ProofsUses C01.ProofsOperands
  C01.ProofsRauw C01.ProofsSetOperands C01.ProofsDll C01.ProofsOps C01.ProofsBlocks
  C01.ProofsOpLists C01.ProofsSetSuccessors C01.ProofsOpRegions C01.ProofsBlockLists.
Import ListNotations.
Local Open Scope Z_scope.

Definition fresh_block_ok (s : state) : Prop :=
  forall o x, PM.find o (s_ops s) = Some x -> o_erased x = false -> o_parent x <> Some (n_block s).
Definition fresh_region_ok (s : state) : Prop :=
  forall b x, PM.find b (s_blocks s) = Some x -> b_erased x = false -> b_parent x <> Some (n_region s).
Definition fresh_op_ok (s : state) : Prop :=
  forall r x, PM.find r (s_regions s) = Some x -> r_erased x = false -> r_parent x <> Some (n_op s).

Definition parents_ok (s : state) : Prop :=
  (forall o x b, PM.find o (s_ops s) = Some x -> o_erased x = false -> o_parent x = Some b -> (b < n_block s)%positive) /\
  (forall b x r, PM.find b (s_blocks s) = Some x -> b_erased x = false -> b_parent x = Some r -> (r < n_region s)%positive) /\
  (forall r x o, PM.find r (s_regions s) = Some x -> r_erased x = false -> r_parent x = Some o -> (o < n_op s)%positive).

Lemma parents_ok_fresh : forall s, parents_ok s -> fresh_block_ok s /\ fresh_region_ok s /\ fresh_op_ok s.
Proof.
  intros s (P1 & P2 & P3). split; [|split].
  - intros o x F E Q. specialize (P1 o x _ F E Q). lia.
  - intros b x F E Q. specialize (P2 b x _ F E Q). lia.
  - intros r x F E Q. specialize (P3 r x _ F E Q). lia.
Qed.

Lemma empty_parents_ok : parents_ok empty_state.
Proof. repeat split; intros i x j F; simpl in F; rewrite PM.gempty in F; discriminate. Qed.

Lemma fresh_block : forall s, WF s -> PM.find (n_block s) (s_blocks s) = None.
Proof.
  intros s W. destruct (wf_alloc s W) as (_ & B & _).
  destruct (PM.find (n_block s) (s_blocks s)) as [x|] eqn:F; [|reflexivity]. specialize (B _ _ F). lia.
Qed.
Lemma fresh_region : forall s, WF s -> PM.find (n_region s) (s_regions s) = None.
Proof.
  intros s W. destruct (wf_alloc s W) as (_ & _ & B & _).
  destruct (PM.find (n_region s) (s_regions s)) as [x|] eqn:F; [|reflexivity]. specialize (B _ _ F). lia.
Qed.
Lemma fresh_op : forall s, WF s -> PM.find (n_op s) (s_ops s) = None.
Proof.
  intros s W. destruct (wf_alloc s W) as (B & _).
  destruct (PM.find (n_op s) (s_ops s)) as [x|] eqn:F; [|reflexivity]. specialize (B _ _ F). lia.
Qed.

Lemma find_add_old : forall {R} (t : PM.t R) e rec i x, PM.find e t = None -> PM.find i t = Some x ->
  PM.find i (PM.add e rec t) = Some x.
Proof. intros R t e rec i x FR F. rewrite find_add. destruct (Pos.eqb_spec i e); [subst; congruence|exact F]. Qed.

Lemma link_add_old : forall {R} (t : PM.t R) (g : R -> option positive) e rec i x, PM.find e t = None ->
  PM.find i t = Some x -> link (PM.add e rec t) g i = link t g i.
Proof. intros R t g e rec i x FR F. unfold link. rewrite (find_add_old t e rec i x FR F), F. reflexivity. Qed.

Lemma use_chain_ok_ext : forall s s' sel_items sel_uses self fu,
  use_chain_ok s sel_items sel_uses self fu ->
  s_uses s' = s_uses s ->
  (forall o x, PM.find o (s_ops s) = Some x -> PM.find o (s_ops s') = Some x) ->
  use_chain_ok s' sel_items sel_uses self fu.
Proof.
  intros s s' si su self fu (l & C & ND & P & M) Eu FO. exists l. unfold use_next. rewrite Eu.
  split; [exact C|]. split; [exact ND|]. split; [exact (prevs_ok_uses_eq s s' l None Eu P)|].
  intros u Iu. destruct (M u Iu) as (ur & x & Fu & Fx & Q). exists ur, x. auto.
Qed.

Lemma allocB_WF : forall s s' b,
  WF s -> fresh_block_ok s ->
  allocB (mkBlock [] None None None None None None false) s = (s', Ok b) ->
  WF s' /\ blk_live s' b.
Proof.
  intros s s' b0 W FB H. unfold allocB in H. injection H as <- <-.
  pose proof (fresh_block s W) as FR. set (b := n_block s) in *.
  set (rec := mkBlock [] None None None None None None false).
  split; [|exists rec; split; [apply find_add_same|reflexivity]].
  assert (FO : forall i x, PM.find i (s_blocks s) = Some x -> PM.find i (PM.add b rec (s_blocks s)) = Some x).
  { intros i x F. apply find_add_old; assumption. }
  destruct W. constructor.
  - intros b' br F E. simpl in F. rewrite find_add in F. destruct (Pos.eqb_spec b' b) as [->|N].
    + injection F as <-. exists []. simpl. split; [constructor|]. split; [constructor|]. split; [constructor|].
      split; [intros o []|]. intros o x Fo Eo Po. exfalso. exact (FB o x Fo Eo Po).
    + exact (wf_block b' br F E).
  - intros r rr F E. destruct (wf_region r rr F E) as (l & C1 & C2 & ND & M1 & M2). exists l.
    assert (EX : forall x, In x l -> exists y, PM.find x (s_blocks s) = Some y).
    { intros x Ix. destruct (M1 x Ix) as (y & Fy & _). eauto. }
    split; [|split; [|split; [exact ND|split]]].
    + eapply chain_ext; [|exact C1]. intros x Ix. destruct (EX x Ix) as (y & Fy).
      unfold blk_next. simpl. eapply link_add_old; eauto.
    + eapply chain_ext; [|exact C2]. intros x Ix. apply in_rev in Ix. destruct (EX x Ix) as (y & Fy).
      unfold blk_prev. simpl. eapply link_add_old; eauto.
    + intros x Ix. destruct (M1 x Ix) as (y & Fy & Py). exists y. split; [apply FO; exact Fy|exact Py].
    + intros x y Fy Ey Py. simpl in Fy. rewrite find_add in Fy. destruct (Pos.eqb_spec x b) as [->|N].
      * injection Fy as <-. discriminate.
      * eapply M2; eauto.
  - exact wf_opregs.
  - intros v vr F. apply (use_chain_ok_ext _ _ _ _ _ _ (wf_vuses v vr F)); auto.
  - intros b' br F. simpl in F. rewrite find_add in F. destruct (Pos.eqb_spec b' b) as [->|N].
    + injection F as <-. exists []. simpl. repeat split; try constructor. intros u [].
    + apply (use_chain_ok_ext _ _ _ _ _ _ (wf_buses b' br F)); auto.
  - exact wf_operands.
  - intros o x F E. destruct (wf_successors o x F E) as [L R]. split; [exact L|].
    intros i item u N1 N2. destruct (R i item u N1 N2) as [A (fu & l & Hf & C & I)]. split; [exact A|].
    exists fu, l. split; [|auto]. unfold link in *. simpl.
    destruct (PM.find item (s_blocks s)) as [br|] eqn:Fb; [|discriminate]. rewrite (FO _ _ Fb). exact Hf.
  - exact wf_disjoint.
  - exact wf_results.
  - intros b' br F E i v N. simpl in F. rewrite find_add in F. destruct (Pos.eqb_spec b' b) as [->|Nb].
    + injection F as <-. simpl in N. destruct i; discriminate.
    + exact (wf_args b' br F E i v N).
  - intros v vr F D. specialize (wf_owner v vr F D). destruct (v_kind vr) as [o i|b' i|old].
    + exact wf_owner.
    + destruct wf_owner as (br & Fb & Z). exists br. split; [apply FO; exact Fb|exact Z].
    + exact I.
  - destruct wf_detached as [W1 W2]. split; [exact W1|].
    intros b' x F E P. simpl in F. rewrite find_add in F. destruct (Pos.eqb_spec b' b) as [->|Nb].
    + injection F as <-. split; reflexivity.
    + exact (W2 b' x F E P).
  - destruct wf_alloc as (B1 & B2 & B3 & B4 & B5). repeat split; try assumption.
    intros i x F. simpl in F. rewrite find_add in F. simpl. destruct (Pos.eqb_spec i b) as [->|N]; [lia|].
    specialize (B2 _ _ F). fold b in B2. lia.
Qed.

Lemma allocR_WF : forall s s' r,
  WF s -> fresh_region_ok s ->
  allocR (mkRegion None None None false) s = (s', Ok r) ->
  WF s' /\ reg_live s' r.
Proof.
  intros s s' r0 W FB H. unfold allocR in H. injection H as <- <-.
  pose proof (fresh_region s W) as FR. set (r := n_region s) in *.
  set (rec := mkRegion None None None false).
  split; [|exists rec; split; [apply find_add_same|reflexivity]].
  assert (FO : forall i x, PM.find i (s_regions s) = Some x -> PM.find i (PM.add r rec (s_regions s)) = Some x).
  { intros i x F. apply find_add_old; assumption. }
  destruct W. constructor.
  - exact wf_block.
  - intros r' rr F E. simpl in F. rewrite find_add in F. destruct (Pos.eqb_spec r' r) as [->|N].
    + injection F as <-. exists []. simpl. split; [constructor|]. split; [constructor|]. split; [constructor|].
      split; [intros o []|]. intros o x Fo Eo Po. exfalso. exact (FB o x Fo Eo Po).
    + exact (wf_region r' rr F E).
  - intros o x F E. destruct (wf_opregs o x F E) as (ND & M1 & M2). split; [exact ND|]. split.
    + intros q Iq. destruct (M1 q Iq) as (rr & Fr & Pr). exists rr. split; [apply FO; exact Fr|exact Pr].
    + intros q rr Fq Eq Pq. simpl in Fq. rewrite find_add in Fq. destruct (Pos.eqb_spec q r) as [->|N].
      * injection Fq as <-. discriminate.
      * eapply M2; eauto.
  - intros v vr F. apply (use_chain_ok_ext _ _ _ _ _ _ (wf_vuses v vr F)); auto.
  - intros b' br F. apply (use_chain_ok_ext _ _ _ _ _ _ (wf_buses b' br F)); auto.
  - exact wf_operands.
  - exact wf_successors.
  - exact wf_disjoint.
  - exact wf_results.
  - exact wf_args.
  - exact wf_owner.
  - exact wf_detached.
  - destruct wf_alloc as (B1 & B2 & B3 & B4 & B5). repeat split; try assumption.
    intros i x F. simpl in F. rewrite find_add in F. simpl. destruct (Pos.eqb_spec i r) as [->|N]; [lia|].
    specialize (B3 _ _ F). fold r in B3. lia.
Qed.

Lemma allocO_WF : forall s s' o,
  WF s -> fresh_op_ok s ->
  allocO (mkOp [] [] [] [] [] [] None None None false) s = (s', Ok o) ->
  WF s' /\ op_live s' o.
Proof.
  intros s s' o0 W FB H. unfold allocO in H. injection H as <- <-.
  pose proof (fresh_op s W) as FR. set (o := n_op s) in *.
  set (rec := mkOp [] [] [] [] [] [] None None None false).
  split; [|exists rec; split; [apply find_add_same|reflexivity]].
  assert (FO : forall i x, PM.find i (s_ops s) = Some x -> PM.find i (PM.add o rec (s_ops s)) = Some x).
  { intros i x F. apply find_add_old; assumption. }
  destruct W. constructor.
  - intros b br F E. destruct (wf_block b br F E) as (l & C1 & C2 & ND & M1 & M2). exists l.
    assert (EX : forall x, In x l -> exists y, PM.find x (s_ops s) = Some y).
    { intros x Ix. destruct (M1 x Ix) as (y & Fy & _). eauto. }
    split; [|split; [|split; [exact ND|split]]].
    + eapply chain_ext; [|exact C1]. intros x Ix. destruct (EX x Ix) as (y & Fy).
      unfold op_next. simpl. eapply link_add_old; eauto.
    + eapply chain_ext; [|exact C2]. intros x Ix. apply in_rev in Ix. destruct (EX x Ix) as (y & Fy).
      unfold op_prev. simpl. eapply link_add_old; eauto.
    + intros x Ix. destruct (M1 x Ix) as (y & Fy & Py). exists y. split; [apply FO; exact Fy|exact Py].
    + intros x y Fy Ey Py. simpl in Fy. rewrite find_add in Fy. destruct (Pos.eqb_spec x o) as [->|N].
      * injection Fy as <-. discriminate.
      * eapply M2; eauto.
  - exact wf_region.
  - intros o' x F E. simpl in F. rewrite find_add in F. destruct (Pos.eqb_spec o' o) as [->|N].
    + injection F as <-. simpl. split; [constructor|]. split; [intros q []|].
      intros q rr Fq Eq Pq. exfalso. exact (FB q rr Fq Eq Pq).
    + exact (wf_opregs o' x F E).
  - intros v vr F. apply (use_chain_ok_ext _ _ _ _ _ _ (wf_vuses v vr F)); auto.
  - intros b br F. apply (use_chain_ok_ext _ _ _ _ _ _ (wf_buses b br F)); auto.
  - intros o' x F E. simpl in F. rewrite find_add in F. destruct (Pos.eqb_spec o' o) as [->|N].
    + injection F as <-. simpl. split; [reflexivity|]. intros i item u N1. destruct i; discriminate.
    + exact (wf_operands o' x F E).
  - intros o' x F E. simpl in F. rewrite find_add in F. destruct (Pos.eqb_spec o' o) as [->|N].
    + injection F as <-. simpl. split; [reflexivity|]. intros i item u N1. destruct i; discriminate.
    + exact (wf_successors o' x F E).
  - intros o' x F E. simpl in F. rewrite find_add in F. destruct (Pos.eqb_spec o' o) as [->|N].
    + injection F as <-. simpl. intros u [].
    + exact (wf_disjoint o' x F E).
  - intros o' x F E. simpl in F. rewrite find_add in F. destruct (Pos.eqb_spec o' o) as [->|N].
    + injection F as <-. simpl. intros i v N1. destruct i; discriminate.
    + exact (wf_results o' x F E).
  - exact wf_args.
  - intros v vr F D. specialize (wf_owner v vr F D). destruct (v_kind vr) as [o' i|b' i|old].
    + destruct wf_owner as (x & Fx & Z). exists x. split; [apply FO; exact Fx|exact Z].
    + exact wf_owner.
    + exact I.
  - destruct wf_detached as [W1 W2]. split; [|exact W2].
    intros o' x F E P. simpl in F. rewrite find_add in F. destruct (Pos.eqb_spec o' o) as [->|Nb].
    + injection F as <-. split; reflexivity.
    + exact (W1 o' x F E P).
  - destruct wf_alloc as (B1 & B2 & B3 & B4 & B5). repeat split; try assumption.
    intros i x F. simpl in F. rewrite find_add in F. simpl. destruct (Pos.eqb_spec i o) as [->|N]; [lia|].
    specialize (B1 _ _ F). fold o in B1. lia.
Qed.

Lemma updB_id : forall s s' b f x r,
  PM.find b (s_blocks s) = Some x -> f x = x -> updB b f s = (s', Ok r) -> s' = s.
Proof.
  intros s s' b f x r F E H. apply updB_ok in H as (x' & F' & ->). rewrite F in F'. injection F' as <-.
  rewrite E, (PositiveMapAdditionalFacts.gsident _ _ F). destruct s; reflexivity.
Qed.

Lemma updO_id : forall s s' o f x r,
  PM.find o (s_ops s) = Some x -> f x = x -> updO o f s = (s', Ok r) -> s' = s.
Proof.
  intros s s' o f x r F E H. apply updO_ok in H as (x' & F' & ->). rewrite F in F'. injection F' as <-.
  rewrite E, (PositiveMapAdditionalFacts.gsident _ _ F). destruct s; reflexivity.
Qed.

Fixpoint alloc_kinds (mk : Z -> vkind) (idxs : list Z) : M (list vid) :=
  match idxs with
  | [] => ret []
  | i :: r => v <- allocV (mkValue (mk i) None false) ;; vs <- alloc_kinds mk r ;; ret (v :: vs)
  end.

Lemma alloc_args_kinds : forall b idxs, alloc_args b idxs = alloc_kinds (KArg b) idxs.
Proof. intros b idxs. induction idxs as [|i r IH]; simpl; [reflexivity|]. rewrite IH. reflexivity. Qed.
Lemma alloc_results_kinds : forall o idxs, alloc_results o idxs = alloc_kinds (KRes o) idxs.
Proof. intros o idxs. induction idxs as [|i r IH]; simpl; [reflexivity|]. rewrite IH. reflexivity. Qed.

Record val_post (s s1 : state) (mk : Z -> vkind) (start : Z) (vs : list vid) : Prop := {
  vp_ops : s_ops s1 = s_ops s;
  vp_blocks : s_blocks s1 = s_blocks s;
  vp_regions : s_regions s1 = s_regions s;
  vp_uses : s_uses s1 = s_uses s;
  vp_counters : n_op s1 = n_op s /\ n_block s1 = n_block s /\ n_region s1 = n_region s /\ n_use s1 = n_use s;
  vp_old : forall v x, PM.find v (s_values s) = Some x -> PM.find v (s_values s1) = Some x;
  vp_new : forall k v, nth_error vs k = Some v ->
             PM.find v (s_values s) = None /\
             PM.find v (s_values s1) = Some (mkValue (mk (start + Z.of_nat k)) None false);
  vp_only : forall v x, PM.find v (s_values s1) = Some x -> PM.find v (s_values s) = Some x \/ In v vs;
  vp_below : below (s_values s1) (n_value s1) }.

Lemma alloc_kinds_post : forall mk n start s s1 vs,
  below (s_values s) (n_value s) ->
  alloc_kinds mk (range_from start n) s = (s1, Ok vs) ->
  val_post s s1 mk start vs.
Proof.
  intros mk n. induction n as [|n IH]; intros start s s1 vs B H; simpl in H.
  - apply ret_ok in H as [-> ->]. constructor; try reflexivity; auto.
    intros k u N. destruct k; discriminate.
  - apply bind_ok in H as (s0 & u & Ha & H). unfold allocV in Ha. injection Ha as <- <-.
    apply bind_ok in H as (s2 & us' & Hr & H). apply ret_ok in H as [<- ->].
    set (u := n_value s) in *.
    assert (Fu : PM.find u (s_values s) = None).
    { destruct (PM.find u (s_values s)) as [x|] eqn:F; [|reflexivity]. specialize (B _ _ F). unfold u in B. lia. }
    match type of Hr with alloc_kinds _ _ ?sx = _ => set (s0 := sx) in * end.
    assert (B0 : below (s_values s0) (n_value s0)).
    { intros i x F. simpl in F. rewrite find_add in F. simpl. destruct (Pos.eqb_spec i u) as [->|N]; [lia|].
      specialize (B _ _ F). fold u in B. lia. }
    destruct (IH (start + 1) s0 s1 us' B0 Hr).
    constructor; try (etransitivity; [eassumption|reflexivity]).
    + destruct vp_counters0 as (C1 & C2 & C3 & C4). repeat split; assumption.
    + intros v x F. apply vp_old0. simpl. rewrite find_add. destruct (Pos.eqb_spec v u); [subst; congruence|exact F].
    + intros k v N. destruct k as [|k]; simpl in N.
      * injection N as <-. split; [exact Fu|]. replace (start + Z.of_nat 0) with start by lia.
        apply vp_old0. simpl. rewrite find_add_same. reflexivity.
      * destruct (vp_new0 k v N) as [Q1 Q2]. split.
        -- simpl in Q1. rewrite find_add in Q1. destruct (Pos.eqb_spec v u); [discriminate|exact Q1].
        -- rewrite Q2. f_equal. f_equal. f_equal. lia.
    + intros v x F. destruct (vp_only0 v x F) as [Q|Q]; [|right; right; exact Q].
      simpl in Q. rewrite find_add in Q. destruct (Pos.eqb_spec v u) as [->|N]; [right; left; reflexivity|left; exact Q].
    + exact vp_below0.
Qed.

Definition vals_ext (s s' : state) : Prop :=
  (forall v x, PM.find v (s_values s) = Some x -> PM.find v (s_values s') = Some x) /\
  (forall v x, PM.find v (s_values s') = Some x -> PM.find v (s_values s) = Some x \/ v_first_use x = None).

Lemma val_post_ext : forall s s1 mk start vs, val_post s s1 mk start vs ->
  forall s', s_values s' = s_values s1 -> vals_ext s s'.
Proof.
  intros s s1 mk start vs VP s' E. destruct VP. unfold vals_ext. rewrite E. split; [exact vp_old0|].
  intros v x F. destruct (vp_only0 v x F) as [Q|Q]; [left; exact Q|right].
  destruct (In_nth_error _ _ Q) as (k & N). destruct (vp_new0 k v N) as [_ Q2]. rewrite Q2 in F. injection F as <-. reflexivity.
Qed.

Lemma UWF_vals_ext : forall s s', UWF s ->
  s_ops s' = s_ops s -> s_blocks s' = s_blocks s -> s_uses s' = s_uses s -> vals_ext s s' -> UWF s'.
Proof.
  intros s s' (Wv & Wb & Wo & Ws & Wd) Eo Eb Eu [X1 X2].
  destruct s' as [o' b' r' v' u' n1 n2 n3 n4 n5]. simpl in *. subst o' b' u'.
  split; [|split; [|split; [|split]]].
  - intros v vr F. simpl in F. destruct (X2 v vr F) as [Fo|Fn].
    + apply (use_chain_ok_ext _ _ _ _ _ _ (Wv v vr Fo)); auto.
    + rewrite Fn. exists []. repeat split; try constructor. intros u [].
  - intros b br F. apply (use_chain_ok_ext _ _ _ _ _ _ (Wb b br F)); auto.
  - intros o x F E. destruct (Wo o x F E) as [L R]. split; [exact L|].
    intros i item u N1 N2. destruct (R i item u N1 N2) as [A (fu & l & Hf & C & I)]. split; [exact A|].
    exists fu, l. split; [|auto]. unfold link in *. simpl.
    destruct (PM.find item (s_values s)) as [vr|] eqn:Fv; [|discriminate]. rewrite (X1 _ _ Fv). exact Hf.
  - exact Ws.
  - exact Wd.
Qed.

Lemma WF_vals_ext : forall s s',
  WF s -> same_T1 s s' -> same_T2 s s' -> same_T3 s s' ->
  agree pU_op (s_ops s) (s_ops s') -> agree pU_blk (s_blocks s) (s_blocks s') -> s_uses s' = s_uses s ->
  vals_ext s s' ->
  dom_eq (s_ops s) (s_ops s') -> dom_eq (s_blocks s) (s_blocks s') -> dom_eq (s_regions s) (s_regions s') ->
  n_op s' = n_op s -> n_block s' = n_block s -> n_region s' = n_region s -> n_use s' = n_use s ->
  below (s_values s') (n_value s') ->
  WF_results s' -> WF_args s' -> WF_owner s' -> WF s'.
Proof.
  intros s s' W T1 T2 T3 Ao Ab Eu VX D1 D2 D3 N1 N2 N3 N5 BV I1 I2 I3.
  set (sm := mkState (s_ops s') (s_blocks s') (s_regions s') (s_values s) (s_uses s')
                     (n_op s') (n_block s') (n_region s') (n_value s) (n_use s')).
  assert (UM : UWF sm).
  { apply (UWF_same s sm (WF_UWF s W)). split; [exact Ao|]. split; [apply agree_refl|]. split; [exact Ab|].
    simpl. rewrite Eu. apply agree_refl. }
  assert (UW : UWF s').
  { apply (UWF_vals_ext sm s' UM); try reflexivity. exact VX. }
  apply (WF_parts s s' W T1 T2 T3 UW); [|auto].
  destruct (wf_alloc s W) as (B1 & B2 & B3 & B4 & B5). unfold WF_alloc. rewrite N1, N2, N3, N5.
  split; [|split; [|split; [|split]]].
  - intros i x F. destruct (PM.find i (s_ops s)) as [y|] eqn:G; [eapply B1; eauto|]. apply D1 in G. congruence.
  - intros i x F. destruct (PM.find i (s_blocks s)) as [y|] eqn:G; [eapply B2; eauto|]. apply D2 in G. congruence.
  - intros i x F. destruct (PM.find i (s_regions s)) as [y|] eqn:G; [eapply B3; eauto|]. apply D3 in G. congruence.
  - exact BV.
  - rewrite Eu. exact B5.
Qed.

Lemma install_args_WF : forall s s2 b br args,
  WF s -> PM.find b (s_blocks s) = Some br -> b_erased br = false -> b_args br = [] ->
  val_post s s2 (KArg b) 0 args ->
  WF (with_blocks (PM.add b (set_b_args args br) (s_blocks s2)) s2).
Proof.
  intros s s2 b br args W Fb Eb Ab VP.
  pose proof (val_post_ext _ _ _ _ _ VP (with_blocks (PM.add b (set_b_args args br) (s_blocks s2)) s2) eq_refl) as VX.
  destruct s2 as [o2 b2 r2 v2 u2 m1 m2 m3 m4 m5]. destruct VP as [? ? ? ? (? & ? & ? & ?) Vold Vnew Vonly ?].
  simpl in *. subst o2 b2 r2 u2 m1 m2 m3 m5.
  apply (WF_vals_ext s _ W); simpl; try assumption; try reflexivity; try apply agree_refl; try apply dom_eq_refl.
  - split; simpl; [apply agree_refl|eapply agree_add; eauto].
  - split; simpl; [eapply agree_add; eauto|apply agree_refl].
  - split; simpl; apply agree_refl.
  - eapply agree_add; eauto.
  - eapply dom_eq_add; eauto.
  - intros o x F E i v N. destruct (wf_results s W o x F E i v N) as (vr & Fv & K). exists vr. auto.
  - intros b' x F E i v N. simpl in F. rewrite find_add in F. destruct (Pos.eqb_spec b' b) as [->|Nb].
    + injection F as <-. destruct (Vnew i v N) as [_ Q]. eexists. split; [exact Q|reflexivity].
    + destruct (wf_args s W b' x F E i v N) as (vr & Fv & K). exists vr. auto.
  - intros v vr F D. simpl in F. destruct (Vonly v vr F) as [Fo|Iv].
    + pose proof (wf_owner s W v vr Fo D) as O. destruct (v_kind vr) as [o i|b' i|old]; [exact O| |exact I].
      destruct O as (x & Fx & Z). simpl. rewrite find_add. destruct (Pos.eqb_spec b' b) as [->|Nb]; [|eauto].
      rewrite Fb in Fx. injection Fx as <-. rewrite Ab in Z. apply znth_In in Z. destruct Z.
    + destruct (In_nth_error _ _ Iv) as (k & N). destruct (Vnew k v N) as [_ Q]. rewrite Q in F. injection F as <-.
      simpl. rewrite find_add_same. eexists. split; [reflexivity|]. simpl. rewrite znth_of_nat. exact N.
Qed.

Lemma install_results_WF : forall s s2 o x res,
  WF s -> PM.find o (s_ops s) = Some x -> o_erased x = false -> o_results x = [] ->
  val_post s s2 (KRes o) 0 res ->
  WF (with_ops (PM.add o (set_o_results res x) (s_ops s2)) s2).
Proof.
  intros s s2 o x0 res W Fo Eo Ro VP.
  pose proof (val_post_ext _ _ _ _ _ VP (with_ops (PM.add o (set_o_results res x0) (s_ops s2)) s2) eq_refl) as VX.
  destruct s2 as [o2 b2 r2 v2 u2 m1 m2 m3 m4 m5]. destruct VP as [? ? ? ? (? & ? & ? & ?) Vold Vnew Vonly ?].
  simpl in *. subst o2 b2 r2 u2 m1 m2 m3 m5.
  apply (WF_vals_ext s _ W); simpl; try assumption; try reflexivity; try apply agree_refl; try apply dom_eq_refl.
  - split; simpl; [eapply agree_add; eauto|apply agree_refl].
  - split; simpl; apply agree_refl.
  - split; simpl; [eapply agree_add; eauto|apply agree_refl].
  - eapply agree_add; eauto.
  - eapply dom_eq_add; eauto.
  - intros o' x F E i v N. simpl in F. rewrite find_add in F. destruct (Pos.eqb_spec o' o) as [->|No].
    + injection F as <-. destruct (Vnew i v N) as [_ Q]. eexists. split; [exact Q|reflexivity].
    + destruct (wf_results s W o' x F E i v N) as (vr & Fv & K). exists vr. auto.
  - intros b' x F E i v N. destruct (wf_args s W b' x F E i v N) as (vr & Fv & K). exists vr. auto.
  - intros v vr F D. simpl in F. destruct (Vonly v vr F) as [Fv|Iv].
    + pose proof (wf_owner s W v vr Fv D) as O. destruct (v_kind vr) as [o' i|b' i|old]; [|exact O|exact I].
      destruct O as (x & Fx & Z). simpl. rewrite find_add. destruct (Pos.eqb_spec o' o) as [->|No]; [|eauto].
      rewrite Fo in Fx. injection Fx as <-. rewrite Ro in Z. apply znth_In in Z. destruct Z.
    + destruct (In_nth_error _ _ Iv) as (k & N). destruct (Vnew k v N) as [_ Q]. rewrite Q in F. injection F as <-.
      simpl. rewrite find_add_same. eexists. split; [reflexivity|]. simpl. rewrite znth_of_nat. exact N.
Qed.

(* Block(ops, arg_types) up to its last step: the empty block with its arguments, then add_ops *)
Lemma block_new_prefix : forall s s' ops nargs b,
  WF s -> fresh_block_ok s -> block_new ops nargs s = (s', Ok b) ->
  exists s5, (WF s5 /\ blk_live s5 b /\ same_live s s5) /\ add_ops b ops s5 = (s', Ok tt).
Proof.
  intros s s' ops nargs b W FB H. unfold block_new in H.
  apply bind_ok in H as (s1 & b1 & Ha & H).
  destruct (allocB_WF s s1 b1 W FB Ha) as [W1 BL1].
  unfold allocB in Ha. injection Ha as Es1 <-.
  set (b0 := n_block s) in *. set (rec := mkBlock [] None None None None None None false) in *.
  assert (Fb1 : PM.find b0 (s_blocks s1) = Some rec) by (rewrite <- Es1; simpl; apply find_add_same).
  apply bind_ok in H as (s2 & args & Hal & H). rewrite alloc_args_kinds in Hal.
  pose proof (alloc_kinds_post _ _ _ _ _ _ (proj1 (proj2 (proj2 (proj2 (wf_alloc s1 W1))))) Hal) as VP.
  pose proof (install_args_WF s1 s2 b0 rec args W1 Fb1 eq_refl eq_refl VP) as W3.
  destruct VP. destruct vp_counters0 as (C1 & C2 & C3 & C4).
  apply bind_ok in H as (s3 & ? & Hu1 & H). apply updB_ok in Hu1 as (x1 & Fx1 & ->).
  rewrite vp_blocks0, Fb1 in Fx1. injection Fx1 as <-.
  match type of W3 with WF ?st => set (s3 := st) in * end.
  assert (F3 : PM.find b0 (s_blocks s3) = Some (set_b_args args rec)) by apply find_add_same.
  apply bind_ok in H as (s4 & ? & Hu2 & H). apply (updB_id _ _ _ _ _ _ F3 eq_refl) in Hu2. subst s4.
  apply bind_ok in H as (s5 & ? & Hu3 & H). apply (updB_id _ _ _ _ _ _ F3 eq_refl) in Hu3. subst s5.
  apply bind_ok in H as (s6 & [] & Hao & H). apply ret_ok in H as [-> ->].
  exists s3. split; [|exact Hao]. split; [exact W3|]. subst s3.
  split; [eexists; split; [apply find_add_same|reflexivity]|]. split; [|split].
  - intros o L. unfold op_live. simpl. rewrite vp_ops0, <- Es1. exact L.
  - intros c (y & F & E). exists y. split; [|exact E]. simpl. rewrite vp_blocks0, <- Es1. simpl.
    pose proof (fresh_block s W) as FR. fold b0 in FR. rewrite find_add. destruct (Pos.eqb_spec c b0) as [->|_]; [congruence|].
    exact (find_add_old _ _ _ _ _ FR F).
  - intros r L. unfold reg_live. simpl. rewrite vp_regions0, <- Es1. exact L.
Qed.

Lemma block_new_empty_spec : forall s s' nargs b,
  WF s -> fresh_block_ok s -> block_new [] nargs s = (s', Ok b) ->
  WF s' /\ blk_live s' b /\ same_live s s'.
Proof.
  intros s s' nargs b W FB H. destruct (block_new_prefix s s' [] nargs b W FB H) as (s5 & Q & Hadd).
  apply ret_ok in Hadd as [-> _]. exact Q.
Qed.

Theorem block_new_empty_WF : forall s s' nargs b,
  WF s -> fresh_block_ok s -> block_new [] nargs s = (s', Ok b) -> WF s'.
Proof. intros s s' nargs b W FB H. exact (proj1 (block_new_empty_spec s s' nargs b W FB H)). Qed.

Theorem block_new_WF : forall s s' ops nargs b,
  WF s -> fresh_block_ok s -> (forall o, In o ops -> op_live s o) ->
  block_new ops nargs s = (s', Ok b) -> WF s'.
Proof.
  intros s s' ops nargs b W FB OL H.
  destruct (block_new_prefix s s' ops nargs b W FB H) as (s5 & (W5 & BL5 & LO & _) & Hadd).
  eapply (add_ops_WF ops s5 s' b tt W5 BL5); [|exact Hadd]. intros o I. apply LO. apply OL. exact I.
Qed.

Lemma region_new_split : forall blocks s s' r, region_new blocks s = (s', Ok r) ->
  exists s1, allocR (mkRegion None None None false) s = (s1, Ok r) /\ add_block r blocks s1 = (s', Ok tt).
Proof.
  intros blocks s s' r H. unfold region_new in H.
  apply bind_ok in H as (s1 & r1 & Ha & H). apply bind_ok in H as (s2 & [] & Hb & H).
  apply ret_ok in H as [-> ->]. eauto.
Qed.

Lemma allocR_live : forall x s s' r, WF s -> allocR x s = (s', Ok r) -> same_live s s'.
Proof.
  intros x s s' r W H. unfold allocR in H. injection H as <- _. split; [|split]; [intros ? L; exact L..|].
  intros q (y & F & E). exists y. split; [exact (find_add_old _ _ _ _ _ (fresh_region s W) F)|exact E].
Qed.

Theorem region_new_WF : forall s s' blocks r,
  WF s -> fresh_region_ok s -> (forall b, In b blocks -> blk_live s b) ->
  region_new blocks s = (s', Ok r) -> WF s'.
Proof.
  intros s s' blocks r W FR BL H. destruct (region_new_split _ _ _ _ H) as (s1 & Ha & Hb).
  destruct (allocR_WF s s1 r W FR Ha) as [W1 RL1]. destruct (allocR_live _ _ _ _ W Ha) as (_ & LB & _).
  eapply (add_block_WF blocks s1 s' r tt W1 RL1); [|exact Hb]. intros b I. apply LB. apply BL. exact I.
Qed.

Lemma region_new_live : forall blocks s s' r, WF s -> fresh_region_ok s -> region_new blocks s = (s', Ok r) ->
  reg_live s' r /\ same_live s s'.
Proof.
  intros blocks s s' r W FR H. destruct (region_new_split _ _ _ _ H) as (s1 & Ha & Hb).
  destruct (allocR_WF s s1 r W FR Ha) as [_ RL1]. pose proof (add_block_live r blocks _ _ _ Hb) as L1.
  split; [exact (proj2 (proj2 L1) r RL1)|exact (fr_trans _ fr_live _ _ _ (allocR_live _ _ _ _ W Ha) L1)].
Qed.

Theorem region_new_empty_WF : forall s s' r,
  WF s -> fresh_region_ok s -> region_new [] s = (s', Ok r) -> WF s'.
Proof. intros s s' r W FR H. exact (region_new_WF s s' [] r W FR (fun b (I : In b []) => match I with end) H). Qed.

Theorem region_new1_WF : forall s s' b r,
  WF s -> fresh_region_ok s -> blk_live s b -> region_new [b] s = (s', Ok r) -> WF s'.
Proof.
  intros s s' b r W FR BL H. apply (region_new_WF s s' [b] r W FR); [|exact H].
  intros c [<-|[]]. exact BL.
Qed.

Lemma add_regions_WF : forall regions o s s' r,
  WF s -> forM regions (add_region o) s = (s', Ok r) -> WF s'.
Proof.
  induction regions as [|q rest IH]; intros o s s' r W H; simpl in H.
  - apply ret_ok in H as [-> _]. exact W.
  - apply bind_ok in H as (s1 & u & H1 & H2). eapply IH; [|exact H2].
    eapply add_region_WF_gen; eauto.
Qed.

Lemma op_fields_same : forall s s' o x, same_T3 s s' -> same_I s s' ->
  PM.find o (s_ops s) = Some x ->
  exists x', PM.find o (s_ops s') = Some x' /\ o_erased x' = o_erased x /\
             o_results x' = o_results x /\ o_regions x' = o_regions x.
Proof.
  intros s s' o x [A3 _] (AI & _) F.
  destruct (agree_find_rev _ _ _ _ _ A3 F) as (x' & F' & P3).
  destruct (agree_find_rev _ _ _ _ _ AI F) as (x'' & F'' & PI). rewrite F' in F''. injection F'' as <-.
  unfold pT3_op in P3. unfold pI_op in PI. injection P3 as Q1 Q2. injection PI as Q3 Q4.
  exists x'. auto.
Qed.

Theorem op_create_WF_gen : forall s s' operands nres succs regions o,
  WF s -> fresh_op_ok s ->
  op_create operands nres succs regions s = (s', Ok o) -> WF s'.
Proof.
  intros s s' operands nres succs regions o W FO H. unfold op_create in H.
  apply bind_ok in H as (s1 & o1 & Ha & H).
  destruct (allocO_WF s s1 o1 W FO Ha) as [W1 OL1].
  assert (F1 : PM.find o1 (s_ops s1) = Some (mkOp [] [] [] [] [] [] None None None false)).
  { unfold allocO in Ha. injection Ha as <- <-. simpl. apply find_add_same. }
  apply bind_ok in H as (s2 & [] & Hso & H).
  pose proof (set_operands_WF s1 s2 o1 operands tt W1 OL1 Hso) as W2.
  destruct (op_fields_same s1 s2 o1 _ (set_operands_T3 _ _ _ _ _ Hso) (set_operands_I _ _ _ _ _ Hso) F1)
    as (x2 & F2 & E2 & R2 & G2). simpl in E2, R2, G2.
  apply bind_ok in H as (s3 & res & Har & H). rewrite alloc_results_kinds in Har.
  pose proof (alloc_kinds_post _ _ _ _ _ _ (proj1 (proj2 (proj2 (proj2 (wf_alloc s2 W2))))) Har) as VP.
  pose proof (install_results_WF s2 s3 o1 x2 res W2 F2 E2 R2 VP) as W4.
  apply bind_ok in H as (s4 & [] & Hu & H). apply updO_ok in Hu as (x3 & F3 & ->).
  rewrite (vp_ops _ _ _ _ _ VP), F2 in F3. injection F3 as <-.
  match type of W4 with WF ?st => set (s4 := st) in * end.
  assert (F4 : PM.find o1 (s_ops s4) = Some (set_o_results res x2)) by (simpl; apply find_add_same).
  apply bind_ok in H as (s5 & [] & Hss & H).
  assert (OL4 : op_live s4 o1) by (eexists; split; [exact F4|exact E2]).
  pose proof (set_successors_WF s4 s5 o1 succs tt W4 OL4 Hss) as W5.
  destruct (op_fields_same s4 s5 o1 _ (set_successors_T3 _ _ _ _ _ Hss) (set_successors_I _ _ _ _ _ Hss) F4)
    as (x5 & F5 & E5 & R5 & G5). simpl in E5, R5, G5.
  apply bind_ok in H as (s6 & [] & Hur & H).
  assert (I5 : set_o_regions [] x5 = x5) by (rewrite G2 in G5; destruct x5; simpl in G5; rewrite G5; reflexivity).
  apply (updO_id _ _ _ _ _ _ F5 I5) in Hur. subst s6.
  apply bind_ok in H as (s7 & [] & Hrg & H). apply ret_ok in H as [-> ->].
  exact (add_regions_WF _ _ _ _ _ W5 Hrg).
Qed.

Theorem op_create_WF : forall s s' operands nres succs regions o,
  WF s -> fresh_op_ok s -> (forall r, In r regions -> reg_live s r) ->
  op_create operands nres succs regions s = (s', Ok o) -> WF s'.
Proof. intros s s' operands nres succs regions o W FO _ H. eapply op_create_WF_gen; eauto. Qed.

(* A frame relation for `parents_ok`: every live node of the new state has parent None, or a parent in
   a given set of ids (PB for the parents of ops, PR for the parents of blocks, PO for the parents
   of regions), or is a live node of the old state with the same parent; counters only grow.
   `preserves (par_rel PB PR PO) prog` is proved by `pres (fr_par PB PR PO)` like the same_X frames. *)

Definition par_clause {R} (er : R -> bool) (par : R -> option positive) (P : positive -> Prop)
           (t t' : PM.t R) : Prop :=
  forall i x', PM.find i t' = Some x' -> er x' = false ->
    par x' = None \/ (exists p, par x' = Some p /\ P p) \/
    (exists x, PM.find i t = Some x /\ er x = false /\ par x' = par x).

Lemma par_clause_refl : forall {R} er par P (t : PM.t R), par_clause er par P t t.
Proof. intros R er par P t i x F E. right. right. exists x. auto. Qed.

Lemma par_clause_trans : forall {R} er par P (t1 t2 t3 : PM.t R),
  par_clause er par P t1 t2 -> par_clause er par P t2 t3 -> par_clause er par P t1 t3.
Proof.
  intros R er par P t1 t2 t3 H1 H2 i x3 F3 E3.
  destruct (H2 i x3 F3 E3) as [N|[Q|(x2 & F2 & E2 & Q2)]]; [left; exact N|right; left; exact Q|].
  destruct (H1 i x2 F2 E2) as [N|[(p & Qp & Pp)|(x1 & F1 & E1 & Q1)]].
  - left. congruence.
  - right. left. exists p. split; [congruence|exact Pp].
  - right. right. exists x1. split; [exact F1|]. split; [exact E1|congruence].
Qed.

Lemma par_clause_add : forall {R} er par P (t : PM.t R) i y,
  (er y = false -> par y = None \/ (exists p, par y = Some p /\ P p) \/
                   (exists x, PM.find i t = Some x /\ er x = false /\ par y = par x)) ->
  par_clause er par P t (PM.add i y t).
Proof.
  intros R er par P t i y H j x' F E. rewrite find_add in F. destruct (Pos.eqb_spec j i) as [->|N].
  - injection F as <-. exact (H E).
  - right. right. exists x'. auto.
Qed.

Definition par_rel (PB PR PO : positive -> Prop) (s s' : state) : Prop :=
  ((n_op s <= n_op s')%positive /\ (n_block s <= n_block s')%positive /\ (n_region s <= n_region s')%positive) /\
  par_clause o_erased o_parent PB (s_ops s) (s_ops s') /\
  par_clause b_erased b_parent PR (s_blocks s) (s_blocks s') /\
  par_clause r_erased r_parent PO (s_regions s) (s_regions s').

Definition nobody : positive -> Prop := fun _ => False.

Lemma fr_par : forall PB PR PO, frame_rel (par_rel PB PR PO).
Proof.
  intros PB PR PO. split.
  - intro s. split; [lia|]. split; [|split]; apply par_clause_refl.
  - intros s1 s2 s3 (C1 & A1 & A2 & A3) (C2 & B1 & B2 & B3). split; [lia|].
    split; [|split]; eapply par_clause_trans; eassumption.
Qed.

Lemma par_clause_bound : forall {R} er par P (t t' : PM.t R) n n',
  par_clause er par P t t' -> (n <= n')%positive ->
  (forall i x p, PM.find i t = Some x -> er x = false -> par x = Some p -> (p < n)%positive) ->
  (forall p, P p -> (p < n')%positive) ->
  forall i x p, PM.find i t' = Some x -> er x = false -> par x = Some p -> (p < n')%positive.
Proof.
  intros R er par P t t' n n' A C H HP i x' p F E Q.
  destruct (A i x' F E) as [N|[(q & Qq & Pq)|(x & F0 & E0 & Q0)]].
  - congruence.
  - rewrite Q in Qq. injection Qq as <-. exact (HP p Pq).
  - rewrite Q0 in Q. specialize (H i x p F0 E0 Q). lia.
Qed.

Lemma par_rel_ok : forall PB PR PO s s', par_rel PB PR PO s s' -> parents_ok s ->
  (forall b, PB b -> (b < n_block s')%positive) -> (forall r, PR r -> (r < n_region s')%positive) ->
  (forall o, PO o -> (o < n_op s')%positive) -> parents_ok s'.
Proof.
  intros PB PR PO s s' ((C1 & C2 & C3) & A1 & A2 & A3) (P1 & P2 & P3) HB HR HO. split; [|split].
  - exact (par_clause_bound _ _ _ _ _ _ _ A1 C2 P1 HB).
  - exact (par_clause_bound _ _ _ _ _ _ _ A2 C3 P2 HR).
  - exact (par_clause_bound _ _ _ _ _ _ _ A3 C1 P3 HO).
Qed.

Lemma par_rel_nobody_ok : forall s s', par_rel nobody nobody nobody s s' -> parents_ok s -> parents_ok s'.
Proof. intros s s' R P. apply (par_rel_ok _ _ _ s s' R P); intros ? []. Qed.

Lemma agree_par_clause : forall {R Q} (p : R -> Q) er par P (t t' : PM.t R),
  (forall x y, p x = p y -> er x = er y /\ par x = par y) -> agree p t t' -> par_clause er par P t t'.
Proof.
  intros R Q p er par P t t' H A i x' F E. destruct (agree_find _ _ _ _ _ A F) as (x & F0 & Px).
  destruct (H _ _ Px) as [E1 E2]. right. right. exists x. split; [exact F0|]. split; congruence.
Qed.

Lemma same_par_rel : forall PB PR PO s s',
  same_T1 s s' -> same_T2 s s' -> same_T3 s s' -> same_A s s' -> par_rel PB PR PO s s'.
Proof.
  intros PB PR PO s s' [Ao _] [Ab _] [_ Ar] (_ & _ & _ & _ & _ & N1 & N2 & N3 & _).
  split; [lia|]. split; [|split]; eapply agree_par_clause; try eassumption; intros x y Q; injection Q; auto.
Qed.

Lemma updO_par : forall PB PR PO o f,
  (forall x, (o_erased (f x) = false -> o_erased x = false) /\
             (o_parent (f x) = o_parent x \/ o_parent (f x) = None \/ exists b, o_parent (f x) = Some b /\ PB b)) ->
  preserves (par_rel PB PR PO) (updO o f).
Proof.
  intros PB PR PO o f C s s' r H. unfold updO in H. destruct (PM.find o (s_ops s)) as [x|] eqn:F;
    inversion H; subst; [|apply fr_par].
  split; [simpl; lia|]. simpl. split; [|split; apply par_clause_refl].
  apply par_clause_add. intro E. destruct (C x) as [C1 [C2|[C2|C2]]].
  - right. right. exists x. auto.
  - left. exact C2.
  - right. left. exact C2.
Qed.
Lemma updB_par : forall PB PR PO b f,
  (forall x, (b_erased (f x) = false -> b_erased x = false) /\
             (b_parent (f x) = b_parent x \/ b_parent (f x) = None \/ exists r, b_parent (f x) = Some r /\ PR r)) ->
  preserves (par_rel PB PR PO) (updB b f).
Proof.
  intros PB PR PO b f C s s' r H. unfold updB in H. destruct (PM.find b (s_blocks s)) as [x|] eqn:F;
    inversion H; subst; [|apply fr_par].
  split; [simpl; lia|]. simpl. split; [apply par_clause_refl|]. split; [|apply par_clause_refl].
  apply par_clause_add. intro E. destruct (C x) as [C1 [C2|[C2|C2]]].
  - right. right. exists x. auto.
  - left. exact C2.
  - right. left. exact C2.
Qed.
Lemma updR_par : forall PB PR PO q f,
  (forall x, (r_erased (f x) = false -> r_erased x = false) /\
             (r_parent (f x) = r_parent x \/ r_parent (f x) = None \/ exists o, r_parent (f x) = Some o /\ PO o)) ->
  preserves (par_rel PB PR PO) (updR q f).
Proof.
  intros PB PR PO q f C s s' r H. unfold updR in H. destruct (PM.find q (s_regions s)) as [x|] eqn:F;
    inversion H; subst; [|apply fr_par].
  split; [simpl; lia|]. simpl. split; [apply par_clause_refl|]. split; [apply par_clause_refl|].
  apply par_clause_add. intro E. destruct (C x) as [C1 [C2|[C2|C2]]].
  - right. right. exists x. auto.
  - left. exact C2.
  - right. left. exact C2.
Qed.
Lemma updV_par : forall PB PR PO v f, preserves (par_rel PB PR PO) (updV v f).
Proof.
  intros PB PR PO v f s s' r H. unfold updV in H. destruct (PM.find v (s_values s)); inversion H; subst; [|apply fr_par].
  split; [simpl; lia|]. simpl. split; [|split]; apply par_clause_refl.
Qed.
Lemma updU_par : forall PB PR PO u f, preserves (par_rel PB PR PO) (updU u f).
Proof.
  intros PB PR PO u f s s' r H. unfold updU in H. destruct (PM.find u (s_uses s)); inversion H; subst; [|apply fr_par].
  split; [simpl; lia|]. simpl. split; [|split]; apply par_clause_refl.
Qed.

Lemma allocO_par : forall PB PR PO x,
  (o_erased x = false -> o_parent x = None \/ exists b, o_parent x = Some b /\ PB b) ->
  preserves (par_rel PB PR PO) (allocO x).
Proof.
  intros PB PR PO x C s s' r H. unfold allocO in H. injection H as <- _.
  split; [simpl; lia|]. simpl. split; [|split; apply par_clause_refl].
  apply par_clause_add. intro E. destruct (C E) as [Q|Q]; [left; exact Q|right; left; exact Q].
Qed.
Lemma allocB_par : forall PB PR PO x,
  (b_erased x = false -> b_parent x = None \/ exists r, b_parent x = Some r /\ PR r) ->
  preserves (par_rel PB PR PO) (allocB x).
Proof.
  intros PB PR PO x C s s' r H. unfold allocB in H. injection H as <- _.
  split; [simpl; lia|]. simpl. split; [apply par_clause_refl|]. split; [|apply par_clause_refl].
  apply par_clause_add. intro E. destruct (C E) as [Q|Q]; [left; exact Q|right; left; exact Q].
Qed.
Lemma allocR_par : forall PB PR PO x,
  (r_erased x = false -> r_parent x = None \/ exists o, r_parent x = Some o /\ PO o) ->
  preserves (par_rel PB PR PO) (allocR x).
Proof.
  intros PB PR PO x C s s' r H. unfold allocR in H. injection H as <- _.
  split; [simpl; lia|]. simpl. split; [apply par_clause_refl|]. split; [apply par_clause_refl|].
  apply par_clause_add. intro E. destruct (C E) as [Q|Q]; [left; exact Q|right; left; exact Q].
Qed.
Lemma allocV_par : forall PB PR PO x, preserves (par_rel PB PR PO) (allocV x).
Proof.
  intros PB PR PO x s s' r H. unfold allocV in H. injection H as <- _.
  split; [simpl; lia|]. simpl. split; [|split]; apply par_clause_refl.
Qed.
Lemma allocU_par : forall PB PR PO x, preserves (par_rel PB PR PO) (allocU x).
Proof.
  intros PB PR PO x s s' r H. unfold allocU in H. injection H as <- _.
  split; [simpl; lia|]. simpl. split; [|split]; apply par_clause_refl.
Qed.

Ltac par_side :=
  let H := fresh "H" in
  intros ?; split;
  [first [exact (fun H => H) | intro H; discriminate H]
  |first [left; reflexivity | right; left; reflexivity
         | right; right; eexists; split; [reflexivity|solve [auto]]]].
Ltac par_side_alloc :=
  let H := fresh "H" in
  intro H; first [discriminate H | left; reflexivity | right; eexists; split; [reflexivity|solve [auto]]].

#[export] Hint Resolve fr_par updV_par updU_par allocV_par allocU_par : pres.
#[export] Hint Extern 1 (preserves (par_rel _ _ _) (updO _ _)) => apply updO_par; par_side : pres.
#[export] Hint Extern 1 (preserves (par_rel _ _ _) (updB _ _)) => apply updB_par; par_side : pres.
#[export] Hint Extern 1 (preserves (par_rel _ _ _) (updR _ _)) => apply updR_par; par_side : pres.
#[export] Hint Extern 1 (preserves (par_rel _ _ _) (allocO _)) => apply allocO_par; par_side_alloc : pres.
#[export] Hint Extern 1 (preserves (par_rel _ _ _) (allocB _)) => apply allocB_par; par_side_alloc : pres.
#[export] Hint Extern 1 (preserves (par_rel _ _ _) (allocR _)) => apply allocR_par; par_side_alloc : pres.

Lemma alloc_kinds_par : forall PB PR PO mk idxs, preserves (par_rel PB PR PO) (alloc_kinds mk idxs).
Proof.
  intros PB PR PO mk idxs. induction idxs as [|i r IH]; simpl; pres (fr_par PB PR PO).
Qed.
Lemma set_first_use_par : forall PB PR PO h u, preserves (par_rel PB PR PO) (set_first_use h u).
Proof. intros. unfold set_first_use. destruct h; pres (fr_par PB PR PO). Qed.
#[export] Hint Resolve set_first_use_par : pres.
Lemma add_use_par : forall PB PR PO h u, preserves (par_rel PB PR PO) (add_use h u).
Proof. intros. unfold add_use. pres (fr_par PB PR PO). Qed.
Lemma remove_use_par : forall PB PR PO h u, preserves (par_rel PB PR PO) (remove_use h u).
Proof. intros. unfold remove_use. pres (fr_par PB PR PO). Qed.
#[export] Hint Resolve add_use_par remove_use_par : pres.
Lemma set_operands_par : forall PB PR PO o new, preserves (par_rel PB PR PO) (set_operands o new).
Proof.
  intros. unfold set_operands. pres (fr_par PB PR PO). apply alloc_uses_pres; auto with pres.
Qed.
Lemma set_successors_par : forall PB PR PO o new, preserves (par_rel PB PR PO) (set_successors o new).
Proof.
  intros. unfold set_successors. pres (fr_par PB PR PO). apply alloc_uses_pres; auto with pres.
Qed.
Lemma add_op_par : forall PR PO b o, preserves (par_rel (eq b) PR PO) (add_op b o).
Proof. intros. unfold add_op. pres (fr_par (eq b) PR PO); pres_ops (fr_par (eq b) PR PO). Qed.
Lemma add_ops_par : forall PR PO b ops, preserves (par_rel (eq b) PR PO) (add_ops b ops).
Proof. intros. unfold add_ops. apply (pres_forM _ (fr_par (eq b) PR PO)). intro o. apply add_op_par. Qed.
Lemma link_blocks_par : forall PB PO r p bs, preserves (par_rel PB (eq r) PO) (link_blocks r p bs).
Proof.
  intros PB PO r p bs. revert p. induction bs as [|b tl IH]; intros p; simpl;
    [pres (fr_par PB (eq r) PO)|unfold attach_block; pres (fr_par PB (eq r) PO)].
Qed.
#[export] Hint Resolve alloc_kinds_par set_operands_par set_successors_par add_op_par add_ops_par link_blocks_par : pres.
Lemma add_block_par : forall PB PO r bs, preserves (par_rel PB (eq r) PO) (add_block r bs).
Proof. intros. unfold add_block, attach_block. pres (fr_par PB (eq r) PO). Qed.
Lemma add_region_par : forall PB PR o r, preserves (par_rel PB PR (eq o)) (add_region o r).
Proof. intros. unfold add_region. pres (fr_par PB PR (eq o)). Qed.
#[export] Hint Resolve add_block_par add_region_par : pres.

Lemma alloc_args_par : forall PB PR PO b idxs, preserves (par_rel PB PR PO) (alloc_args b idxs).
Proof. intros. rewrite alloc_args_kinds. apply alloc_kinds_par. Qed.
Lemma alloc_results_par : forall PB PR PO o idxs, preserves (par_rel PB PR PO) (alloc_results o idxs).
Proof. intros. rewrite alloc_results_kinds. apply alloc_kinds_par. Qed.
#[export] Hint Resolve alloc_args_par alloc_results_par : pres.

(* a program that first allocates a node and then stores only that node's id in parent fields *)
Lemma par_rel_fresh_ok : forall PB PR PO s s1 s', par_rel PB PR PO s s1 -> par_rel PB PR PO s1 s' -> parents_ok s ->
  (forall b, PB b -> (b < n_block s1)%positive) -> (forall r, PR r -> (r < n_region s1)%positive) ->
  (forall o, PO o -> (o < n_op s1)%positive) -> parents_ok s'.
Proof.
  intros PB PR PO s s1 s' R0 R1 P HB HR HO. pose proof R1 as ((C1 & C2 & C3) & _).
  apply (par_rel_ok _ _ _ s s' (fr_trans _ (fr_par PB PR PO) _ _ _ R0 R1) P).
  - intros b Pb. specialize (HB b Pb). lia.
  - intros r Pr. specialize (HR r Pr). lia.
  - intros o Po. specialize (HO o Po). lia.
Qed.

Theorem block_new_parents_ok : forall s s' ops nargs b,
  parents_ok s -> block_new ops nargs s = (s', Ok b) -> parents_ok s'.
Proof.
  intros s s' ops nargs b PO H. unfold block_new in H. apply bind_ok in H as (s1 & b1 & Ha & H).
  apply (par_rel_fresh_ok (eq b1) nobody nobody s s1 s'); [| |exact PO| | |].
  - eapply (allocB_par (eq b1) nobody nobody); [|exact Ha]. intros _. left. reflexivity.
  - (* the rest of the program is read off H *)
    refine ((_ : preserves (par_rel (eq b1) nobody nobody) _) s1 s' _ H). pres (fr_par (eq b1) nobody nobody).
  - intros c <-. unfold allocB in Ha. injection Ha as <- <-. simpl. lia.
  - intros r [].
  - intros o [].
Qed.

Lemma block_new_empty_parents_ok : forall s s' nargs b,
  WF s -> parents_ok s -> block_new [] nargs s = (s', Ok b) -> parents_ok s'.
Proof. intros s s' nargs b _ PO H. exact (block_new_parents_ok s s' [] nargs b PO H). Qed.

Theorem region_new_parents_ok : forall s s' blocks r,
  parents_ok s -> region_new blocks s = (s', Ok r) -> parents_ok s'.
Proof.
  intros s s' blocks r PO H. unfold region_new in H. apply bind_ok in H as (s1 & r1 & Ha & H).
  apply (par_rel_fresh_ok nobody (eq r1) nobody s s1 s'); [| |exact PO| | |].
  - eapply (allocR_par nobody (eq r1) nobody); [|exact Ha]. intros _. left. reflexivity.
  - refine ((_ : preserves (par_rel nobody (eq r1) nobody) _) s1 s' _ H). pres (fr_par nobody (eq r1) nobody).
  - intros c [].
  - intros c <-. unfold allocR in Ha. injection Ha as <- <-. simpl. lia.
  - intros o [].
Qed.

Theorem op_create_parents_ok : forall s s' operands nres succs regions o,
  parents_ok s -> op_create operands nres succs regions s = (s', Ok o) -> parents_ok s'.
Proof.
  intros s s' operands nres succs regions o PO H. unfold op_create in H. apply bind_ok in H as (s1 & o1 & Ha & H).
  apply (par_rel_fresh_ok nobody nobody (eq o1) s s1 s'); [| |exact PO| | |].
  - eapply (allocO_par nobody nobody (eq o1)); [|exact Ha]. intros _. left. reflexivity.
  - refine ((_ : preserves (par_rel nobody nobody (eq o1)) _) s1 s' _ H). pres (fr_par nobody nobody (eq o1)).
  - intros c [].
  - intros c [].
  - intros c <-. unfold allocO in Ha. injection Ha as <- <-. simpl. lia.
Qed.

(* every program that keeps the T1/T2/T3 groups and the three node counters keeps parents_ok; in
   particular every call for which same_T1, same_T2, same_T3 and same_A lemmas exist *)
Lemma parents_ok_preserved : forall {A} (m : M A) s s' r,
  preserves same_T1 m -> preserves same_T2 m -> preserves same_T3 m -> preserves same_A m ->
  parents_ok s -> m s = (s', r) -> parents_ok s'.
Proof.
  intros A m s s' r P1 P2 P3 PA PO H.
  exact (par_rel_nobody_ok s s' (same_par_rel _ _ _ s s' (P1 _ _ _ H) (P2 _ _ _ H) (P3 _ _ _ H) (PA _ _ _ H)) PO).
Qed.

Theorem block_new_inv : forall s s' ops nargs b,
  WF s -> parents_ok s -> (forall o, In o ops -> op_live s o) ->
  block_new ops nargs s = (s', Ok b) -> WF s' /\ parents_ok s'.
Proof.
  intros s s' ops nargs b W PO OL H. split; [|eapply block_new_parents_ok; eauto].
  eapply block_new_WF; eauto. apply parents_ok_fresh. exact PO.
Qed.
Theorem region_new_inv : forall s s' blocks r,
  WF s -> parents_ok s -> (forall b, In b blocks -> blk_live s b) ->
  region_new blocks s = (s', Ok r) -> WF s' /\ parents_ok s'.
Proof.
  intros s s' blocks r W PO BL H. split; [|eapply region_new_parents_ok; eauto].
  eapply region_new_WF; eauto. apply parents_ok_fresh. exact PO.
Qed.
Theorem op_create_inv : forall s s' operands nres succs regions o,
  WF s -> parents_ok s ->
  op_create operands nres succs regions s = (s', Ok o) -> WF s' /\ parents_ok s'.
Proof.
  intros s s' operands nres succs regions o W PO H. split; [|eapply op_create_parents_ok; eauto].
  eapply op_create_WF_gen; eauto. apply parents_ok_fresh. exact PO.
Qed.

(* `preserves (par_rel PB PR PO) prog` for the mutators (the tree walks are in ProofsInv.v); PB / PR / PO name the
   only ids that the program can store in a parent field (`nobody` when it stores none).  The
   relation holds whatever the outcome (Ok or Raise), so `parents_ok` is kept by raising calls
   too.  `par_rel_live_ok` closes the argument when the stored ids are allocated objects. *)

Lemma par_rel_live_ok : forall PB PR PO s s', par_rel PB PR PO s s' -> WF_alloc s -> parents_ok s ->
  (forall b, PB b -> exists x, PM.find b (s_blocks s) = Some x) ->
  (forall r, PR r -> exists x, PM.find r (s_regions s) = Some x) ->
  (forall o, PO o -> exists x, PM.find o (s_ops s) = Some x) -> parents_ok s'.
Proof.
  intros PB PR PO s s' R (B1 & B2 & B3 & _) P HB HR HO. pose proof R as ((C1 & C2 & C3) & _).
  apply (par_rel_ok _ _ _ s s' R P).
  - intros b Pb. destruct (HB b Pb) as (x & F). specialize (B2 _ _ F). lia.
  - intros r Pr. destruct (HR r Pr) as (x & F). specialize (B3 _ _ F). lia.
  - intros o Po. destruct (HO o Po) as (x & F). specialize (B1 _ _ F). lia.
Qed.

Lemma operands_setitem_par : forall PB PR PO o i w, preserves (par_rel PB PR PO) (operands_setitem o i w).
Proof. intros. unfold operands_setitem. pres (fr_par PB PR PO). Qed.
Lemma successors_setitem_par : forall PB PR PO o i w, preserves (par_rel PB PR PO) (successors_setitem o i w).
Proof. intros. unfold successors_setitem. pres (fr_par PB PR PO). Qed.
#[export] Hint Resolve operands_setitem_par successors_setitem_par : pres.

Lemma uses_from_par : forall PB PR PO fl cur, preserves (par_rel PB PR PO) (uses_from fl cur).
Proof.
  intros PB PR PO fl. induction fl as [|f IH]; intro cur; simpl; [pres (fr_par PB PR PO)|].
  destruct cur as [u|]; pres (fr_par PB PR PO).
Qed.
#[export] Hint Resolve uses_from_par : pres.
Lemma uses_of_par : forall PB PR PO h, preserves (par_rel PB PR PO) (uses_of h).
Proof. intros. unfold uses_of. pres (fr_par PB PR PO). Qed.
#[export] Hint Resolve uses_of_par : pres.
Lemma replace_all_uses_with_par : forall PB PR PO a b, preserves (par_rel PB PR PO) (replace_all_uses_with a b).
Proof. intros. unfold replace_all_uses_with. pres (fr_par PB PR PO). Qed.
Lemma rauw_if_loop_par : forall PB PR PO us sel v, preserves (par_rel PB PR PO) (rauw_if_loop us sel v).
Proof.
  intros PB PR PO us. induction us as [|u r IH]; intros sel v; simpl; pres (fr_par PB PR PO).
Qed.
#[export] Hint Resolve replace_all_uses_with_par rauw_if_loop_par : pres.
Lemma replace_uses_with_if_par : forall PB PR PO a b sel, preserves (par_rel PB PR PO) (replace_uses_with_if a b sel).
Proof. intros. unfold replace_uses_with_if. pres (fr_par PB PR PO). Qed.
Lemma value_erase_par : forall PB PR PO v safe, preserves (par_rel PB PR PO) (value_erase v safe).
Proof. intros. unfold value_erase. pres (fr_par PB PR PO). Qed.
#[export] Hint Resolve replace_uses_with_if_par value_erase_par : pres.
Lemma pr_replace_all_uses_with_par : forall PB PR PO v w safe,
  preserves (par_rel PB PR PO) (pr_replace_all_uses_with v w safe).
Proof. intros. unfold pr_replace_all_uses_with. pres (fr_par PB PR PO). Qed.
Lemma pr_replace_uses_with_if_par : forall PB PR PO v w sel,
  preserves (par_rel PB PR PO) (pr_replace_uses_with_if v w sel).
Proof. intros. unfold pr_replace_uses_with_if. pres (fr_par PB PR PO). Qed.

Lemma add_index_par : forall PB PR PO d v, preserves (par_rel PB PR PO) (add_index d v).
Proof. intros. unfold add_index. pres (fr_par PB PR PO). Qed.
#[export] Hint Resolve add_index_par : pres.
Lemma insert_arg_par : forall PB PR PO b i, preserves (par_rel PB PR PO) (insert_arg b i).
Proof. intros. unfold insert_arg. pres (fr_par PB PR PO). Qed.
Lemma kill_par : forall PB PR PO l, preserves (par_rel PB PR PO) (kill l).
Proof. intros. unfold kill. pres (fr_par PB PR PO). unfold kill1. destruct a; pres (fr_par PB PR PO). Qed.
#[export] Hint Resolve kill_par : pres.
Lemma erase_arg_par : forall PB PR PO b v safe, preserves (par_rel PB PR PO) (erase_arg b v safe).
Proof. intros. unfold erase_arg. pres (fr_par PB PR PO). destruct (v_kind a); pres (fr_par PB PR PO). Qed.

Lemma pr_erase_block_argument_par : forall PB PR PO v safe,
  preserves (par_rel PB PR PO) (pr_erase_block_argument v safe).
Proof.
  intros. unfold pr_erase_block_argument. pres (fr_par PB PR PO). destruct (v_kind a0); pres (fr_par PB PR PO).
  apply erase_arg_par.
Qed.
Lemma rw_replace_value_with_new_type_par : forall PB PR PO v, preserves (par_rel PB PR PO) (rw_replace_value_with_new_type v).
Proof.
  intros. unfold rw_replace_value_with_new_type. pres (fr_par PB PR PO). destruct (v_kind a); pres (fr_par PB PR PO).
Qed.
Lemma insert_op_after_par : forall PR PO b n e, preserves (par_rel (eq b) PR PO) (insert_op_after b n e).
Proof. intros. pres_ops (fr_par (eq b) PR PO). Qed.
Lemma insert_op_before_par : forall PR PO b n e, preserves (par_rel (eq b) PR PO) (insert_op_before b n e).
Proof. intros. pres_ops (fr_par (eq b) PR PO). Qed.
Lemma detach_op_par : forall PB PR PO b o, preserves (par_rel PB PR PO) (detach_op b o).
Proof. intros. pres_ops (fr_par PB PR PO). Qed.
#[export] Hint Resolve insert_op_after_par insert_op_before_par detach_op_par : pres.
Lemma op_detach_par : forall PB PR PO o, preserves (par_rel PB PR PO) (op_detach o).
Proof. intros. unfold op_detach. pres (fr_par PB PR PO). Qed.
Lemma insert_ops_before_par : forall PR PO b ops e, preserves (par_rel (eq b) PR PO) (insert_ops_before b ops e).
Proof. intros. unfold insert_ops_before. pres (fr_par (eq b) PR PO). Qed.
Lemma insert_ops_after_par : forall PR PO b ops e, preserves (par_rel (eq b) PR PO) (insert_ops_after b ops e).
Proof.
  intros PR PO b ops. induction ops as [|o r IH]; intro e; simpl; pres (fr_par (eq b) PR PO).
Qed.
#[export] Hint Resolve op_detach_par insert_ops_before_par insert_ops_after_par : pres.
Lemma rw_insert_op_par : forall PR PO ops b ib, preserves (par_rel (eq b) PR PO) (rw_insert_op ops b ib).
Proof. intros. unfold rw_insert_op, check_insert_point. pres (fr_par (eq b) PR PO). Qed.

Lemma insert_block_before_par : forall PB PO r bs t, preserves (par_rel PB (eq r) PO) (insert_block_before r bs t).
Proof. intros. unfold insert_block_before, attach_block. pres (fr_par PB (eq r) PO). Qed.
Lemma detach_block_core_par : forall PB PR PO r b, preserves (par_rel PB PR PO) (detach_block_core r b).
Proof. intros. unfold detach_block_core. pres (fr_par PB PR PO). Qed.
#[export] Hint Resolve insert_block_before_par detach_block_core_par : pres.
Lemma detach_block_par : forall PB PR PO r b, preserves (par_rel PB PR PO) (detach_block r b).
Proof. intros. unfold detach_block. pres (fr_par PB PR PO). Qed.
Lemma nth_block_fwd_par : forall PB PR PO fl cur k, preserves (par_rel PB PR PO) (nth_block_fwd fl cur k).
Proof.
  intros PB PR PO fl. induction fl as [|f IH]; intros cur k; simpl; [pres (fr_par PB PR PO)|].
  destruct cur as [c|]; pres (fr_par PB PR PO).
Qed.
Lemma nth_block_bwd_par : forall PB PR PO fl cur k, preserves (par_rel PB PR PO) (nth_block_bwd fl cur k).
Proof.
  intros PB PR PO fl. induction fl as [|f IH]; intros cur k; simpl; [pres (fr_par PB PR PO)|].
  destruct cur as [c|]; pres (fr_par PB PR PO).
Qed.
#[export] Hint Resolve detach_block_par nth_block_fwd_par nth_block_bwd_par : pres.
Lemma detach_block_idx_par : forall PB PR PO r i, preserves (par_rel PB PR PO) (detach_block_idx r i).
Proof. intros. unfold detach_block_idx, region_blocks_getitem. pres (fr_par PB PR PO). Qed.
Lemma insert_block_after_par : forall PB PO r bs t, preserves (par_rel PB (eq r) PO) (insert_block_after r bs t).
Proof. intros. unfold insert_block_after. pres (fr_par PB (eq r) PO). Qed.
Lemma insert_block_loop_par : forall PB PO fl r bs idx cur i,
  preserves (par_rel PB (eq r) PO) (insert_block_loop fl r bs idx cur i).
Proof.
  intros PB PO fl. induction fl as [|f IH]; intros r bs idx cur i; simpl; [pres (fr_par PB (eq r) PO)|].
  destruct cur as [c|]; pres (fr_par PB (eq r) PO).
Qed.
#[export] Hint Resolve detach_block_idx_par insert_block_after_par insert_block_loop_par : pres.
Lemma insert_block_par : forall PB PO r bs idx, preserves (par_rel PB (eq r) PO) (insert_block r bs idx).
Proof. intros. unfold insert_block. pres (fr_par PB (eq r) PO). Qed.
Lemma rw_insert_block_par : forall PB PO bs r ib, preserves (par_rel PB (eq r) PO) (rw_insert_block bs r ib).
Proof. intros. unfold rw_insert_block, check_block_insert_point. pres (fr_par PB (eq r) PO). Qed.

Lemma detach_region_par : forall PB PR PO o r, preserves (par_rel PB PR PO) (detach_region o r).
Proof. intros. unfold detach_region, get_region_index, detach_region_at. pres (fr_par PB PR PO). Qed.
Lemma detach_region_idx_par : forall PB PR PO o i, preserves (par_rel PB PR PO) (detach_region_idx o i).
Proof. intros. unfold detach_region_idx, detach_region_at. pres (fr_par PB PR PO). Qed.

Lemma parents_ok_by_nobody : forall {A} (m : M A) s s' r,
  preserves (par_rel nobody nobody nobody) m -> parents_ok s -> m s = (s', r) -> parents_ok s'.
Proof. intros A m s s' r P PO H. eapply par_rel_nobody_ok; eauto. Qed.

Lemma parents_ok_by_block : forall {A} (m : M A) b s s' r,
  preserves (par_rel (eq b) nobody nobody) m -> WF s -> parents_ok s -> blk_live s b ->
  m s = (s', r) -> parents_ok s'.
Proof.
  intros A m b s s' r P W PO (x & F & _) H.
  apply (par_rel_live_ok _ _ _ s s' (P s s' r H) (wf_alloc s W) PO).
  - intros c <-. eauto.
  - intros c [].
  - intros c [].
Qed.

Lemma parents_ok_by_region : forall {A} (m : M A) q s s' r,
  preserves (par_rel nobody (eq q) nobody) m -> WF s -> parents_ok s -> reg_live s q ->
  m s = (s', r) -> parents_ok s'.
Proof.
  intros A m q s s' r P W PO (x & F & _) H.
  apply (par_rel_live_ok _ _ _ s s' (P s s' r H) (wf_alloc s W) PO).
  - intros c [].
  - intros c <-. eauto.
  - intros c [].
Qed.

Lemma parents_ok_by_op : forall {A} (m : M A) o s s' r,
  preserves (par_rel nobody nobody (eq o)) m -> WF s -> parents_ok s -> op_live s o ->
  m s = (s', r) -> parents_ok s'.
Proof.
  intros A m o s s' r P W PO (x & F & _) H.
  apply (par_rel_live_ok _ _ _ s s' (P s s' r H) (wf_alloc s W) PO).
  - intros c [].
  - intros c [].
  - intros c <-. eauto.
Qed.

Theorem add_op_parents_ok : forall s s' b o r,
  WF s -> parents_ok s -> blk_live s b -> add_op b o s = (s', r) -> parents_ok s'.
Proof. intros s s' b o r W PO BL H. exact (parents_ok_by_block _ b s s' r (add_op_par nobody nobody b o) W PO BL H). Qed.
Theorem add_block_parents_ok : forall s s' q bs r,
  WF s -> parents_ok s -> reg_live s q -> add_block q bs s = (s', r) -> parents_ok s'.
Proof. intros s s' q bs r W PO RL H. exact (parents_ok_by_region _ q s s' r (add_block_par nobody nobody q bs) W PO RL H). Qed.
Theorem add_region_parents_ok : forall s s' o q r,
  WF s -> parents_ok s -> op_live s o -> add_region o q s = (s', r) -> parents_ok s'.
Proof. intros s s' o q r W PO OL H. exact (parents_ok_by_op _ o s s' r (add_region_par nobody nobody o q) W PO OL H). Qed.
Theorem set_operands_parents_ok : forall s s' o new r,
  parents_ok s -> set_operands o new s = (s', r) -> parents_ok s'.
Proof. intros s s' o new r PO H. exact (parents_ok_by_nobody _ s s' r (set_operands_par nobody nobody nobody o new) PO H). Qed.
