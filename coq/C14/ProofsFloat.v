(* C14/ProofsFloat.v -- the float constant folder against IEEE-754.

   Bit-exactness is Leibniz equality of primitive floats / spec_floats: +0 and -0 are distinct,
   all NaNs are one value (Coq's binary64 model has a single NaN; MLIR does not specify NaN
   payloads).  The theorems rest on the primitive-float declarations and three specification axioms of
   the standard library (FloatAxioms.SF2Prim_Prim2SF, div_spec, eqb_spec), nothing else.

   `fold_f64` / `fold_f32` model the CURRENT code (commits 3d73fc5, 667d764) and are proved correct
   in full; `fold_f64_old` / `fold_f32_old` model the code before and carry the recorded refutations. *)
From Coq Require Import ZArith Bool PrimFloat SpecFloat FloatOps FloatAxioms.
From XV Require Import C14.ModelFloat.

Lemma P2SF_zero : Prim2SF 0%float = S754_zero false. Proof. reflexivity. Qed.
Lemma P2SF_nan : Prim2SF nan = S754_nan. Proof. reflexivity. Qed.
Lemma P2SF_inf : Prim2SF infinity = S754_infinity false. Proof. reflexivity. Qed.
Lemma P2SF_ninf : Prim2SF neg_infinity = S754_infinity true. Proof. reflexivity. Qed.

Lemma zero_eqb_cases : forall r, (r =? 0)%float = true -> exists s, Prim2SF r = S754_zero s.
Proof.
  intros r H. rewrite eqb_spec, P2SF_zero in H.
  destruct (Prim2SF r) as [s | s | | s m e]; cbn in H.
  - exists s; reflexivity.
  - destruct s; discriminate.
  - discriminate.
  - destruct s; discriminate.
Qed.


Lemma SFeqb_finite_refl : forall s m e, SFeqb (S754_finite s m e) (S754_finite s m e) = true.
Proof.
  intros s m e. unfold SFeqb, SFcompare.
  destruct s; cbn; rewrite Z.compare_refl; fold (Pos.compare m m); rewrite Pos.compare_refl; reflexivity.
Qed.

(* the product of the two copysigns is the correctly signed infinity *)
Lemma copysign_product : forall sl sr : bool,
  Prim2SF ((if sl then neg_infinity else infinity) * (if sr then (-1)%float else 1%float))%float
  = S754_infinity (xorb sl sr).
Proof. intros [|] [|]; reflexivity. Qed.

Lemma fold_f64_div_zero : forall l r s, Prim2SF r = S754_zero s -> fold_f64 FDiv l r = (l / r)%float.
Proof.
  intros l r s Hr. unfold fold_f64.
  assert (Ez : (r =? 0)%float = true).
  { rewrite eqb_spec, Hr, P2SF_zero. destruct s; reflexivity. }
  rewrite Ez. apply Prim2SF_inj. rewrite div_spec, Hr.
  unfold is_nan. rewrite (eqb_spec l 0), (eqb_spec l l), P2SF_zero.
  unfold copysign_inf, copysign_one, fsign. rewrite Hr.
  destruct (Prim2SF l) as [sl | sl | | sl m e] eqn:El.
  - (* l is a zero: 0/0 = nan *)
    destruct sl; cbn; apply P2SF_nan.
  - (* l is an infinity *)
    replace (SFeqb (S754_infinity sl) (S754_zero false) || negb (SFeqb (S754_infinity sl) (S754_infinity sl)))
      with false by (destruct sl; reflexivity).
    rewrite copysign_product. reflexivity.
  - (* l is NaN *)
    cbn. apply P2SF_nan.
  - (* l is finite and non-zero *)
    rewrite SFeqb_finite_refl.
    replace (SFeqb (S754_finite sl m e) (S754_zero false)) with false by (destruct sl; reflexivity).
    cbn [negb orb]. rewrite copysign_product. reflexivity.
Qed.

(* C14_fold_f64: for ALL operands the folded binary64 constant is the IEEE-754 result, bit for bit *)
Theorem fold_f64_full : forall op l r, fold_f64 op l r = ieee64 op l r.
Proof.
  intros op l r. destruct op; try reflexivity.
  cbn [ieee64]. destruct (r =? 0)%float eqn:E.
  - destruct (zero_eqb_cases r E) as [s Hs]. exact (fold_f64_div_zero l r s Hs).
  - unfold fold_f64. rewrite E. reflexivity.
Qed.

Lemma fold_f64_fixed_witnesses :
  fold_f64 FDiv 1 (-0) = neg_infinity /\ fold_f64 FDiv nan 0 = nan /\ fold_f64 FDiv (-1) 0 = neg_infinity /\
  fold_f64 FDiv (-1) (-0) = infinity.
Proof. repeat split; reflexivity. Qed.

Definition valid32 (x : spec_float) : Prop := SpecFloat.valid_binary 24%Z 128%Z x = true.

Lemma bra_inf_sign : forall p em sx mx ex lx s',
  binary_round_aux p em sx mx ex lx = S754_infinity s' -> s' = sx.
Proof.
  intros p em sx mx ex lx s' H. unfold binary_round_aux in H.
  destruct (shr_fexp p em mx ex lx) as [mrs' e'].
  destruct (shr_fexp p em (round_nearest_even (shr_m mrs') (loc_of_shr_record mrs')) e' loc_Exact) as [mrs'' e''].
  destruct (shr_m mrs''); try discriminate.
  destruct (e'' <=? em - p)%Z; inversion H; reflexivity.
Qed.

(* the folded binary32 constant is the binary64 result rounded once more to binary32 -- never an exception *)
Lemma fold_f32_is_round : forall op l r, fold_f32 op l r = round32 (Prim2SF (fold_f64 op l r)).
Proof.
  intros op l r. unfold fold_f32, pack32, round32, fsign.
  destruct (Prim2SF (fold_f64 op l r)) as [s | s | | s m e]; try reflexivity.
  destruct (binary_round 24 128 s m e) as [s' | s' | | s' m' e'] eqn:E; try reflexivity.
  unfold binary_round in E.
  destruct (shl_align m e (fexp 24 128 (Z.pos (digits2_pos m) + e))) as [mz ez].
  apply bra_inf_sign in E. subst. reflexivity.
Qed.

Section DoubleRounding.
  (* Rounding an exact binary64 result of + - * / on binary32 operands to binary32 gives the
     correctly rounded binary32 result (53 >= 2*24 + 2; Figueroa 1995, Roux 2014).  Named
     hypothesis: NOT proved here; evaluated inside Coq on every f32 pair of the correspondence check.
     x, y are binary32 values; xDSL holds them as the doubles `f64_of_sf32 x`. *)
  Hypothesis double_rounding_innocuous : forall op x y,
    valid32 x -> valid32 y ->
    round32 (Prim2SF (ieee64 op (f64_of_sf32 x) (f64_of_sf32 y))) = ieee32 op x y.

  Theorem fold_f32_full : forall op x y,
    valid32 x -> valid32 y -> fold_f32 op (f64_of_sf32 x) (f64_of_sf32 y) = ieee32 op x y.
  Proof.
    intros op x y Hx Hy. rewrite fold_f32_is_round, fold_f64_full.
    apply double_rounding_innocuous; assumption.
  Qed.
End DoubleRounding.

Definition two127 : spec_float := S754_finite false 8388608 104.
Lemma fold_f32_fixed_witness :
  valid32 two127 /\ fold_f32 FAdd (f64_of_sf32 two127) (f64_of_sf32 two127) = S754_infinity false /\
  ieee32 FAdd two127 two127 = S754_infinity false.
Proof. split; [reflexivity | split; reflexivity]. Qed.

Lemma fold_f32_example :
  bits_of_sf32 (fold_f32 FAdd (f64_of_sf32 (sf32_of_bits 1266679808)) (f64_of_sf32 (sf32_of_bits 1065353217)))
  = bits_of_sf32 (ieee32 FAdd (sf32_of_bits 1266679808) (sf32_of_bits 1065353217)).
Proof. vm_compute. reflexivity. Qed.

(* recorded refutations of the code BEFORE the fixes *)

(* the defect: the sign of a zero divisor was ignored, and a NaN dividend was not propagated *)
Lemma fold_f64_old_div_negzero_refuted :
  fold_f64_old FDiv 1 (-0) = infinity /\ (1 / (-0))%float = neg_infinity /\ infinity <> neg_infinity.
Proof.
  split; [reflexivity | split; [reflexivity |]].
  intro H. apply (f_equal Prim2SF) in H. rewrite P2SF_inf, P2SF_ninf in H. discriminate.
Qed.
Lemma fold_f64_old_div_nan_refuted :
  fold_f64_old FDiv nan 0 = infinity /\ (nan / 0)%float = nan /\ infinity <> nan.
Proof.
  split; [reflexivity | split; [reflexivity |]].
  intro H. apply (f_equal Prim2SF) in H. rewrite P2SF_inf, P2SF_nan in H. discriminate.
Qed.

(* an f32 fold whose IEEE result overflows raised OverflowError (None) *)
Lemma fold_f32_old_overflow_refuted :
  valid32 two127 /\ fold_f32_old FAdd (f64_of_sf32 two127) (f64_of_sf32 two127) = None /\
  ieee32 FAdd two127 two127 = S754_infinity false.
Proof. split; [reflexivity | split; reflexivity]. Qed.
