(* C18/ProofsWitness.v -- concrete witnesses.
   (a) what does not round-trip: a lone surrogate in a string, a non-finite float at the ArgSpec
       level (reads back as the string inf) and in a field whose type also accepts str, an empty
       tuple of an optional tuple field;
   (b) the failures of the printer and conversion without the fix commits (print_value_old,
       convert_arg_old), as recorded in known_findings.d/C18.json;
   (c) the hypotheses of the theorems are satisfiable (all escapes, exponent floats, UTF-8 escapes). *)
From Coq Require Import ZArith List Bool Lia.
From XV Require Import C18.Model C18.ProofsLex C18.ProofsParse C18.ProofsTotal C18.ProofsPass.
Import ListNotations.
Local Open Scope Z_scope.

(* only the names are constrained: the full-strength hypothesis of the property text *)
Definition spec_names_ok {F} (sp : spec F) : Prop :=
  name_okb (fst sp) = true /\ Forall (fun p => name_okb (fst p) = true) (snd sp) /\ NoDup (map fst (snd sp)).

Definition one_option {F} (v : value F) : spec F := ([112], [([97], [v])]).   (* p{a=<v>} *)

Lemma one_option_names : forall F (v : value F), spec_names_ok (one_option v).
Proof.
  intros F v. split; [reflexivity|]. split; [repeat constructor|]. repeat constructor. intros [].
Qed.

Definition t_1e22 : str := [49; 101; 43; 50; 50].            (* 1e+22 *)
Definition t_1_0e22 : str := [49; 46; 48; 101; 43; 50; 50].  (* 1.0e+22 *)
Definition t_1em05 : str := [49; 101; 45; 48; 53].           (* 1e-05 *)

Section W.
  Variable F : Type.
  Variable fparse : str -> F.
  Variable fstr : F -> str.

  (* a lone surrogate has no UTF-8 encoding: ArgSpecParseError *)
  Lemma surrogate_fails : parse_pipeline F fparse (print_spec F fstr (one_option (VStr [55296]))) = Err EArgSpec.
  Proof. vm_compute. reflexivity. Qed.
  Theorem roundtrip_refuted : exists sp : spec F, spec_names_ok sp /\
    parse_pipeline F fparse (print_spec F fstr sp) <> Ok [sp].
  Proof.
    exists (one_option (VStr [55296])). split; [apply one_option_names|]. rewrite surrogate_fails. discriminate.
  Qed.
  (* str(inf) = inf: an untyped ArgSpec value reads back as the string *)
  Lemma non_finite_reads_as_string : forall f, fstr f = s_inf ->
    parse_pipeline F fparse (print_spec F fstr (one_option (VFloat f))) = Ok [one_option (VStr s_inf)].
  Proof.
    intros f H. unfold one_option, print_spec, print_spec_with, print_param_with.
    cbn [fst snd map join print_value]. rewrite H. vm_compute. reflexivity.
  Qed.
  (* ... and stays a string when the field type also accepts str (float | str) *)
  Lemma non_finite_in_str_union :
    convert_arg F fparse [VStr s_inf] (TyUnion [TyFloat; TyStr]) = Ok (PScalar (VStr s_inf)).
  Proof. reflexivity. Qed.

  (* stencil-shape-minimize{restrict}: the empty tuple of `tuple[int, ...] | None` comes back as None *)
  Definition ty_opt_int_tuple : ty := TyUnion [TyTupleVar TyInt; TyNone].
  Lemma empty_tuple_becomes_none :
    isa_tuple F [] ty_opt_int_tuple = true
    /\ convert_arg F fparse (arg_list F (PTuple [])) ty_opt_int_tuple = Ok PNone.
  Proof. split; reflexivity. Qed.
  (* arith-add-fastmath{flags=`fast`}: the 1-tuple (`fast`,) comes back as the string *)
  Definition ty_lit_or_tuple : ty := TyUnion [TyLit [[102; 97; 115; 116]]; TyTupleVar TyStr].
  Lemma one_tuple_becomes_scalar :
    isa_tuple F [VStr [102; 97; 115; 116]] ty_lit_or_tuple = true
    /\ convert_arg F fparse (arg_list F (PTuple [VStr [102; 97; 115; 116]])) ty_lit_or_tuple
       = Ok (PScalar (VStr [102; 97; 115; 116])).
  Proof. split; reflexivity. Qed.
  Theorem convert_refuted : exists (t : ty) (v : pval F),
    (match v with PTuple l => isa_tuple F l t = true | _ => False end)
    /\ convert_arg F fparse (arg_list F v) t <> Ok v.
  Proof.
    exists ty_opt_int_tuple, (PTuple []). destruct empty_tuple_becomes_none as [Ht Hc].
    split; [exact Ht|]. rewrite Hc. discriminate.
  Qed.

  (* 433c5e1: p{a=`x`y`} and p{a=`b\s`} printed unescaped *)
  Lemma old_quote_fails :
    parse_pipeline F fparse (print_spec_old F fstr (one_option (VStr [120; 34; 121]))) = Err EArgSpec.
  Proof. vm_compute. reflexivity. Qed.
  Lemma old_backslash_fails :
    parse_pipeline F fparse (print_spec_old F fstr (one_option (VStr [98; 92; 115]))) = Err EArgSpec.
  Proof. vm_compute. reflexivity. Qed.
  (* fdc8560: str(1e22) = 1e+22 is IDENT 1e, NUMBER +22; str(1e-05) = 1e-05 is one IDENT *)
  Lemma old_float_exp_fails : forall f, fstr f = t_1e22 ->
    parse_pipeline F fparse (print_spec_old F fstr (one_option (VFloat f))) = Err EArgSpec.
  Proof.
    intros f H. unfold one_option, print_spec_old, print_spec_with, print_param_with.
    cbn [fst snd map join print_value_old]. rewrite H. vm_compute. reflexivity.
  Qed.
  Lemma old_float_small_is_string : forall f, fstr f = t_1em05 ->
    parse_pipeline F fparse (print_spec_old F fstr (one_option (VFloat f))) = Ok [one_option (VStr t_1em05)].
  Proof.
    intros f H. unfold one_option, print_spec_old, print_spec_with, print_param_with.
    cbn [fst snd map join print_value_old]. rewrite H. vm_compute. reflexivity.
  Qed.
  (* print_value writes 1.0e+22, one NUMBER with a `.` *)
  Lemma new_float_exp_ok : forall f, fstr f = t_1e22 -> fparse t_1_0e22 = f ->
    parse_pipeline F fparse (print_spec F fstr (one_option (VFloat f))) = Ok [one_option (VFloat f)].
  Proof.
    intros f H Hp. unfold one_option, print_spec, print_spec_with, print_param_with.
    cbn [fst snd map join print_value]. rewrite H. vm_compute. rewrite <- Hp. reflexivity.
  Qed.
  (* c048b77: p{a=`\r`} is the pipeline parse error, not xDSL's ParseError; \HH escapes decode as UTF-8 *)
  Lemma escape_r_is_argspec_error :
    parse_pipeline F fparse [112; 123; 97; 61; 34; 92; 114; 34; 125] = Err EArgSpec.
  Proof. vm_compute. reflexivity. Qed.
  Lemma hex_escapes_decode_utf8 :      (* p{a=`\c3\a9\e2\82\ac\41`} = e-acute, euro sign, A *)
    parse_pipeline F fparse
      [112; 123; 97; 61; 34; 92; 99; 51; 92; 97; 57; 92; 101; 50; 92; 56; 50; 92; 97; 99; 92; 52; 49; 34; 125]
    = Ok [one_option (VStr [233; 8364; 65])].
  Proof. vm_compute. reflexivity. Qed.
  Lemma overlong_rejected :             (* p{a=`\c0\80`} *)
    parse_pipeline F fparse [112; 123; 97; 61; 34; 92; 99; 48; 92; 56; 48; 34; 125] = Err EArgSpec.
  Proof. vm_compute. reflexivity. Qed.
End W.

Definition idf (s : str) : str := s.
Definition ex_fparse (t : str) : str := if str_eqb t t_1_0e22 then t_1e22 else t.
(* convert-x{n=-42 flags=true,<a string with quote, backslash, \n, \r, \f, \v, tab, e-acute>,1.5e+22,1e+22 e} *)
Definition ex_string : str := [97; 32; 34; 92; 10; 13; 12; 11; 9; 233; 128512].
Definition ex_spec : spec str :=
  ([99; 111; 110; 118; 101; 114; 116; 45; 120],
   [([110], [VInt (-42)]);
    ([102; 108; 97; 103; 115], [VBool true; VStr ex_string; VFloat [49; 46; 53; 101; 43; 50; 50]; VFloat t_1e22]);
    ([101], [])]).

Lemma ex_spec_ok : spec_ok str ex_fparse idf ex_spec.
Proof.
  split; [reflexivity|]. split.
  - repeat constructor; try reflexivity.
    cbn. unfold int_ok. vm_compute. discriminate.
  - cbn. repeat constructor; cbn; intuition discriminate.
Qed.

(* a pass class with a required tuple, an optional int left at its default and a defaulted string *)
Definition ex_class : pass_class str :=
  {| cname := [112];
     cfields := [ {| fname := [116]; fty := TyTupleVar TyInt; fdefault := None |};
                  {| fname := [111]; fty := TyUnion [TyInt; TyNone]; fdefault := Some PNone |};
                  {| fname := [115]; fty := TyStr; fdefault := Some (PScalar (VStr [100])) |} ] |}.
Definition ex_vals : list (pval str) := [PTuple [VInt 1; VInt 2]; PNone; PScalar (VStr [120; 34; 121])].

Lemma ex_class_ok : class_ok str ex_class /\ vals_ok str idf idf (cfields str ex_class) ex_vals.
Proof.
  split.
  - split; [reflexivity|]. split.
    + repeat constructor.
    + cbn. repeat constructor; cbn; intuition discriminate.
  - unfold vals_ok. cbn [cfields ex_class ex_vals].
    constructor; [|constructor; [|constructor; [|constructor]]].
    + split.
      * cbn. split; [reflexivity|]. split; [intros _; discriminate|]. intros x H; discriminate.
      * cbn. repeat constructor; unfold int_ok; vm_compute; discriminate.
    + split; [exists [TyInt; TyNone]; split; reflexivity|constructor].
    + split; [reflexivity|repeat constructor].
Qed.
