(* Props/C26.v -- property C26: affine expression algebra preserves values.
   ONLY theorem statements closed by `exact` (+ Examples by vm_compute).
   Spec: `eval` / `eval_kind` of C26/Model.v -- the value (or the exception) an expression
   evaluates to under an assignment `d` of dimensions and `s` of symbols; `//` = Z.div,
   `%` = Z.modulo, ceildiv a b = -((-a)/b) as the code computes it.  `do x <- r; k` is the
   exception monad: the first raising sub-evaluation wins, left to right, as in Python.
   All statements are for EVERY expression tree (including trees built with the raw
   AffineBinaryOpExpr constructor) and EVERY assignment, of any length. *)
From Coq Require Import ZArith List.
From XV Require Import C26.Model Gen.C26_Arith C26.ProofsGen C26.ProofsAlg C26.ProofsSimplify C26.ProofsSimplifyTotal C26.ProofsParse.
Import ListNotations.
Local Open Scope Z_scope.

(* the arithmetic arms of `eval` and `_try_fold_constant`, translated from the source on every
   run (coq/Gen/C26_Arith.v), are the model's *)
Theorem C26_arms_from_source : forall k a b,
  gen_eval_kind k a b = eval_kind k a b /\ gen_fold_kind k a b = fold_kind k a b.
Proof. exact gen_arms_are_model. Qed.
Print Assumptions C26_arms_from_source.

(* constructors: a + b, a * b, a // b, a.ceil_div(b), a % b *)
Theorem C26_add_eval : forall a b d s,
  eval (add a b) d s = (do x <- eval a d s; do y <- eval b d s; Ok (x + y)).
Proof. exact add_eval. Qed.
Print Assumptions C26_add_eval.

Theorem C26_mul_eval : forall a b e d s, mul a b = Ok e ->
  eval e d s = (do x <- eval a d s; do y <- eval b d s; Ok (x * y)).
Proof. exact mul_eval. Qed.
Print Assumptions C26_mul_eval.

(* __mul__ raises (NotImplementedError) exactly when neither operand is a constant *)
Theorem C26_mul_defined_iff : forall a b,
  (exists e, mul a b = Ok e) <-> (is_const a = true \/ is_const b = true).
Proof. exact mul_raises_iff. Qed.
Print Assumptions C26_mul_defined_iff.

Theorem C26_floordiv_eval : forall a b e d s, floordiv a b = Ok e ->
  eval e d s = (do x <- eval a d s; do y <- eval b d s; eval_kind FloorDiv x y).
Proof. exact (divlike_eval FloorDiv). Qed.
Print Assumptions C26_floordiv_eval.

Theorem C26_ceildiv_eval : forall a b e d s, ceildiv a b = Ok e ->
  eval e d s = (do x <- eval a d s; do y <- eval b d s; eval_kind CeilDiv x y).
Proof. exact (divlike_eval CeilDiv). Qed.
Print Assumptions C26_ceildiv_eval.

Theorem C26_mod_eval : forall a b e d s, mod_ a b = Ok e ->
  eval e d s = (do x <- eval a d s; do y <- eval b d s; eval_kind Mod x y).
Proof. exact (divlike_eval Mod). Qed.
Print Assumptions C26_mod_eval.

(* by a non-zero (in particular positive) constant the three constructors never raise *)
Theorem C26_divlike_const_defined : forall k a c, c <> 0 -> exists e, divlike k a (Const c) = Ok e.
Proof. exact divlike_pos_total. Qed.
Print Assumptions C26_divlike_const_defined.

(* AffineExpr.binary(kind, lhs, rhs), whenever it returns, evaluates like the raw node *)
Theorem C26_binary_eval : forall k a b e d s, binary k a b = Ok e ->
  eval e d s = eval (Bin k a b) d s.
Proof. exact binary_eval_bin. Qed.
Print Assumptions C26_binary_eval.

(* unary minus, subtraction *)
Theorem C26_neg_eval : forall e d s, eval (neg e) d s = (do a <- eval e d s; Ok (- a)).
Proof. exact neg_eval. Qed.
Print Assumptions C26_neg_eval.

Theorem C26_sub_eval : forall a b d s,
  eval (sub a b) d s = (do x <- eval a d s; do y <- eval b d s; Ok (x - y)).
Proof. exact sub_eval. Qed.
Print Assumptions C26_sub_eval.

(* `int - expr` is not an operation the property lists; recorded for the evidence notes:
   as coded it yields expr - int; the proposed repair yields int - expr. *)
Theorem C26_rsub_as_coded_refuted :
  exists e c d s v, eval e d s = Ok v /\ eval (rsub_as_coded e c) d s <> Ok (c - v).
Proof. exact rsub_as_coded_refuted. Qed.
Print Assumptions C26_rsub_as_coded_refuted.

Theorem C26_rsub_fixed_eval : forall e c d s,
  eval (rsub_fixed e c) d s = (do a <- eval e d s; Ok (c - a)).
Proof. exact rsub_fixed_eval. Qed.
Print Assumptions C26_rsub_fixed_eval.

(* replace_dims_and_symbols: the substitution lemma.
   subst_env vals env = vals ++ skipn (length vals) env: replaced positions take the value of
   their replacement, positions beyond the replacement list keep their own value. *)
Theorem C26_replace_eval : forall e nd ns e' d s vd vs,
  replace e nd ns = Ok e' ->
  Forall2 (fun x v => eval x d s = Ok v) nd vd ->
  Forall2 (fun x v => eval x d s = Ok v) ns vs ->
  eval e' d s = eval e (subst_env vd d) (subst_env vs s).
Proof. exact replace_eval. Qed.
Print Assumptions C26_replace_eval.

(* compose: expression with map, map with map *)
Theorem C26_compose_eval : forall e m e' d s vals,
  compose_expr e m = Ok e' ->
  Forall2 (fun r v => eval r d s = Ok v) (results m) vals ->
  eval e' d s = eval e (subst_env vals d) s.
Proof. exact compose_expr_eval. Qed.
Print Assumptions C26_compose_eval.

(* m1.compose(m2): m2 is evaluated on d and on the symbols after m1's (skipn), then m1 on those
   values and on m1's own symbols.  Hypothesis: m2 mentions only its declared symbols. *)
Theorem C26_map_compose_eval : forall m1 m2 m d s vals,
  map_compose m1 m2 = Ok m ->
  Forall (syms_below (num_syms m2)) (results m2) ->
  Forall2 (fun r v => eval r d (skipn (num_syms m1) s) = Ok v) (results m2) vals ->
  num_dims m = num_dims m2 /\ num_syms m = (num_syms m1 + num_syms m2)%nat /\
  Forall2 (fun r' r => eval r' d s = eval r (subst_env vals d) s) (results m) (results m1).
Proof. exact map_compose_eval. Qed.
Print Assumptions C26_map_compose_eval.

(* simplify (SimpleAffineExprFlattener): whenever it returns, on every assignment with the
   declared numbers of dimensions and symbols, the value is unchanged.  (C26_simplify_total below says
   on which expressions it does return.) *)
Theorem C26_simplify_eval : forall nd ns d s, length d = nd -> length s = ns ->
  forall e e', simplify nd ns e = Ok e' -> eval e' d s = eval e d s.
Proof. exact simplify_eval. Qed.
Print Assumptions C26_simplify_eval.

(* ... and it does return (raises nothing) on every expression that is `flattenable` (top of
   C26/ProofsSimplifyTotal.v): positions in range, products with the constant on the right,
   mod/floordiv/ceildiv by positive constants *)
Theorem C26_simplify_total : forall nd ns e, flattenable nd ns e -> exists e', simplify nd ns e = Ok e'.
Proof. exact simplify_total. Qed.
Print Assumptions C26_simplify_total.

(* print / parse at token level: str_toks e is the token sequence of str(e); followed by any
   tokens that do not start with a binary operator (`)`, `,`, end of input ...) the parser returns
   a tree of the same value and leaves those tokens untouched; the default fuel suffices. *)
Theorem C26_print_parse : forall nd ns e rest e' rest',
  tok_prec (hd_error rest) = -1 ->
  parse_expr nd ns (str_toks e ++ rest) = Ok (e', rest') ->
  rest' = rest /\ forall d s, eval e' d s = eval e d s.
Proof. exact print_parse. Qed.
Print Assumptions C26_print_parse.

(* ... and it does return for every expression of the space that is pure affine with non-zero
   constant divisors (`parseable`, top of the last part of C26/ProofsParse.v) *)
Theorem C26_print_parse_total : forall nd ns e rest,
  parseable nd ns e -> tok_prec (hd_error rest) = -1 ->
  exists e', parse_expr nd ns (str_toks e ++ rest) = Ok (e', rest) /\
             forall d s, eval e' d s = eval e d s.
Proof. exact print_parse_total. Qed.
Print Assumptions C26_print_parse_total.

(* non-vacuity *)
(* the three examples of the flattener's docstring *)
Example C26_simplify_examples :
  let d0 := Dim 0 in let d1 := Dim 1 in
  simplify 2 0 (sub (sub (add (add d0 (mul_const d1 3)) d0) (mul_const d1 2)) d0)
    = Ok (Bin Add d0 d1)
  /\ (do m <- mod_ d0 (Const 4); do m2 <- mod_ (add (sub d0 m) (Const 4)) (Const 4); simplify 2 0 m2)
    = Ok (Const 0)
  /\ (do q <- floordiv (add (add (mul_const d0 3) (mul_const d1 2)) d0) (Const 2); simplify 2 0 (add q d1))
    = Ok (Bin Add (Bin Mul d0 (Const 2)) (Bin Mul d1 (Const 2))).
Proof. vm_compute. repeat split; reflexivity. Qed.

(* a mod and a floordiv sharing one local identifier, and a ceildiv *)
Example C26_simplify_locals :
  (do m <- mod_ (Dim 0) (Const 4); do q <- floordiv (Dim 0) (Const 4);
   do c <- ceildiv (add (Dim 0) (Sym 0)) (Const 2); simplify 1 1 (add (add m q) c))
  = Ok (Bin Add (Bin Add (Dim 0) (Bin Mul (Bin FloorDiv (Dim 0) (Const 4)) (Const (-3))))
                (Bin CeilDiv (Bin Add (Dim 0) (Sym 0)) (Const 2))).
Proof. vm_compute. reflexivity. Qed.

Example C26_print_parse_example :
  let e := Bin Mod (Bin Add (Bin Mul (Dim 0) (Const 2)) (Const (-6))) (Const 5) in
  parse_expr 1 1 (str_toks e ++ [TRParen]) = Ok (e, [TRParen])
  /\ parse_expr 2 0 [TId (IdDim 0); TMinus; TId (IdDim 1); TStar; TInt 2; TPlus; TInt 1]
     = Ok (Bin Add (Bin Add (Dim 0) (Bin Mul (Dim 1) (Const (-2)))) (Const 1), []).
Proof. vm_compute. split; reflexivity. Qed.

Example C26_constructors_example :
  add (add (Dim 0) (Const 2)) (Const 3) = Bin Add (Dim 0) (Const 5)
  /\ mul (add (Dim 0) (Sym 0)) (Const 3) = Ok (Bin Add (Bin Mul (Dim 0) (Const 3)) (Bin Mul (Sym 0) (Const 3)))
  /\ mul (Dim 0) (Dim 1) = Raise NotImpl
  /\ mod_ (Const 5) (Const 0) = Raise ZeroDiv
  /\ ceildiv (Const (-7)) (Const 2) = Ok (Const (-3))
  /\ eval (rsub_as_coded (Dim 0) 3) [10] [] = Ok 7.
Proof. vm_compute. repeat split; reflexivity. Qed.
