(* C28/Proofs.v -- semantics of programs and e-graphs (the Spec) and soundness of extraction.

   Spec, readable in a minute:
   * `eval`     : executes a block in order; an operation computes `sem name attr operand-values`
                  (uninterpreted), func.return yields its operand values; a use before its definition
                  or a left-over e-class makes the block not executable (None).
   * `models rho body` : the valuation rho (value of every operation's result) satisfies every node:
                  an operation's value is `sem` of its operands' values, and every member of an
                  e-class has the value of the class (this is the class invariant that sound rewrite
                  rules / union-find merging maintain -- the saturation engine is abstracted to it).
   * `obs rho body` : the values returned (operands of the return operations) under rho. *)
From Coq Require Import ZArith List Bool Lia.
From XV Require Import C28.Model.
Import ListNotations.
Local Open Scope Z_scope.

Definition is_ret (n : node) : bool := nname n =? N_RET.

Lemma val_eqb_eq : forall a b, val_eqb a b = true <-> a = b.
Proof.
  intros [i|i] [j|j]; simpl; split; intro H; try discriminate; try (inversion H; subst; apply Z.eqb_refl);
    apply Z.eqb_eq in H; subst; reflexivity.
Qed.

Lemma val_eqb_refl : forall a, val_eqb a a = true.
Proof. intro a. apply val_eqb_eq. reflexivity. Qed.

Lemma class_not_ret : forall n, is_class n = true -> is_ret n = false.
Proof.
  intros n H. unfold is_class, is_ret, N_CLASS, N_CCLASS, N_RET in *.
  destruct (nname n =? 1) eqn:E1; destruct (nname n =? 2) eqn:E2; simpl in H; try discriminate; lia.
Qed.

Lemma is_class_name : forall a b, nname a = nname b -> is_class a = is_class b.
Proof. intros a b H. unfold is_class. rewrite H. reflexivity. Qed.
Lemma is_ret_name : forall a b, nname a = nname b -> is_ret a = is_ret b.
Proof. intros a b H. unfold is_ret. rewrite H. reflexivity. Qed.

Lemma in_map_subst : forall old new ops w,
    In w (map (subst_val old new) ops) -> In w ops \/ (w = new /\ In old ops).
Proof.
  intros old new ops w H. apply in_map_iff in H. destruct H as [w0 [Hw0 Hin]]. unfold subst_val in Hw0.
  destruct (val_eqb w0 old) eqn:E.
  - apply val_eqb_eq in E. subst. right. auto.
  - subst. left. auto.
Qed.

(* ---------------- the substitution step of extract_step as one map ---------------- *)
Definition sub_node (c : Z) (v : val) (n : node) : node :=
  let n1 := if negb (nid n =? c) then set_ops n (map (subst_val (VRes c) v) (nops n)) else n in
  match v with
  | VRes j => if nid n1 =? j then set_cost n1 CNone else n1
  | VArg _ => n1
  end.

Lemma substituted_map : forall c v body,
    clear_cost_of v (replace_uses_if (fun u => negb (nid u =? c)) (VRes c) v body) = map (sub_node c v) body.
Proof.
  intros c v body. unfold replace_uses_if, sub_node. destruct v; simpl.
  - apply map_ext. intro n. reflexivity.
  - rewrite map_map. apply map_ext. intro n. reflexivity.
Qed.

Lemma sub_node_head : forall c v n,
    nid (sub_node c v n) = nid n /\ nname (sub_node c v n) = nname n /\ nmci (sub_node c v n) = nmci n /\
    nops (sub_node c v n) = if nid n =? c then nops n else map (subst_val (VRes c) v) (nops n).
Proof.
  intros c v n. unfold sub_node. destruct (nid n =? c); simpl; destruct v; simpl;
    try (destruct (nid n =? id)); simpl; repeat split.
Qed.

Section Sem.
  Variable sem : Z -> Z -> list Z -> Z.   (* op name, payload, operand values -> result *)
  Variable args : Z -> Z.                 (* values of the block arguments *)

  Definition lookup_val (env : list (Z * Z)) (v : val) : option Z :=
    match v with VArg i => Some (args i) | VRes id => lookup id env end.

  Fixpoint map_opt {A B} (f : A -> option B) (l : list A) : option (list B) :=
    match l with
    | [] => Some []
    | x :: r => match f x, map_opt f r with Some y, Some ys => Some (y :: ys) | _, _ => None end
    end.

  Fixpoint eval_body (env : list (Z * Z)) (body : list node) : option (list Z) :=
    match body with
    | [] => None
    | n :: r =>
        if is_ret n then map_opt (lookup_val env) (nops n)
        else if is_class n then None
        else match map_opt (lookup_val env) (nops n) with
             | None => None
             | Some vs => eval_body ((nid n, sem (nname n) (nattr n) vs) :: env) r
             end
    end.

  Definition eval (p : prog) : option (list Z) := eval_body [] (p_body p).

  Definition vval (rho : Z -> Z) (v : val) : Z :=
    match v with VArg i => args i | VRes id => rho id end.

  Definition node_ok (rho : Z -> Z) (n : node) : Prop :=
    if is_class n then forall m, In m (nops n) -> vval rho m = rho (nid n)
    else if is_ret n then True
    else rho (nid n) = sem (nname n) (nattr n) (map (vval rho) (nops n)).

  Definition models (rho : Z -> Z) (body : list node) : Prop := forall n, In n body -> node_ok rho n.

  Definition obs (rho : Z -> Z) (body : list node) : list (list Z) :=
    map (fun n => map (vval rho) (nops n)) (filter is_ret body).

  Lemma map_opt_lookup_models :
    forall rho env ops vs,
      (forall id v, lookup id env = Some v -> v = rho id) ->
      map_opt (lookup_val env) ops = Some vs -> vs = map (vval rho) ops.
  Proof.
    intros rho env ops. induction ops as [|o r IH]; intros vs Henv H; simpl in *.
    - inversion H. reflexivity.
    - destruct (lookup_val env o) eqn:Eo; try discriminate.
      destruct (map_opt (lookup_val env) r) eqn:Er; try discriminate.
      inversion H; subst. f_equal.
      + destruct o; simpl in *. inversion Eo; reflexivity. apply Henv. exact Eo.
      + apply IH; auto.
  Qed.

  Lemma eval_models :
    forall rho body env rs,
      models rho body ->
      (forall id v, lookup id env = Some v -> v = rho id) ->
      eval_body env body = Some rs ->
      hd_error (obs rho body) = Some rs.
  Proof.
    intros rho body. induction body as [|n r IH]; intros env rs Hm Henv He; simpl in He; try discriminate.
    unfold obs. simpl. destruct (is_ret n) eqn:Er.
    - simpl. f_equal. symmetry. eapply map_opt_lookup_models; eauto.
    - destruct (is_class n) eqn:Ec; try discriminate.
      destruct (map_opt (lookup_val env) (nops n)) as [vs|] eqn:Ev; try discriminate.
      apply (IH _ _ (fun m Hin => Hm m (or_intror Hin))) in He; auto.
      intros id v Hl. simpl in Hl. destruct (nid n =? id) eqn:Eid.
      + inversion Hl; subst. apply Z.eqb_eq in Eid. subst.
        assert (Hn := Hm n (or_introl eq_refl)). unfold node_ok in Hn. rewrite Ec, Er in Hn.
        rewrite Hn. f_equal. eapply map_opt_lookup_models; eauto.
      + apply Henv. exact Hl.
  Qed.

  Lemma models_map : forall rho f body,
      (forall n, node_ok rho n -> node_ok rho (f n)) -> models rho body -> models rho (map f body).
  Proof.
    intros rho f body Hf Hm n' Hin. apply in_map_iff in Hin. destruct Hin as [n [<- Hin]]. auto.
  Qed.

  Lemma obs_map : forall rho f body,
      (forall n, is_ret (f n) = is_ret n /\ map (vval rho) (nops (f n)) = map (vval rho) (nops n)) ->
      obs rho (map f body) = obs rho body.
  Proof.
    intros rho f body Hf. unfold obs. induction body as [|n r IH]; simpl; auto.
    destruct (Hf n) as [Hr Ho]. rewrite Hr. destruct (is_ret n); simpl; rewrite IH; auto.
    rewrite Ho. reflexivity.
  Qed.

  Lemma vval_subst : forall rho old new v,
      vval rho old = vval rho new -> vval rho (subst_val old new v) = vval rho v.
  Proof.
    intros rho old new v H. unfold subst_val. destruct (val_eqb v old) eqn:E; auto.
    apply val_eqb_eq in E. subst. symmetry. exact H.
  Qed.

  Lemma map_vval_subst : forall rho old new l,
      vval rho old = vval rho new -> map (vval rho) (map (subst_val old new) l) = map (vval rho) l.
  Proof.
    intros. rewrite map_map. apply map_ext. intro. apply vval_subst. assumption.
  Qed.

  Lemma node_ok_set_ops_subst : forall rho old new n,
      vval rho old = vval rho new -> node_ok rho n ->
      node_ok rho (set_ops n (map (subst_val old new) (nops n))).
  Proof.
    intros rho old new n H Hn. unfold node_ok in *. unfold is_class, is_ret in *. simpl.
    destruct ((nname n =? N_CLASS) || (nname n =? N_CCLASS)).
    - intros m Hin. apply in_map_iff in Hin. destruct Hin as [m0 [Hm0 Hin]]. subst.
      rewrite vval_subst; auto.
    - destruct (nname n =? N_RET); auto. rewrite map_vval_subst; auto.
  Qed.

  Lemma models_replace : forall rho p old new body,
      vval rho old = vval rho new -> models rho body -> models rho (replace_uses_if p old new body).
  Proof.
    intros rho p old new body H. apply models_map. intros n Hn. destruct (p n); auto.
    apply node_ok_set_ops_subst; auto.
  Qed.

  Lemma obs_replace : forall rho p old new body,
      vval rho old = vval rho new -> obs rho (replace_uses_if p old new body) = obs rho body.
  Proof.
    intros rho p old new body H. apply obs_map. intro n. destruct (p n); split; try reflexivity.
    apply map_vval_subst; auto.
  Qed.

  Lemma models_clear_cost : forall rho v body, models rho body -> models rho (clear_cost_of v body).
  Proof.
    intros rho [i|j] body; simpl; auto. apply models_map. intros n Hn. destruct (nid n =? j); exact Hn.
  Qed.

  Lemma obs_clear_cost : forall rho v body, obs rho (clear_cost_of v body) = obs rho body.
  Proof.
    intros rho [i|j] body; simpl; auto. apply obs_map. intro n. destruct (nid n =? j); split; reflexivity.
  Qed.

  Lemma remove_node_incl : forall id body n, In n (remove_node id body) -> In n body.
  Proof.
    intros id body. induction body as [|m r IH]; simpl; intros n H; auto.
    destruct (nid m =? id); auto. destruct H; auto.
  Qed.

  Lemma obs_remove : forall rho id body,
      (forall m, In m body -> nid m = id -> is_ret m = false) ->
      obs rho (remove_node id body) = obs rho body.
  Proof.
    intros rho id body. unfold obs. induction body as [|m r IH]; simpl; intros H; auto.
    destruct (nid m =? id) eqn:E.
    - apply Z.eqb_eq in E. rewrite (H m (or_introl eq_refl) E). reflexivity.
    - simpl. destruct (is_ret m); simpl; rewrite IH; auto.
  Qed.

  Lemma erase_op_spec : forall rho id body b', erase_op id body = Ok b' ->
      (forall n, In n b' -> In n body) /\
      ((forall m, In m body -> nid m = id -> is_ret m = false) -> obs rho b' = obs rho body).
  Proof.
    intros rho id body b' H. unfold erase_op in H. destruct (find_node id body).
    - destruct (has_uses id (remove_node id body)); inversion H; subst.
      split; [apply remove_node_incl | apply obs_remove].
    - inversion H; subst. auto.
  Qed.

  Lemma erase_all_spec : forall rho ids body b', erase_all ids body = Ok b' ->
      (forall n, In n b' -> In n body) /\
      ((forall id m, In id ids -> In m body -> nid m = id -> is_ret m = false) -> obs rho b' = obs rho body).
  Proof.
    intros rho. induction ids as [|i r IH]; simpl; intros body b' H.
    - inversion H; subst; auto.
    - destruct (erase_op i body) as [b1| |] eqn:E; try discriminate.
      destruct (erase_op_spec rho _ _ _ E) as [Hi1 Ho1], (IH b1 b' H) as [Hi2 Ho2]. split; [auto|].
      intros Hr. rewrite Ho2.
      + apply Ho1. intros m Hm Hid. apply (Hr i m); auto.
      + intros id m Hid Hm. apply Hr; auto.
  Qed.

  (* no operand refers to a return operation (it has no result) *)
  Definition ret_unref (body : list node) : Prop :=
    forall n j m, In n body -> In (VRes j) (nops n) -> In m body -> nid m = j -> is_ret m = false.
  (* the ids still to be processed are ids of e-class operations only *)
  Definition cids_ok (cids : list Z) (body : list node) : Prop :=
    forall c m, In c cids -> In m body -> nid m = c -> is_class m = true.

  (* ret_unref and cids_ok only look at ids, names and which operations are named as operands at all *)
  Definition drawn_from (b b' : list node) : Prop :=
    forall m', In m' b' ->
      (exists m, In m b /\ nid m' = nid m /\ nname m' = nname m) /\
      (forall j, In (VRes j) (nops m') -> exists n, In n b /\ In (VRes j) (nops n)).

  Lemma drawn_from_refl : forall b, drawn_from b b.
  Proof. intros b m Hm. split; eauto. Qed.

  Lemma drawn_from_ret_unref : forall b b', drawn_from b b' -> ret_unref b -> ret_unref b'.
  Proof.
    intros b b' Hf Hru n j m Hn Hj Hm Hid.
    destruct (Hf n Hn) as [_ Hops]. destruct (Hops j Hj) as [n0 [Hn0 Hj0]].
    destruct (Hf m Hm) as [[m0 [Hm0 [Hi Hnm]]] _].
    rewrite (is_ret_name _ _ Hnm). apply (Hru n0 j m0); auto. congruence.
  Qed.

  Lemma drawn_from_cids_ok : forall cids b b', drawn_from b b' -> cids_ok cids b -> cids_ok cids b'.
  Proof.
    intros cids b b' Hf Hck c m Hc Hm Hid. destruct (Hf m Hm) as [[m0 [Hm0 [Hi Hnm]]] _].
    rewrite (is_class_name _ _ Hnm). apply (Hck c m0); auto. congruence.
  Qed.

  Lemma find_node_In : forall id body n, find_node id body = Some n -> In n body /\ nid n = id.
  Proof.
    intros id body. induction body as [|m r IH]; simpl; intros n H; try discriminate.
    destruct (nid m =? id) eqn:E.
    - inversion H; subst. split; auto. apply Z.eqb_eq; auto.
    - apply IH in H. destruct H as [H1 H2]. split; [right; exact H1 | exact H2].
  Qed.

  Lemma owners_In : forall ops i skip j, In j (owners ops i skip) -> In (VRes j) ops.
  Proof.
    induction ops as [|v r IH]; simpl; intros i skip j H; auto.
    destruct v as [a|k].
    - right. eapply IH; eauto.
    - destruct skip as [s|].
      + destruct (i =? s).
        * right. eapply IH; eauto.
        * destruct H as [H|H]; [left; subst; auto | right; eapply IH; eauto].
      + destruct H as [H|H]; [left; subst; auto | right; eapply IH; eauto].
  Qed.

  Lemma py_nth_In : forall ops k v, py_nth ops k = Some v -> In v ops.
  Proof.
    intros ops k v H. unfold py_nth in H.
    destruct ((_ <? 0) || (_ <=? _)); try discriminate. eapply nth_error_In; eauto.
  Qed.

  (* both erasing branches end here; what is erased is the class or named by one of its operands, hence no return *)
  Lemma erase_class_sound : forall rho cid cids c skip body b2 b',
      In c body -> nid c = cid -> ret_unref body -> cids_ok (cid :: cids) body ->
      drawn_from body b2 -> models rho b2 ->
      erase_all (cid :: owners (nops c) 0 skip) b2 = Ok b' ->
      models rho b' /\ obs rho b' = obs rho b2 /\ ret_unref b' /\ cids_ok cids b'.
  Proof.
    intros rho cid cids c skip body b2 b' Hc Hcid Hru Hck Hf Hm He.
    destruct (erase_all_spec rho _ _ _ He) as [Hi Hobs].
    assert (Hf' : drawn_from body b') by (intros m Hm'; apply Hf, Hi, Hm').
    split; [|split; [|split]].
    - intros n Hn. apply Hm, Hi, Hn.
    - apply Hobs. intros id m Hid Hmb Hmid.
      destruct (Hf m Hmb) as [[m0 [Hm0 [Hi0 Hnm]]] _]. rewrite (is_ret_name _ _ Hnm).
      destruct Hid as [Hid|Hid].
      + apply class_not_ret. apply (Hck cid m0); [left; reflexivity | exact Hm0 | congruence].
      + apply owners_In in Hid. apply (Hru c id m0); [exact Hc | exact Hid | exact Hm0 | congruence].
    - apply (drawn_from_ret_unref body); assumption.
    - apply (drawn_from_cids_ok cids body); [assumption|]. intros c0 m Hc0. apply Hck. right. exact Hc0.
  Qed.

  Lemma extract_step_sound : forall rho cid cids body b',
      models rho body -> ret_unref body -> cids_ok (cid :: cids) body ->
      extract_step cid body = Ok b' ->
      models rho b' /\ obs rho b' = obs rho body /\ ret_unref b' /\ cids_ok cids b'.
  Proof.
    intros rho cid cids body b' Hm Hru Hck H. unfold extract_step in H.
    destruct (find_node cid body) as [c|] eqn:Ec; try discriminate.
    apply find_node_In in Ec. destruct Ec as [Hc Hcid].
    destruct (negb (has_uses cid body)).
    - (* unused class: the class and its member operations are erased *)
      apply (erase_class_sound rho cid cids c None body body b'); auto using drawn_from_refl.
    - destruct (nmci c) as [k|].
      + (* the chosen member v takes the place of the class; v has the value of the class *)
        destruct (py_nth (nops c) k) as [v|] eqn:Ev; try discriminate. apply py_nth_In in Ev.
        assert (Hv : vval rho (VRes cid) = vval rho v).
        { assert (Hn := Hm c Hc). unfold node_ok in Hn.
          rewrite (Hck cid c (or_introl eq_refl) Hc Hcid) in Hn.
          simpl. rewrite <- Hcid. symmetry. apply Hn. exact Ev. }
        rewrite substituted_map in H.
        destruct (erase_class_sound rho cid cids c (Some k) body (map (sub_node cid v) body) b')
          as [A [B [C D]]]; auto.
        * intros m' Hm'. apply in_map_iff in Hm'. destruct Hm' as [m [<- Hm0]].
          destruct (sub_node_head cid v m) as [Hi [Hn [_ Ho]]]. split; [exists m; auto|].
          intros j Hj. rewrite Ho in Hj. destruct (nid m =? cid); [exists m; auto|].
          apply in_map_subst in Hj. destruct Hj as [Hj|[Hj _]]; [exists m; auto|].
          exists c. rewrite Hj. auto.
        * rewrite <- substituted_map. apply models_clear_cost, models_replace; assumption.
        * split; [exact A|]. split; [|split; assumption].
          rewrite B, <- substituted_map, obs_clear_cost. apply obs_replace. exact Hv.
      + inversion H; subst. repeat split; auto.
        intros c0 m Hc0. apply Hck. right. exact Hc0.
  Qed.

  Lemma extract_loop_sound : forall rho cids body b',
      models rho body -> ret_unref body -> cids_ok cids body ->
      extract_loop cids body = Ok b' ->
      models rho b' /\ obs rho b' = obs rho body.
  Proof.
    intros rho. induction cids as [|c r IH]; simpl; intros body b' Hm Hru Hck H.
    - inversion H; subst; auto.
    - destruct (extract_step c body) as [b1| |] eqn:E; try discriminate.
      destruct (extract_step_sound rho c r body b1 Hm Hru Hck E) as [Hm1 [Ho1 [Hru1 Hck1]]].
      destruct (IH b1 b' Hm1 Hru1 Hck1 H) as [Hm2 Ho2]. split; auto. congruence.
  Qed.

  (* well-formedness of identities: unique ids, operands never name a return operation *)
  Definition ids_ok (body : list node) : Prop :=
    NoDup (map nid body) /\
    (forall n j m, In n body -> In (VRes j) (nops n) -> In m body -> nid m = j -> is_ret m = false).

  Lemma NoDup_nid_inj : forall body n m, NoDup (map nid body) -> In n body -> In m body -> nid n = nid m -> n = m.
  Proof.
    induction body as [|x r IH]; simpl; intros n m Hnd Hn Hm He; try tauto.
    inversion Hnd as [|? ? Hni Hnd']; subst.
    destruct Hn as [Hn|Hn]; destruct Hm as [Hm|Hm]; subst; auto.
    - exfalso. apply Hni. rewrite He. apply in_map. auto.
    - exfalso. apply Hni. rewrite <- He. apply in_map. auto.
  Qed.

  Lemma class_ids_ok : forall body, NoDup (map nid body) -> cids_ok (rev (class_ids body)) body.
  Proof.
    intros body Hnd c m Hc Hm Hid. apply in_rev in Hc. unfold class_ids in Hc.
    apply in_map_iff in Hc. destruct Hc as [n [Hn Hin]]. apply filter_In in Hin. destruct Hin as [Hin Hcl].
    assert (n = m) by (eapply NoDup_nid_inj; eauto; congruence). subst. auto.
  Qed.

  (* C28_extract_sound: if a valuation models the e-graph (operations compute `sem`, members of a class
     are equal) then whatever extraction produces -- provided it is executable -- returns the values the
     valuation gives to the e-graph's results. *)
  Theorem extract_sound : forall rho g p' rs,
      ids_ok (p_body g) -> models rho (p_body g) ->
      extract g = Ok p' -> eval p' = Some rs ->
      hd_error (obs rho (p_body g)) = Some rs.
  Proof.
    intros rho g p' rs [Hnd Hru] Hm He Hev. unfold extract in He.
    destruct (extract_loop (rev (class_ids (p_body g))) (p_body g)) as [b| |] eqn:E; try discriminate.
    inversion He; subst. unfold eval in Hev. simpl in Hev.
    destruct (extract_loop_sound rho _ _ _ Hm Hru (class_ids_ok _ Hnd) E) as [Hm' Ho'].
    rewrite <- Ho'. eapply eval_models; eauto. intros id v Hl. discriminate.
  Qed.

End Sem.
