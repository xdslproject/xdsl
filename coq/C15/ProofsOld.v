(* C15/ProofsOld.v -- recorded refutations of the PRE-REPAIR interpreter code (C15/Old.v), the
   witnesses of the fixed entries of known_findings.d/C15.json.  Each witnesses the negation of the
   statement that ProofsOps.v proves of the generated definition of the same operation. *)
From Coq Require Import ZArith Bool.
From XV Require Import C15.Py C15.Spec C15.Old.
Local Open Scope Z_scope.

(* 100 << 2 : i8 = 400 was returned unwrapped *)
Lemma shli_old_refuted :
  exists w a b r, 1 <= w /\ canon w a /\ canon w b /\ shift_defined w (wrap w a) (wrap w b) /\
                  run_shli_old w a b = Some r /\ ~ signless w r.
Proof. exists 8, 100, 2, 400. vm_compute; intuition discriminate. Qed.

Definition binop_old_refuted (run : Z -> Z -> Z -> option Z) (spec : Z -> Z -> Z -> Z)
    (defined : Z -> Z -> Z -> Prop) : Prop :=
  exists w a b r, 1 <= w /\ signless w a /\ signless w b /\ defined w (wrap w a) (wrap w b) /\
                  run w a b = Some r /\ wrap w r <> spec w (wrap w a) (wrap w b).

(* operands were not normalised: 255 = 0xFF : i8 was treated as +255 *)
Lemma shrsi_old_refuted : binop_old_refuted run_shrsi_old spec_shrsi shift_defined.
Proof. exists 8, 255, 1, 127. vm_compute; intuition discriminate. Qed.
Lemma divsi_old_refuted : binop_old_refuted run_divsi_old spec_divsi sdiv_defined.
Proof. exists 8, 255, 2, 127. vm_compute; intuition discriminate. Qed.
Lemma remsi_old_refuted : binop_old_refuted run_remsi_old spec_remsi sdiv_defined.
Proof. exists 8, 255, 2, 1. vm_compute; intuition discriminate. Qed.
Lemma floordivsi_old_refuted : binop_old_refuted run_floordivsi_old spec_floordivsi sdiv_defined.
Proof. exists 8, 255, 2, 127. vm_compute; intuition discriminate. Qed.

(* eq/ne/slt/sle/sgt/sge compared representatives; and (3 < 5) == true was false because cmpi
   returns True = 1 while the canonical i1 true is -1 *)
Definition cmpi_old_refuted_on (pred : Z) : Prop :=
  exists w a b r t, 1 <= w /\ signless w a /\ signless w b /\ run_cmpi_old pred w a b = Some r /\
                    spec_cmpi pred w (wrap w a) (wrap w b) = Some t /\ wrap 1 r <> Z.b2z t.
Lemma cmpi_old_refuted :
  cmpi_old_refuted_on 0 /\ cmpi_old_refuted_on 1 /\ cmpi_old_refuted_on 2 /\
  cmpi_old_refuted_on 3 /\ cmpi_old_refuted_on 4 /\ cmpi_old_refuted_on 5.
Proof.
  repeat split.
  - exists 8, 255, (-1), 0, true. vm_compute; intuition discriminate.
  - exists 8, 255, (-1), 1, false. vm_compute; intuition discriminate.
  - exists 8, 255, 0, 0, true. vm_compute; intuition discriminate.
  - exists 8, 255, 0, 0, true. vm_compute; intuition discriminate.
  - exists 8, 255, 0, 1, false. vm_compute; intuition discriminate.
  - exists 8, 255, 0, 1, false. vm_compute; intuition discriminate.
Qed.

Lemma cmpi_of_cmpi_old_refuted :
  exists a b r r2, canon 8 a /\ canon 8 b /\ run_cmpi_old 2 8 a b = Some r /\ canon 1 (-1) /\
                   wrap 1 r = wrap 1 (-1) /\ run_cmpi_old 0 1 r (-1) = Some r2 /\ wrap 1 r2 = 0.
Proof. exists 3, 5, 1, 0. vm_compute; intuition discriminate. Qed.
