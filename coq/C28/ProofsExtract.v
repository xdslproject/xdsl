(* C28/ProofsExtract.v -- totality of extraction on well-formed e-graphs in definition-before-use order.

   `ordered defs body`: every operand of every operation is defined earlier in the block.
   `wf_egraph body` (the conditions of ClassOp.verify_ + an index for every class):
      unique ids; ordered; the members of a class are pairwise different; an operation that is a member of a
      class is an ordinary operation (not a class, not the return) and its result is used by that class only;
      every class has a min_cost_index in range; there is a return.
   Result: extract succeeds (no exception), leaves no e-class, keeps definition-before-use order, hence the
   extracted block is executable; with Proofs.extract_sound it returns the values of the e-graph. *)
From Coq Require Import ZArith List Bool Lia.
From XV Require Import C28.Model C28.Proofs.
Import ListNotations.
Local Open Scope Z_scope.

Fixpoint ordered (defs : list Z) (body : list node) : Prop :=
  match body with
  | [] => True
  | n :: r => (forall j, In (VRes j) (nops n) -> In j defs) /\ ordered (nid n :: defs) r
  end.

Lemma ordered_weaken : forall b d d', (forall j, In j d -> In j d') -> ordered d b -> ordered d' b.
Proof.
  induction b as [|n r IH]; simpl; intros d d' H Ho; auto. destruct Ho as [Hh Ht]. split.
  - intros j Hj. auto.
  - apply (IH (nid n :: d)); auto. intros j [Hj|Hj]; [left; auto | right; auto].
Qed.

Definition no_use (x : Z) (body : list node) : Prop := forall n, In n body -> ~ In (VRes x) (nops n).

Lemma has_uses_false : forall x body, has_uses x body = false <-> no_use x body.
Proof.
  intros x body. unfold has_uses, no_use. split.
  - intros H n Hn Hin. rewrite <- not_true_iff_false in H. apply H. apply existsb_exists. exists n. split; auto.
    apply existsb_exists. exists (VRes x). split; [exact Hin | apply val_eqb_refl].
  - intro H. apply not_true_iff_false. intro E. apply existsb_exists in E. destruct E as [n [Hn Hu]].
    apply existsb_exists in Hu. destruct Hu as [v [Hv He]]. apply val_eqb_eq in He. subst. exact (H n Hn Hv).
Qed.

Lemma ordered_drop : forall b d d' x,
    ordered d b -> no_use x b -> (forall j, In j d -> j <> x -> In j d') -> ordered d' b.
Proof.
  induction b as [|n r IH]; simpl; intros d d' x Ho Hn Hd; auto. destruct Ho as [Hh Ht]. split.
  - intros j Hj. apply Hd; auto. intro Hjx. subst j. apply (Hn n); [left; reflexivity | exact Hj].
  - apply (IH (nid n :: d) _ x); auto.
    + intros m Hm. apply Hn. right; auto.
    + intros j [Hj|Hj] Hne; [left; auto | right; auto].
Qed.

Lemma ordered_remove : forall b d x, ordered d b -> no_use x (remove_node x b) -> ordered d (remove_node x b).
Proof.
  induction b as [|n r IH]; simpl; intros d x Ho Hn; auto. destruct Ho as [Hh Ht].
  destruct (nid n =? x) eqn:E.
  - apply Z.eqb_eq in E. rewrite E in Ht. apply (ordered_drop r (x :: d) d x); auto.
    intros j [Hj|Hj] Hne; [congruence | exact Hj].
  - simpl. split; auto. apply IH; auto. intros m Hm. apply Hn. right; auto.
Qed.

Lemma ordered_subst : forall p cid v b d,
    ordered d b ->
    (forall j, v = VRes j -> In cid d -> In j d) ->
    (forall n, In n b -> nid n = cid -> In v (nops n)) ->
    ordered d (replace_uses_if p (VRes cid) v b).
Proof.
  intros p cid v. induction b as [|n r IH]; simpl; intros d Ho Hd Hc; auto. destruct Ho as [Hh Ht]. split.
  - intros j Hj. destruct (p n); simpl in Hj; auto.
    apply in_map_subst in Hj. destruct Hj as [Hj|[Hj Hin]]; auto.
  - assert (Hid : nid (if p n then set_ops n (map (subst_val (VRes cid) v) (nops n)) else n) = nid n)
      by (destruct (p n); reflexivity).
    rewrite Hid. apply IH; auto.
    intros j Hv [Hin|Hin]; [|right; auto].
    right. apply Hh. rewrite <- Hv. apply Hc; auto.
Qed.

Lemma ordered_map : forall f b d,
    (forall n, nid (f n) = nid n /\ nops (f n) = nops n) -> ordered d b -> ordered d (map f b).
Proof.
  intros f. induction b as [|n r IH]; simpl; intros d Hf Ho; auto. destruct Ho as [Hh Ht].
  destruct (Hf n) as [H1 H2]. rewrite H1, H2. split; auto.
Qed.

Lemma ordered_clear_cost : forall v b d, ordered d b -> ordered d (clear_cost_of v b).
Proof.
  intros v b d H. destruct v; simpl; auto. apply ordered_map; auto.
  intro n. destruct (nid n =? id); split; reflexivity.
Qed.

Lemma ordered_no_self_use : forall b d n, ordered d b -> In n b -> NoDup (map nid b) ->
    (forall j, In j d -> ~ In j (map nid b)) -> ~ In (VRes (nid n)) (nops n).
Proof.
  induction b as [|m r IH]; simpl; intros d n Ho Hin Hnd Hd; try tauto. destruct Ho as [Hh Ht].
  inversion Hnd as [|? ? Hni Hnd']; subst. destruct Hin as [Hin|Hin].
  - subst m. intro Hu. apply Hh in Hu. apply (Hd _ Hu). left; auto.
  - apply (IH (nid m :: d)); auto. intros j [Hj|Hj] Hjr.
    + subst. auto.
    + apply (Hd j Hj). right; auto.
Qed.

Section Exec.
  Variable sem : Z -> Z -> list Z -> Z.
  Variable args : Z -> Z.

  Lemma map_opt_total : forall env ops,
      (forall o, In o ops -> exists v, lookup_val args env o = Some v) ->
      exists vs, map_opt (lookup_val args env) ops = Some vs.
  Proof.
    intros env. induction ops as [|o r IH]; simpl; intros H; eauto.
    destruct (H o (or_introl eq_refl)) as [v Hv]. rewrite Hv.
    destruct IH as [vs Hvs]; [intros; apply H; right; auto|]. rewrite Hvs. eauto.
  Qed.

  Lemma eval_total : forall b d env,
      ordered d b -> (forall n, In n b -> is_class n = false) -> (exists n, In n b /\ is_ret n = true) ->
      (forall j, In j d -> exists v, lookup j env = Some v) ->
      exists rs, eval_body sem args env b = Some rs.
  Proof.
    induction b as [|n r IH]; simpl; intros d env Ho Hc [n0 [Hn0 Hr0]] Hd; try tauto.
    destruct Ho as [Hh Ht].
    assert (Hops : forall o, In o (nops n) -> exists v, lookup_val args env o = Some v).
    { intros o Ho. destruct o as [i|j]; simpl; eauto. }
    destruct (map_opt_total env (nops n) Hops) as [vs Hvs].
    destruct (is_ret n) eqn:Er; eauto.
    rewrite (Hc n (or_introl eq_refl)). rewrite Hvs.
    apply (IH (nid n :: d)); auto.
    - destruct Hn0 as [Hn0|Hn0]; [subst; congruence | eauto].
    - intros j [Hj|Hj]; simpl.
      + subst. rewrite Z.eqb_refl. eauto.
      + destruct (nid n =? j); eauto.
  Qed.

End Exec.

Lemma find_node_NoDup : forall body n, NoDup (map nid body) -> In n body -> find_node (nid n) body = Some n.
Proof.
  induction body as [|m r IH]; simpl; intros n Hnd Hin; try tauto.
  inversion Hnd as [|? ? Hni Hnd']; subst. destruct Hin as [Hin|Hin].
  - subst. rewrite Z.eqb_refl. reflexivity.
  - destruct (nid m =? nid n) eqn:E.
    + apply Z.eqb_eq in E. exfalso. apply Hni. rewrite E. apply in_map. exact Hin.
    + auto.
Qed.

Lemma find_node_some : forall body j, In j (map nid body) -> exists n, find_node j body = Some n.
Proof.
  induction body as [|m r IH]; simpl; intros j H; try tauto.
  destruct (nid m =? j) eqn:E; eauto. destruct H as [H|H]; [apply Z.eqb_neq in E; congruence | auto].
Qed.

Lemma remove_node_In : forall x body n, NoDup (map nid body) ->
    (In n (remove_node x body) <-> In n body /\ nid n <> x).
Proof.
  intros x. induction body as [|m r IH]; simpl; intros n Hnd; [tauto|].
  inversion Hnd as [|? ? Hni Hnd']; subst. destruct (nid m =? x) eqn:E.
  - apply Z.eqb_eq in E. split.
    + intro Hin. split; auto. intro Hx. apply Hni. rewrite E, <- Hx. apply in_map. exact Hin.
    + intros [[Hin|Hin] Hx]; auto. subst. congruence.
  - apply Z.eqb_neq in E. simpl. rewrite IH; auto. split.
    + intros [Hin|[Hin Hx]]; [subst; auto | auto].
    + intros [[Hin|Hin] Hx]; auto.
Qed.

Lemma remove_node_NoDup : forall x body, NoDup (map nid body) -> NoDup (map nid (remove_node x body)).
Proof.
  intros x. induction body as [|m r IH]; simpl; intros Hnd; auto.
  inversion Hnd as [|? ? Hni Hnd']; subst. destruct (nid m =? x); auto. simpl. constructor; auto.
  intro Hin. apply Hni. apply in_map_iff in Hin. destruct Hin as [n [Hn Hin]].
  apply remove_node_incl in Hin. rewrite <- Hn. apply in_map. exact Hin.
Qed.

Definition structural (body : list node) : Prop := NoDup (map nid body) /\ ordered [] body.

Lemma erase_dead : forall js body,
    structural body ->
    (forall j, In j js -> no_use j body) ->
    exists b', erase_all js body = Ok b' /\ structural b' /\
               (forall n, In n b' <-> In n body /\ ~ In (nid n) js).
Proof.
  induction js as [|j r IH]; simpl; intros body [Hnd Ho] Hdead.
  - exists body. split; auto. split. split; auto. intro n. tauto.
  - assert (Hnu : no_use j (remove_node j body)).
    { intros n Hn. apply (Hdead j (or_introl eq_refl)). eapply remove_node_incl; eauto. }
    unfold erase_op. destruct (find_node j body) as [m|] eqn:Ef.
    + rewrite (proj2 (has_uses_false _ _) Hnu).
      destruct (IH (remove_node j body)) as [b' [He [Hs Hc]]].
      * split. apply remove_node_NoDup; auto. apply ordered_remove; auto.
      * intros j' Hj' n Hn. apply (Hdead j' (or_intror Hj')). eapply remove_node_incl; eauto.
      * exists b'. split; auto. split; auto. intro n. rewrite Hc. rewrite remove_node_In; auto.
        split. intros [[A B] C]. split; auto. intros [D|D]; auto.
        intros [A B]. split; [split|]; auto.
    + destruct (IH body) as [b' [He [Hs Hc]]].
      * split; auto.
      * intros j' Hj'. apply Hdead. right; auto.
      * exists b'. split; auto. split; auto. intro n. rewrite Hc. split.
        -- intros [A B]. split; auto. intros [D|D]; auto.
           destruct (find_node_some body j) as [m' Hm']; [rewrite D; apply in_map; exact A | congruence].
        -- intros [A B]. split; auto.
Qed.

Definition plain (n : node) : Prop := is_class n = false /\ is_ret n = false.

Definition members_ok (body : list node) : Prop :=
  forall cn, In cn body -> is_class cn = true ->
    NoDup (nops cn) /\
    forall j, In (VRes j) (nops cn) ->
      (forall m, In m body -> nid m = j -> plain m) /\
      (forall n, In n body -> In (VRes j) (nops n) -> nid n = nid cn).

Definition chosen_ok (body : list node) : Prop :=
  forall cn, In cn body -> is_class cn = true ->
    exists k, nmci cn = Some k /\ 0 <= k < Z.of_nat (length (nops cn)).

Definition has_ret (body : list node) : Prop := exists n, In n body /\ is_ret n = true.

Record extract_inv (cids : list Z) (body : list node) : Prop := {
  i_struct : structural body;
  i_cls_in : forall n, In n body -> is_class n = true -> In (nid n) cids;
  i_cids_nd : NoDup cids;
  i_cids : forall c, In c cids -> exists n, In n body /\ nid n = c /\ is_class n = true;
  i_members : members_ok body;
  i_chosen : chosen_ok body;
  i_ret : has_ret body }.

Definition wf_egraph (body : list node) : Prop :=
  structural body /\ members_ok body /\ chosen_ok body /\ has_ret body.

Lemma py_nth_in_range : forall ops k, 0 <= k < Z.of_nat (length ops) ->
    exists v, py_nth ops k = Some v /\ nth_error ops (Z.to_nat k) = Some v.
Proof.
  intros ops k Hk. unfold py_nth.
  assert (E1 : (k <? 0) = false) by (apply Z.ltb_ge; lia). rewrite E1.
  assert (E2 : (k <? 0) || (Z.of_nat (length ops) <=? k) = false).
  { rewrite E1. simpl. apply Z.leb_gt. lia. }
  rewrite E2. destruct (nth_error ops (Z.to_nat k)) as [v|] eqn:E; eauto.
  apply nth_error_None in E. lia.
Qed.

Lemma owners_skip_neq : forall ops i k j v,
    NoDup ops -> 0 <= i -> i <= k -> nth_error ops (Z.to_nat (k - i)) = Some v ->
    In j (owners ops i (Some k)) -> VRes j <> v /\ In (VRes j) ops.
Proof.
  induction ops as [|o r IH]; simpl; intros i k j v Hnd Hi Hik Hn Hin; try tauto.
  inversion Hnd as [|? ? Hni Hnd']; subst.
  destruct (Z.eq_dec i k) as [E|E].
  - subst i. replace (k - k) with 0 in Hn by lia. simpl in Hn. inversion Hn; subst v.
    assert (Hr : In j (owners r (k + 1) (Some k))).
    { destruct o; auto. rewrite Z.eqb_refl in Hin. auto. }
    clear Hin. assert (Hj : In (VRes j) r) by (eapply owners_In; eauto).
    split; auto. intro Heq. subst. auto.
  - assert (Hk : Z.to_nat (k - i) = S (Z.to_nat (k - (i + 1)))) by lia.
    rewrite Hk in Hn. simpl in Hn.
    assert (Hcase : (o = VRes j) \/ In j (owners r (i + 1) (Some k))).
    { destruct o; auto. destruct (i =? k) eqn:E'; [apply Z.eqb_eq in E'; lia|].
      destruct Hin as [Hin|Hin]; [left; subst; auto | right; auto]. }
    destruct Hcase as [Ho|Hr].
    + subst o. split; auto. intro Heq. subst v. apply Hni. eapply nth_error_In; eauto.
    + destruct (IH (i + 1) k j v) as [A B]; auto; try lia.
Qed.

Lemma erase_class_and_members : forall c js body,
    structural body -> no_use c body ->
    (forall j n, In j js -> In n body -> In (VRes j) (nops n) -> nid n = c) ->
    exists b', erase_all (c :: js) body = Ok b' /\ structural b' /\
               (forall n, In n b' <-> In n body /\ nid n <> c /\ ~ In (nid n) js).
Proof.
  intros c js body Hs Hc Hj.
  destruct (erase_dead [c] body Hs) as [b1 [He1 [Hs1 Hc1]]].
  { intros j [Hjc|[]]. subst. exact Hc. }
  destruct (erase_dead js b1 Hs1) as [b2 [He2 [Hs2 Hc2]]].
  { intros j Hjin n Hn Hu. apply Hc1 in Hn. destruct Hn as [Hn Hne].
    apply Hne. left. symmetry. eapply Hj; eauto. }
  exists b2. split; [|split; auto].
  - simpl in He1. simpl. destruct (erase_op c body) as [bb| |]; try discriminate.
    inversion He1; subst. exact He2.
  - intro n. rewrite Hc2, Hc1. simpl. split.
    + intros [[A B] C]. repeat split; auto.
    + intros [A [B C]]. repeat split; auto. intros [D|[]]. auto.
Qed.

Lemma map_subst_id : forall old new ops, ~ In old ops -> map (subst_val old new) ops = ops.
Proof.
  intros old new. induction ops as [|o r IH]; simpl; intros H; auto.
  rewrite IH by tauto. unfold subst_val. destruct (val_eqb o old) eqn:E; auto.
  apply val_eqb_eq in E. subst. tauto.
Qed.

Lemma no_subst_left : forall old new ops, new <> old -> ~ In old (map (subst_val old new) ops).
Proof.
  intros old new ops Hne Hin. apply in_map_iff in Hin. destruct Hin as [w [Hw _]]. unfold subst_val in Hw.
  destruct (val_eqb w old) eqn:E; try congruence. subst. rewrite val_eqb_refl in E. discriminate.
Qed.


(* what a step leaves: f mapped over the block, the class cn and some of its member operations (js) erased *)
Lemma inv_shrink : forall cn cids body f js b',
    extract_inv (nid cn :: cids) body -> In cn body -> is_class cn = true ->
    (forall n, nid (f n) = nid n /\ nname (f n) = nname n /\ nmci (f n) = nmci n) ->
    (forall n, In n body -> is_class n = true -> nid n <> nid cn -> nops (f n) = nops n) ->
    (forall n j, In n body -> nid n <> nid cn -> In (VRes j) (nops (f n)) ->
                 In (VRes j) (nops n) \/ In (VRes j) (nops cn)) ->
    (forall j, In j js -> In (VRes j) (nops cn)) ->
    structural b' ->
    (forall n', In n' b' <-> In n' (map f body) /\ nid n' <> nid cn /\ ~ In (nid n') js) ->
    extract_inv cids b'.
Proof.
  intros cn cids body f js b' [[Hnd Ho] Hcin Hcnd Hcids Hmem Hch Hret] Hcn Hccl Hf Hfc Hfo Hjs Hs' Hchar.
  inversion Hcnd as [|? ? Hc_notin Hcnd']; subst.
  destruct (Hmem cn Hcn Hccl) as [_ Hmj].
  assert (Hin' : forall n', In n' b' -> exists n, In n body /\ n' = f n /\ nid n <> nid cn).
  { intros n' Hn'. apply Hchar in Hn'. destruct Hn' as [A [B _]]. apply in_map_iff in A.
    destruct A as [n [<- Hn]]. exists n. destruct (Hf n) as [Hid _]. rewrite Hid in B. auto. }
  assert (Hkeep : forall n, In n body -> nid n <> nid cn -> ~ plain n -> In (f n) b').
  { intros n Hn Hne Hnp. apply Hchar. destruct (Hf n) as [Hid _]. rewrite Hid.
    split; [apply in_map; exact Hn|]. split; [exact Hne|]. intro Hin. apply Hnp.
    destruct (Hmj _ (Hjs _ Hin)) as [Hp _]. apply (Hp n Hn eq_refl). }
  constructor; auto.
  - intros n' Hn' Hcl. destruct (Hin' n' Hn') as [n [Hn [-> Hne]]]. destruct (Hf n) as [Hid [Hnm _]].
    rewrite Hid. rewrite (is_class_name _ _ Hnm) in Hcl. destruct (Hcin n Hn Hcl) as [Hx|Hx]; auto. congruence.
  - intros c' Hc'. destruct (Hcids c' (or_intror Hc')) as [n' [Hn' [Hid' Hcl']]].
    exists (f n'). destruct (Hf n') as [Hid [Hnm _]].
    split; [|split; [congruence | rewrite (is_class_name _ _ Hnm); exact Hcl']]. apply Hkeep; auto.
    + intro Heq. apply Hc_notin. rewrite <- Heq, Hid'. exact Hc'.
    + intros [Hp _]. congruence.
  - intros cn1 Hcn1 Hcl1. destruct (Hin' cn1 Hcn1) as [cn' [Hcn' [-> Hne]]].
    destruct (Hf cn') as [Hid1 [Hnm1 _]]. rewrite (is_class_name _ _ Hnm1) in Hcl1.
    rewrite (Hfc cn' Hcn' Hcl1 Hne). destruct (Hmem cn' Hcn' Hcl1) as [Hnd' Hmj']. split; auto.
    intros j Hj. destruct (Hmj' j Hj) as [Hp' Hu']. split.
    + intros m1 Hm1 Hmid. destruct (Hin' m1 Hm1) as [m [Hm [-> _]]]. destruct (Hf m) as [Hidm [Hnmm _]].
      destruct (Hp' m Hm) as [P1 P2]; [congruence|].
      split; [rewrite (is_class_name _ _ Hnmm) | rewrite (is_ret_name _ _ Hnmm)]; assumption.
    + intros n1 Hn1 Hu1. destruct (Hin' n1 Hn1) as [n [Hn [-> Hnn]]]. destruct (Hf n) as [Hidn _].
      rewrite Hidn, Hid1. destruct (Hfo n j Hn Hnn Hu1) as [Hu|Hu]; [apply Hu'; auto|].
      (* a new use names a member of cn; j belongs to cn' only *)
      exfalso. apply Hne. symmetry. apply Hu'; auto.
  - intros cn1 Hcn1 Hcl1. destruct (Hin' cn1 Hcn1) as [cn' [Hcn' [-> Hne]]].
    destruct (Hf cn') as [_ [Hnm1 Hmci1]]. rewrite (is_class_name _ _ Hnm1) in Hcl1.
    rewrite (Hfc cn' Hcn' Hcl1 Hne), Hmci1. apply Hch; auto.
  - destruct Hret as [n0 [Hn0 Hr0]]. exists (f n0). destruct (Hf n0) as [_ [Hnm _]].
    split; [|rewrite (is_ret_name _ _ Hnm); exact Hr0]. apply Hkeep; auto.
    + intro Heq. assert (n0 = cn) by (eapply NoDup_nid_inj; eauto). subst n0.
      rewrite (class_not_ret _ Hccl) in Hr0. discriminate.
    + intros [_ Hp]. congruence.
Qed.

Lemma extract_step_total : forall c cids body,
    extract_inv (c :: cids) body -> exists b', extract_step c body = Ok b' /\ extract_inv cids b'.
Proof.
  intros c cids body Hinv. pose proof Hinv as [[Hnd Ho] Hcin Hcnd Hcids Hmem Hch Hret].
  destruct (Hcids c (or_introl eq_refl)) as [cn [Hcn [Hcid Hccl]]]. subst c.
  assert (Hfind : find_node (nid cn) body = Some cn) by (apply find_node_NoDup; auto).
  destruct (Hmem cn Hcn Hccl) as [Hndops Hmj].
  assert (Hself : ~ In (VRes (nid cn)) (nops cn)) by (apply (ordered_no_self_use body [] cn); auto).
  assert (Huniq : forall n, In n body -> nid n = nid cn -> n = cn).
  { intros n Hn He. eapply NoDup_nid_inj; eauto. }
  unfold extract_step. rewrite Hfind.
  destruct (has_uses (nid cn) body) eqn:Eu; simpl negb; cbn iota.
  - (* the class is used: the chosen member replaces it *)
    destruct (Hch cn Hcn Hccl) as [k [Hk Hkr]]. rewrite Hk.
    destruct (py_nth_in_range (nops cn) k Hkr) as [v [Hpy Hnth]]. rewrite Hpy.
    assert (Hv : In v (nops cn)) by (eapply nth_error_In; eauto).
    assert (Hvc : v <> VRes (nid cn)) by (intro; subst; auto).
    rewrite substituted_map. set (f := sub_node (nid cn) v).
    assert (Hops : forall n, nops (f n) = if nid n =? nid cn then nops n
                                          else map (subst_val (VRes (nid cn)) v) (nops n))
      by (intro n; apply sub_node_head).
    destruct (erase_class_and_members (nid cn) (owners (nops cn) 0 (Some k)) (map f body)) as [b' [He [Hs' Hchar]]].
    + split.
      * rewrite map_map. erewrite map_ext; [exact Hnd|]. intro n. apply sub_node_head.
      * unfold f. rewrite <- substituted_map. apply ordered_clear_cost.
        apply ordered_subst; [exact Ho | intros j _ [] | intros n Hn He; rewrite (Huniq n Hn He); exact Hv].
    + intros n1 Hn1 Hu. apply in_map_iff in Hn1. destruct Hn1 as [n [<- Hn]]. rewrite Hops in Hu.
      destruct (nid n =? nid cn) eqn:E.
      * apply Z.eqb_eq in E. rewrite (Huniq n Hn E) in Hu. auto.
      * revert Hu. apply no_subst_left. exact Hvc.
    + intros j n1 Hj Hn1 Hu. apply in_map_iff in Hn1. destruct Hn1 as [n [<- Hn]].
      destruct (owners_skip_neq (nops cn) 0 k j v Hndops) as [Hjv Hjin]; auto; try lia.
      { replace (k - 0) with k by lia. exact Hnth. }
      destruct (sub_node_head (nid cn) v n) as [Hid _]. fold f in Hid. rewrite Hid. rewrite Hops in Hu.
      destruct (Hmj j Hjin) as [_ Huse].
      destruct (nid n =? nid cn) eqn:E.
      * apply Z.eqb_eq in E. exact E.
      * apply in_map_subst in Hu. destruct Hu as [Hu|[Hu _]]; [apply Huse; auto | congruence].
    + exists b'. split; [exact He|].
      apply (inv_shrink cn cids body f (owners (nops cn) 0 (Some k)) b'); auto.
      * intro n. destruct (sub_node_head (nid cn) v n) as [A [B [C _]]]. auto.
      * (* no member of another class is the class cn *)
        intros n Hn Hcl Hne. rewrite Hops. destruct (nid n =? nid cn); auto. apply map_subst_id. intro Hin.
        destruct (Hmem n Hn Hcl) as [_ Hn']. destruct (Hn' _ Hin) as [Hp _].
        destruct (Hp cn Hcn eq_refl) as [Hp1 _]. congruence.
      * intros n j Hn Hne Hu. rewrite Hops in Hu. destruct (nid n =? nid cn); auto.
        apply in_map_subst in Hu. destruct Hu as [Hu|[Hu _]]; auto. right. rewrite Hu. exact Hv.
      * intros j Hj. eapply owners_In; eauto.
  - (* the class is unused: it is erased with all its member operations *)
    apply has_uses_false in Eu.
    destruct (erase_class_and_members (nid cn) (owners (nops cn) 0 None) body) as [b' [He [Hs' Hchar]]]; auto.
    + split; auto.
    + intros j n Hj Hn Hu. apply owners_In in Hj. destruct (Hmj j Hj) as [_ Huse]. auto.
    + exists b'. split; [exact He|].
      apply (inv_shrink cn cids body (fun n => n) (owners (nops cn) 0 None) b'); auto.
      * intros j Hj. eapply owners_In; eauto.
      * rewrite map_id. exact Hchar.
Qed.

Lemma extract_loop_total : forall cids body,
    extract_inv cids body -> exists b', extract_loop cids body = Ok b' /\ extract_inv [] b'.
Proof.
  induction cids as [|c r IH]; intros body Hinv; simpl.
  - exists body. auto.
  - destruct (extract_step_total c r body Hinv) as [b1 [He Hi]]. rewrite He. apply IH. exact Hi.
Qed.

Lemma wf_inv : forall body, wf_egraph body -> extract_inv (rev (class_ids body)) body.
Proof.
  intros body [[Hnd Ho] [Hm [Hc Hr]]]. constructor; auto.
  - split; auto.
  - intros n Hn Hcl. apply -> in_rev. unfold class_ids. apply in_map. apply filter_In. auto.
  - apply NoDup_rev. unfold class_ids. clear -Hnd. induction body as [|n r IH]; simpl; [constructor|].
    inversion Hnd as [|? ? Hni Hnd']; subst. destruct (is_class n); simpl; auto. constructor; auto.
    intro Hin. apply Hni. apply in_map_iff in Hin. destruct Hin as [m [Hm Hin]].
    apply filter_In in Hin. rewrite <- Hm. apply in_map. tauto.
  - intros c Hc'. apply in_rev in Hc'. unfold class_ids in Hc'. apply in_map_iff in Hc'.
    destruct Hc' as [n [Hn Hin]]. apply filter_In in Hin. exists n. tauto.
Qed.

(* C28_extract_total: a well-formed e-graph in definition-before-use order in which every class has a
   min_cost_index is extracted without exception into an executable block without e-classes *)
Theorem extract_total : forall sem args g,
    wf_egraph (p_body g) ->
    exists p' rs, extract g = Ok p' /\ (forall n, In n (p_body p') -> is_class n = false) /\
                  eval sem args p' = Some rs.
Proof.
  intros sem args g Hwf. destruct (extract_loop_total _ _ (wf_inv _ Hwf)) as [b' [He Hi]].
  destruct Hi as [[Hnd Ho] Hcin _ _ _ _ Hret].
  assert (Hnc : forall n, In n b' -> is_class n = false).
  { intros n Hn. destruct (is_class n) eqn:E; auto. destruct (Hcin n Hn E). }
  destruct (eval_total sem args b' [] [] Ho Hnc Hret) as [rs Hrs]. { intros j []. }
  exists (Prog (p_nargs g) b'), rs. unfold extract. rewrite He. split; auto.
Qed.
