(* C04/ProofsStr.v -- facts about printed names: decimal rendering, the uniquifying suffix, the suffix
   stripping of extract_valid_name, default block names, lexability. *)
From Coq Require Import ZArith List Bool Arith Lia.
From Coq Require Decimal DecimalNat DecimalFacts.
From XV Require Import C04.Model.
Import ListNotations.
Global Arguments dec : simpl never.
Global Arguments strip1 : simpl never.

Lemma str_eqb_eq : forall a b, str_eqb a b = true <-> a = b.
Proof.
  induction a as [|x a IH]; destruct b as [|y b]; cbn; split; intro H; try congruence; try reflexivity.
  - apply andb_true_iff in H. destruct H as [H1 H2]. apply Z.eqb_eq in H1. apply IH in H2. congruence.
  - inversion H; subst. rewrite Z.eqb_refl. cbn. apply IH. reflexivity.
Qed.
Lemma str_eqb_refl : forall a, str_eqb a a = true.
Proof. intro a. apply str_eqb_eq. reflexivity. Qed.
Lemma str_eqb_neq : forall a b, str_eqb a b = false <-> a <> b.
Proof.
  intros a b. split; intro H.
  - intro E. apply str_eqb_eq in E. congruence.
  - destruct (str_eqb a b) eqn:E; [apply str_eqb_eq in E; contradiction|reflexivity].
Qed.

Lemma lookup_None : forall {A} k (l : list (str * A)), lookup k l = None <-> ~ In k (map fst l).
Proof.
  induction l as [|[k' a] l IH]; cbn.
  - tauto.
  - destruct (str_eqb k k') eqn:E.
    + apply str_eqb_eq in E. subst. split; [discriminate|intro H; exfalso; apply H; now left].
    + apply str_eqb_neq in E. rewrite IH. split; intro H.
      * intros [H1|H1]; [congruence|contradiction].
      * intro H1. apply H. now right.
Qed.
Lemma lookup_In : forall {A} k (a : A) l, lookup k l = Some a -> In (k, a) l.
Proof.
  induction l as [|[k' a'] l IH]; cbn; [discriminate|].
  destruct (str_eqb k k') eqn:E; intro H.
  - apply str_eqb_eq in E. inversion H; subst. now left.
  - right. auto.
Qed.
Lemma remove_str_In : forall k n l, In n (remove_str k l) <-> In n l /\ n <> k.
Proof.
  induction l as [|x l IH]; cbn; [tauto|].
  destruct (str_eqb k x) eqn:E.
  - apply str_eqb_eq in E. subst. rewrite IH. split; [tauto|]. intros [[H|H] N]; [congruence|tauto].
  - apply str_eqb_neq in E. cbn. rewrite IH. split.
    + intros [H|[H1 H2]]; [subst; split; [now left|congruence]|tauto].
    + intros [[H|H] N]; [now left|right; tauto].
Qed.

Lemma lookupZ_None : forall {A} k (l : list (Z * A)), lookupZ k l = None <-> ~ In k (map fst l).
Proof.
  induction l as [|[k' a] l IH]; cbn.
  - tauto.
  - destruct (Z.eqb k k') eqn:E.
    + apply Z.eqb_eq in E. subst. split; [discriminate|intro H; exfalso; apply H; now left].
    + apply Z.eqb_neq in E. rewrite IH. split; intro H.
      * intros [H1|H1]; [congruence|contradiction].
      * intro H1. apply H. now right.
Qed.
Lemma lookupZ_In : forall {A} k (a : A) l, lookupZ k l = Some a -> In (k, a) l.
Proof.
  induction l as [|[k' a'] l IH]; cbn; [discriminate|].
  destruct (Z.eqb k k') eqn:E; intro H.
  - apply Z.eqb_eq in E. inversion H; subst. now left.
  - right. auto.
Qed.
Lemma lookupZ_Some_dom : forall {A} k (a : A) l, lookupZ k l = Some a -> In k (map fst l).
Proof. intros A k a l H. apply lookupZ_In in H. apply (in_map fst) in H. exact H. Qed.

Fixpoint str_uint (s : str) : Decimal.uint :=
  match s with
  | [] => Decimal.Nil
  | c :: t =>
      match (c - 48)%Z with
      | 0%Z => Decimal.D0 (str_uint t) | 1%Z => Decimal.D1 (str_uint t) | 2%Z => Decimal.D2 (str_uint t)
      | 3%Z => Decimal.D3 (str_uint t) | 4%Z => Decimal.D4 (str_uint t) | 5%Z => Decimal.D5 (str_uint t)
      | 6%Z => Decimal.D6 (str_uint t) | 7%Z => Decimal.D7 (str_uint t) | 8%Z => Decimal.D8 (str_uint t)
      | _ => Decimal.D9 (str_uint t)
      end
  end.
Lemma str_uint_str : forall u, str_uint (uint_str u) = u.
Proof. induction u; cbn; congruence. Qed.
Lemma uint_str_inj : forall u v, uint_str u = uint_str v -> u = v.
Proof. intros u v H. rewrite <- (str_uint_str u), <- (str_uint_str v), H. reflexivity. Qed.
Lemma uint_str_digits : forall u, forallb is_digit (uint_str u) = true.
Proof. induction u; cbn; auto. Qed.

Lemma dec_inj : forall n m, dec n = dec m -> n = m.
Proof. intros n m H. apply uint_str_inj in H. apply DecimalNat.Unsigned.to_uint_inj. exact H. Qed.
Lemma dec_digits : forall n, forallb is_digit (dec n) = true.
Proof. intro n. apply uint_str_digits. Qed.
Lemma dec_nonempty : forall n, dec n <> [].
Proof.
  intros n H. unfold dec in H.
  assert (E : Nat.to_uint n <> Decimal.Nil).
  { rewrite <- (DecimalNat.Unsigned.of_to n) at 1. rewrite DecimalNat.Unsigned.to_of.
    apply DecimalFacts.unorm_nonnil. }
  destruct (Nat.to_uint n); cbn in H; try discriminate. contradiction.
Qed.
Lemma dec_head_digit : forall n, exists c t, dec n = c :: t /\ is_digit c = true /\ forallb is_digit t = true.
Proof.
  intro n. pose proof (dec_nonempty n) as H1. pose proof (dec_digits n) as H2.
  destruct (dec n) as [|c t]; [contradiction|]. cbn in H2. apply andb_true_iff in H2.
  exists c, t. tauto.
Qed.

Lemma take_drop_while : forall {A} (f : A -> bool) l, take_while f l ++ drop_while f l = l.
Proof. induction l as [|x l IH]; cbn; [reflexivity|]. destruct (f x); cbn; [f_equal; exact IH|reflexivity]. Qed.
Lemma take_while_app_stop : forall {A} (f : A -> bool) a x b,
  forallb f a = true -> f x = false -> take_while f (a ++ x :: b) = a.
Proof.
  induction a as [|y a IH]; cbn; intros x b Ha Hx.
  - rewrite Hx. reflexivity.
  - apply andb_true_iff in Ha. destruct Ha as [H1 H2]. rewrite H1. f_equal. apply IH; assumption.
Qed.
Lemma drop_while_app_stop : forall {A} (f : A -> bool) a x b,
  forallb f a = true -> f x = false -> drop_while f (a ++ x :: b) = x :: b.
Proof.
  induction a as [|y a IH]; cbn; intros x b Ha Hx.
  - rewrite Hx. reflexivity.
  - apply andb_true_iff in Ha. destruct Ha as [H1 H2]. rewrite H1. apply IH; assumption.
Qed.
Lemma forallb_rev : forall {A} (f : A -> bool) l, forallb f (rev l) = forallb f l.
Proof.
  induction l as [|x l IH]; cbn; [reflexivity|].
  rewrite forallb_app. cbn. rewrite IH. rewrite andb_true_r. apply andb_comm.
Qed.

Lemma strip1_suffix : forall h k, strip1 (h ++ 95%Z :: dec k) = h.
Proof.
  intros h k. unfold strip1. rewrite rev_app_distr. cbn [rev]. rewrite <- app_assoc. cbn [app].
  assert (Hd : forallb is_digit (rev (dec k)) = true) by (rewrite forallb_rev; apply dec_digits).
  rewrite take_while_app_stop by (auto; reflexivity).
  rewrite drop_while_app_stop by (auto; reflexivity).
  destruct (rev (dec k)) eqn:E.
  - exfalso. apply (dec_nonempty k). rewrite <- (rev_involutive (dec k)). rewrite E. reflexivity.
  - cbn. apply rev_involutive.
Qed.

(* a name without a trailing _<digits> group *)
Definition sfree (s : str) : Prop := strip1 s = s.

Lemma strip1_shorter_or_same : forall s, strip1 s = s \/ length (strip1 s) < length s.
Proof.
  intro s. unfold strip1.
  destruct (take_while is_digit (rev s)) as [|d ds] eqn:Et; [now left|].
  destruct (drop_while is_digit (rev s)) as [|x rest] eqn:Ed; [now left|].
  destruct (Z.eqb_spec x 95) as [Hx|Hx]; [|now left].
  subst x. right.
  pose proof (take_drop_while is_digit (rev s)) as H. rewrite Et, Ed in H.
  apply (f_equal (@length Z)) in H. rewrite rev_length in H. rewrite app_length in H. cbn in H.
  rewrite rev_length. lia.
Qed.
Lemma strip1_length : forall s, length (strip1 s) <= length s.
Proof. intro s. destruct (strip1_shorter_or_same s) as [H|H]; [rewrite H|]; lia. Qed.

Lemma sfree_no_suffix : forall h k, ~ sfree (h ++ 95%Z :: dec k).
Proof.
  intros h k H. unfold sfree in H. rewrite strip1_suffix in H.
  apply (f_equal (@length Z)) in H. rewrite app_length in H. cbn in H. lia.
Qed.

Lemma render_inj : forall h1 k1 h2 k2, sfree h1 -> sfree h2 ->
  render h1 k1 = render h2 k2 -> h1 = h2 /\ k1 = k2.
Proof.
  intros h1 k1 h2 k2 F1 F2 H. destruct k1 as [|k1], k2 as [|k2]; cbn [render] in H.
  - tauto.
  - subst h1. exfalso. exact (sfree_no_suffix _ _ F1).
  - subst h2. exfalso. exact (sfree_no_suffix _ _ F2).
  - assert (E : h1 = h2).
    { rewrite <- (strip1_suffix h1 (S k1)), <- (strip1_suffix h2 (S k2)). rewrite H. reflexivity. }
    subst h2. apply app_inv_head in H. inversion H as [H1]. apply dec_inj in H1. tauto.
Qed.

Lemma strip_n_fix : forall f s, strip1 s = s -> strip_n f s = s.
Proof.
  destruct f; cbn [strip_n]; intros s H; [reflexivity|]. rewrite H. rewrite Nat.ltb_irrefl. reflexivity.
Qed.
Lemma strip_n_sfree : forall f s, length s <= f -> sfree (strip_n f s).
Proof.
  induction f as [|f IH]; intros s Hl.
  - destruct s; [|cbn in Hl; lia]. cbn. reflexivity.
  - cbn [strip_n]. destruct (length (strip1 s) <? length s) eqn:E.
    + apply Nat.ltb_lt in E. apply IH. lia.
    + apply Nat.ltb_ge in E. destruct (strip1_shorter_or_same s) as [H|H]; [exact H|lia].
Qed.
Lemma strip_all_sfree : forall s, sfree (strip_all s).
Proof. intro s. apply strip_n_sfree. lia. Qed.
Lemma strip_n_step : forall f s, length s <= f -> length (strip1 s) < length s ->
  strip_n (S f) s = strip_n f (strip1 s).
Proof. intros f s _ H. cbn [strip_n]. apply Nat.ltb_lt in H. rewrite H. reflexivity. Qed.
Lemma strip_n_more : forall f g s, length s <= f -> length s <= g -> strip_n f s = strip_n g s.
Proof.
  induction f as [|f IH]; intros g s Hf Hg.
  - destruct s; [|cbn in Hf; lia]. destruct g; cbn; reflexivity.
  - destruct g as [|g].
    + destruct s; [|cbn in Hg; lia]. cbn. reflexivity.
    + cbn [strip_n]. destruct (length (strip1 s) <? length s) eqn:E; [|reflexivity].
      apply Nat.ltb_lt in E. apply IH; lia.
Qed.
Lemma strip_all_suffix : forall h k, sfree h -> strip_all (h ++ 95%Z :: dec k) = h.
Proof.
  intros h k F. unfold strip_all.
  remember (h ++ 95%Z :: dec k) as s eqn:Es.
  destruct (length s) as [|n] eqn:El.
  - subst s. rewrite app_length in El. cbn in El. lia.
  - cbn [strip_n]. subst s. rewrite strip1_suffix.
    assert (Hl : length h <? length (h ++ 95%Z :: dec k) = true).
    { apply Nat.ltb_lt. rewrite app_length. cbn. lia. }
    rewrite Hl. apply strip_n_fix. exact F.
Qed.
Lemma strip_all_fix : forall h, sfree h -> strip_all h = h.
Proof. intros h F. apply strip_n_fix. exact F. Qed.

Lemma strip_render : forall c h k, sfree h -> strip c (render h k) = h.
Proof.
  intros c h k F. unfold strip. destruct k as [|k]; cbn [render].
  - destruct (fx_strip_all c); [apply strip_all_fix; exact F|exact F].
  - destruct (fx_strip_all c); [apply strip_all_suffix; exact F|apply strip1_suffix].
Qed.

Definition good_hint (h : str) : Prop := valid_name h = true /\ sfree h.

Lemma is_digit_range : forall c, is_digit c = true -> (48 <= c <= 57)%Z.
Proof. intros c H. apply andb_true_iff in H. destruct H as [H1 H2]. apply Z.leb_le in H1, H2. tauto. Qed.
Lemma is_alpha_range : forall c, is_alpha c = true -> (65 <= c <= 122)%Z.
Proof.
  intros c H. apply orb_true_iff in H. destruct H as [H|H]; apply andb_true_iff in H; destruct H as [H1 H2];
    apply Z.leb_le in H1, H2; lia.
Qed.
Lemma is_punct_cases : forall c, is_punct c = true -> (c = 36 \/ c = 46 \/ c = 95 \/ c = 45)%Z.
Proof. intros c H. unfold is_punct in H. rewrite !orb_true_iff, !Z.eqb_eq in H. tauto. Qed.
Lemma id_cont_range : forall c, id_cont c = true -> (36 <= c <= 122)%Z.
Proof.
  intros c H. unfold id_cont in H. rewrite !orb_true_iff in H. destruct H as [[H|H]|H].
  - apply is_alpha_range in H. lia.
  - apply is_digit_range in H. lia.
  - apply is_punct_cases in H. lia.
Qed.

Lemma is_digit_not_start : forall c, is_digit c = true -> id_start c = false.
Proof.
  intros c H. apply is_digit_range in H. destruct (id_start c) eqn:E; [exfalso|reflexivity].
  apply orb_true_iff in E. destruct E as [E|E]; [apply is_alpha_range in E|apply is_punct_cases in E]; lia.
Qed.
Lemma is_digit_cont : forall c, is_digit c = true -> id_cont c = true.
Proof. intros c H. unfold id_cont. rewrite H. rewrite orb_true_r. reflexivity. Qed.
Lemma id_start_cont : forall c, id_start c = true -> id_cont c = true.
Proof.
  intros c H. apply orb_true_iff in H. unfold id_cont. destruct H as [H|H]; rewrite H; [reflexivity|apply orb_true_r].
Qed.
Lemma forallb_digit_cont : forall l, forallb is_digit l = true -> forallb id_cont l = true.
Proof.
  induction l as [|x l IH]; cbn; [reflexivity|]. intro H. apply andb_true_iff in H. destruct H.
  rewrite is_digit_cont by assumption. cbn. auto.
Qed.

Lemma valid_render : forall h k, valid_name h = true -> valid_name (render h k) = true.
Proof.
  intros h k H. destruct k as [|k]; [exact H|]. cbn [render].
  destruct h as [|c t]; [discriminate|]. cbn in *. apply andb_true_iff in H. destruct H as [H1 H2].
  rewrite H1. cbn. rewrite forallb_app. rewrite H2. cbn.
  rewrite forallb_digit_cont by apply dec_digits. reflexivity.
Qed.
Lemma valid_dec : forall n, valid_name (dec n) = false.
Proof.
  intro n. destruct (dec_head_digit n) as [c [t [E [H1 H2]]]]. rewrite E. cbn.
  rewrite is_digit_not_start by exact H1. reflexivity.
Qed.
Lemma valid_lexable : forall h, valid_name h = true -> lexable h = true.
Proof. intros [|c t] H; [discriminate|]. cbn in *. rewrite H. apply orb_true_r. Qed.
Lemma lexable_dec : forall n, lexable (dec n) = true.
Proof.
  intro n. destruct (dec_head_digit n) as [c [t [E [H1 H2]]]]. rewrite E. cbn. rewrite H1, H2. reflexivity.
Qed.
Lemma lexable_bb : forall i, lexable (bb_name i) = true.
Proof.
  intro i. unfold bb_name. cbn. rewrite forallb_digit_cont by apply dec_digits. reflexivity.
Qed.

Lemma dec_neq_render : forall n h k, valid_name h = true -> dec n <> render h k.
Proof.
  intros n h k H E. pose proof (valid_render h k H) as V. rewrite <- E in V. rewrite valid_dec in V. discriminate.
Qed.

Lemma is_default_bb : forall i, is_default (bb_name i) = true.
Proof.
  intro i. unfold bb_name, is_default. destruct (dec_head_digit i) as [c [t [E [H1 H2]]]]. rewrite E.
  cbn. rewrite H1, H2. reflexivity.
Qed.
Lemma bb_name_inj : forall i j, bb_name i = bb_name j -> i = j.
Proof. intros i j H. inversion H as [H1]. apply dec_inj in H1. exact H1. Qed.

Lemma is_digit_95 : is_digit 95%Z = false. Proof. reflexivity. Qed.

Lemma is_default_no95 : forall s, is_default s = true -> ~ In 95%Z s.
Proof.
  intros s H I. destruct s as [|a [|b [|c t]]]; cbn in H; try discriminate.
  apply andb_true_iff in H. destruct H as [H H3]. apply andb_true_iff in H. destruct H as [H1 H2].
  apply Z.eqb_eq in H1. apply Z.eqb_eq in H2. subst a b.
  destruct I as [I|[I|I]]; try discriminate.
  change (forallb is_digit (c :: t) = true) in H3.
  rewrite forallb_forall in H3. apply H3 in I. discriminate.
Qed.
Lemma is_default_render : forall h k, is_default h = false -> is_default (render h k) = false.
Proof.
  intros h k H. destruct k as [|k]; [exact H|]. cbn [render].
  destruct (is_default (h ++ 95%Z :: dec (S k))) eqn:E; [|reflexivity].
  exfalso. apply (is_default_no95 _ E). apply in_or_app. right. now left.
Qed.
Lemma bb_neq_render : forall i h k, is_default h = false -> bb_name i <> render h k.
Proof.
  intros i h k H E. pose proof (is_default_render h k H) as D. rewrite <- E in D.
  rewrite is_default_bb in D. discriminate.
Qed.

Lemma val_hint_render : forall c h k, good_hint h -> val_hint c (render h k) = Some h.
Proof.
  intros c h k [V F]. unfold val_hint. rewrite valid_render by exact V. rewrite strip_render by exact F. reflexivity.
Qed.
Lemma val_hint_dec : forall c n, val_hint c (dec n) = None.
Proof. intros c n. unfold val_hint. rewrite valid_dec. reflexivity. Qed.
Lemma blk_hint_render : forall c h k, good_hint h -> is_default h = false -> blk_hint c (render h k) = Some h.
Proof.
  intros c h k [V F] D. unfold blk_hint. rewrite valid_render by exact V.
  rewrite is_default_render by exact D. cbn. rewrite strip_render by exact F. reflexivity.
Qed.
Lemma blk_hint_bb : forall c i, blk_hint c (bb_name i) = None.
Proof. intros c i. unfold blk_hint. rewrite is_default_bb. rewrite andb_false_r. reflexivity. Qed.

Lemma valid_prefix : forall a b, valid_name (a ++ b) = true -> a <> [] -> valid_name a = true.
Proof.
  intros [|c t] b H N; [contradiction|]. cbn in *. apply andb_true_iff in H. destruct H as [H1 H2].
  rewrite H1. rewrite forallb_app in H2. apply andb_true_iff in H2. tauto.
Qed.
Lemma strip1_prefix : forall s, exists r, s = strip1 s ++ r.
Proof.
  intro s. unfold strip1.
  destruct (take_while is_digit (rev s)) as [|d ds] eqn:Et; [exists []; now rewrite app_nil_r|].
  destruct (drop_while is_digit (rev s)) as [|x rest] eqn:Ed; [exists []; now rewrite app_nil_r|].
  destruct (Z.eqb_spec x 95) as [Hx|Hx]; [|exists []; now rewrite app_nil_r].
  subst x. pose proof (take_drop_while is_digit (rev s)) as H. rewrite Et, Ed in H.
  exists (95%Z :: rev (d :: ds)).
  rewrite <- (rev_involutive s) at 1. rewrite <- H. rewrite rev_app_distr. cbn [rev].
  rewrite <- app_assoc. cbn. reflexivity.
Qed.
Lemma strip_n_prefix : forall f s, exists r, s = strip_n f s ++ r.
Proof.
  induction f as [|f IH]; intro s; cbn [strip_n].
  - exists []. now rewrite app_nil_r.
  - destruct (length (strip1 s) <? length s).
    + destruct (IH (strip1 s)) as [r Hr]. destruct (strip1_prefix s) as [r' Hr'].
      exists (r ++ r'). rewrite app_assoc. rewrite <- Hr. exact Hr'.
    + exists []. now rewrite app_nil_r.
Qed.
(* with the repaired suffix rule every hint the API stores is good (or empty) *)
Lemma stored_good : forall c raw h, fx_strip_all c = true -> store_hint c raw = Some h -> h <> [] -> good_hint h.
Proof.
  intros c raw h Hc H N. unfold store_hint in H. destruct (valid_name raw) eqn:V; [|discriminate].
  inversion H as [H1]. unfold strip. rewrite Hc. split.
  - destruct (strip_n_prefix (length raw) raw) as [r Hr]. unfold strip_all.
    apply (valid_prefix _ r).
    + rewrite <- Hr. exact V.
    + unfold strip, strip_all in H1. rewrite Hc in H1. rewrite H1. exact N.
  - apply strip_all_sfree.
Qed.
Lemma good_lexable_render : forall h k, good_hint h -> lexable (render h k) = true.
Proof. intros h k [V _]. apply valid_lexable. apply valid_render. exact V. Qed.
