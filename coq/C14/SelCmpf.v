(* C14/SelCmpf.v -- SelectFoldCmpfPattern (xdsl/transforms/canonicalization_patterns/arith.py):
     %c = arith.cmpf P, %a, %b fastmath<nnan,nsz,...>      %s = arith.select %c, %x, %y
   becomes arith.maximumf %x, %y (P in ogt oge ugt uge) / arith.minimumf %x, %y (P in olt ole ult ule),
   only when the compare carries BOTH nnan and nsz and the select operands are the compare operands IN THE
   SAME ORDER (x is a, y is b).  Hand-written model (the pattern is a chain of isinstance / membership tests and a
   `match` on the predicate), the specification of cmpf / maximumf / minimumf on spec_floats, and the proof
   that under the fastmath contract (no NaN inputs, the sign of a zero result is irrelevant) the rewrite
   preserves the value.  Correspondence-checked against the real pattern by harness family select-cmpf-pattern. *)
From Coq Require Import ZArith Bool SpecFloat Lia.
Local Open Scope Z_scope.

Inductive sc_out := SCNoChange | SCMax | SCMin.

(* is_cmpf    : op.cond is the result of an arith.cmpf
   nnan, nsz  : FastMathFlag.NO_NANS / NO_SIGNED_ZEROS in cmpf.fastmath
   same_order : op.lhs == cmpf.lhs and op.rhs == cmpf.rhs *)
Definition pat_select_fold_cmpf (is_cmpf nnan nsz same_order : bool) (pred : Z) : sc_out :=
  if negb is_cmpf then SCNoChange
  else if negb nnan || negb nsz then SCNoChange
  else if negb same_order then SCNoChange
  else if (pred =? 2) || (pred =? 3) || (pred =? 9) || (pred =? 10) then SCMax
  else if (pred =? 4) || (pred =? 5) || (pred =? 11) || (pred =? 12) then SCMin
  else SCNoChange.

(* specification: arith.cmpf (16 predicates), arith.maximumf / minimumf (NaN-propagating, -0 < +0) *)
Definition is_cmp (c : option comparison) (k : comparison) : bool :=
  match c, k with
  | Some Eq, Eq | Some Lt, Lt | Some Gt, Gt => true
  | _, _ => false
  end.
Definition cmpf_sem (pred : Z) (x y : spec_float) : option bool :=
  let c := SFcompare x y in
  let un := match c with None => true | _ => false end in
  let lt := is_cmp c Lt in let eq := is_cmp c Eq in let gt := is_cmp c Gt in
  match pred with
  | 0 => Some false | 1 => Some eq | 2 => Some gt | 3 => Some (gt || eq) | 4 => Some lt | 5 => Some (lt || eq)
  | 6 => Some (lt || gt) | 7 => Some (negb un) | 8 => Some (eq || un) | 9 => Some (gt || un)
  | 10 => Some (gt || eq || un) | 11 => Some (lt || un) | 12 => Some (lt || eq || un)
  | 13 => Some (lt || gt || un) | 14 => Some un | 15 => Some true
  | _ => None
  end.
Definition maximumf_sem (x y : spec_float) : spec_float :=
  match SFcompare x y with
  | None => S754_nan
  | Some Gt => x
  | Some Lt => y
  | Some Eq => match x, y with S754_zero sx, S754_zero sy => S754_zero (sx && sy) | _, _ => x end
  end.
Definition minimumf_sem (x y : spec_float) : spec_float :=
  match SFcompare x y with
  | None => S754_nan
  | Some Gt => y
  | Some Lt => x
  | Some Eq => match x, y with S754_zero sx, S754_zero sy => S754_zero (sx || sy) | _, _ => x end
  end.
Definition fselect_sem (c : bool) (x y : spec_float) : spec_float := if c then x else y.

(* equality up to the sign of a zero (the nsz contract) *)
Definition nsz_eq (u v : spec_float) : Prop :=
  u = v \/ (exists s t, u = S754_zero s /\ v = S754_zero t).

Lemma SFcompare_none : forall x y, SFcompare x y = None -> x = S754_nan \/ y = S754_nan.
Proof.
  intros x y H. destruct x as [s | s | | s m e]; destruct y as [t | t | | t n f]; cbn in H;
    try discriminate; auto.
Qed.

Lemma SFcompare_eq : forall x y, SFcompare x y = Some Eq ->
  x = y \/ (exists s t, x = S754_zero s /\ y = S754_zero t).
Proof.
  intros x y H. destruct x as [s | s | | s m e]; destruct y as [t | t | | t n f]; cbn in H;
    try discriminate;
    try (match type of H with Some (if ?b then _ else _) = Some Eq => destruct b; discriminate H end).
  - right. exists s, t. split; reflexivity.
  - destruct s, t; try discriminate H; left; reflexivity.
  - left. destruct s, t; try discriminate H.
    + destruct (e ?= f) eqn:E; try discriminate. apply Z.compare_eq in E. subst f.
      injection H as H. destruct (Pos.compare_cont Eq m n) eqn:P; try discriminate.
      apply Pos.compare_eq in P. subst. reflexivity.
    + destruct (e ?= f) eqn:E; try discriminate. apply Z.compare_eq in E. subst f.
      injection H as H. apply Pos.compare_eq in H. subst. reflexivity.
Qed.

Lemma nsz_eq_refl : forall u, nsz_eq u u. Proof. intros u. left. reflexivity. Qed.

Lemma max_eq_case : forall x y, SFcompare x y = Some Eq -> nsz_eq x (maximumf_sem x y) /\ nsz_eq y (maximumf_sem x y).
Proof.
  intros x y H. unfold maximumf_sem. rewrite H.
  destruct (SFcompare_eq x y H) as [-> | (s & t & -> & ->)].
  - destruct y as [t | t | | t n f]; split; try apply nsz_eq_refl; right; exists t, (t && t); split; reflexivity.
  - split; right; [exists s, (s && t) | exists t, (s && t)]; split; reflexivity.
Qed.
Lemma min_eq_case : forall x y, SFcompare x y = Some Eq -> nsz_eq x (minimumf_sem x y) /\ nsz_eq y (minimumf_sem x y).
Proof.
  intros x y H. unfold minimumf_sem. rewrite H.
  destruct (SFcompare_eq x y H) as [-> | (s & t & -> & ->)].
  - destruct y as [t | t | | t n f]; split; try apply nsz_eq_refl; right; exists t, (t || t); split; reflexivity.
  - split; right; [exists s, (s || t) | exists t, (s || t)]; split; reflexivity.
Qed.

(* the rewrite preserves the selected value, for non-NaN operands, up to the sign of a zero *)
Theorem select_fold_cmpf_sound : forall is_cmpf nnan nsz pred x y b,
  x <> S754_nan -> y <> S754_nan -> cmpf_sem pred x y = Some b ->
  match pat_select_fold_cmpf is_cmpf nnan nsz true pred with
  | SCNoChange => True
  | SCMax => nsz_eq (fselect_sem b x y) (maximumf_sem x y)
  | SCMin => nsz_eq (fselect_sem b x y) (minimumf_sem x y)
  end.
Proof.
  intros is_cmpf nnan nsz pred x y b Hx Hy Hc. unfold pat_select_fold_cmpf.
  destruct (negb is_cmpf); [exact I|]. destruct (negb nnan || negb nsz); [exact I|]. cbn [negb].
  destruct (SFcompare x y) as [c|] eqn:E.
  2:{ destruct (SFcompare_none x y E); contradiction. }
  pose proof (max_eq_case x y) as MX. pose proof (min_eq_case x y) as MN.
  destruct ((pred =? 2) || (pred =? 3) || (pred =? 9) || (pred =? 10)) eqn:G.
  - assert (P : pred = 2 \/ pred = 3 \/ pred = 9 \/ pred = 10) by lia.
    unfold maximumf_sem in *. unfold cmpf_sem in Hc. rewrite E in *.
    destruct P as [-> | [-> | [-> | ->]]]; cbn in Hc; injection Hc as <-;
      destruct c; cbn; try apply nsz_eq_refl; apply MX; reflexivity.
  - destruct ((pred =? 4) || (pred =? 5) || (pred =? 11) || (pred =? 12)) eqn:G2; [|exact I].
    assert (P : pred = 4 \/ pred = 5 \/ pred = 11 \/ pred = 12) by lia.
    unfold minimumf_sem in *. unfold cmpf_sem in Hc. rewrite E in *.
    destruct P as [-> | [-> | [-> | ->]]]; cbn in Hc; injection Hc as <-;
      destruct c; cbn; try apply nsz_eq_refl; apply MN; reflexivity.
Qed.

(* the operand order matters: with the select operands swapped the same rewrite would be wrong *)
Lemma select_fold_cmpf_swapped_would_be_wrong :
  let x := S754_finite false 1 0 in let y := S754_finite false 1 1 in   (* 1.0 and 2.0 *)
  cmpf_sem 2 x y = Some false /\ fselect_sem false y x = x /\ maximumf_sem y x = y /\ ~ nsz_eq x y /\
  pat_select_fold_cmpf true true true false 2 = SCNoChange.
Proof.
  cbn. repeat split; try reflexivity.
  intros [H | (s & t & H & _)]; discriminate.
Qed.

(* without both flags, or on a non-cmpf condition, the op is left alone *)
Lemma select_fold_cmpf_guards : forall pred so,
  pat_select_fold_cmpf false true true so pred = SCNoChange /\
  pat_select_fold_cmpf true false true so pred = SCNoChange /\
  pat_select_fold_cmpf true true false so pred = SCNoChange /\
  pat_select_fold_cmpf true true true false pred = SCNoChange.
Proof. intros pred so. repeat split; reflexivity. Qed.
