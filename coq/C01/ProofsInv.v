(* C01/ProofsInv.v -- the auxiliary invariant `parents_ok` (parent pointers of live nodes point
   to allocated ids; needed by the creation calls, see ProofsCreate.v) is preserved by
   move_blocks / move_blocks_before, by drop_all_references and by Operation.erase / Block.erase_op /
   Rewriter.erase_op (frame lemmas `*_par` for the relation `par_rel` of ProofsCreate.v). *)
From Coq Require Import ZArith List Bool PArith FMapPositive Lia.
From XV Require Import C01.Model C01.Spec C01.ProofsBase C01.ProofsFrame C01.ProofsOps C01.ProofsBlocks
  C01.ProofsMove C01.ProofsCreate.
Import ListNotations.

Lemma set_parent_blocks_from_par : forall PB PO region fl cur,
  preserves (par_rel PB (eq region) PO) (set_parent_blocks_from fl cur region).
Proof.
  intros PB PO region fl. induction fl as [|f IH]; intros cur; simpl; pres (fr_par PB (eq region) PO).
Qed.
#[export] Hint Resolve set_parent_blocks_from_par : pres.

Lemma move_blocks_par : forall PB PO self region, preserves (par_rel PB (eq region) PO) (move_blocks self region).
Proof. intros. unfold move_blocks. pres (fr_par PB (eq region) PO). Qed.

Lemma bind_getB : forall {A} (f : block_rec -> M A) b s x, PM.find b (s_blocks s) = Some x ->
  bind (getB b) f s = f x s.
Proof. intros A f b s x F. unfold bind, getB. rewrite F. reflexivity. Qed.

(* move_blocks_before reads the destination region from the target block *)
Lemma move_blocks_before_parents_ok : forall self target s s' r tx region,
  WF s -> parents_ok s -> PM.find target (s_blocks s) = Some tx -> b_parent tx = Some region -> reg_live s region ->
  move_blocks_before self target s = (s', r) -> parents_ok s'.
Proof.
  intros self target s s' r tx region W PO F P RL H.
  unfold move_blocks_before in H. rewrite (bind_getB _ _ _ _ F) in H. cbv beta zeta in H. rewrite P in H.
  (* the program whose frame is asked for is read off H *)
  refine (parents_ok_by_region _ region s s' r _ W PO RL H).
  destruct (opt_eqb (Some region) (Some self)); pres (fr_par nobody (eq region) nobody).
Qed.

Lemma move_blocks_parents_ok : forall self region s s' r,
  WF s -> parents_ok s -> reg_live s region -> move_blocks self region s = (s', r) -> parents_ok s'.
Proof.
  intros self region s s' r W PO RL H.
  eapply (parents_ok_by_region (move_blocks self region) region); eauto. apply move_blocks_par.
Qed.

Lemma drop_all_par : forall PB PR PO fuel,
  (forall o, preserves (par_rel PB PR PO) (op_drop_all_references fuel o)) /\
  (forall r, preserves (par_rel PB PR PO) (region_drop_all_references fuel r)) /\
  (forall c, preserves (par_rel PB PR PO) (blocks_drop_from fuel c)) /\
  (forall b, preserves (par_rel PB PR PO) (block_drop_all_references fuel b)) /\
  (forall c, preserves (par_rel PB PR PO) (ops_drop_from fuel c)).
Proof.
  intros PB PR PO fuel. induction fuel as [|f (IH1 & IH2 & IH3 & IH4 & IH5)].
  - split; [|split; [|split; [|split]]]; intro; simpl; apply (pres_raise _ (fr_par PB PR PO)).
  - (* the frame tactic walks through each body; what it leaves are the recursive calls *)
    split; [|split; [|split; [|split]]]; intro; simpl; pres (fr_par PB PR PO); auto.
Qed.

Lemma op_erase_par : forall PB PR PO o safe dr, preserves (par_rel PB PR PO) (op_erase o safe dr).
Proof.
  intros. unfold op_erase. pres (fr_par PB PR PO); try apply (proj1 (drop_all_par PB PR PO _)).
Qed.
Lemma erase_op_par : forall PB PR PO b o safe, preserves (par_rel PB PR PO) (erase_op b o safe).
Proof. intros. unfold erase_op. pres (fr_par PB PR PO). apply op_erase_par. Qed.
Lemma rw_erase_op_par : forall PB PR PO o safe, preserves (par_rel PB PR PO) (rw_erase_op o safe).
Proof. intros. unfold rw_erase_op. pres (fr_par PB PR PO); auto using erase_op_par, op_erase_par. Qed.
