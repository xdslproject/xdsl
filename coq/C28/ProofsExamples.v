(* C28/ProofsExamples.v -- concrete programs / e-graphs used as non-vacuity and behaviour witnesses
   in Props/C28.v (definitions and their proofs). *)
From Coq Require Import ZArith List Lia.
From XV Require Import C28.Model C28.Proofs C28.ProofsCosts C28.ProofsExtract C28.ProofsCreate.
Import ListNotations.
Local Open Scope Z_scope.

(* tests/filecheck/projects/eqsat/identity.mlir: %c2 = constant 2; %res = muli %x, %c2; return %res *)
Definition ex_identity : prog :=
  Prog 1 [ Node 0 3 2 [] 1 CNone None; Node 1 5 0 [VArg 0; VRes 0] 1 CNone None; Node 2 N_RET 0 [VRes 1] 0 CNone None ].

Definition pipeline (fuel : nat) (d : option Z) (p : prog) : res prog :=
  match create p with
  | Ok g => match add_costs fuel d [] g with Ok g' => extract g' | e => e end
  | e => e
  end.

Lemma C28_identity_example_pf : pipeline 10 (Some 1) ex_identity = Ok ex_identity.
Proof. vm_compute. reflexivity. Qed.

(* the hypothesis of C28_create_extract_id is satisfiable *)
Lemma C28_wf_src_example_pf : wf_src (p_body ex_identity).
Proof.
  split; [|split; [|split]].
  - split.
    + simpl. repeat (constructor; [simpl; intuition discriminate|]). constructor.
    + simpl. split; [intros j []|]. split.
      * intros j [H|[H|[]]]; [discriminate | inversion H; subst; left; reflexivity].
      * split; [|exact I]. intros j [H|[]]. inversion H; subst. left; reflexivity.
  - intros n [H|[H|[H|[]]]]; subst n; (split; [reflexivity|]); unfold node_fine; simpl;
      (split; [discriminate|]); (split; [intros c Hc; discriminate | reflexivity]).
  - exists (Node 2 N_RET 0 [VRes 1] 0 CNone None). split; [right; right; left; reflexivity | reflexivity].
  - intros n j m Hn Hj Hm Hid.
    destruct Hm as [Hm|[Hm|[Hm|[]]]]; subst m; try reflexivity.
    simpl in Hid. subst j. exfalso.
    destruct Hn as [Hn|[Hn|[Hn|[]]]]; subst n; simpl in Hj;
      repeat (destruct Hj as [Hj|Hj]; try discriminate); try contradiction.
Qed.

(* a cyclic e-graph with a tie in cost: %x_c = class(%m, %x) with %m = muli %x_c, %one_c, all costs 0.
   The cost pass terminates, keeps the grounded member (index 1: the block argument), extraction returns %x. *)
Definition ex_cycle : prog :=
  Prog 1 [ Node 0 3 1 [] 1 (CInt 0) None; Node 1 N_CLASS 0 [VRes 0] 1 CNone None;
           Node 2 5 0 [VRes 3; VRes 1] 1 (CInt 0) None; Node 3 N_CLASS 0 [VRes 2; VArg 0] 1 CNone None;
           Node 4 N_RET 0 [VRes 3] 0 CNone None ].
Lemma C28_cycle_example_pf :
  match add_costs 10 (Some 0) [] ex_cycle with Ok g' => extract g' | e => e end
  = Ok (Prog 1 [ Node 4 N_RET 0 [VArg 0] 0 CNone None ]).
Proof. vm_compute. reflexivity. Qed.

(* hand-set indices may pick the cyclic member: extraction then yields an operation that uses its own
   result -- sound (C28_extract_sound is conditional on executability) but not executable *)
Lemma C28_cyclic_choice_not_executable_pf :
  forall sem args,
  match extract (Prog 1 [ Node 0 3 1 [] 1 CNone None; Node 1 N_CLASS 0 [VRes 0] 1 CNone (Some 0);
                          Node 2 5 0 [VRes 3; VRes 1] 1 CNone None;
                          Node 3 N_CLASS 0 [VRes 2; VArg 0] 1 CNone (Some 0);
                          Node 4 N_RET 0 [VRes 3] 0 CNone None ]) with
  | Ok p' => eval sem args p' = None
  | _ => False
  end.
Proof. intros. vm_compute. reflexivity. Qed.

(* the hypothesis of C28_extract_total is satisfiable by an e-graph with a two-member class whose
   second member is chosen *)
Definition ex_two : prog :=
  Prog 1 [ Node 0 N_CLASS 0 [VArg 0] 1 CNone (Some 0);
           Node 1 4 0 [VRes 0; VRes 0] 1 (CInt 2) None;
           Node 2 5 0 [VRes 0; VRes 0] 1 (CInt 1) None;
           Node 3 N_CLASS 0 [VRes 1; VRes 2] 1 CNone (Some 1);
           Node 4 N_RET 0 [VRes 3] 0 CNone None ].

Ltac in_cases H := simpl in H; repeat (destruct H as [H|H]; [try (inversion H; subst; clear H)|]); try contradiction.

Lemma C28_wf_egraph_example_pf : wf_egraph (p_body ex_two).
Proof.
  split; [|split; [|split]].
  - split.
    + simpl. repeat (constructor; [simpl; intuition discriminate|]). constructor.
    + simpl. repeat split; intros j Hj; in_cases Hj; simpl; auto 10.
  - intros cn Hcn Hcl. in_cases Hcn; try discriminate.
    + split. { constructor; [intros []|constructor]. } intros j Hj. in_cases Hj.
    + split. { constructor; [simpl; intuition discriminate|]. constructor; [intros []|constructor]. }
      intros j Hj. in_cases Hj.
      * split.
        -- intros m Hm Hid. in_cases Hm; simpl in Hid; try discriminate. split; reflexivity.
        -- intros n Hn Hu. in_cases Hn; in_cases Hu; reflexivity.
      * split.
        -- intros m Hm Hid. in_cases Hm; simpl in Hid; try discriminate. split; reflexivity.
        -- intros n Hn Hu. in_cases Hn; in_cases Hu; reflexivity.
  - intros cn Hcn Hcl. in_cases Hcn; try discriminate.
    + exists 0. simpl. split; [reflexivity|lia].
    + exists 1. simpl. split; [reflexivity|lia].
  - exists (Node 4 N_RET 0 [VRes 3] 0 CNone None). split; [simpl; auto 10 | reflexivity].
Qed.

Lemma C28_two_example_pf :
  extract ex_two = Ok (Prog 1 [ Node 2 5 0 [VArg 0; VArg 0] 1 CNone None; Node 4 N_RET 0 [VRes 2] 0 CNone None ]).
Proof. vm_compute. reflexivity. Qed.
