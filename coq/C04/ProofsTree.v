(* C04/ProofsTree.v -- from schedules back to IR skeletons: the schedule of a renamed tree is the renamed
   schedule, the parser's leaves refill the tree they came from, and the theorems C04_roundtrip and
   C04_deterministic on skeletons. *)
From Coq Require Import ZArith List Bool Arith Lia.
From XV Require Import C04.Model C04.ProofsStr C04.ProofsGhost C04.ProofsPrint C04.ProofsParse C04.ProofsRound.
Import ListNotations.

Section Ind.
Context {V S L : Type}.
Variables (P : op V S L -> Prop) (Q : block V S L -> Prop).
Hypothesis HOp : forall nm res args succs props regs attrs it ot,
  Forall (Forall Q) regs -> P (Op nm res args succs props regs attrs it ot).
Hypothesis HBk : forall lab bargs ops, Forall P ops -> Q (Bk lab bargs ops).
Fixpoint op_ind2 (o : op V S L) : P o :=
  match o with
  | Op nm res args succs props regs attrs it ot =>
      HOp nm res args succs props regs attrs it ot
        ((fix regs_ind (rs : list (list (block V S L))) : Forall (Forall Q) rs :=
            match rs with
            | [] => Forall_nil _
            | r :: rs' =>
                Forall_cons r
                  ((fix blocks_ind (bs : list (block V S L)) : Forall Q bs :=
                      match bs with
                      | [] => Forall_nil _
                      | b :: bs' => Forall_cons b (block_ind2 b) (blocks_ind bs')
                      end) r)
                  (regs_ind rs')
            end) regs)
  end
with block_ind2 (b : block V S L) : Q b :=
  match b with
  | Bk lab bargs ops =>
      HBk lab bargs ops
        ((fix ops_ind (os : list (op V S L)) : Forall P os :=
            match os with
            | [] => Forall_nil _
            | o :: os' => Forall_cons o (op_ind2 o) (ops_ind os')
            end) ops)
  end.
End Ind.

(* `tmapP fr fa fb fs fl`: a map per position -- results, operands, block arguments, successors, labels (told
   whether the label is printed) *)
Section MapP.
Context {V S L V' S' L' : Type}.
Variables (fr fa fb : V -> V') (fs : S -> S') (fl : bool -> L -> L').

Fixpoint tmapP (o : op V S L) : op V' S' L' :=
  match o with
  | Op nm res args succs props regs attrs it ot =>
      Op nm (map fr res) (map fa args) (map fs succs) props
         (map (fun r : list (block V S L) =>
                 (fix blocks (bs : list (block V S L)) (first : bool) : list (block V' S' L') :=
                    match bs with
                    | [] => []
                    | b :: bs' => tmapP_block b (if first then entry_printed b else true) :: blocks bs' false
                    end) r true) regs)
         attrs it ot
  end
with tmapP_block (b : block V S L) (printed : bool) : block V' S' L' :=
  match b with
  | Bk lab bargs ops => Bk (fl printed lab) (map (fun a => (fb (fst a), snd a)) bargs) (map tmapP ops)
  end.

(* a region: only its entry block may go without a printed label *)
Definition tmapP_region (r : list (block V S L)) : list (block V' S' L') :=
  match r with
  | [] => []
  | b :: r' => tmapP_block b (entry_printed b) :: map (fun b' => tmapP_block b' true) r'
  end.
Lemma tmapP_eq : forall nm res args succs props regs attrs it ot,
  tmapP (Op nm res args succs props regs attrs it ot) =
  Op nm (map fr res) (map fa args) (map fs succs) props (map tmapP_region regs) attrs it ot.
Proof.
  intros. cbn [tmapP]. f_equal. apply map_ext. intros [|b r]; [reflexivity|]. cbn [tmapP_region]. f_equal.
  induction r as [|b' r IH]; [reflexivity|]. cbn [map]. f_equal. exact IH.
Qed.

Lemma tmapP_block_eq : forall lab bargs ops pr,
  tmapP_block (Bk lab bargs ops) pr =
  Bk (fl pr lab) (map (fun a => (fb (fst a), snd a)) bargs) (map tmapP ops).
Proof. reflexivity. Qed.

Lemma entry_printed_tmapP : forall b pr, entry_printed (tmapP_block b pr) = entry_printed b.
Proof. intros [lab bargs ops] pr. cbn. destruct bargs; destruct ops; reflexivity. Qed.
Lemma lab_of_tmapP : forall b pr, lab_of (tmapP_block b pr) = fl pr (lab_of b).
Proof. intros [lab bargs ops] pr. reflexivity. Qed.
End MapP.

Section SchedEq.
Context {V S L : Type}.
Definition sched_blocks (ep : bool) : list (block V S L) -> bool -> list (act V S L) :=
  fix blocks (bs : list (block V S L)) (first : bool) : list (act V S L) :=
  match bs with
  | [] => []
  | b :: bs' => sched_block b (if first then ep else true) ++ blocks bs' false
  end.
Lemma sched_blocks_nil : forall ep first, sched_blocks ep [] first = [].
Proof. reflexivity. Qed.
Definition ep_of (r : list (block V S L)) : bool := match r with b :: _ => entry_printed b | [] => true end.
Definition sched_region (r : list (block V S L)) : list (act V S L) :=
  Arbegin (map lab_of r) (ep_of r) :: sched_blocks (ep_of r) r true ++ [Arend].
Lemma sched_eq : forall nm res args succs props regs attrs it ot,
  sched (Op nm res args succs props regs attrs it ot : op V S L) =
  map Ares res ++ (if is_iso nm then map Apre args ++ [Aenter] else []) ++ map Aarg args ++ map Asucc succs ++
  flat_map sched_region regs ++ (if is_iso nm then [Aexit] else []) ++ map Aarg_post args ++ map Ares_post res.
Proof. reflexivity. Qed.
Lemma sched_region_cons : forall b r,
  sched_region (b :: r) =
  Arbegin (map lab_of (b :: r)) (entry_printed b)
  :: sched_block b (entry_printed b) ++ flat_map (fun b' => sched_block b' true) r ++ [Arend].
Proof.
  intros b r. unfold sched_region. cbn [ep_of sched_blocks]. rewrite <- app_assoc. do 3 f_equal.
  induction r as [|b' r IH]; [reflexivity|]. cbn [sched_blocks flat_map]. f_equal. exact IH.
Qed.
Lemma sched_block_eq : forall lab bargs ops pr,
  sched_block (Bk lab bargs ops : block V S L) pr =
  Alabel lab pr :: map (fun a => Abarg (fst a)) bargs ++ flat_map sched ops.
Proof. reflexivity. Qed.
Lemma in_sched : forall nm res args succs props regs attrs it ot (a : act V S L),
  In a (map Ares res) \/ In a (map Aarg args) \/ In a (map Asucc succs) \/ In a (flat_map sched_region regs) ->
  In a (sched (Op nm res args succs props regs attrs it ot)).
Proof.
  intros nm res args succs props regs attrs it ot a H. rewrite sched_eq.
  apply in_or_app. destruct H as [H|H]; [left; exact H|right]. apply in_or_app. right.
  apply in_or_app. destruct H as [H|H]; [left; exact H|right].
  apply in_or_app. destruct H as [H|H]; [left; exact H|right]. apply in_or_app. left. exact H.
Qed.
End SchedEq.

Section SchedMap.
Context {V S L V' S' L' : Type}.
Variables (fr fa fb : V -> V') (fs : S -> S') (fl : bool -> L -> L').
Notation TM := (tmapP fr fa fb fs fl).
Notation TB := (tmapP_block fr fa fb fs fl).
Notation AM := (amapP fr fa fb fs fl).

Lemma sched_tmapP : forall o : op V S L, sched (TM o) = map AM (sched o).
Proof.
  apply (op_ind2 (fun o => sched (TM o) = map AM (sched o))
                 (fun b => forall pr, sched_block (TB b pr) pr = map AM (sched_block b pr))).
  - intros nm res args succs props regs attrs it ot IH.
    rewrite tmapP_eq. rewrite !sched_eq. rewrite !map_app, !map_map.
    f_equal. f_equal.
    { destruct (is_iso nm); [|reflexivity]. rewrite map_app, map_map. reflexivity. }
    f_equal. f_equal. f_equal.
    2:{ f_equal. destruct (is_iso nm); reflexivity. }
    induction IH as [|r rs Hr _ IHrs]; [reflexivity|].
    cbn [map flat_map]. rewrite map_app. f_equal; [|exact IHrs].
    destruct Hr as [|b r Hb Hr]; [reflexivity|].
    cbn [tmapP_region]. rewrite !sched_region_cons. cbn [map amapP labsP].
    rewrite entry_printed_tmapP, lab_of_tmapP, Hb, !map_map, !map_app.
    f_equal.
    + f_equal. f_equal. apply map_ext. intro b'. apply lab_of_tmapP.
    + f_equal. f_equal. induction Hr as [|b' r Hb' _ IHr]; [reflexivity|].
      cbn [map flat_map]. rewrite map_app, Hb', IHr. reflexivity.
  - intros lab bargs ops IH pr. cbn [tmapP_block]. rewrite !sched_block_eq. cbn [map amapP]. f_equal.
    rewrite map_app, !map_map. f_equal.
    induction IH as [|o os Ho _ IHos]; [reflexivity|]. cbn [map flat_map]. rewrite map_app. f_equal; assumption.
Qed.
End SchedMap.

Definition nfv (p : pst) (v : Z * hint) : str := name_of p (fst v).
Lemma name_op_tmapP : forall p ir,
  name_op p ir = tmapP (nfv p) (nfv p) (nfv p) (bname_of p) (name_block_lab p) ir.
Proof. intros p ir. reflexivity. Qed.

Lemma sched_print_names : forall p ir,
  sched (name_op p ir) = map (name_act (name_of p) (bname_of p)) (sched ir).
Proof. intros p ir. exact (sched_tmapP (nfv p) (nfv p) (nfv p) (bname_of p) (name_block_lab p) ir). Qed.

Section Refill.
Variable c : cfg.
Variables nm bnm : Z -> str.
Variables r rb : list (Z * Z).

Definition rv (v : Z * hint) : Z * hint := (rho r (fst v), val_hint c (nm (fst v))).
Definition ra (v : Z * hint) : Z * hint := (rho r (fst v), None).
Definition rl (pr : bool) (l : Z * hint) : Z * hint := (rho rb (fst l), if pr then blk_hint c (bnm (fst l)) else None).
Notation NT := (tmapP (fun v : Z * hint => nm (fst v)) (fun v => nm (fst v)) (fun v => nm (fst v)) bnm
                      (fun pr (l : Z * hint) => if pr then Some (bnm (fst l)) else None)).
Notation NB := (tmapP_block (fun v : Z * hint => nm (fst v)) (fun v => nm (fst v)) (fun v => nm (fst v)) bnm
                      (fun pr (l : Z * hint) => if pr then Some (bnm (fst l)) else None)).
Notation RT := (tmapP rv ra rv (rho rb) rl).
Notation RB := (tmapP_block rv ra rv (rho rb) rl).
Notation QO := (qouts c nm bnm r rb).

Lemma take_outs_app : forall {A} (f : A -> out) (l : list A) n rest, n = length l ->
  take_outs n (map f l ++ rest) = Some (map f l, rest).
Proof.
  intros A f l n rest ->. unfold take_outs. rewrite <- (map_length f l).
  rewrite (proj2 (Nat.leb_le _ _)) by (rewrite app_length; lia).
  rewrite firstn_app, skipn_app, Nat.sub_diag, firstn_all, skipn_all. cbn. rewrite app_nil_r. reflexivity.
Qed.

Lemma qouts_app : forall l1 l2, QO (l1 ++ l2) = QO l1 ++ QO l2.
Proof. intros. unfold qouts. apply flat_map_app. Qed.
Lemma qouts_none : forall {A} (f : A -> sact) (l : list A),
  (forall x, qout c nm bnm r rb (f x) = []) -> QO (map f l) = [].
Proof. intros A f l H. unfold qouts. induction l as [|x l IH]; cbn; [reflexivity|]. rewrite H. exact IH. Qed.
Lemma qouts_map1 : forall {A} (f : A -> sact) (g : A -> out) (l : list A),
  (forall x, qout c nm bnm r rb (f x) = [g x]) -> QO (map f l) = map g l.
Proof. intros A f g l H. unfold qouts. induction l as [|x l IH]; cbn; [reflexivity|]. rewrite H. cbn. f_equal. exact IH. Qed.

(* a list of subtrees refilled one after the other *)
Definition refill_list {A B} (f : A -> list out -> option (B * list out)) :=
  fix go (xs : list A) (l : list out) : option (list B * list out) :=
  match xs with
  | [] => Some ([], l)
  | x :: xs' =>
      match f x l with
      | None => None
      | Some (y, l') =>
          match go xs' l' with
          | None => None
          | Some (ys, l'') => Some (y :: ys, l'')
          end
      end
  end.
Lemma refill_eq : forall nm0 res args succs props regs attrs it ot l,
  refill (Op nm0 res args succs props regs attrs it ot) l =
  match take_outs (length succs) l with
  | None => None
  | Some (os, l1) =>
      match refill_list (refill_list refill_block) regs l1 with
      | None => None
      | Some (regs', l2) =>
          match take_outs (length args) l2 with
          | None => None
          | Some (oa, l3) =>
              match take_outs (length res) l3 with
              | None => None
              | Some (orr, l4) =>
                  Some (Op nm0 (map ov orr) (map ov oa) (map (fun o => fst (ov o)) os) props regs' attrs it ot, l4)
              end
          end
      end
  end.
Proof. reflexivity. Qed.
Lemma refill_block_eq : forall lab bargs ops l,
  refill_block (Bk lab bargs ops) l =
  match l with
  | [] => None
  | ol :: l1 =>
      match take_outs (length bargs) l1 with
      | None => None
      | Some (oa, l2) =>
          match refill_list refill ops l2 with
          | None => None
          | Some (ops', l3) =>
              Some (Bk (ov ol) (map (fun x => (ov (fst x), snd (snd x))) (combine oa bargs)) ops', l3)
          end
      end
  end.
Proof. reflexivity. Qed.

(* if each subtree consumes exactly its own leaves, so does the list *)
Lemma refill_list_ok : forall {A A' B} (nt : A -> A') (f : A' -> list out -> option (B * list out))
    (sch : A -> list sact) (g : A -> B) xs,
  Forall (fun x => forall rest, f (nt x) (QO (sch x) ++ rest) = Some (g x, rest)) xs ->
  forall rest, refill_list f (map nt xs) (QO (flat_map sch xs) ++ rest) = Some (map g xs, rest).
Proof.
  intros A A' B nt f sch g xs H. induction H as [|x xs Hx _ IH]; intro rest; [reflexivity|].
  cbn [flat_map refill_list map]. rewrite qouts_app, <- app_assoc, Hx, IH. reflexivity.
Qed.

Lemma combine_map_args : forall (bargs : list ((Z * hint) * atom)),
  map (fun x : out * (str * atom) => (ov (fst x), snd (snd x)))
      (combine (map (fun a : (Z * hint) * atom => OV (rho r (fst (fst a))) (val_hint c (nm (fst (fst a))))) bargs)
               (map (fun a : (Z * hint) * atom => (nm (fst (fst a)), snd a)) bargs)) =
  map (fun a => (rv (fst a), snd a)) bargs.
Proof. induction bargs as [|a l IH]; cbn; [reflexivity|]. f_equal. exact IH. Qed.

Lemma qouts_op : forall nm0 res args succs props regs attrs it ot,
  QO (sched (Op nm0 res args succs props regs attrs it ot)) =
  map (fun b => OB (rho rb b) None) succs ++ QO (flat_map sched_region regs) ++
  map (fun v : Z * hint => OV (rho r (fst v)) None) args ++
  map (fun v : Z * hint => OV (rho r (fst v)) (val_hint c (nm (fst v)))) res.
Proof.
  intros. rewrite sched_eq, !qouts_app.
  assert (E1 : QO ((if is_iso nm0 then map Apre args ++ [Aenter] else []) : list (act (Z * hint) Z (Z * hint))) = []).
  { destruct (is_iso nm0); [|reflexivity]. rewrite qouts_app, (qouts_none (fun v => Apre v)) by (intros [v h]; reflexivity).
    reflexivity. }
  assert (E2 : QO ((if is_iso nm0 then [Aexit] else []) : list (act (Z * hint) Z (Z * hint))) = [])
    by (destruct (is_iso nm0); reflexivity).
  rewrite E1, E2.
  rewrite (qouts_none (fun v => Ares v)), (qouts_none (fun v => Aarg v)) by (intros [v h]; reflexivity).
  rewrite (qouts_map1 (fun b => Asucc b) (fun b => OB (rho rb b) None)) by reflexivity.
  rewrite (qouts_map1 (fun v => Aarg_post v) (fun v => OV (rho r (fst v)) None)) by (intros [v h]; reflexivity).
  rewrite (qouts_map1 (fun v => Ares_post v) (fun v => OV (rho r (fst v)) (val_hint c (nm (fst v))))) by (intros [v h]; reflexivity).
  reflexivity.
Qed.

Lemma refill_ok : forall o rest, refill (NT o) (QO (sched o) ++ rest) = Some (RT o, rest).
Proof.
  apply (op_ind2 (fun o => forall rest, refill (NT o) (QO (sched o) ++ rest) = Some (RT o, rest))
                 (fun b => forall pr rest, refill_block (NB b pr) (QO (sched_block b pr) ++ rest) = Some (RB b pr, rest))).
  - intros nm0 res args succs props regs attrs it ot IH rest.
    rewrite !tmapP_eq, refill_eq, qouts_op, <- !app_assoc.
    rewrite take_outs_app by (rewrite map_length; reflexivity).
    rewrite (refill_list_ok _ _ sched_region (tmapP_region rv ra rv (rho rb) rl)).
    + rewrite !take_outs_app by (rewrite map_length; reflexivity).
      rewrite !map_map. reflexivity.
    + (* a region: the acts that open and close it leave nothing *)
      apply Forall_forall. intros r0 Hr0 rest'. rewrite Forall_forall in IH. specialize (IH r0 Hr0).
      destruct IH as [|b r' Hb Hr']; [reflexivity|]. rewrite sched_region_cons.
      change (QO (?a :: ?l ++ ?l' ++ [Arend])) with (QO (l ++ l' ++ [Arend])).
      rewrite !qouts_app. change (QO [Arend]) with (@nil out). rewrite app_nil_r.
      cbn [tmapP_region refill_list]. rewrite <- app_assoc, Hb.
      rewrite (refill_list_ok _ _ (fun b' => sched_block b' true) (fun b' => RB b' true)).
      * reflexivity.
      * rewrite Forall_forall in Hr' |- *. intros b' Hb'. apply (Hr' b' Hb' true).
  - intros lab bargs ops IH pr rest. cbn [tmapP_block]. rewrite sched_block_eq, refill_block_eq.
    change (QO (Alabel lab pr :: map (fun a => Abarg (fst a)) bargs ++ flat_map sched ops))
      with (qout c nm bnm r rb (Alabel lab pr) ++ QO (map (fun a => Abarg (fst a)) bargs ++ flat_map sched ops)).
    destruct lab as [b h]. cbn [qout app]. rewrite qouts_app.
    rewrite (qouts_map1 (fun a : (Z * hint) * atom => Abarg (fst a))
                        (fun a => OV (rho r (fst (fst a))) (val_hint c (nm (fst (fst a))))))
      by (intros [[v h'] t]; reflexivity).
    rewrite <- app_assoc. rewrite take_outs_app by (rewrite !map_length; reflexivity).
    rewrite (refill_list_ok _ _ sched RT _ IH). cbn [tmapP_block]. rewrite <- (combine_map_args bargs). reflexivity.
Qed.
End Refill.

Section Facts.
Variable c : cfg.

(* every value has a name of the shape of its hint; every block has a name, and a printed label gives back
   the hint the printer acted on *)
Definition act_fact (pf : pst) (a : sact) : Prop :=
  match a with
  | Ares (v, h) | Aarg (v, h) | Abarg (v, h) => lookupZ v (p_vals pf) <> None /\ shape (eff_hint h) (name_of pf v)
  | Apre (v, h) => fx_iso_operands c = true -> lookupZ v (p_vals pf) <> None /\ shape (eff_hint h) (name_of pf v)
  | Aarg_post (v, _) | Ares_post (v, _) => lookupZ v (p_vals pf) <> None
  | Asucc b => lookupZ b (p_blks pf) <> None
  | Alabel (b, h) pr => lookupZ b (p_blks pf) <> None /\ (pr = true -> blk_hint c (bname_of pf b) = eff_bhint c true h)
  | Arbegin ls ep => forall j b h, nth_error ls j = Some (b, h) -> lookupZ b (p_blks pf) <> None /\ lab_shape c pf j ep b h
  | _ => True
  end.

Lemma use_hint_printed : forall j ep, (if j =? 0 then ep else true) = true -> use_hint_at c j ep = true.
Proof.
  intros j ep H. unfold use_hint_at. destruct (j =? 0); [subst ep|]; cbn; rewrite ?andb_false_r; reflexivity.
Qed.

Lemma shape_blk_hint : forall p j ep b h, lab_shape c p j ep b h -> use_hint_at c j ep = true ->
  blk_hint c (bname_of p b) = eff_bhint c true h.
Proof.
  intros p j ep b h S U. unfold lab_shape in S. rewrite U in S.
  destruct (eff_bhint c true h) as [hs|].
  - destruct S as [G [D [k E]]]. rewrite E. apply blk_hint_render; assumption.
  - rewrite S. apply blk_hint_bb.
Qed.

Lemma act_fact_stable : forall p pf a, keeps p pf -> act_fact p a -> act_fact pf a.
Proof.
  intros p pf a K H. pose proof K as [SV SB].
  assert (V : forall v eh, lookupZ v (p_vals p) <> None /\ shape eh (name_of p v) ->
                           lookupZ v (p_vals pf) <> None /\ shape eh (name_of pf v)).
  { intros v eh [H1 H2]. destruct (SV v H1) as [A B]. rewrite B. tauto. }
  assert (B : forall b, lookupZ b (p_blks p) <> None -> lookupZ b (p_blks pf) <> None /\ bname_of pf b = bname_of p b).
  { intros b Hb. rewrite (keeps_bname p pf b K Hb), (SB b Hb). tauto. }
  destruct a as [[v h]|[v h]| |[v h]|b|ls ep|[b h] pr|[v h]| | |[v h]|[v h]]; cbn [act_fact] in *; auto.
  - apply B. exact H.
  - intros j b h Hn. destruct (H j b h Hn) as [H1 H2]. destruct (B b H1) as [B1 B2].
    split; [exact B1|]. apply (lab_shape_same c p); assumption.
  - destruct H as [H1 H2]. destruct (B b H1) as [B1 B2]. rewrite B2. tauto.
  - apply SV. exact H.
  - apply SV. exact H.
Qed.

Lemma step_fact : forall a p g g1,
  act_hints_ok c a -> GInv g -> PInv p (g_hints g) (g_frames g) -> BInvP c p g ->
  ws_step c a g = Some g1 -> act_fact (stepP c a p) a.
Proof.
  intros a p g g1 Hh GI PI BI H.
  pose proof (stepP_PInv c a p g g1 Hh GI PI H) as PI1. pose proof (stepP_BInvP c a p g g1 Hh BI H) as BI1.
  assert (V : forall v eh, lookupZ v (g_hints g1) = Some eh ->
            lookupZ v (p_vals (stepP c a p)) <> None /\ shape eh (name_of (stepP c a p) v)).
  { intros v eh E. split; [apply (pi_dom _ _ _ PI1); congruence|exact (PInv_shape _ _ _ v eh PI1 E)]. }
  destruct a as [[v h]|[v h]| |[v h]|b|ls ep|[b h] pr|[v h]| | |[v h]|[v h]]; cbn [act_fact]; try exact I.
  - apply V. apply (g_mention_hints v h g g1 H).
  - intro Efx. apply V. cbn in H. rewrite Efx in H. apply (g_mention_hints v h g g1 H).
  - apply V. apply (g_mention_hints v h g g1 H).
  - destruct (ws_succ_some _ _ _ _ H) as (-> & e & bs & Eb & R).
    destruct (bp_open _ _ _ BI1 e) as [_ [X _]]; [rewrite Eb; now left|]. apply X. apply R.
  - destruct (ws_rbegin_some _ _ _ _ _ H) as (_ & _ & Eg). intros j b h Hn.
    destruct (bp_open _ _ _ BI1 (ls, ep, ls)) as [_ [X2 [_ X4]]]; [rewrite Eg; now left|].
    split; [|apply X4; exact Hn]. apply X2. apply nth_error_In in Hn. apply (in_map fst) in Hn. exact Hn.
  - (* the block was named when its region began, at the position the label has in the block list *)
    destruct (ws_label_some _ _ _ _ _ _ H) as (ls & ep & rem & bs & Eb & Epr & _).
    destruct (bp_open _ _ _ BI (ls, ep, (b, h) :: rem)) as [_ [X2 [[pre X3] X4]]]; [rewrite Eb; now left|].
    cbn [fst snd] in X3, X4.
    assert (Hn : nth_error ls (length pre) = Some (b, h)).
    { rewrite X3, nth_error_app2, Nat.sub_diag by lia. reflexivity. }
    assert (Hb : lookupZ b (p_blks p) <> None).
    { apply X2. apply nth_error_In in Hn. apply (in_map fst) in Hn. exact Hn. }
    assert (Ep : stepP c (Alabel (b, h) pr) p = p) by (cbn [stepP]; destruct pr; [apply named_old; exact Hb|reflexivity]).
    rewrite Ep. split; [exact Hb|]. intros ->.
    apply (shape_blk_hint p (length pre) ep); [apply X4; exact Hn|apply use_hint_printed].
    destruct pre as [|y pre']; [|reflexivity]. rewrite X3 in Epr. cbn in Epr.
    rewrite Nat.add_comm in Epr. cbn in Epr. rewrite Nat.eqb_refl in Epr. symmetry. exact Epr.
  - cbn in H. destruct (g_mention v h g) as [gm|] eqn:Em; [|discriminate].
    destruct (g_define_some _ _ _ H) as (_ & _ & _ & o & os & _ & ->). apply V. apply (g_mention_hints v h g gm Em).
  - destruct (g_use_some _ _ _ H) as (Hv & _ & [[_ ->]|(_ & _ & ->)]); apply (pi_dom _ _ _ PI1); exact Hv.
  - destruct (g_define_some _ _ _ H) as (Hv & _ & _ & o & os & _ & ->). apply (pi_dom _ _ _ PI1). exact Hv.
Qed.

Lemma run_facts : forall l p g gf,
  hints_ok c l -> GInv g -> PInv p (g_hints g) (g_frames g) -> BInvP c p g ->
  ws_run c l g = Some gf -> Forall (act_fact (runP c l p)) l.
Proof.
  induction l as [|a l IH]; intros p g gf Hh GI PI BI H; cbn in H; [constructor|].
  destruct (ws_step c a g) as [g2|] eqn:E; [|discriminate]. inversion Hh as [|? ? Ha Hl]; subst.
  rewrite runP_cons. constructor.
  - apply (act_fact_stable (stepP c a p)); [apply runP_keeps|]. exact (step_fact a p g g2 Ha GI PI BI E).
  - apply (IH _ g2 gf); [exact Hl|eapply ws_step_inv; eauto|eapply stepP_PInv; eauto|eapply stepP_BInvP; eauto|exact H].
Qed.

Lemma facts_lexable : forall pf l,
  (forall b n, lookupZ b (p_blks pf) = Some n -> lexable n = true) -> Forall (act_fact pf) l ->
  forallb lexable (names_of_acts (map (name_act (name_of pf) (bname_of pf)) l)) = true.
Proof.
  intros pf l LB F.
  assert (LexB : forall b, lookupZ b (p_blks pf) <> None -> lexable (bname_of pf b) = true).
  { intros b Hb. unfold bname_of. destruct (lookupZ b (p_blks pf)) as [n|] eqn:E; [exact (LB b n E)|congruence]. }
  induction F as [|a l Fa _ IH]; [reflexivity|].
  cbn [map names_of_acts]. rewrite forallb_app, IH, andb_true_r.
  destruct a as [[v h]|[v h]| |[v h]|b|ls ep|[b h] pr|[v h]| | |[v h]|[v h]];
    unfold name_act; cbn [amapP fst forallb act_fact] in *; try reflexivity.
  - rewrite (shape_lexable _ _ (proj2 Fa)). reflexivity.
  - rewrite (shape_lexable _ _ (proj2 Fa)). reflexivity.
  - rewrite (LexB b Fa). reflexivity.
  - destruct pr; [|reflexivity]. cbn. rewrite (LexB b (proj1 Fa)). reflexivity.
  - rewrite (shape_lexable _ _ (proj2 Fa)). reflexivity.
Qed.
End Facts.

Section Ext.
Context {V S L V' S' L' : Type}.
Variables (fr fa fb : V -> V') (fs : S -> S') (fl : bool -> L -> L').
Variables (gr ga gb : V -> V') (gs : S -> S') (gl : bool -> L -> L').
Notation TF := (tmapP fr fa fb fs fl).
Notation TG := (tmapP gr ga gb gs gl).
Notation AF := (amapP fr fa fb fs fl).
Notation AG := (amapP gr ga gb gs gl).

Definition primary (a : act V S L) : Prop :=
  match a with Ares _ | Aarg _ | Asucc _ | Alabel _ _ | Abarg _ => True | _ => False end.

(* two maps that agree on the leaves of the schedule agree on the tree *)
Lemma tmapP_ext : forall o : op V S L, (forall a, In a (sched o) -> primary a -> AF a = AG a) -> TF o = TG o.
Proof.
  apply (op_ind2 (fun o => (forall a, In a (sched o) -> primary a -> AF a = AG a) -> TF o = TG o)
                 (fun b => forall pr, (forall a, In a (sched_block b pr) -> primary a -> AF a = AG a) ->
                                      tmapP_block fr fa fb fs fl b pr = tmapP_block gr ga gb gs gl b pr)).
  - intros nm res args succs props regs attrs it ot IH H. rewrite !tmapP_eq.
    assert (H' : forall a, In a (map Ares res) \/ In a (map Aarg args) \/ In a (map Asucc succs) \/
                           In a (flat_map sched_region regs) -> primary a -> AF a = AG a).
    { intros a Ha. apply H. apply in_sched. exact Ha. }
    clear H. f_equal.
    + apply map_ext_in. intros v Hv. assert (X : AF (Ares v) = AG (Ares v)) by (apply H'; [left; apply in_map; exact Hv|exact I]).
      inversion X. reflexivity.
    + apply map_ext_in. intros v Hv.
      assert (X : AF (Aarg v) = AG (Aarg v)) by (apply H'; [right; left; apply in_map; exact Hv|exact I]).
      inversion X. reflexivity.
    + apply map_ext_in. intros v Hv.
      assert (X : AF (Asucc v) = AG (Asucc v)) by (apply H'; [right; right; left; apply in_map; exact Hv|exact I]).
      inversion X. reflexivity.
    + apply map_ext_in. intros r Hr.
      assert (Hreg : forall a, In a (sched_region r) -> primary a -> AF a = AG a).
      { intros a Ha. apply H'. do 3 right. apply in_flat_map. exists r. tauto. }
      rewrite Forall_forall in IH. specialize (IH r Hr). destruct IH as [|b r' Hb Hr']; [reflexivity|].
      rewrite sched_region_cons in Hreg. cbn [tmapP_region]. f_equal.
      * apply Hb. intros a Ha. apply Hreg. right. apply in_or_app. now left.
      * apply map_ext_in. intros b' Hb'. rewrite Forall_forall in Hr'. apply (Hr' b' Hb'). intros a Ha. apply Hreg.
        right. apply in_or_app. right. apply in_or_app. left. apply in_flat_map. exists b'. tauto.
  - intros lab bargs ops IH pr H. cbn [tmapP_block]. rewrite sched_block_eq in H.
    assert (H1 : fl pr lab = gl pr lab).
    { assert (X : AF (Alabel lab pr) = AG (Alabel lab pr)) by (apply H; [now left|exact I]). inversion X. reflexivity. }
    assert (H2 : map (fun a => (fb (fst a), snd a)) bargs = map (fun a => (gb (fst a), snd a)) bargs).
    { apply map_ext_in. intros v Hv. assert (X : AF (Abarg (fst v)) = AG (Abarg (fst v))).
      { apply H; [|exact I]. right. apply in_or_app. left. exact (in_map (fun a : V * atom => Abarg (fst a)) _ _ Hv). }
      inversion X. congruence. }
    rewrite H1, H2. f_equal. apply map_ext_in. intros o Ho. rewrite Forall_forall in IH. apply (IH o Ho).
    intros a Ha. apply H. right. apply in_or_app. right. apply in_flat_map. exists o. tauto.
Qed.
End Ext.

Section Fuse.
Context {V S L V' S' L' V'' S'' L'' : Type}.
Variables (fr fa fb : V -> V') (fs : S -> S') (fl : bool -> L -> L').
Variables (gr ga gb : V' -> V'') (gs : S' -> S'') (gl : bool -> L' -> L'').
Lemma tmapP_tmapP : forall o : op V S L,
  tmapP gr ga gb gs gl (tmapP fr fa fb fs fl o) =
  tmapP (fun v => gr (fr v)) (fun v => ga (fa v)) (fun v => gb (fb v)) (fun s => gs (fs s)) (fun pr l => gl pr (fl pr l)) o.
Proof.
  apply (op_ind2 (fun o => tmapP gr ga gb gs gl (tmapP fr fa fb fs fl o) = tmapP _ _ _ _ _ o)
                 (fun b => forall pr, tmapP_block gr ga gb gs gl (tmapP_block fr fa fb fs fl b pr) pr =
                                      tmapP_block (fun v => gr (fr v)) (fun v => ga (fa v)) (fun v => gb (fb v))
                                                  (fun s => gs (fs s)) (fun pr l => gl pr (fl pr l)) b pr)).
  - intros nm res args succs props regs attrs it ot IH. rewrite !tmapP_eq. rewrite !map_map. f_equal.
    apply map_ext_in. intros r Hr. rewrite Forall_forall in IH. specialize (IH r Hr).
    destruct IH as [|b r' Hb Hr']; [reflexivity|]. cbn [tmapP_region]. rewrite entry_printed_tmapP, Hb, map_map. f_equal.
    apply map_ext_in. intros b' Hb'. rewrite Forall_forall in Hr'. apply (Hr' b' Hb').
  - intros lab bargs ops IH pr. cbn [tmapP_block]. rewrite !map_map. f_equal.
    apply map_ext_in. intros o Ho. rewrite Forall_forall in IH. apply (IH o Ho).
Qed.
End Fuse.

Lemma tmap_tmapP : forall {V S L V' S' L'} (fv : V -> V') (fs : S -> S') (fl : L -> L') (o : op V S L),
  tmap fv fs fl o = tmapP fv fv fv fs (fun _ => fl) o.
Proof.
  intros V S L V' S' L' fv fs fl.
  apply (op_ind2 (fun o => tmap fv fs fl o = tmapP fv fv fv fs (fun _ => fl) o)
                 (fun b => forall pr, tmap_block fv fs fl b = tmapP_block fv fv fv fs (fun _ => fl) b pr)).
  - intros nm res args succs props regs attrs it ot IH. rewrite tmapP_eq. cbn [tmap]. f_equal.
    apply map_ext_in. intros r Hr. rewrite Forall_forall in IH. specialize (IH r Hr).
    destruct IH as [|b r' Hb Hr']; [reflexivity|]. cbn [map tmapP_region]. f_equal; [apply Hb|].
    apply map_ext_in. intros b' Hb'. rewrite Forall_forall in Hr'. apply (Hr' b' Hb').
  - intros lab bargs ops IH pr. cbn [tmap_block tmapP_block]. f_equal.
    apply map_ext_in. intros o Ho. rewrite Forall_forall in IH. apply (IH o Ho).
Qed.

Section HintTable.
Variable c : cfg.
Variables nm bnm : Z -> str.
Variables r rb : list (Z * Z).
Variable D : Z -> Prop.
Hypothesis Hinj : forall x y, D x -> D y -> rho r x = rho r y -> x = y.

Definition defs_of (l : list sact) : list Z :=
  flat_map (fun a => match a with Abarg (w, _) | Ares_post (w, _) => [w] | _ => [] end) l.
Definition defs_in (l : list sact) : Prop :=
  Forall (fun a => match a with Abarg (w, _) | Ares_post (w, _) => D w | _ => True end) l.

Lemma hint_table_app : forall a b, hint_table (a ++ b) = hint_table a ++ hint_table b.
Proof.
  induction a as [|x a IH]; intro b; cbn; [reflexivity|].
  destruct x as [i [h|]|i h]; cbn; rewrite IH; reflexivity.
Qed.

(* the table holds, under the object of a value, the hint recovered from its name where it is defined *)
Lemma table_def : forall l v, defs_in l -> D v -> (val_hint c (nm v) <> None -> In v (defs_of l)) ->
  lookupZ (rho r v) (hint_table (qouts c nm bnm r rb l)) = option_map Some (val_hint c (nm v)).
Proof.
  induction l as [|a l IH]; intros v Hd Dv Hin.
  - destruct (val_hint c (nm v)); [exfalso; apply Hin; discriminate|reflexivity].
  - inversion Hd as [|? ? Ha Hl]; subst. unfold qouts. cbn [flat_map]. rewrite hint_table_app.
    assert (Def : forall w, D w -> (val_hint c (nm v) <> None -> w = v \/ In v (defs_of l)) ->
              lookupZ (rho r v) (hint_table [OV (rho r w) (val_hint c (nm w))] ++ hint_table (qouts c nm bnm r rb l)) =
              option_map Some (val_hint c (nm v))).
    { intros w Dw Hw. destruct (Z.eq_dec w v) as [->|E].
      - destruct (val_hint c (nm v)) as [hs|] eqn:Ev; cbn; [rewrite Z.eqb_refl; reflexivity|].
        rewrite (IH v Hl Dv); rewrite Ev; [reflexivity|congruence].
      - assert (Hw' : val_hint c (nm v) <> None -> In v (defs_of l)) by (intro X; destruct (Hw X); congruence).
        destruct (val_hint c (nm w)) as [hw|]; cbn; [|apply IH; assumption].
        destruct (Z.eqb_spec (rho r v) (rho r w)) as [X|X]; [apply Hinj in X; try assumption; congruence|].
        apply IH; assumption. }
    destruct a as [[w h]|[w h]| |[w h]|b|ls ep|[b h] pr|[w h]| | |[w h]|[w h]]; cbn [qout defs_of flat_map app] in *;
      try (apply IH; assumption).
    + apply Def; [exact Ha|]. intro X. destruct (Hin X) as [Y|Y]; [left; exact Y|right; exact Y].
    + apply Def; [exact Ha|]. intro X. destruct (Hin X) as [Y|Y]; [left; exact Y|right; exact Y].
Qed.
End HintTable.

Lemma fill_hint_table : forall (T : list (Z * hint)) i (x y : hint), lookupZ i T = option_map Some x -> y = x \/ y = None ->
  fill_hint T (i, y) = (i, x).
Proof.
  intros T i x y E Hy. unfold fill_hint. cbn [fst snd]. rewrite E. destruct Hy as [-> | ->]; destruct x; reflexivity.
Qed.

Lemma defs_step : forall c a g g2 v, ws_step c a g = Some g2 ->
  In v (concat (g_open g2)) \/ In v (g_closed g2) ->
  In v (concat (g_open g)) \/ In v (g_closed g) \/ In v (defs_of [a]).
Proof.
  intros c a g g2 v E.
  assert (Def : forall w g', g_open g' = g_open g -> g_closed g' = g_closed g -> g_define w g' = Some g2 ->
            In v (concat (g_open g2)) \/ In v (g_closed g2) ->
            In v (concat (g_open g)) \/ In v (g_closed g) \/ w = v \/ False).
  { intros w g' E1 E2 Hd. destruct (g_define_some _ _ _ Hd) as (_ & _ & _ & o & os & Eo & ->).
    cbn [g_open g_closed concat app In]. rewrite <- E1, <- E2, Eo. cbn [concat]. clear. tauto. }
  destruct a as [[w h]|[w h]| |[w h]|b|ls ep|[b h] pr|[w h]| | |[w h]|[w h]]; unfold defs_of; cbn [flat_map app In].
  - destruct (g_mention_hints _ _ _ _ E) as (_ & <- & _ & <- & _). tauto.
  - cbn in E. destruct (fx_iso_operands c); [|inversion E; subst; tauto].
    destruct (g_mention_hints _ _ _ _ E) as (_ & <- & _ & <- & _). tauto.
  - cbn in E. inversion E; subst. cbn. tauto.
  - destruct (g_mention_hints _ _ _ _ E) as (_ & <- & _ & <- & _). tauto.
  - destruct (ws_succ_some _ _ _ _ E) as [-> _]. tauto.
  - destruct (ws_rbegin_some _ _ _ _ _ E) as (_ & _ & ->). cbn. tauto.
  - destruct (ws_label_some _ _ _ _ _ _ E) as (ls & ep & rem & bs & _ & _ & ->). cbn. tauto.
  - cbn in E. destruct (g_mention w h g) as [gm|] eqn:Em; [|discriminate].
    destruct (g_mention_hints _ _ _ _ Em) as (_ & A1 & _ & A3 & _). exact (Def w gm A1 A3 E).
  - destruct (ws_rend_some _ _ _ E) as (o & o2 & os & ls & ep & bs & -> & _ & ->).
    cbn [g_open g_closed concat]. rewrite !in_app_iff. clear. tauto.
  - destruct (ws_exit_some _ _ _ E) as (f & f2 & fs & _ & _ & ->). cbn. tauto.
  - destruct (g_use_some _ _ _ E) as (_ & _ & [[_ ->]|(_ & _ & ->)]); cbn; tauto.
  - exact (Def w g eq_refl eq_refl E).
Qed.

Lemma defs_cover : forall c l g gf, ws_run c l g = Some gf ->
  forall v, In v (concat (g_open gf)) \/ In v (g_closed gf) ->
  In v (concat (g_open g)) \/ In v (g_closed g) \/ In v (defs_of l).
Proof.
  induction l as [|a l IH]; intros g gf H v Hv; cbn in H.
  - inversion H; subst. tauto.
  - destruct (ws_step c a g) as [g2|] eqn:E; [|discriminate].
    replace (defs_of (a :: l)) with (defs_of [a] ++ defs_of l)
      by (unfold defs_of; cbn [flat_map]; rewrite app_nil_r; reflexivity).
    rewrite in_app_iff.
    destruct (IH g2 gf H v Hv) as [X|[X|X]]; [| |tauto]; destruct (defs_step c a g g2 v E); tauto.
Qed.

Section Final.
Variable c : cfg.

Definition vh (fv : Z -> Z) (x : Z * hint) : Z * hint := (fv (fst x), eff_hint (snd x)).
Definition lh (fb : Z -> Z) (pr : bool) (l : Z * hint) : Z * hint :=
  (fb (fst l), if pr then eff_bhint c true (snd l) else None).
(* the same skeleton over other object identities; every hint replaced by what the printer makes of it *)
Definition rename_skel (fv fb : Z -> Z) (ir : skel) : skel := tmapP (vh fv) (vh fv) (vh fv) fb (lh fb) ir.

Definition vals_of (l : list sact) : list Z :=
  flat_map (fun a => match a with
                     | Ares (v, _) | Aarg (v, _) | Abarg (v, _) | Aarg_post (v, _) | Ares_post (v, _) => [v]
                     | _ => [] end) l.
Definition blks_of (l : list sact) : list Z :=
  flat_map (fun a => match a with
                     | Asucc b => [b] | Alabel (b, _) _ => [b] | Arbegin ls _ => map fst ls
                     | _ => [] end) l.

Definition skel_iso (ir ir' : skel) : Prop :=
  exists fv fb,
    (forall x y, In x (vals_of (sched ir)) -> In y (vals_of (sched ir)) -> fv x = fv y -> x = y) /\
    (forall x y, In x (blks_of (sched ir)) -> In y (blks_of (sched ir)) -> fb x = fb y -> x = y) /\
    ir' = rename_skel fv fb ir.

Lemma eff_hint_idem : forall h, eff_hint (eff_hint h) = eff_hint h.
Proof. intros [[|x t]|]; reflexivity. Qed.

Lemma NoDup_snd_inj : forall (r : list (Z * Z)) v w i, NoDup (map snd r) -> In (v, i) r -> In (w, i) r -> v = w.
Proof.
  intros r v w i N H1 H2. exact (f_equal fst (NoDup_map_inj snd r N (v, i) (w, i) H1 H2 eq_refl)).
Qed.
Lemma rho_inj : forall (r : list (Z * Z)) x y, NoDup (map snd r) ->
  lookupZ x r <> None -> lookupZ y r <> None -> rho r x = rho r y -> x = y.
Proof.
  intros r x y N Hx Hy E. unfold rho in E.
  destruct (lookupZ x r) as [i|] eqn:Ex; [|congruence]. destruct (lookupZ y r) as [j|] eqn:Ey; [|congruence]. subst j.
  apply lookupZ_In in Ex. apply lookupZ_In in Ey. eapply NoDup_snd_inj; eauto.
Qed.

Lemma eff_bhint_idem : forall u h, eff_bhint c true (eff_bhint c u h) = eff_bhint c u h.
Proof.
  intros u h. remember (eff_bhint c u h) as x eqn:Ex. unfold eff_bhint in Ex.
  destruct u; [|subst; reflexivity].
  destruct (eff_hint h) as [hs|] eqn:E; [|subst; reflexivity].
  destruct (fx_block_default c && is_default hs) eqn:E2; [subst; reflexivity|]. subst x.
  destruct h as [[|y t]|]; cbn in E; inversion E; subst.
  unfold eff_bhint. cbn [eff_hint]. rewrite E2. reflexivity.
Qed.

Lemma facts_vals : forall pf l, Forall (act_fact c pf) l -> forall v, In v (vals_of l) -> lookupZ v (p_vals pf) <> None.
Proof.
  intros pf l F v Hv. apply in_flat_map in Hv. destruct Hv as [a [Ha Hv]].
  rewrite Forall_forall in F. specialize (F a Ha).
  destruct a as [[w h]|[w h]| |[w h]|b|ls ep|[b h] pr|[w h]| | |[w h]|[w h]]; cbn in *; try contradiction;
    destruct Hv as [<-|[]]; apply F.
Qed.
Lemma facts_blks : forall pf l, Forall (act_fact c pf) l -> forall b, In b (blks_of l) -> lookupZ b (p_blks pf) <> None.
Proof.
  intros pf l F b Hb. apply in_flat_map in Hb. destruct Hb as [a [Ha Hb]].
  rewrite Forall_forall in F. specialize (F a Ha).
  destruct a as [[w h]|[w h]| |[w h]|b0|ls ep|[b0 h] pr|[w h]| | |[w h]|[w h]]; cbn in *; try contradiction.
  - destruct Hb as [<-|[]]. exact F.
  - apply in_map_iff in Hb. destruct Hb as [[b1 h] [<- Hx]]. apply In_nth_error in Hx. destruct Hx as [j Hj].
    apply (F j b1 h Hj).
  - destruct Hb as [<-|[]]. apply F.
Qed.

(* a copy over other identities whose hints have the same effect on the printer prints the same names *)
Lemma print_names_renamed : forall (fv fb : Z -> Z) (Dv Db : Z -> Prop) (hv : hint -> hint) (hl : bool -> hint -> hint),
  (forall x y, Dv x -> Dv y -> fv x = fv y -> x = y) -> (forall x y, Db x -> Db y -> fb x = fb y -> x = y) ->
  forall ir, Forall (ren_ok c Dv Db hv hl) (sched ir) ->
  print_names c (tmapP (ren_v fv hv) (ren_v fv hv) (ren_v fv hv) fb (ren_l fb hl) ir) = print_names c ir.
Proof.
  intros fv fb Dv Db hv hl Iv Ib ir F. unfold print_names. rewrite sched_tmapP.
  destruct (RelP_names fv fb Dv Db Iv Ib _ _ (runP_rel c fv fb Dv Db Iv Ib hv hl _ pst0 pst0 F (RelP_0 _ _ _ _))) as [RN RB].
  rewrite !name_op_tmapP, tmapP_tmapP. apply tmapP_ext. intros a Ha Pa.
  rewrite Forall_forall in F. specialize (F a Ha).
  destruct a as [[v h]|[v h]| |[v h]|b|ls ep|[b h] pr|[v h]| | |[v h]|[v h]]; cbn [amapP primary ren_ok] in *; try contradiction.
  - f_equal. apply RN. apply F.
  - f_equal. apply RN. apply F.
  - f_equal. apply RB. exact F.
  - f_equal. unfold name_block_lab. destruct pr; [|reflexivity]. f_equal. apply RB. apply F.
  - f_equal. apply RN. apply F.
Qed.

Theorem roundtrip : forall ir,
  hints_ok c (sched ir) -> well_scoped c ir = true ->
  exists ir', parse_names c (print_names c ir) = Ok ir' /\ skel_iso ir ir' /\
              print_names c ir' = print_names c ir.
Proof.
  intros ir Hh Hws. unfold well_scoped, ws in Hws.
  set (l := sched ir) in *.
  destruct (ws_run c l g0) as [gf|] eqn:Hrun; [|discriminate].
  unfold ws_final in Hws. destruct (g_pend gf) eqn:Hpend; [|discriminate].
  destruct (g_bopen gf) eqn:Hbopen; [|discriminate]. rewrite forallb_forall in Hws.
  set (pf := runP c l pst0). set (nm := name_of pf). set (bnm := bname_of pf).
  destruct (roundtrip_schedule c l gf Hh Hrun Hpend) as (q & r & rb & HQ & Hfwd & IV & IB & II). fold pf nm bnm in HQ, IV, IB.
  pose proof (run_facts c l pst0 g0 gf Hh GInv_g0 PInv_0 (BInvP_0 c) Hrun) as Facts. fold pf in Facts.
  pose proof (runP_PInv c l pst0 g0 gf Hh GInv_g0 PInv_0 Hrun) as PI. fold pf in PI.
  pose proof (runP_BInvP c l pst0 g0 gf Hh (BInvP_0 c) Hrun) as BI. fold pf in BI.
  (* every value with a name is defined by an act and has its parser object, and so has every named block *)
  set (Dv := fun v => lookupZ v r <> None). set (Db := fun b => lookupZ b rb <> None).
  assert (CovV : forall v, lookupZ v (p_vals pf) <> None -> Dv v /\ In v (defs_of l)).
  { intros v Hv. apply (pi_dom _ _ _ PI) in Hv. destruct (lookupZ v (g_hints gf)) as [x|] eqn:E; [|congruence].
    apply lookupZ_In in E. specialize (Hws _ E). cbn in Hws. apply orb_true_iff in Hws. rewrite !memZ_In in Hws.
    split; [apply (iq_dom _ _ _ _ _ _ _ _ IV); tauto|].
    destruct (defs_cover c l g0 gf Hrun v Hws) as [[]|[[]|X]]. exact X. }
  assert (CovB : forall b, lookupZ b (p_blks pf) <> None -> Db b).
  { intros b Hb. apply (bp_dom _ _ _ BI) in Hb. destruct (iq_bcover _ _ _ _ _ _ _ IB b Hb) as [X|[e [X _]]]; [exact X|].
    rewrite Hbopen in X. destruct X. }
  assert (Inj : forall x y, Dv x -> Dv y -> rho r x = rho r y -> x = y).
  { intros x y. apply rho_inj. exact (NoDup_app_remove_r _ _ (iq_inj _ _ _ II)). }
  assert (InjB : forall x y, Db x -> Db y -> rho rb x = rho rb y -> x = y).
  { intros x y. apply rho_inj. exact (NoDup_app_remove_l _ _ (iq_inj _ _ _ II)). }
  (* 1. the text parses, to the tree refilled with the parser's leaves *)
  set (outs := qouts c nm bnm r rb l) in *.
  set (T := hint_table outs).
  set (ir1 := tmap (fill_hint T) (fun s : Z => s) (fun l0 : Z * hint => l0) (tmapP (rv c nm r) (ra r) (rv c nm r) (rho rb) (rl c bnm rb) ir)).
  assert (Parse : parse_names c (print_names c ir) = Ok ir1).
  { unfold parse_names, print_names. fold l pf. rewrite sched_print_names. fold nm bnm l.
    unfold nm, bnm at 1 2. rewrite (facts_lexable c pf l (bp_lex _ _ _ BI) Facts). fold nm bnm.
    cbn [negb]. rewrite HQ, Hfwd.
    rewrite <- (app_nil_r outs) at 1. unfold outs at 1. unfold l at 1.
    rewrite (refill_ok c nm bnm r rb ir [] : refill (name_op pf ir) _ = _). reflexivity. }
  (* 2. which is the renamed skeleton: definitions carry the hint recovered from the name, uses find it in the table *)
  assert (Tab : forall v eh, lookupZ v (p_vals pf) <> None /\ shape eh (nm v) ->
            val_hint c (nm v) = eh /\ lookupZ (rho r v) T = option_map Some eh).
  { intros v eh [Hv Sv]. pose proof (shape_val_hint c _ _ Sv) as E. split; [exact E|]. rewrite <- E.
    apply (table_def c nm bnm r rb Dv Inj l v); [|apply CovV; exact Hv|intros _; apply CovV; exact Hv].
    apply Forall_forall. intros a Ha. rewrite Forall_forall in Facts. specialize (Facts a Ha).
    destruct a as [[w h]|[w h]| |[w h]|b|ls ep|[b h] pr|[w h]| | |[w h]|[w h]]; try exact I; apply CovV; apply Facts. }
  assert (Iso : ir1 = rename_skel (rho r) (rho rb) ir).
  { unfold ir1, rename_skel. rewrite tmap_tmapP, tmapP_tmapP. apply tmapP_ext.
    intros a Ha Pa. fold l in Ha. rewrite Forall_forall in Facts. specialize (Facts a Ha).
    destruct a as [[v h]|[v h]| |[v h]|b|ls ep|[b h] pr|[v h]| | |[v h]|[v h]];
      cbn [amapP act_fact primary] in *; try contradiction; unfold rv, ra, rl, vh, lh; cbn [fst snd].
    - destruct (Tab v _ Facts) as [-> Et]. f_equal. apply fill_hint_table; [exact Et|now left].
    - destruct (Tab v _ Facts) as [_ Et]. f_equal. apply fill_hint_table; [exact Et|now right].
    - reflexivity.
    - f_equal. destruct pr; [|reflexivity]. f_equal. apply Facts. reflexivity.
    - destruct (Tab v _ Facts) as [-> Et]. f_equal. apply fill_hint_table; [exact Et|now left]. }
  (* 3. and prints the same names: the renaming is injective and keeps the hints the printer acts on *)
  assert (Ren : Forall (ren_ok c Dv Db eff_hint (fun pr h => if pr then eff_bhint c true h else None)) l).
  { apply Forall_forall. intros a Ha. unfold hints_ok in Hh. rewrite Forall_forall in Facts, Hh.
    specialize (Facts a Ha). specialize (Hh a Ha).
    destruct a as [[v h]|[v h]| |[v h]|b|ls ep|[b h] pr|[v h]| | |[v h]|[v h]]; cbn [ren_ok act_fact] in *; try exact I.
    - split; [apply CovV; apply Facts|symmetry; apply eff_hint_idem].
    - intro Efx. split; [apply CovV; apply (Facts Efx)|symmetry; apply eff_hint_idem].
    - split; [apply CovV; apply Facts|symmetry; apply eff_hint_idem].
    - apply CovB. exact Facts.
    - intros j b h Hn. split; [apply CovB; apply (Facts j b h Hn)|].
      destruct (if j =? 0 then ep else true) eqn:Epr.
      + rewrite (use_hint_printed c j ep Epr). symmetry. apply eff_bhint_idem.
      + (* the entry block without label: either its hint is not used, or it has none *)
        destruct j as [|j]; [|discriminate]. cbn in Epr. subst ep. cbn in Hh. destruct Hh as [_ Hh].
        unfold use_hint_at. cbn. rewrite andb_true_r.
        destruct (fx_entry_hint c) eqn:Efx; cbn; [reflexivity|].
        destruct ls as [|l0 rest]; [discriminate|]. cbn in Hn. inversion Hn; subst l0.
        specialize (Hh eq_refl eq_refl). cbn in Hh. unfold eff_bhint. rewrite Hh. reflexivity.
    - split; [apply CovB; apply Facts|]. intros _. symmetry. apply eff_bhint_idem.
    - split; [apply CovV; apply Facts|symmetry; apply eff_hint_idem]. }
  exists ir1. split; [exact Parse|]. rewrite Iso. split.
  - exists (rho r), (rho rb). split; [|split; [|reflexivity]].
    + intros x y Hx Hy. apply Inj; apply CovV; apply (facts_vals pf l Facts); assumption.
    + intros x y Hx Hy. apply InjB; apply CovB; apply (facts_blks pf l Facts); assumption.
  - exact (print_names_renamed (rho r) (rho rb) Dv Db _ _ Inj InjB ir Ren).
Qed.

(* C04_deterministic *)
Theorem deterministic : forall ir fv fb,
  (forall x y, fv x = fv y -> x = y) -> (forall x y, fb x = fb y -> x = y) ->
  print_names c (tmapP (fun x : Z * hint => (fv (fst x), snd x)) (fun x => (fv (fst x), snd x)) (fun x => (fv (fst x), snd x))
                       fb (fun _ (l : Z * hint) => (fb (fst l), snd l)) ir) = print_names c ir.
Proof.
  intros ir fv fb Iv Ib.
  apply (print_names_renamed fv fb (fun _ => True) (fun _ => True) (fun h => h) (fun _ h => h)); [auto|auto|].
  apply Forall_forall. intros a _.
  destruct a as [[v h]|[v h]| |[v h]|b|ls ep|[b h] pr|[v h]| | |[v h]|[v h]]; cbn; auto.
Qed.
End Final.
