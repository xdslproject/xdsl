(* C19/ProofsAlloc.v -- the allocator invariant and its preservation by the primitive steps
   (pop / set type / push) of ValueAllocator, for a register stack that may hold reservations. *)
From Coq Require Import ZArith List Bool Arith Lia.
From XV Require Import C19.Model C19.ProofsSpec C19.ProofsStack.
Import ListNotations.
Local Open Scope Z_scope.

Section Alloc.
  Variable c : cfg.
  Variable t0 : value -> option Z.     (* types in the input *)
  Variable FR : value -> Z -> Prop.    (* "the input forces value v into register r" (ProofsSpec.forced, or its loop version) *)
  Hypothesis FR_pre : forall v r, t0 v = Some r -> FR v r.

  (* registers the input pre-assigns *)
  Definition Pset (r : Z) : Prop := exists w, t0 w = Some r.

  (* the stack and the typing are consistent: so_avail .. so_res_lt about the stack alone; so_excl: a pre-assigned
     register cannot be popped (reserved, or not allocatable); so_mono: input types are kept; so_zero_ty: only zero
     constants sit in `zero`; so_prov: where the register of a value without input type comes from *)
  Record sok (a : astate) : Prop := {
    so_nodup : NoDup (available (stk a));
    so_avail : forall r, In r (available (stk a)) -> In r (allocatable (stk a)) \/ r < 0;
    so_avail_nres : forall r, In r (available (stk a)) -> is_reserved r (stk a) = false;
    so_neg_avail : forall r, In r (available (stk a)) -> r < 0 ->
        - r - 1 < next_inf (stk a) /\ allow_inf (stk a) = true;
    so_neg_ty : forall v r, ty a v = Some r -> r < 0 ->
        - r - 1 < next_inf (stk a) /\ (allow_inf (stk a) = true \/ Pset r);
    so_next : 0 <= next_inf (stk a);
    so_res_lt : forall k, is_reserved k (stk a) = true -> k < 0 -> - k - 1 < next_inf (stk a);
    so_excl : forall r, Pset r -> is_reserved r (stk a) = true \/ (0 <= r /\ ~ In r (allocatable (stk a)));
    so_zero : zero_rule c = true -> ~ In 0 (allocatable (stk a)) /\ ~ Pset 0;
    so_mono : forall v r, t0 v = Some r -> ty a v = Some r;
    so_zero_ty : forall v, zero_rule c = true -> ty a v = Some 0 -> In v (zconsts c);
    so_prov : forall v r, ty a v = Some r -> t0 v = None ->
        In r (allocatable (stk a)) \/ (r < 0 /\ allow_inf (stk a) = true)
        \/ (zero_rule c = true /\ r = 0 /\ In v (zconsts c)) \/ Pset r }.

  (* The invariant `Inv L E M a`.  L = the protected values (those live at the point the backward walk has
     reached, plus what the current operation has allocated so far); M = the values touched so far: outside M
     a value still has its input type (frame); E = pairs exempt from G2 (the in/out pairs of the current
     operation, the members of a loop-carried group).
     G1: registers of protected values are not available; G2: two protected values share a register
     only if the input pre-assigned it, or it is `zero`, or the pair is exempt (there is no G3, G4). *)
  Definition G1 (L : value -> Prop) (a : astate) : Prop :=
    forall v r, L v -> ty a v = Some r -> ~ In r (available (stk a)).
  Definition G2 (L : value -> Prop) (E : value -> value -> Prop) (a : astate) : Prop :=
    forall v1 v2 r, L v1 -> L v2 -> v1 <> v2 -> ty a v1 = Some r -> ty a v2 = Some r ->
      Pset r \/ (zero_rule c = true /\ r = 0) \/ E v1 v2.
  Definition frame (M : value -> Prop) (a : astate) : Prop := forall v, ~ M v -> ty a v = t0 v.

  (* G5: a protected value holding a pre-assigned register is forced into it by the input *)
  Definition G5 (L : value -> Prop) (a : astate) : Prop :=
    forall v r, L v -> ty a v = Some r -> Pset r -> FR v r.

  Definition Inv (L : value -> Prop) (E : value -> value -> Prop) (M : value -> Prop) (a : astate) : Prop :=
    sok a /\ G1 L a /\ G2 L E a /\ frame M a /\ G5 L a.

  Definition addv (L : value -> Prop) (v : value) : value -> Prop := fun w => L w \/ w = v.
  Definition delv (L : value -> Prop) (v : value) : value -> Prop := fun w => L w /\ w <> v.
  Definition mono (a a' : astate) : Prop := forall w q, ty a w = Some q -> ty a' w = Some q.

  Lemma Inv_weaken : forall (L L' : value -> Prop) E (M M' : value -> Prop) a,
    Inv L E M a -> (forall v, L' v -> L v) -> (forall v, M v -> M' v) -> Inv L' E M' a.
  Proof.
    intros L L' E M M' a [Hs [H1 [H2 [Hf H5]]]] HL HM. split; [exact Hs|]. split; [|split; [|split]].
    - intros v r Hv. apply H1. apply HL. exact Hv.
    - intros v1 v2 r Hv1 Hv2. apply H2; apply HL; assumption.
    - intros v Hv. apply Hf. intro Hc. apply Hv. apply HM. exact Hc.
    - intros v r Hv. apply H5. apply HL. exact Hv.
  Qed.

  Lemma mono_refl : forall a, mono a a.
  Proof. intros a w q H. exact H. Qed.

  Lemma mono_back : forall a a' w r,
    mono a a' -> (exists q, ty a w = Some q) -> ty a' w = Some r -> ty a w = Some r.
  Proof. intros a a' w r Hm [q Hq] Hr. rewrite (Hm w q Hq) in Hr. congruence. Qed.

  Lemma pset_unavail : forall a r, sok a -> Pset r -> ~ In r (available (stk a)).
  Proof.
    intros a r Hs Hp Hin. destruct (so_excl a Hs r Hp) as [Hres|[Hge Hna]].
    - rewrite (so_avail_nres a Hs r Hin) in Hres. discriminate.
    - destruct (so_avail a Hs r Hin) as [H|H]; [exact (Hna H) | lia].
  Qed.

  Lemma zero_unavail : forall a, sok a -> zero_rule c = true -> ~ In 0 (available (stk a)).
  Proof.
    intros a Hs Hz Hin. destruct (so_zero a Hs Hz) as [Hna _].
    destruct (so_avail a Hs 0 Hin) as [H|H]; [exact (Hna H) | lia].
  Qed.

  Lemma none_t0 : forall a v, sok a -> ty a v = None -> t0 v = None.
  Proof.
    intros a v Hs Hn. destruct (t0 v) as [r|] eqn:E; [|reflexivity].
    rewrite (so_mono a Hs v r E) in Hn. discriminate.
  Qed.

  Lemma set_stk_same : forall a, set_stk a (stk a) = a.
  Proof. intros [t s]. reflexivity. Qed.

  Lemma set_ty_same : forall v r a, ty (set_ty v r a) v = Some r.
  Proof. intros. simpl. rewrite Nat.eqb_refl. reflexivity. Qed.
  Lemma set_ty_other : forall v r a w, w <> v -> ty (set_ty v r a) w = ty a w.
  Proof. intros v r a w Hne. simpl. destruct (Nat.eqb_spec w v); [contradiction | reflexivity]. Qed.
  Lemma set_ty_cases : forall v r a w q,
    ty (set_ty v r a) w = Some q -> (w = v /\ q = r) \/ (w <> v /\ ty a w = Some q).
  Proof.
    intros v r a w q. simpl. destruct (Nat.eqb_spec w v); intros H; [left | right]; split; congruence.
  Qed.

  Lemma sok_set_stk : forall a s, sok a ->
    allocatable s = allocatable (stk a) -> reserved s = reserved (stk a) -> allow_inf s = allow_inf (stk a) ->
    next_inf (stk a) <= next_inf s ->
    NoDup (available s) ->
    (forall r, In r (available s) -> In r (available (stk a))
       \/ (is_reserved r (stk a) = false /\ (In r (allocatable (stk a)) \/ r < 0)
           /\ (r < 0 -> - r - 1 < next_inf (stk a) /\ allow_inf (stk a) = true))) ->
    sok (set_stk a s).
  Proof.
    intros a s Hs Fal Fres Fallow Hle Hnd Hav.
    assert (Fisres : forall k, is_reserved k s = is_reserved k (stk a)).
    { intros k. unfold is_reserved. rewrite Fres. reflexivity. }
    pose proof (so_next a Hs) as Hnext.
    constructor; simpl; rewrite ?Fal, ?Fallow.
    - exact Hnd.
    - intros r Hr. destruct (Hav r Hr) as [H|[_ [H _]]]; [exact (so_avail a Hs r H) | exact H].
    - intros r Hr. rewrite Fisres. destruct (Hav r Hr) as [H|[H _]]; [exact (so_avail_nres a Hs r H) | exact H].
    - intros r Hr Hneg. assert (H : - r - 1 < next_inf (stk a) /\ allow_inf (stk a) = true).
      { destruct (Hav r Hr) as [H|[_ [_ H]]]; [exact (so_neg_avail a Hs r H Hneg) | exact (H Hneg)]. }
      split; [lia | exact (proj2 H)].
    - intros v r Hr Hneg. destruct (so_neg_ty a Hs v r Hr Hneg) as [Hlt Hal]. split; [lia | exact Hal].
    - lia.
    - intros k Hk Hneg. rewrite Fisres in Hk. pose proof (so_res_lt a Hs k Hk Hneg). lia.
    - intros r Hr. rewrite Fisres. exact (so_excl a Hs r Hr).
    - exact (so_zero a Hs).
    - exact (so_mono a Hs).
    - exact (so_zero_ty a Hs).
    - exact (so_prov a Hs).
  Qed.

  (* of the invariant only G1 looks at the stack *)
  Lemma Inv_set_stk : forall (L L' : value -> Prop) E M a s,
    Inv L E M a -> sok (set_stk a s) -> (forall v, L' v -> L v) ->
    (forall v r, L' v -> ty a v = Some r -> ~ In r (available s)) ->
    Inv L' E M (set_stk a s).
  Proof.
    intros L L' E M a s HI Hs HL H1.
    destruct (Inv_weaken L L' E M M a HI HL (fun v H => H)) as [_ [_ H]].
    split; [exact Hs|]. split; [exact H1 | exact H].
  Qed.

  Lemma sok_set_ty : forall a v r, sok a -> t0 v = None ->
    (r < 0 -> - r - 1 < next_inf (stk a) /\ (allow_inf (stk a) = true \/ Pset r)) ->
    (zero_rule c = true -> r = 0 -> In v (zconsts c)) ->
    (In r (allocatable (stk a)) \/ (r < 0 /\ allow_inf (stk a) = true)
       \/ (zero_rule c = true /\ r = 0 /\ In v (zconsts c)) \/ Pset r) ->
    sok (set_ty v r a).
  Proof.
    intros a v r Hs Ht0 Hneg Hzero Hprov. constructor.
    - exact (so_nodup a Hs).
    - exact (so_avail a Hs).
    - exact (so_avail_nres a Hs).
    - exact (so_neg_avail a Hs).
    - intros w q Hq. destruct (set_ty_cases v r a w q Hq) as [[_ Eq]|[_ Hq']];
        [rewrite Eq; exact Hneg | exact (so_neg_ty a Hs w q Hq')].
    - exact (so_next a Hs).
    - exact (so_res_lt a Hs).
    - exact (so_excl a Hs).
    - exact (so_zero a Hs).
    - intros w q Hq. rewrite set_ty_other; [exact (so_mono a Hs w q Hq) | congruence].
    - intros w Hz Hq. destruct (set_ty_cases v r a w 0 Hq) as [[Ew Eq]|[_ Hq']];
        [subst w; exact (Hzero Hz (eq_sym Eq)) | exact (so_zero_ty a Hs w Hz Hq')].
    - intros w q Hq Hw. destruct (set_ty_cases v r a w q Hq) as [[Ew Eq]|[_ Hq']];
        [subst w q; exact Hprov | exact (so_prov a Hs w q Hq' Hw)].
  Qed.

  (* ---- a value that already has a register: protected, or not touched yet (then pre-assigned) ---- *)
  Lemma add_untouched : forall L E M a v r,
    Inv L E M a -> ~ M v -> ty a v = Some r -> Inv (addv L v) E (addv M v) a.
  Proof.
    intros L E M a v r [Hs [H1 [H2 [Hf H5]]]] HnM Hty.
    assert (Ht0 : t0 v = Some r) by (rewrite <- (Hf v HnM); exact Hty).
    assert (Hp : Pset r) by (exists v; exact Ht0).
    assert (Hq : forall q, ty a v = Some q -> q = r) by (intros q Hq; congruence).
    split; [exact Hs|]. split; [|split; [|split]].
    - intros w q [Hw| ->] Hq'; [exact (H1 w q Hw Hq')|]. rewrite (Hq q Hq'). apply pset_unavail; assumption.
    - intros v1 v2 q [Hv1| ->] [Hv2| ->] Hne Hq1 Hq2.
      + exact (H2 v1 v2 q Hv1 Hv2 Hne Hq1 Hq2).
      + left. rewrite (Hq q Hq2). exact Hp.
      + left. rewrite (Hq q Hq1). exact Hp.
      + contradiction.
    - intros w Hw. apply Hf. intro Hc. apply Hw. left. exact Hc.
    - intros w q [Hw| ->] Hq' HP; [exact (H5 w q Hw Hq' HP)|]. rewrite (Hq q Hq'). exact (FR_pre v r Ht0).
  Qed.

  Lemma add_allocated : forall L E M a v r,
    Inv L E M a -> L v \/ ~ M v -> ty a v = Some r -> Inv (addv L v) E (addv M v) a.
  Proof.
    intros L E M a v r HI [HL|HnM] Hty; [|exact (add_untouched L E M a v r HI HnM Hty)].
    apply (Inv_weaken L _ E M _ a HI); [intros w [Hw| ->]; assumption | intros w Hw; left; exact Hw].
  Qed.

  Lemma pop_inv : forall L E M a r s,
    Inv L E M a -> pop (stk a) = Ok (r, s) ->
    Inv L E M (set_stk a s)
    /\ ~ In r (available s)
    /\ (forall w, L w -> ty a w <> Some r)
    /\ (r < 0 -> - r - 1 < next_inf s /\ allow_inf s = true)
    /\ (In r (allocatable s) \/ r < 0)
    /\ ~ Pset r /\ (zero_rule c = true -> r <> 0).
  Proof.
    intros L E M a r s HI Hpop. pose proof HI as [Hs [H1 _]].
    destruct (pop_cases_res (stk a) r s Hpop) as [Fal [Fres [Fallow [Hnres Hc]]]].
    pose proof (so_nodup a Hs) as Hnd. pose proof (so_next a Hs) as Hnext.
    (* either way what stays available was available, and next_inf has not decreased *)
    assert (Hsub : (forall q, In q (available s) -> In q (available (stk a)))
                   /\ NoDup (available s) /\ next_inf (stk a) <= next_inf s).
    { destruct Hc as [[Hav Hn]|[_ [Hav' [_ [_ Hn]]]]].
      - rewrite Hav in *. split; [intros q Hq; apply in_or_app; left; exact Hq|].
        split; [exact (proj1 (proj1 (NoDup_snoc _ r) Hnd)) | lia].
      - rewrite Hav'. split; [intros q []|]. split; [constructor | lia]. }
    destruct Hsub as [Hsub [Hnd' Hle]].
    split.
    { apply (Inv_set_stk L L E M a s HI); [|intros v Hv; exact Hv|].
      - apply sok_set_stk; try assumption. intros q Hq. left. exact (Hsub q Hq).
      - intros v q Hv Hq Hin. exact (H1 v q Hv Hq (Hsub q Hin)). }
    rewrite Fal, Fallow. destruct Hc as [[Hav Hn]|[_ [Hav' [Hallow [Hr Hn]]]]].
    - (* popped from the list *)
      assert (Hin : In r (available (stk a))). { rewrite Hav. apply in_or_app. right. left. reflexivity. }
      rewrite Hav in Hnd. rewrite Hn. repeat split.
      + exact (proj2 (proj1 (NoDup_snoc _ r) Hnd)).
      + intros w Hw Hq. exact (H1 w r Hw Hq Hin).
      + exact (proj1 (so_neg_avail a Hs r Hin H)).
      + exact (proj2 (so_neg_avail a Hs r Hin H)).
      + exact (so_avail a Hs r Hin).
      + intro Hp. exact (pset_unavail a r Hs Hp Hin).
      + intros Hz ->. exact (zero_unavail a Hs Hz Hin).
    - (* a fresh infinite register: no type, no reservation mentions it yet *)
      assert (Hneg : r < 0) by lia.
      rewrite Hav', Hn. split; [intros []|]. split; [|split; [|split; [|split]]].
      + intros w Hw Hq. destruct (so_neg_ty a Hs w r Hq Hneg) as [Hlt _]. lia.
      + intros _. split; [lia | exact Hallow].
      + right. exact Hneg.
      + intros HP. destruct (so_excl a Hs r HP) as [Hres|[Hge _]]; [|lia].
        pose proof (so_res_lt a Hs r Hres Hneg). lia.
      + intros _. lia.
  Qed.

  Lemma set_ty_inv : forall L E M a v r,
    Inv L E M a ->
    ty a v = None ->
    ~ In r (available (stk a)) ->
    (forall w, L w -> w <> v -> ty a w = Some r ->
        Pset r \/ (zero_rule c = true /\ r = 0) \/ (E v w /\ E w v)) ->
    (r < 0 -> - r - 1 < next_inf (stk a) /\ (allow_inf (stk a) = true \/ Pset r)) ->
    (zero_rule c = true -> r = 0 -> In v (zconsts c)) ->
    (Pset r -> FR v r) ->
    (In r (allocatable (stk a)) \/ (r < 0 /\ allow_inf (stk a) = true)
       \/ (zero_rule c = true /\ r = 0 /\ In v (zconsts c)) \/ Pset r) ->
    Inv (addv L v) E (addv M v) (set_ty v r a) /\ mono a (set_ty v r a).
  Proof.
    intros L E M a v r [Hs [H1 [H2 [Hf H5]]]] Hnone Hna Hc3 Hc4 Hc5 Hc6 Hc7.
    pose proof (none_t0 a v Hs Hnone) as Ht0.
    (* a protected value other than v is in L and keeps its type *)
    assert (Hold : forall w, addv L v w -> w <> v -> L w) by (intros w [Hw|Hw] Hne; [exact Hw | contradiction]).
    split; [|intros w q Hq; rewrite set_ty_other; [exact Hq | congruence]].
    split; [exact (sok_set_ty a v r Hs Ht0 Hc4 Hc5 Hc7)|]. split; [|split; [|split]].
    - intros w q Hw Hq. destruct (set_ty_cases v r a w q Hq) as [[_ Eq]|[Hne Hq']];
        [subst q; exact Hna | exact (H1 w q (Hold w Hw Hne) Hq')].
    - intros v1 v2 q Hv1 Hv2 Hne Hq1 Hq2.
      destruct (set_ty_cases v r a v1 q Hq1) as [[E1 Q1]|[N1 Hq1']];
        destruct (set_ty_cases v r a v2 q Hq2) as [[E2 Q2]|[N2 Hq2']].
      + congruence.
      + subst v1 q. destruct (Hc3 v2 (Hold v2 Hv2 N2) N2 Hq2') as [H|[H|[H _]]];
          [left; exact H | right; left; exact H | right; right; exact H].
      + subst v2 q. destruct (Hc3 v1 (Hold v1 Hv1 N1) N1 Hq1') as [H|[H|[_ H]]];
          [left; exact H | right; left; exact H | right; right; exact H].
      + exact (H2 v1 v2 q (Hold v1 Hv1 N1) (Hold v2 Hv2 N2) Hne Hq1' Hq2').
    - intros w Hw. rewrite set_ty_other by (intro Hc; apply Hw; right; exact Hc).
      apply Hf. intro Hc. apply Hw. left. exact Hc.
    - intros w q Hw Hq HP. destruct (set_ty_cases v r a w q Hq) as [[Ew Eq]|[Hne Hq']];
        [subst w q; exact (Hc6 HP) | exact (H5 w q (Hold w Hw Hne) Hq' HP)].
  Qed.

  Lemma set_ty_popped : forall L E M a v r,
    Inv L E M a -> ty a v = None ->
    ~ In r (available (stk a)) ->
    (r < 0 -> - r - 1 < next_inf (stk a) /\ allow_inf (stk a) = true) ->
    (In r (allocatable (stk a)) \/ r < 0) -> ~ Pset r -> (zero_rule c = true -> r <> 0) ->
    (forall w, L w -> w <> v -> ty a w = Some r -> E v w /\ E w v) ->
    Inv (addv L v) E (addv M v) (set_ty v r a) /\ mono a (set_ty v r a).
  Proof.
    intros L E M a v r HI Hnone Hna Hneg Hprov HnP Hnz HE.
    apply (set_ty_inv L E M a v r HI Hnone Hna).
    - intros w Hw Hwv Hq. right. right. exact (HE w Hw Hwv Hq).
    - intros Hlt. destruct (Hneg Hlt) as [K1 K2]. split; [exact K1 | left; exact K2].
    - intros Hz Hr. destruct (Hnz Hz Hr).
    - intros HP. destruct (HnP HP).
    - destruct Hprov as [H|H]; [left; exact H | right; left; split; [exact H | apply Hneg; exact H]].
  Qed.

  (* v joins the protected value u in its register *)
  Lemma set_ty_tied : forall L (E : value -> value -> Prop) M a u v R,
    Inv L E M a -> L u -> ty a u = Some R -> ty a v = None ->
    E u v -> E v u -> (forall w, E u w -> w = v) ->
    (forall r, FR u r -> FR v r) -> (zero_rule c = true -> R <> 0) ->
    Inv (addv L v) E (addv M v) (set_ty v R a) /\ mono a (set_ty v R a).
  Proof.
    intros L E M a u v R HI HLu Hu Hv Euv Evu HEu Htied Hnz. pose proof HI as [Hs [H1 [H2 [_ H5]]]].
    apply (set_ty_inv L E M a v R HI Hv).
    - exact (H1 u R HLu Hu).
    - intros w Hw Hwv Hq. destruct (Nat.eq_dec w u) as [->|Ew]; [right; right; split; assumption|].
      destruct (H2 u w R HLu Hw (fun Hc => Ew (eq_sym Hc)) Hu Hq) as [H|[H|H]];
        [left; exact H | right; left; exact H | destruct (Hwv (HEu w H))].
    - exact (so_neg_ty a Hs u R Hu).
    - intros Hz HR. destruct (Hnz Hz HR).
    - intros HP. exact (Htied R (H5 u R HLu Hu HP)).
    - destruct (t0 u) as [R'|] eqn:Et0u.
      + right. right. right. exists u. rewrite (so_mono a Hs u R' Et0u) in Hu. congruence.
      + destruct (so_prov a Hs u R Hu Et0u) as [H|[H|[[Hz [HR _]]|H]]];
          [left; exact H | right; left; exact H | destruct (Hnz Hz HR) | right; right; right; exact H].
  Qed.

  Lemma free_inv : forall L E M a v r,
    Inv L E M a -> L v -> ty a v = Some r -> (forall w, ~ E v w /\ ~ E w v) ->
    Inv (delv L v) E M (free_value v a) /\ ty (free_value v a) = ty a.
  Proof.
    intros L E M a v r HI HLv Hty HE. pose proof HI as [Hs [H1 [H2 _]]].
    unfold free_value. rewrite Hty. split; [|reflexivity].
    destruct (push_fields r (stk a)) as [Fal [Fn [Fr Fi]]].
    destruct (push_cases_res r (stk a)) as [[-> _]|[Hp [Hnres Hor]]].
    - rewrite set_stk_same. apply (Inv_weaken L _ E M M a HI); [intros w [Hw _]; exact Hw | intros w Hw; exact Hw].
    - (* pushed: r is not reserved and allocatable or infinite, hence neither pre-assigned nor zero *)
      assert (HnP : ~ Pset r).
      { intro HP. destruct (so_excl a Hs r HP) as [Hres|[Hge Hna]]; [congruence|].
        destruct Hor as [H|H]; [exact (Hna H) | lia]. }
      assert (Hnz : ~ (zero_rule c = true /\ r = 0)).
      { intros [Hz ->]. destruct (so_zero a Hs Hz) as [Hna _]. destruct Hor as [H|H]; [exact (Hna H) | lia]. }
      apply (Inv_set_stk L _ E M a _ HI); [|intros w [Hw _]; exact Hw|].
      + apply sok_set_stk; rewrite ?Hp; try assumption; [lia | apply NoDup_requeue; exact (so_nodup a Hs)|].
        intros q Hq. destruct (In_requeue r _ q Hq) as [H| ->]; [left; exact H | right].
        split; [exact Hnres|]. split; [exact Hor|]. intros Hneg.
        destruct (so_neg_ty a Hs v r Hty Hneg) as [Hb [Hal|HP]]; [split; assumption | contradiction].
      + intros w q [Hw Hwv] Hq Hin. rewrite Hp in Hin.
        destruct (In_requeue r _ q Hin) as [H| ->]; [exact (H1 w q Hw Hq H)|].
        destruct (H2 w v r Hw HLv Hwv Hq Hty) as [H|[H|H]];
          [exact (HnP H) | exact (Hnz H) | exact (proj2 (HE w) H)].
  Qed.

  (* ValueAllocator.allocate_value on a value that has a register already (`_old` here: an old acquaintance of
     the allocator, not the code before the repairs) *)
  Lemma allocate_value_old : forall v a r, ty a v = Some r -> allocate_value c v a = Ok a.
  Proof.
    intros v a r Hty. unfold allocate_value, new_type_for_value. rewrite Hty. simpl.
    rewrite set_stk_same. reflexivity.
  Qed.

  Lemma allocate_value_inv : forall L E M a v a',
    Inv L E M a -> L v \/ ~ M v -> allocate_value c v a = Ok a' ->
    Inv (addv L v) E (addv M v) a' /\ mono a a' /\ (exists r, ty a' v = Some r)
    /\ (forall w, w <> v -> ty a' w = ty a w).
  Proof.
    intros L E M a v a' HI HLv Hal. destruct (ty a v) as [r|] eqn:Ety.
    { rewrite (allocate_value_old v a r Ety) in Hal. injection Hal as <-.
      split; [exact (add_allocated L E M a v r HI HLv Ety)|].
      split; [intros w q H; exact H|]. split; [exists r; exact Ety | reflexivity]. }
    pose proof HI as [Hs _].
    unfold allocate_value, new_type_for_value in Hal. rewrite Ety in Hal.
    destruct (zero_rule c && memN v (zconsts c)) eqn:Ez.
    - (* zero rule *)
      simpl in Hal. injection Hal as <-. rewrite set_stk_same.
      apply andb_true_iff in Ez. destruct Ez as [Hz Hm]. apply memN_In in Hm.
      destruct (so_zero a Hs Hz) as [_ HnP0].
      destruct (set_ty_inv L E M a v 0 HI Ety) as [HI2 Hm2].
      + apply zero_unavail; assumption.
      + intros w _ _ _. right. left. split; [exact Hz | reflexivity].
      + lia.
      + intros _ _. exact Hm.
      + intros HP. contradiction.
      + right. right. left. repeat split; assumption.
      + split; [exact HI2|]. split; [exact Hm2|].
        split; [exists 0; apply set_ty_same | intros w Hw; exact (set_ty_other v 0 a w Hw)].
    - destruct (pop (stk a)) as [[r s]|e] eqn:Epop; simpl in Hal; [|discriminate]. injection Hal as <-.
      destruct (pop_inv L E M a r s HI Epop) as [HI1 [Hna [Hnone_r [Hneg [Hprov [HnP Hnz]]]]]].
      destruct (set_ty_popped L E M (set_stk a s) v r HI1 Ety Hna Hneg Hprov HnP Hnz) as [HI2 Hm2].
      { intros w Hw _ Hq. destruct (Hnone_r w Hw Hq). }
      split; [exact HI2|]. split; [exact Hm2|].
      split; [exists r; apply set_ty_same | intros w Hw; exact (set_ty_other v r _ w Hw)].
  Qed.

  (* ---- ValueAllocator.allocate_values_same_reg on an (operand, result) pair ---- *)
  Lemma same_reg_pair_spec : forall x y a a', x <> y ->
    allocate_values_same_reg [x; y] a = Ok a' ->
    (ty a x = None /\ ty a y = None /\ exists r s, pop (stk a) = Ok (r, s)
        /\ a' = set_ty y r (set_ty x r (set_stk a s)))
    \/ (exists X, ty a x = Some X /\ ty a y = None /\ a' = set_ty y X a)
    \/ (exists R, ty a x = None /\ ty a y = Some R /\ a' = set_ty x R a)
    \/ (exists R, ty a x = Some R /\ ty a y = Some R /\ a' = a).
  Proof.
    intros x y a a' Hne H. unfold allocate_values_same_reg, assign_all in H. simpl in H.
    assert (Hyx : Nat.eqb y x = false) by (apply Nat.eqb_neq; congruence).
    destruct (ty a x) as [X|] eqn:Ex; destruct (ty a y) as [R|] eqn:Ey; simpl in H.
    - destruct (Z.eqb_spec X R) as [->|]; simpl in H; [|discriminate].
      rewrite Z.eqb_refl, Ey in H. simpl in H. rewrite Z.eqb_refl in H. injection H as <-.
      right. right. right. exists R. repeat split.
    - rewrite Z.eqb_refl, Ey in H. injection H as <-. right. left. exists X. repeat split.
    - rewrite Hyx, Ey in H. simpl in H. rewrite Z.eqb_refl in H. injection H as <-.
      right. right. left. exists R. repeat split.
    - destruct (pop (stk a)) as [[r s]|e]; simpl in H; [|discriminate]. rewrite Hyx, Ey in H. injection H as <-.
      left. repeat split. exists r, s. split; reflexivity.
  Qed.

  (* an (operand, result) pair whose members may share a register *)
  Definition tie_ok (E : value -> value -> Prop) (x y : value) : Prop :=
    x <> y /\ E x y /\ E y x /\ (forall w, E x w -> w = y) /\ (forall w, E y w -> w = x)
    /\ ~ In y (zconsts c) /\ (forall r, (FR x r -> FR y r) /\ (FR y r -> FR x r)).

  Lemma same_reg_pair_inv : forall L (E : value -> value -> Prop) M a x y a',
    Inv L E M a -> tie_ok E x y -> ~ M x -> (L y \/ ~ M y) ->
    allocate_values_same_reg [x; y] a = Ok a' ->
    Inv (addv (addv L x) y) E (addv (addv M x) y) a' /\ mono a a'
    /\ (exists r, ty a' x = Some r /\ ty a' y = Some r)
    /\ (forall w, w <> x -> w <> y -> ty a' w = ty a w).
  Proof.
    intros L E M a x y a' HI [Hne [Exy [Eyx [HEx [HEy [Hyz Htied]]]]]] HMx HLy Hal.
    assert (Hyx : y <> x) by congruence.
    assert (Hxx : forall (S : value -> Prop), addv S x x) by (intros S; right; reflexivity).
    pose proof HI as [Hs _].
    destruct (same_reg_pair_spec x y a a' Hne Hal)
      as [[Hx [Hy [r [s [Hpop ->]]]]]|[[X [Hx [Hy ->]]]|[[R [Hx [Hy ->]]]|[R [Hx [Hy ->]]]]]].
    - (* both unallocated: one pop, the operand gets the register, the result joins it *)
      destruct (pop_inv L E M a r s HI Hpop) as [HI1 [Hna [Hnone_r [Hneg [Hprov [HnP Hnz]]]]]].
      destruct (set_ty_popped L E M (set_stk a s) x r HI1 Hx Hna Hneg Hprov HnP Hnz) as [HI2 Hm2].
      { intros w Hw _ Hq. destruct (Hnone_r w Hw Hq). }
      destruct (set_ty_tied _ E _ _ x y r HI2 (Hxx L) (set_ty_same x r _)) as [HI3 Hm3]; try assumption.
      { rewrite set_ty_other by exact Hyx. exact Hy. }
      { intros q. exact (proj1 (Htied q)). }
      split; [exact HI3|]. split; [intros w q Hq; exact (Hm3 w q (Hm2 w q Hq))|]. split.
      + exists r. split; [rewrite set_ty_other by exact Hne; apply set_ty_same | apply set_ty_same].
      + intros w Hwx Hwy. rewrite !set_ty_other by assumption. reflexivity.
    - (* the operand is pre-assigned X and untouched so far: the result joins it *)
      pose proof (add_untouched L E M a x X HI HMx Hx) as HI1.
      destruct (set_ty_tied _ E _ a x y X HI1 (Hxx L) Hx Hy) as [HI2 Hm2]; try assumption.
      { intros q. exact (proj1 (Htied q)). }
      { intros Hz ->. apply (proj2 (so_zero a Hs Hz)). exists x.
        destruct HI as [_ [_ [_ [Hfr _]]]]. rewrite <- (Hfr x HMx). exact Hx. }
      split; [exact HI2|]. split; [exact Hm2|]. split.
      + exists X. split; [rewrite set_ty_other by exact Hne; exact Hx | apply set_ty_same].
      + intros w _ Hwy. exact (set_ty_other y X a w Hwy).
    - (* the result already has R (live after the operation, or pre-assigned): the operand joins it *)
      pose proof (add_allocated L E M a y R HI HLy Hy) as HI1.
      destruct (set_ty_tied _ E _ a y x R HI1 (or_intror eq_refl) Hy Hx) as [HI2 Hm2]; try assumption.
      { intros q. exact (proj2 (Htied q)). }
      { intros Hz ->. exact (Hyz (so_zero_ty a Hs y Hz Hy)). }
      split.
      { apply (Inv_weaken _ _ E _ _ _ HI2); intros v [[Hv|Hv]|Hv];
          [left; left | right | left; right | left; left | right | left; right]; exact Hv. }
      split; [exact Hm2|]. split.
      + exists R. split; [apply set_ty_same | rewrite set_ty_other by exact Hyx; exact Hy].
      + intros w Hwx _. exact (set_ty_other x R a w Hwx).
    - (* both already hold R *)
      pose proof (add_untouched L E M a x R HI HMx Hx) as HI1.
      split; [|split; [intros w q Hq; exact Hq | split; [exists R; split; assumption | reflexivity]]].
      apply (add_allocated (addv L x) E (addv M x) a y R HI1); [|exact Hy].
      destruct HLy as [HLy|HMy]; [left; left; exact HLy | right; intros [Hc|Hc]; [exact (HMy Hc) | exact (Hyx Hc)]].
  Qed.
End Alloc.
