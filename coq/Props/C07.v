(* Props/C07.v -- property C07: parsing any text terminates promptly and fails only with diagnostics.
   The theorem statements closed by `exact`, and at the end four examples, one of them (C07_analyser_verdicts)
   by evaluation.

   Reading guide.  `bt_match U r s` (C07/Regex.v) is the step-counting backtracking matcher;
   `cost_bound` the analyser.  `lex O cfg s` (C07/Model.v) is MLIRLexer.lex iterated to EOF together
   with the literal conversions the parser applies, for a configuration `cfg` (nine regexes: seven of
   the lexer, two for name hints; and five switches describing the code shape) and a Unicode oracle `O`; its outcome is
   Done | ParseErr | Internal k | OutOfFuel and `no_internal` (C07/Proofs.v) excludes the last two.
   `run U cfg pinit es` is the parser's block-label / SSA-name bookkeeping over an event sequence.
   pinned_cfg / repaired_cfg (C07/Current.v): the pinned tree / the pinned tree with the five repairs
   (all switches on, the unrolled string pattern r_proposed_string).
   The statements about the regexes and code shape regenerated from the CURRENT source are in the
   generated file Gen/C07_current.v (same general theorems applied to `cur_cfg`). *)
From Coq Require Import ZArith List Bool Arith.
From XV Require Import C07.Regex C07.RegexProofs C07.Model C07.Current C07.Proofs C07.ProofsLabels
  C07.ProofsText C07.ProofsInst Gen.C07_regexes.
Import ListNotations.

(* ---- the certified cost analyser, for every regex, oracle and input ---- *)
Theorem C07_cost_bound_sound : forall U r k p, cost_bound r = Some (k, p) -> forall s d o,
  bt_match U r s = (d, o) ->
  o <> MFuel /\
  (forall sf, o = MSome sf -> length sf <= length s /\ d <= k * (length s - length sf + 1)) /\
  (o = MNone -> d <= k * (length s + 1) /\ (p = true -> d <= k)).
Proof. exact cost_bound_sound. Qed.
Print Assumptions C07_cost_bound_sound.

Theorem C07_cost_bound_linear : forall U r k p, cost_bound r = Some (k, p) -> forall s i,
  steps (bt_match_at U r s i) <= k * (length s - i + 1).
Proof. exact cost_bound_linear. Qed.
Print Assumptions C07_cost_bound_linear.

(* ---- general theorems: any configuration, any oracle, EVERY input string ---- *)
(* linear time: depends only on the per-regex obligations collected in rx_ok *)
Theorem C07_lex_linear_general : forall O cfg, rx_ok cfg = true ->
  forall s, lex_steps O cfg s <= Kof cfg * (length s + 1).
Proof. exact lex_linear_general. Qed.
Print Assumptions C07_lex_linear_general.

Theorem C07_lex_terminates : forall O cfg, progress_ok cfg = true ->
  forall s, lex_outcome O cfg s <> OutOfFuel.
Proof. exact lex_no_fuel. Qed.
Print Assumptions C07_lex_terminates.

Theorem C07_lex_total_general : forall O cfg, progress_ok cfg = true -> fx_int_guard cfg = true ->
  forall s, no_internal (lex_outcome O cfg s).
Proof. exact lex_total_general. Qed.
Print Assumptions C07_lex_total_general.

Theorem C07_labels_no_internal_general : forall U cfg,
  fx_label_validate cfg = true -> fx_label_redef cfg = true ->
  forall es k, run U cfg pinit es <> PInternal k.
Proof. exact labels_no_internal_general. Qed.
Print Assumptions C07_labels_no_internal_general.

(* ---- the repaired code: full statements ---- *)
Theorem C07_lex_linear_repaired : forall O s,
  lex_steps O repaired_cfg s <= Kof repaired_cfg * (length s + 1).
Proof. exact lex_linear_repaired. Qed.
Print Assumptions C07_lex_linear_repaired.

Theorem C07_lex_total_repaired : forall O s, no_internal (lex_outcome O repaired_cfg s).
Proof. exact lex_total_repaired. Qed.
Print Assumptions C07_lex_total_repaired.

Theorem C07_labels_no_internal_repaired : forall U es k, run U repaired_cfg pinit es <> PInternal k.
Proof. exact labels_no_internal_repaired. Qed.
Print Assumptions C07_labels_no_internal_repaired.

(* ---- the pinned tree: the full statements are refuted ... ---- *)
(* an unterminated string literal of 12 letters costs more steps than the linear bound allows *)
Theorem C07_lex_linear_refuted :
  exists s, Kof repaired_cfg * (length s + 1) < lex_steps cpy pinned_cfg s.
Proof. exact lex_linear_pinned_refuted. Qed.
Print Assumptions C07_lex_linear_refuted.

(* {a = superscript-two} and a 4301-digit literal end in a ValueError *)
Theorem C07_lex_total_refuted :
  lex_outcome cpy pinned_cfg (w_attr [178%Z]) = Internal ValueError /\
  lex_outcome cpy pinned_cfg (w_attr (repeat 49%Z (Z.to_nat 4301))) = Internal ValueError.
Proof. exact lex_total_pinned_refuted. Qed.
Print Assumptions C07_lex_total_refuted.

(* the label ^42: raises ValueError; a second definition of a forward-referenced block raises KeyError *)
Theorem C07_labels_refuted :
  run cpy_named pinned_cfg pinit [EOpen; EDef [52; 50]%Z] = PInternal ValueError /\
  run cpy_named pinned_cfg pinit [EOpen; ESucc [97%Z]; EDef [97%Z]; EDef [97%Z]] = PInternal KeyError.
Proof. exact labels_pinned_refuted. Qed.
Print Assumptions C07_labels_refuted.

(* ---- ... and the partial statements that do hold for it ---- *)
(* inputs without a double quote are lexed in linear time *)
Theorem C07_lex_linear_partial : forall O s, (forall c, In c s -> c <> 34%Z) ->
  lex_steps O pinned_cfg s <= Kof repaired_cfg * (length s + 1).
Proof. exact lex_linear_pinned_partial. Qed.
Print Assumptions C07_lex_linear_partial.

(* inputs without a code point that str.isnumeric accepts never end in an internal error *)
Theorem C07_lex_total_partial : forall O s, (forall c, In c s -> o_numeric O c = false) ->
  no_internal (lex_outcome O pinned_cfg s).
Proof. exact lex_total_pinned_partial. Qed.
Print Assumptions C07_lex_total_partial.

(* stronger: every code point of the input that str.isnumeric accepts is an ASCII digit, and the input has
   at most 4300 code points (oracle assumption: int()/float() accept the ASCII digits) *)
Theorem C07_lex_total_partial_strong : forall O s,
  (forall x, is_ascii_digit x = true -> o_decimal O x = true) ->
  (forall x, In x s -> o_numeric O x = true -> is_ascii_digit x = true) ->
  (Z.of_nat (length s) <= 4300)%Z ->
  no_internal (lex_outcome O pinned_cfg s).
Proof. exact lex_total_pinned_partial_strong. Qed.
Print Assumptions C07_lex_total_partial_strong.

(* any code shape: every name is a valid name hint and no block label is defined twice in the whole event
   sequence (a label reused in a sibling region is excluded too) *)
Theorem C07_labels_no_internal_partial : forall U cfg es,
  (forall n, In n (ev_names es) -> valid_name U cfg n = true) -> NoDup (def_names es) ->
  forall k, run U cfg pinit es <> PInternal k.
Proof. exact labels_no_internal_partial. Qed.
Print Assumptions C07_labels_no_internal_partial.

(* non-vacuity (the concrete constant K is stated in Gen/C07_current.v): the hypotheses of the partial statements are satisfiable,
   and the pinned and the repaired (r_proposed_string) string patterns differ in their growth: exponential, linear *)
Example C07_analyser_verdicts : rx_ok repaired_cfg = true /\ rx_ok pinned_cfg = false.
Proof. vm_compute. repeat split; reflexivity. Qed.
Example C07_partial_hypotheses_satisfiable :
  let s := [37; 120; 32; 61; 32; 97; 114; 105; 116; 104; 46; 97; 100; 100; 32; 37; 97; 44; 32; 37; 98]%Z in
  forallb (fun c => negb (c =? 34)%Z && negb (o_numeric cpy c)) s = true /\
  lex_outcome cpy pinned_cfg s = Done /\ length (fst (snd (lex cpy pinned_cfg s))) = 7.
Proof. exact partial_hypotheses_satisfiable. Qed.
Example C07_strong_partial_hypotheses_satisfiable :
  let s := [37; 48; 32; 61; 32; 97; 114; 105; 116; 104; 46; 99; 111; 110; 115; 116; 97; 110; 116; 32; 52; 50;
            32; 58; 32; 105; 51; 50]%Z in
  forallb (fun c => negb (o_numeric cpy c) || is_ascii_digit c) s = true /\
  forallb (fun c => o_decimal cpy c) [48; 49; 50; 51; 52; 53; 54; 55; 56; 57]%Z = true /\
  lex_outcome cpy pinned_cfg s = Done /\ existsb (o_numeric cpy) s = true.
Proof. exact strong_partial_hypotheses_satisfiable. Qed.
Example C07_string_pattern_growth :
  map (fun n => N.of_nat (fst (bt_match cpy_named r_pinned_string (w_unterminated n)))) [4; 6; 8; 10; 12]
    = [111; 447; 1791; 7167; 28671]%N /\
  map (fun n => N.of_nat (fst (bt_match cpy_named r_proposed_string (w_unterminated n)))) [4; 6; 8; 10; 12]
    = [26; 36; 46; 56; 66]%N.
Proof. exact pinned_string_growth. Qed.
