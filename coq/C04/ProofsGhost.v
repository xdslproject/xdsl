(* C04/ProofsGhost.v -- Spec: the well-scopedness of a schedule (`ws`), stated as a run of a small
   bookkeeping machine that knows nothing about names, and its invariants.

   The machine records
     g_hints   the values the printer has met so far, with the effective hint seen first
     g_frames  per active printer scope (enter_scope .. exit_scope), the values first met in it
     g_open    per open region (parser scope), the values defined in it so far
     g_pend    values the parser has resolved as forward references and not yet seen defined
     g_closed  values whose defining region has ended
     g_bseen   blocks met so far;  g_bopen  per open region: its blocks, whether the label of the
               entry block is printed, the blocks still to be labelled
   and rejects a schedule in which
     - a value is defined twice, or used / defined after the region that defines it has ended
       (SSA visibility by region nesting; the order inside a region is free: forward references are fine),
     - a value first printed inside an IsolatedFromAbove operation is not defined inside it
       (the IsolatedFromAbove verifier; with the pinned printer this also excludes an operand of the
        isolated operation that has not been printed before, see C04_iso_operand_refuted),
     - a value is met with two different hints, a block occurs in two regions, a successor is not a block
       of the enclosing region or is an entry block whose label is not printed, the labels do not follow
       the block list, a value is used and never defined. *)
From Coq Require Import ZArith List Bool Arith Lia.
From XV Require Import C04.Model C04.ProofsStr.
Import ListNotations.

Definition memZ (v : Z) (l : list Z) : bool := existsb (Z.eqb v) l.
Fixpoint removeZ (v : Z) (l : list Z) : list Z :=
  match l with [] => [] | x :: r => if Z.eqb v x then removeZ v r else x :: removeZ v r end.
Fixpoint nodupZ (l : list Z) : bool :=
  match l with [] => true | x :: r => negb (memZ x r) && nodupZ r end.
Definition hint_eqb (a b : option str) : bool :=
  match a, b with
  | None, None => true
  | Some x, Some y => str_eqb x y
  | _, _ => false
  end.

Record gst := G {
  g_hints : list (Z * option str);
  g_frames : list (list Z);
  g_open : list (list Z);
  g_pend : list Z;
  g_closed : list Z;
  g_bseen : list Z;
  g_bopen : list (list (Z * hint) * bool * list (Z * hint))
}.
Definition g0 : gst := G [] [[]] [[]] [] [] [] [].

Definition g_mention (v : Z) (h : hint) (g : gst) : option gst :=
  match lookupZ v (g_hints g) with
  | Some h0 => if hint_eqb h0 (eff_hint h) then Some g else None
  | None =>
      match g_frames g with
      | f :: fs => Some (G ((v, eff_hint h) :: g_hints g) ((v :: f) :: fs) (g_open g) (g_pend g)
                           (g_closed g) (g_bseen g) (g_bopen g))
      | [] => None
      end
  end.
Definition g_define (v : Z) (g : gst) : option gst :=
  match lookupZ v (g_hints g) with
  | None => None
  | Some _ =>
      if memZ v (concat (g_open g)) || memZ v (g_closed g) then None else
      match g_open g with
      | o :: os => Some (G (g_hints g) (g_frames g) ((v :: o) :: os) (removeZ v (g_pend g))
                           (g_closed g) (g_bseen g) (g_bopen g))
      | [] => None
      end
  end.
Definition g_use (v : Z) (g : gst) : option gst :=
  match lookupZ v (g_hints g) with
  | None => None
  | Some _ =>
      if memZ v (g_closed g) then None else
      if memZ v (concat (g_open g)) || memZ v (g_pend g) then Some g else
      Some (G (g_hints g) (g_frames g) (g_open g) (v :: g_pend g) (g_closed g) (g_bseen g) (g_bopen g))
  end.

Definition ws_step (c : cfg) (a : sact) (g : gst) : option gst :=
  match a with
  | Ares (v, h) | Aarg (v, h) => g_mention v h g
  | Apre (v, h) => if fx_iso_operands c then g_mention v h g else Some g
  | Aenter => Some (G (g_hints g) ([] :: g_frames g) (g_open g) (g_pend g) (g_closed g) (g_bseen g) (g_bopen g))
  | Aexit =>
      match g_frames g with
      | f :: f2 :: fs =>
          if forallb (fun v => memZ v (g_closed g)) f
          then Some (G (g_hints g) (f2 :: fs) (g_open g) (g_pend g) (g_closed g) (g_bseen g) (g_bopen g))
          else None
      | _ => None
      end
  | Asucc b =>
      match g_bopen g with
      | (ls, ep, _) :: _ =>
          if memZ b (map fst ls) && (ep || negb (match ls with x :: _ => Z.eqb b (fst x) | [] => false end))
          then Some g else None
      | [] => None
      end
  | Arbegin ls ep =>
      let ids := map fst ls in
      if nodupZ ids && forallb (fun b => negb (memZ b (g_bseen g))) ids
      then Some (G (g_hints g) (g_frames g) ([] :: g_open g) (g_pend g) (g_closed g) (ids ++ g_bseen g)
                   ((ls, ep, ls) :: g_bopen g))
      else None
  | Alabel (b, h) printed =>
      match g_bopen g with
      | (ls, ep, x :: rem) :: bs =>
          if Z.eqb b (fst x) && hint_eqb h (snd x) &&
             Bool.eqb printed (if length rem + 1 =? length ls then ep else true)
          then Some (G (g_hints g) (g_frames g) (g_open g) (g_pend g) (g_closed g) (g_bseen g)
                       ((ls, ep, rem) :: bs))
          else None
      | _ => None
      end
  | Abarg (v, h) => match g_mention v h g with Some g1 => g_define v g1 | None => None end
  | Arend =>
      match g_open g, g_bopen g with
      | o :: (o2 :: os), (ids, ep, []) :: bs =>
          Some (G (g_hints g) (g_frames g) (o2 :: os) (g_pend g) (o ++ g_closed g) (g_bseen g) bs)
      | _, _ => None
      end
  | Aarg_post (v, _) => g_use v g
  | Ares_post (v, _) => g_define v g
  end.

Fixpoint ws_run (c : cfg) (l : list sact) (g : gst) : option gst :=
  match l with
  | [] => Some g
  | a :: r => match ws_step c a g with Some g1 => ws_run c r g1 | None => None end
  end.

(* at the end: no pending forward reference, every region closed, every printed value defined *)
Definition ws_final (g : gst) : bool :=
  match g_pend g, g_bopen g with
  | [], [] => forallb (fun vh => memZ (fst vh) (concat (g_open g)) || memZ (fst vh) (g_closed g)) (g_hints g)
  | _, _ => false
  end.
Definition ws (c : cfg) (l : list sact) : bool :=
  match ws_run c l g0 with
  | Some g => ws_final g
  | None => false
  end.
Definition well_scoped (c : cfg) (ir : skel) : bool := ws c (sched ir).

Lemma ws_run_app : forall c l1 l2 g, ws_run c (l1 ++ l2) g =
  match ws_run c l1 g with Some g1 => ws_run c l2 g1 | None => None end.
Proof.
  induction l1 as [|a l1 IH]; intros l2 g; cbn; [reflexivity|].
  destruct (ws_step c a g); [apply IH|reflexivity].
Qed.

Definition vhint_ok (h : hint) : Prop := forall hs, eff_hint h = Some hs -> good_hint hs.
Definition bhint_ok (c : cfg) (h : hint) : Prop :=
  forall hs, eff_hint h = Some hs -> good_hint hs /\ (fx_block_default c = false -> is_default hs = false).
Definition act_hints_ok (c : cfg) (a : sact) : Prop :=
  match a with
  | Ares (v, h) | Aarg (v, h) | Apre (v, h) | Abarg (v, h) | Aarg_post (v, h) | Ares_post (v, h) => vhint_ok h
  | Arbegin ls ep =>
      Forall (fun l => bhint_ok c (snd l)) ls /\
      (fx_entry_hint c = false -> ep = false -> match ls with l :: _ => eff_hint (snd l) = None | [] => True end)
  | Alabel (b, h) _ => bhint_ok c h
  | _ => True
  end.
Definition hints_ok (c : cfg) (l : list sact) : Prop := Forall (act_hints_ok c) l.

Lemma memZ_In : forall v l, memZ v l = true <-> In v l.
Proof.
  intros v l. unfold memZ. rewrite existsb_exists. split.
  - intros [x [H1 H2]]. apply Z.eqb_eq in H2. subst. exact H1.
  - intro H. exists v. split; [exact H|apply Z.eqb_refl].
Qed.
Lemma memZ_false : forall v l, memZ v l = false <-> ~ In v l.
Proof.
  intros v l. split; intro H.
  - intro I. apply memZ_In in I. congruence.
  - destruct (memZ v l) eqn:E; [apply memZ_In in E; contradiction|reflexivity].
Qed.
Lemma removeZ_In : forall v x l, In x (removeZ v l) <-> In x l /\ x <> v.
Proof.
  induction l as [|y l IH]; cbn; [tauto|].
  destruct (Z.eqb_spec v y) as [E|E].
  - subst. rewrite IH. split; [tauto|]. intros [[H|H] N]; [congruence|tauto].
  - cbn. rewrite IH. split.
    + intros [H|[H1 H2]]; [subst; split; [now left|congruence]|tauto].
    + intros [[H|H] N]; [now left|right; tauto].
Qed.
Lemma removeZ_NoDup : forall v l, NoDup l -> NoDup (removeZ v l).
Proof.
  induction l as [|y l IH]; cbn; intro H; [constructor|].
  inversion H; subst. destruct (Z.eqb v y); [auto|].
  constructor; [|auto]. intro I. apply removeZ_In in I. tauto.
Qed.
Lemma removeZ_notin : forall v l, ~ In v l -> removeZ v l = l.
Proof.
  induction l as [|y l IH]; cbn; intro H; [reflexivity|].
  destruct (Z.eqb_spec v y); [subst; exfalso; apply H; now left|]. f_equal. apply IH. tauto.
Qed.
Lemma nodupZ_NoDup : forall l, nodupZ l = true <-> NoDup l.
Proof.
  induction l as [|x l IH]; cbn; [split; [constructor|reflexivity]|].
  rewrite andb_true_iff, negb_true_iff, memZ_false, IH. split.
  - intros [H1 H2]. constructor; assumption.
  - intro H. inversion H; tauto.
Qed.

Lemma NoDup_map_inj : forall {A B} (f : A -> B) (l : list A), NoDup (map f l) ->
  forall x y, In x l -> In y l -> f x = f y -> x = y.
Proof.
  induction l as [|a l IH]; cbn; intros H x y Hx Hy E; [contradiction|].
  inversion H as [|? ? N1 N2]; subst.
  destruct Hx as [Hx|Hx], Hy as [Hy|Hy]; subst.
  - reflexivity.
  - exfalso. apply N1. rewrite E. apply in_map. exact Hy.
  - exfalso. apply N1. rewrite <- E. apply in_map. exact Hx.
  - apply IH; assumption.
Qed.

Lemma NoDup_app_disj : forall {A} (a b : list A), NoDup (a ++ b) -> forall x, In x a -> In x b -> False.
Proof.
  induction a as [|y a IH]; cbn; intros b H x Ha Hb; [contradiction|].
  inversion H; subst. destruct Ha as [Ha|Ha].
  - subst. apply H2. apply in_or_app. now right.
  - exact (IH b H3 x Ha Hb).
Qed.
Lemma NoDup_app_intro : forall {A} (a b : list A), NoDup a -> NoDup b ->
  (forall x, In x a -> In x b -> False) -> NoDup (a ++ b).
Proof.
  induction a as [|y a IH]; cbn; intros b Ha Hb D; [exact Hb|].
  inversion Ha; subst. constructor.
  - intro X. apply in_app_or in X. destruct X as [X|X]; [contradiction|]. exact (D y (or_introl eq_refl) X).
  - apply IH; auto. intros x X1 X2. exact (D x (or_intror X1) X2).
Qed.

Lemma NoDup_app_remove_l : forall {A} (a b : list A), NoDup (a ++ b) -> NoDup b.
Proof. induction a as [|y a IH]; cbn; intros b H; [exact H|]. inversion H; subst. auto. Qed.
Lemma NoDup_app_remove_r : forall {A} (a b : list A), NoDup (a ++ b) -> NoDup a.
Proof.
  induction a as [|y a IH]; cbn; intros b H; [constructor|]. inversion H; subst. constructor.
  - intro X. apply H2. apply in_or_app. now left.
  - eauto.
Qed.

Lemma hint_eqb_eq : forall a b, hint_eqb a b = true -> a = b.
Proof.
  intros [x|] [y|] H; try discriminate; [apply str_eqb_eq in H; congruence|reflexivity].
Qed.

Lemma g_mention_some : forall v h g g1, g_mention v h g = Some g1 ->
  (lookupZ v (g_hints g) = Some (eff_hint h) /\ g1 = g) \/
  (lookupZ v (g_hints g) = None /\ exists f fs, g_frames g = f :: fs /\
     g1 = G ((v, eff_hint h) :: g_hints g) ((v :: f) :: fs) (g_open g) (g_pend g) (g_closed g) (g_bseen g) (g_bopen g)).
Proof.
  intros v h g g1 H. unfold g_mention in H. destruct (lookupZ v (g_hints g)) as [h0|].
  - destruct (hint_eqb h0 (eff_hint h)) eqn:E; [|discriminate]. apply hint_eqb_eq in E. left. split; congruence.
  - destruct (g_frames g) as [|f fs]; [discriminate|]. right. split; [reflexivity|]. exists f, fs. split; congruence.
Qed.

Lemma g_define_some : forall v g g1, g_define v g = Some g1 ->
  lookupZ v (g_hints g) <> None /\ ~ In v (concat (g_open g)) /\ ~ In v (g_closed g) /\
  exists o os, g_open g = o :: os /\
    g1 = G (g_hints g) (g_frames g) ((v :: o) :: os) (removeZ v (g_pend g)) (g_closed g) (g_bseen g) (g_bopen g).
Proof.
  intros v g g1 H. unfold g_define in H. destruct (lookupZ v (g_hints g)) as [h0|]; [|discriminate].
  destruct (memZ v (concat (g_open g)) || memZ v (g_closed g)) eqn:Em; [discriminate|].
  apply orb_false_iff in Em. destruct Em as [Em1 Em2]. apply memZ_false in Em1, Em2.
  destruct (g_open g) as [|o os]; [discriminate|].
  split; [discriminate|]. split; [exact Em1|]. split; [exact Em2|]. exists o, os. split; congruence.
Qed.

Lemma g_use_some : forall v g g1, g_use v g = Some g1 ->
  lookupZ v (g_hints g) <> None /\ ~ In v (g_closed g) /\
  ((In v (concat (g_open g)) \/ In v (g_pend g)) /\ g1 = g \/
   ~ In v (concat (g_open g)) /\ ~ In v (g_pend g) /\
     g1 = G (g_hints g) (g_frames g) (g_open g) (v :: g_pend g) (g_closed g) (g_bseen g) (g_bopen g)).
Proof.
  intros v g g1 H. unfold g_use in H. destruct (lookupZ v (g_hints g)) as [h0|]; [|discriminate].
  destruct (memZ v (g_closed g)) eqn:Ec; [discriminate|]. apply memZ_false in Ec.
  split; [discriminate|]. split; [exact Ec|].
  destruct (memZ v (concat (g_open g)) || memZ v (g_pend g)) eqn:Em.
  - left. apply orb_true_iff in Em. rewrite !memZ_In in Em. split; congruence.
  - right. apply orb_false_iff in Em. rewrite !memZ_false in Em. split; [apply Em|]. split; [apply Em|congruence].
Qed.

(* an entry of g_bopen *)
Definition bent := (list (Z * hint) * bool * list (Z * hint))%type.
Definition ids_of (e : bent) : list Z := map fst (fst (fst e)).
(* the blocks a successor may name *)
Definition refb (e : bent) (b : Z) : Prop :=
  In b (ids_of e) /\ (snd (fst e) = true \/ hd_error (ids_of e) <> Some b).

Lemma ws_exit_some : forall c g g1, ws_step c Aexit g = Some g1 ->
  exists f f2 fs, g_frames g = f :: f2 :: fs /\ (forall v, In v f -> In v (g_closed g)) /\
    g1 = G (g_hints g) (f2 :: fs) (g_open g) (g_pend g) (g_closed g) (g_bseen g) (g_bopen g).
Proof.
  intros c g g1 H. cbn in H. destruct (g_frames g) as [|f [|f2 fs]]; try discriminate.
  destruct (forallb _ f) eqn:Ec; [|discriminate]. rewrite forallb_forall in Ec.
  exists f, f2, fs. split; [reflexivity|]. split; [|congruence]. intros v Hv. apply memZ_In. apply Ec. exact Hv.
Qed.

Lemma ws_succ_some : forall c b g g1, ws_step c (Asucc b) g = Some g1 ->
  g1 = g /\ exists e bs, g_bopen g = e :: bs /\ refb e b.
Proof.
  intros c b g g1 H. cbn in H. destruct (g_bopen g) as [|[[ls ep] rem] bs]; [discriminate|].
  destruct (memZ b (map fst ls) && _) eqn:Ec; [|discriminate]. split; [congruence|].
  apply andb_true_iff in Ec. destruct Ec as [Ec1 Ec2]. apply memZ_In in Ec1.
  exists (ls, ep, rem), bs. split; [reflexivity|]. split; [exact Ec1|]. unfold ids_of. cbn [fst snd].
  destruct ep; [now left|right]. destruct ls as [|x ls']; [discriminate|].
  cbn in *. apply negb_true_iff in Ec2. apply Z.eqb_neq in Ec2. congruence.
Qed.

Lemma ws_rbegin_some : forall c ls ep g g1, ws_step c (Arbegin ls ep) g = Some g1 ->
  NoDup (map fst ls) /\ (forall b, In b (map fst ls) -> ~ In b (g_bseen g)) /\
  g1 = G (g_hints g) (g_frames g) ([] :: g_open g) (g_pend g) (g_closed g) (map fst ls ++ g_bseen g)
         ((ls, ep, ls) :: g_bopen g).
Proof.
  intros c ls ep g g1 H. cbn in H. destruct (nodupZ (map fst ls) && _) eqn:Ec; [|discriminate].
  apply andb_true_iff in Ec. destruct Ec as [Ec1 Ec2]. apply nodupZ_NoDup in Ec1. rewrite forallb_forall in Ec2.
  split; [exact Ec1|]. split; [|congruence].
  intros b Hb. apply memZ_false. apply negb_true_iff. apply Ec2. exact Hb.
Qed.

Lemma ws_label_some : forall c b h pr g g1, ws_step c (Alabel (b, h) pr) g = Some g1 ->
  exists ls ep rem bs, g_bopen g = (ls, ep, (b, h) :: rem) :: bs /\
    pr = (if length rem + 1 =? length ls then ep else true) /\
    g1 = G (g_hints g) (g_frames g) (g_open g) (g_pend g) (g_closed g) (g_bseen g) ((ls, ep, rem) :: bs).
Proof.
  intros c b h pr g g1 H. cbn in H. destruct (g_bopen g) as [|[[ls ep] [|[b' h'] rem]] bs]; try discriminate.
  destruct (Z.eqb b (fst (b', h')) && _ && _) eqn:Ec; [|discriminate].
  apply andb_true_iff in Ec. destruct Ec as [Ec Ec3]. apply andb_true_iff in Ec. destruct Ec as [Ec1 Ec2].
  apply Z.eqb_eq in Ec1. apply hint_eqb_eq in Ec2. apply eqb_prop in Ec3. cbn in Ec1, Ec2. subst b' h'.
  exists ls, ep, rem, bs. split; [reflexivity|]. split; [exact Ec3|congruence].
Qed.

Lemma ws_rend_some : forall c g g1, ws_step c Arend g = Some g1 ->
  exists o o2 os ls ep bs, g_open g = o :: o2 :: os /\ g_bopen g = (ls, ep, []) :: bs /\
    g1 = G (g_hints g) (g_frames g) (o2 :: os) (g_pend g) (o ++ g_closed g) (g_bseen g) bs.
Proof.
  intros c g g1 H. cbn in H. destruct (g_open g) as [|o [|o2 os]]; try discriminate.
  destruct (g_bopen g) as [|[[ls ep] [|x rem]] bs]; try discriminate.
  exists o, o2, os, ls, ep, bs. split; [reflexivity|]. split; [reflexivity|congruence].
Qed.

Definition live (g : gst) : list Z := concat (g_open g) ++ g_pend g.
Definition active (g : gst) : list Z := concat (g_frames g).

Record GInv (g : gst) : Prop := {
  gi_frames_nd : NoDup (active g);
  gi_printed : forall v, lookupZ v (g_hints g) <> None -> In v (active g) \/ In v (g_closed g);
  gi_active_printed : forall v, In v (active g) -> lookupZ v (g_hints g) <> None;
  gi_open_active : forall v, In v (concat (g_open g)) -> In v (active g);
  gi_pend_active : forall v, In v (g_pend g) -> In v (active g);
  gi_closed_open : forall v, In v (g_closed g) -> ~ In v (concat (g_open g));
  gi_closed_pend : forall v, In v (g_closed g) -> ~ In v (g_pend g);
  gi_open_nd : NoDup (concat (g_open g));
  gi_pend_nd : NoDup (g_pend g);
  gi_pend_open : forall v, In v (g_pend g) -> ~ In v (concat (g_open g))
}.

Lemma GInv_g0 : GInv g0.
Proof. constructor; cbn; try constructor; try tauto; try congruence. Qed.

(* the invariant sees the scopes and the open regions only through their union *)
Lemma GInv_same : forall g g1,
  g_hints g1 = g_hints g -> active g1 = active g -> concat (g_open g1) = concat (g_open g) ->
  g_pend g1 = g_pend g -> g_closed g1 = g_closed g -> GInv g -> GInv g1.
Proof. intros g g1 E1 E2 E3 E4 E5 []. constructor; rewrite ?E1, ?E2, ?E3, ?E4, ?E5; assumption. Qed.

Lemma printed_active : forall g v, GInv g -> lookupZ v (g_hints g) <> None -> ~ In v (g_closed g) -> In v (active g).
Proof. intros g v I H N. destruct (gi_printed g I v H); [assumption|contradiction]. Qed.

Lemma g_mention_inv : forall v h g g1, GInv g -> g_mention v h g = Some g1 -> GInv g1.
Proof.
  intros v h g g1 I H. destruct (g_mention_some _ _ _ _ H) as [[_ ->]|[E (f & fs & Ef & ->)]]; [exact I|].
  destruct I as [I1 I2 I3 I4 I5 I6 I7 I8 I9 I10]. unfold active in *. rewrite Ef in *. cbn [concat app] in *.
  assert (Nv : ~ In v (f ++ concat fs)).
  { intro X. apply I3 in X. congruence. }
  constructor; unfold active; cbn [g_hints g_frames g_open g_pend g_closed concat app lookupZ]; try assumption.
  - constructor; assumption.
  - intros w Hw. destruct (Z.eqb_spec w v) as [Ev|Ev]; [left; now left|].
    destruct (I2 w Hw) as [X|X]; [left; now right|now right].
  - intros w [Hw|Hw]; [subst; rewrite Z.eqb_refl; discriminate|].
    destruct (Z.eqb_spec w v); [discriminate|apply I3; exact Hw].
  - intros w Hw. right. apply I4. exact Hw.
  - intros w Hw. right. apply I5. exact Hw.
Qed.

Lemma g_mention_hints : forall v h g g1, g_mention v h g = Some g1 ->
  lookupZ v (g_hints g1) = Some (eff_hint h) /\
  g_open g1 = g_open g /\ g_pend g1 = g_pend g /\ g_closed g1 = g_closed g /\ g_bopen g1 = g_bopen g /\
  g_bseen g1 = g_bseen g.
Proof.
  intros v h g g1 H. destruct (g_mention_some _ _ _ _ H) as [[E ->]|[E (f & fs & Ef & ->)]]; [tauto|].
  cbn. rewrite Z.eqb_refl. tauto.
Qed.

Lemma g_define_inv : forall v g g1, GInv g -> g_define v g = Some g1 -> GInv g1.
Proof.
  intros v g g1 I H. destruct (g_define_some _ _ _ H) as (Hv & No & Nc & o & os & Eo & ->).
  pose proof (printed_active g v I Hv Nc) as Av.
  destruct I as [I1 I2 I3 I4 I5 I6 I7 I8 I9 I10]. rewrite Eo in *. cbn [concat] in *.
  constructor; unfold active in *; cbn [g_hints g_frames g_open g_pend g_closed concat app]; try assumption.
  - intros w [Hw|Hw]; [subst; exact Av|apply I4; exact Hw].
  - intros w Hw. apply removeZ_In in Hw. apply I5. tauto.
  - intros w Hw [X|X]; [subst; contradiction|exact (I6 w Hw X)].
  - intros w Hw X. apply removeZ_In in X. exact (I7 w Hw (proj1 X)).
  - constructor; assumption.
  - apply removeZ_NoDup. exact I9.
  - intros w Hw [X|X].
    + subst. apply removeZ_In in Hw. tauto.
    + apply removeZ_In in Hw. exact (I10 w (proj1 Hw) X).
Qed.

Lemma g_use_inv : forall v g g1, GInv g -> g_use v g = Some g1 -> GInv g1.
Proof.
  intros v g g1 I H. destruct (g_use_some _ _ _ H) as (Hv & Nc & [[_ ->]|(No & Np & ->)]); [exact I|].
  pose proof (printed_active g v I Hv Nc) as Av.
  destruct I as [I1 I2 I3 I4 I5 I6 I7 I8 I9 I10].
  constructor; unfold active in *; cbn [g_hints g_frames g_open g_pend g_closed]; try assumption.
  - intros w [Hw|Hw]; [subst; exact Av|apply I5; exact Hw].
  - intros w Hw [X|X]; [subst; contradiction|exact (I7 w Hw X)].
  - constructor; assumption.
  - intros w [Hw|Hw]; [subst; exact No|apply I10; exact Hw].
Qed.

Lemma ws_step_inv : forall c a g g1, GInv g -> ws_step c a g = Some g1 -> GInv g1.
Proof.
  intros c a g g1 I H. destruct a as [[v h]|[v h]| |[v h]|b|ls ep|[b h] pr|[v h]| | |[v h]|[v h]].
  - exact (g_mention_inv v h g g1 I H).
  - cbn in H. destruct (fx_iso_operands c); [exact (g_mention_inv v h g g1 I H)|congruence].
  - cbn in H. inversion H; subst. apply (GInv_same g); try reflexivity. exact I.
  - exact (g_mention_inv v h g g1 I H).
  - destruct (ws_succ_some _ _ _ _ H) as [-> _]. exact I.
  - destruct (ws_rbegin_some _ _ _ _ _ H) as (_ & _ & ->). apply (GInv_same g); try reflexivity. exact I.
  - destruct (ws_label_some _ _ _ _ _ _ H) as (ls & ep & rem & bs & _ & _ & ->). apply (GInv_same g); try reflexivity. exact I.
  - cbn in H. destruct (g_mention v h g) as [g2|] eqn:E; [|discriminate].
    apply (g_define_inv v g2); [|exact H]. exact (g_mention_inv v h g g2 I E).
  - (* the region ends: its values become closed *)
    destruct (ws_rend_some _ _ _ H) as (o & o2 & os & ls & ep & bs & Eo & _ & ->).
    destruct I as [I1 I2 I3 I4 I5 I6 I7 I8 I9 I10]. rewrite Eo in *. cbn [concat] in *.
    constructor; unfold active in *; cbn [g_hints g_frames g_open g_pend g_closed concat]; try assumption.
    + intros w Hw. destruct (I2 w Hw) as [X|X]; [now left|right; apply in_or_app; now right].
    + intros w Hw. apply I4. apply in_or_app. now right.
    + intros w Hw X. apply in_app_or in Hw. destruct Hw as [Hw|Hw].
      * exact (NoDup_app_disj _ _ I8 w Hw X).
      * apply (I6 w Hw). apply in_or_app. now right.
    + intros w Hw X. apply in_app_or in Hw. destruct Hw as [Hw|Hw].
      * apply (I10 w X). apply in_or_app. now left.
      * exact (I7 w Hw X).
    + apply NoDup_app_remove_l in I8. exact I8.
    + intros w Hw X. apply (I10 w Hw). apply in_or_app. now right.
  - (* the scope ends: everything first printed in it is closed *)
    destruct (ws_exit_some _ _ _ H) as (f & f2 & fs & Ef & Hf & ->).
    destruct I as [I1 I2 I3 I4 I5 I6 I7 I8 I9 I10]. unfold active in *. rewrite Ef in *. cbn [concat] in *.
    constructor; unfold active; cbn [g_hints g_frames g_open g_pend g_closed concat]; try assumption.
    + apply NoDup_app_remove_l in I1. exact I1.
    + intros w Hw. destruct (I2 w Hw) as [X|X]; [|now right].
      apply in_app_or in X. destruct X as [X|X]; [right; auto|now left].
    + intros w Hw. apply I3. apply in_or_app. now right.
    + intros w Hw. pose proof (I4 w Hw) as X. apply in_app_or in X. destruct X as [X|X]; [|exact X].
      exfalso. exact (I6 w (Hf w X) Hw).
    + intros w Hw. pose proof (I5 w Hw) as X. apply in_app_or in X. destruct X as [X|X]; [|exact X].
      exfalso. exact (I7 w (Hf w X) Hw).
  - exact (g_use_inv v g g1 I H).
  - exact (g_define_inv v g g1 I H).
Qed.

Lemma ws_run_inv : forall c l g g1, GInv g -> ws_run c l g = Some g1 -> GInv g1.
Proof.
  induction l as [|a l IH]; cbn; intros g g1 I H.
  - inversion H; subst; exact I.
  - destruct (ws_step c a g) as [g2|] eqn:E; [|discriminate].
    eapply IH; [|exact H]. eapply ws_step_inv; eauto.
Qed.

Lemma live_active : forall g v, GInv g -> In v (live g) -> In v (active g).
Proof.
  intros g v I H. unfold live in H. apply in_app_or in H. destruct H as [H|H].
  - apply (gi_open_active g I). exact H.
  - apply (gi_pend_active g I). exact H.
Qed.
Lemma live_nodup : forall g, GInv g -> NoDup (live g).
Proof.
  intros g I. unfold live. apply NoDup_app_intro.
  - apply (gi_open_nd g I).
  - apply (gi_pend_nd g I).
  - intros v H1 H2. exact (gi_pend_open g I v H2 H1).
Qed.
