(* C04/ProofsParse.v -- the parser's name resolution on the text of a well-scoped schedule: if the
   names are injective on the values of the active printer scopes at every moment and on the blocks of
   every region (what ProofsPrint.v establishes for the printer's names), the parser never fails and
   resolves every name to the object it stands for. *)
From Coq Require Import ZArith List Bool Arith Lia.
From XV Require Import C04.Model C04.ProofsStr C04.ProofsGhost.
Import ListNotations.

(* a schedule with other leaves, one map per position (P): results, operands, block arguments, successors,
   labels; `fl` is told whether the label is printed.  Used for the text (`name_act`), for renamed copies
   (ProofsRound.ren_act) and, as `tmapP`, on trees (ProofsTree) *)
Section ActMap.
Context {V S L V' S' L' : Type}.
Variables (fr fa fb : V -> V') (fs : S -> S') (fl : bool -> L -> L').
Definition labsP (ep : bool) (ls : list L) : list L' :=
  match ls with [] => [] | l :: r => fl ep l :: map (fl true) r end.
Definition amapP (a : act V S L) : act V' S' L' :=
  match a with
  | Ares v => Ares (fr v)
  | Apre v => Apre (fa v)
  | Aenter => Aenter
  | Aarg v => Aarg (fa v)
  | Asucc s => Asucc (fs s)
  | Arbegin ls ep => Arbegin (labsP ep ls) ep
  | Alabel l pr => Alabel (fl pr l) pr
  | Abarg v => Abarg (fb v)
  | Arend => Arend
  | Aexit => Aexit
  | Aarg_post v => Aarg_post (fa v)
  | Ares_post v => Ares_post (fr v)
  end.
End ActMap.

Section Sim.
Variable c : cfg.
Variables nm bnm : Z -> str.

(* the text of a schedule *)
Definition name_act : sact -> nact :=
  amapP (fun v : Z * hint => nm (fst v)) (fun v => nm (fst v)) (fun v => nm (fst v)) bnm
        (fun pr (l : Z * hint) => if pr then Some (bnm (fst l)) else None).

Definition rho (r : list (Z * Z)) (v : Z) : Z := match lookupZ v r with Some i => i | None => 0%Z end.
Definition dict (r : list (Z * Z)) (V : list Z) : list (str * Z) := map (fun v => (nm v, rho r v)) V.

Definition qout (r rb : list (Z * Z)) (a : sact) : list out :=
  match a with
  | Asucc b => [OB (rho rb b) None]
  | Alabel (b, _) pr => [OB (rho rb b) (if pr then blk_hint c (bnm b) else None)]
  | Abarg (v, _) => [OV (rho r v) (val_hint c (nm v))]
  | Aarg_post (v, _) => [OV (rho r v) None]
  | Ares_post (v, _) => [OV (rho r v) (val_hint c (nm v))]
  | _ => []
  end.
Definition qouts (r rb : list (Z * Z)) (l : list sact) : list out := flat_map (qout r rb) l.

Definition ext (r r' : list (Z * Z)) : Prop :=
  forall v, lookupZ v r <> None -> lookupZ v r' = lookupZ v r.
Lemma ext_refl : forall r, ext r r. Proof. intros r v H. reflexivity. Qed.
Lemma ext_trans : forall a b d, ext a b -> ext b d -> ext a d.
Proof. intros a b d H1 H2 v H. rewrite H2; [apply H1; exact H|]. rewrite H1; exact H. Qed.
Lemma ext_cons : forall r v i, lookupZ v r = None -> ext r ((v, i) :: r).
Proof. intros r v i H w Hw. cbn. destruct (Z.eqb_spec w v); [subst; congruence|reflexivity]. Qed.
Lemma rho_ext : forall r r' v, ext r r' -> lookupZ v r <> None -> rho r' v = rho r v.
Proof. intros r r' v E H. unfold rho. rewrite E by exact H. reflexivity. Qed.
Lemma rho_here : forall r v i, rho ((v, i) :: r) v = i.
Proof. intros. unfold rho. cbn. rewrite Z.eqb_refl. reflexivity. Qed.
Lemma lookupZ_here : forall (r : list (Z * Z)) v i, lookupZ v ((v, i) :: r) <> None.
Proof. intros. cbn. rewrite Z.eqb_refl. discriminate. Qed.
Lemma lookupZ_there : forall (r : list (Z * Z)) v i w, w <> v -> lookupZ w ((v, i) :: r) = lookupZ w r.
Proof. intros r v i w H. cbn. destruct (Z.eqb_spec w v); [contradiction|reflexivity]. Qed.

Definition injon (A : list Z) : Prop := forall v w, In v A -> In w A -> nm v = nm w -> v = w.

Lemma lookup_dict : forall A r V v, injon A -> incl V A -> In v A ->
  lookup (nm v) (dict r V) = if memZ v V then Some (rho r v) else None.
Proof.
  intros A r V v IA. induction V as [|x V IH]; intros HV Hv; cbn; [reflexivity|].
  assert (Hx : In x A) by (apply HV; now left).
  assert (HV' : incl V A) by (intros y Hy; apply HV; now right).
  destruct (str_eqb (nm v) (nm x)) eqn:E.
  - apply str_eqb_eq in E. apply (IA v x Hv Hx) in E. subst. rewrite Z.eqb_refl. reflexivity.
  - destruct (Z.eqb_spec v x) as [X|X]; [subst; rewrite str_eqb_refl in E; discriminate|].
    cbn. apply IH; assumption.
Qed.
Lemma remove_key_dict : forall A r V v, injon A -> incl V A -> In v A ->
  remove_key (nm v) (dict r V) = dict r (removeZ v V).
Proof.
  intros A r V v IA. induction V as [|x V IH]; intros HV Hv; cbn; [reflexivity|].
  assert (Hx : In x A) by (apply HV; now left).
  assert (HV' : incl V A) by (intros y Hy; apply HV; now right).
  destruct (str_eqb (nm v) (nm x)) eqn:E.
  - apply str_eqb_eq in E. apply (IA v x Hv Hx) in E. subst. rewrite Z.eqb_refl. apply IH; assumption.
  - destruct (Z.eqb_spec v x) as [X|X]; [subst; rewrite str_eqb_refl in E; discriminate|].
    cbn. f_equal. apply IH; assumption.
Qed.

(* the saved dictionaries of the open regions *)
Fixpoint vst (r : list (Z * Z)) (open : list (list Z)) : list (list (str * Z)) :=
  match open with
  | [] => []
  | o :: t => match t with [] => [] | _ :: _ => dict r (concat t) :: vst r t end
  end.

(* a new key does not change what is said about the old ones *)
Lemma dict_fresh : forall r v i V, lookupZ v r = None -> (forall w, In w V -> lookupZ w r <> None) ->
  dict ((v, i) :: r) V = dict r V.
Proof.
  intros r v i V N H. apply map_ext_in. intros w Hw. rewrite (rho_ext r) by (apply ext_cons || apply H; assumption).
  reflexivity.
Qed.
Lemma vst_fresh : forall r v i open, lookupZ v r = None -> (forall w, In w (concat open) -> lookupZ w r <> None) ->
  vst ((v, i) :: r) open = vst r open.
Proof.
  intros r v i open N. induction open as [|o t IH]; intro H; cbn; [reflexivity|]. destruct t as [|o2 t']; [reflexivity|].
  assert (H' : forall w, In w (concat (o2 :: t')) -> lookupZ w r <> None).
  { intros w Hw. apply H. cbn. apply in_or_app. now right. }
  f_equal; [apply dict_fresh; assumption|apply IH; exact H'].
Qed.

(* the parser's block table `bl` and forward references `fb` of one open region e = (blocks, entry printed?, blocks
   still to be labelled), against the object map rb: bk_lookup: a nameable block is in the table iff it has an
   object, flagged defined iff its label has been met; bk_fwd: forward references are unlabelled blocks with an
   object; bk_lab: labelled blocks have an object; bk_men: only nameable or labelled blocks have one *)
Record BlkOK (rb : list (Z * Z)) (e : bent) (bl : list (str * (Z * bool))) (fb : list str) : Prop := {
  bk_nd : NoDup (ids_of e);
  bk_nnd : NoDup (map bnm (ids_of e));
  bk_lookup : forall b, refb e b ->
     lookup (bnm b) bl = match lookupZ b rb with
                         | Some i => Some (i, negb (memZ b (map fst (snd e))))
                         | None => None
                         end;
  bk_fwd : forall n, In n fb ->
     exists b, In b (ids_of e) /\ n = bnm b /\ In b (map fst (snd e)) /\ lookupZ b rb <> None;
  bk_lab : forall b, In b (ids_of e) -> ~ In b (map fst (snd e)) -> lookupZ b rb <> None;
  bk_men : forall b, In b (ids_of e) -> lookupZ b rb <> None -> refb e b \/ ~ In b (map fst (snd e));
  bk_suffix : exists pre, fst (fst e) = pre ++ snd e
}.

Fixpoint BStack (rb : list (Z * Z)) (bopen : list bent) (bl : list (str * (Z * bool))) (fb : list str)
  (st : list (list (str * (Z * bool)) * list str)) : Prop :=
  match bopen with
  | [] => bl = [] /\ fb = [] /\ st = []
  | e :: bs =>
      BlkOK rb e bl fb /\
      match st with
      | (bl', fb') :: st' => BStack rb bs bl' fb' st'
      | [] => False
      end
  end.

Definition all_ids (bopen : list bent) : list Z := concat (map ids_of bopen).

Lemma BlkOK_ext : forall rb rb' e bl fb,
  (forall b, In b (ids_of e) -> lookupZ b rb' = lookupZ b rb) -> BlkOK rb e bl fb -> BlkOK rb' e bl fb.
Proof.
  intros rb rb' e bl fb E [B1 B2 B3 B4 B5 B6 B7]. constructor; try assumption.
  - intros b Hb. rewrite E by apply Hb. apply B3. exact Hb.
  - intros n Hn. destruct (B4 n Hn) as [b [X1 [X2 [X3 X4]]]]. exists b. rewrite E by exact X1. tauto.
  - intros b H1 H2. rewrite E by exact H1. apply B5; assumption.
  - intros b H1 H2. rewrite E in H2 by exact H1. apply B6; assumption.
Qed.
Lemma BStack_ext : forall rb rb' bopen bl fb st,
  (forall b, In b (all_ids bopen) -> lookupZ b rb' = lookupZ b rb) ->
  BStack rb bopen bl fb st -> BStack rb' bopen bl fb st.
Proof.
  induction bopen as [|e bs IH]; intros bl fb st E H; cbn in *; [exact H|].
  destruct H as [H1 H2]. split.
  - eapply BlkOK_ext; [|exact H1]. intros b Hb. apply E. unfold all_ids. cbn. apply in_or_app. now left.
  - destruct st as [|[bl' fb'] st']; [contradiction|]. apply IH; [|exact H2].
    intros b Hb. apply E. unfold all_ids. cbn. apply in_or_app. now right.
Qed.

(* a label or forward reference entered into the parser's block table hides no other block of the region *)
Lemma lookup_block_cons : forall ids b b' i (bl : list (str * (Z * bool))),
  NoDup (map bnm ids) -> In b ids -> In b' ids ->
  lookup (bnm b') ((bnm b, i) :: bl) = if Z.eqb b' b then Some i else lookup (bnm b') bl.
Proof.
  intros ids b b' i bl N Hb Hb'. cbn. destruct (Z.eqb_spec b' b) as [->|X]; [rewrite str_eqb_refl; reflexivity|].
  destruct (str_eqb (bnm b') (bnm b)) eqn:E; [|reflexivity].
  apply str_eqb_eq in E. apply (NoDup_map_inj bnm ids N) in E; [contradiction|assumption|assumption].
Qed.

(* the block x at the head of the blocks still to come gets its label: rb1, bl1, fb1 are the object map, table and
   forward references afterwards; they differ from rb, bl, fb only at x, which has an object in rb1 *)
Lemma BlkOK_label : forall rb rb1 ls ep x rem bl bl1 fb fb1,
  BlkOK rb (ls, ep, x :: rem) bl fb ->
  (forall b', b' <> fst x -> lookupZ b' rb1 = lookupZ b' rb) -> lookupZ (fst x) rb1 <> None ->
  (forall b', refb (ls, ep, rem) b' ->
     lookup (bnm b') bl1 = if Z.eqb b' (fst x) then option_map (fun i => (i, true)) (lookupZ (fst x) rb1)
                           else lookup (bnm b') bl) ->
  (forall n, In n fb1 -> In n fb /\ (n <> bnm (fst x) \/ lookupZ (fst x) rb = None)) ->
  BlkOK rb1 (ls, ep, rem) bl1 fb1.
Proof.
  intros rb rb1 ls ep x rem bl bl1 fb fb1 [B1 B2 B3 B4 B5 B6 [pre B7]] Old New Look Fwd.
  unfold ids_of in *. cbn [fst snd] in *.
  assert (Nrem : ~ In (fst x) (map fst rem)).
  { rewrite B7, map_app in B1. apply NoDup_app_remove_l in B1. inversion B1; assumption. }
  constructor; unfold ids_of; cbn [fst snd]; try assumption.
  - intros b' R. rewrite (Look b' R). destruct (Z.eqb_spec b' (fst x)) as [->|X].
    + apply memZ_false in Nrem. rewrite Nrem. destruct (lookupZ (fst x) rb1); reflexivity.
    + rewrite (B3 b' R), (Old b' X). cbn [map memZ existsb]. apply Z.eqb_neq in X. rewrite X. reflexivity.
  - intros n Hn. destruct (Fwd n Hn) as [Hn' Hx]. destruct (B4 n Hn') as [b' [X1 [X2 [X3 X4]]]]. exists b'.
    assert (Hb' : b' <> fst x) by (intros ->; destruct Hx; contradiction).
    rewrite (Old b' Hb'). destruct X3 as [X3|X3]; [congruence|tauto].
  - intros b' X1 X2. destruct (Z.eq_dec b' (fst x)) as [->|X]; [exact New|].
    rewrite (Old b' X). apply B5; [exact X1|]. intros [Y|Y]; [congruence|contradiction].
  - intros b' X1 X2. destruct (Z.eq_dec b' (fst x)) as [->|X]; [right; exact Nrem|].
    rewrite (Old b' X) in X2. destruct (B6 b' X1 X2) as [Y|Y]; [left; exact Y|right]. intro Z1. apply Y. now right.
  - exists (pre ++ [x]). rewrite B7, <- app_assoc. reflexivity.
Qed.

Record InvV (open : list (list Z)) (pend closed : list Z)
            (vals : list (str * Z)) (vstack : list (list (str * Z))) (fwd : list (str * Z)) (r : list (Z * Z)) : Prop := {
  iq_open : open <> [];
  iq_vals : vals = dict r (concat open);
  iq_vstack : vstack = vst r open;
  iq_fwd : fwd = dict r pend;
  iq_dom : forall v, lookupZ v r <> None <-> In v (concat open) \/ In v pend \/ In v closed
}.
Record InvB (bopen : list bent) (bseen : list Z)
            (bl : list (str * (Z * bool))) (fb : list str) (st : list (list (str * (Z * bool)) * list str))
            (rb : list (Z * Z)) : Prop := {
  iq_bstack : BStack rb bopen bl fb st;
  iq_bdom : forall b, lookupZ b rb <> None -> In b bseen;
  iq_bids : NoDup (all_ids bopen);
  iq_bseen : incl (all_ids bopen) bseen;
  iq_bcover : forall b, In b bseen -> lookupZ b rb <> None \/ exists e, In e bopen /\ In b (map fst (snd e))
}.
Record InvI (next : Z) (r rb : list (Z * Z)) : Prop := {
  iq_next : forall v i, (In (v, i) r \/ In (v, i) rb) -> (i < next)%Z;
  iq_inj : NoDup (map snd r ++ map snd rb)
}.
Definition InvQ (g : gst) (q : qst) (r rb : list (Z * Z)) : Prop :=
  InvV (g_open g) (g_pend g) (g_closed g) (q_vals q) (q_vstack q) (q_fwd q) r /\
  InvB (g_bopen g) (g_bseen g) (q_blocks q) (q_fwdb q) (q_bstack q) rb /\
  InvI (q_next q) r rb.

(* InvQ only looks at the parser-side part of the bookkeeping *)
Lemma InvQ_ghost : forall g g1 q r rb,
  g_open g1 = g_open g -> g_pend g1 = g_pend g -> g_closed g1 = g_closed g ->
  g_bopen g1 = g_bopen g -> g_bseen g1 = g_bseen g -> InvQ g q r rb -> InvQ g1 q r rb.
Proof. intros g g1 q r rb E1 E2 E3 E4 E5 H. unfold InvQ. rewrite E1, E2, E3, E4, E5. exact H. Qed.

(* the next object identity, given to a new value or block *)
Lemma InvI_val : forall n r rb v, InvI n r rb -> InvI (n + 1) ((v, n) :: r) rb.
Proof.
  intros n r rb v [NX IJ]. split.
  - intros w i [[X|X]|X]; [inversion X; lia|specialize (NX w i (or_introl X)); lia|specialize (NX w i (or_intror X)); lia].
  - cbn. constructor; [|exact IJ]. intro X. apply in_app_or in X.
    destruct X as [X|X]; apply in_map_iff in X; destruct X as [[w i] [X1 X2]]; cbn in X1; subst i.
    + specialize (NX w n (or_introl X2)). lia.
    + specialize (NX w n (or_intror X2)). lia.
Qed.
Lemma InvI_blk : forall n r rb b, InvI n r rb -> InvI (n + 1) r ((b, n) :: rb).
Proof.
  intros n r rb b [NX IJ]. split.
  - intros w i [X|[X|X]]; [specialize (NX w i (or_introl X)); lia|inversion X; lia|specialize (NX w i (or_intror X)); lia].
  - cbn. apply NoDup_app_intro.
    + apply NoDup_app_remove_r in IJ. exact IJ.
    + constructor; [|apply NoDup_app_remove_l in IJ; exact IJ].
      intro X. apply in_map_iff in X. destruct X as [[w i] [X1 X2]]. cbn in X1; subst i.
      specialize (NX w n (or_intror X2)). lia.
    + intros x X1 [X2|X2]; [|exact (NoDup_app_disj _ _ IJ x X1 X2)].
      subst x. apply in_map_iff in X1. destruct X1 as [[w i] [X1 X3]]. cbn in X1; subst i.
      specialize (NX w n (or_introl X3)). lia.
Qed.

Definition NamesOK (l : list sact) (g : gst) : Prop :=
  forall pre post g1, l = pre ++ post -> ws_run c pre g = Some g1 ->
    NoDup (map nm (active g1)) /\
    (forall e, In e (g_bopen g1) -> NoDup (map bnm (ids_of e))).

Lemma NamesOK_tail : forall a l g g1, NamesOK (a :: l) g -> ws_step c a g = Some g1 -> NamesOK l g1.
Proof.
  intros a l g g1 H E pre post g2 El Hw. apply (H (a :: pre) post g2).
  - cbn. rewrite El. reflexivity.
  - cbn. rewrite E. exact Hw.
Qed.
Lemma NamesOK_here : forall l g, NamesOK l g -> NoDup (map nm (active g)).
Proof. intros l g H. apply (H [] l g); reflexivity. Qed.
Lemma NamesOK_next : forall a l g g1, NamesOK (a :: l) g -> ws_step c a g = Some g1 ->
  NoDup (map nm (active g1)) /\ (forall e, In e (g_bopen g1) -> NoDup (map bnm (ids_of e))).
Proof.
  intros a l g g1 H E. apply (H [a] l g1); [reflexivity|]. cbn. rewrite E. reflexivity.
Qed.

Lemma InvV_fresh : forall open pend closed vals vstack fwd r v i,
  InvV open pend closed vals vstack fwd r -> lookupZ v r = None ->
  dict ((v, i) :: r) (concat open) = dict r (concat open) /\ vst ((v, i) :: r) open = vst r open /\
  dict ((v, i) :: r) pend = dict r pend.
Proof.
  intros open pend closed vals vstack fwd r v i [O V VS F D] N.
  rewrite dict_fresh, vst_fresh, dict_fresh; try assumption; [tauto| | |]; intros w Hw; apply D; tauto.
Qed.

Lemma live_incl : forall g A, incl (live g) A -> incl (concat (g_open g)) A /\ incl (g_pend g) A.
Proof. intros g A H. split; intros w Hw; apply H; apply in_or_app; [left|right]; exact Hw. Qed.

Lemma q_def_sim : forall g g1 q r rb v A,
  InvQ g q r rb -> injon A -> incl (live g) A -> In v A ->
  g_define v g = Some g1 ->
  exists q1 r1, q_def c (nm v) q = Ok (q1, OV (rho r1 v) (val_hint c (nm v))) /\
    InvQ g1 q1 r1 rb /\ ext r r1 /\ lookupZ v r1 <> None.
Proof.
  intros g g1 q r rb v A (IV & IB & II) IA LA Av H. pose proof IV as [O V VS F D].
  destruct (g_define_some _ _ _ H) as (_ & No & Nc & o & os & Eo & ->).
  destruct (live_incl g A LA) as [LO LP].
  unfold q_def. rewrite V, (lookup_dict A), (proj2 (memZ_false _ _) No), F, (lookup_dict A) by assumption.
  rewrite Eo in *. destruct (memZ v (g_pend g)) eqn:Ep.
  - (* the value was forward referenced *)
    apply memZ_In in Ep.
    assert (Dv : lookupZ v r <> None) by (apply D; right; now left).
    eexists. exists r. split; [reflexivity|]. split; [|split; [apply ext_refl|exact Dv]].
    split; [|split; [exact IB|exact II]]. constructor; cbn [g_open g_pend g_closed q_vals q_vstack q_fwd].
    + discriminate.
    + reflexivity.
    + exact VS.
    + apply (remove_key_dict A); assumption.
    + intro w. rewrite D. cbn [concat app In]. rewrite removeZ_In. clear - Ep. split.
      * intros [X|[X|X]]; [left; now right| |tauto].
        destruct (Z.eq_dec w v); [subst; left; now left|right; left; tauto].
      * intros [[X|X]|[[X _]|X]]; [subst; right; now left|tauto|tauto|tauto].
  - (* a new object *)
    apply memZ_false in Ep.
    assert (Nv : lookupZ v r = None).
    { destruct (lookupZ v r) eqn:E; [|reflexivity]. exfalso. destruct (proj1 (D v)) as [X|[X|X]]; [congruence|auto..]. }
    destruct (InvV_fresh _ _ _ _ _ _ _ v (q_next q) IV Nv) as (V1 & VS1 & F1).
    eexists. exists ((v, q_next q) :: r). rewrite rho_here.
    split; [reflexivity|]. split; [|split; [apply ext_cons; exact Nv|apply lookupZ_here]].
    split; [|split; [exact IB|apply InvI_val; exact II]]. constructor; cbn [g_open g_pend g_closed q_vals q_vstack q_fwd].
    + discriminate.
    + rewrite <- V1. unfold dict. cbn [concat app map]. rewrite rho_here. reflexivity.
    + rewrite VS, <- VS1. reflexivity.
    + rewrite removeZ_notin by exact Ep. symmetry. exact F1.
    + intro w. cbn [concat app In]. rewrite removeZ_notin by exact Ep. destruct (Z.eq_dec w v) as [->|X].
      * split; [intros _; left; now left|intros _; apply lookupZ_here].
      * rewrite lookupZ_there by exact X. rewrite D. cbn [concat]. clear - X.
        split; [intros [Y|Y]; [left; now right|tauto]|].
        intros [[Y|Y]|Y]; [congruence|tauto|tauto].
Qed.

Lemma q_use_sim : forall g g1 q r rb v A,
  InvQ g q r rb -> injon A -> incl (live g) A -> In v A ->
  g_use v g = Some g1 ->
  exists q1 r1, q_use (nm v) q = Ok (q1, OV (rho r1 v) None) /\
    InvQ g1 q1 r1 rb /\ ext r r1 /\ lookupZ v r1 <> None.
Proof.
  intros g g1 q r rb v A (IV & IB & II) IA LA Av H. pose proof IV as [O V VS F D].
  destruct (live_incl g A LA) as [LO LP].
  unfold q_use. rewrite F, (lookup_dict A), V, (lookup_dict A) by assumption.
  destruct (g_use_some _ _ _ H) as (_ & Nc & [[Hl ->]|(No & Np & ->)]).
  - (* a value of an open region, or a forward reference met before *)
    assert (Dv : lookupZ v r <> None) by (apply D; tauto).
    exists q, r. split; [|split; [exact (conj IV (conj IB II))|split; [apply ext_refl|exact Dv]]].
    destruct (memZ v (g_pend g)) eqn:Ep; [reflexivity|]. destruct (memZ v (concat (g_open g))) eqn:Eo; [reflexivity|].
    apply memZ_false in Ep, Eo. tauto.
  - (* a new forward reference *)
    rewrite (proj2 (memZ_false _ _) Np), (proj2 (memZ_false _ _) No).
    assert (Nv : lookupZ v r = None).
    { destruct (lookupZ v r) eqn:E; [|reflexivity]. exfalso. destruct (proj1 (D v)) as [X|[X|X]]; [congruence|auto..]. }
    destruct (InvV_fresh _ _ _ _ _ _ _ v (q_next q) IV Nv) as (V1 & VS1 & F1).
    eexists. exists ((v, q_next q) :: r). rewrite rho_here.
    split; [reflexivity|]. split; [|split; [apply ext_cons; exact Nv|apply lookupZ_here]].
    split; [|split; [exact IB|apply InvI_val; exact II]]. constructor; cbn [g_open g_pend g_closed q_vals q_vstack q_fwd].
    + exact O.
    + symmetry. exact V1.
    + rewrite VS. symmetry. exact VS1.
    + rewrite <- F1. unfold dict. cbn [map]. rewrite rho_here. reflexivity.
    + intro w. cbn [In]. destruct (Z.eq_dec w v) as [->|X].
      * split; [intros _; right; left; now left|intros _; apply lookupZ_here].
      * rewrite lookupZ_there by exact X. rewrite D. clear - X.
        split; [tauto|]. intros [Y|[[Y|Y]|Y]]; [tauto|congruence|tauto|tauto].
Qed.

Lemma q_succ_sim : forall g q r rb b e bs,
  InvQ g q r rb -> g_bopen g = e :: bs -> refb e b ->
  exists q1 rb1, q_succ (bnm b) q = Ok (q1, OB (rho rb1 b) None) /\
    InvQ g q1 r rb1 /\ ext rb rb1 /\ lookupZ b rb1 <> None.
Proof.
  intros g q r rb b e bs IQ Eb R. unfold InvQ in *. rewrite Eb in *.
  destruct IQ as (IV & [BS BD BI BSn BC] & II). cbn [BStack] in BS. destruct BS as [BK ST].
  destruct (q_bstack q) as [|[bl' fb'] st'] eqn:Est; [contradiction|].
  pose proof BK as [B1 B2 B3 B4 B5 B6 B7].
  unfold q_succ. rewrite (B3 b R).
  destruct (lookupZ b rb) as [i|] eqn:Erb.
  - exists q, rb. split; [unfold rho; rewrite Erb; reflexivity|]. split; [|split; [apply ext_refl|congruence]].
    split; [exact IV|split; [|exact II]]. constructor; try assumption. cbn [BStack]. rewrite Est. split; assumption.
  - (* a forward reference to a block of the region that has no label yet *)
    assert (Hin : In b (map fst (snd e))).
    { destruct (in_dec Z.eq_dec b (map fst (snd e))) as [X|X]; [exact X|]. exfalso. apply (B5 b (proj1 R) X). exact Erb. }
    assert (Nbs : ~ In b (all_ids bs)).
    { intro X. unfold all_ids in BI. cbn in BI. exact (NoDup_app_disj _ _ BI b (proj1 R) X). }
    eexists. exists ((b, q_next q) :: rb). rewrite rho_here.
    split; [reflexivity|]. split; [|split; [apply ext_cons; exact Erb|apply lookupZ_here]].
    split; [exact IV|split; [|apply InvI_blk; exact II]].
    constructor; cbn [q_blocks q_fwdb q_bstack]; try assumption.
    + cbn [BStack]. rewrite Est. split.
      * constructor; try assumption.
        -- intros b' R'. rewrite (lookup_block_cons (ids_of e)) by (assumption || apply R' || apply R).
           destruct (Z.eqb_spec b' b) as [->|X].
           ++ cbn [lookupZ]. rewrite Z.eqb_refl. apply memZ_In in Hin. rewrite Hin. reflexivity.
           ++ rewrite lookupZ_there by exact X. apply B3. exact R'.
        -- intros n [<-|Hn].
           ++ exists b. split; [apply R|]. split; [reflexivity|]. split; [exact Hin|apply lookupZ_here].
           ++ destruct (B4 n Hn) as [b' [X1 [X2 [X3 X4]]]]. exists b'. repeat split; try assumption.
              cbn. destruct (Z.eqb b' b); [discriminate|exact X4].
        -- intros b' X1 X2. cbn. destruct (Z.eqb b' b); [discriminate|apply B5; assumption].
        -- intros b' X1 X2. destruct (Z.eq_dec b' b) as [->|X]; [left; exact R|].
           rewrite lookupZ_there in X2 by exact X. apply B6; assumption.
      * apply (BStack_ext rb); [|exact ST]. intros b' Hb'. apply lookupZ_there. intros ->. contradiction.
    + intros b' X. destruct (Z.eq_dec b' b) as [->|Y].
      * apply BSn. unfold all_ids. cbn. apply in_or_app. left. apply R.
      * apply BD. rewrite lookupZ_there in X by exact Y. exact X.
    + intros b' Hb'. destruct (BC b' Hb') as [X|X]; [left|right; exact X].
      cbn. destruct (Z.eqb b' b); [discriminate|exact X].
Qed.

Lemma suffix_nodup : forall (pre : list (Z * hint)) x rem,
  NoDup (map fst (pre ++ x :: rem)) -> pre <> [] -> hd_error (map fst (pre ++ x :: rem)) <> Some (fst x).
Proof.
  intros pre x rem N Hp. destruct pre as [|y pre]; [contradiction|]. cbn. intro X. inversion X as [X1].
  cbn in N. inversion N as [|? ? N1 N2]; subst. apply N1. rewrite X1, map_app. apply in_or_app. right. now left.
Qed.

Lemma q_label_sim : forall g q r rb b h pr ls ep rem bs,
  InvQ g q r rb -> g_bopen g = (ls, ep, (b, h) :: rem) :: bs ->
  pr = (if length rem + 1 =? length ls then ep else true) ->
  let g1 := G (g_hints g) (g_frames g) (g_open g) (g_pend g) (g_closed g) (g_bseen g) ((ls, ep, rem) :: bs) in
  exists q1 rb1, q_label c (if pr then Some (bnm b) else None) q =
                   Ok (q1, OB (rho rb1 b) (if pr then blk_hint c (bnm b) else None)) /\
    InvQ g1 q1 r rb1 /\ ext rb rb1 /\ lookupZ b rb1 <> None.
Proof.
  intros g q r rb b h pr ls ep rem bs IQ Eb Epr g1. unfold InvQ, g1 in *. cbn [g_open g_pend g_closed g_bopen g_bseen].
  rewrite Eb in IQ. destruct IQ as (IV & [BS BD BI BSn BC] & II). cbn [BStack] in BS. destruct BS as [BK ST].
  destruct (q_bstack q) as [|[bl' fb'] st'] eqn:Est; [contradiction|].
  pose proof BK as [B1 B2 B3 B4 B5 B6 [pre B7]]. cbn [fst snd] in B7.
  set (e := (ls, ep, (b, h) :: rem)) in *. set (e' := (ls, ep, rem)).
  assert (Hb : In b (ids_of e)).
  { unfold ids_of, e. cbn [fst]. rewrite B7, map_app. apply in_or_app. right. now left. }
  (* the block can be named by a successor exactly when its label is printed *)
  assert (Ref : if pr then refb e b else ~ refb e b).
  { unfold refb, ids_of, e in *. cbn [fst snd] in *. subst pr.
    destruct (Nat.eqb_spec (length rem + 1) (length ls)) as [L|L].
    - assert (pre = []) as ->.
      { rewrite B7, app_length in L. cbn in L. destruct pre; [reflexivity|cbn in L; lia]. }
      cbn in B7. subst ls. destruct ep; [split; [exact Hb|now left]|]. intros [_ [Y|Y]]; [discriminate|]. apply Y. reflexivity.
    - split; [exact Hb|right]. rewrite B7 in *. apply (suffix_nodup pre (b, h) rem B1). intros ->. cbn in L. lia. }
  assert (Nbs : ~ In b (all_ids bs)).
  { intro X. unfold all_ids in BI. cbn in BI. exact (NoDup_app_disj _ _ BI b Hb X). }
  assert (Common : forall rb1 bl1 fb1, (forall b', b' <> b -> lookupZ b' rb1 = lookupZ b' rb) -> lookupZ b rb1 <> None ->
            BlkOK rb1 e' bl1 fb1 -> InvB (e' :: bs) (g_bseen g) bl1 fb1 (q_bstack q) rb1).
  { intros rb1 bl1 fb1 Old New K. constructor.
    - cbn [BStack]. rewrite Est. split; [exact K|]. apply (BStack_ext rb); [|exact ST].
      intros b' Hb'. apply Old. intros ->. contradiction.
    - intros b' X. destruct (Z.eq_dec b' b) as [->|Y].
      + apply BSn. unfold all_ids. cbn. apply in_or_app. left. exact Hb.
      + apply BD. rewrite <- (Old b' Y). exact X.
    - exact BI.
    - exact BSn.
    - intros b' Hb'. destruct (BC b' Hb') as [X|[e0 [[<-|X1] X2]]].
      + left. destruct (Z.eq_dec b' b) as [->|Y]; [exact New|rewrite (Old b' Y); exact X].
      + cbn [snd map] in X2. destruct X2 as [<-|X2]; [left; exact New|right; exists e'; split; [now left|exact X2]].
      + right. exists e0. split; [now right|exact X2]. }
  destruct pr.
  - (* printed label *)
    unfold q_label. rewrite (B3 b Ref). destruct (lookupZ b rb) as [i|] eqn:Erb.
    + (* declared by a forward reference *)
      unfold e at 1. cbn [snd map memZ existsb]. rewrite Z.eqb_refl. cbn [orb negb].
      eexists. exists rb. split; [unfold rho; rewrite Erb; reflexivity|]. split; [|split; [apply ext_refl|congruence]].
      split; [exact IV|split; [|exact II]]. apply Common; [reflexivity|congruence|].
      apply (BlkOK_label rb rb ls ep (b, h) rem _ _ _ _ BK); cbn [fst]; [reflexivity|congruence| |].
      * intros b' R'. rewrite Erb. apply (lookup_block_cons (ids_of e)); [exact B2|exact Hb|apply R'].
      * intros n Hn. apply remove_str_In in Hn. tauto.
    + (* first mention *)
      eexists. exists ((b, q_next q) :: rb). rewrite rho_here.
      split; [reflexivity|]. split; [|split; [apply ext_cons; exact Erb|apply lookupZ_here]].
      split; [exact IV|split; [|apply InvI_blk; exact II]].
      apply Common; [intros; apply lookupZ_there; assumption|apply lookupZ_here|].
      apply (BlkOK_label rb _ ls ep (b, h) rem _ _ _ _ BK); cbn [fst];
        [intros; apply lookupZ_there; assumption|apply lookupZ_here| |].
      * intros b' R'. cbn [lookupZ]. rewrite Z.eqb_refl. apply (lookup_block_cons (ids_of e)); [exact B2|exact Hb|apply R'].
      * intros n Hn. split; [exact Hn|now right].
  - (* omitted label of the entry block: no successor names it *)
    assert (Erb : lookupZ b rb = None).
    { destruct (lookupZ b rb) eqn:E; [|reflexivity]. exfalso.
      destruct (B6 b Hb) as [Y|Y]; [congruence|contradiction|]. apply Y. now left. }
    unfold q_label. eexists. exists ((b, q_next q) :: rb). rewrite rho_here.
    split; [reflexivity|]. split; [|split; [apply ext_cons; exact Erb|apply lookupZ_here]].
    split; [exact IV|split; [|apply InvI_blk; exact II]].
    apply Common; [intros; apply lookupZ_there; assumption|apply lookupZ_here|].
    apply (BlkOK_label rb _ ls ep (b, h) rem _ _ _ _ BK); cbn [fst];
      [intros; apply lookupZ_there; assumption|apply lookupZ_here| |].
    + intros b' R'. destruct (Z.eqb_spec b' b) as [->|X]; [contradiction|reflexivity].
    + intros n Hn. split; [exact Hn|now right].
Qed.

Lemma rbegin_sim : forall g q r rb ls ep,
  InvQ g q r rb ->
  NoDup (map fst ls) -> (forall b, In b (map fst ls) -> ~ In b (g_bseen g)) ->
  NoDup (map bnm (map fst ls)) ->
  InvQ (G (g_hints g) (g_frames g) ([] :: g_open g) (g_pend g) (g_closed g) (map fst ls ++ g_bseen g)
          ((ls, ep, ls) :: g_bopen g)) (q_rbegin q) r rb.
Proof.
  intros g q r rb ls ep ([O V VS F D] & [BS BD BI BSn BC] & II) N1 New N3.
  split; [|split; [|exact II]]; constructor;
    cbn [g_open g_pend g_closed g_bopen g_bseen q_vals q_vstack q_fwd q_blocks q_fwdb q_bstack q_rbegin]; try assumption.
  - discriminate.
  - destruct (g_open g) as [|o t]; [contradiction|]. cbn [vst]. f_equal; assumption.
  - cbn [BStack]. split; [|exact BS]. constructor; unfold ids_of, refb; cbn [fst snd]; try assumption.
    + intros b [Hb _]. cbn. destruct (lookupZ b rb) eqn:E; [|reflexivity]. exfalso.
      apply (New b Hb). apply BD. congruence.
    + intros n [].
    + intros b H1 H2. contradiction.
    + intros b H1 H2. exfalso. exact (New b H1 (BD b H2)).
    + exists []. reflexivity.
  - intros b Hb. apply in_or_app. right. apply BD. exact Hb.
  - unfold all_ids. cbn [map concat]. apply NoDup_app_intro; [exact N1|exact BI|].
    intros b H1 H2. exact (New b H1 (BSn b H2)).
  - unfold all_ids. cbn [map concat]. apply incl_app; [apply incl_appl; apply incl_refl|apply incl_appr; exact BSn].
  - intros b Hb. apply in_app_or in Hb. destruct Hb as [Hb|Hb].
    + right. exists (ls, ep, ls). split; [now left|exact Hb].
    + destruct (BC b Hb) as [X|[e0 [X1 X2]]]; [now left|right]. exists e0. split; [now right|exact X2].
Qed.

Lemma rend_sim : forall g q r rb o o2 os ls ep bs,
  InvQ g q r rb -> g_open g = o :: o2 :: os -> g_bopen g = (ls, ep, []) :: bs ->
  exists q1, q_rend q = Ok q1 /\
    InvQ (G (g_hints g) (g_frames g) (o2 :: os) (g_pend g) (o ++ g_closed g) (g_bseen g) bs) q1 r rb.
Proof.
  intros g q r rb o o2 os ls ep bs IQ Eo Eb. unfold InvQ in *. rewrite Eo, Eb in IQ.
  destruct IQ as ([O V VS F D] & [BS BD BI BSn BC] & II). cbn [BStack] in BS. destruct BS as [BK ST].
  destruct (q_bstack q) as [|[bl' fb'] st'] eqn:Est; [contradiction|].
  unfold q_rend.
  assert (Ef : q_fwdb q = []).
  { destruct (q_fwdb q) as [|n fb] eqn:E; [reflexivity|]. exfalso.
    destruct (bk_fwd _ _ _ _ BK n (or_introl eq_refl)) as [b [_ [_ [X _]]]]. exact X. }
  rewrite Ef, VS, Est. cbn [vst].
  eexists. split; [reflexivity|].
  split; [|split; [|exact II]]; constructor;
    cbn [g_open g_pend g_closed g_bopen g_bseen q_vals q_vstack q_fwd q_blocks q_fwdb q_bstack]; try assumption.
  - discriminate.
  - reflexivity.
  - reflexivity.
  - intro w. rewrite D. cbn [concat]. rewrite !in_app_iff. clear. tauto.
  - unfold all_ids in BI. cbn in BI. apply NoDup_app_remove_l in BI. exact BI.
  - intros b Hb. apply BSn. unfold all_ids. cbn. apply in_or_app. now right.
  - intros b Hb. destruct (BC b Hb) as [X|[e0 [[<-|X1] X2]]]; [now left|destruct X2|right]. exists e0. tauto.
Qed.

(* the parser's step succeeds with the leaves the act stands for, which later objects do not change *)
Definition sim_step (g1 : gst) (r rb : list (Z * Z)) (a : sact) (x : res (qst * list out)) : Prop :=
  exists q1 r1 rb1, x = Ok (q1, qout r1 rb1 a) /\ InvQ g1 q1 r1 rb1 /\ ext r r1 /\ ext rb rb1 /\
    (forall r2 rb2, ext r1 r2 -> ext rb1 rb2 -> qout r2 rb2 a = qout r1 rb1 a).

Lemma sim_skip : forall g1 q r rb a, (forall r' rb', qout r' rb' a = []) -> InvQ g1 q r rb ->
  sim_step g1 r rb a (Ok (q, [])).
Proof.
  intros g1 q r rb a E IQ. exists q, r, rb. rewrite E. split; [reflexivity|]. split; [exact IQ|].
  split; [apply ext_refl|]. split; [apply ext_refl|]. intros. rewrite !E. reflexivity.
Qed.
Lemma sim_val : forall g1 q1 r r1 rb a v hv, (forall r' rb', qout r' rb' a = [OV (rho r' v) hv]) ->
  InvQ g1 q1 r1 rb -> ext r r1 -> lookupZ v r1 <> None -> sim_step g1 r rb a (Ok (q1, [OV (rho r1 v) hv])).
Proof.
  intros g1 q1 r r1 rb a v hv E IQ E1 Hv. exists q1, r1, rb. rewrite E. split; [reflexivity|]. split; [exact IQ|].
  split; [exact E1|]. split; [apply ext_refl|]. intros r2 rb2 E2 _. rewrite !E, (rho_ext r1 r2) by assumption. reflexivity.
Qed.
Lemma sim_blk : forall g1 q1 r rb rb1 a b hb, (forall r' rb', qout r' rb' a = [OB (rho rb' b) hb]) ->
  InvQ g1 q1 r rb1 -> ext rb rb1 -> lookupZ b rb1 <> None -> sim_step g1 r rb a (Ok (q1, [OB (rho rb1 b) hb])).
Proof.
  intros g1 q1 r rb rb1 a b hb E IQ E1 Hb. exists q1, r, rb1. rewrite E. split; [reflexivity|]. split; [exact IQ|].
  split; [apply ext_refl|]. split; [exact E1|]. intros r2 rb2 _ E2. rewrite !E, (rho_ext rb1 rb2) by assumption. reflexivity.
Qed.

Lemma stepQ_sim : forall a l g g1 q r rb,
  GInv g -> InvQ g q r rb -> NamesOK (a :: l) g -> ws_step c a g = Some g1 ->
  sim_step g1 r rb a (stepQ c (name_act a) q).
Proof.
  intros a l g g1 q r rb GI IQ NO H.
  destruct (NamesOK_next _ _ _ _ NO H) as [ND1 NB1].
  pose proof (NamesOK_here _ _ NO) as ND0.
  assert (Mention : forall v h g', g_mention v h g = Some g' -> InvQ g' q r rb).
  { intros v h g' Hm. destruct (g_mention_hints v h g g' Hm) as (_ & A1 & A2 & A3 & A4 & A5).
    apply (InvQ_ghost g); assumption. }
  destruct a as [[v h]|[v h]| |[v h]|b|ls ep|[b h] pr|[v h]| | |[v h]|[v h]];
    unfold name_act; cbn [amapP stepQ fst].
  - apply sim_skip; [reflexivity|]. exact (Mention v h g1 H).
  - apply sim_skip; [reflexivity|]. cbn in H. destruct (fx_iso_operands c); [exact (Mention v h g1 H)|inversion H; subst; exact IQ].
  - apply sim_skip; [reflexivity|]. cbn in H. inversion H; subst. exact IQ.
  - apply sim_skip; [reflexivity|]. exact (Mention v h g1 H).
  - destruct (ws_succ_some _ _ _ _ H) as (-> & e & bs & Eb & R).
    destruct (q_succ_sim g q r rb b e bs IQ Eb R) as (q1 & rb1 & -> & S2 & S3 & S4).
    apply (sim_blk g q1 r rb rb1 (Asucc b) b None); [reflexivity|assumption..].
  - destruct (ws_rbegin_some _ _ _ _ _ H) as (N1 & New & ->). apply sim_skip; [reflexivity|].
    apply rbegin_sim; try assumption. apply (NB1 (ls, ep, ls)). cbn. now left.
  - destruct (ws_label_some _ _ _ _ _ _ H) as (ls & ep & rem & bs & Eb & Epr & ->).
    destruct (q_label_sim g q r rb b h pr ls ep rem bs IQ Eb Epr) as (q1 & rb1 & S1 & S2 & S3 & S4).
    rewrite S1. apply (sim_blk _ q1 r rb rb1 (Alabel (b, h) pr) b); [reflexivity|assumption..].
  - cbn in H. destruct (g_mention v h g) as [gm|] eqn:Em; [|discriminate].
    assert (GIm : GInv gm) by exact (g_mention_inv v h g gm GI Em).
    destruct (g_define_some _ _ _ H) as (Hv & _ & Nc & o & os & _ & Eg1).
    assert (Fr : active g1 = active gm) by (subst g1; reflexivity).
    destruct (q_def_sim gm g1 q r rb v (active g1) (Mention v h gm Em)) as (q1 & r1 & -> & S2 & S3 & S4).
    + exact (NoDup_map_inj nm _ ND1).
    + intros w Hw. rewrite Fr. apply (live_active gm w GIm Hw).
    + rewrite Fr. exact (printed_active gm v GIm Hv Nc).
    + exact H.
    + apply (sim_val g1 q1 r r1 rb (Abarg (v, h)) v); [reflexivity|assumption..].
  - destruct (ws_rend_some _ _ _ H) as (o & o2 & os & ls & ep & bs & Eo & Eb & ->).
    destruct (rend_sim g q r rb o o2 os ls ep bs IQ Eo Eb) as [q1 [-> S2]]. apply sim_skip; [reflexivity|exact S2].
  - destruct (ws_exit_some _ _ _ H) as (f & f2 & fs & _ & _ & ->). apply sim_skip; [reflexivity|exact IQ].
  - destruct (g_use_some _ _ _ H) as (Hv & Nc & _).
    destruct (q_use_sim g g1 q r rb v (active g) IQ) as (q1 & r1 & -> & S2 & S3 & S4).
    + exact (NoDup_map_inj nm _ ND0).
    + intros w Hw. apply (live_active g w GI Hw).
    + exact (printed_active g v GI Hv Nc).
    + exact H.
    + apply (sim_val g1 q1 r r1 rb (Aarg_post (v, h)) v); [reflexivity|assumption..].
  - destruct (g_define_some _ _ _ H) as (Hv & _ & Nc & _).
    destruct (q_def_sim g g1 q r rb v (active g) IQ) as (q1 & r1 & -> & S2 & S3 & S4).
    + exact (NoDup_map_inj nm _ ND0).
    + intros w Hw. apply (live_active g w GI Hw).
    + exact (printed_active g v GI Hv Nc).
    + exact H.
    + apply (sim_val g1 q1 r r1 rb (Ares_post (v, h)) v); [reflexivity|assumption..].
Qed.

Lemma runQ_sim : forall l g g1 q r rb,
  GInv g -> InvQ g q r rb -> NamesOK l g -> ws_run c l g = Some g1 ->
  exists q1 r1 rb1, runQ c (map name_act l) q = Ok (q1, qouts r1 rb1 l) /\
    InvQ g1 q1 r1 rb1 /\ ext r r1 /\ ext rb rb1.
Proof.
  induction l as [|a l IH]; intros g g1 q r rb GI IQ NO H; cbn in H.
  - inversion H; subst. exists q, r, rb. cbn. split; [reflexivity|]. split; [exact IQ|]. split; apply ext_refl.
  - destruct (ws_step c a g) as [g2|] eqn:E; [|discriminate].
    destruct (stepQ_sim a l g g2 q r rb GI IQ NO E) as [q2 [r2 [rb2 [S1 [S2 [S3 [S4 S5]]]]]]].
    destruct (IH g2 g1 q2 r2 rb2) as [q1 [r1 [rb1 [T1 [T2 [T3 T4]]]]]].
    + eapply ws_step_inv; eauto.
    + exact S2.
    + eapply NamesOK_tail; eauto.
    + exact H.
    + exists q1, r1, rb1. cbn [map runQ]. rewrite S1, T1. split.
      * unfold qouts. cbn [flat_map]. rewrite (S5 r1 rb1 T3 T4). reflexivity.
      * split; [exact T2|]. split; eapply ext_trans; eauto.
Qed.

End Sim.
