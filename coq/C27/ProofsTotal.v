(* C27/ProofsTotal.v -- the conversion of the restricted language never fails when the rewrite part only refers
   to values that exist: local values defined by an earlier statement, constants, or values of the match part
   that the match tree reaches (`rw_ok`, an executable check). *)
From Coq Require Import ZArith List Bool Lia.
From XV Require Import C27.Model C27.ProofsChain C27.ProofsMatch.
Import ListNotations.
Local Open Scope Z_scope.

Section Total.
Variable fx : fixes.
Variable P : pattern.
Variable inp : inputs.
Variable root : op_pat.

Definition is_const (k : key) : bool :=
  match k with
  | KAttr a => match p_aconst P a with Some c => truthy c || fx_falsy fx | None => false end
  | KType t => match p_tconst P t with Some _ => true | None => false end
  | _ => false
  end.
Definition avail (defined : list key) (k : key) : bool :=
  kmem k defined || is_const k || match klookup inp k with Some _ => true | None => false end.

Fixpoint rw_ok (defined : list key) (l : list stmt) : bool :=
  match l with
  | [] => true
  | s :: r =>
      match s with
      | SAttr l _ | SType l _ => rw_ok (KLocal l :: defined) r
      | SOp l _ operands attrs tys =>
          forallb (avail defined) (map vref_key operands) &&
          forallb (avail defined) (map (fun na => aref_key (snd na)) attrs) &&
          match tys with
          | [] => if existsb (is_replace_with l) r then avail defined (KOp (op_id root)) else true
          | _ => forallb (avail defined) (map tref_key tys)
          end && rw_ok (KLocal l :: defined) r
      | SResult l lop _ => avail defined (KLocal lop) && rw_ok (KLocal l :: defined) r
      | SReplaceVals vs => forallb (avail defined) (map vref_key vs) && avail defined (KOp (op_id root)) && rw_ok defined r
      | SReplaceOp l =>
          match op_rtys root with [] => true | _ => avail defined (KLocal l) end &&
          avail defined (KOp (op_id root)) && rw_ok defined r
      | SErase => avail defined (KOp (op_id root)) && rw_ok defined r
      end
  end.

(* every key the check considers defined has a translation in the rewriter state *)
Definition covers (st : rg) (defined : list key) : Prop :=
  forall k, kmem k defined = true -> klookup (rg_vals st) k <> None.

Lemma covers_key : forall vals defined k (r : rreg),
  (forall k', kmem k' defined = true -> klookup vals k' <> None) ->
  (forall k', kmem k' (k :: defined) = true -> klookup ((k, r) :: vals) k' <> None).
Proof.
  intros vals defined k r H k' Hk'. simpl in Hk'. simpl. destruct (key_eqb k k'); [discriminate | apply H; exact Hk'].
Qed.
Lemma covers_cons : forall vals defined k (r : rreg),
  (forall k', kmem k' defined = true -> klookup vals k' <> None) ->
  (forall k', kmem k' defined = true -> klookup ((k, r) :: vals) k' <> None).
Proof.
  intros vals defined k r H k' Hk'. apply (covers_key vals defined k r H). simpl. rewrite Hk'. apply orb_true_r.
Qed.

Lemma map_value_total : forall st defined k,
  covers st defined -> avail defined k = true ->
  exists st' c r, map_value fx P inp st k = Some (st', c, r) /\ covers st' defined /\ klookup (rg_vals st') k <> None.
Proof.
  intros st defined k Hc Ha. unfold map_value.
  destruct (klookup (rg_vals st) k) as [r|] eqn:E.
  - exists st, [], r. split; [reflexivity | split; [exact Hc | rewrite E; discriminate]].
  - assert (Hnew : forall mk, exists st' c r, rtmp st (Some k) mk = (st', c, r) /\ covers st' defined /\
                                              klookup (rg_vals st') k <> None).
    { intro mk. unfold rtmp. eexists _, _, _. split; [reflexivity |]. split.
      - unfold covers. cbn [rg_vals]. apply covers_cons. exact Hc.
      - cbn [rg_vals]. rewrite klookup_cons_eq. discriminate. }
    match goal with |- context [match ?cst with Some mk => _ | None => _ end] => destruct cst as [mk|] eqn:Ecst end.
    + destruct (Hnew mk) as (st' & c & r & E1 & H1 & H2). rewrite E1. eauto 6.
    + unfold avail in Ha. apply orb_true_iff in Ha. destruct Ha as [Ha | Ha].
      { apply orb_true_iff in Ha. destruct Ha as [Ha | Ha]; [exfalso; apply (Hc k Ha); exact E |].
        exfalso. unfold is_const in Ha. destruct k; try discriminate.
        - destruct (p_tconst P i); discriminate.
        - destruct (p_aconst P i) as [c|]; [| discriminate]. rewrite Ha in Ecst. discriminate. }
      destruct (klookup inp k) as [p|] eqn:Ei; [| discriminate].
      eexists _, _, _. split; [reflexivity |]. split.
      * unfold covers. cbn [rg_vals]. apply covers_cons. exact Hc.
      * cbn [rg_vals]. rewrite klookup_cons_eq. discriminate.
Qed.

Lemma map_values_total : forall ks st defined,
  covers st defined -> forallb (avail defined) ks = true ->
  exists st' c rs, map_values fx P inp st ks = Some (st', c, rs) /\ covers st' defined.
Proof.
  induction ks as [|k ks IH]; intros st defined Hc Ha; simpl.
  - eexists _, _, _. split; [reflexivity | exact Hc].
  - simpl in Ha. apply andb_true_iff in Ha. destruct Ha as [H1 H2].
    destruct (map_value_total st defined k Hc H1) as (st1 & c1 & r1 & E1 & Hc1 & _). rewrite E1.
    destruct (IH st1 defined Hc1 H2) as (st2 & c2 & rs & E2 & Hc2). rewrite E2.
    eexists _, _, _. split; [reflexivity | exact Hc2].
Qed.

Ltac solve_covers :=
  unfold covers in *; cbv beta iota zeta delta [rtmp fst snd]; cbn [rg_vals];
  first [assumption | apply covers_key; assumption].

Lemma gen_stmt_total : forall s later st defined,
  covers st defined -> rw_ok defined (s :: later) = true ->
  exists st' c defined', gen_stmt fx P inp root st s later = Some (st', c) /\ covers st' defined' /\
                         rw_ok defined' later = true.
Proof.
  intros s later st defined Hc Hok. destruct s; cbn [rw_ok] in Hok; cbn [gen_stmt].
  - eexists _, _, (KLocal l :: defined). split; [reflexivity | split; [solve_covers | exact Hok]].
  - eexists _, _, (KLocal l :: defined). split; [reflexivity | split; [solve_covers | exact Hok]].
  - apply andb_true_iff in Hok. destruct Hok as [Hok Hr]. apply andb_true_iff in Hok. destruct Hok as [Hok Ht].
    apply andb_true_iff in Hok. destruct Hok as [Ho Ha].
    destruct (map_values_total _ st defined Hc Ho) as (st1 & c1 & ro & E1 & Hc1). rewrite E1.
    destruct (map_values_total _ st1 defined Hc1 Ha) as (st2 & c2 & ra & E2 & Hc2). rewrite E2.
    destruct tys as [|t tys].
    + destruct (existsb (is_replace_with l) later).
      * destruct (map_value_total st2 defined _ Hc2 Ht) as (st3 & c3 & r3 & E3 & Hc3 & _). rewrite E3.
        eexists _, _, (KLocal l :: defined). split; [reflexivity | split; [solve_covers | exact Hr]].
      * eexists _, _, (KLocal l :: defined). split; [reflexivity | split; [solve_covers | exact Hr]].
    + destruct (map_values_total _ st2 defined Hc2 Ht) as (st3 & c3 & rt & E3 & Hc3). rewrite E3.
      eexists _, _, (KLocal l :: defined). split; [reflexivity | split; [solve_covers | exact Hr]].
  - apply andb_true_iff in Hok. destruct Hok as [Ha Hr].
    destruct (map_value_total st defined _ Hc Ha) as (st1 & c1 & r1 & E1 & Hc1 & _). rewrite E1.
    eexists _, _, (KLocal l :: defined). split; [reflexivity | split; [solve_covers | exact Hr]].
  - apply andb_true_iff in Hok. destruct Hok as [Hok Hr]. apply andb_true_iff in Hok. destruct Hok as [Hv Hroot].
    destruct (map_values_total _ st defined Hc Hv) as (st1 & c1 & rs & E1 & Hc1). rewrite E1.
    destruct (map_value_total st1 defined _ Hc1 Hroot) as (st2 & c2 & r2 & E2 & Hc2 & _). rewrite E2.
    eexists _, _, defined. split; [reflexivity | split; [exact Hc2 | exact Hr]].
  - apply andb_true_iff in Hok. destruct Hok as [Hok Hr]. apply andb_true_iff in Hok. destruct Hok as [Hl Hroot].
    destruct (op_rtys root) as [|t ts].
    + destruct (map_value_total st defined _ Hc Hroot) as (st1 & c1 & r1 & E1 & Hc1 & _). rewrite E1.
      eexists _, _, defined. split; [reflexivity | split; [exact Hc1 | exact Hr]].
    + destruct (map_value_total st defined _ Hc Hl) as (st1 & c1 & r1 & E1 & Hc1 & _). rewrite E1.
      cbv beta iota zeta delta [rtmp].
      match goal with |- context [map_value fx P inp ?s (KOp (op_id root))] =>
        destruct (map_value_total s defined (KOp (op_id root))) as (st2 & c2 & r2 & E2 & Hc2 & _);
          [exact Hc1 | exact Hroot |] end.
      rewrite E2. eexists _, _, defined. split; [reflexivity | split; [exact Hc2 | exact Hr]].
  - apply andb_true_iff in Hok. destruct Hok as [Hroot Hr].
    destruct (map_value_total st defined _ Hc Hroot) as (st1 & c1 & r1 & E1 & Hc1 & _). rewrite E1.
    eexists _, _, defined. split; [reflexivity | split; [exact Hc1 | exact Hr]].
Qed.

Lemma gen_stmts_total : forall l st defined,
  covers st defined -> rw_ok defined l = true -> exists st' c, gen_stmts fx P inp root st l = Some (st', c).
Proof.
  induction l as [|s l IH]; intros st defined Hc Hok; simpl; [eauto |].
  destruct (gen_stmt_total s l st defined Hc Hok) as (st1 & c1 & d1 & E1 & Hc1 & Hok1). rewrite E1.
  destruct (IH st1 d1 Hc1 Hok1) as (st2 & c2 & E2). rewrite E2. eauto.
Qed.
End Total.

(* the whole check on a pattern *)
Definition rewrite_refs_ok (fx : fixes) (P : pattern) : bool :=
  rw_ok fx P (snd (extract fx P)) (p_root P) [] (p_rw P).

Theorem compile_total : forall fx P, rewrite_refs_ok fx P = true -> exists c, compile fx P = Some c.
Proof.
  intros fx P H. unfold rewrite_refs_ok in H. unfold compile. destruct (extract fx P) as [preds inp]. cbn [snd] in H.
  destruct (gen_stmts_total fx P inp (p_root P) (p_rw P) rg_init [] ltac:(intros k Hk; discriminate Hk) H) as (st & c & E).
  rewrite E. eauto.
Qed.
