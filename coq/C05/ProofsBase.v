(* C05/ProofsBase.v -- the Spec the theorems are stated against (inst_equiv) and the invariants
   shared by the proof files, with their basic lemmas. *)
From Coq Require Import ZArith String Bool Arith List Lia.
From XV Require Import C05.Model C05.Check.
Import ListNotations.
Local Open Scope string_scope.
Local Open Scope list_scope.

(* Spec: equivalence of instances.
   Two instances are equivalent when they have the same operands (values and types) and result
   types and their property / attribute dictionaries have the same meaning, where a name that is
   absent means its declared default value (if the definition has one). *)
Definition adef_default (defs : list adef) (n : string) : option av :=
  match find_adef n defs with Some a => ad_default a | None => None end.
Definition lookup_def (defs : list adef) (dct : list (string * av)) (n : string) : option av :=
  match lookup n dct with Some a => Some a | None => adef_default defs n end.
Definition inst_equiv (d : opdef) (a b : inst) : Prop :=
  i_operands a = i_operands b /\
  i_results a = i_results b /\
  (forall n, lookup_def (od_props d) (i_props a) n = lookup_def (od_props d) (i_props b) n) /\
  (forall n, lookup_def (od_attrs d) (i_attrs a) n = lookup_def (od_attrs d) (i_attrs b) n).

Lemma lead_eqb_eq : forall a b, lead_eqb a b = true <-> a = b.
Proof. destruct a, b; simpl; split; intro H; try reflexivity; try discriminate. Qed.
Lemma lead_eqb_refl : forall a, lead_eqb a a = true.
Proof. destruct a; reflexivity. Qed.
Lemma av_eqb_eq : forall a b, av_eqb a b = true <-> a = b.
Proof.
  intros [ia fa sa] [ib fb sb]; unfold av_eqb; simpl.
  rewrite !andb_true_iff, Z.eqb_eq, !lead_eqb_eq. split.
  - intros [[-> ->] ->]; reflexivity.
  - intro H; inversion H; auto.
Qed.
Lemma av_eqb_refl : forall a, av_eqb a a = true.
Proof. intro a; apply av_eqb_eq; reflexivity. Qed.
Lemma is_default_eq : forall a dflt, is_default a dflt = true <-> dflt = Some a.
Proof.
  intros a [x|]; simpl.
  - rewrite av_eqb_eq. split; intro H; [subst; reflexivity | inversion H; reflexivity].
  - split; intro H; discriminate.
Qed.
Lemma mem_In : forall n l, mem n l = true <-> In n l.
Proof.
  intros n l; unfold mem; rewrite existsb_exists; split.
  - intros [x [Hin He]]. apply String.eqb_eq in He; subst; exact Hin.
  - intro H; exists n; split; [exact H | apply String.eqb_refl].
Qed.

Lemma lookup_In : forall n a d, lookup n d = Some a -> In (n, a) d.
Proof.
  induction d as [|[k v] r IH]; simpl; intro H; [discriminate|].
  destruct (String.eqb k n) eqn:E.
  - apply String.eqb_eq in E; inversion H; subst; left; reflexivity.
  - right; apply IH; exact H.
Qed.
Lemma lookup_None_notin : forall n d, lookup n d = None -> ~ In n (map fst d).
Proof.
  induction d as [|[k v] r IH]; simpl; intros H; [tauto|].
  destruct (String.eqb k n) eqn:E; [discriminate|].
  intros [Hk|Hin]; [subst; rewrite String.eqb_refl in E; discriminate | exact (IH H Hin)].
Qed.
Lemma nodup_keys_lookup : forall d n a, nodup_keys d = true -> In (n, a) d -> lookup n d = Some a.
Proof.
  induction d as [|[k v] r IH]; simpl; intros n a Hnd Hin; [tauto|].
  apply andb_true_iff in Hnd; destruct Hnd as [Hk Hr].
  destruct Hin as [Heq|Hin].
  - inversion Heq; subst; rewrite String.eqb_refl; reflexivity.
  - destruct (String.eqb k n) eqn:E.
    + apply String.eqb_eq in E; subst.
      apply negb_true_iff in Hk.
      assert (mem n (map fst r) = true) as Hm.
      { apply mem_In. change n with (fst (n, a)). apply in_map; exact Hin. }
      rewrite Hm in Hk; discriminate.
    + apply IH; assumption.
Qed.

Definition isset {A} (l : list (option A)) (k : nat) : Prop := exists x, nth_error l k = Some (Some x).
Definition vals_of (i : inst) (k : nat) : list Z := map fst (nth k (i_operands i) []).
Definition otys_of (i : inst) (k : nat) : list av := map snd (nth k (i_operands i) []).
Definition rtys_of (i : inst) (k : nat) : list av := nth k (i_results i) [].

(* whatever the state holds is the instance's data *)
Record agree (d : opdef) (i : inst) (st : pst) : Prop := mkAgree {
  ag_len_v : length (p_vals st) = length (od_operands d);
  ag_len_o : length (p_otys st) = length (od_operands d);
  ag_len_r : length (p_rtys st) = length (od_results d);
  ag_v : forall k vs, nth_error (p_vals st) k = Some (Some vs) -> vs = vals_of i k;
  ag_o : forall k ts, nth_error (p_otys st) k = Some (Some ts) -> ts = otys_of i k;
  ag_r : forall k ts, nth_error (p_rtys st) k = Some (Some ts) -> ts = rtys_of i k;
  ag_p : forall n a, lookup n (p_props st) = Some a -> lookup n (i_props i) = Some a;
  ag_a : forall n a, lookup n (p_attrs st) = Some a -> lookup n (i_attrs i) = Some a
}.

(* what the state holds at the end of the format *)
Definition final_cov (d : opdef) (f : format) (i : inst) (st : pst) : Prop :=
  (forall k, k < length (od_operands d) -> existsb (sets_vals k) (all_elems f) = true -> isset (p_vals st) k) /\
  (forall k, k < length (od_operands d) -> existsb (sets_otys k) (all_elems f) = true -> isset (p_otys st) k) /\
  (forall k, k < length (od_results d) -> existsb (sets_rtys k) (all_elems f) = true -> isset (p_rtys st) k) /\
  (forall n a, lookup n (i_props i) = Some a ->
     lookup n (p_props st) = Some a \/ is_default a (adef_default (od_props d) n) = true) /\
  (forall n a, lookup n (i_attrs i) = Some a ->
     lookup n (p_attrs st) = Some a \/ is_default a (adef_default (od_attrs d) n) = true).

Lemma agree_init : forall d i, agree d i (init_pst d).
Proof.
  intros d i; constructor; simpl; try (rewrite map_length; reflexivity).
  - intros k vs H. rewrite nth_error_map in H. destruct (nth_error (od_operands d) k); discriminate.
  - intros k vs H. rewrite nth_error_map in H. destruct (nth_error (od_operands d) k); discriminate.
  - intros k vs H. rewrite nth_error_map in H. destruct (nth_error (od_results d) k); discriminate.
  - intros; discriminate.
  - intros; discriminate.
Qed.

Lemma set_nth_length : forall A (l : list A) n x, length (set_nth n x l) = length l.
Proof. induction l as [|y r IH]; intros [|n] x; simpl; auto. Qed.
Lemma nth_error_set_nth_eq : forall A (l : list A) n x, n < length l -> nth_error (set_nth n x l) n = Some x.
Proof. induction l as [|y r IH]; intros [|n] x H; simpl in *; try lia; auto. apply IH; lia. Qed.
Lemma nth_error_set_nth_neq : forall A (l : list A) n m x, n <> m -> nth_error (set_nth n x l) m = nth_error l m.
Proof.
  induction l as [|y r IH]; intros [|n] [|m] x H; simpl; auto; try congruence.
Qed.
