(* C19/ProofsLoop.v -- riscv_scf.for (one nesting level), the pieces that hold for an arbitrary invariant:
   allocating the loop-carried groups, reserving / unreserving their registers, and changing the typing so
   that the group members count as pre-assigned while the body is walked (re-basing). *)
From Coq Require Import ZArith List Bool Arith Lia.
From XV Require Import C19.Model C19.ProofsSpec C19.ProofsStack C19.ProofsAlloc C19.ProofsOp C19.ProofsStep
                       C19.ProofsMain.
Import ListNotations.
Local Open Scope Z_scope.

Lemma ty_set_all : forall vs R a w,
  ty (fold_left (fun a v => set_ty v R a) vs a) w = if memN w vs then Some R else ty a w.
Proof.
  induction vs as [|v t IH]; intros R a w; [reflexivity|].
  simpl. rewrite IH. simpl. destruct (Nat.eqb w v), (memN w t); reflexivity.
Qed.

Lemma ty_set_all_in : forall vs R a w, In w vs -> ty (fold_left (fun a v => set_ty v R a) vs a) w = Some R.
Proof. intros vs R a w H. rewrite ty_set_all. apply memN_In in H. rewrite H. reflexivity. Qed.

Lemma ty_set_all_out : forall vs R a w, ~ In w vs -> ty (fold_left (fun a v => set_ty v R a) vs a) w = ty a w.
Proof.
  intros vs R a w H. rewrite ty_set_all. destruct (memN w vs) eqn:E; [|reflexivity].
  apply memN_In in E. contradiction.
Qed.

Lemma set_all_mono : forall vs R a, (forall v, In v vs -> ty a v = None) ->
  mono a (fold_left (fun a v => set_ty v R a) vs a).
Proof.
  intros vs R a Hn w q Hq. rewrite ty_set_all_out; [exact Hq|].
  intro Hc. rewrite (Hn w Hc) in Hq. discriminate.
Qed.

(* `for val in vals: if val.type != reg_type: replace`, on values none of which has a register yet *)
Lemma assign_all_fresh : forall vs R a, NoDup vs -> (forall v, In v vs -> ty a v = None) ->
  assign_all vs R a = fold_left (fun a v => set_ty v R a) vs a.
Proof.
  induction vs as [|v t IH]; intros R a Hnd Hn; [reflexivity|].
  inversion Hnd as [|? ? Hv Hnd']; subst. unfold assign_all. simpl.
  rewrite (Hn v (or_introl eq_refl)). simpl. apply IH; [exact Hnd'|].
  intros u Hu. rewrite set_ty_other; [exact (Hn u (or_intror Hu)) | intro Hc; subst; exact (Hv Hu)].
Qed.

Lemma assign_all_last : forall us r_ R a, ty (assign_all us R a) r_ = Some R ->
  assign_all (us ++ [r_]) R a = assign_all us R a.
Proof.
  intros us r_ R a H. unfold assign_all in *. rewrite fold_left_app. simpl. rewrite H. simpl.
  rewrite Z.eqb_refl. reflexivity.
Qed.

Lemma somes_app : forall l1 l2, somes (l1 ++ l2) = somes l1 ++ somes l2.
Proof. induction l1 as [|[x|] l1 IH]; intros l2; simpl; [reflexivity | rewrite IH; reflexivity | apply IH]. Qed.

Lemma somes_map_none : forall {A} (g : A -> option Z) l, (forall x, In x l -> g x = None) -> somes (map g l) = [].
Proof.
  intros A g l H. induction l as [|x t IH]; simpl; [reflexivity|].
  rewrite (H x (or_introl eq_refl)). apply IH. intros y Hy. exact (H y (or_intror Hy)).
Qed.

(* allocate_values_same_reg on a group whose members, except perhaps the last, are still unallocated
   (a loop-carried group: block argument, iter operand, yield operand, then the loop result) *)
Lemma same_reg_group_spec : forall us r_ a a',
  NoDup (us ++ [r_]) -> (forall u, In u us -> ty a u = None) ->
  allocate_values_same_reg (us ++ [r_]) a = Ok a' ->
  (ty a r_ = None /\ exists R s, pop (stk a) = Ok (R, s)
     /\ a' = fold_left (fun a v => set_ty v R a) (us ++ [r_]) (set_stk a s))
  \/ (exists R, ty a r_ = Some R /\ a' = fold_left (fun a v => set_ty v R a) us a).
Proof.
  intros us r_ a a' Hnd Hus H. unfold allocate_values_same_reg in H. cbv zeta in H.
  rewrite map_app, somes_app, (somes_map_none (ty a) us Hus) in H.
  simpl in H. destruct (ty a r_) as [R|] eqn:Er; simpl in H.
  - right. exists R. split; [reflexivity|]. inversion H.
    pose proof (assign_all_fresh us R a (NoDup_app_l _ _ Hnd) Hus) as Hf.
    rewrite assign_all_last; [exact Hf|]. rewrite Hf, ty_set_all_out; [exact Er|].
    intro Hc. exact (NoDup_app_disjoint _ _ Hnd r_ Hc (or_introl eq_refl)).
  - left. split; [reflexivity|].
    rewrite existsb_app, orb_true_r in H.
    destruct (pop (stk a)) as [[R s]|e]; simpl in H; [|discriminate].
    exists R, s. split; [reflexivity|]. inversion H. apply assign_all_fresh; [exact Hnd|].
    intros v Hv. apply in_app_or in Hv. destruct Hv as [Hv|[Hv|[]]]; [exact (Hus v Hv) | subst v; exact Er].
Qed.

Section Group.
  Variable c : cfg.
  Variable t0 : value -> option Z.
  Variable FR : value -> Z -> Prop.
  Hypothesis FR_pre : forall v r, t0 v = Some r -> FR v r.
  Notation Inv := (Inv c t0 FR).
  Notation Pset := (Pset t0).

  Lemma set_members : forall g (E : value -> value -> Prop) R,
    (forall u w, In u g -> In w g -> E u w) ->
    forall vs (L M : value -> Prop) a,
    Inv L E M a ->
    (forall v, In v vs -> In v g /\ ty a v = None) -> NoDup vs ->
    ~ In R (available (stk a)) ->
    (R < 0 -> - R - 1 < next_inf (stk a) /\ (allow_inf (stk a) = true \/ Pset R)) ->
    (zero_rule c = true -> R <> 0) ->
    (Pset R -> forall u, In u g -> FR u R) ->
    (In R (allocatable (stk a)) \/ (R < 0 /\ allow_inf (stk a) = true) \/ Pset R) ->
    (forall w, L w -> ~ In w g -> ty a w = Some R -> Pset R \/ (zero_rule c = true /\ R = 0)) ->
    Inv (setof L vs) E (setof M vs) (fold_left (fun a v => set_ty v R a) vs a).
  Proof.
    intros g E R HEin. induction vs as [|v t IH]; intros L M a HI Hvs Hnd Hna Hneg Hnz HFR Hprov Hout; simpl.
    - eapply Inv_weaken; [exact HI | intros w [Hw|[]]; exact Hw | intros w Hw; left; exact Hw].
    - inversion Hnd as [|? ? Hnv Hnd']; subst.
      destruct (Hvs v (or_introl eq_refl)) as [Hvg Hvn].
      destruct (set_ty_inv c t0 FR L E M a v R HI Hvn Hna) as [HI1 _].
      + intros w Hw Hwv Hq. destruct (in_dec Nat.eq_dec w g) as [Hwg|Hwg].
        * right. right. split; apply HEin; assumption.
        * destruct (Hout w Hw Hwg Hq) as [H|H]; [left; exact H | right; left; exact H].
      + exact Hneg.
      + intros Hz Hr. exfalso. exact (Hnz Hz Hr).
      + intros HP. exact (HFR HP v Hvg).
      + destruct Hprov as [H|[H|H]]; [left; exact H | right; left; exact H | right; right; right; exact H].
      + eapply Inv_weaken; [apply (IH (addv L v) (addv M v) (set_ty v R a) HI1) | |]; try assumption.
        * intros u Hu. destruct (Hvs u (or_intror Hu)) as [Hug Hn]. split; [exact Hug|].
          rewrite set_ty_other; [exact Hn | intro Hc; subst; exact (Hnv Hu)].
        * intros w [Hw|Hw] Hwg Hq; [|subst w; contradiction].
          rewrite set_ty_other in Hq by (intro Hc; subst; contradiction). exact (Hout w Hw Hwg Hq).
        * intros w [Hw|[Hw|Hw]]; [left; left; exact Hw | left; right; symmetry; exact Hw | right; exact Hw].
        * intros w [[Hw|Hw]|Hw]; [left; exact Hw | right; left; symmetry; exact Hw | right; right; exact Hw].
  Qed.

  (* one loop-carried group g = us ++ [r_]: the members us are untouched so far, the result r_ may be
     live after the loop and then has its register already *)
  Lemma group_inv : forall (L : value -> Prop) (E : value -> value -> Prop) (M : value -> Prop) a us r_ a',
    Inv L E M a ->
    NoDup (us ++ [r_]) ->
    (forall u w, In u (us ++ [r_]) -> In w (us ++ [r_]) -> E u w) ->
    (forall u w, In u (us ++ [r_]) -> E u w \/ E w u -> In w (us ++ [r_])) ->
    (forall u, In u us -> ~ M u /\ t0 u = None) -> t0 r_ = None ->
    (L r_ \/ ~ M r_) ->
    ~ In r_ (zconsts c) ->
    (forall u w r, In u (us ++ [r_]) -> In w (us ++ [r_]) -> FR u r -> FR w r) ->
    allocate_values_same_reg (us ++ [r_]) a = Ok a' ->
    Inv (setof L (us ++ [r_])) E (setof M (us ++ [r_])) a' /\ mono a a'
    /\ (exists R, forall u, In u (us ++ [r_]) -> ty a' u = Some R)
    /\ (forall w, ~ In w (us ++ [r_]) -> ty a' w = ty a w).
  Proof.
    intros L E M a us r_ a' HI Hnd HEin HEx Hus Tr HLr Hrz HFRg Hal.
    pose proof HI as [Hs [H1 [H2 [Hf H5]]]].
    assert (Nus : forall u, In u us -> ty a u = None).
    { intros u Hu. destruct (Hus u Hu) as [HM Ht]. rewrite (Hf u HM). exact Ht. }
    assert (Hr_g : In r_ (us ++ [r_])) by (apply in_or_app; right; left; reflexivity).
    destruct (same_reg_group_spec us r_ a a' Hnd Nus Hal) as [[Nr [R [s [Hpop Ha']]]]|[R [Hr Ha']]]; subst a'.
    - (* a fresh register for the whole group *)
      destruct (pop_inv c t0 FR L E M a R s HI Hpop) as [HI1 [Hna [Hnone_r [Hneg [Hprov [HnP Hnz]]]]]].
      assert (Ng : forall v, In v (us ++ [r_]) -> ty (set_stk a s) v = None).
      { intros v Hv. apply in_app_or in Hv. destruct Hv as [Hv|[Hv|[]]]; [exact (Nus v Hv) | subst v; exact Nr]. }
      split; [|split; [exact (set_all_mono _ R _ Ng) | split; [exists R; intros u; apply ty_set_all_in | intros w; exact (ty_set_all_out _ R (set_stk a s) w)]]].
      apply (set_members (us ++ [r_]) E R HEin (us ++ [r_]) L M (set_stk a s) HI1); try assumption.
      + intros v Hv. split; [exact Hv | exact (Ng v Hv)].
      + intros Hlt. destruct (Hneg Hlt) as [K1 K2]. split; [exact K1 | left; exact K2].
      + intros HP. contradiction.
      + simpl. destruct Hprov as [H|H]; [left; exact H | right; left; split; [exact H | apply Hneg; exact H]].
      + intros w Hw _ Hq. exfalso. exact (Hnone_r w Hw Hq).
    - (* the result already has a register (it is live after the loop) *)
      assert (HLr' : L r_).
      { destruct HLr as [H|H]; [exact H|]. rewrite (Hf r_ H), Tr in Hr. discriminate. }
      assert (Hsub : forall v, In v us -> In v (us ++ [r_])) by (intros v Hv; apply in_or_app; left; exact Hv).
      split; [|split; [exact (set_all_mono _ R _ Nus) | split; [exists R | intros w Hw; apply ty_set_all_out; intro Hc; exact (Hw (Hsub w Hc))]]].
      + eapply Inv_weaken;
          [apply (set_members (us ++ [r_]) E R HEin us L M a HI (fun v Hv => conj (Hsub v Hv) (Nus v Hv)) (NoDup_app_l _ _ Hnd)) | |].
        * exact (H1 r_ R HLr' Hr).
        * intros Hlt. exact (so_neg_ty c t0 a Hs r_ R Hr Hlt).
        * intros Hz HR0. subst R. apply Hrz. exact (so_zero_ty c t0 a Hs r_ Hz Hr).
        * intros HP u Hu. exact (HFRg r_ u R Hr_g Hu (H5 r_ R HLr' Hr HP)).
        * destruct (so_prov c t0 a Hs r_ R Hr Tr) as [H|[H|[[_ [_ H]]|H]]];
            [left; exact H | right; left; exact H | contradiction | right; right; exact H].
        * intros w Hw Hwg Hq. destruct (Nat.eq_dec w r_) as [Ew|Ew]; [subst w; contradiction|].
          destruct (H2 w r_ R Hw HLr' Ew Hq Hr) as [H|[H|H]]; [left; exact H | right; exact H|].
          exfalso. exact (Hwg (HEx r_ w Hr_g (or_intror H))).
        * intros w [Hw|Hw]; [left; exact Hw|]. apply in_app_or in Hw.
          destruct Hw as [Hw|[Hw|[]]]; [right; exact Hw | subst w; left; exact HLr'].
        * intros w [Hw|Hw]; [left; exact Hw | right; exact (Hsub w Hw)].
      + intros u Hu. apply in_app_or in Hu. destruct Hu as [Hu|[Hu|[]]]; [exact (ty_set_all_in us R a u Hu)|].
        subst u. rewrite ty_set_all_out; [exact Hr|].
        intro Hc. exact (NoDup_app_disjoint _ _ Hnd r_ Hc (or_introl eq_refl)).
  Qed.
End Group.

Lemma concat_in : forall (gs : list (list value)) g u, In g gs -> In u g -> In u (concat gs).
Proof. intros gs g u Hg Hu. apply in_concat. exists g. split; assumption. Qed.

Lemma disjoint_groups : forall (gs : list (list value)) g g' u,
  NoDup (concat gs) -> In g gs -> In g' gs -> In u g -> In u g' -> g = g'.
Proof.
  induction gs as [|h t IH]; intros g g' u Hnd Hg Hg' Hu Hu'; [destruct Hg|].
  simpl in Hnd. pose proof (NoDup_app_disjoint _ _ Hnd) as Hdis.
  destruct Hg as [Hg|Hg]; destruct Hg' as [Hg'|Hg'].
  - congruence.
  - subst h. exfalso. exact (Hdis u Hu (concat_in t g' u Hg' Hu')).
  - subst h. exfalso. exact (Hdis u Hu' (concat_in t g u Hg Hu)).
  - exact (IH g g' u (NoDup_app_r _ _ Hnd) Hg Hg' Hu Hu').
Qed.

Section Groups.
  Variable c : cfg.
  Variable t0 : value -> option Z.
  Variable FR : value -> Z -> Prop.
  Hypothesis FR_pre : forall v r, t0 v = Some r -> FR v r.
  Notation Inv := (Inv c t0 FR).
  Variable gs0 : list (list value).
  Hypothesis Hnd0 : NoDup (concat gs0).
  Definition Eg (u w : value) : Prop := exists g, In g gs0 /\ In u g /\ In w g.

  (* what allocating a list of groups needs of one of them, given the values L protected and the values
     M touched so far *)
  Definition group_ok (L M : value -> Prop) (g : list value) : Prop :=
    exists us r_, g = us ++ [r_] /\ NoDup g
      /\ (forall u, In u us -> ~ M u /\ t0 u = None) /\ t0 r_ = None
      /\ (L r_ \/ ~ M r_) /\ ~ In r_ (zconsts c)
      /\ (forall u w r, In u g -> In w g -> FR u r -> FR w r).

  Lemma groups_phase : forall gs (L M : value -> Prop) a a',
    incl gs gs0 ->
    Inv L Eg M a ->
    (forall g, In g gs -> group_ok L M g) ->
    NoDup (concat gs) ->
    fold_res allocate_values_same_reg gs a = Ok a' ->
    Inv (setof L (concat gs)) Eg (setof M (concat gs)) a' /\ mono a a'
    /\ (forall g, In g gs -> exists R, forall u, In u g -> ty a' u = Some R)
    /\ (forall w, ~ In w (concat gs) -> ty a' w = ty a w).
  Proof.
    induction gs as [|g t IH]; intros L M a a' Hgs HI Hpre Hnd Hfold; simpl in Hfold.
    - inversion Hfold; subst. simpl. split; [|split; [intros w q H; exact H | split; [intros g [] | reflexivity]]].
      eapply Inv_weaken; [exact HI | intros w [Hw|[]]; exact Hw | intros w Hw; left; exact Hw].
    - destruct (allocate_values_same_reg g a) as [a1|e] eqn:Eal; simpl in Hfold; [|discriminate].
      destruct (Hpre g (or_introl eq_refl)) as [us [r_ [Eg_ [Hndg [Hus [Tr [HLr [Hrz HFRg]]]]]]]].
      assert (Hg0 : In g gs0) by (apply Hgs; left; reflexivity).
      simpl in Hnd. pose proof (NoDup_app_disjoint _ _ Hnd) as Hdis. subst g.
      destruct (group_inv c t0 FR L Eg M a us r_ a1 HI Hndg) as [HI1 [Hm1 [[R HR] Hoth1]]]; try assumption.
      + intros u w Hu Hw. exists (us ++ [r_]). split; [exact Hg0 | split; assumption].
      + intros u w Hu [[g' [Hg' [Hu' Hw']]]|[g' [Hg' [Hw' Hu']]]];
          rewrite (disjoint_groups gs0 (us ++ [r_]) g' u Hnd0 Hg0 Hg' Hu Hu'); exact Hw'.
      + destruct (IH (setof L (us ++ [r_])) (setof M (us ++ [r_])) a1 a') as [HI2 [Hm2 [HR2 Hoth2]]].
        * intros g' Hg'. apply Hgs. right. exact Hg'.
        * exact HI1.
        * intros g' Hg'. destruct (Hpre g' (or_intror Hg')) as [us' [r' [E' [A1 [A2 [A3 [A4 A5]]]]]]].
          assert (Hout : forall u, In u g' -> ~ In u (us ++ [r_])).
          { intros u Hu Hc. exact (Hdis u Hc (concat_in t g' u Hg' Hu)). }
          assert (Hr' : In r' g') by (rewrite E'; apply in_or_app; right; left; reflexivity).
          exists us', r'. split; [exact E'|]. split; [exact A1|]. split; [|split; [exact A3 | split; [|exact A5]]].
          -- intros u Hu. destruct (A2 u Hu) as [B1 B2]. split; [|exact B2].
             intros [Hc|Hc]; [exact (B1 Hc) | apply (Hout u); [rewrite E'; apply in_or_app; left; exact Hu | exact Hc]].
          -- destruct A4 as [H|H]; [left; left; exact H | right; intros [Hc|Hc]; [exact (H Hc) | exact (Hout r' Hr' Hc)]].
        * exact (NoDup_app_r _ _ Hnd).
        * exact Hfold.
        * simpl. split; [|split; [intros w q H; apply Hm2; apply Hm1; exact H | split]].
          -- eapply Inv_weaken; [exact HI2 | intros w Hw | intros w Hw]; apply setof_app; exact Hw.
          -- intros g' [Hg'|Hg']; [subst g'; exists R; intros u Hu; apply Hm2; exact (HR u Hu) | exact (HR2 g' Hg')].
          -- intros w Hw. rewrite Hoth2, Hoth1; [reflexivity | |]; intro Hc; apply Hw; apply in_or_app; [left | right]; exact Hc.
  Qed.

  (* the groups of riscv_scf.for: (block argument, iter operand, yield operand, result) *)
  Lemma groups_phase4 : forall (L M : value -> Prop) gs pre acc a a',
    gs0 = pre ++ gs ->
    Inv (setof L acc) Eg (setof M acc) a ->
    (forall g, In g gs -> exists b it y r_, g = [b; it; y; r_] /\ NoDup g
        /\ ~ M b /\ ~ M it /\ ~ M y /\ t0 b = None /\ t0 it = None /\ t0 y = None /\ t0 r_ = None
        /\ (L r_ \/ ~ M r_) /\ ~ In r_ (zconsts c)
        /\ (forall u w r, In u g -> In w g -> FR u r -> FR w r)
        /\ (forall u, In u g -> ~ In u acc)) ->
    NoDup (concat gs) ->
    fold_res allocate_values_same_reg gs a = Ok a' ->
    Inv (setof L (acc ++ concat gs)) Eg (setof M (acc ++ concat gs)) a' /\ mono a a'
    /\ (forall g, In g gs -> exists R, forall u, In u g -> ty a' u = Some R)
    /\ (forall w, ~ In w (concat gs) -> ty a' w = ty a w).
  Proof.
    intros L M gs pre acc a a' Hgs HI Hpre Hnd Hfold.
    destruct (groups_phase gs (setof L acc) (setof M acc) a a') as [HI' Hrest]; try assumption.
    - intros g Hg. rewrite Hgs. apply in_or_app. right. exact Hg.
    - intros g Hg.
      destruct (Hpre g Hg) as [b [it [y [r_ [E [Hndg [Mb [Mit [My [Tb [Tit [Ty [Tr [HLr [Hrz [HFRg Hacc]]]]]]]]]]]]]]]].
      assert (HM : forall u, In u g -> ~ M u -> ~ setof M acc u).
      { intros u Hu Hn [Hc|Hc]; [exact (Hn Hc) | exact (Hacc u Hu Hc)]. }
      exists [b; it; y], r_. subst g. split; [reflexivity|]. split; [exact Hndg|]. split; [|split; [exact Tr | split; [|split; [exact Hrz | exact HFRg]]]].
      + intros u [Hu|[Hu|[Hu|[]]]]; subst u; (split; [|assumption]).
        * exact (HM b (or_introl eq_refl) Mb).
        * exact (HM it (or_intror (or_introl eq_refl)) Mit).
        * exact (HM y (or_intror (or_intror (or_introl eq_refl))) My).
      + destruct HLr as [H|H]; [left; left; exact H | right].
        exact (HM r_ (or_intror (or_intror (or_intror (or_introl eq_refl)))) H).
    - split; [|exact Hrest]. eapply Inv_weaken; [exact HI' | intros w Hw | intros w Hw]; apply setof_app; exact Hw.
  Qed.
End Groups.

(* ---- reserve_register / unreserve_register only change the reservation counts ---- *)
Definition same_but_reserved (s s' : rstack) : Prop :=
  allocatable s' = allocatable s /\ available s' = available s /\ next_inf s' = next_inf s /\ allow_inf s' = allow_inf s.

Lemma reserve_keys : forall regs s k,
  is_reserved k (fold_left (fun s r => reserve_register r s) regs s) = true
  <-> is_reserved k s = true \/ In k regs.
Proof.
  induction regs as [|r t IH]; intros s k; simpl; [tauto|].
  rewrite IH. unfold is_reserved, reserve_register. simpl. rewrite !memZ_In, assoc_incr_keys.
  split; [intros [[H|H]|H]; [left; exact H | right; left; symmetry; exact H | right; right; exact H]
         | intros [H|[H|H]]; [left; left; exact H | left; right; symmetry; exact H | right; exact H]].
Qed.

Lemma reserve_fields : forall regs s, same_but_reserved s (fold_left (fun s r => reserve_register r s) regs s).
Proof.
  induction regs as [|r t IH]; intros s; simpl; [repeat split; reflexivity|]. exact (IH (reserve_register r s)).
Qed.

Lemma unreserve_fields : forall regs s s', fold_res unreserve_register regs s = Ok s' ->
  same_but_reserved s s' /\ (forall k, is_reserved k s' = true -> is_reserved k s = true).
Proof.
  induction regs as [|r t IH]; intros s s' H; simpl in H.
  - inversion H; subst. split; [repeat split; reflexivity | intros k Hk; exact Hk].
  - unfold unreserve_register at 1 in H. destruct (is_reserved r s) eqn:Er; simpl in H; [|discriminate].
    destruct (IH _ s' H) as [F E]. split; [exact F|].
    intros k Hk. specialize (E k Hk). unfold is_reserved in *. simpl in E. rewrite memZ_In in *.
    clear - E. induction (reserved s) as [|[k0 n] l IHl]; simpl in *; [exact E|].
    destruct (k0 =? r) eqn:Ek.
    + destruct (n - 1 =? 0); simpl in E; [right; exact E | exact E].
    + simpl in E. destruct E as [E|E]; [left; exact E | right; exact (IHl E)].
Qed.

Section Reserve.
  Variable c : cfg.
  Variable t0 : value -> option Z.
  Variable FR : value -> Z -> Prop.

  (* the invariant looks at the reservations in three places only: an available register is not reserved,
     a reserved infinite register is below next_inf, a pre-assigned register is reserved or not allocatable *)
  Lemma Inv_set_reserved : forall (L : value -> Prop) E (M : value -> Prop) a s',
    Inv c t0 FR L E M a -> same_but_reserved (stk a) s' ->
    (forall r, In r (available (stk a)) -> is_reserved r s' = false) ->
    (forall k, is_reserved k s' = true -> k < 0 -> - k - 1 < next_inf (stk a)) ->
    (forall r, Pset t0 r -> is_reserved r (stk a) = true -> is_reserved r s' = true) ->
    Inv c t0 FR L E M (set_stk a s').
  Proof.
    intros L E M a s' [Hs [H1 [H2 [Hf H5]]]] [Fal [Fav [Fn Fi]]] Hav Hlt Hex.
    split; [|split; [|split; [|split]]]; [|intros v r Hv Hr; simpl; rewrite Fav; exact (H1 v r Hv Hr) | exact H2 | exact Hf | exact H5].
    constructor; simpl; rewrite ?Fal, ?Fav, ?Fn, ?Fi.
    - exact (so_nodup c t0 a Hs).
    - exact (so_avail c t0 a Hs).
    - exact Hav.
    - exact (so_neg_avail c t0 a Hs).
    - exact (so_neg_ty c t0 a Hs).
    - exact (so_next c t0 a Hs).
    - exact Hlt.
    - intros r HP. destruct (so_excl c t0 a Hs r HP) as [H|H]; [left; exact (Hex r HP H) | right; exact H].
    - exact (so_zero c t0 a Hs).
    - exact (so_mono c t0 a Hs).
    - exact (so_zero_ty c t0 a Hs).
    - exact (so_prov c t0 a Hs).
  Qed.

  Lemma reserve_inv : forall (L : value -> Prop) E (M : value -> Prop) a regs,
    Inv c t0 FR L E M a ->
    (forall r, In r regs -> ~ In r (available (stk a)) /\ (r < 0 -> - r - 1 < next_inf (stk a))) ->
    Inv c t0 FR L E M (set_stk a (fold_left (fun s r => reserve_register r s) regs (stk a))).
  Proof.
    intros L E M a regs HI Hregs. pose proof HI as [Hs _].
    apply (Inv_set_reserved L E M a _ HI (reserve_fields regs (stk a))).
    - intros r Hr. destruct (is_reserved r _) eqn:Er; [|reflexivity].
      apply reserve_keys in Er. destruct Er as [Er|Er].
      + rewrite (so_avail_nres c t0 a Hs r Hr) in Er. discriminate.
      + exfalso. exact (proj1 (Hregs r Er) Hr).
    - intros k Hk Hneg. apply reserve_keys in Hk.
      destruct Hk as [Hk|Hk]; [exact (so_res_lt c t0 a Hs k Hk Hneg) | exact (proj2 (Hregs k Hk) Hneg)].
    - intros r _ Hr. apply reserve_keys. left. exact Hr.
  Qed.

  Lemma unreserve_inv : forall (L : value -> Prop) E (M : value -> Prop) a regs s',
    Inv c t0 FR L E M a -> (forall r, ~ Pset t0 r) ->
    fold_res unreserve_register regs (stk a) = Ok s' ->
    Inv c t0 FR L E M (set_stk a s').
  Proof.
    intros L E M a regs s' HI HnP Hun. pose proof HI as [Hs _].
    destruct (unreserve_fields regs (stk a) s' Hun) as [F Fk].
    apply (Inv_set_reserved L E M a s' HI F).
    - intros r Hr. destruct (is_reserved r s') eqn:Er; [|reflexivity].
      pose proof (Fk r Er) as K. rewrite (so_avail_nres c t0 a Hs r Hr) in K. discriminate.
    - intros k Hk. exact (so_res_lt c t0 a Hs k (Fk k Hk)).
    - intros r HP. destruct (HnP r HP).
  Qed.
End Reserve.

(* ---- changing the typing t0 (which values count as pre-assigned): the clauses of `sok` that mention it;
   a register that stops being pre-assigned must be an ordinary one (allocatable or an allowed infinite one) ---- *)
Lemma sok_retype : forall c t0 t1 a, sok c t0 a ->
  (forall v r, t1 v = Some r -> ty a v = Some r) ->
  (forall r, Pset t1 r -> is_reserved r (stk a) = true \/ (0 <= r /\ ~ In r (allocatable (stk a)))) ->
  (zero_rule c = true -> ~ Pset t1 0) ->
  (forall r, Pset t0 r -> Pset t1 r \/ ((r < 0 -> allow_inf (stk a) = true)
       /\ (In r (allocatable (stk a)) \/ (r < 0 /\ allow_inf (stk a) = true)))) ->
  sok c t1 a.
Proof.
  intros c t0 t1 a Hs Hmono Hexcl Hzero Hold.
  assert (Hprov : forall v r, Pset t0 r -> In r (allocatable (stk a)) \/ (r < 0 /\ allow_inf (stk a) = true)
                    \/ (zero_rule c = true /\ r = 0 /\ In v (zconsts c)) \/ Pset t1 r).
  { intros v r HP. destruct (Hold r HP) as [H|[_ [H|H]]]; [right; right; right; exact H | left; exact H | right; left; exact H]. }
  constructor.
  - exact (so_nodup c t0 a Hs).
  - exact (so_avail c t0 a Hs).
  - exact (so_avail_nres c t0 a Hs).
  - exact (so_neg_avail c t0 a Hs).
  - intros v r Hr Hneg. destruct (so_neg_ty c t0 a Hs v r Hr Hneg) as [K [K2|K2]]; (split; [exact K|]); [left; exact K2|].
    destruct (Hold r K2) as [H|[H _]]; [right; exact H | left; exact (H Hneg)].
  - exact (so_next c t0 a Hs).
  - exact (so_res_lt c t0 a Hs).
  - exact Hexcl.
  - intros Hz. split; [exact (proj1 (so_zero c t0 a Hs Hz)) | exact (Hzero Hz)].
  - exact Hmono.
  - exact (so_zero_ty c t0 a Hs).
  - intros v r Hr Hn. destruct (t0 v) as [q|] eqn:Et.
    + pose proof (so_mono c t0 a Hs v q Et) as E. rewrite Hr in E. inversion E; subst q. exact (Hprov v r (ex_intro _ v Et)).
    + destruct (so_prov c t0 a Hs v r Hr Et) as [H|[H|[H|H]]];
        [left; exact H | right; left; exact H | right; right; left; exact H | exact (Hprov v r H)].
Qed.

(* ---- re-basing: after the groups are allocated and their registers reserved, the group members can
   be regarded as pre-assigned (their registers behave like excluded ones while reserved) ---- *)
Section Rebase.
  Variable c : cfg.
  Variable t0 : value -> option Z.
  Variable FR FR' : value -> Z -> Prop.
  Variable gv : list value.
  Variable a : astate.
  Definition rebased (v : value) : option Z := if memN v gv then ty a v else t0 v.

  Lemma rebase : forall (L : value -> Prop) E (M : value -> Prop),
    Inv c t0 FR L E M a ->
    (forall v, In v gv -> M v) ->
    (forall v, In v gv -> exists R, ty a v = Some R /\ is_reserved R (stk a) = true) ->
    (zero_rule c = true -> forall v, In v gv -> ty a v <> Some 0) ->
    (forall v r, FR v r -> FR' v r) ->
    (forall v r, L v -> ty a v = Some r -> (exists w, In w gv /\ ty a w = Some r) -> FR' v r) ->
    Inv c rebased FR' L E M a.
  Proof.
    intros L E M [Hs [H1 [H2 [Hf H5]]]] HgM Hgres Hgz Hsub Hnew.
    assert (Hcase : forall r, Pset rebased r -> Pset t0 r \/ exists w, In w gv /\ ty a w = Some r).
    { intros r [w Hw]. unfold rebased in Hw. destruct (memN w gv) eqn:Em.
      - right. exists w. split; [apply memN_In; exact Em | exact Hw].
      - left. exists w. exact Hw. }
    assert (Hsubset : forall r, Pset t0 r -> Pset rebased r).
    { intros r [w Hw]. exists w. unfold rebased. destruct (memN w gv) eqn:Em; [|exact Hw].
      exact (so_mono c t0 a Hs w r Hw). }
    split; [|split; [|split; [|split]]].
    - apply (sok_retype c t0 rebased a Hs).
      + intros v r Hv. unfold rebased in Hv. destruct (memN v gv); [exact Hv | exact (so_mono c t0 a Hs v r Hv)].
      + intros r HP. destruct (Hcase r HP) as [H|[w [Hw Hr]]]; [exact (so_excl c t0 a Hs r H)|].
        left. destruct (Hgres w Hw) as [R [HR Hres]]. rewrite Hr in HR. inversion HR; subst. exact Hres.
      + intros Hz HP. destruct (Hcase 0 HP) as [H|[w [Hw Hr]]]; [exact (proj2 (so_zero c t0 a Hs Hz) H) | exact (Hgz Hz w Hw Hr)].
      + intros r HP. left. exact (Hsubset r HP).
    - exact H1.
    - intros v1 v2 r Hv1 Hv2 Hne Hq1 Hq2. destruct (H2 v1 v2 r Hv1 Hv2 Hne Hq1 Hq2) as [H|[H|H]];
        [left; exact (Hsubset r H) | right; left; exact H | right; right; exact H].
    - intros v Hv. unfold rebased. destruct (memN v gv) eqn:Em; [|exact (Hf v Hv)].
      exfalso. apply Hv. apply HgM. apply memN_In. exact Em.
    - intros v r Hv Hr HP.
      destruct (Hcase r HP) as [H|H].
      + apply Hsub. exact (H5 v r Hv Hr H).
      + exact (Hnew v r Hv Hr H).
  Qed.
End Rebase.
