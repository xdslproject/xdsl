(* C19/ProofsRefute.v -- concrete witnesses: the allocator as it was BEFORE the repairs d11e3b9 /
   26a8b63 (`allocate_func_old`) put two live values into one register on inputs that satisfy every
   hypothesis of the theorems; the repaired model separates them.  The witness programs are the
   known-finding witnesses that the harness replays on the real allocator. *)
From Coq Require Import ZArith List Bool Arith Lia.
From XV Require Import C19.Model C19.ProofsSpec C19.ProofsStack C19.ProofsStep.
Import ListNotations.
Local Open Scope Z_scope.

Fixpoint splitsP (P : list sop -> sop -> list sop -> Prop) (pre l : list sop) : Prop :=
  match l with [] => True | o :: s => P pre o s /\ splitsP P (pre ++ [o]) s end.

Lemma splitsP_all : forall P l pre, splitsP P pre l ->
  forall p o s, l = p ++ o :: s -> P (pre ++ p) o s.
Proof.
  intros P l. induction l as [|o' t IH]; intros pre H p o s Hl.
  - destruct p; discriminate.
  - destruct H as [H1 H2]. destruct p as [|o'' p']; simpl in Hl; inversion Hl; subst.
    + rewrite app_nil_r. exact H1.
    + replace (pre ++ o'' :: p') with ((pre ++ [o'']) ++ p') by (rewrite <- app_assoc; reflexivity).
      apply IH; [exact H2 | reflexivity].
Qed.

Lemma io_ok_no_ties : forall l, (forall o, In o l -> s_io o = []) -> io_ok l.
Proof.
  intros l H p o s Hl. assert (Ho : In o l). { rewrite Hl. apply in_or_app. right. left. reflexivity. }
  rewrite (H o Ho). simpl. split; [constructor | intros x []].
Qed.

Lemma forced_no_ties : forall t0 l v r, (forall o, In o l -> s_io o = []) -> forced t0 l v r -> t0 v = Some r.
Proof.
  intros t0 l v r H Hf. induction Hf as [v r Hp | a b r [o [Ho Hin]] _ _ | a b r [o [Ho Hin]] _ _].
  - exact Hp.
  - rewrite (H o Ho) in Hin. destruct Hin.
  - rewrite (H o Ho) in Hin. destruct Hin.
Qed.

Lemma forced_ok_single : forall t0 l, (forall o, In o l -> s_io o = []) ->
  (forall v w r, t0 v = Some r -> t0 w = Some r -> v = w) -> forced_ok t0 l.
Proof.
  intros t0 l H Hs. split.
  - intros p s _ v1 v2 r _ _ Hne F1 F2. apply Hne.
    exact (Hs v1 v2 r (forced_no_ties t0 l v1 r H F1) (forced_no_ties t0 l v2 r H F2)).
  - intros p o s _ d v r _ _ Hne F1 F2. apply Hne.
    exact (Hs d v r (forced_no_ties t0 l d r H F1) (forced_no_ties t0 l v r H F2)).
Qed.

Ltac in_cases H := simpl in H; repeat (destruct H as [H|H]; [subst|]); try contradiction.

(* on a concrete block, "not defined" and "no use at or before the definition" are evaluated *)
Lemma not_defined_b : forall s v, memN v (flat_map defs s) = false -> ~ defined_in s v.
Proof.
  intros s v H Hd. apply in_flat_map in Hd. apply memN_In in Hd. congruence.
Qed.

Lemma live_b : forall s v,
  memN v (flat_map uses s) = true -> memN v (flat_map defs s) = false -> live s v.
Proof.
  intros s v Hu Hd. split; [apply in_flat_map; apply memN_In; exact Hu | exact (not_defined_b s v Hd)].
Qed.

Fixpoint wf_useb (l : list sop) : bool :=
  match l with
  | [] => true
  | o :: s => forallb (fun v => negb (memN v (flat_map defs (o :: s)))) (uses o) && wf_useb s
  end.

Lemma wf_useb_sound : forall l, wf_useb l = true ->
  forall p o s, l = p ++ o :: s -> forall v, In v (uses o) -> ~ defined_in (o :: s) v.
Proof.
  intros l H p. revert l H. induction p as [|o' p IH]; intros l H o s -> v Hv;
    simpl in H; apply andb_true_iff in H; destruct H as [H1 H2].
  - apply not_defined_b. apply negb_true_iff. exact (proj1 (forallb_forall _ _) H1 v Hv).
  - exact (IH _ H2 o s eq_refl v Hv).
Qed.

Ltac wf_use_tac := apply wf_useb_sound; reflexivity.

(* ---- C19-kf-1: a value pre-assigned an infinite register (j_0), force_infinite ---- *)
(*   %0 = li 1 : !riscv.reg<j_0> ; %1 = li 2 : !riscv.reg ; %2 = add %0, %1 ; return %2          *)
Definition kf1_ops : list sop :=
  [ mkSop [] [0%nat] [] KOther true; mkSop [] [1%nat] [] KOther true;
    mkSop [0%nat; 1%nat] [2%nat] [] KOther true; mkSop [2%nat] [] [] KOther true ].
Definition kf1_pre : list (option Z) := [Some (-1); None; None].
Definition kf1_fn : func := mkFunc kf1_pre (map Simple kf1_ops).

Lemma kf1_no_ties : forall o, In o kf1_ops -> s_io o = [].
Proof. intros o H. in_cases H; reflexivity. Qed.

Lemma kf1_wf : wf_prog kf1_ops.
Proof.
  constructor.
  - exact (seq_NoDup 3 0).
  - wf_use_tac.
  - intros o H Hk. in_cases H; simpl in Hk; congruence.
Qed.

Lemma kf1_forced : forced_ok (ty0 kf1_fn) kf1_ops.
Proof.
  apply forced_ok_single; [exact kf1_no_ties|].
  assert (Honly : forall v r, ty0 kf1_fn v = Some r -> v = 0%nat).
  { intros v r H. unfold ty0 in H. simpl in H.
    destruct v as [|[|[|v]]]; simpl in H; try discriminate; [reflexivity | destruct v; discriminate]. }
  intros v w r Hv Hw. rewrite (Honly v r Hv), (Honly w r Hw). reflexivity.
Qed.

Lemma kf1_run : exists af, allocate_func_old true [] true kf1_pre kf1_ops = Ok af
  /\ ty af 0%nat = Some (-1) /\ ty af 1%nat = Some (-1).
Proof. eexists. split; [vm_compute; reflexivity | split; reflexivity]. Qed.
Lemma kf1_run_new : match allocate_func true [] true kf1_fn with
                    | Ok af => ty af 0%nat = Some (-1) /\ ty af 1%nat = Some (-2)
                    | Err _ => False end.
Proof. vm_compute. split; reflexivity. Qed.

Lemma kf1_input : input_ok true [] kf1_fn.
Proof.
  split.
  - intros _. split; [intros []|]. intros v Hv. unfold ty0 in Hv. simpl in Hv.
    destruct v as [|[|[|v]]]; simpl in Hv; try discriminate. destruct v; discriminate.
  - intros q [].
Qed.

Theorem infinite_preassigned_old_refuted :
  exists zr pool allow pre sl af p s v1 v2 r,
    let fn := mkFunc pre (map Simple sl) in
    input_ok zr pool fn /\ wf_prog sl /\ io_ok sl /\ forced_ok (ty0 fn) sl
    /\ allocate_func_old zr pool allow pre sl = Ok af
    /\ sl = p ++ s /\ live s v1 /\ live s v2 /\ v1 <> v2
    /\ ty af v1 = Some r /\ ty af v2 = Some r /\ r <> 0
    /\ match allocate_func zr pool allow fn with          (* the repaired allocator *)
       | Ok af' => ty af' v1 <> ty af' v2 | Err _ => False end.
Proof.
  destruct kf1_run as [af [E [H0 H1]]].
  exists true, [], true, kf1_pre, kf1_ops, af, (firstn 2 kf1_ops), (skipn 2 kf1_ops), 0%nat, 1%nat, (-1).
  cbv zeta. split; [exact kf1_input|]. split; [exact kf1_wf|]. split; [exact (io_ok_no_ties _ kf1_no_ties)|].
  split; [exact kf1_forced|]. split; [exact E|]. split; [reflexivity|].
  split; [apply live_b; reflexivity|]. split; [apply live_b; reflexivity|].
  split; [discriminate|]. split; [exact H0|]. split; [exact H1|]. split; [lia|].
  pose proof kf1_run_new as Hnew. fold kf1_fn.
  destruct (allocate_func true [] true kf1_fn) as [af'|e']; [|contradiction].
  destruct Hnew as [N0 N1]. rewrite N0, N1. discriminate.
Qed.

(* ---- C19-kf-2: a pre-assigned allocatable register that allocate_func does not exclude ---- *)
(*   %0 = li 1 ; %1 = li 2 ; %2 = riscv.parallel_mov %1 : -> !riscv.reg<t0>   (no register effects)
     %3 = add %0, %0 ; return %3          pool = [t1; t0]                                        *)
Definition kf2_ops : list sop :=
  [ mkSop [] [0%nat] [] KOther true; mkSop [] [1%nat] [] KOther true;
    mkSop [1%nat] [2%nat] [] KOther false;
    mkSop [0%nat; 0%nat] [3%nat] [] KOther true; mkSop [3%nat] [] [] KOther true ].
Definition kf2_pre : list (option Z) := [None; None; Some 5; None].
Definition kf2_fn : func := mkFunc kf2_pre (map Simple kf2_ops).

Lemma kf2_no_ties : forall o, In o kf2_ops -> s_io o = [].
Proof. intros o H. in_cases H; reflexivity. Qed.

Lemma kf2_wf : wf_prog kf2_ops.
Proof.
  constructor.
  - exact (seq_NoDup 4 0).
  - wf_use_tac.
  - intros o H Hk. in_cases H; simpl in Hk; congruence.
Qed.

Lemma kf2_forced : forced_ok (ty0 kf2_fn) kf2_ops.
Proof.
  apply forced_ok_single; [exact kf2_no_ties|].
  assert (Honly : forall v r, ty0 kf2_fn v = Some r -> v = 2%nat).
  { intros v r H. unfold ty0 in H. simpl in H.
    destruct v as [|[|[|[|v]]]]; simpl in H; try discriminate; [reflexivity | destruct v; discriminate]. }
  intros v w r Hv Hw. rewrite (Honly v r Hv), (Honly w r Hw). reflexivity.
Qed.

Lemma kf2_run : exists af, allocate_func_old true [6; 5] false kf2_pre kf2_ops = Ok af
  /\ ty af 0%nat = Some 5 /\ ty af 1%nat = Some 5.
Proof. eexists. split; [vm_compute; reflexivity | split; reflexivity]. Qed.
Lemma kf2_run_new : allocate_func true [6; 5] false kf2_fn = Err OutOfRegisters.
Proof. vm_compute. reflexivity. Qed.

Lemma kf2_input : input_ok true [6; 5] kf2_fn.
Proof.
  split.
  - intros _. split; [intros [H|[H|[]]]; discriminate|]. intros v Hv. unfold ty0 in Hv. simpl in Hv.
    destruct v as [|[|[|[|v]]]]; simpl in Hv; try discriminate. destruct v; discriminate.
  - intros q [<-|[<-|[]]]; discriminate.
Qed.

Theorem unexcluded_preassigned_old_refuted :
  exists zr pool allow pre sl af p s v1 v2 r,
    let fn := mkFunc pre (map Simple sl) in
    input_ok zr pool fn /\ wf_prog sl /\ io_ok sl /\ forced_ok (ty0 fn) sl
    /\ allocate_func_old zr pool allow pre sl = Ok af
    /\ sl = p ++ s /\ live s v1 /\ live s v2 /\ v1 <> v2
    /\ ty af v1 = Some r /\ ty af v2 = Some r /\ r <> 0
    (* the repaired allocator: t0 is excluded, one register is not enough, explicit failure *)
    /\ allocate_func zr pool allow fn = Err OutOfRegisters.
Proof.
  destruct kf2_run as [af [E [H0 H1]]].
  exists true, [6; 5], false, kf2_pre, kf2_ops, af, (firstn 2 kf2_ops), (skipn 2 kf2_ops), 0%nat, 1%nat, 5.
  cbv zeta. split; [exact kf2_input|]. split; [exact kf2_wf|]. split; [exact (io_ok_no_ties _ kf2_no_ties)|].
  split; [exact kf2_forced|]. split; [exact E|]. split; [reflexivity|].
  split; [apply live_b; reflexivity|]. split; [apply live_b; reflexivity|].
  split; [discriminate|]. split; [exact H0|]. split; [exact H1|]. split; [lia | exact kf2_run_new].
Qed.

(* ---- the hypotheses of the theorems are satisfiable by a non-trivial program ---- *)
(*   %0 = li 0 ; %1 = li 5 : !riscv.reg<a0> ; %2 = add %0, %1 ; %3 = add %2, %2 ; return %3
     pool = [a0; t1; t0]: a0 is pre-assigned, hence excluded from the pool                           *)
Definition ok_ops : list sop :=
  [ mkSop [] [0%nat] [] KZero true; mkSop [] [1%nat] [] KOther true;
    mkSop [0%nat; 1%nat] [2%nat] [] KOther true;
    mkSop [2%nat; 2%nat] [3%nat] [] KOther true; mkSop [3%nat] [] [] KOther true ].
Definition ok_pre : list (option Z) := [None; Some 10; None; None].
Definition ok_fn : func := mkFunc ok_pre (map Simple ok_ops).

Lemma ok_no_ties : forall o, In o ok_ops -> s_io o = [].
Proof. intros o H. in_cases H; reflexivity. Qed.

Lemma ok_wf : wf_prog ok_ops.
Proof.
  constructor.
  - exact (seq_NoDup 4 0).
  - wf_use_tac.
  - intros o H Hk. in_cases H; simpl in Hk; try congruence.
    split; [reflexivity | exists 0%nat; reflexivity].
Qed.

Lemma ok_only : forall v r, ty0 ok_fn v = Some r -> v = 1%nat /\ r = 10.
Proof.
  intros v r H. unfold ty0 in H. simpl in H.
  destruct v as [|[|[|[|v]]]]; simpl in H; try discriminate; [inversion H; split; reflexivity | destruct v; discriminate].
Qed.

Lemma ok_forced : forced_ok (ty0 ok_fn) ok_ops.
Proof.
  apply forced_ok_single; [exact ok_no_ties|].
  intros v w r Hv Hw. rewrite (proj1 (ok_only v r Hv)), (proj1 (ok_only w r Hw)). reflexivity.
Qed.

Lemma ok_input : input_ok true [10; 6; 5] ok_fn.
Proof.
  split.
  - intros _. split; [intros [H|[H|[H|[]]]]; discriminate|]. intros v H. destruct (ok_only v 0 H) as [_ Hr]. discriminate.
  - intros r [<-|[<-|[<-|[]]]]; discriminate.
Qed.

Lemma ok_run : exists af, allocate_func true [10; 6; 5] false ok_fn = Ok af
  /\ ty af 0%nat = Some 0 /\ ty af 1%nat = Some 10 /\ ty af 2%nat = Some 5 /\ ty af 3%nat = Some 5.
Proof. eexists. split; [vm_compute; reflexivity | repeat split]. Qed.

Theorem hypotheses_satisfiable :
  exists zr pool allow pre sl af,
    let fn := mkFunc pre (map Simple sl) in
    input_ok zr pool fn /\ wf_prog sl /\ io_ok sl /\ forced_ok (ty0 fn) sl
    /\ allocate_func zr pool allow fn = Ok af
    /\ ty af 0%nat = Some 0            (* the constant 0 sits in `zero` *)
    /\ ty af 1%nat = Some 10           (* the pre-assigned a0 is kept *)
    /\ ty af 2%nat = ty af 3%nat /\ ty af 2%nat = Some 5.   (* t0 is reused by consecutive values *)
Proof.
  destruct ok_run as [af [E [H0 [H1 [H2 H3]]]]].
  exists true, [10; 6; 5], false, ok_pre, ok_ops, af. cbv zeta.
  split; [exact ok_input|]. split; [exact ok_wf|]. split; [exact (io_ok_no_ties _ ok_no_ties)|].
  split; [exact ok_forced|]. split; [exact E|]. split; [exact H0|]. split; [exact H1|].
  split; [rewrite H2, H3; reflexivity | exact H2].
Qed.
