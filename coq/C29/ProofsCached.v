(* C29/ProofsCached.v -- the cached SymbolTable (dict built by __init__) and the
   SymbolTableCollection agree with the direct lookup whenever symbol names are unique per table;
   in general the cached table returns the LAST op with the name, the direct lookup the FIRST. *)
From Coq Require Import List Arith Bool Lia.
From XV Require Import C29.Model C29.Proofs.
Import ListNotations.

(* position (offset by i) of the last child named n *)
Fixpoint last_named (n : name) (l : list op) (i : nat) : option nat :=
  match l with
  | [] => None
  | o :: r => match last_named n r (S i) with
              | Some j => Some j
              | None => if has_name o n then Some i else None
              end
  end.

(* Spec of "last": child i carries the name and no later child does *)
Definition last_child_named (o : op) (n : name) (i : nat) : Prop :=
  (exists c, nth_error (children o) i = Some c /\ named c n) /\
  (forall j c, i < j -> nth_error (children o) j = Some c -> ~ named c n).

Lemma dict_get_set : forall d k v k',
  dict_get (dict_set d k v) k' = if Nat.eqb k k' then Some v else dict_get d k'.
Proof.
  induction d as [|[k0 v0] r IH]; intros k v k'; cbn [dict_set dict_get].
  - reflexivity.
  - destruct (Nat.eqb k0 k) eqn:E0; cbn [dict_get].
    + apply Nat.eqb_eq in E0. subst k0. destruct (Nat.eqb k k'); reflexivity.
    + rewrite IH. destruct (Nat.eqb k0 k') eqn:E1; [|reflexivity].
      apply Nat.eqb_eq in E1. subst k0. rewrite Nat.eqb_sym, E0. reflexivity.
Qed.

Lemma table_fill_get : forall n l i d,
  dict_get (table_fill l i d) n =
  match last_named n l i with Some j => Some j | None => dict_get d n end.
Proof.
  intros n l. induction l as [|o r IH]; intros i d; cbn [table_fill last_named]; [reflexivity|].
  rewrite IH. destruct (last_named n r (S i)) as [j|]; [reflexivity|].
  unfold has_name. destruct (sym_name o) as [m|]; [|reflexivity].
  rewrite dict_get_set. destruct (Nat.eqb m n); reflexivity.
Qed.

Lemma last_named_absent : forall n l k, ~ In n (sym_names l) -> last_named n l k = None.
Proof.
  intros n l. induction l as [|o r IH]; intros k Hnin; [reflexivity|].
  cbn [last_named]. unfold sym_names in Hnin. cbn [flat_map] in Hnin.
  rewrite IH by (intro H; apply Hnin; apply in_or_app; right; exact H).
  unfold has_name. destruct (sym_name o) as [m|]; [|reflexivity].
  destruct (Nat.eqb m n) eqn:E; [|reflexivity].
  apply Nat.eqb_eq in E. subst m. exfalso. apply Hnin. left. reflexivity.
Qed.

Lemma last_first_nodup : forall n l k, NoDup (sym_names l) -> last_named n l k = first_named n l k.
Proof.
  intros n l. induction l as [|o r IH]; intros k Hnd; [reflexivity|].
  cbn [last_named first_named]. destruct (nodup_names_cons o r Hnd) as [Hnd' Ho].
  destruct (has_name o n) eqn:E.
  - rewrite last_named_absent; [reflexivity|]. apply Ho, has_name_iff, E.
  - rewrite (IH (S k) Hnd'). destruct (first_named n r (S k)); reflexivity.
Qed.

Lemma last_named_none : forall n l k, last_named n l k = None -> ~ In n (sym_names l).
Proof.
  intros n l. induction l as [|x r IH]; intros k E Hin; [destruct Hin|].
  cbn [last_named] in E. destruct (last_named n r (S k)) eqn:E'; [discriminate|].
  unfold sym_names in Hin. cbn [flat_map] in Hin. apply in_app_or in Hin. destruct Hin as [Hin | Hin].
  - unfold has_name in E. destruct (sym_name x) as [m|]; [|destruct Hin].
    destruct Hin as [Hm | []]. subst m. rewrite Nat.eqb_refl in E. discriminate.
  - apply (IH (S k) E' Hin).
Qed.

Lemma last_named_some : forall n l k i,
  last_named n l k = Some i ->
  exists j, i = k + j /\ (exists c, nth_error l j = Some c /\ named c n) /\
            (forall j' c, j < j' -> nth_error l j' = Some c -> ~ named c n).
Proof.
  intros n l. induction l as [|o r IH]; intros k i H; cbn [last_named] in H; [discriminate|].
  destruct (last_named n r (S k)) as [j0|] eqn:E.
  - inversion H; subst j0. destruct (IH _ _ E) as [j [Hi [[c [Hc Hn]] Hmax]]].
    exists (S j). split; [lia|]. split; [exists c; split; assumption|].
    intros j' c' Hlt Hj'. destruct j' as [|j']; [lia|]. cbn in Hj'. apply (Hmax j' c'); [lia | exact Hj'].
  - destruct (has_name o n) eqn:En; [|discriminate]. inversion H; subst.
    exists 0. split; [lia|]. split; [exists o; split; [reflexivity | apply has_name_iff; exact En]|].
    intros j' c' Hlt Hj' Hn'. destruct j' as [|j']; [lia|]. cbn in Hj'.
    apply (last_named_none _ _ _ E). apply (in_sym_names r j' c' n Hj' Hn').
Qed.

(* every tree: SymbolTable(op).lookup(n) is the LAST child named n (later dict keys overwrite) *)
Theorem cached_table_last : forall t q o n, get t q = Some o -> is_symbol_table o = true ->
  exists d, symtab_init t q = Val d /\
    forall r, symtab_lookup q d n = Some r <-> exists i, last_child_named o n i /\ r = q ++ [i].
Proof.
  intros t q o n Hg Ht. unfold symtab_init. rewrite Hg, Ht. eexists. split; [reflexivity|].
  intro r. unfold symtab_lookup. rewrite table_fill_get. cbn [dict_get].
  destruct (last_named n (children o) 0) as [j|] eqn:E.
  - destruct (last_named_some _ _ _ _ E) as [j0 [Hj [Hex Hmax]]]. cbn in Hj. subst j0.
    split.
    + intro H. inversion H; subst. exists j. split; [split; assumption | reflexivity].
    + intros [i [[[c [Hc Hn]] Hmax'] Hr]]. subst r. destruct Hex as [c0 [Hc0 Hn0]].
      destruct (Nat.lt_trichotomy i j) as [Hlt | [Heq | Hlt]].
      * exfalso. apply (Hmax' j c0 Hlt Hc0 Hn0).
      * subst. reflexivity.
      * exfalso. apply (Hmax i c Hlt Hc Hn).
  - split; [discriminate|]. intros [i [[[c [Hc Hn]] _] _]]. exfalso.
    apply (last_named_none _ _ _ E). apply (in_sym_names _ i c n Hc Hn).
Qed.

(* unique names in the table: the cached table answers exactly like the direct scan *)
Theorem cached_table_agrees : forall t q o n, get t q = Some o -> is_symbol_table o = true ->
  NoDup (sym_names (children o)) ->
  exists d, symtab_init t q = Val d /\ symtab_lookup q d n = lookup_direct t q n.
Proof.
  intros t q o n Hg Ht Hnd. unfold symtab_init, lookup_direct, symtab_lookup. rewrite Hg, Ht.
  eexists. split; [reflexivity|]. rewrite table_fill_get. cbn [dict_get].
  rewrite (last_first_nodup n (children o) 0 Hnd).
  destruct (first_named n (children o) 0); reflexivity.
Qed.

(* duplicate names (rejected by traits.SymbolTable.verify): the two lookups differ *)
Definition dup_tree : op :=
  Op None Public true [Op (Some 0) Public false []; Op (Some 0) Public false []].
Lemma cached_duplicates_differ :
  exists t q n d, symtab_init t q = Val d /\ lookup_direct t q n = Some [0] /\
                  symtab_lookup q d n = Some [1].
Proof. exists dup_tree, [], 0. eexists. vm_compute. repeat split. Qed.

Lemma path_eqb_eq : forall p q, path_eqb p q = true <-> p = q.
Proof.
  induction p as [|a p IH]; intros [|b q]; cbn; try (split; [discriminate | intro H; discriminate]).
  - split; reflexivity.
  - rewrite andb_true_iff, Nat.eqb_eq, IH. split; [intros [H1 H2]; subst; reflexivity|].
    intro H; inversion H; split; reflexivity.
Qed.

(* every cached table is the one __init__ builds for that op (nothing mutates the IR in between) *)
Definition coll_ok (t : op) (c : coll) : Prop :=
  forall q d, coll_find c q = Some d -> symtab_init t q = Val d.

Lemma coll_ok_nil : forall t, coll_ok t [].
Proof. intros t q d H. discriminate. Qed.

Lemma coll_find_app : forall c q d q',
  coll_find (c ++ [(q, d)]) q' =
  match coll_find c q' with Some x => Some x | None => if path_eqb q q' then Some d else None end.
Proof.
  induction c as [|[q0 d0] r IH]; intros q d q'; cbn [app coll_find]; [reflexivity|].
  destruct (path_eqb q0 q'); [reflexivity | apply IH].
Qed.

Lemma get_symbol_table_ok : forall t c q, coll_ok t c ->
  exists c', coll_ok t c' /\ get_symbol_table t c q = (c', symtab_init t q).
Proof.
  intros t c q Hok. unfold get_symbol_table. destruct (coll_find c q) as [d|] eqn:Ef.
  - exists c. split; [exact Hok|]. rewrite (Hok q d Ef). reflexivity.
  - destruct (symtab_init t q) as [d|e] eqn:Ei.
    + exists (c ++ [(q, d)]). split; [|reflexivity]. intros q' d' H. rewrite coll_find_app in H.
      destruct (coll_find c q') as [x|] eqn:Ef'.
      * inversion H; subst. apply (Hok q' d' Ef').
      * destruct (path_eqb q q') eqn:Ep; [|discriminate]. apply path_eqb_eq in Ep. subst q'.
        inversion H; subst. exact Ei.
    + exists c. split; [exact Hok | reflexivity].
Qed.

Definition direct_or_assert (t : op) (q : path) (n : name) : res (option path) :=
  if is_table_at t q then Val (lookup_direct t q n) else Raise AssertionError.

Lemma coll_cb_ok : forall t c q n, coll_ok t c -> unique_names t ->
  exists c', coll_ok t c' /\ coll_cb t c q n = (c', direct_or_assert t q n).
Proof.
  intros t c q n Hok Hu. unfold coll_cb.
  destruct (get_symbol_table_ok t c q Hok) as [c' [Hok' Heq]]. rewrite Heq.
  exists c'. split; [exact Hok'|]. unfold direct_or_assert, is_table_at.
  destruct (get t q) as [o|] eqn:Hg.
  - destruct (is_symbol_table o) eqn:Ht.
    + destruct (cached_table_agrees t q o n Hg Ht (Hu q o Hg Ht)) as [d [Hd Hl]].
      rewrite Hd, Hl. reflexivity.
    + unfold symtab_init. rewrite Hg, Ht. reflexivity.
  - unfold symtab_init. rewrite Hg. reflexivity.
Qed.

Lemma ref_nested_coll : forall t, unique_names t -> forall nested c cur acc, coll_ok t c ->
  exists c', coll_ok t c' /\
    ref_nested t (coll_cb t) c cur acc nested = (c', snd (ref_nested t (direct_cb t) tt cur acc nested)).
Proof.
  intros t Hu nested. induction nested as [|m ms IH]; intros c cur acc Hok; cbn [ref_nested].
  - exists c. split; [exact Hok | reflexivity].
  - destruct (is_table_at t cur) eqn:Et; cbn [negb].
    2:{ exists c. split; [exact Hok | reflexivity]. }
    destruct (coll_cb_ok t c cur m Hok Hu) as [c1 [Hok1 Heq]]. rewrite Heq.
    change (direct_cb t tt cur m) with (tt, Val (lookup_direct t cur m)).
    unfold direct_or_assert. rewrite Et. destruct (lookup_direct t cur m) as [o'|]; cbv beta iota.
    + destruct (is_private_at t o').
      * exists c1. split; [exact Hok1 | reflexivity].
      * apply (IH c1 o' (acc ++ [o']) Hok1).
    + exists c1. split; [exact Hok1 | reflexivity].
Qed.

Lemma ref_in_coll : forall t c q root nested, unique_names t -> coll_ok t c ->
  exists c', coll_ok t c' /\
    lookup_symbol_ref_in t (coll_cb t) c q root nested =
    (c', if is_table_at t q then snd (lookup_symbol_ref_in t (direct_cb t) tt q root nested)
         else Raise AssertionError).
Proof.
  intros t c q root nested Hu Hok. unfold lookup_symbol_ref_in.
  destruct (coll_cb_ok t c q root Hok Hu) as [c1 [Hok1 Heq]]. rewrite Heq.
  change (direct_cb t tt q root) with (tt, Val (lookup_direct t q root)).
  unfold direct_or_assert. destruct (is_table_at t q).
  - destruct (lookup_direct t q root) as [o|]; cbv beta iota.
    + apply (ref_nested_coll t Hu nested c1 o [o] Hok1).
    + exists c1. split; [exact Hok1 | reflexivity].
  - exists c1. split; [exact Hok1 | reflexivity].
Qed.

(* SymbolTableCollection.lookup_symbol_in = SymbolTable.lookup_symbol_in, and the cache stays valid
   (so any sequence of lookups through one collection agrees with the direct lookups) *)
Theorem coll_lookup_symbol_in_agrees : forall t c q sym, unique_names t -> coll_ok t c ->
  exists c', coll_ok t c' /\ coll_lookup_symbol_in t c q sym = (c', lookup_symbol_in t q sym).
Proof.
  intros t c q sym Hu Hok. unfold coll_lookup_symbol_in, lookup_symbol_in. destruct sym as [n | root nested].
  - destruct (coll_cb_ok t c q n Hok Hu) as [c1 [Hok1 Heq]]. exists c1. split; [exact Hok1|].
    rewrite Heq. unfold direct_or_assert. destruct (is_table_at t q); reflexivity.
  - destruct (ref_in_coll t c q root nested Hu Hok) as [c1 [Hok1 Heq]]. exists c1. split; [exact Hok1|].
    rewrite Heq. destruct (is_table_at t q); cbn [negb]; [|reflexivity].
    destruct (snd (lookup_symbol_ref_in t (direct_cb t) tt q root nested)) as [[l|]|e]; reflexivity.
Qed.

Theorem coll_lookup_symbol_in_all_agrees : forall t c q sym, unique_names t -> coll_ok t c ->
  exists c', coll_ok t c' /\ coll_lookup_symbol_in_all t c q sym = (c', lookup_symbol_in_all t q sym).
Proof.
  intros t c q sym Hu Hok. unfold coll_lookup_symbol_in_all, lookup_symbol_in_all. destruct sym as [n | root nested].
  - destruct (coll_cb_ok t c q n Hok Hu) as [c1 [Hok1 Heq]]. exists c1. split; [exact Hok1|].
    rewrite Heq. unfold direct_or_assert. destruct (is_table_at t q); reflexivity.
  - destruct (ref_in_coll t c q root nested Hu Hok) as [c1 [Hok1 Heq]]. exists c1. split; [exact Hok1|].
    rewrite Heq. destruct (is_table_at t q); reflexivity.
Qed.

Theorem coll_lookup_nearest_agrees : forall t c p sym, unique_names t -> coll_ok t c ->
  exists c', coll_ok t c' /\
    coll_lookup_nearest_symbol_from t c p sym = (c', lookup_nearest_symbol_from t p sym).
Proof.
  intros t c p sym Hu Hok. unfold coll_lookup_nearest_symbol_from, lookup_nearest_symbol_from.
  destruct (get_nearest_symbol_table t p) as [q|].
  - apply coll_lookup_symbol_in_agrees; assumption.
  - exists c. split; [exact Hok | reflexivity].
Qed.

(* with duplicate names the collection differs from the direct lookup *)
Lemma coll_duplicates_differ :
  exists t q sym, snd (coll_lookup_symbol_in t [] q sym) <> lookup_symbol_in t q sym.
Proof. exists dup_tree, [], (SFlat 0). vm_compute. discriminate. Qed.
