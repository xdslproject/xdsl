(* C22/ProofsPat.v -- soundness of each modelled pattern on the op it matches (patterns with the same body share a
   lemma over the operator and its identity from ProofsArith.v), then `pat_sound` over all patterns and all ops. *)
From Coq Require Import ZArith List Bool Lia.
From XV Require Import C22.Model C22.ProofsArith C22.Proofs.
Import ListNotations.
Local Open Scope Z_scope.

Section Pat.
Variable memT : Type.
Variable ld : memT -> memkind -> Z -> Z.
Variable st : memT -> memkind -> Z -> Z -> memT.
Variable vr : ver.
Variable rpre : list node.
Variable uses : Z -> Z.
Variable e : env.
Variable m : memT.
Variable nx : Z.
Hypothesis Hok : env_ok rpre e.
Hypothesis Hv : Forall valid_node rpre.
Hypothesis Hb : Forall (ids_below nx) rpre.

Notation sound := (sound_outcome memT ld st e m).
Notation result_is := (result_is memT ld st e m nx).

Let GC := get_const_sound rpre e Hok Hv.
Let IC := fun a c => is_c_sound rpre e a c Hok Hv.

Ltac res_tac :=
  unfold Proofs.result_is; cbn [nop nid nrd is_store Model.exec_node fst snd];
  rewrite ?upd_eq; repeat split; try reflexivity; try assumption.
(* apply a builder lemma of Proofs.v; its first premise, what the matched op computes, holds by computation *)
Ltac use L := eapply L; [res_tac |].
Lemma def_of a d : find_def rpre a = Some d -> def_holds d e /\ nid d = a /\ valid_node d /\ ids_below nx d.
Proof.
  intros F. apply find_def_In in F. destruct F as [Hin Hid].
  split; [exact (env_ok_In _ _ _ Hok Hin) |]. split; [exact Hid |].
  pose proof (proj1 (Forall_forall _ _) Hv) as Hv'. pose proof (proj1 (Forall_forall _ _) Hb) as Hb'. auto.
Qed.

(* Each lemma is about the op its pattern matches on; i is the id of the matched op, rd its result register. *)
Lemma sound_remove_mv k i rd k' a :
  sound (mkN i rd (OMv k' a)) nx (p_remove_mv rpre (mkN i rd (OMv k' a)) k).
Proof.
  unfold p_remove_mv. cbn [nop nrd].
  destruct (match k, k' with MvI, MvI | MvF, MvF | MvD, MvD => true | _, _ => false end) eqn:K; [| exact I].
  destruct (find_def rpre a) as [d |] eqn:F; [| exact I].
  destruct ((nrd d =? rd) && (0 <=? rd) && Bool.eqb (is_int_op (nop d)) (is_int_op (OMv k' a))) eqn:G; [| exact I].
  apply andb_true_iff in G. destruct G as [_ G]. apply Bool.eqb_prop in G.
  destruct (def_of _ _ F) as ((Hr & _) & Hid & _ & _).
  unfold sound_outcome. cbn [Model.exec fold_left fst snd nop nid is_store].
  split; [destruct k'; reflexivity |]. split; [constructor |]. split; [reflexivity |]. split; [reflexivity |].
  destruct k'; cbn [Model.exec_node nop nid fst]; rewrite upd_eq; try reflexivity.
  cbn in G. unfold rdx. rewrite <- Hid. symmetry. apply wrap_small. apply Hr. exact G.
Qed.

Lemma sound_multiply_immediates i rd a1 a2 : i < nx ->
  sound (mkN i rd (OBin Mul a1 a2)) nx (p_multiply_immediates vr rpre (mkN i rd (OBin Mul a1 a2)) nx).
Proof.
  intros Hi. unfold p_multiply_immediates. cbn [nop nrd].
  destruct (get_const rpre a1) as [l |] eqn:G1, (get_const rpre a2) as [r |] eqn:G2; try exact I.
  - destruct (GC _ _ G1) as [E1 _], (GC _ _ G2) as [E2 _].
    use (s_li memT ld st vr e m nx). rewrite E1, E2. symmetry. apply f_mul_consts.
  - eapply (s_rew1 memT ld st e m nx); [res_tac | exact I | reflexivity | apply f_mul_comm].
  - destruct (Z.eqb_spec r 0) as [-> | _].
    + use (s_mv memT ld st e m nx). rewrite (proj1 (GC _ _ G2)). symmetry. apply f_mul_zero_r.
    + destruct (Z.eqb_spec r 1) as [-> | _]; [| exact I].
      use (s_mv memT ld st e m nx). rewrite (proj1 (GC _ _ G2)). symmetry. apply f_mul_one_r, rdx_range.
Qed.

Lemma sound_divide_by_one i rd a1 a2 : i < nx ->
  sound (mkN i rd (OBin Div a1 a2)) nx (p_divide_by_one rpre (mkN i rd (OBin Div a1 a2)) nx).
Proof.
  intros Hi. unfold p_divide_by_one. cbn [nop nrd].
  destruct (is_c (get_const rpre a2) 1) eqn:C; [| exact I].
  use (s_mv memT ld st e m nx). rewrite (IC _ _ C). symmetry. apply f_div_one, rdx_range.
Qed.

Lemma sound_add_immediates i rd a1 a2 : i < nx ->
  sound (mkN i rd (OBin Add a1 a2)) nx (p_add_immediates vr rpre (mkN i rd (OBin Add a1 a2)) nx).
Proof.
  intros Hi. unfold p_add_immediates. cbn [nop nrd].
  destruct (get_const rpre a1) as [l |] eqn:G1, (get_const rpre a2) as [r |] eqn:G2; try exact I.
  - destruct (GC _ _ G1) as [E1 _], (GC _ _ G2) as [E2 _].
    use (s_li memT ld st vr e m nx). rewrite E1, E2. symmetry. apply f_add_consts.
  - destruct (fix_addi vr && negb (in_si12 l)); [exact I |].
    use (s_addi memT ld st e m nx). rewrite (proj1 (GC _ _ G1)). symmetry. apply f_add_const_l.
  - destruct (fix_addi vr && negb (in_si12 r)); [exact I |].
    use (s_addi memT ld st e m nx). rewrite (proj1 (GC _ _ G2)). reflexivity.
Qed.

Lemma sound_sub_immediates i rd a1 a2 : i < nx ->
  sound (mkN i rd (OBin Sub a1 a2)) nx (p_sub_immediates vr rpre (mkN i rd (OBin Sub a1 a2)) nx).
Proof.
  intros Hi. unfold p_sub_immediates. cbn [nop nrd].
  destruct (get_const rpre a1) as [l |] eqn:G1, (get_const rpre a2) as [r |] eqn:G2; try exact I.
  - destruct (GC _ _ G1) as [E1 _], (GC _ _ G2) as [E2 _].
    use (s_li memT ld st vr e m nx). rewrite E1, E2. symmetry. apply f_sub_consts.
  - destruct (fix_addi vr && negb (in_si12 (- r))); [exact I |].
    use (s_addi memT ld st e m nx). rewrite (proj1 (GC _ _ G2)). symmetry. apply f_sub_const_r.
Qed.

Lemma sound_sub_addi i rd a1 a2 : i < nx ->
  sound (mkN i rd (OBin Sub a1 a2)) nx (p_sub_addi vr rpre (mkN i rd (OBin Sub a1 a2)) nx).
Proof.
  intros Hi. unfold p_sub_addi. cbn [nop nrd].
  destruct (find_def rpre a1) as [[di drd dop] |] eqn:F; [| exact I].
  destruct dop as [| | | | | o x imm | | |]; try exact I. destruct o; try exact I.
  destruct (Z.eqb_spec a2 x) as [-> | _]; [| exact I].
  destruct (def_of _ _ F) as ((_ & Hd) & Hid & _ & _). cbn [nop nid] in Hd, Hid. subst di.
  use (s_li memT ld st vr e m nx). unfold rdx at 1. rewrite Hd. symmetry. apply f_sub_addi.
Qed.

(* `x op x` rewritten to x, resp. to zero, for any binary op with that identity *)
Lemma sound_self_mv B i rd a1 a2 : i < nx -> (forall x, 0 <= x < M32 -> sem_bin B x x = x) ->
  sound (mkN i rd (OBin B a1 a2)) nx (if a1 =? a2 then rew_mv nx rd a1 else NoMatch).
Proof.
  intros Hi Hid. destruct (Z.eqb_spec a1 a2) as [-> | _]; [| exact I].
  use (s_mv memT ld st e m nx). symmetry. apply Hid, rdx_range.
Qed.
Lemma sound_self_zero B i rd a1 a2 : i < nx -> (forall x, sem_bin B x x = 0) ->
  sound (mkN i rd (OBin B a1 a2)) nx (if a1 =? a2 then rew_zero nx rd else NoMatch).
Proof.
  intros Hi Hid. destruct (Z.eqb_spec a1 a2) as [-> | _]; [| exact I].
  apply (s_zero memT ld st e m nx). res_tac. apply Hid.
Qed.

(* `x op 0` rewritten to x, and `c op imm` folded, for any immediate op with that identity *)
Lemma sound_imm_zero o i rd a imm : i < nx -> (forall x, 0 <= x < M32 -> sem_imm o x 0 = x) ->
  sound (mkN i rd (OImm o a imm)) nx (if imm =? 0 then rew_mv nx rd a else NoMatch).
Proof.
  intros Hi Hid. destruct (Z.eqb_spec imm 0) as [-> | _]; [| exact I].
  use (s_mv memT ld st e m nx). symmetry. apply Hid, rdx_range.
Qed.
Lemma sound_imm_const o (f : Z -> Z -> Z) i rd a imm : i < nx ->
  (forall c, sem_imm o (wrap c) imm = wrap (f c imm)) ->
  sound (mkN i rd (OImm o a imm)) nx
    (match get_const rpre a with Some c => rew_li vr nx rd (f c imm) | None => NoMatch end).
Proof.
  intros Hi Hid. destruct (get_const rpre a) as [c |] eqn:G; [| exact I].
  use (s_li memT ld st vr e m nx). rewrite (proj1 (GC _ _ G)). symmetry. apply Hid.
Qed.

Lemma sound_andi_zero i rd a imm : i < nx ->
  sound (mkN i rd (OImm Andi a imm)) nx (p_andi_zero vr (mkN i rd (OImm Andi a imm)) nx).
Proof.
  intros Hi. unfold p_andi_zero. cbn [nop nrd].
  destruct (Z.eqb_spec imm 0) as [-> | _]; [| exact I].
  use (s_li memT ld st vr e m nx). symmetry. apply f_andi_zero.
Qed.

(* the `erase` component does not matter for the local statement *)
Lemma sound_erase_irrelevant n new repl er er' :
  sound n nx (Rew new repl er) -> sound n nx (Rew new repl er').
Proof. exact (fun H => H). Qed.

Lemma sound_xori_self_inverse i rd a imm : i < nx ->
  sound (mkN i rd (OImm Xori a imm)) nx (p_xori_self_inverse rpre uses (mkN i rd (OImm Xori a imm)) nx).
Proof.
  intros Hi. unfold p_xori_self_inverse. cbn [nop nrd].
  destruct (find_def rpre a) as [[di drd dop] |] eqn:F; [| exact I].
  destruct dop as [| | | | | o x j | | |]; try exact I. destruct o; try exact I.
  destruct (Z.eqb_spec imm j) as [-> | _]; [| exact I].
  destruct (def_of _ _ F) as ((_ & Hd) & Hid & _ & _). cbn [nop nid] in Hd, Hid. subst di.
  apply sound_erase_irrelevant with (er := None).
  change (Rew [mkN nx rd (OMv MvI x)] (Some nx) None) with (rew_mv nx rd x).
  use (s_mv memT ld st e m nx). unfold rdx at 2. rewrite Hd. symmetry. apply f_xori_xori_same, rdx_range.
Qed.

Lemma sound_xori_of_xori i rd a imm : i < nx ->
  sound (mkN i rd (OImm Xori a imm)) nx (p_xori_of_xori rpre uses (mkN i rd (OImm Xori a imm)) nx).
Proof.
  intros Hi. unfold p_xori_of_xori. cbn [nop nrd].
  destruct (find_def rpre a) as [[di drd dop] |] eqn:F; [| exact I].
  destruct dop as [| | | | | o x j | | |]; try exact I. destruct o; try exact I.
  destruct (mk_si12 (Z.lxor j imm)) as [c |] eqn:K; [| exact I].
  apply mk_si12_sound in K. destruct K as [-> K].
  destruct (def_of _ _ F) as ((_ & Hd) & Hid & _ & _). cbn [nop nid] in Hd, Hid. subst di.
  unfold sound_outcome. cbn [Model.exec fold_left Model.exec_node nop nid fst snd is_store].
  split; [reflexivity |]. split; [constructor; [exact K | constructor] |].
  split; [intros i0 Hi0; apply upd_ne; lia |]. split; [reflexivity |].
  rewrite !upd_eq. unfold rdx at 2. rewrite Hd. symmetry. apply f_xori_xori.
Qed.

Lemma sound_shift_by_zero i rd s a k : i < nx ->
  miscompiles vr ShiftbyZero rpre (mkN i rd (OSh s a k)) = false ->
  sound (mkN i rd (OSh s a k)) nx (p_shift_by_zero vr (mkN i rd (OSh s a k)) nx).
Proof.
  intros Hi. unfold p_shift_by_zero, miscompiles. cbn [nop nrd]. intros Mis.
  destruct (Z.eqb_spec k 0) as [-> | _]; [| exact I]. cbn [andb].
  destruct (negb (fix_shz vr && is_bitmanip s)) eqn:G; [| exact I].
  use (s_mv memT ld st e m nx). symmetry. apply f_shift_zero; [| apply rdx_range].
  destruct (is_bitmanip s); [| reflexivity]. destruct (fix_shz vr); discriminate.
Qed.

Lemma sound_shift_constant_folding i rd s a k : i < nx -> 0 <= k < 32 ->
  sound (mkN i rd (OSh s a k)) nx (p_shift_constant_folding vr rpre (mkN i rd (OSh s a k)) nx).
Proof.
  intros Hi Vn. unfold p_shift_constant_folding. cbn [nop nrd].
  destruct (get_const rpre a) as [c |] eqn:G; [| exact I].
  destruct (GC _ _ G) as [E R].
  use (s_li memT ld st vr e m nx). rewrite E. symmetry. apply f_shift_const; [exact R | exact Vn].
Qed.

Lemma mk_off_si12 mk v : in_si12 v = true -> mk_off mk v = Some v.
Proof.
  intros R. pose proof (proj1 (in_si12_true _) R) as B.
  assert (W : (-2048 <=? v) && (v <? 4096) = true)
    by (apply andb_true_iff; split; [apply Z.leb_le | apply Z.ltb_lt]; lia).
  destruct mk; cbn [mk_off]; unfold mk_si12, mk_i12; rewrite ?R, ?W, ?sext12_id by exact B; reflexivity.
Qed.
Lemma mk_off_sound mk v c : mk_off mk v = Some c -> in_si12 v = true -> c = v /\ -2048 <= v < 2048.
Proof.
  intros H R. rewrite (mk_off_si12 _ _ R) in H. inversion H. split; [reflexivity | apply in_si12_true; congruence].
Qed.
Lemma mk_off_MW v c : mk_off MW v = Some c -> in_si12 v = true.
Proof. cbn. unfold mk_si12. destruct (in_si12 v); [reflexivity | discriminate]. Qed.

Definition mem_pat (mk : memkind) (store : bool) : pat :=
  match mk, store with
  | MW, false => LoadWordWithKnownOffset | MW, true => StoreWordWithKnownOffset
  | MFW, false => LoadFloatWordWithKnownOffset | MFW, true => StoreFloatWordWithKnownOffset
  | MFD, false => LoadDoubleWithKnownOffset | MFD, true => StoreDoubleWithKnownOffset
  end.

(* the part the six *WithKnownOffset patterns share: K builds the rewritten access from the base x and the
   combined offset; unless the rewrite is one of the miscompiling ones the offset is within si12 *)
Lemma with_known_offset mk n a imm (K : Z -> Z -> outcome) :
  (is_floatmem mk = true ->
   negb (fix_mem vr) && match find_def rpre a with
                        | Some (mkN _ _ (OImm Addi x j)) => negb (in_si12 (j + imm))
                        | _ => false
                        end = false) ->
  (forall x j, -2048 <= j + imm < 2048 -> wrap (rdx e a + wrap imm) = wrap (rdx e x + wrap (j + imm)) ->
     sound n nx (K x (j + imm))) ->
  sound n nx (match find_def rpre a with
              | Some (mkN _ _ (OImm Addi x j)) =>
                  if fix_mem vr && negb (in_si12 (j + imm)) then NoMatch else
                  match mk_off mk (j + imm) with Some c => K x c | None => Raise 2 end
              | _ => NoMatch
              end).
Proof.
  intros Mis HK. destruct (find_def rpre a) as [[di drd dop] |] eqn:F; [| exact I].
  destruct dop as [| | | | | o x j | | |]; try exact I. destruct o; try exact I.
  destruct (fix_mem vr && negb (in_si12 (j + imm))) eqn:Fx; [exact I |].
  destruct (mk_off mk (j + imm)) as [c |] eqn:Ko; [| exact I].
  assert (R : in_si12 (j + imm) = true).
  { destruct mk; [exact (mk_off_MW _ _ Ko) | |]; specialize (Mis eq_refl);
      destruct (fix_mem vr), (in_si12 (j + imm)); try reflexivity; discriminate. }
  destruct (mk_off_sound _ _ _ Ko R) as [-> R']. apply HK; [exact R' |].
  destruct (def_of _ _ F) as ((_ & Hd) & Hid & _ & _). cbn [nop nid] in Hd, Hid. subst di.
  unfold rdx at 1. rewrite Hd. apply f_mem_addr.
Qed.

Lemma sound_mem_known_offset mk store n : valid_node n -> ids_below nx n ->
  miscompiles vr (mem_pat mk store) rpre n = false ->
  sound n nx (p_mem_known_offset vr rpre n nx mk store).
Proof.
  intros Vn [Hi Hops]. destruct n as [i rd o]. cbn [nop nid nrd] in *. unfold p_mem_known_offset. cbn [nop nrd].
  intros Mis.
  destruct o as [| | | | | | | m' a imm | m' a v imm]; try exact I.
  - destruct (match mk, m' with MW, MW | MFW, MFW | MFD, MFD => true | _, _ => false end && negb store) eqn:S;
      [| exact I].
    apply andb_true_iff in S. destruct S as [S1 S2]. destruct store; [discriminate |].
    assert (mk = m') by (destruct mk, m'; try discriminate; reflexivity). subst m'.
    apply (with_known_offset mk _ a imm (fun x c => rew1 (mkN nx rd (OLoad mk x c)))).
    { intros Hf. unfold miscompiles in Mis. destruct mk; [discriminate Hf | exact Mis | exact Mis]. }
    intros x j R' A. unfold rew1, sound_outcome. cbn [nid nop is_store].
    destruct mk; cbn [Model.exec fold_left Model.exec_node nop nid fst snd];
      (split; [reflexivity |]); (split; [constructor; [exact R' | constructor] |]);
      (split; [intros i0 Hi0; apply upd_ne; lia |]); (split; [reflexivity |]);
      rewrite !upd_eq, A; reflexivity.
  - destruct (match mk, m' with MW, MW | MFW, MFW | MFD, MFD => true | _, _ => false end && store) eqn:S;
      [| exact I].
    apply andb_true_iff in S. destruct S as [S1 S2]. destruct store; [| discriminate].
    assert (mk = m') by (destruct mk, m'; try discriminate; reflexivity). subst m'.
    apply (with_known_offset mk _ a imm (fun x c => Rew [mkN nx (-1) (OStore mk x v c)] None None)).
    { intros Hf. unfold miscompiles in Mis. destruct mk; [discriminate Hf | exact Mis | exact Mis]. }
    intros x j R' A. unfold sound_outcome. cbn [nid nop is_store].
    destruct mk; cbn [Model.exec fold_left Model.exec_node nop nid fst snd];
      (split; [rewrite A; reflexivity |]); (split; [constructor; [exact R' | constructor] |]);
      (split; [reflexivity |]); reflexivity.
Qed.

Lemma sound_add_same i rd a1 a2 : i < nx -> a1 < nx ->
  sound (mkN i rd (OBin Add a1 a2)) nx (p_add_same (mkN i rd (OBin Add a1 a2)) nx).
Proof.
  intros Hi Ha. unfold p_add_same. cbn [nop nrd].
  destruct (Z.eqb_spec a1 a2) as [-> | _]; [| exact I].
  unfold sound_outcome. cbn [Model.exec fold_left Model.exec_node nop nid fst snd is_store].
  split; [reflexivity |]. split; [repeat (constructor; try exact I); cbn; unfold H32; lia |].
  split; [intros j Hj; rewrite !upd_ne by lia; reflexivity |]. split; [reflexivity |].
  rewrite !upd_eq. rewrite rdx_upd_ne by lia. unfold rdx at 2. rewrite upd_eq.
  rewrite wrap_wrap. symmetry. apply f_add_self.
Qed.

Lemma sound_and_by_zero i rd a1 a2 : i < nx ->
  sound (mkN i rd (OBin And a1 a2)) nx (p_and_by_zero vr rpre (mkN i rd (OBin And a1 a2)) nx).
Proof.
  intros Hi. unfold p_and_by_zero. cbn [nop nrd].
  destruct (is_c (get_const rpre a1) 0) eqn:C1.
  - destruct (is_c (get_const rpre a2) 0 && negb (fix_dbl vr)); [exact I |].
    use (s_mv memT ld st e m nx). rewrite (IC _ _ C1). symmetry. apply f_and_zero_l.
  - destruct (is_c (get_const rpre a2) 0) eqn:C2; [| exact I].
    use (s_mv memT ld st e m nx). rewrite (IC _ _ C2). symmetry. apply f_and_zero_r.
Qed.
Lemma sound_or_by_zero i rd a1 a2 : i < nx ->
  sound (mkN i rd (OBin Or a1 a2)) nx (p_or_by_zero rpre (mkN i rd (OBin Or a1 a2)) nx).
Proof.
  intros Hi. unfold p_or_by_zero. cbn [nop nrd].
  destruct (is_c (get_const rpre a1) 0) eqn:C1.
  - use (s_mv memT ld st e m nx). rewrite (IC _ _ C1). symmetry. apply f_or_zero_l, rdx_range.
  - destruct (is_c (get_const rpre a2) 0) eqn:C2; [| exact I].
    use (s_mv memT ld st e m nx). rewrite (IC _ _ C2). symmetry. apply f_or_zero_r, rdx_range.
Qed.
Lemma sound_xor_by_zero i rd a1 a2 : i < nx ->
  sound (mkN i rd (OBin Xor a1 a2)) nx (p_xor_by_zero vr rpre (mkN i rd (OBin Xor a1 a2)) nx).
Proof.
  intros Hi. unfold p_xor_by_zero. cbn [nop nrd].
  destruct (is_c (get_const rpre a1) 0) eqn:C1.
  - destruct (is_c (get_const rpre a2) 0 && negb (fix_dbl vr)); [exact I |].
    use (s_mv memT ld st e m nx). rewrite (IC _ _ C1). symmetry. apply f_xor_zero_l, rdx_range.
  - destruct (is_c (get_const rpre a2) 0) eqn:C2; [| exact I].
    use (s_mv memT ld st e m nx). rewrite (IC _ _ C2). symmetry. apply f_xor_zero_r, rdx_range.
Qed.

Lemma sound_load_immediate_0 i rd c : i < nx ->
  sound (mkN i rd (OLi c)) nx (p_load_immediate_0 (mkN i rd (OLi c)) nx).
Proof.
  intros Hi. unfold p_load_immediate_0. cbn [nop nrd].
  destruct (Z.eqb_spec c 0) as [-> | _]; [| exact I].
  destruct (rd =? 0).
  - eapply (s_rew1 memT ld st e m nx); [res_tac | exact I | reflexivity | reflexivity].
  - apply (s_zero memT ld st e m nx). res_tac.
Qed.

(* A pattern leaves every op it does not match on alone; on the op it matches, the lemma above applies. *)
Theorem pat_sound p n : valid_node n -> ids_below nx n -> miscompiles vr p rpre n = false ->
  sound n nx (apply_pat vr rpre uses n nx p).
Proof.
  intros Vn Hi Mis.
  destruct p; cbn [apply_pat]; try (apply sound_mem_known_offset; assumption).
  all: destruct n as [i rd o]; destruct Hi as [Hi Hops]; cbn [nid nop] in Hi, Hops.
  all: destruct o as [fl | | c | k' a | b a1 a2 | o a imm | s a k | m' a imm | m' a v imm]; try exact I.
  all: try (destruct b; try exact I); try (destruct o; try exact I).
  - apply sound_remove_mv.
  - apply sound_remove_mv.
  - apply sound_remove_mv.
  - apply sound_multiply_immediates, Hi.
  - apply sound_divide_by_one, Hi.
  - apply sound_add_immediates, Hi.
  - apply (sound_imm_zero Addi); [exact Hi | apply f_addi_zero].
  - apply (sound_imm_const Addi Z.add); [exact Hi | intros c; apply f_addi_const].
  - apply sound_sub_immediates, Hi.
  - apply (sound_self_zero Sub); [exact Hi | apply f_sub_self].
  - apply sound_sub_addi, Hi.
  - apply (sound_imm_const Andi Z.land); [exact Hi | intros c; apply f_andi_const].
  - apply sound_andi_zero, Hi.
  - apply (sound_imm_const Ori Z.lor); [exact Hi | intros c; apply f_ori_const].
  - apply (sound_imm_zero Ori); [exact Hi | apply f_ori_zero].
  - apply (sound_imm_zero Xori); [exact Hi | apply f_xori_zero].
  - apply sound_xori_self_inverse, Hi.
  - apply sound_xori_of_xori, Hi.
  - apply (sound_imm_const Xori Z.lxor); [exact Hi | intros c; apply f_xori_const].
  - apply sound_shift_by_zero; assumption.
  - apply sound_shift_constant_folding; assumption.
  - apply sound_add_same; [exact Hi | exact (Forall_inv Hops)].
  - apply sound_and_by_zero, Hi.
  - apply (sound_self_mv And); [exact Hi | apply f_and_self].
  - apply sound_or_by_zero, Hi.
  - apply (sound_self_mv Or); [exact Hi | apply f_or_self].
  - apply (sound_self_zero Xor); [exact Hi | apply f_xor_self].
  - apply sound_xor_by_zero, Hi.
  - apply sound_load_immediate_0, Hi.
Qed.

End Pat.
