(* C20/ProofsPhase3.v -- the cycle phase (third loop) of the repaired algorithm:
   breaking a cycle through a designated free register, or rotating an integer cycle with the
   (repaired) xor-swap chain. *)
From Coq Require Import ZArith List Bool Lia ZifyBool Relations.
From XV Require Import C20.Model C20.Spec C20.ProofsBase C20.ProofsTables C20.ProofsCycle C20.ProofsPhase1.
Import ListNotations.
Local Open Scope Z_scope.

Lemma lxor_cancel_r x y : Z.lxor (Z.lxor x y) y = x.
Proof. now rewrite Z.lxor_assoc, Z.lxor_nilpotent, Z.lxor_0_r. Qed.
Lemma lxor_cancel_l x y : Z.lxor (Z.lxor x y) x = y.
Proof. now rewrite (Z.lxor_comm x y), lxor_cancel_r. Qed.

Lemma swap_sem e a b :
  vreg a <> vreg b -> vreg a <> ZERO -> vreg b <> ZERO ->
  exists xs v2 v3, insert_swap e a b = (e ++ xs, v2, v3) /\ vreg v2 = vreg b /\ vreg v3 = vreg a /\
    forall rho,
      get (exec xs rho) (vreg a) = get rho (vreg b) /\
      get (exec xs rho) (vreg b) = get rho (vreg a) /\
      forall r, r <> vreg a -> r <> vreg b -> get (exec xs rho) r = get rho r.
Proof.
  intros Nab Na Nb. unfold insert_swap.
  eexists [Xor (vreg a) a b; Xor (vreg b) (new_value e (vreg a)) b;
           Xor (vreg a) (new_value e (vreg a)) (new_value (e ++ [Xor (vreg a) a b]) (vreg b))].
  eexists. eexists. split.
  { rewrite <- !app_assoc. reflexivity. }
  split; [reflexivity|]. split; [reflexivity|].
  intros rho. unfold exec. cbn [fold_left step vreg new_value].
  set (ra := vreg a) in *. set (rb := vreg b) in *.
  assert (Nba : rb <> ra) by congruence.
  repeat split.
  - repeat first [rewrite get_set_same by assumption | rewrite get_set_other by assumption].
    rewrite lxor_cancel_r. apply lxor_cancel_l.
  - repeat first [rewrite get_set_same by assumption | rewrite get_set_other by assumption].
    apply lxor_cancel_r.
  - intros r Ra Rb. now rewrite !get_set_other by assumption.
Qed.

Section Phase3.
  Variable ms : list move.
  Variable free : list reg.
  Variable ck : value -> Z.
  Variable wl : value -> reg -> option Z.
  Hypothesis WF : wf_all ms free.
  Hypothesis Hkey : forall a b, In a ms -> In b ms ->
    (ck (m_value a) = ck (m_value b) <-> m_src a = m_src b).
  Hypothesis Hw : forall m, In m ms -> trivb m = false -> wl (m_value m) (m_dst m) = Some (m_w m).

  Notation P := (src_by_dst (loop1 ms)).
  Notation oidx := (output_index ms).
  Notation break_chain := (break_chain wl ms (loop1 ms)).
  Notation xor_chain_new := (xor_chain_new ms (loop1 ms)).
  Notation doneb := (doneb ms).
  Let ND : NoDup (map m_dst ms) := wa_dsts _ _ WF.

  Definition par (r : reg) : option reg := option_map vreg (P r).

  Lemma par_move x y : par x = Some y ->
    exists m, In m ms /\ trivb m = false /\ m_dst m = x /\ m_src m = y /\ P x = Some (m_value m).
  Proof.
    unfold par. destruct (P x) as [v|] eqn:E; [|discriminate]. intros H. inversion H; subst.
    destruct (P_inv ms free WF _ _ E) as (m & Im & Tm & Dm & ->). exists m. auto.
  Qed.
  Lemma par_dst m : In m ms -> trivb m = false -> par (m_dst m) = Some (m_src m).
  Proof. intros Im Tm. unfold par. now rewrite (P_of ms free WF m Im Tm). Qed.
  Lemma view_copyf m x : view m x = copyf (is_float (m_dst m)) (m_w m) x.
  Proof. reflexivity. Qed.

  Record Inv3 (s : state) : Prop := mkInv3 {
    K_len : length (results s) = length ms;
    K_triv : forall i m, nth_error ms i = Some m -> trivb m = true ->
             nth_error (results s) i = Some (Some (m_value m));
    K_sem : forall rho,
      (forall m, In m ms -> trivb m = false -> doneb (results s) (m_dst m) = true ->
         view m (get (exec (em s) rho) (m_dst m)) = view m (get rho (m_src m)))
      /\ (forall r, (P r = None \/ doneb (results s) r = false) -> ~ In r free ->
            get (exec (em s) rho) r = get rho r);
    K_child : forall d, P d <> None -> doneb (results s) d = false ->
      exists y, In y ms /\ trivb y = false /\ m_src y = d /\ doneb (results s) (m_dst y) = false }.

  Lemma inv3_of_inv2 s : Inv2 ms ck s (map m_dst ms) -> Inv3 s.
  Proof.
    intros J. pose proof (unresolved_child ms free ck WF Hkey s J) as UC. destruct J as [Ji _ _ _].
    constructor.
    - apply (I_len ms ck s Ji).
    - apply (I_triv ms ck s Ji).
    - intros rho. destruct (I_sem ms ck s Ji rho) as [S1 S2]. split.
      + intros m Im Tm Dm. rewrite (S1 m Im Tm Dm). rewrite !view_copyf. apply copyf_idem.
      + intros r Hr _. now apply S2.
    - exact UC.
  Qed.

  Definition unres (rs : list (option value)) (r : reg) : bool :=
    match P r with Some _ => negb (doneb rs r) | None => false end.
  Definition Ulist (rs : list (option value)) : list reg := filter (unres rs) (map m_dst ms).
  Lemma Ulist_In rs r : In r (Ulist rs) <-> P r <> None /\ doneb rs r = false.
  Proof.
    unfold Ulist. rewrite filter_In. unfold unres. split.
    - intros [_ H]. destruct (P r); [|discriminate]. split; [discriminate|]. now apply negb_true_iff.
    - intros [Pr Dr]. destruct (P r) as [v|] eqn:E; [|congruence]. split; [|now rewrite Dr].
      destruct (P_inv ms free WF _ _ E) as (m & Im & _ & <- & _). now apply in_map.
  Qed.

  Lemma cycle_at s d : Inv3 s -> P d <> None -> doneb (results s) d = false ->
    exists p, path par (d :: p) d /\ NoDup (d :: p) /\
      (forall z, In z (d :: p) -> P z <> None /\ doneb (results s) z = false).
  Proof.
    intros K Pd Dd.
    destruct (cycle_of par (Ulist (results s))) with (d := d) as (p & Pa & NDc & Inc).
    - apply NoDup_filter. exact ND.
    - intros x Ix. apply Ulist_In in Ix as [Px Dx].
      destruct (K_child s K x Px Dx) as (y & Iy & Ty & Sy & Dy).
      exists (m_dst y). split.
      + apply Ulist_In. split; [|assumption]. rewrite (P_of ms free WF y Iy Ty). discriminate.
      + now rewrite par_dst, Sy.
    - apply Ulist_In. auto.
    - exists p. split; [assumption|]. split; [assumption|].
      intros z [<-|Iz]; [auto|]. now apply Ulist_In, Inc.
  Qed.

  Lemma slot_cycle s k m : Inv3 s -> nth_error ms k = Some m -> nth_error (results s) k = Some None ->
    trivb m = false /\ exists q, path par (m_dst m :: m_src m :: q) (m_dst m) /\ NoDup (m_dst m :: m_src m :: q) /\
      (forall z, In z (m_dst m :: m_src m :: q) -> P z <> None /\ doneb (results s) z = false).
  Proof.
    intros K Hk Ek. pose proof (nth_error_In _ _ Hk) as Im.
    assert (Tm : trivb m = false).
    { destruct (trivb m) eqn:T; [|reflexivity]. rewrite (K_triv s K k m Hk T) in Ek. discriminate. }
    split; [assumption|]. destruct (cycle_at s (m_dst m) K) as (p & Pa & NDc & HC).
    - rewrite (P_of ms free WF m Im Tm). discriminate.
    - unfold ProofsPhase1.doneb. now rewrite (output_index_of ms k m ND Hk), Ek.
    - (* the first parent link of the cycle is the move m itself *)
      pose proof (proj1 Pa) as Pd. rewrite (par_dst m Im Tm) in Pd. apply trivb_false in Tm.
      destruct p as [|x q]; injection Pd as Pd; [congruence|]. subst x. eauto.
  Qed.

  Lemma path_kind p z : path par p z -> forall x, In x p -> is_float x = is_float z.
  Proof.
    induction p as [|a q IH]; intros Pa x I; [destruct I|]. destruct Pa as [Ha Pq].
    assert (Ka : is_float a = is_float (hd z q)).
    { destruct (par_move _ _ Ha) as (m & Im & _ & Dm & Sm & _).
      rewrite <- Dm, <- Sm. symmetry. apply (wa_kinds _ _ WF m Im). }
    destruct I as [<-|I]; [|now apply IH]. rewrite Ka.
    destruct q as [|b q]; [reflexivity|]. apply (IH Pq). now left.
  Qed.

  Lemma path_trans p z : path par p z -> p <> [] -> clos_trans reg (edge ms) z (hd z p).
  Proof.
    induction p as [|a q IH]; intros Pa N; [congruence|]. destruct Pa as [Ha Pq].
    assert (E : edge ms (hd z q) a).
    { destruct (par_move _ _ Ha) as (m & Im & Tm & Dm & Sm & _).
      exists m. repeat split; auto. now apply trivb_false. }
    destruct q as [|b q]; [now apply t_step|].
    eapply t_trans; [apply IH; [assumption|discriminate]|now apply t_step].
  Qed.
  Lemma cycle_on d p : path par (d :: p) d -> on_cycle ms d.
  Proof. intros Pa. apply (path_trans (d :: p) d Pa). discriminate. Qed.

  Lemma cycle_len d p : NoDup (d :: p) -> (forall z, In z (d :: p) -> P z <> None) ->
    (length p < loop_fuel ms)%nat.
  Proof.
    intros NDc Hp. assert (length (d :: p) <= length (map m_dst ms))%nat.
    { apply NoDup_incl_length; [assumption|]. intros z Iz. specialize (Hp z Iz).
      destruct (P z) as [v|] eqn:E; [|congruence].
      destruct (P_inv ms free WF _ _ E) as (m & Im & _ & <- & _). now apply in_map. }
    rewrite map_length in H. simpl in H. unfold loop_fuel. lia.
  Qed.

  Lemma path_src p z m : path par p z -> In m ms -> trivb m = false -> In (m_dst m) p ->
    In (m_src m) (z :: tl p).
  Proof.
    intros Pa Im Tm I. destruct (path_closed par p z _ Pa I) as (y & Py & Iy).
    rewrite (par_dst m Im Tm) in Py. injection Py as <-. exact Iy.
  Qed.

  (* rs' is rs with the result slots of the registers L filled and nothing else touched *)
  Record fills (rs rs' : list (option value)) (L : list reg) : Prop := mkFills {
    F_len : length rs' = length rs;
    F_in : forall r, In r L -> doneb rs' r = true;
    F_out : forall r, ~ In r L -> doneb rs' r = doneb rs r;
    F_slot : forall i, (forall r, In r L -> oidx r <> Some i) -> nth_error rs' i = nth_error rs i }.

  Lemma fills_nil rs : fills rs rs [].
  Proof. constructor; auto. Qed.
  Lemma fills_first rs rs' L d i v : oidx d = Some i -> (i < length rs)%nat -> ~ In d L ->
    fills (lset i (Some v) rs) rs' L -> fills rs rs' (d :: L).
  Proof.
    intros Od Li Nd [Fl Fi Fo Fs].
    pose proof (fun r => doneb_lset ms free WF rs i v d r Od Li) as DB.
    constructor.
    - now rewrite Fl, lset_length.
    - intros r [<-|I]; [|now apply Fi]. now rewrite (Fo d Nd), DB, Z.eqb_refl.
    - intros r Nr. rewrite Fo by (intros I; apply Nr; now right). rewrite DB.
      destruct (Z.eqb_spec r d) as [->|]; [exfalso; apply Nr; now left|reflexivity].
    - intros j Hj. rewrite Fs by (intros r Ir; apply Hj; now right).
      apply nth_lset_other. intros <-. apply (Hj d); [now left|assumption].
  Qed.
  Lemma fills_last rs rs' L d i v : oidx d = Some i -> (i < length rs)%nat ->
    fills rs rs' L -> fills rs (lset i (Some v) rs') (d :: L).
  Proof.
    intros Od Li [Fl Fi Fo Fs]. rewrite <- Fl in Li.
    pose proof (fun r => doneb_lset ms free WF rs' i v d r Od Li) as DB.
    constructor.
    - now rewrite lset_length.
    - intros r I. rewrite DB. destruct (Z.eqb_spec r d) as [|N]; [reflexivity|].
      destruct I as [<-|I]; [now destruct N|now apply Fi].
    - intros r Nr. rewrite DB. destruct (Z.eqb_spec r d) as [->|]; [exfalso; apply Nr; now left|].
      apply Fo. intros I. apply Nr. now right.
    - intros j Hj. rewrite nth_lset_other by (intros <-; apply (Hj d); [now left|assumption]).
      apply Fs. intros r Ir. apply Hj. now right.
  Qed.

  Lemma break_chain_eq fuel stop e rs cur :
    break_chain fuel stop e rs cur =
    match fuel with
    | O => OutOfFuel
    | S f =>
        if cur =? stop then Ok (e, rs) else
        do src <- key (P cur);
        do w <- key (wl src cur);
        do '(e1, nv) <- insert_mv e src cur w;
        do i <- key (oidx cur);
        break_chain f stop e1 (lset i (Some nv) rs) (vreg src)
    end.
  Proof. destruct fuel; reflexivity. Qed.

  Lemma break_chain_spec : forall p z fuel e rs,
    path par p z -> NoDup p -> ~ In z p -> length rs = length ms -> (length p < fuel)%nat ->
    match break_chain fuel z e rs (hd z p) with
    | Ok (e', rs') =>
        exists mvs, e' = e ++ mvs /\ fills rs rs' p
        /\ forall rho,
             (forall r, ~ In r p -> get (exec mvs rho) r = get rho r)
             /\ (forall m, In m ms -> trivb m = false -> In (m_dst m) p ->
                   get (exec mvs rho) (m_dst m) = copyf (is_float (m_dst m)) (m_w m) (get rho (m_src m)))
    | Raise e0 => e0 = EPassFailed /\ exists m, In m ms /\ trivb m = false /\ okw (m_w m) = false
    | OutOfFuel => False
    end.
  Proof.
    induction p as [|x q IH]; intros z fuel e rs Pa NDp Nz Len Fu;
      (destruct fuel as [|f]; [simpl in Fu; lia|]); rewrite break_chain_eq; simpl hd.
    - rewrite Z.eqb_refl. exists []. rewrite app_nil_r. split; [reflexivity|]. split; [apply fills_nil|].
      intros rho. split; [reflexivity|]. intros m _ _ [].
    - destruct Pa as [Px Pq].
      destruct (Z.eqb_spec x z) as [->|Nxz]; [exfalso; apply Nz; now left|].
      destruct (par_move x _ Px) as (m & Im & Tm & Dm & Sm & Pm). rewrite Pm. cbn [key bind].
      pose proof (Hw m Im Tm) as Hwm. rewrite Dm in Hwm. rewrite Hwm. cbn [key bind].
      assert (Ksrc : is_float (vreg (m_value m)) = is_float x) by (rewrite <- Dm; apply (wa_kinds _ _ WF m Im)).
      destruct (insert_mv_res e (m_value m) x (m_w m) Ksrc) as [(e1 & nv & Hins)|[Hins Hbw]].
      2:{ rewrite Hins. cbn [bind]. split; [reflexivity|]. exists m. auto. }
      rewrite Hins. cbn [bind].
      destruct (oidx_of ms free WF m Im) as (i & Oi & Li). rewrite Dm in Oi. rewrite <- Len in Li.
      rewrite Oi. cbn [key bind]. simpl vreg. rewrite Sm.
      destruct (insert_mv_Ok _ _ _ _ _ _ Hins Ksrc) as (_ & _ & ins & -> & _ & Hstep).
      apply NoDup_cons_iff in NDp as [Hx NDq].
      specialize (IH z f (e ++ [ins]) (lset i (Some nv) rs) Pq NDq (fun I => Nz (or_intror I))).
      rewrite lset_length in IH. specialize (IH Len ltac:(simpl in Fu; lia)).
      destruct (break_chain f z (e ++ [ins]) (lset i (Some nv) rs) (hd z q)) as [[e' rs']|e0|]; [|exact IH|exact IH].
      destruct IH as (mvs & -> & Fq & Sem).
      exists (ins :: mvs). split; [now rewrite <- app_assoc|].
      split; [now apply (fills_first rs rs' q x i nv)|].
      intros rho. change (exec (ins :: mvs) rho) with (exec mvs (step rho ins)). rewrite Hstep.
      destruct (Sem (set rho x (copyf (is_float x) (m_w m) (get rho (vreg (m_value m)))))) as [F1 F2].
      assert (NZ : x <> ZERO) by (rewrite <- Dm; now apply (nontriv_dst_nonzero ms free WF)).
      split.
      + intros r Nr. rewrite F1 by (intros K; apply Nr; now right).
        apply get_set_other. intros ->. apply Nr. now left.
      + intros m' Im' Tm' [Dx|Ir].
        * assert (m' = m) by (apply (dst_inj ms free WF); auto; congruence). subst m'.
          rewrite Dm, (F1 x Hx), get_set_same by assumption. simpl. now rewrite Sm.
        * rewrite (F2 m' Im' Tm' Ir). f_equal. apply get_set_other.
          intros E. destruct (path_src q z m' Pq Im' Tm' Ir) as [Is|Is]; [congruence|].
          apply Hx. rewrite <- E. destruct q; [destruct Is|now right].
  Qed.

  Lemma xor_chain_eq fuel stop e rs inp out :
    xor_chain_new fuel stop e rs inp out =
    match fuel with
    | O => OutOfFuel
    | S f =>
        if vreg inp =? stop then Ok (e, rs, out) else
        let '(e3, nw_out, nw_inp) := insert_swap e inp out in
        do i <- key (oidx (vreg nw_out));
        let rs1 := lset i (Some nw_out) rs in
        do inp1 <- key (P (vreg inp));
        xor_chain_new f stop e3 rs1 inp1 nw_inp
    end.
  Proof. destruct fuel; reflexivity. Qed.

  (* `out` sits in the first register of the path and is swapped along it until its register is z,
     the one whose parent is `stop` *)
  Lemma xor_chain_spec : forall p z fuel stop e rs inp out,
    path par p z -> par z = Some stop -> NoDup p -> ~ In z p -> ~ In stop (z :: tl p) ->
    vreg out = hd z p -> P (hd z p) = Some inp ->
    length rs = length ms -> (length p < fuel)%nat ->
    exists mvs rs' out',
      xor_chain_new fuel stop e rs inp out = Ok (e ++ mvs, rs', out')
      /\ vreg out' = z /\ fills rs rs' p
      /\ forall rho,
           (forall r, ~ In r (z :: p) -> get (exec mvs rho) r = get rho r)
           /\ (forall m, In m ms -> trivb m = false -> In (m_dst m) p ->
                 get (exec mvs rho) (m_dst m) = get rho (m_src m))
           /\ get (exec mvs rho) z = get rho (hd z p).
  Proof.
    induction p as [|x q IH]; intros z fuel stop e rs inp out Pa Pz NDp Nz Ns Vo Pi Len Fu;
      (destruct fuel as [|f]; [simpl in Fu; lia|]); rewrite xor_chain_eq; simpl hd in *.
    - assert (E : vreg inp = stop). { unfold par in Pz. rewrite Pi in Pz. simpl in Pz. congruence. }
      rewrite E, Z.eqb_refl. exists [], rs, out. rewrite app_nil_r.
      repeat split; auto using fills_nil. intros m _ _ [].
    - destruct Pa as [Px Pq]. set (y := hd z q) in *.
      assert (Iy : In y (z :: q)) by apply hd_in.
      assert (Vi : vreg inp = y). { unfold par in Px. rewrite Pi in Px. simpl in Px. congruence. }
      apply NoDup_cons_iff in NDp as [Hx NDq].
      assert (Nxz : x <> z) by (intros ->; apply Nz; now left).
      assert (Nyx : y <> x) by (intros E; destruct Iy as [Iy|Iy]; [congruence|now rewrite E in Iy]).
      rewrite Vi. destruct (Z.eqb_spec y stop) as [E|_]; [now rewrite E in Iy|].
      destruct (par_move x y Px) as (mx & Imx & Tmx & Dmx & Smx & _).
      (* the next node has a parent as well: it heads q, or it is z *)
      assert (Py : exists y', par y = Some y').
      { unfold y. destruct q as [|b q]; [eauto|]. destruct Pq as [Pb _]. eauto. }
      destruct Py as (y' & Py). destruct (par_move y y' Py) as (my & Imy & Tmy & Dmy & _ & Ey).
      assert (NZx : x <> ZERO) by (rewrite <- Dmx; now apply (nontriv_dst_nonzero ms free WF)).
      assert (NZy : y <> ZERO) by (rewrite <- Dmy; now apply (nontriv_dst_nonzero ms free WF)).
      destruct (swap_sem e inp out) as (xs & v2 & v3 & Hsw & V2 & V3 & Ssw); try (rewrite ?Vi, ?Vo; assumption).
      rewrite Hsw. rewrite V2, Vo.
      destruct (oidx_of ms free WF mx Imx) as (i & Oi & Li). rewrite Dmx in Oi. rewrite <- Len in Li.
      rewrite Oi. cbn [key bind]. rewrite Ey. cbn [key bind].
      destruct (IH z f stop (e ++ xs) (lset i (Some v2) rs) (m_value my) v3 Pq Pz NDq (fun I => Nz (or_intror I)))
        as (mvs & rs' & out' & Hrec & Vo' & Fq & Sem);
        [|now rewrite V3, Vi|assumption|now rewrite lset_length|simpl in Fu; lia|].
      { intros [I|I]; apply Ns; [now left|right]. destruct q; [destruct I|now right]. }
      rewrite Hrec. exists (xs ++ mvs), rs', out'. rewrite <- app_assoc.
      split; [reflexivity|]. split; [assumption|]. split; [now apply (fills_first rs rs' q x i v2)|].
      intros rho. rewrite exec_app. destruct (Ssw rho) as (Sa & Sb & So).
      rewrite Vi in Sa, So. rewrite Vo in Sa, Sb, So. rewrite Vi in Sb.
      destruct (Sem (exec xs rho)) as (F1 & F2 & F3). split; [|split].
      + intros r Nr. rewrite F1 by (intros [K|K]; apply Nr; [now left|right; now right]).
        apply So; intros ->; apply Nr; [|right; now left].
        destruct Iy; [now left|right; now right].
      + intros m' Im' Tm' [Dx|Ir].
        * assert (m' = mx) by (apply (dst_inj ms free WF); auto; congruence). subst m'.
          rewrite Dmx, Smx. rewrite (F1 x) by (intros [K|K]; [congruence|contradiction]). exact Sb.
        * rewrite (F2 m' Im' Tm' Ir).
          (* the source lies strictly after y on the path, so the swap of x and y left it alone *)
          pose proof (path_src q z m' Pq Im' Tm' Ir) as Is.
          destruct q as [|b q]; [destruct Ir|]. subst y. simpl hd in *. simpl tl in Is. apply NoDup_cons_iff in NDq as [Hb _].
          apply So; intros E; rewrite E in Is; destruct Is as [Is|Is];
            [apply Nz; right; left; congruence|contradiction|congruence|apply Hx; now right].
      + rewrite F3. exact Sa.
  Qed.

  Lemma free_no_dst f : In f free -> P f = None.
  Proof.
    intros If. destruct (P f) as [v|] eqn:E; [|reflexivity].
    destruct (P_inv ms free WF _ _ E) as (m & Im & _ & Dm & _).
    destruct (wa_free _ _ WF f m If Im) as [_ N]. congruence.
  Qed.

  Lemma cycle_step_inv s s' d p extra :
    Inv3 s -> path par (d :: p) d ->
    (forall z, In z (d :: p) -> P z <> None /\ doneb (results s) z = false) ->
    em s' = em s ++ extra -> fills (results s) (results s') (d :: p) ->
    (forall rho,
       (forall r, ~ In r (d :: p) -> ~ In r free -> get (exec extra rho) r = get rho r)
       /\ (forall m, In m ms -> trivb m = false -> In (m_dst m) (d :: p) ->
             view m (get (exec extra rho) (m_dst m)) = view m (get rho (m_src m)))) ->
    Inv3 s' /\ doneb (results s') d = true
    /\ (forall r, doneb (results s) r = true -> doneb (results s') r = true)
    /\ (forall r, is_float r <> is_float d -> doneb (results s') r = doneb (results s) r).
  Proof.
    intros K Pa HC Hem [Fl Hd1 Hd2 Fs] Hsem. set (C := d :: p) in *.
    assert (Cfree : forall z, In z C -> ~ In z free)
      by (intros z Iz If; apply (proj1 (HC z Iz)), free_no_dst, If).
    (* the source of a move into the cycle lies on the cycle *)
    assert (Hsrc : forall m, In m ms -> trivb m = false -> In (m_dst m) C -> In (m_src m) C)
      by (intros m Im Tm; apply (path_src C d m Pa Im Tm)).
    split; [|split; [apply Hd1; now left|split]].
    - constructor.
      + now rewrite Fl, (K_len s K).
      + intros i m Hi Tm. rewrite <- (K_triv s K i m Hi Tm). apply Fs.
        (* slot i belongs to a trivial move, the registers of C to non-trivial ones *)
        intros r Ir Or. destruct (HC r Ir) as [Pr _]. destruct (P r) as [pv|] eqn:Er; [|congruence].
        destruct (P_inv ms free WF _ _ Er) as (mr & Imr & Tmr & Dmr & _).
        destruct (output_index_Some ms r i ND Or) as (m' & Hm' & Dm').
        assert (m' = mr) by (apply (dst_inj ms free WF); eauto using nth_error_In; congruence).
        congruence.
      + intros rho. rewrite Hem, exec_app. destruct (K_sem s K rho) as [S1 S2].
        destruct (Hsem (exec (em s) rho)) as [F1 F2]. split.
        * intros m Im Tm Dm. destruct (in_dec Z.eq_dec (m_dst m) C) as [Ic|Ic].
          -- rewrite (F2 m Im Tm Ic). f_equal. pose proof (Hsrc m Im Tm Ic) as Is.
             destruct (HC _ Is) as [_ Dz]. apply S2; [now right|now apply Cfree].
          -- rewrite Hd2 in Dm by assumption.
             rewrite F1; [now apply S1|assumption|].
             intros If. destruct (wa_free _ _ WF _ m If Im) as [_ N]. congruence.
        * intros r Hr Nf.
          assert (Nc : ~ In r C).
          { intros Ic. destruct (HC r Ic) as [Pr _]. rewrite (Hd1 r Ic) in Hr. destruct Hr; congruence. }
          rewrite F1 by assumption. apply S2; [|assumption]. now rewrite <- (Hd2 r Nc).
      + intros x Px Dx.
        assert (Nc : ~ In x C) by (intros Ic; rewrite (Hd1 x Ic) in Dx; discriminate).
        rewrite (Hd2 x Nc) in Dx. destruct (K_child s K x Px Dx) as (y & Iy & Ty & Sy & Dy).
        exists y. repeat split; auto.
        destruct (in_dec Z.eq_dec (m_dst y) C) as [Ic|Ic]; [|now rewrite Hd2].
        exfalso. apply Nc. rewrite <- Sy. now apply Hsrc.
    - intros r Hr. destruct (in_dec Z.eq_dec r C) as [Ic|Ic]; [now apply Hd1|now rewrite Hd2].
    - intros r Kr. apply Hd2. intros Ic. apply Kr. now apply (path_kind C d Pa).
  Qed.
End Phase3.
