(* C01/ProofsDll.v -- generic doubly-linked-list reasoning (over abstract pointer views), used
   for ops-in-a-block (WF_block) and blocks-in-a-region (WF_region).

   A view gives, for every node id: its next / prev link, its parent container, whether it is
   live; and for every live container its (first, last) pair.  `Dabs V` is WF_block / WF_region
   stated on a view.  The lemmas describe one chain after a node has been put in (the list-level
   insertion is `linked_wf` in ProofsOps.v), the new list of a container after a node has been unlinked,
   and the frame property for all other containers. *)
From Coq Require Import ZArith List Bool PArith FMapPositive Lia.
From XV Require Import C01.Model C01.Spec C01.ProofsBase C01.ProofsUses.
Import ListNotations.

Definition lnk := positive -> option (option positive).

Lemma chain_insert_after : forall (N N' : lnk) st a x b new,
  chain N st (a ++ x :: b) -> ~ In new (a ++ x :: b) -> NoDup (a ++ x :: b) ->
  (forall y, y <> x -> y <> new -> N' y = N y) ->
  N' x = Some (Some new) -> N' new = N x ->
  chain N' st (a ++ x :: new :: b).
Proof.
  intros N N' st a x b new C Nn ND E Ex En.
  destruct (chain_split _ _ _ _ _ C) as (S1 & nn & Nx & C2).
  destruct (NoDup_app_inv _ _ ND) as (_ & NDx & D). inversion NDx; subst.
  eapply seg_chain_app.
  - eapply seg_ext; [|exact S1]. intros y Iy. apply E.
    + intro; subst. eapply D; [exact Iy|left; reflexivity].
    + intro; subst. apply Nn. apply in_or_app. left. exact Iy.
  - econstructor; [exact Ex|]. econstructor; [rewrite En; exact Nx|].
    eapply chain_ext; [|exact C2]. intros y Iy. apply E.
    + intro; subst. contradiction.
    + intro; subst. apply Nn. apply in_or_app. right. right. exact Iy.
Qed.

Lemma NoDup_insert : forall {A} (a b : list A) x, NoDup (a ++ b) -> ~ In x (a ++ b) -> NoDup (a ++ x :: b).
Proof.
  intros A a. induction a as [|y r IH]; intros b x ND Nx; simpl in *.
  - constructor; assumption.
  - inversion ND; subst. constructor.
    + intro I. apply in_app_or in I. destruct I as [I|[E|I]].
      * apply H1. apply in_or_app. left. exact I.
      * subst. apply Nx. left. reflexivity.
      * apply H1. apply in_or_app. right. exact I.
    + apply IH; [assumption|]. intro I. apply Nx. right. exact I.
Qed.

Lemma last_or_rev : forall (l : list positive) p, last_or p (rev l) = match l with [] => p | x :: _ => Some x end.
Proof.
  intros l p. destruct l as [|x r]; [reflexivity|]. simpl. apply last_or_app.
Qed.

Lemma match_rev : forall {B} (l : list positive) (a b : B),
  match rev l with [] => a | _ :: _ => b end = match l with [] => a | _ :: _ => b end.
Proof.
  intros B l a b. destruct l as [|z t]; [reflexivity|]. simpl. destruct (rev t ++ [z]) eqn:Q; [|reflexivity].
  apply app_eq_nil in Q. destruct Q; discriminate.
Qed.

Lemma hd_error_rev : forall (l : list positive), hd_error (rev l) = last_or None l.
Proof.
  intros l. destruct (list_snoc_cases l) as [->|(l' & x & ->)]; [reflexivity|].
  rewrite rev_app_distr. simpl. symmetry. apply last_or_app.
Qed.

Record dview := mkView {
  dN : lnk; dP : lnk;
  dPar : positive -> option (option positive);
  dLive : positive -> bool;
  dFL : positive -> option (option positive * option positive) }.

Definition dll_at (V : dview) (c : positive) (first last : option positive) (l : list positive) : Prop :=
  chain (dN V) first l /\ chain (dP V) last (rev l) /\ NoDup l /\
  (forall x, In x l -> dPar V x = Some (Some c)) /\
  (forall x, dLive V x = true -> dPar V x = Some (Some c) -> In x l).

Definition Dabs (V : dview) : Prop :=
  forall c f la, dFL V c = Some (f, la) -> exists l, dll_at V c f la l.

(* frame: a container none of whose nodes is touched keeps its list *)
Lemma dll_frame : forall V V' c f la l,
  dll_at V c f la l ->
  (forall x, dPar V x = Some (Some c) -> dN V' x = dN V x /\ dP V' x = dP V x /\ dPar V' x = dPar V x) ->
  (forall x, dLive V' x = true -> dPar V' x = Some (Some c) -> dLive V x = true /\ dPar V x = Some (Some c)) ->
  dll_at V' c f la l.
Proof.
  intros V V' c f la l (C1 & C2 & ND & M1 & M2) E B.
  repeat split.
  - eapply chain_ext; [|exact C1]. intros x Ix. apply (E x (M1 x Ix)).
  - eapply chain_ext; [|exact C2]. intros x Ix. apply in_rev in Ix. apply (E x (M1 x Ix)).
  - exact ND.
  - intros x Ix. destruct (E x (M1 x Ix)) as (_ & _ & Q). rewrite Q. apply M1. exact Ix.
  - intros x Lx Px. destruct (B x Lx Px) as [L0 P0]. apply M2; assumption.
Qed.

(* the node x is unlinked and its parent cleared *)
Lemma dll_remove : forall V V' c f la l1 x l2,
  dll_at V c f la (l1 ++ x :: l2) ->
  (forall y, y <> x -> last_or None l1 <> Some y -> dN V' y = dN V y) ->
  (forall p, last_or None l1 = Some p -> dN V' p = dN V x) ->
  (forall y, y <> x -> hd_error l2 <> Some y -> dP V' y = dP V y) ->
  (forall n, hd_error l2 = Some n -> dP V' n = dP V x) ->
  (forall y, y <> x -> dPar V' y = dPar V y) -> dPar V' x <> Some (Some c) ->
  (forall y, dLive V' y = dLive V y) ->
  dll_at V' c (match l1 with [] => hd_error l2 | _ => f end)
              (match l2 with [] => last_or None l1 | _ => la end) (l1 ++ l2).
Proof.
  intros V V' c f la l1 x l2 (C1 & C2 & ND & M1 & M2) EN ENp EP EPn EPar EParx EL.
  assert (R0 : rev (l1 ++ x :: l2) = rev l2 ++ x :: rev l1)
    by (rewrite rev_app_distr; simpl; rewrite <- !app_assoc; reflexivity).
  repeat split.
  - eapply chain_remove; eauto.
  - rewrite rev_app_distr. rewrite R0 in C2.
    rewrite <- (match_rev l2), <- hd_error_rev.
    eapply chain_remove.
    + exact C2.
    + rewrite <- R0. apply NoDup_rev. exact ND.
    + intros y Ny L. apply EP; [exact Ny|]. rewrite last_or_rev in L. destruct l2; simpl; [discriminate|exact L].
    + intros p L. apply EPn. rewrite last_or_rev in L. destruct l2; simpl; [discriminate|exact L].
  - apply NoDup_remove_1 in ND. exact ND.
  - intros y Iy. assert (I : In y (l1 ++ x :: l2)).
    { apply in_app_or in Iy. apply in_or_app. destruct Iy; [left|right; right]; assumption. }
    rewrite EPar; [apply M1; exact I|]. intro; subst. apply NoDup_remove_2 in ND. contradiction.
  - intros y Ly Py. destruct (Pos.eq_dec y x) as [->|N]; [contradiction|].
    rewrite EL in Ly. rewrite (EPar y N) in Py. pose proof (M2 y Ly Py) as I.
    apply in_app_or in I. apply in_or_app. destruct I as [I|[E|I]]; [left; exact I|congruence|right; exact I].
Qed.
