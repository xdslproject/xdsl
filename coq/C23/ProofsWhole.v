(* C23/ProofsWhole.v -- whole-function simulation for the integer fragment (machines: C23/Whole.v).

   Instruction-wise the table theorems of ProofsTables.v (hence sem_i = sem_d of ProofsBits.v for every width) are
   used; at block boundaries the transfer lemmas of ProofsPhi.v (the content of phi_block_args: the phi table built
   by k_build delivers, from predecessor p, exactly the values of the operands p's terminator passes).
   Direction: whenever the SOURCE machine does not get stuck (ill-typed operand, value used before it is defined, op
   outside the fragment), the TARGET machine produces the same outcome: the same returned bit pattern, poison/UB
   exactly when the source is, fuel exhaustion after the same number of blocks. *)
From Coq Require Import ZArith List String Bool Lia.
From XV Require Import C15.Spec Gen.C23_tables C23.Model C23.Sem C23.ProofsBits C23.ProofsTables C23.ProofsPhi C23.Whole.
Import ListNotations.
Local Open Scope string_scope.
Local Open Scope list_scope.
Local Open Scope Z_scope.

Lemma assoc_In {A} k (l : list (string * A)) v : assoc k l = Some v -> In (k, v) l.
Proof.
  induction l as [|[k' v'] r IH]; cbn [assoc]; [discriminate|].
  destruct (String.eqb_spec k k') as [->|]; intros H; [inversion H; left; reflexivity | right; apply IH; exact H].
Qed.

Lemma in_fst_combine {A B} (l : list A) (vs : list B) k : In k (map fst (combine l vs)) -> In k l.
Proof. intros H. apply in_map_iff in H as [[a v] [<- H]]. exact (in_combine_l _ _ _ _ H). Qed.
Lemma bind_Ok {A B} (r : res A) (g : A -> res B) y : bind r g = Ok y -> exists x, r = Ok x /\ g x = Ok y.
Proof. destruct r as [x|]; [exists x; auto | discriminate]. Qed.

Definition V_id (V : valmap) : Prop :=
  Forall (fun p => match snd p with IVar u => u = fst p | IConst _ _ => True end) V.
Lemma V_id_lookup V v u : V_id V -> vm_get V v = Ok (IVar u) -> u = v.
Proof.
  induction 1 as [|[k o] r Hk _ IH]; cbn [vm_get]; [discriminate|].
  destruct (Z.eqb_spec k v) as [->|]; [|exact IH].
  intros E; inversion E; subst o. exact Hk.
Qed.
Lemma wvmf_get V v o : vm_get V v = Ok o -> wvmf V v = o.
Proof. unfold wvmf; intros ->; reflexivity. Qed.
Lemma wvmf_cases V v : V_id V -> wvmf V v = IVar v \/ exists t c, wvmf V v = IConst t c.
Proof.
  intros HV. unfold wvmf. destruct (vm_get V v) as [[u|t c]|] eqn:E.
  - left. f_equal. apply (V_id_lookup V v u HV E).
  - right; eauto.
  - left; reflexivity.
Qed.

Lemma Rel_set_var V ed ei r z : V_id V -> vm_get V r = Ok (IVar r) -> Rel V ed ei -> Rel V ((r, z) :: ed) ((r, z) :: ei).
Proof.
  intros HV Hr HR v x. cbn [env_get].
  destruct (Z.eqb_spec r v) as [->|Ne].
  - intros E; inversion E; subst. rewrite (wvmf_get _ _ _ Hr). cbn [i_eval env_get]. rewrite Z.eqb_refl. reflexivity.
  - intros E. specialize (HR v x E). destruct (wvmf_cases V v HV) as [W | (t & c & W)]; rewrite W in *.
    + cbn [i_eval env_get] in *. destruct (Z.eqb_spec r v); [contradiction | exact HR].
    + exact HR.
Qed.
Lemma Rel_set_const V ed ei r t c : vm_get V r = Ok (IConst t c) -> Rel V ed ei -> Rel V ((r, wrap t c) :: ed) ei.
Proof.
  intros Hr HR v x. cbn [env_get]. destruct (Z.eqb_spec r v) as [->|Ne]; [|apply HR].
  intros E; inversion E; subst. rewrite (wvmf_get _ _ _ Hr). reflexivity.
Qed.
Lemma Rel_app V l ed ei : V_id V -> (forall k, In k (map fst l) -> vm_get V k = Ok (IVar k)) ->
  Rel V ed ei -> Rel V (l ++ ed) (l ++ ei).
Proof.
  intros HV. induction l as [|[k z] r IH]; intros Hk HR; [exact HR|]. cbn [app].
  apply Rel_set_var; [exact HV | apply Hk; left; reflexivity |].
  apply IH; [intros k' Hk'; apply Hk; right; exact Hk' | exact HR].
Qed.

Lemma fetch_rel V ed ei a t x o : Rel V ed ei -> fetch_d ed a t = Some x -> vm_get V a = Ok o -> fetch_i ei o t = Some x.
Proof.
  unfold fetch_d, fetch_i. intros HR Hf Hg.
  destruct (env_get ed a) as [y|] eqn:E; [|discriminate].
  rewrite <- (wvmf_get _ _ _ Hg), (HR a y E). exact Hf.
Qed.
Lemma fetch_i_eval e o t x : fetch_i e o t = Some x -> i_eval e o = Some x.
Proof. unfold fetch_i. destruct (i_eval e o); [|discriminate]. destruct (in_ty t z); [auto | discriminate]. Qed.
Lemma fetch_d_range e a t x : fetch_d e a t = Some x -> 1 <= t /\ 0 <= x < 2 ^ t.
Proof.
  unfold fetch_d, in_ty. destruct (env_get e a) as [y|]; [|discriminate].
  destruct (Z.leb_spec 1 t), (Z.leb_spec 0 y), (Z.ltb_spec y (2 ^ t)); cbn; try discriminate.
  intros E; inversion E; subst. lia.
Qed.
Lemma ovf_validb_ok o : ovf_validb o = true -> ovf_valid o.
Proof.
  unfold ovf_validb, ovf_valid. destruct (sb_overflow o) as [v|]; [|trivial].
  destruct (Z.leb_spec 0 v), (Z.leb_spec v 3); cbn; try discriminate. lia.
Qed.
Lemma cast_ovf_validb_ok o : cast_ovf_validb o = true -> cast_ovf_valid o.
Proof.
  unfold cast_ovf_validb, cast_ovf_valid. intros H s Hs.
  rewrite forallb_forall in H. specialize (H s Hs). apply orb_prop in H as [H | H]; apply String.eqb_eq in H; auto.
Qed.

Definition instr_goal (V : valmap) (ei : cenv) (oi : option iinstr) (s : step) : Prop :=
  match oi with
  | Some ii =>
      match s with
      | Next ed' => exists ei', exec_i ei ii = Next ei' /\ Rel V ed' ei'
      | Poison => exec_i ei ii = Poison
      | StuckS => True
      end
  | None => match s with Next ed' => Rel V ed' ei | Poison => False | StuckS => True end
  end.

Definition op_sim (V : valmap) (i : dinstr) : Prop := forall ed ei p,
  V_id V -> Rel V ed ei -> def_ok V i -> conv_instr V i = Ok p -> instr_goal V ei (fst p) (exec_d ed i).

Lemma bin_sim V r o t a b : op_sim V (DBin r o t a b).
Proof.
  intros ed ei p HV HR Hd Hc. cbn [exec_d]. cbn [conv_instr] in Hc.
  apply bind_Ok in Hc as (opc & Eo & Hc). apply bind_Ok in Hc as (fl & Ef & Hc).
  change binop_operand_order with [0; 1] in Hc. cbn [Z.eqb] in Hc.
  apply bind_Ok in Hc as (oa & Ga & Hc). apply bind_Ok in Hc as (ob & Gb & Hc).
  inversion Hc; subst p. cbn [fst instr_goal].
  destruct (op_name (sb_class o)) as [n|] eqn:En; [|exact I].
  destruct (dialect_bin n) as [d|] eqn:Ed; [|exact I].
  destruct (ovf_validb o) eqn:Ev; [|exact I].
  destruct (fetch_d ed a t) as [x|] eqn:Fa; [|exact I].
  destruct (fetch_d ed b t) as [y|] eqn:Fb; [|exact I].
  assert (Hin : exists meth, In (sb_class o, meth) binary_op_map).
  { unfold binop_opcode in Eo. destruct (assoc (sb_class o) binary_op_map) as [m|] eqn:Em; [|discriminate].
    exists m. apply assoc_In; exact Em. }
  destruct Hin as [meth Hin].
  destruct (binop_table_sound _ _ Hin n d En Ed o eq_refl (ovf_validb_ok o Ev))
    as (opc' & fl' & Eo' & Ef' & Hl & Hok & Hfl & _ & Hsem).
  rewrite Eo in Eo'; injection Eo' as <-. rewrite Ef in Ef'; injection Ef' as <-.
  destruct (fetch_d_range _ _ _ _ Fa) as [Ht Hx]. destruct (fetch_d_range _ _ _ _ Fb) as [_ Hy].
  cbn [exec_i]. rewrite Hl, Hok, (fetch_rel _ _ _ _ _ _ _ HR Fa Ga), (fetch_rel _ _ _ _ _ _ _ HR Fb Gb).
  rewrite (Hsem t x y Ht Hx Hy).
  destruct (sem_d d (spec_flags d o) t x y) as [z|]; [|reflexivity].
  eexists; split; [reflexivity|]. apply Rel_set_var; assumption.
Qed.

Lemma icmp_sim V r pr t a b : op_sim V (DIcmp r pr t a b).
Proof.
  intros ed ei p HV HR Hd Hc. cbn [exec_d]. cbn [conv_instr] in Hc.
  apply bind_Ok in Hc as (mn & Em & Hc).
  change icmp_operands with ["lhs"; "rhs"] in Hc. cbv iota in Hc.
  change (pick_operand "lhs" a b) with (Ok a) in Hc. change (pick_operand "rhs" a b) with (Ok b) in Hc. cbn [bind] in Hc.
  apply bind_Ok in Hc as (oa & Ga & Hc). apply bind_Ok in Hc as (ob & Gb & Hc).
  inversion Hc; subst p. cbn [fst instr_goal].
  destruct ((0 <=? pr) && (pr <=? 9)) eqn:Er; [|exact I].
  apply andb_prop in Er as [R1 R2]. apply Z.leb_le in R1, R2.
  destruct (fetch_d ed a t) as [x|] eqn:Fa; [|exact I].
  destruct (fetch_d ed b t) as [y|] eqn:Fb; [|exact I].
  destruct (icmp_table_sound pr (conj R1 R2)) as (mn' & Em' & _ & Hsem).
  rewrite Em in Em'; injection Em' as <-.
  destruct (fetch_d_range _ _ _ _ Fa) as [Ht Hx]. destruct (fetch_d_range _ _ _ _ Fb) as [_ Hy].
  cbn [exec_i]. rewrite (fetch_rel _ _ _ _ _ _ _ HR Fa Ga), (fetch_rel _ _ _ _ _ _ _ HR Fb Gb).
  rewrite (Hsem t x y Ht Hx Hy).
  destruct (sem_d_icmp pr t x y) as [bb|]; [|exact I].
  eexists; split; [reflexivity|]. apply Rel_set_var; assumption.
Qed.

Lemma cast_sim V r o t a t2 : op_sim V (DCast r o t a t2).
Proof.
  intros ed ei p HV HR Hd Hc. cbn [exec_d]. cbn [conv_instr] in Hc.
  apply bind_Ok in Hc as (fl & Ef & Hc). apply bind_Ok in Hc as (opc & Eo & Hc).
  apply bind_Ok in Hc as (oa & Ga & Hc). inversion Hc; subst p. cbn [fst instr_goal].
  destruct (op_name (sc_class o)) as [n|] eqn:En; [|exact I].
  destruct (dialect_cast n) as [c|] eqn:Ec; [|exact I].
  destruct (cast_ovf_validb o && cast_widths_ok c t t2) eqn:Ev; [|exact I].
  apply andb_prop in Ev as [Ev Ew].
  destruct (fetch_d ed a t) as [x|] eqn:Fa; [|exact I].
  assert (Hin : In (sc_class o, opc) cast_op_names).
  { unfold cast_opcode in Eo. destruct (assoc (sc_class o) cast_op_names) as [m|] eqn:Em; [|discriminate].
    inversion Eo; subst m. apply assoc_In; exact Em. }
  destruct (cast_table_sound _ _ Hin n c En Ec o eq_refl (cast_ovf_validb_ok o Ev))
    as (fl' & _ & Ef' & Hl & Hok & Hfl & Hsem).
  rewrite Ef in Ef'; injection Ef' as <-.
  destruct (fetch_d_range _ _ _ _ Fa) as [Ht Hx].
  cbn [exec_i]. rewrite Hl, Hok, Ew, (fetch_rel _ _ _ _ _ _ _ HR Fa Ga). cbn [andb].
  assert (W : 1 <= t2 /\ (c = Trunc -> t2 < t) /\ (c = SExt -> t < t2)).
  { unfold cast_widths_ok in Ew. apply andb_prop in Ew as [W1 W2]. apply Z.leb_le in W1.
    split; [exact W1|]. split; intros ->; apply Z.ltb_lt in W2; exact W2. }
  destruct W as (W1 & W2 & W3).
  rewrite (Hsem t t2 x Ht W1 W2 W3 Hx).
  destruct (sem_d_cast c (spec_cast_flags c o) t t2 x) as [z|]; [|reflexivity].
  eexists; split; [reflexivity|]. apply Rel_set_var; assumption.
Qed.

Lemma select_sim V r t c a b : op_sim V (DSelect r t c a b).
Proof.
  intros ed ei p HV HR Hd Hc. cbn [exec_d]. cbn [conv_instr] in Hc.
  apply bind_Ok in Hc as (oc & Gc & Hc). apply bind_Ok in Hc as (oa & Ga & Hc). apply bind_Ok in Hc as (ob & Gb & Hc).
  inversion Hc; subst p. cbn [fst instr_goal].
  destruct (fetch_d ed c 1) as [vc|] eqn:Fc; [|exact I].
  destruct (fetch_d ed a t) as [x|] eqn:Fa; [|exact I].
  destruct (fetch_d ed b t) as [y|] eqn:Fb; [|exact I].
  cbn [exec_i]. rewrite (fetch_i_eval _ _ _ _ (fetch_rel _ _ _ _ _ _ _ HR Fc Gc)).
  destruct (Z.odd vc);
    [rewrite (fetch_i_eval _ _ _ _ (fetch_rel _ _ _ _ _ _ _ HR Fa Ga))
    |rewrite (fetch_i_eval _ _ _ _ (fetch_rel _ _ _ _ _ _ _ HR Fb Gb))];
    (eexists; split; [reflexivity|]; apply Rel_set_var; assumption).
Qed.

Lemma instr_sim V ed ei i p : V_id V -> Rel V ed ei -> def_ok V i -> conv_instr V i = Ok p ->
  instr_goal V ei (fst p) (exec_d ed i).
Proof.
  intros HV HR Hd Hc. destruct i as [r t c| | | | | | | |];
    [ | apply bin_sim | apply icmp_sim | | apply cast_sim | apply select_sim | | | ]; try assumption;
    cbn [exec_d]; cbn [conv_instr] in Hc.
  - inversion Hc; subst p. cbn [fst instr_goal]. destruct (1 <=? t); [|exact I].
    apply Rel_set_const; assumption.
  - (* fcmp, alloca, load, store: outside the fragment *)
    apply bind_Ok in Hc as (? & _ & Hc). apply bind_Ok in Hc as (? & _ & Hc). apply bind_Ok in Hc as (? & _ & Hc).
    inversion Hc; subst p. exact I.
  - apply bind_Ok in Hc as (? & _ & Hc). inversion Hc; subst p. exact I.
  - apply bind_Ok in Hc as (? & _ & Hc). inversion Hc; subst p. exact I.
  - apply bind_Ok in Hc as (? & _ & Hc). apply bind_Ok in Hc as (? & _ & Hc). inversion Hc; subst p. exact I.
Qed.

Definition body_goal (V : valmap) (ei : cenv) (il : list iinstr) (s : step) : Prop :=
  match s with
  | Next ed' => exists ei', exec_body_i ei il = Next ei' /\ Rel V ed' ei'
  | Poison => exec_body_i ei il = Poison
  | StuckS => True
  end.

Lemma body_sim V : V_id V -> forall l ed ei il, (forall i, In i l -> def_ok V i) -> Rel V ed ei ->
  tr_body V l = Ok il -> body_goal V ei il (exec_body_d ed l).
Proof.
  intros HV. induction l as [|i r IH]; intros ed ei il Hd HR Ht; cbn [tr_body] in Ht.
  - inversion Ht; subst il. cbn. eexists; split; [reflexivity | exact HR].
  - apply bind_Ok in Ht as (p & Ec & Ht). apply bind_Ok in Ht as (is & Er & Ht). inversion Ht; subst il.
    pose proof (instr_sim V ed ei i p HV HR (Hd i (or_introl eq_refl)) Ec) as G.
    cbn [exec_body_d]. destruct (fst p) as [ii|]; cbn [instr_goal] in G.
    + destruct (exec_d ed i) as [ed1| |].
      * destruct G as (ei1 & G1 & G2).
        assert (G3 : body_goal V ei1 is (exec_body_d ed1 r)).
        { apply (IH ed1 ei1 is); [intros j Hj; apply Hd; right; exact Hj | exact G2 | exact Er]. }
        unfold body_goal in *. cbn [exec_body_i]. rewrite G1. exact G3.
      * cbn [body_goal exec_body_i]. rewrite G. reflexivity.
      * exact I.
    + destruct (exec_d ed i) as [ed1| |].
      * apply (IH ed1 ei is); [intros j Hj; apply Hd; right; exact Hj | exact G | exact Er].
      * destruct G.
      * exact I.
Qed.

Lemma opt_map_rel V ed ei args vs : Rel V ed ei -> opt_map (env_get ed) args = Some vs ->
  opt_map (i_eval ei) (map (wvmf V) args) = Some vs.
Proof.
  intros HR. revert vs. induction args as [|a r IH]; intros vs; cbn [opt_map map]; [auto|].
  destruct (env_get ed a) as [x|] eqn:E; [|discriminate].
  destruct (opt_map (env_get ed) r) as [xs|]; [|discriminate]. intros H; inversion H; subst vs.
  rewrite (HR a x E), (IH xs eq_refl). reflexivity.
Qed.

Section Whole.
  Variable f : dfunc.
  Variable V : valmap.
  Variable pt : phitab.
  Let kf := tr_kfunc V f.
  Let T := mkT (tr_bodies V f) kf pt.
  Hypothesis Hvm : vm_ok V f.
  Hypothesis Htr : tr_ok V f.
  Hypothesis Hbuild : k_build condbr_same_block_special_case kf (block_order f) = Ok pt.
  Hypothesis Hwf : wf kf.
  Hypothesis Hnc : condbr_same_block_special_case = false -> no_conflict kf.
  Hypothesis Hnd : NoDup (block_order f).
  Hypothesis Hall : forall i, (i < List.length kf)%nat -> In i (block_order f).

  Lemma kf_nth cur b : nth_error f cur = Some b ->
    nth_error kf cur = Some (mkKB (map fst (d_args b)) (tr_term V (d_term b))).
  Proof. intros H. unfold kf, tr_kfunc. rewrite nth_error_map, H. reflexivity. Qed.
  Lemma bodies_nth cur b il : nth_error f cur = Some b -> tr_body V (d_body b) = Ok il ->
    nth cur (tr_bodies V f) [] = il.
  Proof.
    intros H Hb. apply nth_error_nth. unfold tr_bodies. rewrite nth_error_map, H. cbn. rewrite Hb. reflexivity.
  Qed.
  Lemma enter_kf d vs e : enter cenv c_assign kf d vs e = enter_src f d vs e.
  Proof.
    unfold enter_src, enter, c_assign, kf, tr_kfunc.
    change kdflt with ((fun b => mkKB (map fst (d_args b)) (tr_term V (d_term b))) ddflt).
    rewrite map_nth. reflexivity.
  Qed.
  Lemma enter_rel d vs ed ei : Rel V ed ei -> Rel V (enter_src f d vs ed) (enter_src f d vs ei).
  Proof.
    intros HR. unfold enter_src. destruct Hvm as [HV Hb]. apply Rel_app; [exact HV | | exact HR].
    intros k Hk.
    destruct (Nat.lt_ge_cases (Z.to_nat d) (List.length f)) as [Hl | Hl].
    - destruct (Hb (nth (Z.to_nat d) f ddflt) (nth_In _ _ Hl)) as [Ha _].
      apply in_fst_combine, in_map_iff in Hk as [[a ty] [<- Hin]]. apply (Ha (a, ty) Hin).
    - rewrite nth_overflow in Hk by exact Hl. destruct Hk.
  Qed.

  Theorem whole_sim : forall fuel cur ed ei, Rel V ed ei ->
    run_src f fuel cur ed <> WStuck -> run_tgt T fuel cur ei = run_src f fuel cur ed.
  Proof.
    destruct Hvm as [HV Hb].
    induction fuel as [|n IH]; intros cur ed ei HR Hns; [reflexivity|].
    cbn [run_src run_tgt] in *.
    destruct (nth_error f cur) as [b|] eqn:Hn; [|contradiction Hns; reflexivity].
    change (t_k T) with kf. change (t_bodies T) with (tr_bodies V f). change (t_pt T) with pt.
    rewrite (kf_nth cur b Hn).
    destruct (Htr b (nth_error_In _ _ Hn)) as [il Hil]. rewrite (bodies_nth cur b il Hn Hil).
    destruct (Hb b (nth_error_In _ _ Hn)) as [_ Hdefs].
    pose proof (body_sim V HV (d_body b) ed ei il Hdefs HR Hil) as G.
    destruct (exec_body_d ed (d_body b)) as [ed1| |]; cbn [body_goal] in G.
    2: { rewrite G. reflexivity. }
    2: { contradiction Hns; reflexivity. }
    destruct G as (ei1 & G1 & HR1). rewrite G1. cbn [k_term].
    destruct (d_term b) as [ty v| |d args|c tb ta eb ea|] eqn:Ht; cbn [tr_term].
    - destruct (env_get ed1 v) as [x|] eqn:E; [|contradiction Hns; reflexivity].
      rewrite (HR1 v x E). reflexivity.
    - reflexivity.
    - destruct (opt_map (env_get ed1) args) as [vs|] eqn:E; [|contradiction Hns; reflexivity].
      rewrite (transfer_br cenv i_eval _ kf (block_order f) pt Hbuild Hwf Hnd Hall cur _ d (map (wvmf V) args) ei1
                 (kf_nth cur b Hn)) by (cbn [k_term]; rewrite Ht; reflexivity).
      unfold evals. rewrite (opt_map_rel V ed1 ei1 args vs HR1 E).
      rewrite enter_kf. apply IH; [apply enter_rel; exact HR1 | exact Hns].
    - destruct (env_get ed1 c) as [cv|] eqn:Ec; [|contradiction Hns; reflexivity].
      rewrite (HR1 c cv Ec). cbv zeta in *.
      destruct (opt_map (env_get ed1) (if Z.odd cv then ta else ea)) as [vs|] eqn:E; [|contradiction Hns; reflexivity].
      rewrite (transfer_condbr cenv i_eval _ kf (block_order f) pt Hbuild Hwf Hnc Hnd Hall cur _ (wvmf V c) tb
                 (map (wvmf V) ta) eb (map (wvmf V) ea) ei1 cv (kf_nth cur b Hn))
        by (first [cbn [k_term]; rewrite Ht; reflexivity | exact (HR1 c cv Ec)]).
      unfold evals.
      replace (if Z.odd cv then map (wvmf V) ta else map (wvmf V) ea)
        with (map (wvmf V) (if Z.odd cv then ta else ea)) by (destruct (Z.odd cv); reflexivity).
      rewrite (opt_map_rel V ed1 ei1 _ vs HR1 E).
      rewrite enter_kf. apply IH; [apply enter_rel; exact HR1 | exact Hns].
    - reflexivity.
  Qed.
End Whole.

Lemma res_opd_is_ok r o : res_opd_is r o = true -> r = Ok o.
Proof. destruct r; cbn; [|discriminate]. intros H; apply iopd_eqb_true in H; subst; reflexivity. Qed.
Lemma opds_eqb_eq a : forall b, opds_eqb a b = true -> a = b.
Proof.
  induction a as [|x r IH]; intros [|y s]; cbn; try discriminate; [reflexivity|].
  intros H; apply andb_prop in H as [H1 H2]. apply iopd_eqb_true in H1. rewrite (IH s H2), H1. reflexivity.
Qed.
Lemma vm_okb_ok V f : vm_okb V f = true -> vm_ok V f.
Proof.
  unfold vm_okb, vm_ok. intros H; apply andb_prop in H as [H1 H2]. split.
  - apply Forall_forall. intros p Hp. rewrite forallb_forall in H1. specialize (H1 p Hp).
    destruct (snd p); [apply Z.eqb_eq; exact H1 | exact I].
  - intros b Hb. rewrite forallb_forall in H2. specialize (H2 b Hb). apply andb_prop in H2 as [A B]. split.
    + intros a Ha. rewrite forallb_forall in A. apply res_opd_is_ok. apply A; exact Ha.
    + intros i Hi. rewrite forallb_forall in B. specialize (B i Hi).
      destruct i; cbn [def_okb def_ok] in *; try exact I; apply res_opd_is_ok; exact B.
Qed.
Lemma tr_okb_ok V f : tr_okb V f = true -> tr_ok V f.
Proof.
  unfold tr_okb, tr_ok. intros H b Hb. rewrite forallb_forall in H. specialize (H b Hb).
  destruct (tr_body V (d_body b)) as [l|]; [exists l; reflexivity | discriminate].
Qed.
Lemma edge_okb_ok kf d args : edge_okb kf d args = true -> edge_ok kf d args.
Proof.
  unfold edge_okb, edge_ok. intros H. apply andb_prop in H as [H H3]. apply andb_prop in H as [H1 H2].
  apply Z.ltb_lt in H1. apply Nat.ltb_lt in H2. apply Nat.eqb_eq in H3. auto.
Qed.
Lemma terms_okb_ok fixed kf : forallb (fun b => term_okb fixed kf (k_term b)) kf = true ->
  wf kf /\ (fixed = false -> no_conflict kf).
Proof.
  intros H. rewrite forallb_forall in H. split.
  - intros b Hb. specialize (H b Hb). unfold term_ok. destruct (k_term b); cbn [term_okb] in H; try exact I.
    + apply edge_okb_ok; exact H.
    + apply andb_prop in H as [H _]. apply andb_prop in H as [H1 H2]. split; apply edge_okb_ok; assumption.
  - intros Hf b c tb ta eb ea Hb Ht Heq. specialize (H b Hb). rewrite Ht in H. cbn [term_okb] in H.
    apply andb_prop in H as [_ H]. subst fixed eb. rewrite Z.eqb_refl in H. cbn in H. apply opds_eqb_eq; exact H.
Qed.
Lemma nodupb_ok l : nodupb l = true -> NoDup l.
Proof.
  induction l as [|x r IH]; cbn; [constructor|]. intros H; apply andb_prop in H as [H1 H2].
  constructor; [|apply IH; exact H2]. intros Hin. apply negb_true_iff in H1.
  assert (existsb (Nat.eqb x) r = true) by (apply existsb_exists; exists x; split; [exact Hin | apply Nat.eqb_refl]).
  congruence.
Qed.
Lemma order_okb_ok n order : order_okb n order = true -> NoDup order /\ (forall i, (i < n)%nat -> In i order).
Proof.
  unfold order_okb. intros H; apply andb_prop in H as [H1 H2]. split; [apply nodupb_ok; exact H1|].
  intros i Hi. rewrite forallb_forall in H2. specialize (H2 i ltac:(apply in_seq; lia)).
  apply existsb_exists in H2 as [j [Hj E]]. apply Nat.eqb_eq in E. subst j. exact Hj.
Qed.

Lemma tr_prog_inv f T : tr_prog f = Ok T ->
  exists pt, k_build condbr_same_block_special_case (tr_kfunc (final_vm f) f) (block_order f) = Ok pt /\
             T = mkT (tr_bodies (final_vm f) f) (tr_kfunc (final_vm f) f) pt.
Proof. unfold tr_prog. cbv zeta. intros H. apply bind_Ok in H as (pt & Hb & H). inversion H. eauto. Qed.
Lemma whole_okb_ok f : whole_okb f = true ->
  vm_ok (final_vm f) f /\ tr_ok (final_vm f) f /\ wf (tr_kfunc (final_vm f) f) /\
  (condbr_same_block_special_case = false -> no_conflict (tr_kfunc (final_vm f) f)) /\
  NoDup (block_order f) /\ (forall i, (i < List.length f)%nat -> In i (block_order f)).
Proof.
  unfold whole_okb. cbv zeta. intros Hok.
  apply andb_prop in Hok as [Hok Ho]. apply andb_prop in Hok as [Hok Hw]. apply andb_prop in Hok as [Hv Htr].
  destruct (terms_okb_ok _ _ Hw) as [Hwf Hnc]. destruct (order_okb_ok _ _ Ho) as [Hnd Hall].
  auto 7 using vm_okb_ok, tr_okb_ok.
Qed.
Lemma tr_prog_wf f T : tr_prog f = Ok T -> whole_okb f = true -> wf (t_k T).
Proof. intros Ht Hok. destruct (tr_prog_inv f T Ht) as (pt & _ & ->). apply (whole_okb_ok f Hok). Qed.

Theorem whole_function_sim : forall f T, tr_prog f = Ok T -> whole_okb f = true ->
  forall fuel inputs,
    let e0 := combine (map fst (d_args (nth 0 f ddflt))) inputs in
    run_src f fuel 0 e0 <> WStuck -> run_tgt T fuel 0 e0 = run_src f fuel 0 e0.
Proof.
  intros f T Ht Hok fuel inputs e0 Hns.
  destruct (tr_prog_inv f T Ht) as (pt & Hb & ->).
  destruct (whole_okb_ok f Hok) as (Hv & Htr & Hwf & Hnc & Hnd & Hall).
  apply (whole_sim f (final_vm f) pt Hv Htr Hb Hwf Hnc Hnd); [| |exact Hns].
  - intros i Hi. apply Hall. unfold tr_kfunc in Hi. rewrite map_length in Hi. exact Hi.
  - (* the entry environment is what entering block 0 from the empty environment gives *)
    subst e0. rewrite <- (app_nil_r (combine _ inputs)).
    apply (enter_rel f (final_vm f) Hv 0 inputs [] []). intros v x H; discriminate H.
Qed.

(* non-vacuity: a loop with a double edge whose operands differ (the repaired select case), a poison path *)
Definition ex_func : dfunc :=
  [ mkDB [(1, 8); (2, 8); (3, 1)] [DConst 9 8 1] (DCondBr 3 1 [1; 9] 1 [2; 9]);
    mkDB [(4, 8); (5, 8)]
         [DBin 6 (mkBin "AddOp" (Some 1) false false []) 8 4 5; DIcmp 7 6 8 6 2;
          DCast 10 (mkCast "ZExtOp" None false) 1 7 8; DSelect 11 8 7 10 6]
         (DCondBr 7 1 [6; 5] 2 [11]);
    mkDB [(8, 8)] [] (DRet 8 8) ].
Definition ex_env (l : list Z) : cenv := combine (map fst (d_args (nth 0 ex_func ddflt))) l.
Example ex_func_ok : whole_okb ex_func = true.
Proof. vm_compute. reflexivity. Qed.
Example ex_func_runs : exists T, tr_prog ex_func = Ok T /\
  run_src ex_func 10 0 (ex_env [100; 100; 1]) = WRet 101 /\ run_tgt T 10 0 (ex_env [100; 100; 1]) = WRet 101 /\
  run_src ex_func 10 0 (ex_env [5; 200; 0]) = WRet 201 /\ run_tgt T 10 0 (ex_env [5; 200; 0]) = WRet 201 /\
  run_src ex_func 10 0 (ex_env [127; 3; 1]) = WPoison /\ run_tgt T 10 0 (ex_env [127; 3; 1]) = WPoison /\
  run_src ex_func 3 0 (ex_env [1; 250; 1]) = WFuel /\ run_tgt T 3 0 (ex_env [1; 250; 1]) = WFuel.
Proof. eexists. split; [vm_compute; reflexivity|]. repeat split; vm_compute; reflexivity. Qed.

Lemma lit_transfer bs T d cur e : lit_matches bs T -> 0 < d -> (Z.to_nat d < List.length (t_k T))%nat ->
  lit_phi_vals (nth (Z.to_nat d) bs idflt) cur e = phi_vals cenv i_eval (t_k T) (t_pt T) d cur e /\
  forall vs, lit_enter bs d vs e = enter cenv c_assign (t_k T) d vs e.
Proof.
  intros [Hlen Hm] Hd Hr.
  assert (Hb : nth_error bs (Z.to_nat d) = Some (nth (Z.to_nat d) bs idflt)).
  { apply nth_error_nth'. rewrite Hlen. exact Hr. }
  destruct (Hm _ _ Hb) as (_ & _ & Hp). destruct Hp as [Hids Hincs]; [lia|].
  set (b := nth (Z.to_nat d) bs idflt) in *.
  assert (Hn : k_nargs (t_k T) d = List.length (i_phis b)).
  { unfold k_nargs. rewrite (nth_error_nth' (t_k T) kdflt Hr), <- Hids, map_length. reflexivity. }
  split.
  - unfold lit_phi_vals, phi_vals. rewrite Hn.
    rewrite <- (opt_map_map (fun incs => phi_eval cenv i_eval incs cur e) snd (i_phis b)), Hincs, opt_map_map.
    rewrite Z2Nat.id by lia. reflexivity.
  - intros vs. unfold lit_enter, enter, c_assign. fold b. rewrite Hids. reflexivity.
Qed.

Theorem lit_sim bs T : lit_matches bs T -> wf (t_k T) ->
  forall fuel cur e, run_lit bs fuel cur e = run_tgt T fuel cur e.
Proof.
  intros HM Hwf. pose proof HM as [Hlen Hm].
  induction fuel as [|n IH]; intros cur e; [reflexivity|]. cbn [run_lit run_tgt].
  destruct (nth_error bs cur) as [b|] eqn:Hb.
  2: { apply nth_error_None in Hb. rewrite Hlen in Hb. apply nth_error_None in Hb. rewrite Hb. reflexivity. }
  assert (Hc : (cur < List.length (t_k T))%nat) by (rewrite <- Hlen; apply nth_error_Some; rewrite Hb; discriminate).
  rewrite (nth_error_nth' (t_k T) kdflt Hc).
  destruct (Hm _ _ Hb) as (Hbody & Hterm & _). rewrite Hbody.
  destruct (exec_body_i e (nth cur (t_bodies T) [])) as [e1| |]; try reflexivity.
  pose proof (Hwf _ (nth_In (t_k T) kdflt Hc)) as Hok. unfold term_ok in Hok.
  destruct (k_term (nth cur (t_k T) kdflt)) as [v|d args|c tb ta eb ea|];
    destruct (i_term b) as [ty v'| |d'|c' tb' eb'|]; cbn [term_matchesP] in Hterm; try contradiction; try reflexivity.
  - subst v'. reflexivity.
  - subst d'. destruct Hok as (H0 & Hr & _). destruct (lit_transfer bs T d (Z.of_nat cur) e1 HM H0 Hr) as [E1 E2].
    rewrite E1. destruct (phi_vals cenv i_eval (t_k T) (t_pt T) d (Z.of_nat cur) e1) as [vs|]; [|reflexivity].
    rewrite E2. apply IH.
  - destruct Hterm as (<- & <- & <-). destruct Hok as ((H0 & Hr & _) & (H0' & Hr' & _)).
    destruct (i_eval e1 c) as [cv|]; [|reflexivity]. cbv zeta.
    assert (Hd : 0 < (if Z.odd cv then tb else eb) /\ (Z.to_nat (if Z.odd cv then tb else eb) < List.length (t_k T))%nat)
      by (destruct (Z.odd cv); split; assumption).
    destruct Hd as [Hd0 Hdr].
    destruct (lit_transfer bs T _ (Z.of_nat cur) e1 HM Hd0 Hdr) as [E1 E2].
    rewrite E1. destruct (phi_vals cenv i_eval (t_k T) (t_pt T) _ (Z.of_nat cur) e1) as [vs|]; [|reflexivity].
    rewrite E2. apply IH.
Qed.

(* the composition: a block list that is the block-wise translation computes what the dialect function computes
   (bs is meant to be conv_func's output; the hypothesis saying so is not used) *)
Theorem conv_func_sim : forall f bs T, conv_func f = Ok bs -> tr_prog f = Ok T -> lit_matches bs T ->
  whole_okb f = true ->
  forall fuel inputs,
    let e0 := combine (map fst (d_args (nth 0 f ddflt))) inputs in
    run_src f fuel 0 e0 <> WStuck -> run_lit bs fuel 0 e0 = run_src f fuel 0 e0.
Proof.
  intros f bs T _ Ht HM Hok fuel inputs e0 Hns.
  transitivity (run_tgt T fuel 0 e0); [|exact (whole_function_sim f T Ht Hok fuel inputs Hns)].
  apply lit_sim; [exact HM | exact (tr_prog_wf f T Ht Hok)].
Qed.

Definition iopd_eq_dec : forall x y : iopd, {x = y} + {x <> y}.
Proof. decide equality; apply Z.eq_dec. Defined.
Definition kopd_eq_dec : forall x y : kopd, {x = y} + {x <> y}.
Proof. decide equality; apply iopd_eq_dec. Defined.
Definition incoming_eq_dec : forall x y : incoming, {x = y} + {x <> y}.
Proof. decide equality; [apply Z.eq_dec | apply kopd_eq_dec]. Defined.
Definition iinstr_eq_dec : forall x y : iinstr, {x = y} + {x <> y}.
Proof.
  decide equality; try apply Z.eq_dec; try apply string_dec; try apply iopd_eq_dec;
    apply list_eq_dec; apply string_dec.
Defined.
Definition dec2b {P : Prop} (d : {P} + {~ P}) : bool := if d then true else false.
Lemma dec2b_true {P : Prop} (d : {P} + {~ P}) : dec2b d = true -> P.
Proof. destruct d; [auto | discriminate]. Qed.

Definition term_matchesb (k : kterm) (t : iterm) : bool :=
  match k, t with
  | KRet a, IRet _ b => dec2b (iopd_eq_dec a b)
  | KStop, IRetVoid | KStop, IUnreachable => true
  | KBr d _, IBr d' => d =? d'
  | KCondBr c tb _ eb _, ICondBr c' tb' eb' => dec2b (iopd_eq_dec c c') && (tb =? tb') && (eb =? eb')
  | _, _ => false
  end.
Definition lit_matchesb (bs : list iblock) (T : tprog) : bool :=
  Nat.eqb (List.length bs) (List.length (t_k T)) &&
  forallb (fun i =>
     let b := nth i bs idflt in
     dec2b (list_eq_dec iinstr_eq_dec (i_body b) (nth i (t_bodies T) [])) &&
     term_matchesb (k_term (nth i (t_k T) kdflt)) (i_term b) &&
     (Nat.eqb i 0 ||
      (dec2b (list_eq_dec Z.eq_dec (map (fun ph => fst (fst ph)) (i_phis b)) (k_args (nth i (t_k T) kdflt))) &&
       dec2b (list_eq_dec (list_eq_dec incoming_eq_dec) (map snd (i_phis b))
                (map (fun k => pt_get (t_pt T) (Z.of_nat i) (Z.of_nat k)) (seq 0 (List.length (i_phis b))))))))
    (seq 0 (List.length bs)).

Lemma term_matchesb_ok k t : term_matchesb k t = true -> term_matchesP k t.
Proof.
  destruct k, t; cbn; try discriminate; try (intros _; exact I).
  - apply dec2b_true.
  - apply Z.eqb_eq.
  - intros H. apply andb_prop in H as [H H3]. apply andb_prop in H as [H1 H2].
    apply dec2b_true in H1. apply Z.eqb_eq in H2, H3. auto.
Qed.
Lemma lit_matchesb_ok bs T : lit_matchesb bs T = true -> lit_matches bs T.
Proof.
  unfold lit_matchesb, lit_matches. intros H. apply andb_prop in H as [Hl H]. apply Nat.eqb_eq in Hl.
  split; [exact Hl|]. intros i b Hb. rewrite forallb_forall in H.
  assert (Hi : (i < List.length bs)%nat) by (apply nth_error_Some; rewrite Hb; discriminate).
  specialize (H i ltac:(apply in_seq; lia)). cbv zeta in H. rewrite (nth_error_nth _ _ idflt Hb) in H.
  apply andb_prop in H as [H H3]. apply andb_prop in H as [H1 H2].
  split; [exact (dec2b_true _ H1)|]. split; [apply term_matchesb_ok; exact H2|].
  intros Hne. destruct (Nat.eqb_spec i 0) as [|_]; [contradiction|]. cbn [orb] in H3.
  apply andb_prop in H3 as [A B]. split; [exact (dec2b_true _ A) | exact (dec2b_true _ B)].
Qed.

(* translation validation: whenever the two computable checks accept bs, it computes the source *)
Theorem conv_func_validated : forall f bs T, conv_func f = Ok bs -> tr_prog f = Ok T ->
  lit_matchesb bs T = true -> whole_okb f = true ->
  forall fuel inputs,
    let e0 := combine (map fst (d_args (nth 0 f ddflt))) inputs in
    run_src f fuel 0 e0 <> WStuck -> run_lit bs fuel 0 e0 = run_src f fuel 0 e0.
Proof.
  intros f bs T Hc Ht Hm Hok. apply (conv_func_sim f bs T Hc Ht (lit_matchesb_ok bs T Hm) Hok).
Qed.
