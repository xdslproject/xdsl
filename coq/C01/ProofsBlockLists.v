(* C01/ProofsBlockLists.v -- WF is preserved by the multi-block mutators Region.add_block,
   Region.insert_block_before, Region.insert_block_after, Region.insert_block and
   Rewriter.insert_block, for an arbitrary list of blocks (the one-block versions are instances), and by
   Builder.create_block relative to the post-condition of Block(arg_types).

   The loop `link_blocks r prev blocks` shared by add_block and insert_block_before links every
   new block after the previous one.  Between two iterations the region is not a well-formed
   doubly linked list of the heap (the `last` pointer of the region, resp. the `next` pointer of
   the cursor and the `prev` pointer of the target, are written after the loop).  The loop
   invariant `LInv` states that the region IS well formed in the view `OV` where those pointers
   are overridden with the values the code writes after the loop; every iteration is then one
   `linked` step (ProofsOps.v) between two overridden views, and the final writes make the real
   view equal to the overridden one. *)
From Coq Require Import ZArith List Bool PArith FMapPositive Lia.
From XV Require Import C01.Model C01.Spec C01.ProofsBase C01.ProofsFrame C01.ProofsUses C01.ProofsOperands
  C01.ProofsDll C01.ProofsOps C01.ProofsBlocks C01.ProofsOpLists.
Import ListNotations.

(* the view of the loop `link_blocks r prev ...` of add_block (tgt = None) or of
   insert_block_before (tgt = Some target) when the cursor is `prev` *)
Definition OV (V : dview) (r prev : positive) (tgt : option positive) : dview :=
  mkView (fupd (dN V) prev (Some tgt))
         (match tgt with Some t => fupd (dP V) t (Some (Some prev)) | None => dP V end)
         (dPar V) (dLive V)
         (match tgt with Some _ => dFL V | None => fupd (dFL V) r (set_snd (Some prev) (dFL V r)) end).

(* the last clause: what is known of the real view about the pointer that the overridden view
   hides (tgt = None) resp. about the target *)
Definition LInv (r : rid) (tgt : option bid) (s : state) (prev : bid) : Prop :=
  Dabs (OV (viewT2 s) r prev tgt) /\ Ddet (OV (viewT2 s) r prev tgt) /\
  vin (OV (viewT2 s) r prev tgt) r prev /\ dFL (viewT2 s) r <> None /\
  match tgt with
  | Some t => dPar (viewT2 s) t = Some (Some r)
  | None => dN (viewT2 s) prev = Some None
  end.

Lemma blk_live_view : forall s b, blk_live s b -> dLive (viewT2 s) b = true.
Proof. intros s b (x & F & E). eapply blive_view; eauto. Qed.

Lemma link_step_inv : forall r tgt s prev nb s1 s2 s3 u1 u2 u3,
  LInv r tgt s prev -> blk_live s nb ->
  attach_block r nb s = (s1, Ok u1) ->
  updB nb (set_b_prev (Some prev)) s1 = (s2, Ok u2) ->
  updB prev (set_b_next (Some nb)) s2 = (s3, Ok u3) ->
  LInv r tgt s3 nb.
Proof.
  intros r tgt s prev nb s1 s2 s3 u1 u2 u3 (D & DD & Ip & FLn & T) BL Hat H2 H3.
  destruct (attach_block_eff _ _ _ _ _ Hat) as (xb & Fb & Pb & Hat').
  view_of (updB_parent_view2 _ _ _ _ _ Hat') N1 P1 R1 L1 F1.
  view_of (updB_prev_view2 _ _ _ _ _ H2) N2 P2 R2 L2 F2.
  view_of (updB_next_view2 _ _ _ _ _ H3) N3 P3 R3 L3 F3.
  destruct (getB_view2 _ _ _ Fb) as (_ & _ & Vpar). rewrite Pb in Vpar.
  pose proof (blk_live_view _ _ BL) as Lnb.
  destruct (dFL (viewT2 s) r) as [[f0 la0]|] eqn:FLr; [clear FLn|contradiction].
  assert (FLV : dFL (OV (viewT2 s) r prev tgt) r <> None).
  { unfold OV. cbn [dFL]. destruct tgt; [|rewrite fupd_same]; rewrite FLr; discriminate. }
  pose proof (vin_par _ _ _ D FLV Ip) as Vparp. cbn [OV dPar] in Vparp.
  assert (Nnp : nb <> prev) by (intro; subst; rewrite Vparp in Vpar; discriminate).
  destruct (DD nb Lnb Vpar) as [Nnb _]. cbn [OV dN] in Nnb. rewrite fupd_other in Nnb by exact Nnp.
  assert (E : veq (linked (OV (viewT2 s) r prev tgt) r nb (Some prev) tgt) (OV (viewT2 s3) r nb tgt)).
  { unfold OV. destruct tgt as [t|].
    - assert (Nnt : nb <> t) by (intro; subst; rewrite T in Vpar; discriminate). veq_solve FLr.
    - veq_solve FLr. }
  destruct (linked_after (OV (viewT2 s) r prev tgt) r nb prev tgt D DD FLV Ip) as [D3 DD3];
    [apply fupd_same|exact Vpar|].
  split; [eapply Dabs_veq; eauto|]. split; [eapply Ddet_veq; eauto|]. split; [|split].
  - apply vin_live; unfold OV; cbn [dLive dPar]; vrew; [exact Lnb|apply fupd_same].
  - vrew. congruence.
  - destruct tgt as [t|].
    + rewrite R3, R2, R1, fupd_other by (intro; subst; rewrite T in Vpar; discriminate). exact T.
    + rewrite N3, fupd_other, N2, N1 by exact Nnp. exact Nnb.
Qed.

Lemma k2_live : keeps_T2_writes same_live.
Proof. split; [apply fr_live|..]; intros; pres fr_live. Qed.

Lemma attach_block_live : forall r b, preserves same_live (attach_block r b).
Proof. exact (attach_block_pres _ k2_live). Qed.

Lemma link_blocks_inv : forall r tgt blocks s prev s' last,
  LInv r tgt s prev -> (forall b, In b blocks -> blk_live s b) ->
  link_blocks r prev blocks s = (s', Ok last) -> LInv r tgt s' last.
Proof.
  intros r tgt. induction blocks as [|nb tl IH]; intros s prev s' last I0 BLs H; simpl in H.
  - apply ret_ok in H as [-> ->]. exact I0.
  - apply bind_ok in H as (s1 & u1 & Hat & H). apply bind_ok in H as (s2 & u2 & H2 & H).
    apply bind_ok in H as (s3 & u3 & H3 & H).
    eapply (IH s3 nb s' last); [| |exact H].
    + eapply link_step_inv; eauto. apply BLs. left. reflexivity.
    + intros b Ib.
      destruct (attach_block_live r nb s s1 _ Hat) as (_ & B1 & _).
      destruct (updB_same_live nb (set_b_prev (Some prev)) (fun _ => eq_refl) _ _ _ H2) as (_ & B2 & _).
      destruct (updB_same_live prev (set_b_next (Some nb)) (fun _ => eq_refl) _ _ _ H3) as (_ & B3 & _).
      apply B3, B2, B1, BLs. right. exact Ib.
Qed.

Lemma link_blocks_pres : forall R, keeps_T2_writes R -> forall r p bs, preserves R (link_blocks r p bs).
Proof.
  intros R K r p bs. pose proof (attach_block_pres R K). destruct K as [FR ? ? ? ? ?].
  revert p. induction bs as [|b tl IH]; intros p; simpl; pres FR.
Qed.
Lemma add_block_pres : forall R, keeps_T2_writes R -> forall r bs, preserves R (add_block r bs).
Proof.
  intros R K r bs. pose proof (attach_block_pres R K). pose proof (link_blocks_pres R K).
  destruct K as [FR ? ? ? ? ?]. unfold add_block. pres FR.
Qed.
Lemma insert_block_before_pres : forall R, keeps_T2_writes R -> forall r bs t, preserves R (insert_block_before r bs t).
Proof.
  intros R K r bs t. pose proof (attach_block_pres R K). pose proof (link_blocks_pres R K).
  destruct K as [FR ? ? ? ? ?]. unfold insert_block_before. pres FR.
Qed.

Lemma link_blocks_T1 : forall r p bs, preserves same_T1 (link_blocks r p bs). Proof. exact (link_blocks_pres _ k2_T1). Qed.
Lemma link_blocks_T3 : forall r p bs, preserves same_T3 (link_blocks r p bs). Proof. exact (link_blocks_pres _ k2_T3). Qed.
Lemma link_blocks_U : forall r p bs, preserves same_U (link_blocks r p bs). Proof. exact (link_blocks_pres _ k2_U). Qed.
Lemma link_blocks_I : forall r p bs, preserves same_I (link_blocks r p bs). Proof. exact (link_blocks_pres _ k2_I). Qed.
Lemma link_blocks_A : forall r p bs, preserves same_A (link_blocks r p bs). Proof. exact (link_blocks_pres _ k2_A). Qed.
Lemma link_blocks_live : forall r p bs, preserves same_live (link_blocks r p bs). Proof. exact (link_blocks_pres _ k2_live). Qed.
#[export] Hint Resolve link_blocks_T1 link_blocks_T3 link_blocks_U link_blocks_I link_blocks_A link_blocks_live : pres.
Lemma add_block_live : forall r bs, preserves same_live (add_block r bs). Proof. exact (add_block_pres _ k2_live). Qed.
Lemma insert_block_before_live : forall r bs t, preserves same_live (insert_block_before r bs t). Proof. exact (insert_block_before_pres _ k2_live). Qed.

(* Region.add_block: `self._last_block = last` *)
Lemma add_block_finish : forall r s1 last s' u,
  LInv r None s1 last -> updR r (set_r_last (Some last)) s1 = (s', Ok u) ->
  veq (OV (viewT2 s1) r last None) (viewT2 s').
Proof.
  intros r s1 last s' u (_ & _ & _ & _ & NN) H4.
  view_of (updR_last_view2 _ _ _ _ _ H4) N4 P4 R4 L4 F4.
  unfold OV. veq_solve NN.
Qed.

(* Region.insert_block_before: `last.next = target; target.prev = last` *)
Lemma insert_before_finish : forall r t s1 last s2 s' u1 u2,
  updB last (set_b_next (Some t)) s1 = (s2, Ok u1) ->
  updB t (set_b_prev (Some last)) s2 = (s', Ok u2) ->
  veq (OV (viewT2 s1) r last (Some t)) (viewT2 s').
Proof.
  intros r t s1 last s2 s' u1 u2 H4 H5.
  view_of (updB_next_view2 _ _ _ _ _ H4) N4 P4 R4 L4 F4.
  view_of (updB_prev_view2 _ _ _ _ _ H5) N5 P5 R5 L5 F5.
  unfold OV. veq_solve N4.
Qed.

Theorem add_block_WF : forall blocks s s' r res,
  WF s -> reg_live s r -> (forall b, In b blocks -> blk_live s b) ->
  add_block r blocks s = (s', Ok res) -> WF s'.
Proof.
  intros blocks s s' r res W RL BLs H. destruct (WF_viewT2 s W) as [D DD].
  pose proof H as H0. unfold add_block in H0.
  apply bind_ok in H0 as (s0 & rr & Hg & H0). apply getR_ok in Hg as [-> Fr].
  destruct RL as (rr0 & Fr0 & Er0). rewrite Fr in Fr0. injection Fr0 as <-.
  assert (FLr : dFL (viewT2 s) r = Some (r_first rr, r_last rr)).
  { simpl. unfold rFL. rewrite Fr, Er0. reflexivity. }
  assert (FLn : dFL (viewT2 s) r <> None) by congruence.
  assert (FIN : forall s1 last, LInv r None s1 last -> updR r (set_r_last (Some last)) s1 = (s', Ok res) -> WF s').
  { intros s1 last I1 H4. pose proof (add_block_finish _ _ _ _ _ I1 H4) as E. destruct I1 as (D1 & DD1 & _).
    exact (WF_groups_T2 _ s s' res _ W (fun R K => add_block_pres R K r blocks) H E (conj D1 DD1)). }
  destruct (r_last rr) as [prev|] eqn:Last.
  - (* non-empty region: the loop starts at the last block *)
    apply bind_ok in H0 as (s1 & last & Hl & H4).
    pose proof (last_next_none _ _ _ _ D FLr) as Nprev.
    assert (E : veq (viewT2 s) (OV (viewT2 s) r prev None)) by (unfold OV; veq_solve FLr).
    apply (FIN s1 last); [|exact H4]. eapply link_blocks_inv; [|exact BLs|exact Hl].
    split; [eapply Dabs_veq; eauto|]. split; [eapply Ddet_veq; eauto|]. split; [|split; assumption].
    eapply vin_last. unfold OV. cbn [dFL]. rewrite fupd_same, FLr. reflexivity.
  - (* empty region: the first block is put in, the loop starts there *)
    destruct blocks as [|first rest].
    { apply ret_ok in H0 as [<- _]. exact W. }
    apply bind_ok in H0 as (s1 & ? & Hat & H0).
    destruct (attach_block_eff _ _ _ _ _ Hat) as (xb & Fb & Pb & Hat').
    view_of (updB_parent_view2 _ _ _ _ _ Hat') N1 P1 R1 L1 F1.
    apply bind_ok in H0 as (s2 & ? & H2 & H0).
    view_of (updR_first_view2 _ _ _ _ _ H2) N2 P2 R2 L2 F2.
    apply bind_ok in H0 as (s3 & last & Hl & H4).
    assert (BLf : blk_live s first) by (apply BLs; left; reflexivity).
    destruct (getB_view2 _ _ _ Fb) as (_ & _ & Vpar). rewrite Pb in Vpar.
    destruct (DD first (blk_live_view _ _ BLf) Vpar) as [Nb Pb0].
    assert (E : veq (linked (viewT2 s) r first None None) (OV (viewT2 s2) r first None)) by (unfold OV; veq_solve FLr).
    destruct (linked_empty (viewT2 s) r first _ D DD FLr Vpar) as [D2 DD2].
    apply (FIN s3 last); [|exact H4]. eapply link_blocks_inv; [| |exact Hl].
    + split; [eapply Dabs_veq; eauto|]. split; [eapply Ddet_veq; eauto|]. split; [|split].
      * apply vin_live; unfold OV; cbn [dLive dPar]; vrew; [apply blk_live_view; exact BLf|apply fupd_same].
      * rewrite F2, fupd_same, F1, FLr. discriminate.
      * rewrite N2, N1. exact Nb.
    + intros b Ib.
      destruct (attach_block_live r first s s1 _ Hat) as (_ & B1 & _).
      destruct (updR_same_live r (set_r_first (Some first)) (fun _ => eq_refl) _ _ _ H2) as (_ & B2 & _).
      apply B2, B1, BLs. right. exact Ib.
Qed.

Lemma insert_block_before_WF_gen : forall blocks s s' r target res,
  WF s -> reg_live s r -> (forall b, In b blocks -> blk_live s b) -> vin (viewT2 s) r target ->
  insert_block_before r blocks target s = (s', Ok res) -> WF s'.
Proof.
  intros blocks s s' r target res W RL BLs It H. destruct (WF_viewT2 s W) as [D DD].
  pose proof H as H0. unfold insert_block_before in H0.
  apply bind_ok in H0 as (s0 & tx & Hg & H0). apply getB_ok in Hg as [-> Ftx].
  destruct (opt_eqb (b_parent tx) (Some r)) eqn:Pt; simpl in H0; [|exfalso; eapply raise_ok; eauto].
  destruct (reg_live_FL s r RL) as (f & la & FLr).
  assert (FLn : dFL (viewT2 s) r <> None) by congruence.
  destruct (getB_view2 _ _ _ Ftx) as (_ & Vpt & _).
  pose proof (vin_par _ _ _ D FLn It) as Vpart.
  assert (FIN : forall s1 last s2 u, LInv r (Some target) s1 last ->
                updB last (set_b_next (Some target)) s1 = (s2, Ok u) ->
                updB target (set_b_prev (Some last)) s2 = (s', Ok res) -> WF s').
  { intros s1 last s2 u (D1 & DD1 & _) H4 H5. pose proof (insert_before_finish r _ _ _ _ _ _ _ H4 H5) as E.
    exact (WF_groups_T2 _ s s' res _ W (fun R K => insert_block_before_pres R K r blocks target) H E (conj D1 DD1)). }
  destruct (b_prev tx) as [prev|].
  - (* target has a predecessor: the loop starts there *)
    apply bind_ok in H0 as (s1 & last & Hl & H0).
    apply bind_ok in H0 as (s2 & ? & H4 & H5).
    destruct (vin_prev _ _ _ _ D FLn It Vpt) as [Ip Nprev].
    assert (E : veq (viewT2 s) (OV (viewT2 s) r prev (Some target))) by (unfold OV; veq_solve FLr).
    apply (FIN s1 last s2 x); [|exact H4|exact H5]. eapply link_blocks_inv; [|exact BLs|exact Hl].
    split; [eapply Dabs_veq; eauto|]. split; [eapply Ddet_veq; eauto|]. split; [|split; assumption].
    intros f' la' l' FL' DL'. apply (Ip f' la' l' FL'). eapply dll_at_veq; [|exact DL'].
    unfold OV. veq_solve FLr.
  - (* target is the first block: the first new block is put in front, the loop starts there *)
    destruct blocks as [|nf rest].
    { apply ret_ok in H0 as [<- _]. exact W. }
    apply bind_ok in H0 as (s1 & ? & Hat & H0).
    destruct (attach_block_eff _ _ _ _ _ Hat) as (xb & Fb & Pb & Hat').
    view_of (updB_parent_view2 _ _ _ _ _ Hat') N1 P1 R1 L1 F1.
    apply bind_ok in H0 as (s2 & ? & H2 & H0).
    view_of (updR_first_view2 _ _ _ _ _ H2) N2 P2 R2 L2 F2.
    apply bind_ok in H0 as (s3 & ? & H3 & H0).
    view_of (updB_next_view2 _ _ _ _ _ H3) N3 P3 R3 L3 F3.
    apply bind_ok in H0 as (s4 & last & Hl & H0).
    apply bind_ok in H0 as (s5 & ? & H4 & H5).
    assert (BLf : blk_live s nf) by (apply BLs; left; reflexivity).
    destruct (getB_view2 _ _ _ Fb) as (_ & _ & Vpar). rewrite Pb in Vpar.
    destruct (DD nf (blk_live_view _ _ BLf) Vpar) as [Nb Pb0].
    assert (Nbt : nf <> target) by (intro; subst; rewrite Vpart in Vpar; discriminate).
    assert (E : veq (linked (viewT2 s) r nf None (Some target)) (OV (viewT2 s3) r nf (Some target)))
      by (unfold OV; veq_solve FLr).
    destruct (linked_before (viewT2 s) r nf target None D DD FLn It Vpt Vpar) as [D3 DD3].
    apply (FIN s4 last s5 x2); [|exact H4|exact H5]. eapply link_blocks_inv; [| |exact Hl].
    + split; [eapply Dabs_veq; eauto|]. split; [eapply Ddet_veq; eauto|]. split; [|split].
      * apply vin_live; unfold OV; cbn [dLive dPar]; vrew; [apply blk_live_view; exact BLf|apply fupd_same].
      * rewrite F3, F2, fupd_same, F1, FLr. discriminate.
      * rewrite R3, R2, R1, fupd_other by congruence. exact Vpart.
    + intros b Ib.
      destruct (attach_block_live r nf s s1 _ Hat) as (_ & B1 & _).
      destruct (updR_same_live r (set_r_first (Some nf)) (fun _ => eq_refl) _ _ _ H2) as (_ & B2 & _).
      destruct (updB_same_live nf (set_b_next (Some target)) (fun _ => eq_refl) _ _ _ H3) as (_ & B3 & _).
      apply B3, B2, B1, BLs. right. exact Ib.
Qed.

Theorem insert_block_before_WF : forall blocks s s' r target res,
  WF s -> reg_live s r -> blk_live s target -> (forall b, In b blocks -> blk_live s b) ->
  insert_block_before r blocks target s = (s', Ok res) -> WF s'.
Proof.
  intros blocks s s' r target res W RL (tx & Ftx & Etx) BLs H.
  eapply insert_block_before_WF_gen; eauto.
  unfold insert_block_before in H.
  apply bind_ok in H as (s0 & tr & Hg & H). apply getB_ok in Hg as [-> Ft].
  rewrite Ftx in Ft. injection Ft as <-.
  destruct (opt_eqb (b_parent tx) (Some r)) eqn:Pt; simpl in H; [|exfalso; eapply raise_ok; eauto].
  apply opt_eqb_eq in Pt. apply vin_live; [eapply blive_view; eauto|].
  destruct (getB_view2 _ _ _ Ftx) as (_ & _ & Q). rewrite Q, Pt. reflexivity.
Qed.

(* the extra hypothesis (as in the COpDetach clause of ProofsHistory.args_live): the region that
   contains the target, if any, has not been erased.  Python does not check that the target is a
   block of `r`; insert_block_before checks it for the successor of the target only. *)
Theorem insert_block_after_WF : forall blocks s s' r target res,
  WF s -> reg_live s r -> blk_live s target ->
  (forall tr r', PM.find target (s_blocks s) = Some tr -> b_parent tr = Some r' -> reg_live s r') ->
  (forall b, In b blocks -> blk_live s b) ->
  insert_block_after r blocks target s = (s', Ok res) -> WF s'.
Proof.
  intros blocks s s' r target res W RL (tx & Ftx & Etx) PL BLs H. unfold insert_block_after in H.
  apply bind_ok in H as (s0 & tr & Hg & H). apply getB_ok in Hg as [-> Ft].
  rewrite Ftx in Ft. injection Ft as <-.
  destruct (b_next tx) as [nb|] eqn:Nx; [|eapply add_block_WF; eauto].
  eapply insert_block_before_WF_gen; eauto.
  pose proof (proj1 (detached_blocks_Ddet s) (proj2 (wf_detached s W))) as DD.
  pose proof (proj1 (WF_region_Dabs s) (wf_region s W)) as D.
  pose proof H as H0. unfold insert_block_before in H0.
  apply bind_ok in H0 as (s0 & nx & Hg & H0). apply getB_ok in Hg as [-> Fnx].
  destruct (opt_eqb (b_parent nx) (Some r)) eqn:Pn; simpl in H0; [|exfalso; eapply raise_ok; eauto].
  apply opt_eqb_eq in Pn. clear H0.
  destruct (getB_view2 _ _ _ Ftx) as (Vnt & _ & Vpart). rewrite Nx in Vnt.
  destruct (getB_view2 _ _ _ Fnx) as (_ & _ & Vparn). rewrite Pn in Vparn.
  pose proof (blive_view _ _ _ Ftx Etx) as Lt.
  destruct (b_parent tx) as [r'|] eqn:Ptx.
  - destruct (reg_live_FL s r' (PL tx r' Ftx Ptx)) as (f' & la' & FL').
    destruct (D r' f' la' FL') as (l' & DL'). pose proof DL' as (C1' & C2' & ND' & M1' & M2').
    pose proof (M2' target Lt Vpart) as It.
    destruct (in_split _ _ It) as (l1 & l2 & ->).
    pose proof (dll_next_of _ _ _ _ _ _ _ DL') as Nt. rewrite Vnt in Nt.
    destruct l2 as [|n2 l2']; [discriminate|]. cbn [hd_error] in Nt. injection Nt as <-.
    assert (Inb : In nb (l1 ++ target :: nb :: l2')) by (apply in_or_app; right; right; left; reflexivity).
    pose proof (M1' nb Inb) as Q. rewrite Vparn in Q. injection Q as <-.
    intros f la l FL (C1 & _). rewrite FL' in FL. injection FL as <- <-.
    rewrite <- (chain_fun _ _ _ _ C1' C1). exact Inb.
  - destruct (DD target Lt Vpart) as [Q _]. rewrite Vnt in Q. discriminate.
Qed.

Lemma insert_block_loop_WF : forall fuel s s' r blocks index cur i res,
  WF s -> reg_live s r -> (forall b, In b blocks -> blk_live s b) ->
  (forall f la l, dFL (viewT2 s) r = Some (f, la) -> dll_at (viewT2 s) r f la l ->
                  exists l1 l2, l = l1 ++ l2 /\ chain (dN (viewT2 s)) cur l2) ->
  insert_block_loop fuel r blocks index cur i s = (s', Ok res) -> WF s'.
Proof.
  induction fuel as [|fl IH]; intros s s' r blocks index cur i res W RL BLs HC H; simpl in H.
  - exfalso. eapply raise_ok; eauto.
  - destruct cur as [b|].
    + destruct (i =? index)%Z.
      * eapply insert_block_before_WF_gen; eauto.
        intros f la l FL DL. destruct (HC _ _ _ FL DL) as (l1 & l2 & -> & C).
        apply in_or_app. right. eapply chain_some_in; eauto.
      * apply bind_ok in H as (s0 & br & Hg & H). apply getB_ok in Hg as [-> Fb].
        eapply (IH s s' r blocks index (b_next br) (i + 1)%Z res); eauto.
        intros f la l FL DL. destruct (HC _ _ _ FL DL) as (l1 & l2 & -> & C).
        destruct (chain_cons_inv _ _ _ C) as (n & t & -> & Nb & Ct).
        destruct (getB_view2 _ _ _ Fb) as (Vn & _ & _). rewrite Vn in Nb. injection Nb as <-.
        exists (l1 ++ [b]), t. split; [rewrite <- app_assoc; reflexivity|exact Ct].
    + destruct (i =? index)%Z.
      * eapply add_block_WF; eauto.
      * apply ret_ok in H as [-> _]. exact W.
Qed.

Theorem insert_block_WF : forall blocks s s' r index res,
  WF s -> reg_live s r -> (forall b, In b blocks -> blk_live s b) ->
  insert_block r blocks index s = (s', Ok res) -> WF s'.
Proof.
  intros blocks s s' r index res W RL BLs H. unfold insert_block in H.
  apply bind_ok in H as (s0 & fl & Hf & H). unfold get_fuel in Hf. apply gets_ok in Hf as [-> ->].
  apply bind_ok in H as (s0 & rr & Hg & H). apply getR_ok in Hg as [-> Fr].
  eapply insert_block_loop_WF; eauto.
  intros f la l FL (C1 & _). destruct RL as (rr0 & Fr0 & Er0). rewrite Fr in Fr0. injection Fr0 as <-.
  simpl in FL. unfold rFL in FL. rewrite Fr, Er0 in FL. injection FL as <- <-.
  exists [], l. split; [reflexivity|exact C1].
Qed.

Lemma check_block_insert_point_state : forall r ib s s' u, check_block_insert_point r ib s = (s', Ok u) -> s' = s.
Proof.
  intros r ib s s' u H. unfold check_block_insert_point in H. destruct ib as [t|].
  - apply bind_ok in H as (s1 & br & Hg & H). apply getB_ok in Hg as [-> _].
    destruct (negb (opt_eqb (b_parent br) (Some r))); [exfalso; eapply raise_ok; eauto|].
    apply ret_ok in H as [-> _]. reflexivity.
  - apply ret_ok in H as [-> _]. reflexivity.
Qed.

Theorem rw_insert_block_WF : forall blocks s s' r ib res,
  WF s -> reg_live s r -> (forall b, In b blocks -> blk_live s b) ->
  (forall t, ib = Some t -> blk_live s t) ->
  rw_insert_block blocks r ib s = (s', Ok res) -> WF s'.
Proof.
  intros blocks s s' r ib res W RL BLs TL H. unfold rw_insert_block in H.
  apply bind_ok in H as (s0 & u & Hc & H). apply check_block_insert_point_state in Hc. subst s0.
  destruct ib as [t|].
  - eapply insert_block_before_WF; eauto.
  - eapply add_block_WF; eauto.
Qed.

(* relative to the post-condition of `Block(arg_types)` (block_new [] nargs), which is
   ProofsCreate.block_new_empty_spec (ProofsHistory.W_CCreateBlock puts the two together): the new state is well formed, the new block is
   live, and no live object is erased *)
Theorem create_block_WF : forall s s' r ib nargs b,
  WF s -> reg_live s r -> (forall t, ib = Some t -> blk_live s t) ->
  (forall s1 b1, block_new [] nargs s = (s1, Ok b1) -> WF s1 /\ blk_live s1 b1 /\ same_live s s1) ->
  create_block r ib nargs s = (s', Ok b) -> WF s'.
Proof.
  intros s s' r ib nargs b W RL TL BN H. unfold create_block in H.
  apply bind_ok in H as (s0 & u & Hc & H). apply check_block_insert_point_state in Hc. subst s0.
  apply bind_ok in H as (s1 & b1 & Hn & H).
  destruct (BN s1 b1 Hn) as (W1 & BL1 & (_ & LB & LR)).
  apply bind_ok in H as (s2 & u2 & Hi & H). apply ret_ok in H as [-> _].
  eapply (rw_insert_block_WF [b1] s1 s2 r ib u2 W1); [apply LR; exact RL| | |exact Hi].
  - intros b0 [<-|[]]. exact BL1.
  - intros t E. apply LB. apply TL. exact E.
Qed.

(* Region.add_block(block) *)
Theorem add_block1_WF : forall s s' r b res,
  WF s -> reg_live s r -> blk_live s b -> add_block r [b] s = (s', Ok res) -> WF s'.
Proof. intros s s' r b res W RL BL H. eapply add_block_WF; eauto. intros b0 [<-|[]]. exact BL. Qed.

(* Region.insert_block_before(block, target) *)
Theorem insert_block_before1_WF : forall s s' r b target res,
  WF s -> reg_live s r -> blk_live s b -> blk_live s target ->
  insert_block_before r [b] target s = (s', Ok res) -> WF s'.
Proof.
  intros s s' r b target res W RL BL TL H. eapply insert_block_before_WF; eauto. intros b0 [<-|[]]. exact BL.
Qed.
