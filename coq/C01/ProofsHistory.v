(* C01/ProofsHistory.v -- the initial state satisfies the invariant; every PROVED call constructor
   preserves it; histories of proved calls preserve it; refutation witnesses.
   Invariant carried through histories: WF (the property) /\ parents_ok (parent pointers of live
   nodes point to allocated ids -- an auxiliary fact needed by the creation calls, ProofsCreate.v). *)
From Coq Require Import ZArith List Bool PArith FMapPositive Lia.
From XV Require Import C01.Model C01.Spec C01.ProofsBase C01.ProofsWfb C01.ProofsFrame C01.ProofsUses
  C01.ProofsOperands C01.ProofsRauw C01.ProofsSetOperands C01.ProofsSetSuccessors C01.ProofsDll C01.ProofsOps
  C01.ProofsBlocks C01.ProofsOpRegions C01.ProofsMove C01.ProofsOpLists C01.ProofsBlockLists C01.ProofsArgs
  C01.ProofsCreate C01.ProofsInv C01.ProofsErase C01.ProofsReplaceType C01.ProofsReplaceOp.
Import ListNotations.
Local Open Scope Z_scope.

Theorem empty_WF : WF empty_state.
Proof. apply wf_b_sound. vm_compute. reflexivity. Qed.

(* the call constructors whose WF-preservation is proved (all others are covered by the
   correspondence check + evaluation of wf_b on the model after every call) *)
Definition proved_call (c : call) : bool :=
  match c with
  | COpCreate _ _ _ _ | CBlockNew _ _ | CRegionNew _ | CCreateBlock _ _ _ => true
  (* erase of an operation: either the operation has no regions, or every node of the subtree
     that the erase is going to mark is live (see args_live) *)
  | COpErase _ _ | CEraseOp _ _ _ | CRwEraseOp _ _ _ => true
  | CRwReplaceValueWithNewType _ _ => true
  (* replace_op / PatternRewriter.replace_op: the replaced operation has no regions *)
  | CRwReplaceOp _ _ _ _ | CPrReplace _ _ _ _ => true
  | CSetOperands _ _ | CSetSuccessors _ _ | COperandSetItem _ _ _ | CSuccessorSetItem _ _ _
  | CAddRegion _ _ | CDetachRegion _ _ | CDetachRegionIdx _ _
  | CReplaceAllUsesWith _ _ | CReplaceUsesWithIf _ _ _ | CValueErase _ _
  | CPrReplaceAllUsesWith _ _ _ | CPrReplaceUsesWithIf _ _ _
  | CInsertArg _ _ | CPrInsertBlockArgument _ _ | CEraseArg _ _ _ | CPrEraseBlockArgument _ _
  | CInsertOpAfter _ _ _ | CInsertOpBefore _ _ _ | CAddOp _ _ | CDetachOp _ _ | COpDetach _
  | CAddOps _ _ | CInsertOpsBefore _ _ _ | CInsertOpsAfter _ _ _ | CRwInsertOp _ _ _ _ => true
  | CAddBlock _ _ | CInsertBlockBefore _ _ _ | CInsertBlockAfter _ _ _ | CInsertBlock _ _ _ | CRwInsertBlock _ _ _
  | CDetachBlock _ _ | CDetachBlockIdx _ _ | CMoveBlocks _ _ | CMoveBlocksBefore _ _
  | CRwInlineRegion _ _ _ _ | CRwMoveRegionContents _ _ => true
  | _ => false
  end.

(* a live block together with its (live) parent region *)
Definition blk_in_live_region (s : state) (t : bid) : Prop :=
  exists tx region, PM.find t (s_blocks s) = Some tx /\ b_erased tx = false /\
                    b_parent tx = Some region /\ reg_live s region.

(* a live operation without regions *)
Definition op_live_noregions (s : state) (o : oid) : Prop :=
  exists x, PM.find o (s_ops s) = Some x /\ o_erased x = false /\ o_regions x = [] /\
            (forall b, o_parent x = Some b -> blk_live s b).

(* every node that a successful erase of o marks erased (the walk collect_op) is live *)
Definition tree_live (s : state) (o : oid) : Prop := all_live s (collect_op (fuel_of s) s o).
(* the same, stated on the state reached by detaching o from its block b first (which is what
   Block.erase_op / Rewriter.erase_op do before erasing) *)
Definition tree_live_detached (s : state) (b : bid) (o : oid) : Prop :=
  forall s1 r1, detach_op b o s = (s1, Ok r1) -> tree_live s1 o.

(* "objects erased by a successful erase call are not used again", per constructor *)
Definition args_live (s : state) (c : call) : Prop :=
  match c with
  | CBlockNew ops _ => forall o, In o ops -> op_live s o
  | COpErase o _ => op_live_noregions s o \/ tree_live s o
  | CRwEraseOp _ o _ =>
      op_live_noregions s o \/
      (op_live s o /\
       (forall x b, PM.find o (s_ops s) = Some x -> o_parent x = Some b -> blk_live s b /\ tree_live_detached s b o) /\
       (forall x, PM.find o (s_ops s) = Some x -> o_parent x = None -> tree_live s o))
  | CRwReplaceOp o news _ _ | CPrReplace o news _ _ =>
      op_live_noregions s o /\ (forall n, In n news -> op_live s n)
  | CRwReplaceValueWithNewType _ v => val_live s v
  | CEraseOp b o _ => blk_live s b /\ (op_live_noregions s o \/ (op_live s o /\ tree_live_detached s b o))
  | CRegionNew blocks => forall b, In b blocks -> blk_live s b
  | CCreateBlock r ib _ => reg_live s r /\ (forall t, ib = Some t -> blk_live s t)
  | CSetOperands o _ | CSetSuccessors o _ | COperandSetItem o _ _ | CSuccessorSetItem o _ _
  | CDetachRegionIdx o _ | CAddRegion o _ => op_live s o
  | CInsertArg b _ | CPrInsertBlockArgument b _ => blk_live s b
  | CEraseArg b arg _ => blk_live s b /\ val_live s arg
  | CPrEraseBlockArgument arg _ =>
      val_live s arg /\ (forall vr b i, PM.find arg (s_values s) = Some vr -> v_kind vr = KArg b i -> blk_live s b)
  | CInsertOpAfter b _ ex | CInsertOpBefore b _ ex => blk_live s b /\ op_live s ex
  | CAddOp b o | CDetachOp b o => blk_live s b /\ op_live s o
  | COpDetach o => op_live s o /\
                   (forall x b, PM.find o (s_ops s) = Some x -> o_parent x = Some b -> blk_live s b)
  | CAddOps b ops => blk_live s b /\ (forall o, In o ops -> op_live s o)
  | CInsertOpsBefore b ops ex => blk_live s b /\ op_live s ex
  | CInsertOpsAfter b ops ex => blk_live s b /\ op_live s ex /\ (forall o, In o ops -> op_live s o)
  | CRwInsertOp _ ops b ib => blk_live s b /\ (forall o, In o ops -> op_live s o) /\ (forall e, ib = Some e -> op_live s e)
  | CAddBlock r blocks => reg_live s r /\ (forall b, In b blocks -> blk_live s b)
  | CInsertBlockBefore r blocks t => reg_live s r /\ blk_live s t /\ (forall b, In b blocks -> blk_live s b)
  | CInsertBlockAfter r blocks t =>
      reg_live s r /\ blk_live s t /\
      (forall tr r', PM.find t (s_blocks s) = Some tr -> b_parent tr = Some r' -> reg_live s r') /\
      (forall b, In b blocks -> blk_live s b)
  | CInsertBlock r blocks _ => reg_live s r /\ (forall b, In b blocks -> blk_live s b)
  | CRwInsertBlock blocks r ib => reg_live s r /\ (forall b, In b blocks -> blk_live s b) /\ (forall t, ib = Some t -> blk_live s t)
  | CDetachBlock r b => reg_live s r /\ blk_live s b
  | CDetachBlockIdx r _ => reg_live s r
  | CMoveBlocks r dest => reg_live s r /\ reg_live s dest
  | CMoveBlocksBefore r t => reg_live s r /\ blk_in_live_region s t
  | CRwInlineRegion _ r dest ib => reg_live s r /\ reg_live s dest /\
                                   match ib with Some t => blk_live s t | None => True end
  | CRwMoveRegionContents _ r => reg_live s r
  | _ => True
  end.

Lemma unit_ok : forall (m : M unit) s s' p, unit_ m s = (s', Ok p) -> m s = (s', Ok tt).
Proof.
  intros m s s' p H. unfold unit_ in H. apply bind_ok in H as (s1 & [] & H1 & H2).
  apply ret_ok in H2 as [-> _]. exact H1.
Qed.
Lemma lift_ok : forall {A} (f : A -> payload) (m : M A) s s' p, lift f m s = (s', Ok p) -> exists a, m s = (s', Ok a).
Proof.
  intros A f m s s' p H. unfold lift in H. apply bind_ok in H as (s1 & a & H1 & H2).
  apply ret_ok in H2 as [-> _]. eauto.
Qed.

Lemma check_bip_ok : forall region ib s s' r, check_block_insert_point region ib s = (s', Ok r) ->
  s' = s /\ forall t, ib = Some t -> exists br, PM.find t (s_blocks s) = Some br /\ b_parent br = Some region.
Proof.
  intros region ib s s' r H. unfold check_block_insert_point in H. destruct ib as [t|].
  - apply bind_ok in H as (s1 & br & Hg & H). apply getB_ok in Hg as [-> F].
    destruct (opt_eqb (b_parent br) (Some region)) eqn:P; simpl in H; [|exfalso; eapply raise_ok; eauto].
    apply ret_ok in H as [-> _]. apply opt_eqb_eq in P. split; [reflexivity|]. intros t0 E. injection E as <-. eauto.
  - apply ret_ok in H as [-> _]. split; [reflexivity|]. intros t0 E. discriminate.
Qed.

Definition step_ok (c : call) : Prop := forall s s' p,
  WF s -> parents_ok s -> proved_call c = true -> args_live s c -> do_call c s = (s', Ok p) ->
  WF s' /\ parents_ok s'.

(* opening of a wrapper: the hypotheses of step_ok by name, `unit_` / `lift` stripped from the call *)
Ltac w_unit := intros s s' p W PO PC AL E; simpl in E, AL; apply unit_ok in E.
Ltac w_lift := intros s s' p W PO PC AL E; simpl in E, AL; apply lift_ok in E as (a & E).
Ltac p_nobody lem := eapply parents_ok_by_nobody; [apply lem|eassumption|eassumption].

Lemma W_CSetOperands : forall o new, step_ok (CSetOperands o new).
Proof. intros o new. w_unit. split; [exact (set_operands_WF _ _ _ _ _ W AL E)|p_nobody set_operands_par]. Qed.
Lemma W_CSetSuccessors : forall o new, step_ok (CSetSuccessors o new).
Proof. intros o new. w_unit. split; [exact (set_successors_WF _ _ _ _ _ W AL E)|p_nobody set_successors_par]. Qed.
Lemma W_COperandSetItem : forall o i v, step_ok (COperandSetItem o i v).
Proof. intros o i v. w_unit. split; [exact (operands_setitem_WF _ _ _ _ _ _ W AL E)|p_nobody operands_setitem_par]. Qed.
Lemma W_CSuccessorSetItem : forall o i v, step_ok (CSuccessorSetItem o i v).
Proof. intros o i v. w_unit. split; [exact (successors_setitem_WF _ _ _ _ _ _ W AL E)|p_nobody successors_setitem_par]. Qed.
Lemma W_CAddRegion : forall o r, step_ok (CAddRegion o r).
Proof. intros o r. w_unit. split; [exact (add_region_WF_gen _ _ _ _ _ W E)|exact (parents_ok_by_op _ o _ _ _ (add_region_par _ _ o r) W PO AL E)]. Qed.
Lemma W_CDetachRegion : forall o r, step_ok (CDetachRegion o r).
Proof. intros o r. w_lift. split; [exact (detach_region_WF_gen _ _ _ _ _ W E)|p_nobody detach_region_par]. Qed.
Lemma W_CDetachRegionIdx : forall o i, step_ok (CDetachRegionIdx o i).
Proof. intros o i. w_lift. split; [exact (detach_region_idx_WF _ _ _ _ _ W AL E)|p_nobody detach_region_idx_par]. Qed.
Lemma W_CReplaceAllUsesWith : forall v w, step_ok (CReplaceAllUsesWith v w).
Proof. intros v w. w_unit. split; [exact (replace_all_uses_with_WF _ _ _ _ _ W E)|p_nobody replace_all_uses_with_par]. Qed.
Lemma W_CReplaceUsesWithIf : forall v w sel, step_ok (CReplaceUsesWithIf v w sel).
Proof. intros v w sel. w_unit. split; [exact (replace_uses_with_if_WF _ _ _ _ _ _ W E)|p_nobody replace_uses_with_if_par]. Qed.
Lemma W_CValueErase : forall v safe, step_ok (CValueErase v safe).
Proof. intros v safe. w_unit. split; [exact (value_erase_WF _ _ _ _ _ W E)|p_nobody value_erase_par]. Qed.
Lemma W_CPrReplaceAllUsesWith : forall v w safe, step_ok (CPrReplaceAllUsesWith v w safe).
Proof. intros v w safe. w_unit. split; [exact (pr_replace_all_uses_with_WF _ _ _ _ _ _ W E)|p_nobody pr_replace_all_uses_with_par]. Qed.
Lemma W_CPrReplaceUsesWithIf : forall v w sel, step_ok (CPrReplaceUsesWithIf v w sel).
Proof. intros v w sel. w_unit. split; [exact (pr_replace_uses_with_if_WF _ _ _ _ _ _ W E)|p_nobody pr_replace_uses_with_if_par]. Qed.
Lemma W_CInsertArg : forall b i, step_ok (CInsertArg b i).
Proof. intros b i. w_lift. split; [exact (insert_arg_WF _ _ _ _ _ W AL E)|p_nobody insert_arg_par]. Qed.
Lemma W_CPrInsertBlockArgument : forall b i, step_ok (CPrInsertBlockArgument b i).
Proof. intros b i. w_lift. split; [exact (insert_arg_WF _ _ _ _ _ W AL E)|p_nobody insert_arg_par]. Qed.
Lemma W_CEraseArg : forall b v safe, step_ok (CEraseArg b v safe).
Proof. intros b v safe. w_unit. split; [exact (erase_arg_WF _ _ _ _ _ _ W (proj1 AL) (proj2 AL) E)|p_nobody erase_arg_par]. Qed.
Lemma W_CInsertOpAfter : forall b n e, step_ok (CInsertOpAfter b n e).
Proof. intros b n e. w_unit. split; [exact (insert_op_after_WF _ _ _ _ _ _ W (proj1 AL) (proj2 AL) E)|exact (parents_ok_by_block _ b _ _ _ (insert_op_after_par _ _ b n e) W PO (proj1 AL) E)]. Qed.
Lemma W_CInsertOpBefore : forall b n e, step_ok (CInsertOpBefore b n e).
Proof. intros b n e. w_unit. split; [exact (insert_op_before_WF _ _ _ _ _ _ W (proj1 AL) (proj2 AL) E)|exact (parents_ok_by_block _ b _ _ _ (insert_op_before_par _ _ b n e) W PO (proj1 AL) E)]. Qed.
Lemma W_CAddOp : forall b o, step_ok (CAddOp b o).
Proof. intros b o. w_unit. split; [exact (add_op_WF _ _ _ _ _ W (proj1 AL) (proj2 AL) E)|exact (parents_ok_by_block _ b _ _ _ (add_op_par _ _ b o) W PO (proj1 AL) E)]. Qed.
Lemma W_CDetachOp : forall b o, step_ok (CDetachOp b o).
Proof. intros b o. w_lift. split; [exact (detach_op_WF _ _ _ _ _ W (proj1 AL) (proj2 AL) E)|p_nobody detach_op_par]. Qed.
Lemma W_CAddOps : forall b ops, step_ok (CAddOps b ops).
Proof. intros b ops. w_unit. split; [exact (add_ops_WF _ _ _ _ _ W (proj1 AL) (proj2 AL) E)|exact (parents_ok_by_block _ b _ _ _ (add_ops_par _ _ b ops) W PO (proj1 AL) E)]. Qed.
Lemma W_CInsertOpsBefore : forall b ops e, step_ok (CInsertOpsBefore b ops e).
Proof. intros b ops e. w_unit. split; [exact (insert_ops_before_WF _ _ _ _ _ _ W (proj1 AL) (proj2 AL) E)|exact (parents_ok_by_block _ b _ _ _ (insert_ops_before_par _ _ b ops e) W PO (proj1 AL) E)]. Qed.
Lemma W_CInsertOpsAfter : forall b ops e, step_ok (CInsertOpsAfter b ops e).
Proof. intros b ops e. w_unit. split; [exact (insert_ops_after_WF _ _ _ _ _ _ W (proj1 AL) (proj1 (proj2 AL)) (proj2 (proj2 AL)) E)|exact (parents_ok_by_block _ b _ _ _ (insert_ops_after_par _ _ b ops e) W PO (proj1 AL) E)]. Qed.
Lemma W_CRwInsertOp : forall pr ops b ib, step_ok (CRwInsertOp pr ops b ib).
Proof. intros pr ops b ib. w_unit. split; [exact (rw_insert_op_WF _ _ _ _ _ _ W (proj1 AL) (proj1 (proj2 AL)) (proj2 (proj2 AL)) E)|exact (parents_ok_by_block _ b _ _ _ (rw_insert_op_par _ _ ops b ib) W PO (proj1 AL) E)]. Qed.
Lemma W_CAddBlock : forall r blocks, step_ok (CAddBlock r blocks).
Proof. intros r blocks. w_unit. split; [exact (add_block_WF _ _ _ _ _ W (proj1 AL) (proj2 AL) E)|exact (parents_ok_by_region _ r _ _ _ (add_block_par _ _ r blocks) W PO (proj1 AL) E)]. Qed.
Lemma W_CInsertBlockBefore : forall r blocks t, step_ok (CInsertBlockBefore r blocks t).
Proof. intros r blocks t. w_unit. split; [exact (insert_block_before_WF _ _ _ _ _ _ W (proj1 AL) (proj1 (proj2 AL)) (proj2 (proj2 AL)) E)|exact (parents_ok_by_region _ r _ _ _ (insert_block_before_par _ _ r blocks t) W PO (proj1 AL) E)]. Qed.
Lemma W_CInsertBlockAfter : forall r blocks t, step_ok (CInsertBlockAfter r blocks t).
Proof. intros r blocks t. w_unit. split; [exact (insert_block_after_WF _ _ _ _ _ _ W (proj1 AL) (proj1 (proj2 AL)) (proj1 (proj2 (proj2 AL))) (proj2 (proj2 (proj2 AL))) E)|exact (parents_ok_by_region _ r _ _ _ (insert_block_after_par _ _ r blocks t) W PO (proj1 AL) E)]. Qed.
Lemma W_CInsertBlock : forall r blocks i, step_ok (CInsertBlock r blocks i).
Proof. intros r blocks i. w_unit. split; [exact (insert_block_WF _ _ _ _ _ _ W (proj1 AL) (proj2 AL) E)|exact (parents_ok_by_region _ r _ _ _ (insert_block_par _ _ r blocks i) W PO (proj1 AL) E)]. Qed.
Lemma W_CRwInsertBlock : forall blocks r ib, step_ok (CRwInsertBlock blocks r ib).
Proof. intros blocks r ib. w_unit. split; [exact (rw_insert_block_WF _ _ _ _ _ _ W (proj1 AL) (proj1 (proj2 AL)) (proj2 (proj2 AL)) E)|exact (parents_ok_by_region _ r _ _ _ (rw_insert_block_par _ _ blocks r ib) W PO (proj1 AL) E)]. Qed.
Lemma W_CDetachBlock : forall r b, step_ok (CDetachBlock r b).
Proof. intros r b. w_lift. split; [exact (detach_block_WF _ _ _ _ _ W (proj1 AL) (proj2 AL) E)|p_nobody detach_block_par]. Qed.
Lemma W_CDetachBlockIdx : forall r i, step_ok (CDetachBlockIdx r i).
Proof. intros r i. w_lift. split; [exact (detach_block_idx_WF _ _ _ _ _ W AL E)|p_nobody detach_block_idx_par]. Qed.
Lemma W_CMoveBlocks : forall r d, step_ok (CMoveBlocks r d).
Proof. intros r d. w_unit. split; [exact (move_blocks_WF _ _ _ _ _ W (proj1 AL) (proj2 AL) E)|exact (move_blocks_parents_ok _ _ _ _ _ W PO (proj2 AL) E)]. Qed.
Lemma W_CBlockNew : forall ops nargs, step_ok (CBlockNew ops nargs).
Proof. intros ops nargs. w_lift. split; [exact (proj1 (block_new_inv _ _ _ _ _ W PO AL E))|exact (proj2 (block_new_inv _ _ _ _ _ W PO AL E))]. Qed.
Lemma W_CRegionNew : forall blocks, step_ok (CRegionNew blocks).
Proof. intros blocks. w_lift. split; [exact (proj1 (region_new_inv _ _ _ _ W PO AL E))|exact (proj2 (region_new_inv _ _ _ _ W PO AL E))]. Qed.
Lemma W_COpCreate : forall operands nres succs regions, step_ok (COpCreate operands nres succs regions).
Proof. intros operands nres succs regions. w_lift. split; [exact (proj1 (op_create_inv _ _ _ _ _ _ _ W PO E))|exact (proj2 (op_create_inv _ _ _ _ _ _ _ W PO E))]. Qed.

Lemma W_COpErase : forall o safe, step_ok (COpErase o safe).
Proof.
  intros o safe. w_unit. split; [|p_nobody op_erase_par].
  destruct AL as [(x & F & Ex & Rx & BL)|TL].
  - exact (op_erase_noregions_WF _ _ _ _ _ _ W F Ex Rx E).
  - exact (op_erase_tree_WF _ _ _ _ _ W TL E).
Qed.
Lemma W_CEraseOp : forall b o safe, step_ok (CEraseOp b o safe).
Proof.
  intros b o safe. w_unit. split; [|p_nobody erase_op_par].
  destruct AL as [A1 [(x & F & Ex & Rx & BL)|[OL TL]]].
  - exact (erase_op_noregions_WF _ _ _ _ _ _ _ W A1 F Ex Rx E).
  - exact (erase_op_tree_WF _ _ _ _ _ _ W A1 OL TL E).
Qed.
Lemma W_CRwEraseOp : forall pr o safe, step_ok (CRwEraseOp pr o safe).
Proof.
  intros pr o safe. w_unit. split; [|p_nobody rw_erase_op_par].
  destruct AL as [(x & F & Ex & Rx & BL)|(OL & T1 & T2)].
  - exact (rw_erase_op_noregions_WF _ _ _ _ _ _ W F Ex Rx BL E).
  - exact (rw_erase_op_tree_WF _ _ _ _ _ W OL T1 T2 E).
Qed.

Lemma op_live_noregions_split : forall s o, op_live_noregions s o ->
  op_noreg s o /\ (forall x b, PM.find o (s_ops s) = Some x -> o_parent x = Some b -> blk_live s b).
Proof.
  intros s o (x & F & Ex & Rx & BL). split; [exists x; auto|].
  intros x0 b F0 P0. rewrite F in F0. injection F0 as <-. exact (BL b P0).
Qed.

Lemma W_CRwReplaceOp : forall o news nres safe, step_ok (CRwReplaceOp o news nres safe).
Proof.
  intros o news nres safe. w_unit. destruct AL as [NR NL]. destruct (op_live_noregions_split s o NR) as [N BL].
  exact (rw_replace_op_inv _ _ _ _ _ _ _ W PO N BL NL E).
Qed.
Lemma W_CPrReplace : forall o news nres safe, step_ok (CPrReplace o news nres safe).
Proof.
  intros o news nres safe. w_unit. destruct AL as [NR NL]. destruct (op_live_noregions_split s o NR) as [N BL].
  exact (pr_replace_inv _ _ _ _ _ _ _ W PO N BL NL E).
Qed.

Lemma W_CRwReplaceValueWithNewType : forall pr v, step_ok (CRwReplaceValueWithNewType pr v).
Proof.
  intros pr v. w_lift. split; [exact (rw_replace_value_with_new_type_WF _ _ _ _ W AL E)|p_nobody rw_replace_value_with_new_type_par].
Qed.

Lemma W_COpDetach : forall o, step_ok (COpDetach o).
Proof.
  intros o. w_unit. split; [|p_nobody op_detach_par]. destruct AL as [OL BL]. unfold op_detach in E.
  apply bind_ok in E as (s0 & x & Hg & E). apply getO_ok in Hg as [-> F].
  destruct (o_parent x) as [b|] eqn:P; [|exfalso; eapply raise_ok; eauto].
  apply bind_ok in E as (s1 & a & E & R). apply ret_ok in R as [-> _].
  exact (detach_op_WF _ _ _ _ _ W (BL x b F P) OL E).
Qed.

Lemma W_CPrEraseBlockArgument : forall v safe, step_ok (CPrEraseBlockArgument v safe).
Proof.
  intros v safe. w_unit. split; [|p_nobody pr_erase_block_argument_par].
  exact (pr_erase_block_argument_WF _ _ _ _ _ W (proj1 AL) (proj2 AL) E).
Qed.

Lemma W_CMoveBlocksBefore : forall r t, step_ok (CMoveBlocksBefore r t).
Proof.
  intros r t. w_unit. destruct AL as [A1 (tx & region & F & Et & Pt & RL)]. split.
  - exact (move_blocks_before_WF _ _ _ _ _ _ _ W A1 F Et Pt RL E).
  - exact (move_blocks_before_parents_ok _ _ _ _ _ _ _ W PO F Pt RL E).
Qed.

Lemma W_CRwInlineRegion : forall pr r dest ib, step_ok (CRwInlineRegion pr r dest ib).
Proof.
  intros pr r dest ib. w_unit. destruct AL as (A1 & A2 & A3).
  unfold rw_inline_region in E. apply bind_ok in E as (s0 & ? & Hc & E).
  destruct (check_bip_ok _ _ _ _ _ Hc) as [-> CK]. destruct ib as [t|].
  - destruct (CK t eq_refl) as (br & F & P). destruct A3 as (br' & F' & Eb). rewrite F in F'. injection F' as <-.
    split; [exact (move_blocks_before_WF _ _ _ _ _ _ _ W A1 F Eb P A2 E)|
            exact (move_blocks_before_parents_ok _ _ _ _ _ _ _ W PO F P A2 E)].
  - split; [exact (move_blocks_WF _ _ _ _ _ W A1 A2 E)|exact (move_blocks_parents_ok _ _ _ _ _ W PO A2 E)].
Qed.

(* Rewriter.move_region_contents_to_new_regions: a fresh region, then move_blocks into it *)
Lemma W_CRwMoveRegionContents : forall pr r, step_ok (CRwMoveRegionContents pr r).
Proof.
  intros pr r. w_lift. unfold rw_move_region_contents_to_new_regions in E.
  apply bind_ok in E as (s1 & nr & Hn & E). apply bind_ok in E as (s2 & ? & Hm & E). apply ret_ok in E as [<- _].
  destruct (region_new_inv _ _ _ _ W PO (fun b (I : In b []) => match I with end) Hn) as [W1 PO1].
  destruct (region_new_live _ _ _ _ W (proj1 (proj2 (parents_ok_fresh s PO))) Hn) as [L1 (_ & _ & L2)].
  split; [exact (move_blocks_WF _ _ _ _ _ W1 (L2 r AL) L1 Hm)|exact (move_blocks_parents_ok _ _ _ _ _ W1 PO1 L1 Hm)].
Qed.

Lemma W_CCreateBlock : forall r ib nargs, step_ok (CCreateBlock r ib nargs).
Proof.
  intros r ib nargs. w_lift. destruct AL as [A1 A2].
  destruct (parents_ok_fresh s PO) as (FB & _ & _).
  split.
  - eapply (create_block_WF s s' r ib nargs a W A1 A2); [|exact E].
    intros s1 b1 Hb. exact (block_new_empty_spec _ _ _ _ W FB Hb).
  - unfold create_block in E. apply bind_ok in E as (s0 & ? & Hc & E).
    destruct (check_bip_ok _ _ _ _ _ Hc) as [-> _].
    apply bind_ok in E as (s1 & b1 & Hb & E). apply bind_ok in E as (s2 & ? & Hi & E). apply ret_ok in E as [<- _].
    destruct (block_new_empty_spec _ _ _ _ W FB Hb) as (W1 & _ & _ & _ & Q3).
    pose proof (block_new_parents_ok _ _ _ _ _ PO Hb) as PO1.
    exact (parents_ok_by_region _ r _ _ _ (rw_insert_block_par _ _ [b1] r ib) W1 PO1 (Q3 r A1) Hi).
Qed.

Create HintDb wstep discriminated.
#[export] Hint Resolve W_CSetOperands W_CSetSuccessors W_COperandSetItem W_CSuccessorSetItem W_CAddRegion W_CDetachRegion W_CDetachRegionIdx W_CReplaceAllUsesWith W_CReplaceUsesWithIf W_CValueErase W_CPrReplaceAllUsesWith W_CPrReplaceUsesWithIf W_CInsertArg W_CPrInsertBlockArgument W_CEraseArg W_CInsertOpAfter W_CInsertOpBefore W_CAddOp W_CDetachOp W_CAddOps W_CInsertOpsBefore W_CInsertOpsAfter W_CRwInsertOp W_CAddBlock W_CInsertBlockBefore W_CInsertBlockAfter W_CInsertBlock W_CRwInsertBlock W_CDetachBlock W_CDetachBlockIdx W_CMoveBlocks W_CBlockNew W_CRegionNew W_COpCreate W_COpErase W_CEraseOp W_CRwEraseOp W_CRwReplaceValueWithNewType W_COpDetach W_CPrEraseBlockArgument W_CMoveBlocksBefore W_CRwInlineRegion W_CRwMoveRegionContents W_CCreateBlock W_CRwReplaceOp W_CPrReplace : wstep.

Definition Inv (s : state) : Prop := WF s /\ parents_ok s.

Theorem empty_Inv : Inv empty_state.
Proof. split; [exact empty_WF|exact empty_parents_ok]. Qed.

Lemma proved_step_ok : forall c, proved_call c = true -> step_ok c.
Proof. destruct c; try discriminate; intros _; auto with wstep. Qed.

Theorem step_preserves : forall s c p,
  Inv s -> proved_call c = true -> args_live s c -> snd (step s c) = Ok p -> Inv (fst (step s c)).
Proof.
  intros s c p [W PO] PC AL H. unfold step in *. destruct (do_call c s) as [s' r] eqn:E. simpl in H. subst r.
  exact (proved_step_ok c PC s s' p W PO PC AL E).
Qed.

(* a history all of whose calls are proved constructors applied to live arguments and none of
   which raises *)
Inductive clean : state -> list call -> Prop :=
| clean_nil : forall s, clean s []
| clean_cons : forall s c r p,
    proved_call c = true -> args_live s c -> snd (step s c) = Ok p ->
    clean (fst (step s c)) r -> clean s (c :: r).

Lemma clean_app : forall a b s, clean s (a ++ b) -> clean (run a s) b.
Proof.
  induction a as [|c a IH]; intros b s C; simpl in *; [exact C|].
  inversion C; subst. apply IH. assumption.
Qed.

Theorem history_preserves : forall cs s, Inv s -> clean s cs -> Inv (run cs s).
Proof.
  induction cs as [|c r IH]; intros s W C; simpl.
  - exact W.
  - inversion C; subst. apply IH; [eapply step_preserves; eauto|assumption].
Qed.

Theorem history_from_empty : forall cs, clean empty_state cs -> WF (run cs empty_state).
Proof. intros cs C. exact (proj1 (history_preserves cs empty_state empty_Inv C)). Qed.

(* Refutation witnesses.  Only table look-ups are evaluated (`vm_compute`); the WF clause that fails is
   argued on variables, because `simpl` on a hypothesis that mentions the closed heap normalises the
   whole model. *)

Lemma WF_operand_lengths : forall s o x, WF s -> PM.find o (s_ops s) = Some x -> o_erased x = false ->
  length (o_operands x) = length (o_operand_uses x).
Proof. intros s o x W F E. exact (proj1 (wf_operands s W o x F E)). Qed.

Lemma WF_region_first_last : forall s r rr, WF s -> PM.find r (s_regions s) = Some rr -> r_erased rr = false ->
  r_last rr = None -> r_first rr = None.
Proof.
  intros s r rr W F E L. destruct (wf_region s W r rr F E) as (l & C1 & C2 & _).
  rewrite L in C2. apply chain_none_nil, (f_equal (@rev _)) in C2. rewrite rev_involutive in C2. subst l.
  inversion C1. reflexivity.
Qed.

Lemma WF_arg_owner : forall s v vr b i, WF s -> PM.find v (s_values s) = Some vr -> v_dead vr = false ->
  v_kind vr = KArg b i -> exists br, PM.find b (s_blocks s) = Some br /\ znth (b_args br) i = Some v.
Proof. intros s v vr b i W F D K. pose proof (wf_owner s W v vr F D) as Q. rewrite K in Q. exact Q. Qed.

Definition P1 : positive := 1%positive.
Definition P2 : positive := 2%positive.

(* (a) the code before fix f198beb: op.operands[-1] = v *)
Definition w_setitem : state := run [CBlockNew [] 2%nat; COpCreate [P1; P2] 0%nat [] []] empty_state.

Lemma setitem_negative_old_refuted :
  WF w_setitem /\ op_live w_setitem P1 /\
  snd (operands_setitem_old P1 (-1) P1 w_setitem) = Ok tt /\
  ~ WF (fst (operands_setitem_old P1 (-1) P1 w_setitem)).
Proof.
  split; [apply wf_b_sound; vm_compute; reflexivity|].
  split; [eexists; split; vm_compute; reflexivity|].
  split; [vm_compute; reflexivity|].
  intro W.
  assert (F : PM.find P1 (s_ops (fst (operands_setitem_old P1 (-1) P1 w_setitem))) =
              Some (mkOp [P1; P1; P1; P2] [P1; P2] [] [] [] [] None None None false)) by (vm_compute; reflexivity).
  discriminate (WF_operand_lengths _ _ _ W F eq_refl).
Qed.

(* the repaired code raises nothing and keeps WF on the same witness *)
Lemma setitem_negative_fixed_witness :
  snd (operands_setitem P1 (-1) P1 w_setitem) = Ok tt /\
  wf_b (fst (operands_setitem P1 (-1) P1 w_setitem)) = true.
Proof. split; vm_compute; reflexivity. Qed.

(* (b) the code before fix 9351131: op.detach_region(-1) *)
Definition w_detach_region : state :=
  run [CRegionNew []; CRegionNew []; COpCreate [] 0%nat [] [P1; P2]] empty_state.

Lemma detach_region_negative_old_refuted :
  WF w_detach_region /\ op_live w_detach_region P1 /\
  snd (detach_region_idx_old P1 (-1) w_detach_region) = Ok P2 /\
  ~ WF (fst (detach_region_idx_old P1 (-1) w_detach_region)).
Proof.
  split; [apply wf_b_sound; vm_compute; reflexivity|].
  split; [eexists; split; vm_compute; reflexivity|].
  split; [vm_compute; reflexivity|].
  intro W.
  assert (F : PM.find P1 (s_ops (fst (detach_region_idx_old P1 (-1) w_detach_region))) =
              Some (mkOp [] [] [] [] [] [P1; P1; P2] None None None false)) by (vm_compute; reflexivity).
  destruct (wf_opregs _ W P1 _ F eq_refl) as [ND _].
  inversion ND as [|? ? NI _]. apply NI. left. reflexivity.
Qed.

Lemma detach_region_negative_fixed_witness :
  snd (detach_region_idx P1 (-1) w_detach_region) = Ok P2 /\
  wf_b (fst (detach_region_idx P1 (-1) w_detach_region)) = true.
Proof. split; vm_compute; reflexivity. Qed.

(* (c) raising calls that leave a partial mutation behind (known findings C01-kf-4/5/6) *)
Definition w_add_block : state :=
  run [CBlockNew [] 0%nat; CBlockNew [] 0%nat; CRegionNew [P2]; CRegionNew []] empty_state.

Lemma raise_add_block_refuted :
  WF w_add_block /\ snd (step w_add_block (CAddBlock P2 [P1; P2])) = Raise ValueError /\
  ~ WF (fst (step w_add_block (CAddBlock P2 [P1; P2]))).
Proof.
  split; [apply wf_b_sound; vm_compute; reflexivity|].
  split; [vm_compute; reflexivity|].
  intro W.
  assert (F : PM.find P2 (s_regions (fst (step w_add_block (CAddBlock P2 [P1; P2])))) =
              Some (mkRegion (Some P1) None None false)) by (vm_compute; reflexivity).
  discriminate (WF_region_first_last _ _ _ W F eq_refl eq_refl).
Qed.

Definition w_erase : state :=
  run [COpCreate [] 1%nat [] []; COpCreate [P1] 1%nat [] []; COpCreate [P2] 0%nat [] []] empty_state.

Lemma raise_erase_refuted :
  WF w_erase /\ snd (step w_erase (COpErase P2 true)) = Raise ValueError /\
  ~ WF (fst (step w_erase (COpErase P2 true))).
Proof.
  split; [apply wf_b_sound; vm_compute; reflexivity|].
  split; [vm_compute; reflexivity|].
  intro W.
  assert (F : PM.find P2 (s_ops (fst (step w_erase (COpErase P2 true)))) =
              Some (mkOp [P1] [] [P2] [] [] [] None None None false)) by (vm_compute; reflexivity).
  discriminate (WF_operand_lengths _ _ _ W F eq_refl).
Qed.

Definition w_erase_arg : state := run [CBlockNew [] 1%nat; COpCreate [P1] 0%nat [] []] empty_state.

Lemma raise_erase_arg_refuted :
  WF w_erase_arg /\ snd (step w_erase_arg (CEraseArg P1 P1 true)) = Raise ValueError /\
  ~ WF (fst (step w_erase_arg (CEraseArg P1 P1 true))).
Proof.
  split; [apply wf_b_sound; vm_compute; reflexivity|].
  split; [vm_compute; reflexivity|].
  intro W.
  assert (F : PM.find P1 (s_values (fst (step w_erase_arg (CEraseArg P1 P1 true)))) =
              Some (mkValue (KArg P1 0) (Some P1) false)) by (vm_compute; reflexivity).
  destruct (WF_arg_owner _ _ _ _ _ W F eq_refl eq_refl) as (br & Fb & Z).
  vm_compute in Fb. injection Fb as <-. discriminate Z.
Qed.

Lemma use_clauses_iff : forall s,
  (WF_vuses s /\ WF_buses s /\ WF_operands s /\ WF_successors s /\ WF_disjoint s) <->
  (Uabs s (real_slot s) /\ lens_ok s).
Proof. intro s. split; [apply UWF_Uabs|intros [A B]; apply Uabs_UWF; assumption]. Qed.
