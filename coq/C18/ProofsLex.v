(* C18/ProofsLex.v -- the lexer: every rule consumes a non-empty prefix, the fuel of lex_all
   suffices, a fuel-free characterisation `lexed`, and one lemma per kind of printed token
   (identifier, NUMBER, string literal, punctuation, single space) giving the token the lexer
   produces at the head of `text ++ rest`. *)
From Coq Require Import ZArith List Bool Lia.
From XV Require Import C18.Model.
Import ListNotations.
Local Open Scope Z_scope.

Ltac list_eq := cbn [app]; repeat rewrite <- app_assoc; cbn [app]; repeat rewrite <- app_assoc; reflexivity.

Definition stops (p : cp -> bool) (r : str) : Prop :=
  match r with [] => True | c :: _ => p c = false end.

Lemma span_spec : forall p l a b, span p l = (a, b) -> l = a ++ b /\ forallb p a = true /\ stops p b.
Proof.
  induction l as [|c r IH]; intros a b H; cbn in H.
  - inversion H. repeat split.
  - destruct (p c) eqn:Ec.
    + destruct (span p r) as [a' b'] eqn:E. inversion H; subst. destruct (IH a' b eq_refl) as (-> & Ha & Hb).
      cbn. rewrite Ec. repeat split; assumption.
    + inversion H; subst. repeat split. exact Ec.
Qed.

Lemma span_app_eq : forall p l a b, span p l = (a, b) -> l = a ++ b.
Proof. intros p l a b H. apply (span_spec p l a b H). Qed.

Lemma span_all : forall p l a b, span p l = (a, b) -> forallb p a = true.
Proof. intros p l a b H. apply (span_spec p l a b H). Qed.

Lemma span_stops : forall p l a b, span p l = (a, b) -> stops p b.
Proof. intros p l a b H. apply (span_spec p l a b H). Qed.

Lemma span_ext : forall p a r, forallb p a = true -> stops p r -> span p (a ++ r) = (a, r).
Proof.
  induction a as [|c a IH]; intros r Ha Hr; cbn.
  - destruct r as [|x r']; [reflexivity|]. cbn in Hr. cbn. rewrite Hr. reflexivity.
  - cbn in Ha. apply andb_true_iff in Ha as [Hc Ha]. rewrite Hc. rewrite (IH r Ha Hr). reflexivity.
Qed.

Lemma span_app_ext : forall p s r a b, span p s = (a, b) -> stops p r -> span p (s ++ r) = (a, b ++ r).
Proof.
  induction s as [|c s IH]; intros r a b H Hr; cbn in H.
  - inversion H; subst. cbn. destruct r as [|x r']; [reflexivity|]. cbn in Hr. cbn. rewrite Hr. reflexivity.
  - cbn. destruct (p c) eqn:Ec.
    + destruct (span p s) as [a' b'] eqn:E. inversion H; subst. rewrite (IH r a' b eq_refl Hr). reflexivity.
    + inversion H; subst. reflexivity.
Qed.

Lemma span_nil_head : forall p c r, p c = false -> span p (c :: r) = ([], c :: r).
Proof. intros p c r H. cbn. rewrite H. reflexivity. Qed.

Definition consumes (f : rule) : Prop :=
  forall s t r, f s = Some (t, r) -> s = t ++ r /\ t <> [].

Lemma opt_sign_eq : forall s a b, opt_sign s = (a, b) -> s = a ++ b.
Proof.
  intros [|c r] a b H; cbn in H.
  - inversion H; reflexivity.
  - destruct ((c =? 45) || (c =? 43)); inversion H; reflexivity.
Qed.

Lemma opt_exponent_eq : forall s a b, opt_exponent s = (a, b) -> s = a ++ b.
Proof.
  intros [|c r] a b H; cbn in H.
  - inversion H; reflexivity.
  - destruct ((c =? 101) || (c =? 69)).
    + destruct (opt_sign r) as [sg r1] eqn:E1. destruct (span is_digit r1) as [ds r2] eqn:E2.
      destruct ds as [|d ds].
      * inversion H; reflexivity.
      * inversion H; subst. apply opt_sign_eq in E1. apply span_app_eq in E2. subst.
        list_eq.
    + inversion H; reflexivity.
Qed.

Lemma opt_fraction_eq : forall s a b, opt_fraction s = (a, b) -> s = a ++ b.
Proof.
  intros [|c r] a b H; cbn in H.
  - inversion H; reflexivity.
  - destruct (c =? 46).
    + destruct (span is_digit r) as [fs r1] eqn:E1. destruct (opt_exponent r1) as [ex r2] eqn:E2.
      inversion H; subst. apply span_app_eq in E1. apply opt_exponent_eq in E2. subst.
      list_eq.
    + inversion H; reflexivity.
Qed.

Lemma consumes_ident_digit : consumes rule_ident_digit.
Proof.
  intros s t r H. unfold rule_ident_digit in H.
  destruct (span is_digit s) as [ds r1] eqn:E1. destruct ds as [|d ds]; [discriminate|].
  destruct (span is_ident1 r1) as [al r2] eqn:E2. destruct al as [|x al]; [discriminate|].
  destruct (span is_identch r2) as [tl r3] eqn:E3. inversion H; subst.
  apply span_app_eq in E1, E2, E3. subst. split; [|discriminate].
  list_eq.
Qed.

Lemma consumes_number : consumes rule_number.
Proof.
  intros s t r H. unfold rule_number in H.
  destruct (opt_sign s) as [sg r0] eqn:E0. destruct (span is_digit r0) as [ds r1] eqn:E1.
  destruct ds as [|d ds]; [discriminate|]. destruct (opt_fraction r1) as [fr r2] eqn:E2.
  inversion H; subst. apply opt_sign_eq in E0. apply span_app_eq in E1. apply opt_fraction_eq in E2. subst.
  split.
  - list_eq.
  - destruct sg; discriminate.
Qed.

Lemma consumes_plus : forall p, consumes (rule_plus p).
Proof.
  intros p s t r H. unfold rule_plus in H. destruct (span p s) as [a b] eqn:E.
  destruct a as [|x a]; [discriminate|]. inversion H; subst. apply span_app_eq in E. split; [exact E|discriminate].
Qed.

Lemma lit_body_eq_n : forall hx close ord n s b rest, (length s <= n)%nat ->
  lit_body hx close ord s = Some (b, rest) -> s = b ++ rest /\ b <> [].
Proof.
  intros hx close ord. induction n as [|n IH]; intros s b rest Hn H; destruct s as [|c r]; cbn in H; try discriminate.
  - cbn in Hn. lia.
  - cbn in Hn. destruct (c =? close).
    + inversion H; subst. split; [reflexivity|discriminate].
    + destruct (c =? 92).
      * destruct r as [|e r']; [discriminate|]. cbn in Hn. destruct (is_esc e).
        -- destruct (lit_body hx close ord r') as [[b' rest']|] eqn:E; [|discriminate].
           inversion H; subst. apply IH in E as [E _]; [|lia]. subst. split; [reflexivity|discriminate].
        -- destruct hx; [|discriminate]. destruct r' as [|h r'']; [discriminate|]. cbn in Hn.
           destruct (is_hex e && is_hex h); [|discriminate].
           destruct (lit_body true close ord r'') as [[b' rest']|] eqn:E; [|discriminate].
           inversion H; subst. apply IH in E as [E _]; [|lia]. subst. split; [reflexivity|discriminate].
      * destruct (ord c); [|discriminate].
        destruct (lit_body hx close ord r) as [[b' rest']|] eqn:E; [|discriminate].
        inversion H; subst. apply IH in E as [E _]; [|lia]. subst. split; [reflexivity|discriminate].
Qed.
Lemma lit_body_eq : forall hx close ord s b rest, lit_body hx close ord s = Some (b, rest) -> s = b ++ rest /\ b <> [].
Proof. intros hx close ord s b rest H. eapply lit_body_eq_n; [apply le_n|exact H]. Qed.

Lemma consumes_delimited : forall hx o c p, consumes (rule_delimited hx o c p).
Proof.
  intros hx o c p s t r H. unfold rule_delimited in H. destruct s as [|x s]; [discriminate|].
  destruct (x =? o); [|discriminate]. destruct (lit_body hx c p s) as [[b rest]|] eqn:E; [|discriminate].
  inversion H; subst. apply lit_body_eq in E as [E _]. subst. split; [reflexivity|discriminate].
Qed.

Lemma consumes_char : forall x, consumes (rule_char x).
Proof.
  intros x s t r H. unfold rule_char in H. destruct s as [|c s]; [discriminate|].
  destruct (c =? x); [|discriminate]. inversion H; subst. split; [reflexivity|discriminate].
Qed.

Lemma first_rule_consumes : forall rules s k t r,
  Forall (fun rk => consumes (fst rk)) rules -> first_rule rules s = Some (k, t, r) -> s = t ++ r /\ t <> [].
Proof.
  induction rules as [|[f k0] more IH]; intros s k t r HF H; cbn in H; [discriminate|].
  inversion HF as [|? ? Hf HF']; subst. destruct (f s) as [[t0 r0]|] eqn:E.
  - inversion H; subst. exact (Hf _ _ _ E).
  - eapply IH; eassumption.
Qed.

Lemma next_token_consumes : forall s k t r, next_token s = Some (k, t, r) -> s = t ++ r /\ t <> [].
Proof.
  intros s k t r H. eapply first_rule_consumes; [|exact H].
  unfold lexer_rules.
  repeat (apply Forall_cons; [cbn [fst];
    first [apply consumes_ident_digit | apply consumes_number | apply consumes_plus
          | apply consumes_delimited | apply consumes_char]|]).
  apply Forall_nil.
Qed.

Lemma next_token_shorter : forall s k t r, next_token s = Some (k, t, r) -> (length r < length s)%nat.
Proof.
  intros s k t r H. apply next_token_consumes in H as [E Ht]. subst. rewrite app_length.
  destruct t; [congruence|cbn; lia].
Qed.

Inductive lexed : str -> list tok -> Prop :=
  | lexed_nil : lexed [] [TEOF]
  | lexed_err : forall s, s <> [] -> next_token s = None -> lexed s [TLexErr]
  | lexed_cons : forall s k t r l, next_token s = Some (k, t, r) -> lexed r l -> lexed s (T k t :: l).

Lemma lex_all_lexed : forall f s, s <> [] -> (length s <= f)%nat -> lexed s (lex_all f s).
Proof.
  induction f as [|f IH]; intros s Hs Hf.
  - destruct s; [congruence|cbn in Hf; lia].
  - cbn [lex_all]. destruct (next_token s) as [[[k t] r]|] eqn:E.
    + eapply lexed_cons; [exact E|]. destruct r as [|c r'].
      * constructor.
      * apply IH; [discriminate|]. apply next_token_shorter in E. lia.
    + apply lexed_err; assumption.
Qed.

Lemma lexed_lex : forall s, lexed s (lex s).
Proof.
  intros [|c s]; [constructor|]. unfold lex. apply lex_all_lexed; [discriminate|lia].
Qed.

Lemma lexed_fun : forall s l1, lexed s l1 -> forall l2, lexed s l2 -> l1 = l2.
Proof.
  induction 1 as [|s Hs Hn|s k t r l Hn Hl IH]; intros l2 H2; inversion H2; subst; try congruence.
  - cbn in H; discriminate.
  - cbn in Hn; discriminate.
  - rewrite Hn in H. inversion H; subst. f_equal. apply IH. assumption.
Qed.

Lemma lexed_is_lex : forall s l, lexed s l -> lex s = l.
Proof. intros s l H. eapply lexed_fun; [apply lexed_lex|exact H]. Qed.

Definition terminal (t : tok) : bool := match t with T _ _ => false | _ => true end.
(* the model fuel is never exhausted; the stream ends with EOF or the lexical error and has
   no such marker before its end *)
Inductive well_terminated : list tok -> Prop :=
  | wt_eof : well_terminated [TEOF]
  | wt_err : well_terminated [TLexErr]
  | wt_cons : forall k t l, well_terminated l -> well_terminated (T k t :: l).

Lemma lexed_wt : forall s l, lexed s l -> well_terminated l.
Proof. induction 1; constructor; assumption. Qed.

Lemma lex_well_terminated : forall s, well_terminated (lex s).
Proof. intros s. eapply lexed_wt, lexed_lex. Qed.

Fixpoint toks_text (l : list tok) : str :=
  match l with T _ t :: r => t ++ toks_text r | _ => [] end.
Lemma lexed_partition : forall s l, lexed s l -> last l TEOF = TEOF -> toks_text l = s.
Proof.
  induction 1 as [|s Hs Hn|s k t r l Hn Hl IH]; intros Hlast; cbn.
  - reflexivity.
  - cbn in Hlast. discriminate.
  - apply next_token_consumes in Hn as [E _]. subst. f_equal. apply IH.
    destruct l; [inversion Hl|exact Hlast].
Qed.

Lemma digit_identch : forall c, is_digit c = true -> is_identch c = true.
Proof. intros c H. unfold is_identch. rewrite H. apply orb_true_r. Qed.
Lemma ident1_identch : forall c, is_ident1 c = true -> is_identch c = true.
Proof. intros c H. unfold is_identch. rewrite H. reflexivity. Qed.
Lemma identch_cases : forall c, is_identch c = true -> is_digit c = false -> is_ident1 c = true.
Proof. intros c H D. unfold is_identch in H. rewrite D, orb_false_r in H. exact H. Qed.
Lemma ident1_not_digit : forall c, is_ident1 c = true -> is_digit c = false.
Proof. intros c H. unfold is_ident1, is_alpha, is_digit, in_range in *. lia. Qed.

Lemma forallb_app_iff : forall {A} (p : A -> bool) a b, forallb p (a ++ b) = true <-> forallb p a = true /\ forallb p b = true.
Proof. intros A p a b. rewrite forallb_app, andb_true_iff. reflexivity. Qed.

(* the text lexes as ONE IDENT token: identifier characters only, and either it starts with a
   digit and is not all digits (rule 1), or it starts with a non-digit and is not a `-` followed
   by a digit (which rule 2 would read as a NUMBER) *)
Definition name_okb (t : str) : bool :=
  forallb is_identch t &&
  match t with
  | [] => false
  | c :: r =>
      if is_digit c then negb (forallb is_digit r)
      else if c =? 45 then match r with d :: _ => negb (is_digit d) | [] => true end
      else true
  end.

Lemma span_digit_not_all : forall t r, forallb is_identch t = true -> forallb is_digit t = false ->
  exists ds x t', t = ds ++ x :: t' /\ forallb is_digit ds = true /\ is_digit x = false
                  /\ span is_digit (t ++ r) = (ds, x :: t' ++ r).
Proof.
  induction t as [|c t IH]; intros r Hi Hd; cbn in Hd; [discriminate|].
  cbn in Hi. apply andb_true_iff in Hi as [Hc Hi].
  destruct (is_digit c) eqn:Ec.
  - cbn in Hd. destruct (IH r Hi Hd) as (ds & x & t' & E & Hds & Hx & Hs). subst.
    exists (c :: ds), x, t'. repeat split; try assumption.
    + cbn. rewrite Ec, Hds. reflexivity.
    + cbn. rewrite Ec. cbn in Hs. rewrite Hs. reflexivity.
  - exists [], c, t. repeat split; try assumption. cbn. rewrite Ec. reflexivity.
Qed.

Lemma span_sub : forall (p q : cp -> bool) u r, (forall c, p c = true -> q c = true) ->
  forallb q u = true -> stops q r -> exists a b, u = a ++ b /\ span p (u ++ r) = (a, b ++ r).
Proof.
  intros p q u r Hpq. induction u as [|z u IH]; intros Hu Hr.
  - exists [], []. split; [reflexivity|]. cbn. destruct r as [|x r']; [reflexivity|].
    cbn in Hr. cbn. destruct (p x) eqn:E; [apply Hpq in E; congruence|reflexivity].
  - cbn in Hu. apply andb_true_iff in Hu as [Hz Hu]. destruct (IH Hu Hr) as (a & b & E & Hs).
    cbn [app span]. destruct (p z) eqn:Ez.
    + exists (z :: a), b. rewrite Hs. subst. split; reflexivity.
    + exists [], (z :: u). split; reflexivity.
Qed.

Lemma rule1_name : forall c t r, is_digit c = true -> forallb is_identch t = true ->
  forallb is_digit t = false -> stops is_identch r ->
  rule_ident_digit ((c :: t) ++ r) = Some (c :: t, r).
Proof.
  intros c t r Hc Hi Hd Hr.
  destruct (span_digit_not_all t r Hi Hd) as (ds & x & t' & E & Hds & Hx & Hs). subst t.
  unfold rule_ident_digit. cbn [app span]. rewrite Hc. rewrite Hs.
  apply forallb_app_iff in Hi as [_ Hi]. cbn in Hi. apply andb_true_iff in Hi as [Hxi Hi].
  assert (Hx1 : is_ident1 x = true) by (apply identch_cases; assumption).
  destruct (span_sub is_ident1 is_identch t' r ident1_identch Hi Hr) as (a & b & E & Hs2).
  cbn [span]. rewrite Hx1, Hs2. subst t'. apply forallb_app_iff in Hi as [_ Hb].
  rewrite (span_ext is_identch b r Hb Hr). reflexivity.
Qed.

Lemma rule1_nondigit : forall c s, is_digit c = false -> rule_ident_digit (c :: s) = None.
Proof. intros c s H. unfold rule_ident_digit. cbn. rewrite H. reflexivity. Qed.

Lemma rule2_nondigit : forall c s, is_digit c = false -> (c =? 45) || (c =? 43) = false -> rule_number (c :: s) = None.
Proof. intros c s H Hs. unfold rule_number. cbn. rewrite Hs. cbn. rewrite H. reflexivity. Qed.

Lemma rule_plus_ext : forall p a r, forallb p a = true -> a <> [] -> stops p r ->
  rule_plus p (a ++ r) = Some (a, r).
Proof.
  intros p a r Ha Hne Hr. unfold rule_plus. rewrite (span_ext p a r Ha Hr).
  destruct a; [congruence|reflexivity].
Qed.
Lemma next_token_ident : forall t r, name_okb t = true -> stops is_identch r ->
  next_token (t ++ r) = Some (KIdent, t, r).
Proof.
  intros t r Hn Hr. unfold name_okb in Hn. apply andb_true_iff in Hn as [Hi Hn].
  destruct t as [|c t]; [discriminate|]. cbn in Hi. apply andb_true_iff in Hi as [Hc Hi].
  unfold next_token, lexer_rules. cbn [first_rule].
  destruct (is_digit c) eqn:Ed.
  - apply negb_true_iff in Hn. rewrite (rule1_name c t r Ed Hi Hn Hr). reflexivity.
  - cbn [app]. rewrite (rule1_nondigit c (t ++ r) Ed).
    assert (Hplus : rule_plus is_identch (c :: t ++ r) = Some (c :: t, r)).
    { apply (rule_plus_ext is_identch (c :: t) r); [cbn; rewrite Hc; exact Hi|discriminate|exact Hr]. }
    destruct (c =? 45) eqn:E45.
    + (* `-`: rule 2 takes the sign, then needs a digit *)
      assert (Hnum : rule_number (c :: t ++ r) = None).
      { unfold rule_number. cbn [opt_sign]. rewrite E45. cbn [orb].
        destruct t as [|d t].
        - cbn [app]. destruct r as [|q r']; [reflexivity|]. cbn in Hr.
          cbn [span]. destruct (is_digit q) eqn:Eq; [apply digit_identch in Eq; congruence|reflexivity].
        - cbn [app span]. apply negb_true_iff in Hn. rewrite Hn. reflexivity. }
      rewrite Hnum, Hplus. reflexivity.
    + assert (H43 : c =? 43 = false).
      { destruct (c =? 43) eqn:E; [|reflexivity]. apply Z.eqb_eq in E. subst. discriminate. }
      rewrite (rule2_nondigit c (t ++ r) Ed) by (rewrite E45, H43; reflexivity).
      rewrite Hplus. reflexivity.
Qed.

(* a character that may follow a printed number: not an identifier character, not `.`, not `+` *)
Definition num_stop (c : cp) : bool := negb (is_identch c || (c =? 46) || (c =? 43)).
Definition stops_num (r : str) : Prop := match r with [] => True | c :: _ => num_stop c = true end.

Lemma num_stop_facts : forall c, num_stop c = true ->
  is_digit c = false /\ is_identch c = false /\ (c =? 46) = false /\ (c =? 43) = false /\ (c =? 45) = false
  /\ (c =? 101) = false /\ (c =? 69) = false /\ is_ident1 c = false.
Proof.
  intros c H. unfold num_stop, is_identch, is_ident1, is_alpha, is_digit, in_range in *. lia.
Qed.

Lemma stops_num_digit : forall r, stops_num r -> stops is_digit r.
Proof. intros [|c r] H; [exact I|]. cbn in *. apply num_stop_facts in H. tauto. Qed.

Lemma opt_sign_ext : forall s r a b, opt_sign s = (a, b) -> stops_num r -> opt_sign (s ++ r) = (a, b ++ r).
Proof.
  intros [|c s] r a b H Hr; cbn in H.
  - inversion H; subst. cbn. destruct r as [|q r']; [reflexivity|]. cbn in Hr.
    apply num_stop_facts in Hr as (_ & _ & _ & H43 & H45 & _). cbn. rewrite H45, H43. reflexivity.
  - cbn. destruct ((c =? 45) || (c =? 43)); inversion H; subst; reflexivity.
Qed.

Lemma opt_exponent_ext : forall s r a b, opt_exponent s = (a, b) -> stops_num r ->
  opt_exponent (s ++ r) = (a, b ++ r).
Proof.
  intros [|c s] r a b H Hr; cbn in H.
  - inversion H; subst. cbn. destruct r as [|q r']; [reflexivity|]. cbn in Hr.
    apply num_stop_facts in Hr as (_ & _ & _ & _ & _ & H101 & H69 & _). cbn. rewrite H101, H69. reflexivity.
  - cbn [app opt_exponent]. destruct ((c =? 101) || (c =? 69)).
    + destruct (opt_sign s) as [sg r1] eqn:E1. destruct (span is_digit r1) as [ds r2] eqn:E2.
      rewrite (opt_sign_ext s r sg r1 E1 Hr).
      rewrite (span_app_ext is_digit r1 r ds r2 E2 (stops_num_digit r Hr)).
      destruct ds; inversion H; subst; reflexivity.
    + inversion H; subst. reflexivity.
Qed.

Lemma opt_fraction_ext : forall s r a b, opt_fraction s = (a, b) -> stops_num r ->
  opt_fraction (s ++ r) = (a, b ++ r).
Proof.
  intros [|c s] r a b H Hr; cbn in H.
  - inversion H; subst. cbn. destruct r as [|q r']; [reflexivity|]. cbn in Hr.
    apply num_stop_facts in Hr as (_ & _ & H46 & _). cbn. rewrite H46. reflexivity.
  - cbn [app opt_fraction]. destruct (c =? 46).
    + destruct (span is_digit s) as [fs r1] eqn:E1. destruct (opt_exponent r1) as [ex r2] eqn:E2.
      rewrite (span_app_ext is_digit s r fs r1 E1 (stops_num_digit r Hr)).
      rewrite (opt_exponent_ext r1 r ex r2 E2 Hr). inversion H; subst. reflexivity.
    + inversion H; subst. reflexivity.
Qed.

Lemma rule_number_ext : forall s r t b, rule_number s = Some (t, b) -> stops_num r ->
  rule_number (s ++ r) = Some (t, b ++ r).
Proof.
  intros s r t b H Hr. unfold rule_number in *.
  destruct (opt_sign s) as [sg r0] eqn:E0. destruct (span is_digit r0) as [ds r1] eqn:E1.
  destruct ds as [|d ds]; [discriminate|]. destruct (opt_fraction r1) as [fr r2] eqn:E2.
  rewrite (opt_sign_ext s r sg r0 E0 Hr).
  rewrite (span_app_ext is_digit r0 r (d :: ds) r1 E1 (stops_num_digit r Hr)).
  rewrite (opt_fraction_ext r1 r fr r2 E2 Hr). inversion H; subst. reflexivity.
Qed.

(* the text is exactly one NUMBER: the regex matches all of it *)
Definition num_ok (t : str) : Prop := rule_number t = Some (t, []).

Lemma rule1_number : forall t r, num_ok t -> stops_num r -> rule_ident_digit (t ++ r) = None.
Proof.
  intros t r H Hr. unfold num_ok, rule_number in H.
  destruct (opt_sign t) as [sg r0] eqn:E0. destruct (span is_digit r0) as [ds r1] eqn:E1.
  destruct ds as [|d ds]; [discriminate|]. destruct (opt_fraction r1) as [fr r2] eqn:E2.
  injection H as _ Hr2. subst r2.
  destruct t as [|c t]; [cbn in E0; inversion E0; subst; cbn in E1; inversion E1|].
  cbn in E0. destruct ((c =? 45) || (c =? 43)) eqn:Es.
  - (* a sign is not a digit *)
    assert (Hd : is_digit c = false).
    { apply orb_true_iff in Es as [E|E]; apply Z.eqb_eq in E; subst; reflexivity. }
    cbn [app]. apply rule1_nondigit. exact Hd.
  - inversion E0; subst sg r0. unfold rule_ident_digit.
    rewrite (span_app_ext is_digit (c :: t) r (d :: ds) r1 E1 (stops_num_digit r Hr)).
    (* after the digits: `.`, or the end of the number *)
    destruct r1 as [|x r1'].
    + cbn [app]. destruct r as [|q r']; [reflexivity|]. cbn in Hr. apply num_stop_facts in Hr.
      cbn [span]. destruct Hr as (_ & _ & _ & _ & _ & _ & _ & H1). rewrite H1. reflexivity.
    + cbn in E2. destruct (x =? 46) eqn:E46.
      * apply Z.eqb_eq in E46. subst x. cbn [app span]. reflexivity.
      * inversion E2.
Qed.

Lemma next_token_number : forall t r, num_ok t -> stops_num r ->
  next_token (t ++ r) = Some (KNumber, t, r).
Proof.
  intros t r H Hr. unfold next_token, lexer_rules. cbn [first_rule].
  rewrite (rule1_number t r H Hr). rewrite (rule_number_ext t r t [] H Hr). reflexivity.
Qed.

(* _STRING_ESCAPES: a character is written as itself exactly when the string-literal regex takes it as
   an ordinary character; the six others get an escape sequence *)
Lemma esc_char_cases : forall c,
  (is_strch c = true /\ esc_char c = [c]) \/ In c [92; 34; 10; 13; 12; 11].
Proof.
  intros c. unfold esc_char, is_strch, is_ctl.
  destruct (Z.eqb_spec c 92) as [->|?]; [right; cbn; auto 8|].
  destruct (Z.eqb_spec c 34) as [->|?]; [right; cbn; auto 8|].
  destruct (Z.eqb_spec c 10) as [->|?]; [right; cbn; auto 8|].
  destruct (Z.eqb_spec c 13) as [->|?]; [right; cbn; auto 8|].
  destruct (Z.eqb_spec c 12) as [->|?]; [right; cbn; auto 8|].
  destruct (Z.eqb_spec c 11) as [->|?]; [right; cbn; auto 8|].
  left. split; reflexivity.
Qed.

Lemma lit_body_escaped : forall s r,
  lit_body true 34 is_strch (escape_str s ++ 34 :: r) = Some (escape_str s ++ [34], r).
Proof.
  unfold escape_str. induction s as [|c s IH]; intros r; [reflexivity|].
  cbn [flat_map]. rewrite <- !app_assoc.
  destruct (esc_char_cases c) as [[Hs ->]|Hin].
  - cbn [app lit_body]. rewrite Hs, IH.
    unfold is_strch in Hs. destruct (Z.eqb_spec c 34); [lia|]. destruct (Z.eqb_spec c 92); [lia|]. reflexivity.
  - repeat (destruct Hin as [<-|Hin]; [cbn; rewrite IH; reflexivity|]). destruct Hin.
Qed.

Lemma next_token_string : forall s r,
  next_token (34 :: escape_str s ++ 34 :: r) = Some (KString, 34 :: escape_str s ++ [34], r).
Proof.
  intros s r. unfold next_token, lexer_rules. cbn [first_rule].
  rewrite rule1_nondigit by reflexivity. rewrite rule2_nondigit by reflexivity.
  unfold rule_plus at 1. cbn [span]. change (is_identch 34) with false. cbv iota beta.
  unfold rule_delimited at 1. change (34 =? 34) with true. cbv iota.
  rewrite (lit_body_escaped s r). reflexivity.
Qed.

Lemma next_token_lbrace : forall r, next_token (123 :: r) = Some (KLBrace, [123], r).
Proof. reflexivity. Qed.
Lemma next_token_rbrace : forall r, next_token (125 :: r) = Some (KRBrace, [125], r).
Proof. reflexivity. Qed.
Lemma next_token_equals : forall r, next_token (61 :: r) = Some (KEquals, [61], r).
Proof. reflexivity. Qed.
Lemma next_token_comma : forall r, next_token (44 :: r) = Some (KComma, [44], r).
Proof. reflexivity. Qed.
Lemma next_token_space : forall r, stops is_space r -> next_token (32 :: r) = Some (KSpace, [32], r).
Proof.
  (* on a blank the first eight rules fail by computation; the ninth takes the blanks up to r *)
  intros r Hr.
  assert (Hsp : rule_plus is_space (32 :: r) = Some ([32], r))
    by (apply (rule_plus_ext is_space [32] r eq_refl); [discriminate|exact Hr]).
  unfold next_token. cbn -[rule_plus is_space]. rewrite Hsp. reflexivity.
Qed.
