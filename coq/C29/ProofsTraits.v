(* C29/ProofsTraits.v -- traits.SymbolTable.lookup_symbol against the Spec of Proofs.v:
   refuted in general (two witnesses), complete (finds every designated op), equal to the Spec
   for references that only traverse symbol tables and only name non-private nested symbols;
   the repaired function (build/proposed_fixes/C29-1.diff) equals the Spec for everything. *)
From Coq Require Import List Arith Bool.
From XV Require Import C29.Model C29.Proofs.
Import ListNotations.

(* hypothesis of the partial theorem: walking the nested components from the op at c, every
   component is looked up inside a symbol table and names a non-private symbol *)
Inductive ref_guard (t : op) : path -> list name -> Prop :=
| G_nil : forall c, ref_guard t c []
| G_cons : forall c o m ms, get t c = Some o -> is_symbol_table o = true ->
    (forall i c', first_child_named o m i -> get t (c ++ [i]) = Some c' ->
        visibility c' <> Private /\ ref_guard t (c ++ [i]) ms) ->
    ref_guard t c (m :: ms).
Definition traits_guard (t : op) (p : path) (sym : symarg) : Prop :=
  forall q o i, nearest_table t p q -> get t q = Some o ->
                first_child_named o (sym_root sym) i -> ref_guard t (q ++ [i]) (sym_nested sym).

Lemma anchor_is_nearest : forall t p, traits_anchor t (rev p) = get_nearest_symbol_table t p.
Proof. intros t p. apply traits_anchor_eq. Qed.

Lemma nearest_of_table : forall t c, is_table_at t c = true -> get_nearest_symbol_table t c = Some c.
Proof.
  intros t c Et. apply is_table_at_iff in Et. destruct Et as [o [Hg Ht]].
  apply (get_nearest_spec t c o c Hg). apply table_at_self_nearest. exists o. split; assumption.
Qed.

(* what lookup_symbol does once the root component has been found at x *)
Definition traits_rest (t : op) (x : path) (nested : list name) : res (option path) :=
  match nested with [] => Val (Some x) | m :: ms => traits_lookup t ms x m end.

Lemma traits_lookup_eq : forall t nested p root,
  traits_lookup t nested p root =
  match get_nearest_symbol_table t p with
  | None => Raise ValueError
  | Some q => match lookup_direct t q root with
              | None => Val None
              | Some x => traits_rest t x nested
              end
  end.
Proof.
  intros t nested p root. destruct nested; cbn [traits_lookup traits_rest]; rewrite anchor_is_nearest;
    (destruct (get_nearest_symbol_table t p) as [q|] eqn:En; [|reflexivity]);
    apply nearest_is_table, is_table_at_iff in En; destruct En as [a [Hg _]];
    unfold lookup_direct; rewrite Hg; destruct (first_named root (children a) 0); reflexivity.
Qed.

Lemma traits_lookup_symbol_eq : forall t p sym,
  traits_lookup_symbol t p sym = traits_lookup t (sym_nested sym) p (sym_root sym).
Proof. intros t p [n | root nested]; reflexivity. Qed.

Lemma traits_rest_complete : forall t ms x r, resolve_nested t x ms r -> traits_rest t x ms = Val (Some r).
Proof.
  intros t ms. induction ms as [|m ms IH]; intros x r H; cbn [traits_rest].
  - apply resolve_nested_nil_inv in H. subst. reflexivity.
  - apply resolve_nested_cons in H. destruct H as [Et [y [El [_ Hrn]]]].
    rewrite traits_lookup_eq, (nearest_of_table t x Et), El. apply IH. exact Hrn.
Qed.

Theorem traits_complete : forall t p o0 sym r, get t p = Some o0 ->
  resolve_from t p sym r -> traits_lookup_symbol t p sym = Val (Some r).
Proof.
  intros t p o0 sym r Hp0 [q [Hn Hin]]. apply resolve_in_iff in Hin. destruct Hin as [_ [x [El Hrn]]].
  rewrite traits_lookup_symbol_eq, traits_lookup_eq.
  apply (get_nearest_spec t p o0 q Hp0) in Hn. rewrite Hn, El. apply traits_rest_complete. exact Hrn.
Qed.

Lemma ref_guard_cons : forall t c m ms x, ref_guard t c (m :: ms) -> lookup_direct t c m = Some x ->
  is_table_at t c = true /\ is_private_at t x = false /\ ref_guard t x ms.
Proof.
  intros t c m ms x H El. inversion H as [| c0 o m0 ms0 Hg Ht Hgd]; subst.
  apply lookup_direct_some in El. destruct El as [o1 [i [Hg1 [Hf ->]]]].
  assert (o1 = o) by congruence. subst o1.
  destruct (first_child_get t c o m i Hg Hf) as [c' [Hg' _]]. destruct (Hgd i c' Hf Hg') as [Hv Hrg].
  split; [apply is_table_at_iff; exists o; split; assumption|].
  split; [apply (is_private_at_false t _ _ Hg'); exact Hv | exact Hrg].
Qed.

Lemma traits_rest_guard : forall t ms x, ref_guard t x ms ->
  exists y, traits_rest t x ms = Val y /\ forall r, y = Some r <-> resolve_nested t x ms r.
Proof.
  intros t ms. induction ms as [|m ms IH]; intros x Hgd; cbn [traits_rest].
  - exists (Some x). split; [reflexivity|]. intro r. split.
    + intro H. inversion H; subst. apply RN_done.
    + intro H. apply resolve_nested_nil_inv in H. subst. reflexivity.
  - assert (Et : is_table_at t x = true).
    { inversion Hgd as [| c0 o m0 ms0 Hg Ht _]; subst. apply is_table_at_iff. exists o. split; assumption. }
    rewrite traits_lookup_eq, (nearest_of_table t x Et).
    destruct (lookup_direct t x m) as [y|] eqn:El.
    + destruct (ref_guard_cons t x m ms y Hgd El) as [_ [Ep Hrg]].
      destruct (IH y Hrg) as [z [Hz Hr]]. exists z. split; [exact Hz|].
      intro r. rewrite Hr, resolve_nested_cons. split.
      * intro H. split; [exact Et|]. exists y. auto.
      * intros [_ [y' [E [_ Hrn]]]]. assert (y' = y) by congruence. subst y'. exact Hrn.
    + exists None. split; [reflexivity|]. intro r. rewrite resolve_nested_cons.
      split; [discriminate | intros [_ [y [E _]]]; congruence].
Qed.

(* the common shape of both "= Spec" theorems: ValueError exactly when there is no enclosing
   symbol table, otherwise a value that is Some r exactly for the designated op r *)
Definition agrees_with_spec (t : op) (p : path) (sym : symarg) (result : res (option path)) : Prop :=
  ((forall q, ~ nearest_table t p q) /\ result = Raise ValueError) \/
  ((exists q, nearest_table t p q) /\
   exists x, result = Val x /\ forall r, x = Some r <-> resolve_from t p sym r).

Lemma agrees_intro : forall t p o0 sym result, get t p = Some o0 ->
  match get_nearest_symbol_table t p with
  | None => result = Raise ValueError
  | Some q => exists x, result = Val x /\
                        forall r, x = Some r <-> resolve_in t q (sym_root sym) (sym_nested sym) r
  end -> agrees_with_spec t p sym result.
Proof.
  intros t p o0 sym result Hp0 H. destruct (get_nearest_symbol_table t p) as [q|] eqn:En.
  - right. apply (get_nearest_spec t p o0 q Hp0) in En. split; [exists q; exact En|].
    destruct H as [x [-> Hx]]. exists x. split; [reflexivity|].
    intro r. rewrite Hx. symmetry. apply resolve_from_iff, En.
  - left. split; [apply (get_nearest_none t p o0 Hp0); exact En | exact H].
Qed.

Theorem traits_partial : forall t p o0 sym, get t p = Some o0 -> traits_guard t p sym ->
  agrees_with_spec t p sym (traits_lookup_symbol t p sym).
Proof.
  intros t p o0 sym Hp0 Hguard. apply (agrees_intro t p o0 sym _ Hp0).
  rewrite traits_lookup_symbol_eq, traits_lookup_eq.
  destruct (get_nearest_symbol_table t p) as [q|] eqn:En; [|reflexivity].
  assert (Et := nearest_is_table t p q En). apply (get_nearest_spec t p o0 q Hp0) in En.
  destruct (lookup_direct t q (sym_root sym)) as [x|] eqn:El.
  - assert (Hrg : ref_guard t x (sym_nested sym)).
    { apply lookup_direct_some in El. destruct El as [o [i [Hg [Hf ->]]]]. apply (Hguard q o i En Hg Hf). }
    destruct (traits_rest_guard t _ x Hrg) as [y [Hy Hr]]. exists y. split; [exact Hy|].
    intro r. rewrite Hr. symmetry. apply resolve_in_found; assumption.
  - exists None. split; [reflexivity|]. intro r. split; [discriminate|].
    intro H. destruct (resolve_in_missing _ _ _ _ _ El H).
Qed.

(* flat references (str, StringAttr, SymbolRefAttr without nested part) always satisfy the guard *)
Theorem traits_flat : forall t p o0 sym, get t p = Some o0 -> sym_nested sym = [] ->
  agrees_with_spec t p sym (traits_lookup_symbol t p sym).
Proof.
  intros t p o0 sym Hp0 Hnil. apply (traits_partial t p o0 sym Hp0).
  intros q o i _ _ _. rewrite Hnil. apply G_nil.
Qed.

(* module { func @0 ; func @1 }: @0::@1 -- @0 is not a symbol table, the lookup climbs back to the
   module and returns the top-level @1 *)
Definition wit_nontable : op :=
  Op None Public true [Op (Some 0) Public false []; Op (Some 1) Public false []].
(* module { module @0 { func private @1 } }: @0::@1 returns the private symbol *)
Definition wit_private : op :=
  Op None Public true [Op (Some 0) Public true [Op (Some 1) Private false []]].

Lemma refute_by_direct : forall t p o0 sym r, get t p = Some o0 ->
  lookup_nearest_symbol_from t p sym = Val None -> ~ resolve_from t p sym r.
Proof.
  intros t p o0 sym r Hp0 Hl H. destruct (lookup_nearest_spec t p o0 sym Hp0) as [x [Hx Hr]].
  apply Hr in H. congruence.
Qed.

Theorem traits_refuted_nontable : exists t p o0 sym r,
  get t p = Some o0 /\ traits_lookup_symbol t p sym = Val (Some r) /\ ~ resolve_from t p sym r.
Proof.
  exists wit_nontable, [], wit_nontable, (SRef 0 [1]), [1].
  split; [reflexivity|]. split; [vm_compute; reflexivity|].
  apply (refute_by_direct _ _ wit_nontable); vm_compute; reflexivity.
Qed.

Theorem traits_refuted_private : exists t p o0 sym r,
  get t p = Some o0 /\ traits_lookup_symbol t p sym = Val (Some r) /\ ~ resolve_from t p sym r /\
  is_private_at t r = true.
Proof.
  exists wit_private, [], wit_private, (SRef 0 [1]), [0; 0].
  split; [reflexivity|]. split; [vm_compute; reflexivity|]. split; [|vm_compute; reflexivity].
  apply (refute_by_direct _ _ wit_private); vm_compute; reflexivity.
Qed.

(* the guard is satisfiable by a genuinely nested reference that resolves *)
Definition wit_ok : op :=
  Op None Public true
     [Op (Some 0) Public true [Op (Some 1) Nested true [Op (Some 2) Public false []]]].
Lemma wit_ok_first : forall o n i, first_named n (children o) 0 = Some i -> first_child_named o n i.
Proof. intros o n i H. apply first_named_spec. exact H. Qed.

Lemma fixed_nested_spec : forall t ms c r,
  traits_fixed_nested t c ms = Some r <-> resolve_nested t c ms r.
Proof.
  intros t ms. induction ms as [|m ms IH]; intros c r; cbn [traits_fixed_nested].
  - split.
    + intro H. inversion H; subst. apply RN_done.
    + intro H. apply resolve_nested_nil_inv in H. subst. reflexivity.
  - rewrite resolve_nested_cons.
    destruct (is_table_at t c); cbn [negb]; [|split; [discriminate | intros [E _]; discriminate]].
    destruct (lookup_direct t c m) as [x|]; [|split; [discriminate | intros [_ [x [E _]]]; discriminate]].
    destruct (is_private_at t x) eqn:Ep.
    + split; [discriminate | intros [_ [x' [E [Ep' _]]]]; congruence].
    + rewrite IH. split; [intro H; split; [reflexivity|]; exists x; auto|].
      intros [_ [x' [E [_ H]]]]. inversion E; subst x'. exact H.
Qed.

Theorem traits_fixed_agrees : forall t p o0 sym, get t p = Some o0 ->
  agrees_with_spec t p sym (traits_lookup_symbol_fixed t p sym).
Proof.
  intros t p o0 sym Hp0. apply (agrees_intro t p o0 sym _ Hp0).
  unfold traits_lookup_symbol_fixed. rewrite anchor_is_nearest.
  destruct (get_nearest_symbol_table t p) as [q|] eqn:En; [|reflexivity].
  apply nearest_is_table in En.
  replace (match sym with SFlat n => (n, []) | SRef r ns => (r, ns) end)
    with (sym_root sym, sym_nested sym) by (destruct sym; reflexivity).
  destruct (lookup_direct t q (sym_root sym)) as [x|] eqn:El.
  - eexists. split; [reflexivity|]. intro r. rewrite fixed_nested_spec. symmetry.
    apply resolve_in_found; assumption.
  - exists None. split; [reflexivity|]. intro r. split; [discriminate|].
    intro H. destruct (resolve_in_missing _ _ _ _ _ El H).
Qed.

(* ------------------------------------------------------------------ a decision procedure for the guard
   (used to show the hypothesis of traits_partial satisfiable on concrete trees) *)
Fixpoint ref_guardb (t : op) (c : path) (ms : list name) : bool :=
  match ms with
  | [] => true
  | m :: ms' =>
      is_table_at t c &&
      match lookup_direct t c m with
      | None => true
      | Some c' => negb (is_private_at t c') && ref_guardb t c' ms'
      end
  end.
Definition traits_guardb (t : op) (p : path) (sym : symarg) : bool :=
  match get_nearest_symbol_table t p with
  | None => true
  | Some q => match lookup_direct t q (sym_root sym) with
              | None => true
              | Some c => ref_guardb t c (sym_nested sym)
              end
  end.

Lemma ref_guardb_sound : forall t ms c, ref_guardb t c ms = true -> ref_guard t c ms.
Proof.
  intros t ms. induction ms as [|m ms IH]; intros c H; [apply G_nil|].
  cbn [ref_guardb] in H. apply andb_true_iff in H. destruct H as [Et H].
  apply is_table_at_iff in Et. destruct Et as [o [Hg Ht]].
  apply (G_cons t c o m ms Hg Ht). intros i c' Hf Hg'.
  assert (El : lookup_direct t c m = Some (c ++ [i])).
  { apply lookup_direct_some. exists o, i. repeat split; try assumption; apply Hf. }
  rewrite El in H. apply andb_true_iff in H. destruct H as [Hp Hrest].
  apply negb_true_iff in Hp. apply (is_private_at_false t _ _ Hg') in Hp.
  split; [exact Hp | apply IH; exact Hrest].
Qed.

Lemma traits_guardb_sound : forall t p o0 sym, get t p = Some o0 ->
  traits_guardb t p sym = true -> traits_guard t p sym.
Proof.
  intros t p o0 sym Hp0 H q o i Hn Hg Hf. unfold traits_guardb in H.
  apply (get_nearest_spec t p o0 q Hp0) in Hn. rewrite Hn in H.
  assert (El : lookup_direct t q (sym_root sym) = Some (q ++ [i])).
  { apply lookup_direct_some. exists o, i. repeat split; try assumption; apply Hf. }
  rewrite El in H. apply ref_guardb_sound. exact H.
Qed.

(* non-vacuity: @0::@1::@2 looked up from the root module of wit_ok satisfies the guard and resolves *)
Lemma guard_satisfiable :
  traits_guard wit_ok [] (SRef 0 [1; 2]) /\
  traits_lookup_symbol wit_ok [] (SRef 0 [1; 2]) = Val (Some [0; 0; 0]) /\
  lookup_nearest_symbol_from wit_ok [] (SRef 0 [1; 2]) = Val (Some [0; 0; 0]).
Proof.
  split; [apply (traits_guardb_sound _ _ wit_ok); vm_compute; reflexivity|].
  split; vm_compute; reflexivity.
Qed.
