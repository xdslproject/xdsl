(* C20/ProofsTables.v -- what the dictionaries built before the main loops contain
   (output_index, src_type_by_src, and the four tables of the first loop). *)
From Coq Require Import ZArith List Bool Lia ZifyBool.
From XV Require Import C20.Model C20.ProofsBase.
Import ListNotations.
Local Open Scope Z_scope.

Definition trivb (m : move) : bool := m_src m =? m_dst m.

Lemma output_index_notin ds : forall k f d, ~ In d ds -> output_index_from k ds f d = f d.
Proof.
  induction ds as [|x r IH]; intros k f d H; simpl; auto.
  rewrite IH by (intros K; apply H; now right).
  apply upd_other. intros E; apply H; now left.
Qed.
Lemma output_index_nth ds : forall k f j d, NoDup ds -> nth_error ds j = Some d ->
  output_index_from k ds f d = Some (k + j)%nat.
Proof.
  induction ds as [|x r IH]; intros k f j d ND H; [destruct j; discriminate|].
  inversion ND as [|? ? Hx ND']; subst. destruct j as [|j]; simpl in *.
  - inversion H; subst. rewrite output_index_notin by assumption. rewrite upd_same. f_equal; lia.
  - rewrite (IH _ _ j d ND' H). f_equal; lia.
Qed.
Lemma output_index_Some ms d i : NoDup (map m_dst ms) ->
  output_index ms d = Some i -> exists m, nth_error ms i = Some m /\ m_dst m = d.
Proof.
  intros ND H. unfold output_index in H.
  destruct (in_dec Z.eq_dec d (map m_dst ms)) as [I|I].
  - destruct (In_nth_error _ _ I) as [j Hj].
    rewrite (output_index_nth _ 0 _ j d ND Hj) in H. simpl in H.
    assert (j = i) by congruence. subst j. clear H.
    rewrite nth_error_map in Hj. destruct (nth_error ms i) as [m|]; [|discriminate].
    exists m. split; [reflexivity|]. simpl in Hj. congruence.
  - rewrite output_index_notin in H by assumption. discriminate.
Qed.
Lemma output_index_of ms i m : NoDup (map m_dst ms) -> nth_error ms i = Some m ->
  output_index ms (m_dst m) = Some i.
Proof.
  intros ND H. unfold output_index.
  rewrite (output_index_nth _ 0 _ i (m_dst m) ND); [reflexivity|].
  now rewrite nth_error_map, H.
Qed.

Lemma src_type_gen l : forall f v,
  (exists m', In m' l /\ m_val m' = v /\
     fold_left (fun f m => upd f (m_val m) (Some (m_w m))) l f v = Some (m_w m'))
  \/ ((forall m, In m l -> m_val m <> v) /\
      fold_left (fun f m => upd f (m_val m) (Some (m_w m))) l f v = f v).
Proof.
  induction l as [|x r IH]; intros f v; simpl.
  - right. split; [intros m []|reflexivity].
  - destruct (IH (upd f (m_val x) (Some (m_w x))) v) as [(m' & I & E & H)|(N & H)].
    + left. exists m'. auto.
    + destruct (Z.eq_dec (m_val x) v) as [E|E].
      * left. exists x. split; [now left|]. split; [assumption|]. rewrite H. subst v. apply upd_same.
      * right. split.
        -- intros m [<-|I]; auto.
        -- rewrite H. apply upd_other. congruence.
Qed.
Lemma src_type_In ms m : In m ms ->
  exists m', In m' ms /\ m_val m' = m_val m /\ src_type_by_src ms (m_val m) = Some (m_w m').
Proof.
  intros I. unfold src_type_by_src.
  destruct (src_type_gen ms (fun _ => None) (m_val m)) as [(m' & I' & E & H)|(N & _)]; eauto.
  exfalso. exact (N m I eq_refl).
Qed.

Definition loop1_from (k : nat) (l : list move) (t0 : tables) : tables :=
  fold_left loop1_step (combine (seq k (length l)) l) t0.

Lemma leaves_gen l : forall k t0 r,
  leaves (loop1_from k l t0) r = leaves t0 r && negb (existsb (Z.eqb r) (map m_src l)).
Proof.
  unfold loop1_from.
  induction l as [|x l IH]; intros k t0 r; simpl.
  - now rewrite andb_true_r.
  - rewrite IH. unfold loop1_step.
    destruct (m_src x =? m_dst x); simpl; unfold upd; destruct (r =? m_src x); simpl;
      rewrite ?andb_false_r, ?andb_true_r; reflexivity.
Qed.

Lemma children_gen l : forall k t0 v,
  children0 (loop1_from k l t0) v =
  children0 t0 v + Z.of_nat (length (filter (fun m => negb (trivb m) && (m_val m =? v)) l)).
Proof.
  unfold loop1_from.
  induction l as [|x l IH]; intros k t0 v; simpl.
  - lia.
  - rewrite IH. unfold loop1_step, trivb.
    destruct (m_src x =? m_dst x); simpl; [lia|].
    unfold upd. rewrite (Z.eqb_sym (m_val x) v). destruct (v =? m_val x) eqn:E; simpl; [|lia].
    apply Z.eqb_eq in E. subst v. lia.
Qed.

(* the result slot a move starts with: a trivial move is its own result *)
Definition slot0 (m : move) : option value := if trivb m then Some (m_value m) else None.

Lemma results0_gen l : forall pre post t0,
  results0 t0 = pre ++ repeat None (length l) ++ post ->
  results0 (loop1_from (length pre) l t0) = pre ++ map slot0 l ++ post.
Proof.
  unfold loop1_from. induction l as [|x l IH]; intros pre post t0 H; [exact H|].
  cbn [fold_left combine seq length map repeat app] in *.
  specialize (IH (pre ++ [slot0 x]) post (loop1_step t0 (length pre, x))).
  rewrite app_length, Nat.add_1_r, <- !app_assoc in IH. apply IH.
  unfold loop1_step, slot0, trivb. destruct (m_src x =? m_dst x); cbn [results0]; rewrite H.
  - apply lset_app.
  - reflexivity.
Qed.

(* src_by_dst does not depend on the positions: a fold over the moves, the last write winning *)
Definition sbd_step (f : Z -> option value) (m : move) : Z -> option value :=
  if trivb m then f else upd f (m_dst m) (Some (m_value m)).
Lemma src_by_dst_fold l : forall k t0,
  src_by_dst (loop1_from k l t0) = fold_left sbd_step l (src_by_dst t0).
Proof.
  unfold loop1_from. induction l as [|x l IH]; intros k t0; simpl; [reflexivity|].
  rewrite IH. unfold loop1_step, sbd_step, trivb. now destruct (m_src x =? m_dst x).
Qed.

Lemma src_by_dst_gen l : forall f0 d v,
  NoDup (map m_dst l) -> (forall r, f0 r = None) ->
  (fold_left sbd_step l f0 d = Some v <->
   exists m, In m l /\ trivb m = false /\ m_dst m = d /\ v = m_value m).
Proof.
  induction l as [|x l IH] using rev_ind; intros f0 d v ND H0.
  - simpl. rewrite H0. split; [discriminate|]. intros (m & [] & _).
  - rewrite fold_left_app. cbn [fold_left].
    rewrite map_app in ND. apply NoDup_remove_1 in ND as ND'. simpl in ND'. rewrite app_nil_r in ND'.
    assert (Hx : ~ In (m_dst x) (map m_dst l)).
    { simpl in ND. apply NoDup_remove_2 in ND. now rewrite app_nil_r in ND. }
    specialize (IH f0 d v ND' H0).
    unfold sbd_step at 1. destruct (trivb x) eqn:T.
    + rewrite IH. split; intros (m & I & K).
      * exists m. split; [apply in_or_app; now left|assumption].
      * apply in_app_or in I as [I|[<-|[]]]; [eauto|]. destruct K as [K _]. congruence.
    + unfold upd. destruct (Z.eqb_spec d (m_dst x)) as [E|E].
      * split.
        -- intros K. inversion K; subst. exists x. split; [apply in_or_app; right; now left|]. auto.
        -- intros (m & I & _ & Dm & ->). apply in_app_or in I as [I|[<-|[]]]; [|reflexivity].
           exfalso. apply Hx. rewrite <- E, <- Dm. now apply in_map.
      * rewrite IH. split; intros (m & I & K).
        -- exists m. split; [apply in_or_app; now left|assumption].
        -- apply in_app_or in I as [I|[<-|[]]]; [eauto|]. destruct K as (_ & K & _). congruence.
Qed.

Definition init_tables (ms : list move) : tables :=
  mkT (fun r => existsb (Z.eqb r) (map m_dst ms)) (repeat None (length ms)) (fun _ => None) (fun _ => 0).
Lemma loop1_eq ms : loop1 ms = loop1_from 0 ms (init_tables ms).
Proof. reflexivity. Qed.

Section Tables.
  Variable ms : list move.
  Hypothesis ND : NoDup (map m_dst ms).

  Lemma P_spec d v : src_by_dst (loop1 ms) d = Some v <->
    exists m, In m ms /\ trivb m = false /\ m_dst m = d /\ v = m_value m.
  Proof. rewrite loop1_eq, src_by_dst_fold. now apply src_by_dst_gen. Qed.

  Lemma leaves_spec r : leaves (loop1 ms) r = true <-> In r (map m_dst ms) /\ ~ In r (map m_src ms).
  Proof.
    rewrite loop1_eq, leaves_gen. simpl.
    rewrite andb_true_iff, negb_true_iff, <- not_true_iff_false, !existsb_exists.
    split; intros [A B]; split.
    - destruct A as (x & I & E). apply Z.eqb_eq in E. now subst.
    - intros I. apply B. exists r. split; [assumption|apply Z.eqb_refl].
    - exists r. split; [assumption|apply Z.eqb_refl].
    - intros (x & I & E). apply Z.eqb_eq in E. now subst.
  Qed.

  Lemma children0_spec v : children0 (loop1 ms) v =
    Z.of_nat (length (filter (fun m => negb (trivb m) && (m_val m =? v)) ms)).
  Proof. rewrite loop1_eq, children_gen. reflexivity. Qed.

  Lemma results0_map : results0 (loop1 ms) = map slot0 ms.
  Proof.
    rewrite loop1_eq, <- (app_nil_r (map slot0 ms)). apply (results0_gen ms [] []).
    simpl. now rewrite app_nil_r.
  Qed.
  Lemma results0_length : length (results0 (loop1 ms)) = length ms.
  Proof. now rewrite results0_map, map_length. Qed.
  Lemma results0_spec i m : nth_error ms i = Some m ->
    nth_error (results0 (loop1 ms)) i = Some (if trivb m then Some (m_value m) else None).
  Proof. intros H. now rewrite results0_map, nth_error_map, H. Qed.
End Tables.
