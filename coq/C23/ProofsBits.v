(* C23/ProofsBits.v -- the LLVM-IR (bit-pattern) semantics sem_i of C23/Sem.v equals the LLVM-dialect
   (value) semantics sem_d for every width w >= 1 and all operand patterns 0 <= a, b < 2^w, for every flag
   combination, including where the result is poison / undefined (None on both sides).

   Every operation has the shape `if ub then None else if flag && negb ok then None else Some r` on both sides, so
   each theorem is one boolean equation per check and one equation for the result; no flag is ever inspected. *)
From Coq Require Import ZArith Bool List String Lia.
From XV Require Import C15.Spec C23.Sem.
Local Open Scope Z_scope.

Lemma pow2_pos w : 0 <= w -> 0 < 2 ^ w.
Proof. intros; apply Z.pow_pos_nonneg; lia. Qed.
Lemma pow2_split a b : 0 <= a -> 0 <= b -> 2 ^ (a + b) = 2 ^ a * 2 ^ b.
Proof. intros; apply Z.pow_add_r; lia. Qed.

Lemma mod_plus1 M x : 0 < M -> M <= x < 2 * M -> x mod M = x - M.
Proof. intros; symmetry; apply (Z.mod_unique x M 1 (x - M)); lia. Qed.
Lemma mod_minus1 M x : 0 < M -> - M <= x < 0 -> x mod M = x + M.
Proof. intros; symmetry; apply (Z.mod_unique x M (-1) (x + M)); lia. Qed.
Lemma mod_case M x : 0 < M -> 0 <= x < 2 * M -> x mod M = if M <=? x then x - M else x.
Proof. intros; destruct (Z.leb_spec M x); [apply mod_plus1 | apply Z.mod_small]; lia. Qed.
Lemma mod_sub M a b : 0 <= a < M -> 0 <= b < M -> (a - b) mod M = if a <? b then a - b + M else a - b.
Proof. intros; destruct (Z.ltb_spec a b); [apply mod_minus1 | apply Z.mod_small]; lia. Qed.
Lemma mod_inj N x y : 0 < N -> x mod N = y mod N -> - N < x - y < N -> x = y.
Proof.
  intros HN E B.
  assert (D : (x - y) mod N = 0).
  { rewrite Zminus_mod, E, Z.sub_diag. apply Z.mod_0_l; lia. }
  apply Z.mod_divide in D; [|lia]. destruct D as [k D].
  assert (k = 0) by nia. subst k; lia.
Qed.

Lemma eqb_iff x y u v : (x = y <-> u = v) -> (x =? y) = (u =? v).
Proof. intros I. destruct (Z.eqb_spec x y), (Z.eqb_spec u v); try reflexivity; exfalso; tauto. Qed.
Lemma eqb_mod N x y : 0 < N -> - N < x - y < N -> (x mod N =? y mod N) = (x =? y).
Proof. intros HN B. apply eqb_iff. split; [intros E; apply (mod_inj N); assumption | intros ->; reflexivity]. Qed.
Lemma sign_eqb0 (s : bool) m : ((if s then - m else m) =? 0) = (m =? 0).
Proof. destruct s, m; reflexivity. Qed.
Lemma ltb_add_r x y h : (x + h <? y + h) = (x <? y).
Proof. destruct (Z.ltb_spec (x + h) (y + h)), (Z.ltb_spec x y); try reflexivity; lia. Qed.
Lemma leb_add_r x y h : (x + h <=? y + h) = (x <=? y).
Proof. destruct (Z.leb_spec (x + h) (y + h)), (Z.leb_spec x y); try reflexivity; lia. Qed.

Lemma div_range x y : 0 <= x -> 0 < y -> 0 <= x / y <= x.
Proof. intros Hx Hy. split; [apply Z.div_pos; lia | apply Z.div_le_upper_bound; nia]. Qed.
Lemma div_exact x y : 0 < y -> (x / y * y =? x) = (x mod y =? 0).
Proof. intros Hy. apply eqb_iff. rewrite (Z.mod_eq x y) by lia. lia. Qed.
(* the quotient by K is the first or the last of n iff a lies in the first or the last block of K *)
Lemma div_ends K n a : 0 < K -> 0 <= a < n * K ->
  ((a / K =? 0) || (a / K =? n - 1)) = ((a <? K) || ((n - 1) * K <=? a)).
Proof.
  intros HK Ha. pose proof (Z.div_mod a K ltac:(lia)). pose proof (Z.mod_pos_bound a K HK).
  destruct (Z.eqb_spec (a / K) 0), (Z.eqb_spec (a / K) (n - 1)), (Z.ltb_spec a K), (Z.leb_spec ((n - 1) * K) a);
    try reflexivity; nia.
Qed.
Lemma fits_u_div w x : 0 <= w -> 0 <= x -> fits_u w x = (x / 2 ^ w =? 0).
Proof.
  intros Hw Hx. pose proof (pow2_pos w Hw). unfold fits_u. destruct (Z.leb_spec 0 x); [|lia].
  destruct (Z.ltb_spec x (2 ^ w)), (Z.eqb_spec (x / 2 ^ w) 0) as [E|E]; try reflexivity.
  - rewrite Z.div_small in E by lia. contradiction.
  - apply Z.div_small_iff in E; lia.
Qed.

Lemma quot_mag x y : y <> 0 ->
  Z.quot x y = (if xorb (x <? 0) (y <? 0) then - (Z.abs x / Z.abs y) else Z.abs x / Z.abs y).
Proof.
  intros Hy. rewrite (Z.quot_div x y Hy).
  destruct x, y; cbn [Z.sgn Z.ltb Z.compare xorb Z.abs]; try reflexivity; lia.
Qed.
Lemma rem_mag x y : y <> 0 ->
  Z.rem x y = (if x <? 0 then - (Z.abs x mod Z.abs y) else Z.abs x mod Z.abs y).
Proof.
  intros Hy. rewrite (Z.rem_mod x y Hy). destruct x; cbn [Z.sgn Z.ltb Z.compare Z.abs]; try reflexivity; lia.
Qed.
Lemma div_floor_neg x m : 0 < m -> x / m = -1 - (-1 - x) / m.
Proof.
  intros Hm. pose proof (Z.div_mod (-1 - x) m ltac:(lia)) as E.
  pose proof (Z.mod_pos_bound (-1 - x) m Hm) as B.
  symmetry. apply (Z.div_unique x m _ (m - 1 - (-1 - x) mod m)); [lia|]. nia.
Qed.

Section Width.
  Variable w : Z.
  Hypothesis Hw : 1 <= w.
  Let H := 2 ^ (w - 1).
  Lemma half_pos : 0 < H.
  Proof. apply pow2_pos; lia. Qed.
  Lemma pow2_double : 2 ^ w = 2 * H.
  Proof. replace w with (1 + (w - 1)) at 1 by lia. apply pow2_split; lia. Qed.

  Lemma sgn_spec a : 0 <= a < 2 ^ w ->
    (a < H /\ msb w a = false /\ sgn w a = a) \/ (H <= a /\ msb w a = true /\ sgn w a = a - 2 ^ w).
  Proof.
    intros Ha. unfold msb, sgn. fold H. destruct (Z.leb_spec H a), (Z.ltb_spec a H); lia.
  Qed.
  Lemma sgn_range a : 0 <= a < 2 ^ w -> - H <= sgn w a < H.
  Proof. intros Ha. pose proof pow2_double. destruct (sgn_spec a Ha) as [(? & _ & ->) | (? & _ & ->)]; lia. Qed.
  Lemma msb_neg a : 0 <= a < 2 ^ w -> msb w a = (sgn w a <? 0).
  Proof.
    intros Ha. destruct (sgn_spec a Ha) as [(? & -> & ->) | (? & -> & ->)]; symmetry;
      [apply Z.ltb_ge | apply Z.ltb_lt]; lia.
  Qed.
  Lemma sgn_zero a : 0 <= a < 2 ^ w -> (sgn w a = 0 <-> a = 0).
  Proof. intros Ha. pose proof half_pos. pose proof pow2_double. destruct (sgn_spec a Ha) as [(? & _ & ->) | (? & _ & ->)]; lia. Qed.
  Lemma sgn_min a : 0 <= a < 2 ^ w -> (sgn w a = - H <-> a = H).
  Proof. intros Ha. pose proof half_pos. pose proof pow2_double. destruct (sgn_spec a Ha) as [(? & _ & ->) | (? & _ & ->)]; lia. Qed.
  Lemma sgn_m1 a : 0 <= a < 2 ^ w -> (sgn w a = -1 <-> a = 2 ^ w - 1).
  Proof. intros Ha. pose proof half_pos. pose proof pow2_double. destruct (sgn_spec a Ha) as [(? & _ & ->) | (? & _ & ->)]; lia. Qed.

  Lemma wrap_sgn v a : 0 <= v <= w -> sgn w a mod 2 ^ v = a mod 2 ^ v.
  Proof.
    intros Hv. unfold sgn. destruct (a <? 2 ^ (w - 1)); [reflexivity|].
    replace w with ((w - v) + v) at 1 by lia. rewrite pow2_split by lia.
    replace (a - 2 ^ (w - v) * 2 ^ v) with (a + (- 2 ^ (w - v)) * 2 ^ v) by lia.
    apply Z.mod_add. pose proof (pow2_pos v); lia.
  Qed.
  Lemma wrap_range x : 0 <= wrap w x < 2 ^ w.
  Proof. apply Z.mod_pos_bound, pow2_pos; lia. Qed.
  Lemma sgn_wrap x : - H <= x < H -> sgn w (wrap w x) = x.
  Proof.
    intros Hx. pose proof half_pos. pose proof pow2_double.
    destruct (sgn_spec _ (wrap_range x)) as [(L & _ & ->) | (L & _ & ->)]; unfold wrap in *;
      destruct (Z.ltb_spec x 0); rewrite ?mod_minus1, ?Z.mod_small in * by lia; lia.
  Qed.
  Lemma fits_sP x : reflect (- H <= x < H) (fits_s w x).
  Proof.
    apply iff_reflect. unfold fits_s. fold H. rewrite andb_true_iff, Z.leb_le, Z.ltb_lt. reflexivity.
  Qed.
  Lemma fits_s_wrap x : fits_s w x = (sgn w (wrap w x) =? x).
  Proof.
    destruct (fits_sP x) as [F|F]; symmetry.
    - apply Z.eqb_eq, sgn_wrap, F.
    - apply Z.eqb_neq. intros E. pose proof (sgn_range _ (wrap_range x)). lia.
  Qed.
  Lemma fits_u_wrap x : fits_u w x = (wrap w x =? x).
  Proof.
    pose proof (wrap_range x) as R. unfold fits_u, wrap in *.
    destruct (Z.leb_spec 0 x), (Z.ltb_spec x (2 ^ w)); symmetry;
      [apply Z.eqb_eq, Z.mod_small; lia | apply Z.eqb_neq; lia ..].
  Qed.

  Lemma sext_raw_eq w2 a : w <= w2 -> 0 <= a < 2 ^ w -> sext_raw w w2 a = wrap w2 (sgn w a).
  Proof.
    intros Hw2 Ha. assert (2 ^ w <= 2 ^ w2) by (apply Z.pow_le_mono_r; lia).
    unfold sext_raw, wrap. destruct (sgn_spec a Ha) as [(? & -> & ->) | (? & -> & ->)].
    - symmetry; apply Z.mod_small; lia.
    - rewrite mod_minus1 by lia. lia.
  Qed.

  Lemma wrap_cases v : - 2 ^ w <= v < 2 * 2 ^ w -> wrap w v = v \/ wrap w v = v + 2 ^ w \/ wrap w v = v - 2 ^ w.
  Proof.
    intros Hv. unfold wrap. destruct (Z.ltb_spec v 0); [rewrite mod_minus1 by lia; lia|].
    rewrite (mod_case (2 ^ w) v) by lia. destruct (2 ^ w <=? v); lia.
  Qed.
  (* signed overflow of a + b and of a - b read off the sign bits: the operands' signs allow it (equal for add,
     different for sub) and the result's sign differs from a's *)
  Lemma sovf (sub : bool) a b : 0 <= a < 2 ^ w -> 0 <= b < 2 ^ w ->
    (if sub then negb else fun c => c) (Bool.eqb (msb w a) (msb w b)) &&
    negb (Bool.eqb (msb w (wrap w (if sub then a - b else a + b))) (msb w a))
    = negb (fits_s w (if sub then sgn w a - sgn w b else sgn w a + sgn w b)).
  Proof.
    intros Ha Hb. pose proof pow2_double.
    pose proof (wrap_range (if sub then a - b else a + b)) as Hr.
    pose proof (wrap_cases (if sub then a - b else a + b) ltac:(destruct sub; lia)) as E.
    revert Hr E. generalize (wrap w (if sub then a - b else a + b)). intros r Hr E.
    destruct sub; cbv iota in E;
      destruct (sgn_spec a Ha) as [(? & -> & ->) | (? & -> & ->)], (sgn_spec b Hb) as [(? & -> & ->) | (? & -> & ->)],
        (sgn_spec r Hr) as [(? & -> & _) | (? & -> & _)];
      match goal with |- _ = negb (fits_s w ?x) => destruct (fits_sP x) end; try reflexivity; lia.
  Qed.

  Theorem add_eq f a b : 0 <= a < 2 ^ w -> 0 <= b < 2 ^ w -> sem_i Add f w a b = sem_d Add f w a b.
  Proof.
    intros Ha Hb. pose proof (pow2_pos w ltac:(lia)). pose proof (sovf false a b Ha Hb) as NS. cbv beta iota in NS.
    unfold sem_i, sem_d, spec_addi. cbv zeta. rewrite <- (mod_case (2 ^ w) (a + b)) by lia. fold (wrap w (a + b)).
    rewrite NS. unfold fits_u. destruct (Z.leb_spec 0 (a + b)); [|lia]. rewrite Z.leb_antisym. reflexivity.
  Qed.

  Theorem sub_eq f a b : 0 <= a < 2 ^ w -> 0 <= b < 2 ^ w -> sem_i Sub f w a b = sem_d Sub f w a b.
  Proof.
    intros Ha Hb. pose proof (sovf true a b Ha Hb) as NS. cbv beta iota in NS.
    unfold sem_i, sem_d, spec_subi. cbv zeta. rewrite <- (mod_sub (2 ^ w) a b) by lia. fold (wrap w (a - b)).
    assert (NU : (a <? b) = negb (fits_u w (a - b))).
    { unfold fits_u. destruct (Z.ltb_spec a b), (Z.leb_spec 0 (a - b)), (Z.ltb_spec (a - b) (2 ^ w));
        try reflexivity; lia. }
    rewrite NS, NU. reflexivity.
  Qed.

  Theorem udiv_eq f a b : 0 <= a < 2 ^ w -> 0 <= b < 2 ^ w -> sem_i UDiv f w a b = sem_d UDiv f w a b.
  Proof.
    intros Ha Hb. unfold sem_i, sem_d, spec_divui.
    destruct (Z.eqb_spec b 0); [reflexivity|]. cbv zeta. rewrite div_exact by lia. reflexivity.
  Qed.

  Theorem urem_eq f a b : 0 <= a < 2 ^ w -> 0 <= b < 2 ^ w -> sem_i URem f w a b = sem_d URem f w a b.
  Proof.
    intros Ha Hb. unfold sem_i, sem_d, spec_remui.
    destruct (Z.eqb_spec b 0); [reflexivity|].
    f_equal. rewrite Z.mod_eq by lia. lia.
  Qed.

  Theorem logic_eq op f a b : op = And \/ op = Or \/ op = Xor -> sem_i op f w a b = sem_d op f w a b.
  Proof. intros [E | [E | E]]; subst; reflexivity. Qed.

  Theorem lshr_eq f a b : 0 <= a < 2 ^ w -> 0 <= b < 2 ^ w -> sem_i LShr f w a b = sem_d LShr f w a b.
  Proof.
    intros Ha Hb. unfold sem_i, sem_d, spec_shrui.
    destruct (Z.leb_spec w b); [reflexivity|]. cbv zeta.
    rewrite Z.shiftr_div_pow2, Z.shiftl_mul_pow2, div_exact by (try apply pow2_pos; lia). reflexivity.
  Qed.

  Lemma mag_eq a : 0 <= a < 2 ^ w -> mag w a = Z.abs (sgn w a).
  Proof.
    intros Ha. pose proof pow2_double. unfold mag. destruct (sgn_spec a Ha) as [(? & -> & ->) | (? & -> & ->)]; lia.
  Qed.
  Lemma mag_range a : 0 <= a < 2 ^ w -> 0 <= mag w a <= H /\ (a <> 0 -> 0 < mag w a).
  Proof.
    intros Ha. pose proof pow2_double. unfold mag. destruct (sgn_spec a Ha) as [(? & -> & _) | (? & -> & _)]; lia.
  Qed.
  Lemma quot_sgn a b : 0 <= a < 2 ^ w -> 0 <= b < 2 ^ w -> b <> 0 ->
    Z.quot (sgn w a) (sgn w b) =
    if xorb (msb w a) (msb w b) then - (mag w a / mag w b) else mag w a / mag w b.
  Proof.
    intros Ha Hb Nb. rewrite quot_mag, <- !msb_neg, <- !mag_eq by (try rewrite sgn_zero; assumption). reflexivity.
  Qed.
  Lemma rem_sgn a b : 0 <= a < 2 ^ w -> 0 <= b < 2 ^ w -> b <> 0 ->
    Z.rem (sgn w a) (sgn w b) = if msb w a then - (mag w a mod mag w b) else mag w a mod mag w b.
  Proof.
    intros Ha Hb Nb. rewrite rem_mag, <- !msb_neg, <- !mag_eq by (try rewrite sgn_zero; assumption). reflexivity.
  Qed.
  Lemma wrap_sign (s : bool) q : 0 <= q < 2 ^ w -> wrap w (if s then - q else q) = if s then negw w q else q.
  Proof.
    intros Hq. unfold negw, wrap. destruct s; [|apply Z.mod_small; exact Hq].
    replace (2 ^ w - q) with (- q + 1 * 2 ^ w) by lia. symmetry; apply Z.mod_add; lia.
  Qed.

  Lemma sdiv_ub_eq a b : 0 <= a < 2 ^ w -> 0 <= b < 2 ^ w ->
    sdiv_ub w a b = ((b =? 0) || ((a =? H) && (b =? 2 ^ w - 1))).
  Proof.
    intros Ha Hb. unfold sdiv_ub. fold H.
    rewrite (eqb_iff _ _ _ _ (sgn_zero b Hb)), (eqb_iff _ _ _ _ (sgn_min a Ha)), (eqb_iff _ _ _ _ (sgn_m1 b Hb)).
    reflexivity.
  Qed.

  Theorem sdiv_eq f a b : 0 <= a < 2 ^ w -> 0 <= b < 2 ^ w -> sem_i SDiv f w a b = sem_d SDiv f w a b.
  Proof.
    intros Ha Hb. unfold sem_i, sem_d, spec_divsi. rewrite sdiv_ub_eq by assumption. fold H.
    destruct (Z.eqb_spec b 0) as [|Nb]; [reflexivity|]. cbn [orb].
    destruct ((a =? H) && (b =? 2 ^ w - 1)); [reflexivity|]. cbv zeta.
    pose proof (mag_range a Ha) as [Ma _]. pose proof (mag_range b Hb) as [Mb Pb]. specialize (Pb Nb).
    pose proof (div_range (mag w a) (mag w b) ltac:(lia) Pb). pose proof pow2_double.
    rewrite rem_sgn, quot_sgn, wrap_sign, sign_eqb0, div_exact by (assumption || lia). reflexivity.
  Qed.

  Theorem srem_eq f a b : 0 <= a < 2 ^ w -> 0 <= b < 2 ^ w -> sem_i SRem f w a b = sem_d SRem f w a b.
  Proof.
    intros Ha Hb. unfold sem_i, sem_d, spec_remsi. rewrite sdiv_ub_eq by assumption. fold H.
    destruct (Z.eqb_spec b 0) as [|Nb]; [reflexivity|]. cbn [orb].
    destruct ((a =? H) && (b =? 2 ^ w - 1)); [reflexivity|]. cbv zeta.
    pose proof (mag_range a Ha) as [Ma _]. pose proof (mag_range b Hb) as [Mb Pb]. specialize (Pb Nb).
    pose proof (Z.mod_pos_bound (mag w a) (mag w b) Pb). pose proof pow2_double.
    rewrite rem_sgn, wrap_sign by (assumption || lia). reflexivity.
  Qed.

  Theorem ashr_eq f a b : 0 <= a < 2 ^ w -> 0 <= b < 2 ^ w -> sem_i AShr f w a b = sem_d AShr f w a b.
  Proof.
    intros Ha Hb. pose proof half_pos. pose proof pow2_double.
    unfold sem_i, sem_d, spec_shrsi.
    destruct (Z.leb_spec w b); [reflexivity|].
    pose proof (pow2_pos b ltac:(lia)) as Pb.
    rewrite Z.land_ones, <- (wrap_sgn b a) by lia.
    match goal with |- (if ?c then _ else _) = _ => destruct c end; [reflexivity|].
    f_equal. unfold ashr_raw, bnot, wrap. rewrite !Z.shiftr_div_pow2 by lia.
    destruct (sgn_spec a Ha) as [(? & -> & ->) | (? & -> & ->)].
    - pose proof (div_range a (2 ^ b) ltac:(lia) Pb). symmetry; apply Z.mod_small; lia.
    - rewrite (div_floor_neg (a - 2 ^ w) (2 ^ b)) by lia.
      replace (-1 - (a - 2 ^ w)) with (2 ^ w - 1 - a) by lia.
      pose proof (div_range (2 ^ w - 1 - a) (2 ^ b) ltac:(lia) Pb).
      rewrite mod_minus1 by lia. lia.
  Qed.

  Theorem shl_eq f a b : 0 <= a < 2 ^ w -> 0 <= b < 2 ^ w -> sem_i Shl f w a b = sem_d Shl f w a b.
  Proof.
    intros Ha Hb. pose proof half_pos as HP. pose proof pow2_double as M.
    unfold sem_i, sem_d, spec_shli.
    destruct (Z.leb_spec w b) as [|Lb]; [reflexivity|]. cbv zeta.
    pose proof (pow2_pos b ltac:(lia)) as Pb.
    set (K := 2 ^ (w - 1 - b)).
    assert (PK : 0 < K) by (apply pow2_pos; lia).
    assert (HK : H = K * 2 ^ b).
    { unfold H, K. rewrite <- pow2_split by lia. f_equal; lia. }
    rewrite Z.shiftl_mul_pow2, Z.land_ones, !Z.shiftr_div_pow2, Z.ones_equiv by lia.
    fold (wrap w (a * 2 ^ b)). rewrite (pow2_split b 1) by lia. change (2 ^ 1) with 2. fold K. rewrite <- Z.sub_1_r.
    (* nuw: the truncated product is (a mod 2K) * 2^b *)
    assert (NU : (wrap w (a * 2 ^ b) / 2 ^ b =? a) = fits_u w (a * 2 ^ b)).
    { rewrite fits_u_wrap. unfold wrap. replace (2 ^ w) with (2 * K * 2 ^ b) by lia.
      rewrite Z.mul_mod_distr_r, Z.div_mul by lia. apply eqb_iff. symmetry; apply Z.mul_cancel_r; lia. }
    (* nsw: the value fits iff a < K or a >= 2H - K, i.e. iff the top b+1 bits are all 0 or all 1 *)
    assert (NS : ((a / K =? 0) || (a / K =? 2 ^ b * 2 - 1)) = fits_s w (sgn w a * 2 ^ b)).
    { rewrite (div_ends K (2 ^ b * 2)) by lia.
      destruct (fits_sP (sgn w a * 2 ^ b)) as [F|F]; revert F;
        destruct (sgn_spec a Ha) as [(? & _ & ->) | (? & _ & ->)]; intros F;
        destruct (Z.ltb_spec a K), (Z.leb_spec ((2 ^ b * 2 - 1) * K) a); try reflexivity; nia. }
    rewrite NU, NS. reflexivity.
  Qed.

  (* the signed check of mul compares 2w-bit patterns of values below 2^(2w-1) in size *)
  Theorem mul_eq f a b : 0 <= a < 2 ^ w -> 0 <= b < 2 ^ w -> sem_i Mul f w a b = sem_d Mul f w a b.
  Proof.
    intros Ha Hb. pose proof half_pos as HP. pose proof pow2_double as M.
    unfold sem_i, sem_d, spec_muli. cbv zeta. fold (wrap w (a * b)).
    assert (M2 : 2 ^ (2 * w) = 2 ^ w * 2 ^ w).
    { replace (2 * w) with (w + w) by lia. apply pow2_split; lia. }
    assert (Cg : wrap w (sgn w a * sgn w b) = wrap w (a * b)).
    { unfold wrap. rewrite Zmult_mod, !wrap_sgn, <- Zmult_mod by lia. reflexivity. }
    assert (NS : ((sext_raw w (2 * w) a * sext_raw w (2 * w) b) mod 2 ^ (2 * w)
                  =? sext_raw w (2 * w) (wrap w (a * b))) = fits_s w (sgn w a * sgn w b)).
    { pose proof (sgn_range a Ha). pose proof (sgn_range b Hb). pose proof (sgn_range _ (wrap_range (a * b))).
      rewrite !sext_raw_eq by (try apply wrap_range; lia). unfold wrap at 1 2 3.
      rewrite <- Z.mul_mod, eqb_mod by nia.
      rewrite fits_s_wrap, Cg. apply Z.eqb_sym. }
    rewrite NS, <- fits_u_div by nia. reflexivity.
  Qed.

  Theorem sem_eq op f a b : 0 <= a < 2 ^ w -> 0 <= b < 2 ^ w -> sem_i op f w a b = sem_d op f w a b.
  Proof.
    intros Ha Hb. destruct op.
    - apply add_eq; assumption. - apply sub_eq; assumption. - apply mul_eq; assumption.
    - apply udiv_eq; assumption. - apply sdiv_eq; assumption. - apply urem_eq; assumption.
    - apply srem_eq; assumption. - reflexivity. - reflexivity. - reflexivity.
    - apply shl_eq; assumption. - apply lshr_eq; assumption. - apply ashr_eq; assumption.
  Qed.

  Lemma bias_eq a : 0 <= a < 2 ^ w -> bias w a = sgn w a + H.
  Proof.
    intros Ha. pose proof pow2_double. unfold bias. fold H. rewrite (mod_case (2 ^ w) (a + H)) by lia.
    destruct (sgn_spec a Ha) as [(? & _ & ->) | (? & _ & ->)], (Z.leb_spec (2 ^ w) (a + H)); lia.
  Qed.

  (* the mnemonic of each MLIR predicate number *)
  Definition icmp_mnemonic (pred : Z) : option string :=
    match pred with
    | 0 => Some "eq" | 1 => Some "ne" | 2 => Some "slt" | 3 => Some "sle" | 4 => Some "sgt" | 5 => Some "sge"
    | 6 => Some "ult" | 7 => Some "ule" | 8 => Some "ugt" | 9 => Some "uge" | _ => None
    end%string.

  Theorem icmp_eq pred mn a b : 0 <= a < 2 ^ w -> 0 <= b < 2 ^ w -> icmp_mnemonic pred = Some mn ->
    sem_i_icmp mn w a b = sem_d_icmp pred w a b.
  Proof.
    intros Ha Hb E. unfold sem_d_icmp, spec_cmpi, icmp_mnemonic in *.
    repeat (match type of E with
            | match ?p with _ => _ end = _ => destruct p; try discriminate
            end);
      injection E as <-; unfold sem_i_icmp; cbn [String.eqb Ascii.eqb Bool.eqb];
      rewrite ?(bias_eq a Ha), ?(bias_eq b Hb), ?ltb_add_r, ?leb_add_r; reflexivity.
  Qed.
End Width.

Theorem zext_eq f w w2 a : 1 <= w -> 0 <= a < 2 ^ w -> sem_i_cast ZExt f w w2 a = sem_d_cast ZExt f w w2 a.
Proof. intros Hw Ha. unfold sem_i_cast, sem_d_cast, spec_zext. rewrite (msb_neg w a Ha). reflexivity. Qed.

Theorem sext_eq f w w2 a : 1 <= w -> w < w2 -> 0 <= a < 2 ^ w -> sem_i_cast SExt f w w2 a = sem_d_cast SExt f w w2 a.
Proof.
  intros Hw Hw2 Ha. unfold sem_i_cast, sem_d_cast, spec_sext. rewrite sext_raw_eq by (assumption || lia). reflexivity.
Qed.

Theorem trunc_eq f w w2 a : 1 <= w2 -> w2 < w -> 0 <= a < 2 ^ w ->
  sem_i_cast Trunc f w w2 a = sem_d_cast Trunc f w w2 a.
Proof.
  intros Hw2 Hw Ha. unfold sem_i_cast, sem_d_cast, spec_trunc. cbv zeta.
  rewrite Z.land_ones, Z.shiftr_div_pow2, <- fits_u_div by lia. fold (wrap w2 a).
  (* nsw: both sides compare the signed values of a at the two widths *)
  assert (NS : (sext_raw w2 w (wrap w2 a) =? a) = fits_s w2 (sgn w a)).
  { assert (Hw1 : 1 <= w) by lia.
    pose proof (sgn_range w2 Hw2 _ (wrap_range w2 Hw2 a)). pose proof (sgn_range w Hw1 a Ha).
    assert (2 * 2 ^ (w2 - 1) <= 2 ^ (w - 1)).
    { rewrite <- (pow2_double w2 Hw2). apply Z.pow_le_mono_r; lia. }
    pose proof (pow2_double w Hw1) as M. cbv zeta in M.
    rewrite sext_raw_eq by (try apply wrap_range; lia). unfold wrap at 1.
    rewrite <- (Z.mod_small a (2 ^ w)) at 2 by lia. rewrite <- (wrap_sgn w w a) by lia.
    rewrite eqb_mod by lia.
    rewrite fits_s_wrap by exact Hw2. unfold wrap. rewrite wrap_sgn by lia. reflexivity. }
  rewrite NS. reflexivity.
Qed.
