(* C01/ProofsOpLists.v -- WF is preserved by the op-list mutators Block.add_ops,
   Block.insert_ops_before, Block.insert_ops_after and Rewriter.insert_op, as folds of the
   single insertions of ProofsOps.v.

   Liveness (the ghost erased marks) is carried along the folds by the frame relation
   `same_live`: no object that is live before a step is erased or removed by the step. *)
From Coq Require Import ZArith List Bool PArith FMapPositive Lia.
From XV Require Import C01.Model C01.Spec C01.ProofsBase C01.ProofsFrame C01.ProofsUses C01.ProofsOperands
  C01.ProofsDll C01.ProofsOps C01.ProofsBlocks.
Import ListNotations.

Definition same_live (s s' : state) : Prop :=
  (forall o, op_live s o -> op_live s' o) /\
  (forall b, blk_live s b -> blk_live s' b) /\
  (forall r, reg_live s r -> reg_live s' r).

Lemma fr_live : frame_rel same_live.
Proof.
  split.
  - intro s. split; [|split]; intros; assumption.
  - intros s1 s2 s3 (A1 & A2 & A3) (B1 & B2 & B3). split; [|split]; intros; auto.
Qed.

Lemma updO_same_live : forall o f, (forall x, o_erased (f x) = o_erased x) -> preserves same_live (updO o f).
Proof.
  intros o f E s s' r H. unfold updO in H. destruct (PM.find o (s_ops s)) as [x|] eqn:F.
  - inversion H; subst; clear H. split; [|split]; [|intros b Hb; exact Hb|intros q Hq; exact Hq].
    intros o' (y & Fy & Ey). unfold op_live. simpl. rewrite find_add.
    destruct (Pos.eqb_spec o' o) as [->|N].
    + rewrite F in Fy. injection Fy as <-. exists (f x). split; [reflexivity|]. rewrite E. exact Ey.
    + exists y. auto.
  - inversion H; subst. apply fr_live.
Qed.
Lemma updB_same_live : forall b f, (forall x, b_erased (f x) = b_erased x) -> preserves same_live (updB b f).
Proof.
  intros b f E s s' r H. unfold updB in H. destruct (PM.find b (s_blocks s)) as [x|] eqn:F.
  - inversion H; subst; clear H. split; [|split]; [intros o Ho; exact Ho| |intros q Hq; exact Hq].
    intros b' (y & Fy & Ey). unfold blk_live. simpl. rewrite find_add.
    destruct (Pos.eqb_spec b' b) as [->|N].
    + rewrite F in Fy. injection Fy as <-. exists (f x). split; [reflexivity|]. rewrite E. exact Ey.
    + exists y. auto.
  - inversion H; subst. apply fr_live.
Qed.
Lemma updR_same_live : forall q f, (forall x, r_erased (f x) = r_erased x) -> preserves same_live (updR q f).
Proof.
  intros q f E s s' r H. unfold updR in H. destruct (PM.find q (s_regions s)) as [x|] eqn:F.
  - inversion H; subst; clear H. split; [|split]; [intros o Ho; exact Ho|intros b Hb; exact Hb|].
    intros q' (y & Fy & Ey). unfold reg_live. simpl. rewrite find_add.
    destruct (Pos.eqb_spec q' q) as [->|N].
    + rewrite F in Fy. injection Fy as <-. exists (f x). split; [reflexivity|]. rewrite E. exact Ey.
    + exists y. auto.
  - inversion H; subst. apply fr_live.
Qed.
Lemma updV_same_live : forall v f, preserves same_live (updV v f).
Proof.
  intros v f s s' r H. unfold updV in H. destruct (PM.find v (s_values s)); inversion H; subst; [|apply fr_live].
  split; [|split]; intros ? Q; exact Q.
Qed.
Lemma updU_same_live : forall u f, preserves same_live (updU u f).
Proof.
  intros u f s s' r H. unfold updU in H. destruct (PM.find u (s_uses s)); inversion H; subst; [|apply fr_live].
  split; [|split]; intros ? Q; exact Q.
Qed.

#[export] Hint Resolve fr_live updV_same_live updU_same_live : pres.
#[export] Hint Extern 1 (preserves same_live (updO _ _)) => apply updO_same_live; intros ?; reflexivity : pres.
#[export] Hint Extern 1 (preserves same_live (updB _ _)) => apply updB_same_live; intros ?; reflexivity : pres.
#[export] Hint Extern 1 (preserves same_live (updR _ _)) => apply updR_same_live; intros ?; reflexivity : pres.

Lemma k1_live : keeps_T1_writes same_live.
Proof. split; [apply fr_live|..]; intros; pres fr_live. Qed.

Lemma insert_op_after_live : forall b n e, preserves same_live (insert_op_after b n e).
Proof. exact (insert_op_after_pres _ k1_live). Qed.
Lemma insert_op_before_live : forall b n e, preserves same_live (insert_op_before b n e).
Proof. exact (insert_op_before_pres _ k1_live). Qed.
Lemma add_op_live : forall b o, preserves same_live (add_op b o).
Proof. exact (add_op_pres _ k1_live). Qed.
#[export] Hint Resolve insert_op_after_live insert_op_before_live add_op_live : pres.

Theorem add_ops_WF : forall ops s s' b r,
  WF s -> blk_live s b -> (forall o, In o ops -> op_live s o) ->
  add_ops b ops s = (s', Ok r) -> WF s'.
Proof.
  unfold add_ops. induction ops as [|o rest IH]; intros s s' b r W BL OL H; simpl in H.
  - apply ret_ok in H as [-> _]. exact W.
  - apply bind_ok in H as (s1 & u & H1 & H2).
    destruct (add_op_live b o s s1 _ H1) as (LO & LB & _).
    eapply (IH s1 s' b r); [| | |exact H2].
    + eapply add_op_WF; [exact W|exact BL| |exact H1]. apply OL. left. reflexivity.
    + apply LB. exact BL.
    + intros o' I. apply LO. apply OL. right. exact I.
Qed.

Theorem insert_ops_before_WF : forall ops s s' b ex r,
  WF s -> blk_live s b -> op_live s ex ->
  insert_ops_before b ops ex s = (s', Ok r) -> WF s'.
Proof.
  unfold insert_ops_before. induction ops as [|o rest IH]; intros s s' b ex r W BL EL H; simpl in H.
  - apply ret_ok in H as [-> _]. exact W.
  - apply bind_ok in H as (s1 & u & H1 & H2).
    destruct (insert_op_before_live b o ex s s1 _ H1) as (LO & LB & _).
    eapply (IH s1 s' b ex r); [| | |exact H2].
    + eapply insert_op_before_WF; [exact W|exact BL|exact EL|exact H1].
    + apply LB. exact BL.
    + apply LO. exact EL.
Qed.

Theorem insert_ops_after_WF : forall ops s s' b ex r,
  WF s -> blk_live s b -> op_live s ex -> (forall o, In o ops -> op_live s o) ->
  insert_ops_after b ops ex s = (s', Ok r) -> WF s'.
Proof.
  induction ops as [|o rest IH]; intros s s' b ex r W BL EL OL H; simpl in H.
  - apply ret_ok in H as [-> _]. exact W.
  - apply bind_ok in H as (s1 & u & H1 & H2).
    destruct (insert_op_after_live b o ex s s1 _ H1) as (LO & LB & _).
    eapply (IH s1 s' b o r); [| | | |exact H2].
    + eapply insert_op_after_WF; [exact W|exact BL|exact EL|exact H1].
    + apply LB. exact BL.
    + apply LO. apply OL. left. reflexivity.
    + intros o' I. apply LO. apply OL. right. exact I.
Qed.

Lemma check_insert_point_state : forall b ib s s' r, check_insert_point b ib s = (s', Ok r) -> s' = s.
Proof.
  intros b ib s s' r H. unfold check_insert_point in H. destruct ib as [o|].
  - apply bind_ok in H as (s1 & x & Hg & H). apply getO_ok in Hg as [-> _].
    destruct (negb (opt_eqb (o_parent x) (Some b))); [exfalso; eapply raise_ok; eauto|].
    apply ret_ok in H as [-> _]. reflexivity.
  - apply ret_ok in H as [-> _]. reflexivity.
Qed.

Theorem rw_insert_op_WF : forall ops s s' b ib r,
  WF s -> blk_live s b -> (forall o, In o ops -> op_live s o) ->
  (forall e, ib = Some e -> op_live s e) ->
  rw_insert_op ops b ib s = (s', Ok r) -> WF s'.
Proof.
  intros ops s s' b ib r W BL OL EL H. unfold rw_insert_op in H.
  apply bind_ok in H as (s0 & u & Hc & H). apply check_insert_point_state in Hc. subst s0.
  destruct ib as [e|].
  - eapply insert_ops_before_WF; [exact W|exact BL|apply EL; reflexivity|exact H].
  - eapply add_ops_WF; [exact W|exact BL|exact OL|exact H].
Qed.
