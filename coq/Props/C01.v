(* Props/C01.v -- property C01: IR edits keep the op/block/region tree and the use-def chains
   consistent.  ONLY theorem statements closed by `exact` (+ Print Assumptions).

   `WF` (C01/Spec.v) is the property's statement on the model heap.  `step`/`run` (C01/Model.v)
   are the modelled public API calls (55 constructors of `call`).

   PROVED (WF-preservation of a non-raising call, for every state and every argument; 46 of the 55
   constructors = `proved_call`, assembled in C01_step_preserves / C01_history):
     creation      Operation.create, Block(ops, arg_types), Region(blocks), Builder.create_block
     use lists     Operation.operands setter, Operation.successors setter, OpOperands.__setitem__,
                   OpSuccessors.__setitem__ (any index; code after fix f198beb), SSAValue.replace_all_uses_with,
                   replace_uses_with_if, SSAValue.erase, PatternRewriter.replace_all_uses_with / replace_uses_with_if
                   (IRWithUses.add_use / remove_use as pointer lemmas against the invariant Uabs)
     block args    Block.insert_arg, Block.erase_arg, PatternRewriter.insert_block_argument / erase_block_argument,
                   Rewriter.replace_value_with_new_type (PatternRewriter.replace_value_with_new_type)
     ops in blocks Block.insert_op_after, insert_op_before, add_op, add_ops, insert_ops_before, insert_ops_after,
                   detach_op, Operation.detach, Rewriter.insert_op (and PatternRewriter.insert)
     blocks in regions  Region.add_block, insert_block_before, insert_block_after, insert_block (lists of any
                   length), Rewriter.insert_block, Region.detach_block (block or index), Region.move_blocks,
                   move_blocks_before, Rewriter.inline_region, Rewriter.move_region_contents_to_new_regions
     regions in ops Operation.add_region, detach_region (region or index; code after fix 9351131)
     erase         Operation.erase, Block.erase_op, Rewriter.erase_op (PatternRewriter.erase): for an operation
                   without regions, and for an operation with an arbitrary nested tree of regions under the
                   hypothesis that every node of that tree (the nodes the erase marks) is live (`tree_live`;
                   for Block.erase_op / Rewriter.erase_op stated on the state after the detach)
     replace       Rewriter.replace_op, PatternRewriter.replace (replace_op / replace_matched_op) -- ONLY for a
                   replaced operation WITHOUT regions (hypothesis in args_live)
   Each constructor carries the liveness precondition `args_live` ("erased objects are not used again").
   The history theorem carries the invariant Inv = WF /\ parents_ok; parents_ok (parent pointers of live
   nodes are below the allocation counters) is an auxiliary fact needed by the creation calls.

   NOT PROVED (9 constructors; covered only by the lock-step correspondence with the real code +
   evaluation of the proved-sound checker wf_b on the model after every call of every generated history):
     Block.erase, Region.erase_block (block / index), Region.erase,
     public drop_all_references (op / block / region), Block.split_before, Rewriter.inline_block;
     also replace_op / PatternRewriter.replace of an operation WITH regions. *)
From Coq Require Import ZArith List Bool PArith FMapPositive.
From XV Require Import C01.Model C01.Spec C01.ProofsWfb C01.ProofsFrame C01.ProofsUses C01.ProofsOperands
  C01.ProofsRauw C01.ProofsSetOperands C01.ProofsSetSuccessors C01.ProofsDll C01.ProofsOps C01.ProofsBlocks
  C01.ProofsOpRegions C01.ProofsMove C01.ProofsOpLists C01.ProofsBlockLists C01.ProofsArgs C01.ProofsCreate C01.ProofsInv C01.ProofsErase C01.ProofsReplaceType C01.ProofsReplaceOp C01.ProofsHistory C01.ProofsDemo.
Import ListNotations.
Local Open Scope Z_scope.

(* the boolean checker evaluated by the harness on model states is sound for WF *)
Theorem C01_wf_b_sound : forall s, wf_b s = true -> WF s.
Proof. exact wf_b_sound. Qed.
Print Assumptions C01_wf_b_sound.

(* the empty heap is well formed *)
Theorem C01_wf_init : WF empty_state.
Proof. exact empty_WF. Qed.
Print Assumptions C01_wf_init.

(* IRWithUses.remove_use / add_use: pure pointer lemmas against the use-list invariant Uabs
   relative to an abstract slot relation S (ProofsUses.v) *)
Theorem C01_remove_use_preserves : forall s s' S h o i u r,
  Uabs s S -> S h o i u -> remove_use h u s = (s', Ok r) ->
  Uabs s' (minus_use S u) /\ s_ops s' = s_ops s /\ (forall x, use_info s' x = use_info s x).
Proof. exact remove_use_Uabs. Qed.
Print Assumptions C01_remove_use_preserves.

Theorem C01_add_use_preserves : forall s s' S h o i u r,
  Uabs s S -> (forall h' o' i', ~ S h' o' i' u) -> use_info s u = Some (o, i) ->
  add_use h u s = (s', Ok r) ->
  Uabs s' (plus_use S h o i u) /\ s_ops s' = s_ops s /\ (forall x, use_info s' x = use_info s x).
Proof. exact add_use_Uabs. Qed.
Print Assumptions C01_add_use_preserves.

(* the five use clauses of WF are exactly Uabs for the slots of the live ops *)
Theorem C01_use_clauses_iff : forall s,
  (WF_vuses s /\ WF_buses s /\ WF_operands s /\ WF_successors s /\ WF_disjoint s) <->
  (Uabs s (real_slot s) /\ lens_ok s).
Proof. exact use_clauses_iff. Qed.
Print Assumptions C01_use_clauses_iff.

(* WF-preservation mutator by mutator (the proved constructors without a theorem of their own below are
   covered by C01_step_preserves) *)
Theorem C01_operands_setitem_preserves : forall s s' o idx v r,
  WF s -> op_live s o -> operands_setitem o idx v s = (s', Ok r) -> WF s'.
Proof. exact operands_setitem_WF. Qed.
Print Assumptions C01_operands_setitem_preserves.

Theorem C01_set_operands_preserves : forall s s' o new r,
  WF s -> op_live s o -> set_operands o new s = (s', Ok r) -> WF s'.
Proof. exact set_operands_WF. Qed.
Print Assumptions C01_set_operands_preserves.

Theorem C01_successors_setitem_preserves : forall s s' o idx b r,
  WF s -> op_live s o -> successors_setitem o idx b s = (s', Ok r) -> WF s'.
Proof. exact successors_setitem_WF. Qed.
Print Assumptions C01_successors_setitem_preserves.

Theorem C01_replace_all_uses_with_preserves : forall s s' v w r,
  WF s -> replace_all_uses_with v w s = (s', Ok r) -> WF s'.
Proof. exact replace_all_uses_with_WF. Qed.
Print Assumptions C01_replace_all_uses_with_preserves.

Theorem C01_replace_uses_with_if_preserves : forall s s' v w sel r,
  WF s -> replace_uses_with_if v w sel s = (s', Ok r) -> WF s'.
Proof. exact replace_uses_with_if_WF. Qed.
Print Assumptions C01_replace_uses_with_if_preserves.

Theorem C01_value_erase_preserves : forall s s' v safe r,
  WF s -> value_erase v safe s = (s', Ok r) -> WF s'.
Proof. exact value_erase_WF. Qed.
Print Assumptions C01_value_erase_preserves.

Theorem C01_pr_replace_all_uses_with_preserves : forall s s' v w safe r,
  WF s -> pr_replace_all_uses_with v w safe s = (s', Ok r) -> WF s'.
Proof. exact pr_replace_all_uses_with_WF. Qed.
Print Assumptions C01_pr_replace_all_uses_with_preserves.

Theorem C01_insert_op_after_preserves : forall s s' b new ex r,
  WF s -> blk_live s b -> op_live s ex -> insert_op_after b new ex s = (s', Ok r) -> WF s'.
Proof. exact insert_op_after_WF. Qed.
Print Assumptions C01_insert_op_after_preserves.

Theorem C01_insert_op_before_preserves : forall s s' b new ex r,
  WF s -> blk_live s b -> op_live s ex -> insert_op_before b new ex s = (s', Ok r) -> WF s'.
Proof. exact insert_op_before_WF. Qed.
Print Assumptions C01_insert_op_before_preserves.

Theorem C01_add_op_preserves : forall s s' b o r,
  WF s -> blk_live s b -> op_live s o -> add_op b o s = (s', Ok r) -> WF s'.
Proof. exact add_op_WF. Qed.
Print Assumptions C01_add_op_preserves.

Theorem C01_detach_op_preserves : forall s s' b o r,
  WF s -> blk_live s b -> op_live s o -> detach_op b o s = (s', Ok r) -> WF s'.
Proof. exact detach_op_WF. Qed.
Print Assumptions C01_detach_op_preserves.

Theorem C01_detach_block_preserves : forall s s' r b res,
  WF s -> reg_live s r -> blk_live s b -> detach_block r b s = (s', Ok res) -> WF s'.
Proof. exact detach_block_WF. Qed.
Print Assumptions C01_detach_block_preserves.

Theorem C01_detach_block_idx_preserves : forall s s' r idx res,
  WF s -> reg_live s r -> detach_block_idx r idx s = (s', Ok res) -> WF s'.
Proof. exact detach_block_idx_WF. Qed.
Print Assumptions C01_detach_block_idx_preserves.

(* the one-block instances of the block-list theorems further down *)
Theorem C01_add_block_single_preserves : forall s s' r b res,
  WF s -> reg_live s r -> blk_live s b -> add_block r [b] s = (s', Ok res) -> WF s'.
Proof. exact add_block1_WF. Qed.
Print Assumptions C01_add_block_single_preserves.

Theorem C01_insert_block_before_single_preserves : forall s s' r b target res,
  WF s -> reg_live s r -> blk_live s b -> blk_live s target ->
  insert_block_before r [b] target s = (s', Ok res) -> WF s'.
Proof. exact insert_block_before1_WF. Qed.
Print Assumptions C01_insert_block_before_single_preserves.

Theorem C01_set_successors_preserves : forall s s' o new r,
  WF s -> op_live s o -> set_successors o new s = (s', Ok r) -> WF s'.
Proof. exact set_successors_WF. Qed.
Print Assumptions C01_set_successors_preserves.

Theorem C01_add_region_preserves : forall s s' o r res,
  WF s -> add_region o r s = (s', Ok res) -> WF s'.
Proof. exact add_region_WF_gen. Qed.
Print Assumptions C01_add_region_preserves.

Theorem C01_detach_region_preserves : forall s s' o r res,
  WF s -> detach_region o r s = (s', Ok res) -> WF s'.
Proof. exact detach_region_WF_gen. Qed.
Print Assumptions C01_detach_region_preserves.

Theorem C01_detach_region_idx_preserves : forall s s' o idx res,
  WF s -> op_live s o -> detach_region_idx o idx s = (s', Ok res) -> WF s'.
Proof. exact detach_region_idx_WF. Qed.
Print Assumptions C01_detach_region_idx_preserves.

Theorem C01_move_blocks_preserves : forall s s' self region r,
  WF s -> reg_live s self -> reg_live s region -> move_blocks self region s = (s', Ok r) -> WF s'.
Proof. exact move_blocks_WF. Qed.
Print Assumptions C01_move_blocks_preserves.

Theorem C01_move_blocks_before_preserves : forall s s' self target region tx r,
  WF s -> reg_live s self ->
  PM.find target (s_blocks s) = Some tx -> b_erased tx = false -> b_parent tx = Some region -> reg_live s region ->
  move_blocks_before self target s = (s', Ok r) -> WF s'.
Proof. exact move_blocks_before_WF. Qed.
Print Assumptions C01_move_blocks_before_preserves.

Theorem C01_add_ops_preserves : forall ops s s' b r,
  WF s -> blk_live s b -> (forall o, In o ops -> op_live s o) -> add_ops b ops s = (s', Ok r) -> WF s'.
Proof. exact add_ops_WF. Qed.
Print Assumptions C01_add_ops_preserves.

Theorem C01_insert_ops_before_preserves : forall ops s s' b ex r,
  WF s -> blk_live s b -> op_live s ex -> insert_ops_before b ops ex s = (s', Ok r) -> WF s'.
Proof. exact insert_ops_before_WF. Qed.
Print Assumptions C01_insert_ops_before_preserves.

Theorem C01_insert_ops_after_preserves : forall ops s s' b ex r,
  WF s -> blk_live s b -> op_live s ex -> (forall o, In o ops -> op_live s o) ->
  insert_ops_after b ops ex s = (s', Ok r) -> WF s'.
Proof. exact insert_ops_after_WF. Qed.
Print Assumptions C01_insert_ops_after_preserves.

Theorem C01_rw_insert_op_preserves : forall ops s s' b ib r,
  WF s -> blk_live s b -> (forall o, In o ops -> op_live s o) -> (forall e, ib = Some e -> op_live s e) ->
  rw_insert_op ops b ib s = (s', Ok r) -> WF s'.
Proof. exact rw_insert_op_WF. Qed.
Print Assumptions C01_rw_insert_op_preserves.

(* block lists of any length *)
Theorem C01_add_block_preserves : forall blocks s s' r res,
  WF s -> reg_live s r -> (forall b, In b blocks -> blk_live s b) -> add_block r blocks s = (s', Ok res) -> WF s'.
Proof. exact add_block_WF. Qed.
Print Assumptions C01_add_block_preserves.

Theorem C01_insert_block_before_preserves : forall blocks s s' r target res,
  WF s -> reg_live s r -> blk_live s target -> (forall b, In b blocks -> blk_live s b) ->
  insert_block_before r blocks target s = (s', Ok res) -> WF s'.
Proof. exact insert_block_before_WF. Qed.
Print Assumptions C01_insert_block_before_preserves.

Theorem C01_insert_block_after_preserves : forall blocks s s' r target res,
  WF s -> reg_live s r -> blk_live s target ->
  (forall tr r', PM.find target (s_blocks s) = Some tr -> b_parent tr = Some r' -> reg_live s r') ->
  (forall b, In b blocks -> blk_live s b) ->
  insert_block_after r blocks target s = (s', Ok res) -> WF s'.
Proof. exact insert_block_after_WF. Qed.
Print Assumptions C01_insert_block_after_preserves.

Theorem C01_insert_block_preserves : forall blocks s s' r index res,
  WF s -> reg_live s r -> (forall b, In b blocks -> blk_live s b) -> insert_block r blocks index s = (s', Ok res) -> WF s'.
Proof. exact insert_block_WF. Qed.
Print Assumptions C01_insert_block_preserves.

Theorem C01_rw_insert_block_preserves : forall blocks s s' r ib res,
  WF s -> reg_live s r -> (forall b, In b blocks -> blk_live s b) -> (forall t, ib = Some t -> blk_live s t) ->
  rw_insert_block blocks r ib s = (s', Ok res) -> WF s'.
Proof. exact rw_insert_block_WF. Qed.
Print Assumptions C01_rw_insert_block_preserves.

Theorem C01_insert_arg_preserves : forall s s' b index v,
  WF s -> blk_live s b -> insert_arg b index s = (s', Ok v) -> WF s'.
Proof. exact insert_arg_WF. Qed.
Print Assumptions C01_insert_arg_preserves.

(* erasing an argument that has already been erased removes a different argument: val_live is needed *)
Theorem C01_erase_arg_preserves : forall s s' b arg safe r,
  WF s -> blk_live s b -> val_live s arg -> erase_arg b arg safe s = (s', Ok r) -> WF s'.
Proof. exact erase_arg_WF. Qed.
Print Assumptions C01_erase_arg_preserves.

Theorem C01_pr_erase_block_argument_preserves : forall s s' arg safe r,
  WF s -> val_live s arg ->
  (forall vr b i, PM.find arg (s_values s) = Some vr -> v_kind vr = KArg b i -> blk_live s b) ->
  pr_erase_block_argument arg safe s = (s', Ok r) -> WF s'.
Proof. exact pr_erase_block_argument_WF. Qed.
Print Assumptions C01_pr_erase_block_argument_preserves.

Theorem C01_replace_value_with_new_type_preserves : forall s s' val v,
  WF s -> val_live s val -> rw_replace_value_with_new_type val s = (s', Ok v) -> WF s'.
Proof. exact rw_replace_value_with_new_type_WF. Qed.
Print Assumptions C01_replace_value_with_new_type_preserves.

(* successful erase of an operation WITHOUT regions (detach + drop_all_references + erase of every result) *)
Theorem C01_op_erase_noregions_preserves : forall s s' o x safe r,
  WF s -> PM.find o (s_ops s) = Some x -> o_erased x = false -> o_regions x = [] ->
  op_erase o safe true s = (s', Ok r) -> WF s'.
Proof. exact op_erase_noregions_WF. Qed.
Print Assumptions C01_op_erase_noregions_preserves.

Theorem C01_erase_op_noregions_preserves : forall s s' b o x safe r,
  WF s -> blk_live s b -> PM.find o (s_ops s) = Some x -> o_erased x = false -> o_regions x = [] ->
  erase_op b o safe s = (s', Ok r) -> WF s'.
Proof. exact erase_op_noregions_WF. Qed.
Print Assumptions C01_erase_op_noregions_preserves.

Theorem C01_rw_erase_op_noregions_preserves : forall s s' o x safe r,
  WF s -> PM.find o (s_ops s) = Some x -> o_erased x = false -> o_regions x = [] ->
  (forall b, o_parent x = Some b -> blk_live s b) ->
  rw_erase_op o safe s = (s', Ok r) -> WF s'.
Proof. exact rw_erase_op_noregions_WF. Qed.
Print Assumptions C01_rw_erase_op_noregions_preserves.

(* successful erase of an operation WITH an arbitrary nested tree of regions: every node collected by
   the erase walk (collect_op: the nodes the erase marks erased) must be live *)
Theorem C01_op_erase_tree_preserves : forall s s' o safe r,
  WF s -> all_live s (collect_op (fuel_of s) s o) -> op_erase o safe true s = (s', Ok r) -> WF s'.
Proof. exact op_erase_tree_WF. Qed.
Print Assumptions C01_op_erase_tree_preserves.

Theorem C01_erase_op_tree_preserves : forall s s' b o safe r,
  WF s -> blk_live s b -> op_live s o ->
  (forall s1 r1, detach_op b o s = (s1, Ok r1) -> all_live s1 (collect_op (fuel_of s1) s1 o)) ->
  erase_op b o safe s = (s', Ok r) -> WF s'.
Proof. exact erase_op_tree_WF. Qed.
Print Assumptions C01_erase_op_tree_preserves.

Theorem C01_rw_erase_op_tree_preserves : forall s s' o safe r,
  WF s -> op_live s o ->
  (forall x b, PM.find o (s_ops s) = Some x -> o_parent x = Some b ->
     blk_live s b /\ forall s1 r1, detach_op b o s = (s1, Ok r1) -> all_live s1 (collect_op (fuel_of s1) s1 o)) ->
  (forall x, PM.find o (s_ops s) = Some x -> o_parent x = None -> all_live s (collect_op (fuel_of s) s o)) ->
  rw_erase_op o safe s = (s', Ok r) -> WF s'.
Proof. exact rw_erase_op_tree_WF. Qed.
Print Assumptions C01_rw_erase_op_tree_preserves.

(* Rewriter.replace_op / PatternRewriter.replace of an operation WITHOUT regions by new operations and
   new results (insert the new ops, replace the results' uses, erase the old op) *)
Theorem C01_replace_op_preserves : forall s s' o new_ops new_results safe r,
  WF s -> parents_ok s -> op_noreg s o ->
  (forall x b, PM.find o (s_ops s) = Some x -> o_parent x = Some b -> blk_live s b) ->
  (forall n, In n new_ops -> op_live s n) ->
  rw_replace_op o new_ops new_results safe s = (s', Ok r) -> WF s' /\ parents_ok s'.
Proof. exact rw_replace_op_inv. Qed.
Print Assumptions C01_replace_op_preserves.

Theorem C01_pr_replace_preserves : forall s s' o new_ops new_results safe r,
  WF s -> parents_ok s -> op_noreg s o ->
  (forall x b, PM.find o (s_ops s) = Some x -> o_parent x = Some b -> blk_live s b) ->
  (forall n, In n new_ops -> op_live s n) ->
  pr_replace o new_ops new_results safe s = (s', Ok r) -> WF s' /\ parents_ok s'.
Proof. exact pr_replace_inv. Qed.
Print Assumptions C01_pr_replace_preserves.

(* creation.  WF alone does not exclude a live node whose parent field names an id that is not
   allocated yet; the creation calls therefore need the auxiliary invariant `parents_ok` (parent
   pointers of live nodes are below the allocation counters), which every proved call preserves *)
Theorem C01_block_new_preserves : forall s s' ops nargs b,
  WF s -> parents_ok s -> (forall o, In o ops -> op_live s o) ->
  block_new ops nargs s = (s', Ok b) -> WF s' /\ parents_ok s'.
Proof. exact block_new_inv. Qed.
Print Assumptions C01_block_new_preserves.

Theorem C01_region_new_preserves : forall s s' blocks r,
  WF s -> parents_ok s -> (forall b, In b blocks -> blk_live s b) ->
  region_new blocks s = (s', Ok r) -> WF s' /\ parents_ok s'.
Proof. exact region_new_inv. Qed.
Print Assumptions C01_region_new_preserves.

Theorem C01_op_create_preserves : forall s s' operands nres succs regions o,
  WF s -> parents_ok s -> op_create operands nres succs regions s = (s', Ok o) -> WF s' /\ parents_ok s'.
Proof. exact op_create_inv. Qed.
Print Assumptions C01_op_create_preserves.

(* the invariant carried through histories, and its initial validity *)
Theorem C01_inv_init : Inv empty_state.
Proof. exact empty_Inv. Qed.
Print Assumptions C01_inv_init.

(* every proved call constructor, as a step of the API machine (Inv s = WF s /\ parents_ok s) *)
Theorem C01_step_preserves : forall s c p,
  Inv s -> proved_call c = true -> args_live s c -> snd (step s c) = Ok p -> Inv (fst (step s c)).
Proof. exact step_preserves. Qed.
Print Assumptions C01_step_preserves.

(* histories: every finite sequence of proved calls on live arguments none of which raises keeps
   the invariant, hence WF; in particular from the empty heap (creation calls included) *)
Theorem C01_history : forall cs s, Inv s -> clean s cs -> Inv (run cs s).
Proof. exact history_preserves. Qed.
Print Assumptions C01_history.

Theorem C01_history_from_empty : forall cs, clean empty_state cs -> WF (run cs empty_state).
Proof. exact history_from_empty. Qed.
Print Assumptions C01_history_from_empty.

(* recorded refutations of the code BEFORE the two repairs (known_findings.d/C01.json: fixed) *)
Theorem C01_setitem_negative_old_refuted :
  WF w_setitem /\ op_live w_setitem 1%positive /\
  snd (operands_setitem_old 1%positive (-1) 1%positive w_setitem) = Ok tt /\
  ~ WF (fst (operands_setitem_old 1%positive (-1) 1%positive w_setitem)).
Proof. exact setitem_negative_old_refuted. Qed.
Print Assumptions C01_setitem_negative_old_refuted.

Theorem C01_detach_region_negative_old_refuted :
  WF w_detach_region /\ op_live w_detach_region 1%positive /\
  snd (detach_region_idx_old 1%positive (-1) w_detach_region) = Ok 2%positive /\
  ~ WF (fst (detach_region_idx_old 1%positive (-1) w_detach_region)).
Proof. exact detach_region_negative_old_refuted. Qed.
Print Assumptions C01_detach_region_negative_old_refuted.

(* raising calls that leave a partial mutation behind (known findings C01-kf-4, -5, -6):
   "calls that raise are skipped" is refuted for these shapes *)
Theorem C01_raise_add_block_refuted :
  WF w_add_block /\ snd (step w_add_block (CAddBlock 2%positive [1%positive; 2%positive])) = Raise ValueError /\
  ~ WF (fst (step w_add_block (CAddBlock 2%positive [1%positive; 2%positive]))).
Proof. exact raise_add_block_refuted. Qed.
Print Assumptions C01_raise_add_block_refuted.

Theorem C01_raise_erase_refuted :
  WF w_erase /\ snd (step w_erase (COpErase 2%positive true)) = Raise ValueError /\
  ~ WF (fst (step w_erase (COpErase 2%positive true))).
Proof. exact raise_erase_refuted. Qed.
Print Assumptions C01_raise_erase_refuted.

Theorem C01_raise_erase_arg_refuted :
  WF w_erase_arg /\ snd (step w_erase_arg (CEraseArg 1%positive 1%positive true)) = Raise ValueError /\
  ~ WF (fst (step w_erase_arg (CEraseArg 1%positive 1%positive true))).
Proof. exact raise_erase_arg_refuted. Qed.
Print Assumptions C01_raise_erase_arg_refuted.

(* non-vacuity: a 3-block, 7-op, multi-use state satisfies WF; a 12-call history over many
   constructors runs on it without raising, every intermediate state passing wf_b; and the
   hypothesis `clean` of C01_history is satisfiable by a 9-call history *)
Theorem C01_nonvacuous :
  WF demo_state /\ all_ok demo_history demo_state = true /\ WF (run demo_history demo_state).
Proof. exact demo_nonvacuous. Qed.
Print Assumptions C01_nonvacuous.

Theorem C01_history_hypothesis_satisfiable : clean demo_state demo_clean.
Proof. exact demo_clean_ok. Qed.
Print Assumptions C01_history_hypothesis_satisfiable.

(* 27 calls (18 creation/insertion calls building the demo state + 9 edits) form a clean history
   from the empty heap *)
Theorem C01_history_from_empty_satisfiable : clean empty_state (demo_build ++ demo_clean).
Proof. exact demo_from_empty_ok. Qed.
Print Assumptions C01_history_from_empty_satisfiable.

(* the tree version of the erase theorem is not vacuous: a 5-call clean history from the empty heap
   that erases an operation holding a region with a block (one argument) and a nested operation *)
Theorem C01_erase_tree_satisfiable : clean empty_state demo_tree /\ wf_b (run demo_tree empty_state) = true.
Proof. exact demo_tree_ok. Qed.
Print Assumptions C01_erase_tree_satisfiable.

Example C01_setitem_negative_fixed :
  snd (operands_setitem 1%positive (-1) 1%positive w_setitem) = Ok tt /\
  wf_b (fst (operands_setitem 1%positive (-1) 1%positive w_setitem)) = true.
Proof. exact setitem_negative_fixed_witness. Qed.
Print Assumptions C01_setitem_negative_fixed.
