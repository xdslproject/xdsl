(* C14/ProofsCSE.v -- CSE preserves the denotation of the program (proofs about ModelCSE/SpecCSE). *)
From Coq Require Import List Arith Bool Lia.
From XV Require Import C14.ModelCSE C14.SpecCSE.
Import ListNotations.

Scheme op_mind := Induction for op Sort Prop
  with regions_mind := Induction for regions Sort Prop
  with region_mind := Induction for region Sort Prop
  with ops_mind := Induction for ops Sort Prop.
Combined Scheme syn_mutind from op_mind, regions_mind, region_mind, ops_mind.

Lemma memb_In : forall x l, memb x l = true <-> In x l.
Proof.
  intros x l; induction l as [|y l IH]; simpl.
  - split; [discriminate | tauto].
  - rewrite orb_true_iff, IH, Nat.eqb_eq. split; intros [H|H]; auto.
Qed.

Lemma disjointb_spec : forall a b, disjointb a b = true -> forall x, In x a -> ~ In x b.
Proof.
  unfold disjointb; intros a b H x Hx Hb.
  rewrite forallb_forall in H. specialize (H x Hx).
  apply memb_In in Hb. rewrite Hb in H. discriminate.
Qed.

Lemma disjointb_intro : forall a b, (forall x, In x a -> ~ In x b) -> disjointb a b = true.
Proof.
  unfold disjointb; intros a b H. apply forallb_forall. intros x Hx.
  destruct (memb x b) eqn:E; auto. apply memb_In in E. destruct (H x Hx E).
Qed.

Lemma forallb_memb_incl : forall args sc, forallb (fun a => memb a sc) args = true -> incl args sc.
Proof.
  intros args sc H x Hx. rewrite forallb_forall in H. apply memb_In. auto.
Qed.

Lemma nodupb_NoDup : forall l, nodupb l = true -> NoDup l.
Proof.
  induction l as [|x l IH]; simpl; intros H.
  - constructor.
  - apply andb_true_iff in H. destruct H as [H1 H2]. constructor; auto.
    intros Hin. apply memb_In in Hin. rewrite Hin in H1. discriminate.
Qed.

Lemma in_app_split : forall (P : vid -> Prop) l1 l2,
  (forall x, In x (l1 ++ l2) -> P x) -> (forall x, In x l1 -> P x) /\ (forall x, In x l2 -> P x).
Proof. intros P l1 l2 H. split; intros x Hx; apply H, in_or_app; auto. Qed.

Lemma list_eqb_eq : forall a b, list_eqb a b = true -> a = b.
Proof.
  induction a as [|x a IH]; destruct b as [|y b]; simpl; intros H; try discriminate; auto.
  apply andb_true_iff in H. destruct H as [H1 H2]. apply Nat.eqb_eq in H1. f_equal; auto.
Qed.

Definition op_k (o : op) : nat := match o with Op k _ _ _ _ _ _ => k end.
Definition op_term (o : op) : bool := match o with Op _ _ t _ _ _ _ => t end.
Definition op_args (o : op) : list vid := match o with Op _ _ _ _ a _ _ => a end.
Definition op_regs (o : op) : regions := match o with Op _ _ _ _ _ _ rg => rg end.

(* every op has as many results as its kind says (needed because `upd` truncates to the shorter list) *)
Fixpoint arity_ok_op (ar : nat -> nat) (o : op) : bool :=
  match o with Op k _ _ _ _ res regs => Nat.eqb (length res) (ar k) && arity_ok_regions ar regs end
with arity_ok_regions (ar : nat -> nat) (rs : regions) : bool :=
  match rs with RNil => true | RCons r rs' => arity_ok_region ar r && arity_ok_regions ar rs' end
with arity_ok_region (ar : nat -> nat) (r : region) : bool :=
  match r with REmpty => true | RSingle _ b => arity_ok_ops ar b | RMulti _ _ => true end
with arity_ok_ops (ar : nat -> nat) (os : ops) : bool :=
  match os with ONil => true | OCons o os' => arity_ok_op ar o && arity_ok_ops ar os' end.
Definition arity_ok := arity_ok_region.

(* every op marked for erasure is not a terminator and has known, write-free effects (deep) *)
Fixpoint marks_ok_op (eff_of : nat -> eff) (meff_of : nat -> effs) (o : op) : bool :=
  match o with
  | Op k mk t i a r rg =>
      (if mk then negb t && no_write (eff_op eff_of meff_of (Op k mk t i a r rg)) else true)
      && marks_ok_regions eff_of meff_of rg
  end
with marks_ok_regions (eff_of : nat -> eff) (meff_of : nat -> effs) (rs : regions) : bool :=
  match rs with
  | RNil => true
  | RCons r rs' => marks_ok_region eff_of meff_of r && marks_ok_regions eff_of meff_of rs'
  end
with marks_ok_region (eff_of : nat -> eff) (meff_of : nat -> effs) (r : region) : bool :=
  match r with
  | REmpty => true
  | RSingle _ b => marks_ok_ops eff_of meff_of b
  | RMulti _ _ => true
  end
with marks_ok_ops (eff_of : nat -> eff) (meff_of : nat -> effs) (os : ops) : bool :=
  match os with
  | ONil => true
  | OCons o os' => marks_ok_op eff_of meff_of o && marks_ok_ops eff_of meff_of os'
  end.
Definition marks_ok := marks_ok_region.

Section CSEProofs.
  Variables (val mem : Type).
  Variable osem : nat -> list val -> list (rden val mem) -> mem -> list val * mem.
  Variable mden : nat -> list val -> rden val mem.
  Variable eff_of : nat -> eff.
  Variable meff_of : nat -> effs.
  Variable req : regions -> regions -> bool.
  Hypothesis OK : sem_ok val mem osem mden eff_of meff_of req.

  Notation xop := (exec_op val mem osem mden).
  Notation xops := (exec_ops val mem osem mden).
  Notation dreg := (den_region val mem osem mden).
  Notation dregs := (den_regions val mem osem mden).
  Notation updv := (upd val).
  Notation effo := (eff_op eff_of meff_of).
  Notation effrs := (eff_regions eff_of meff_of).
  Notation effr := (eff_region eff_of meff_of).
  Notation effos := (eff_ops eff_of meff_of).
  Notation mayw := (may_write eff_of meff_of).
  Notation dext := (d_ext val mem).
  Notation dkeeps := (d_keeps_mem val mem).
  Notation dpure := (d_pure val mem).

  Lemma upd_notin : forall (e : env val) ids vs x, ~ In x ids -> updv e ids vs x = e x.
  Proof.
    intros e ids; induction ids as [|i ids IH]; intros vs x Hx; simpl; auto.
    destruct vs as [|v vs]; auto.
    destruct (Nat.eqb x i) eqn:E.
    - apply Nat.eqb_eq in E. subst. exfalso. apply Hx. left; auto.
    - apply IH. intros H. apply Hx. right; auto.
  Qed.

  Lemma upd_agree : forall (e1 e2 : env val) ids vs x, e1 x = e2 x -> updv e1 ids vs x = updv e2 ids vs x.
  Proof.
    intros e1 e2 ids; induction ids as [|i ids IH]; intros vs x Hx; simpl; auto.
    destruct vs as [|v vs]; auto.
    destruct (Nat.eqb x i); auto.
  Qed.

  Lemma map_upd_same : forall (e : env val) ids vs,
      NoDup ids -> length vs = length ids -> map (updv e ids vs) ids = vs.
  Proof.
    intros e ids; induction ids as [|i ids IH]; intros [|v vs] Hnd Hlen; try discriminate Hlen.
    - reflexivity.
    - apply NoDup_cons_iff in Hnd. destruct Hnd as [Hni Hnd]. injection Hlen as Hlen.
      cbn [map upd]. rewrite Nat.eqb_refl. f_equal.
      transitivity (map (updv e ids vs) ids); [|exact (IH vs Hnd Hlen)]. apply map_ext_in. intros x Hx.
      destruct (Nat.eqb_spec x i) as [->|_]; [destruct (Hni Hx)|reflexivity].
  Qed.

  Lemma upd_combine : forall (e : env val) ids ys x y,
      NoDup ids -> In (x, y) (combine ids ys) -> updv e ids (map e ys) x = e y.
  Proof.
    intros e ids; induction ids as [|i ids IH]; intros ys x y Hnd Hin; [destruct Hin|].
    destruct ys as [|y0 ys]; [destruct Hin|].
    apply NoDup_cons_iff in Hnd. destruct Hnd as [Hni Hnd]. cbn [map upd].
    destruct Hin as [Hin|Hin].
    - injection Hin as -> ->. rewrite Nat.eqb_refl. reflexivity.
    - destruct (Nat.eqb_spec x i) as [->|_]; [|exact (IH ys x y Hnd Hin)].
      destruct Hni. exact (in_combine_l _ _ _ _ Hin).
  Qed.

  Lemma map_agree : forall (e1 e2 : env val) l, (forall x, In x l -> e1 x = e2 x) -> map e1 l = map e2 l.
  Proof. intros e1 e2 l H. apply map_ext_in. exact H. Qed.

  (* Unfolding equations: simpl cannot refold mutual fixpoints that were defined inside a Section. *)
  Lemma xop_eq : forall k mk t i a r rg e m,
      xop (Op k mk t i a r rg) e m =
      (updv e r (fst (osem k (map e a) (dregs rg e) m)), snd (osem k (map e a) (dregs rg e) m)).
  Proof.
    intros.
    change (xop (Op k mk t i a r rg) e m)
      with (let '(vs, m') := osem k (map e a) (dregs rg e) m in (updv e r vs, m')).
    destruct (osem k (map e a) (dregs rg e) m); reflexivity.
  Qed.

  Lemma xops_nil : forall e m, xops ONil e m = ([], m).
  Proof. reflexivity. Qed.

  Lemma xops_cons : forall o os e m,
      xops (OCons o os) e m =
      if op_term o then (map e (op_args o), m) else xops os (fst (xop o e m)) (snd (xop o e m)).
  Proof.
    intros [k mk t i a r rg] os e m. destruct t; [reflexivity|].
    change (xops (OCons (Op k mk false i a r rg) os) e m)
      with (let '(e', m') := xop (Op k mk false i a r rg) e m in xops os e' m').
    destruct (xop (Op k mk false i a r rg) e m); reflexivity.
  Qed.

  Lemma dregs_nil : forall e, dregs RNil e = [].
  Proof. reflexivity. Qed.
  Lemma dregs_cons : forall r rs e, dregs (RCons r rs) e = dreg r e :: dregs rs e.
  Proof. reflexivity. Qed.
  Lemma dreg_empty : forall e vs m, dreg REmpty e vs m = ([], m).
  Proof. reflexivity. Qed.
  Lemma dreg_single : forall ba b e vs m, dreg (RSingle ba b) e vs m = xops b (updv e ba vs) m.
  Proof. reflexivity. Qed.
  Lemma dreg_multi : forall t c e, dreg (RMulti t c) e = mden t (map e c).
  Proof. reflexivity. Qed.

  Lemma effo_eq : forall k mk t i a r rg,
      effo (Op k mk t i a r rg) =
      match eff_of k with
      | EPure => Some (false, false)
      | ERead => Some (true, false)
      | EWrite => Some (false, true)
      | EUnk => None
      | ERec => effrs rg
      end.
  Proof. reflexivity. Qed.
  Lemma effrs_nil : effrs RNil = Some (false, false).
  Proof. reflexivity. Qed.
  Lemma effrs_cons : forall r rs, effrs (RCons r rs) = join (effr r) (effrs rs).
  Proof. reflexivity. Qed.
  Lemma effr_empty : effr REmpty = Some (false, false).
  Proof. reflexivity. Qed.
  Lemma effr_single : forall ba b, effr (RSingle ba b) = effos b.
  Proof. reflexivity. Qed.
  Lemma effr_multi : forall t c, effr (RMulti t c) = meff_of t.
  Proof. reflexivity. Qed.
  Lemma effos_nil : effos ONil = Some (false, false).
  Proof. reflexivity. Qed.
  Lemma effos_cons : forall o os, effos (OCons o os) = join (effo o) (effos os).
  Proof. reflexivity. Qed.

  Lemma dext_refl : forall d, dext d d.
  Proof. intros d vs m. reflexivity. Qed.

  Lemma F2_dext_refl : forall ds, Forall2 dext ds ds.
  Proof. induction ds; constructor; auto using dext_refl. Qed.

  Lemma F2_dext_sym : forall ds ds', Forall2 dext ds ds' -> Forall2 dext ds' ds.
  Proof.
    induction 1 as [|d d' ds ds' H _ IH]; constructor; auto.
    intros vs m. symmetry. apply H.
  Qed.

  Lemma F2_dext_trans : forall ds1 ds2 ds3, Forall2 dext ds1 ds2 -> Forall2 dext ds2 ds3 -> Forall2 dext ds1 ds3.
  Proof.
    intros ds1 ds2 ds3 H; revert ds3. induction H as [|d d' ds ds' H _ IH]; intros ds3 H3; inversion H3; subst; constructor.
    - intros vs m. rewrite H. auto.
    - auto.
  Qed.

  Lemma F_dpure_ext : forall ds ds', Forall2 dext ds ds' -> Forall dpure ds -> Forall dpure ds'.
  Proof.
    induction 1 as [|d d' ds ds' H _ IH]; intros Hp; constructor; inversion Hp; subst; auto.
    intros vs m1 m2. rewrite <- !H. auto.
  Qed.

  Lemma join_nw : forall a b r, join a b = Some (r, false) ->
      exists r1 r2, a = Some (r1, false) /\ b = Some (r2, false).
  Proof.
    intros [[r1 w1]|] [[r2 w2]|] r H; simpl in H; try discriminate.
    injection H as Hr Hw. apply orb_false_iff in Hw. destruct Hw; subst. eauto.
  Qed.

  Lemma join_pure : forall a b, join a b = Some (false, false) ->
      a = Some (false, false) /\ b = Some (false, false).
  Proof.
    intros [[r1 w1]|] [[r2 w2]|] H; simpl in H; try discriminate.
    injection H as Hr Hw. apply orb_false_iff in Hw. apply orb_false_iff in Hr.
    destruct Hw, Hr; subst. auto.
  Qed.

  Lemma keeps_mem_all :
    (forall o r, effo o = Some (r, false) ->
        forall e vs m, snd (osem (op_k o) vs (dregs (op_regs o) e) m) = m) /\
    (forall rs r, effrs rs = Some (r, false) -> forall e, Forall dkeeps (dregs rs e)) /\
    (forall rg r, effr rg = Some (r, false) -> forall e, dkeeps (dreg rg e)) /\
    (forall os r, effos os = Some (r, false) -> forall e m, snd (xops os e m) = m).
  Proof.
    apply syn_mutind.
    - intros k mk t i a rs rg IH r H e vs m. rewrite effo_eq in H. simpl.
      destruct (eff_of k) eqn:Ek; try discriminate.
      + rewrite (@ok_pure _ _ _ _ _ _ _ OK k vs (dregs rg e) m m Ek). reflexivity.
      + apply (@ok_read _ _ _ _ _ _ _ OK); auto.
      + apply (@ok_rec_read _ _ _ _ _ _ _ OK); eauto.
    - intros r _ e. constructor.
    - intros rg IHr rs IHrs r H e. rewrite effrs_cons in H. rewrite dregs_cons.
      apply join_nw in H. destruct H as (r1 & r2 & H1 & H2). constructor; eauto.
    - intros r _ e vs m. reflexivity.
    - intros ba b IH r H e vs m. rewrite effr_single in H. rewrite dreg_single. eauto.
    - intros t caps r H e. rewrite effr_multi in H. rewrite dreg_multi.
      eapply (@ok_multi_read _ _ _ _ _ _ _ OK); eauto.
    - intros r _ e m. reflexivity.
    - intros o IHo os IHos r H e m. rewrite effos_cons in H.
      apply join_nw in H. destruct H as (r1 & r2 & H1 & H2).
      destruct o as [k mk t i a rs rg]. rewrite xops_cons. cbn [op_term op_args]. destruct t; auto.
      rewrite (IHos _ H2). rewrite xop_eq. simpl.
      apply (IHo _ H1 e (map e a) m).
  Qed.

  Lemma xop_keeps_mem : forall o r, effo o = Some (r, false) -> forall e m, snd (xop o e m) = m.
  Proof.
    intros [k mk t i a rs rg] r H e m. rewrite xop_eq. simpl.
    apply (proj1 keeps_mem_all _ _ H e (map e a) m).
  Qed.

  Lemma pure_all :
    (forall o, effo o = Some (false, false) ->
        forall e vs m1 m2, osem (op_k o) vs (dregs (op_regs o) e) m1 =
                           (fst (osem (op_k o) vs (dregs (op_regs o) e) m2), m1)) /\
    (forall rs, effrs rs = Some (false, false) -> forall e, Forall dpure (dregs rs e)) /\
    (forall rg, effr rg = Some (false, false) -> forall e, dpure (dreg rg e)) /\
    (forall os, effos os = Some (false, false) ->
        forall e m1 m2, xops os e m1 = (fst (xops os e m2), m1)).
  Proof.
    apply syn_mutind.
    - intros k mk t i a rs rg IH H e vs m1 m2. rewrite effo_eq in H. simpl.
      destruct (eff_of k) eqn:Ek; try discriminate.
      + apply (@ok_pure _ _ _ _ _ _ _ OK); auto.
      + apply (@ok_rec_pure _ _ _ _ _ _ _ OK); eauto.
    - intros _ e. constructor.
    - intros rg IHr rs IHrs H e. rewrite effrs_cons in H. rewrite dregs_cons.
      apply join_pure in H. destruct H as (H1 & H2). constructor; eauto.
    - intros _ e vs m1 m2. reflexivity.
    - intros ba b IH H e vs m1 m2. rewrite effr_single in H. rewrite !dreg_single. eauto.
    - intros t caps H e. rewrite effr_multi in H. rewrite dreg_multi.
      eapply (@ok_multi_pure _ _ _ _ _ _ _ OK); eauto.
    - intros _ e m1 m2. reflexivity.
    - intros o IHo os IHos H e m1 m2. rewrite effos_cons in H.
      apply join_pure in H. destruct H as (H1 & H2).
      destruct o as [k mk t i a rs rg]. rewrite !xops_cons. cbn [op_term op_args]. destruct t; auto.
      rewrite !xop_eq. simpl. simpl in IHo.
      rewrite (IHo H1 e (map e a) m1 m2). simpl.
      rewrite (IHo H1 e (map e a) m2 m2). simpl.
      apply IHos; auto.
  Qed.

  Lemma coinc_all :
    (forall o (e1 e2 : env val), (forall x, In x (ment_op o) -> e1 x = e2 x) ->
        forall m, osem (op_k o) (map e1 (op_args o)) (dregs (op_regs o) e1) m =
                  osem (op_k o) (map e2 (op_args o)) (dregs (op_regs o) e2) m) /\
    (forall rs (e1 e2 : env val), (forall x, In x (ment_regions rs) -> e1 x = e2 x) ->
        Forall2 dext (dregs rs e1) (dregs rs e2)) /\
    (forall rg (e1 e2 : env val), (forall x, In x (ment_region rg) -> e1 x = e2 x) ->
        dext (dreg rg e1) (dreg rg e2)) /\
    (forall os (e1 e2 : env val), (forall x, In x (ment_ops os) -> e1 x = e2 x) ->
        forall m, xops os e1 m = xops os e2 m).
  Proof.
    apply syn_mutind.
    - intros k mk t i a rs rg IH e1 e2 H m. simpl in *. destruct (in_app_split _ _ _ H) as [Ha Hr].
      rewrite (map_agree e1 e2 a Ha). apply (@ok_ext _ _ _ _ _ _ _ OK). exact (IH e1 e2 Hr).
    - intros e1 e2 _. constructor.
    - intros rg IHr rs IHrs e1 e2 H. simpl in H. destruct (in_app_split _ _ _ H) as [H1 H2].
      rewrite !dregs_cons. constructor; auto.
    - intros e1 e2 _ vs m. reflexivity.
    - intros ba b IH e1 e2 H vs m. simpl in H. rewrite !dreg_single. apply IH.
      intros x Hx. apply upd_agree. auto.
    - intros t caps e1 e2 H vs m. simpl in H. rewrite !dreg_multi. rewrite (map_agree e1 e2 caps); auto.
    - intros e1 e2 _ m. reflexivity.
    - intros o IHo os IHos e1 e2 H m. destruct o as [k mk t i a rs rg].
      rewrite !xops_cons. cbn [op_term op_args]. simpl in H.
      destruct (in_app_split _ _ _ H) as [Ho Hos]. destruct (in_app_split _ _ _ Ho) as [Ha _].
      destruct t.
      + rewrite (map_agree e1 e2 a Ha). reflexivity.
      + rewrite !xop_eq. simpl. simpl in IHo. rewrite (IHo e1 e2 Ho).
        apply IHos. intros x Hx. apply upd_agree. auto.
  Qed.

  Lemma no_write_inv : forall ef, no_write ef = true -> exists r, ef = Some (r, false).
  Proof. intros [[r [|]]|] H; simpl in H; try discriminate; eauto. Qed.

  Lemma mayw_false_inv : forall o, mayw o = false -> exists r, effo o = Some (r, false).
  Proof.
    intros o H. unfold may_write in H.
    destruct (effo o) as [[r [|]]|]; try discriminate; eauto.
  Qed.

  (* Phase 2.  S = the results of the marked ops; e1 runs the marked program, e2 the erased one, and they
     agree outside S: nothing kept mentions S, so skipping the marked ops changes no result *)
  Lemma erase_all : forall (S : vid -> Prop),
    (forall o, marks_ok_op eff_of meff_of o = true ->
       (forall x, In x (ment_op o) -> ~ S x) -> (forall x, In x (marked_op o) -> S x) ->
       forall e1 e2 : env val, (forall x, ~ S x -> e1 x = e2 x) -> forall m,
       osem (op_k o) (map e2 (op_args o)) (dregs (erase_regions (op_regs o)) e2) m =
       osem (op_k o) (map e1 (op_args o)) (dregs (op_regs o) e1) m) /\
    (forall rs, marks_ok_regions eff_of meff_of rs = true ->
       (forall x, In x (ment_regions rs) -> ~ S x) -> (forall x, In x (marked_regions rs) -> S x) ->
       forall e1 e2 : env val, (forall x, ~ S x -> e1 x = e2 x) ->
       Forall2 dext (dregs (erase_regions rs) e2) (dregs rs e1)) /\
    (forall rg, marks_ok_region eff_of meff_of rg = true ->
       (forall x, In x (ment_region rg) -> ~ S x) -> (forall x, In x (marked_region rg) -> S x) ->
       forall e1 e2 : env val, (forall x, ~ S x -> e1 x = e2 x) ->
       dext (dreg (erase_region rg) e2) (dreg rg e1)) /\
    (forall os, marks_ok_ops eff_of meff_of os = true ->
       (forall x, In x (ment_ops os) -> ~ S x) -> (forall x, In x (marked_ops os) -> S x) ->
       forall e1 e2 : env val, (forall x, ~ S x -> e1 x = e2 x) -> forall m,
       xops (erase_ops os) e2 m = xops os e1 m).
  Proof.
    intros S. apply syn_mutind.
    - intros k mk t i a r rg IH Hm Hment Hmk e1 e2 Hag m. simpl in Hm, Hment, Hmk |- *.
      apply andb_true_iff in Hm. destruct Hm as [_ Hm].
      destruct (in_app_split _ _ _ Hment) as [Ha Hr]. destruct (in_app_split _ _ _ Hmk) as [_ Hmr].
      rewrite (map_agree e2 e1 a).
      + apply (@ok_ext _ _ _ _ _ _ _ OK). exact (IH Hm Hr Hmr e1 e2 Hag).
      + intros x Hx. symmetry. exact (Hag x (Ha x Hx)).
    - intros _ _ _ e1 e2 _. constructor.
    - intros rg IHr rs IHrs Hm Hment Hmk e1 e2 Hag. simpl in Hm, Hment, Hmk |- *.
      apply andb_true_iff in Hm. destruct Hm as [Hm1 Hm2].
      destruct (in_app_split _ _ _ Hment) as [He1 He2]. destruct (in_app_split _ _ _ Hmk) as [Hk1 Hk2].
      rewrite !dregs_cons. constructor; auto.
    - intros _ _ _ e1 e2 _ vs m. reflexivity.
    - intros ba b IH Hm Hment Hmk e1 e2 Hag vs m. simpl in Hm, Hment, Hmk |- *.
      rewrite !dreg_single. apply IH; auto.
      intros x Hx. apply upd_agree. auto.
    - intros t caps _ Hment _ e1 e2 Hag vs m. simpl in Hment |- *. rewrite !dreg_multi.
      rewrite (map_agree e2 e1 caps); auto.
      intros x Hx. symmetry. auto.
    - intros _ _ _ e1 e2 _ m. reflexivity.
    - intros o IHo os IHos Hm Hment Hmk e1 e2 Hag m.
      destruct o as [k mk t i a r rg].
      simpl in Hm, Hment, Hmk.
      apply andb_true_iff in Hm. destruct Hm as [Hm Hmos].
      destruct (in_app_split _ _ _ Hment) as [Hment_o Hment_os].
      destruct (in_app_split _ _ _ Hmk) as [Hmk_o Hmk_os].
      specialize (IHos Hmos Hment_os Hmk_os).
      assert (Ha : map e2 a = map e1 a).
      { apply map_agree. intros x Hx. symmetry. apply Hag, Hment_o, in_or_app. auto. }
      destruct mk.
      + (* the op is erased: it only binds its own results, which nothing kept mentions *)
        simpl.
        apply andb_true_iff in Hm. destruct Hm as [Hm1 Hm2].
        apply andb_true_iff in Hm1. destruct Hm1 as [Ht Hnw].
        destruct t; [discriminate|].
        apply no_write_inv in Hnw. destruct Hnw as [r0 Hnw].
        rewrite xops_cons, xop_eq. cbn [op_term fst snd].
        pose proof (proj1 keeps_mem_all _ _ Hnw e1 (map e1 a) m) as Hk. simpl in Hk. rewrite Hk.
        apply IHos. intros x Hx. rewrite upd_notin; auto.
        intros Hin. apply Hx, Hmk_o, in_or_app. auto.
      + simpl.
        destruct t.
        * rewrite !xops_cons. cbn [op_term op_args]. rewrite Ha. reflexivity.
        * rewrite !xops_cons, !xop_eq. cbn [op_term fst snd].
          simpl in IHo. rewrite (IHo Hm Hment_o Hmk_o e1 e2 Hag m).
          apply IHos. intros x Hx. apply upd_agree. auto.
  Qed.

  Theorem commit_preserves_s : forall q q',
      marks_ok eff_of meff_of q = true -> commit q = Some q' ->
      forall e vs m, dreg q' e vs m = dreg q e vs m.
  Proof.
    intros q q' Hm Hc e vs m. unfold commit in Hc.
    destruct (disjointb (marked_region q) (ment_region q)) eqn:D; [|discriminate].
    injection Hc as Hc. subst q'.
    apply (proj1 (proj2 (proj2 (erase_all (fun x => In x (marked_region q)))))); auto.
    intros x Hx Hmk. exact (disjointb_spec _ _ D x Hmk Hx).
  Qed.

  Notation cseo := (cse_op eff_of meff_of req).
  Notation csers := (cse_regions eff_of meff_of req).
  Notation cser := (cse_region eff_of meff_of req).
  Notation cseos := (cse_ops eff_of meff_of req).
  Notation ksetr := (kset req).
  Notation kgetr := (kget req).
  Notation infoeq := (info_eq req).

  Lemma cse_regions_nil : forall used kn sg, csers used kn sg RNil = RNil.
  Proof. reflexivity. Qed.
  Lemma cse_regions_cons : forall used kn sg r rs,
      csers used kn sg (RCons r rs) = RCons (cser used kn sg r) (csers used kn sg rs).
  Proof. reflexivity. Qed.
  Lemma cse_region_empty : forall used kn sg, cser used kn sg REmpty = REmpty.
  Proof. reflexivity. Qed.
  Lemma cse_region_single : forall used kn sg ba b,
      cser used kn sg (RSingle ba b) = RSingle ba (cseos used (map unlocal kn) sg [] b).
  Proof. reflexivity. Qed.
  Lemma cse_region_multi : forall used kn sg t c,
      cser used kn sg (RMulti t c) = RMulti t (map (sapp sg) c).
  Proof. reflexivity. Qed.
  Lemma cse_ops_nil : forall used kn sg prefix, cseos used kn sg prefix ONil = ONil.
  Proof. reflexivity. Qed.
  Lemma cse_ops_cons : forall used kn sg prefix o os,
      cseos used kn sg prefix (OCons o os) =
      let '(o', kn', sg') := cseo used kn sg prefix o in
      OCons o' (cseos used kn' sg' (prefix ++ [o']) os).
  Proof. reflexivity. Qed.

  Lemma cse_op_cases : forall used kn sg prefix k mk (t i : bool) a r rg o'' kn' sg',
      cseo used kn sg prefix (Op k mk t i a r rg) = (o'', kn', sg') ->
      let rg' := csers used (if i then @nil entry else kn) sg rg in
      let a' := map (sapp sg) a in
      let o' := Op k mk t i a' r rg' in
      (o'' = o' /\ kn' = kn /\ sg' = sg) \/
      (t = false /\ o'' = set_mark o' /\ kn' = kn /\ sg' = sg /\
         disjointb r used = true /\ no_write (effo o') = true) \/
      (t = false /\ exists en, kgetr kn k a' rg' = Some en /\
         o'' = set_mark o' /\ kn' = kn /\ sg' = sadd sg r (e_res en) /\
         (effo o' = Some (false, false) \/
          (effo o' = Some (true, false) /\ e_local en = true /\
           existsb mayw (skipn (e_pos en) prefix) = false))) \/
      (t = false /\ o'' = o' /\ kn' = ksetr kn k a' rg' r (length prefix) /\ sg' = sg /\
         (exists rd, effo o' = Some (rd, false))).
  Proof.
    intros used kn sg prefix k mk t i a r rg o'' kn' sg' H rg' a' o'.
    (* one unfolding step; the call on the regions has to be folded back by hand *)
    cbn [cse_op] in H. fold (csers used (if i then @nil entry else kn) sg rg) in H.
    fold rg' a' in H. fold o' in H.
    destruct t.
    { left. injection H as H1 H2 H3. auto. }
    destruct (disjointb r used && no_write (effo o')) eqn:Hd.
    { right; left. apply andb_true_iff in Hd. destruct Hd as [Hd1 Hd2].
      injection H as H1 H2 H3. auto 10. }
    destruct (has_multi rg') eqn:Hmu.
    { left. injection H as H1 H2 H3. auto. }
    destruct (effo o') as [[rd wr]|] eqn:He.
    2:{ left. injection H as H1 H2 H3. auto. }
    destruct rd, wr.
    - left. injection H as H1 H2 H3. auto.
    - destruct (kgetr kn k a' rg') as [en|] eqn:Hg.
      + destruct (e_local en && negb (existsb mayw (skipn (e_pos en) prefix))) eqn:Hl.
        * right; right; left. split; auto. exists en.
          apply andb_true_iff in Hl. destruct Hl as [Hl1 Hl2].
          apply negb_true_iff in Hl2.
          injection H as H1 H2 H3. auto 10.
        * right; right; right. injection H as H1 H2 H3. eauto 10.
      + right; right; right. injection H as H1 H2 H3. eauto 10.
    - left. injection H as H1 H2 H3. auto.
    - destruct (kgetr kn k a' rg') as [en|] eqn:Hg.
      + right; right; left. split; auto. exists en.
        injection H as H1 H2 H3. auto 10.
      + right; right; right. injection H as H1 H2 H3. eauto 10.
  Qed.

  Lemma marks_ok_set_mark : forall k i a r rg,
      marks_ok_regions eff_of meff_of rg = true -> no_write (effo (Op k false false i a r rg)) = true ->
      marks_ok_op eff_of meff_of (set_mark (Op k false false i a r rg)) = true.
  Proof. intros k i a r rg Hrg Hnw. simpl. rewrite Hrg, andb_true_r. exact Hnw. Qed.

  Lemma marks_all :
    (forall o used kn sg prefix o' kn' sg',
        unmarked_op o = true -> cseo used kn sg prefix o = (o', kn', sg') ->
        marks_ok_op eff_of meff_of o' = true) /\
    (forall rs used kn sg, unmarked_regions rs = true ->
        marks_ok_regions eff_of meff_of (csers used kn sg rs) = true) /\
    (forall rg used kn sg, unmarked_region rg = true ->
        marks_ok_region eff_of meff_of (cser used kn sg rg) = true) /\
    (forall os used kn sg prefix, unmarked_ops os = true ->
        marks_ok_ops eff_of meff_of (cseos used kn sg prefix os) = true).
  Proof.
    apply syn_mutind.
    - intros k mk t i a r rg IH used kn sg prefix o'' kn' sg' Hu Hc.
      simpl in Hu. apply andb_true_iff in Hu. destruct Hu as [Hmk Hu].
      destruct mk; [discriminate|].
      pose proof (IH used (if i then @nil entry else kn) sg Hu) as Hrg.
      apply cse_op_cases in Hc. cbv zeta in Hc.
      destruct Hc as [(-> & _) | [(-> & -> & _ & _ & _ & Hnw) | [(-> & en & _ & -> & _ & _ & He) | (_ & -> & _)]]].
      + exact Hrg.
      + apply marks_ok_set_mark; assumption.
      + apply marks_ok_set_mark; [exact Hrg|]. destruct He as [He | (He & _)]; rewrite He; reflexivity.
      + exact Hrg.
    - intros; reflexivity.
    - intros rg IHr rs IHrs used kn sg Hu. simpl in Hu.
      apply andb_true_iff in Hu. destruct Hu as [Hu1 Hu2].
      rewrite cse_regions_cons. simpl. rewrite IHr, IHrs; auto.
    - intros; reflexivity.
    - intros ba b IH used kn sg Hu. simpl in Hu. rewrite cse_region_single. simpl. auto.
    - intros; reflexivity.
    - intros; reflexivity.
    - intros o IHo os IHos used kn sg prefix Hu. simpl in Hu.
      apply andb_true_iff in Hu. destruct Hu as [Hu1 Hu2].
      rewrite cse_ops_cons.
      destruct (cseo used kn sg prefix o) as [[o' kn'] sg'] eqn:Hc.
      simpl. rewrite (IHo _ _ _ _ _ _ _ Hu1 Hc), IHos; auto.
  Qed.

  Theorem cse_mark_marks_ok_s : forall r,
      unmarked_region r = true -> marks_ok eff_of meff_of (cse_mark eff_of meff_of req r) = true.
  Proof.
    intros r Hu. unfold cse_mark, marks_ok. apply (proj1 (proj2 (proj2 marks_all))); auto.
  Qed.

  Lemma wf_program_unmarked : forall free r, wf_program free r = true -> unmarked_region r = true.
  Proof.
    intros free r H. unfold wf_program in H. destruct (wf_region free free r); [exact H|discriminate].
  Qed.

  Lemma wf_op_inv : forall sc al k mk t i a r rg al1,
      wf_op sc al (Op k mk t i a r rg) = Some al1 ->
      exists alr, incl a sc /\ wf_regions sc al rg = Some alr /\ NoDup r /\
                  (forall x, In x r -> ~ In x alr) /\ al1 = r ++ alr.
  Proof.
    intros sc al k mk t i a r rg al1. simpl. intros H.
    destruct (forallb (fun a0 => memb a0 sc) a) eqn:Ha; [|discriminate].
    destruct (wf_regions sc al rg) as [alr|] eqn:Hr; [|discriminate].
    destruct (nodupb r && disjointb r alr) eqn:Hn; [|discriminate].
    apply andb_true_iff in Hn. destruct Hn as [Hn1 Hn2]. injection H as H. subst al1.
    exists alr. split; [apply forallb_memb_incl; auto|]. split; auto.
    split; [apply nodupb_NoDup; auto|]. split; auto. apply disjointb_spec; auto.
  Qed.

  Lemma wf_single_inv : forall sc al ba b al1,
      wf_region sc al (RSingle ba b) = Some al1 ->
      NoDup ba /\ (forall x, In x ba -> ~ In x al) /\ wf_ops (ba ++ sc) (ba ++ al) b = Some al1.
  Proof.
    intros sc al ba b al1. simpl. intros H.
    destruct (nodupb ba && disjointb ba al) eqn:Hn; [|discriminate].
    apply andb_true_iff in Hn. destruct Hn as [Hn1 Hn2].
    split; [apply nodupb_NoDup; auto|]. split; auto. apply disjointb_spec; auto.
  Qed.

  Lemma wf_mono_all :
    (forall o sc al al1, wf_op sc al o = Some al1 -> incl al al1) /\
    (forall rs sc al al1, wf_regions sc al rs = Some al1 -> incl al al1) /\
    (forall rg sc al al1, wf_region sc al rg = Some al1 -> incl al al1) /\
    (forall os sc al al1, wf_ops sc al os = Some al1 -> incl al al1).
  Proof.
    apply syn_mutind.
    - intros k mk t i a r rg IH sc al al1 H.
      apply wf_op_inv in H. destruct H as (alr & _ & Hr & _ & _ & ->).
      apply incl_appr. eauto.
    - intros sc al al1 H. simpl in H. injection H as H. subst. apply incl_refl.
    - intros rg IHr rs IHrs sc al al1 H. simpl in H.
      destruct (wf_region sc al rg) as [al0|] eqn:Hr; [|discriminate].
      eapply incl_tran; eauto.
    - intros sc al al1 H. simpl in H. injection H as H. subst. apply incl_refl.
    - intros ba b IH sc al al1 H. apply wf_single_inv in H. destruct H as (_ & _ & H).
      apply IH in H. intros x Hx. apply H. apply in_or_app; auto.
    - intros t c sc al al1 H. simpl in H.
      destruct (forallb (fun a => memb a sc) c); [|discriminate].
      injection H as H. subst. apply incl_refl.
    - intros sc al al1 H. simpl in H. injection H as H. subst. apply incl_refl.
    - intros o IHo os IHos sc al al1 H. simpl in H.
      destruct (wf_op sc al o) as [al0|] eqn:Ho; [|discriminate].
      eapply incl_tran; eauto.
  Qed.

  Definition sg_in (sg : subst) (al : list vid) : Prop :=
    forall x y, In (x, y) sg -> In x al /\ In y al.
  Definition kn_in (kn : list entry) (al : list vid) : Prop :=
    forall en, In en kn ->
      incl (e_args en) al /\ incl (e_res en) al /\ incl (ment_regions (e_regs en)) al.
  (* the state of the walk only speaks of values that are already defined:
     `sc` values in scope, `al` all values defined so far *)
  Definition scoped (sc al : list vid) (sg : subst) (kn : list entry) : Prop :=
    incl sc al /\ sg_in sg al /\ kn_in kn al.

  Lemma kn_in_nil : forall al, kn_in [] al.
  Proof. intros al en []. Qed.

  Lemma scoped_nil : forall sc, scoped sc sc [] [].
  Proof. intros sc. split; [apply incl_refl|]. split; [intros x y []|apply kn_in_nil]. Qed.

  Lemma scoped_mono : forall sc al al' sg kn, scoped sc al sg kn -> incl al al' -> scoped sc al' sg kn.
  Proof.
    intros sc al al' sg kn (Hsc & Hsg & Hkn) Hi. split; [|split].
    - eapply incl_tran; eassumption.
    - intros x y Hxy. destruct (Hsg x y Hxy). split; auto.
    - intros en Hen. destruct (Hkn en Hen) as (H1 & H2 & H3).
      repeat split; eapply incl_tran; eassumption.
  Qed.

  (* the table handed to the regions of an op: empty below an IsolatedFromAbove op *)
  Lemma scoped_iso : forall sc al sg kn (i : bool),
      scoped sc al sg kn -> scoped sc al sg (if i then [] else kn).
  Proof.
    intros sc al sg kn [|] H; [|exact H]. destruct H as (Hsc & Hsg & _).
    exact (conj Hsc (conj Hsg (kn_in_nil al))).
  Qed.

  Lemma scoped_enter : forall sc al sg kn ba,
      scoped sc al sg kn -> scoped (ba ++ sc) (ba ++ al) sg (map unlocal kn).
  Proof.
    intros sc al sg kn ba H.
    destruct (scoped_mono _ _ (ba ++ al) _ _ H (incl_appr ba (incl_refl al))) as (Hsc & Hsg & Hkn).
    split; [|split; [exact Hsg|]].
    - apply incl_app; [apply incl_appl, incl_refl | exact Hsc].
    - intros en Hen. apply in_map_iff in Hen. destruct Hen as (en0 & <- & Hen0). exact (Hkn en0 Hen0).
  Qed.

  Lemma sapp_in : forall sg al v, sg_in sg al -> In v al -> In (sapp sg v) al.
  Proof.
    induction sg as [|[x y] sg IH]; intros al v Hsg Hv; simpl; auto.
    destruct (Nat.eqb v x).
    - destruct (Hsg x y); simpl; auto.
    - apply IH; auto. intros x0 y0 H0. apply Hsg. simpl; auto.
  Qed.

  Lemma sapp_notin : forall sg v, (forall y, ~ In (v, y) sg) -> sapp sg v = v.
  Proof.
    induction sg as [|[x y] sg IH]; intros v H; simpl; auto.
    destruct (Nat.eqb_spec v x) as [->|_].
    - destruct (H y). simpl; auto.
    - apply IH. intros y0 H0. apply (H y0). simpl; auto.
  Qed.

  Lemma sapp_fresh : forall sg al v, sg_in sg al -> ~ In v al -> sapp sg v = v.
  Proof. intros sg al v Hsg Hv. apply sapp_notin. intros y Hy. apply Hv. apply (Hsg v y Hy). Qed.

  Lemma map_sapp_in : forall sg al l, sg_in sg al -> incl l al -> incl (map (sapp sg) l) al.
  Proof.
    intros sg al l Hsg Hl x Hx. apply in_map_iff in Hx. destruct Hx as (v & <- & Hv).
    apply sapp_in; auto.
  Qed.

  Lemma sadd_In : forall sg f t x y,
      In (x, y) (sadd sg f t) -> In (x, y) (combine f t) \/ In (x, y) sg.
  Proof.
    intros sg f; induction f as [|x0 f IH]; intros [|y0 t] x y H; simpl in *; auto.
    destruct H as [H|H]; auto. apply IH in H. tauto.
  Qed.

  Lemma sg_in_sadd : forall sg al f t,
      sg_in sg al -> incl f al -> incl t al -> sg_in (sadd sg f t) al.
  Proof.
    intros sg al f t Hsg Hf Ht x y H. apply sadd_In in H. destruct H as [H|H]; auto.
    split; [apply Hf; eapply in_combine_l; eauto | apply Ht; eapply in_combine_r; eauto].
  Qed.

  Lemma info_eq_inv : forall en k a rg,
      infoeq en k a rg = true -> e_k en = k /\ e_args en = a /\ req (e_regs en) rg = true.
  Proof.
    intros en k a rg H. unfold info_eq in H.
    apply andb_true_iff in H. destruct H as [H H3].
    apply andb_true_iff in H. destruct H as [H1 H2].
    apply Nat.eqb_eq in H1. apply list_eqb_eq in H2. auto.
  Qed.

  Lemma kget_some : forall kn k a rg en,
      kgetr kn k a rg = Some en ->
      In en kn /\ e_k en = k /\ e_args en = a /\ req (e_regs en) rg = true.
  Proof.
    intros kn k a rg en H. apply find_some in H. destruct H as [Hin H]. split; [exact Hin|].
    apply info_eq_inv. exact H.
  Qed.

  Lemma kset_In : forall kn k a rg res pos en',
      In en' (ksetr kn k a rg res pos) ->
      In en' kn \/
      (e_k en' = k /\ e_args en' = a /\ e_res en' = res /\ e_local en' = true /\ e_pos en' = pos /\
       (e_regs en' = rg \/
        (req (e_regs en') rg = true /\ exists en, In en kn /\ e_regs en' = e_regs en))).
  Proof.
    induction kn as [|en kn IH]; intros k a rg res pos en' H; simpl in H.
    - destruct H as [H|[]]. subst en'. right. simpl. auto 10.
    - destruct (infoeq en k a rg) eqn:Hi.
      + destruct H as [H|H].
        * subst en'. right. simpl. apply info_eq_inv in Hi. destruct Hi as (H1 & H2 & H3).
          repeat split; auto. right. split; auto. exists en. simpl; auto.
        * left. simpl; auto.
      + destruct H as [H|H].
        * left. simpl; auto.
        * apply IH in H. destruct H as [H|(H1 & H2 & H3 & H4 & H5 & H6)].
          -- left; simpl; auto.
          -- right. repeat split; auto.
             destruct H6 as [H6|(H6 & en0 & H7 & H8)]; auto.
             right. split; auto. exists en0. simpl; auto.
  Qed.

  Lemma kn_in_kset : forall kn al k a rg res pos,
      kn_in kn al -> incl a al -> incl res al -> incl (ment_regions rg) al ->
      kn_in (ksetr kn k a rg res pos) al.
  Proof.
    intros kn al k a rg res pos Hkn Ha Hres Hrg en' Hen'.
    apply kset_In in Hen'. destruct Hen' as [H|(H1 & H2 & H3 & H4 & H5 & H6)]; auto.
    rewrite H2, H3. split; auto. split; auto.
    destruct H6 as [H6|(H6 & en0 & H7 & H8)].
    - rewrite H6; auto.
    - rewrite H8. apply (Hkn en0 H7).
  Qed.

  (* the syntactic half of the invariant: everything remembered is already defined *)
  Lemma syn_all :
    (forall o used kn sg prefix sc al al1 o' kn' sg',
        wf_op sc al o = Some al1 -> scoped sc al sg kn ->
        cseo used kn sg prefix o = (o', kn', sg') ->
        incl (ment_op o') al1 /\ scoped (op_res o ++ sc) al1 sg' kn') /\
    (forall rs used kn sg sc al al1,
        wf_regions sc al rs = Some al1 -> scoped sc al sg kn ->
        incl (ment_regions (csers used kn sg rs)) al1) /\
    (forall rg used kn sg sc al al1,
        wf_region sc al rg = Some al1 -> scoped sc al sg kn ->
        incl (ment_region (cser used kn sg rg)) al1) /\
    (forall os used kn sg prefix sc al al1,
        wf_ops sc al os = Some al1 -> scoped sc al sg kn ->
        incl (ment_ops (cseos used kn sg prefix os)) al1).
  Proof.
    apply syn_mutind.
    - intros k mk t i a r rg IH used kn sg prefix sc al al1 o'' kn' sg' Hwf Hs Hc.
      apply wf_op_inv in Hwf. destruct Hwf as (alr & Ha & Hwr & Hnd & Hdis & ->).
      pose proof (proj1 (proj2 wf_mono_all) _ _ _ _ Hwr) as Hmono.
      pose proof (IH used _ sg _ _ _ Hwr (scoped_iso _ _ _ _ i Hs)) as Hrg.
      destruct (scoped_mono _ _ (r ++ alr) _ _ Hs (incl_appr r Hmono)) as (Hsc' & Hsg' & Hkn').
      destruct Hs as (Hsc & Hsg & Hkn).
      assert (Hment : incl (map (sapp sg) a ++ ment_regions (csers used (if i then @nil entry else kn) sg rg))
                           (r ++ alr)).
      { apply incl_app; apply incl_appr; [|exact Hrg].
        eapply incl_tran; [|exact Hmono]. apply map_sapp_in; [exact Hsg|]. eapply incl_tran; eassumption. }
      assert (Hr : incl r (r ++ alr)) by apply incl_appl, incl_refl.
      assert (Hscr : incl (r ++ sc) (r ++ alr)) by (apply incl_app; assumption).
      apply cse_op_cases in Hc. cbv zeta in Hc.
      destruct Hc as [(-> & -> & ->) | [(Ht & -> & -> & -> & _) | [(Ht & en & Hg & -> & -> & -> & _) | (Ht & -> & -> & -> & _)]]].
      + exact (conj Hment (conj Hscr (conj Hsg' Hkn'))).
      + exact (conj Hment (conj Hscr (conj Hsg' Hkn'))).
      + split; [exact Hment|]. split; [exact Hscr|]. split; [|exact Hkn'].
        apply kget_some in Hg. destruct Hg as [Hin _].
        apply sg_in_sadd; [exact Hsg' | exact Hr | apply (Hkn' en Hin)].
      + split; [exact Hment|]. split; [exact Hscr|]. split; [exact Hsg'|].
        apply kn_in_kset; [exact Hkn' | | exact Hr |]; eapply incl_tran; try exact Hment.
        * apply incl_appl, incl_refl.
        * apply incl_appr, incl_refl.
    - intros used kn sg sc al al1 _ _ x [].
    - intros rg IHr rs IHrs used kn sg sc al al1 H Hs. simpl in H.
      destruct (wf_region sc al rg) as [al0|] eqn:Hr; [|discriminate].
      pose proof (proj1 (proj2 (proj2 wf_mono_all)) _ _ _ _ Hr) as Hm0.
      pose proof (proj1 (proj2 wf_mono_all) _ _ _ _ H) as Hm1.
      rewrite cse_regions_cons. simpl. apply incl_app.
      + eapply incl_tran; [|exact Hm1]. exact (IHr _ _ _ _ _ _ Hr Hs).
      + exact (IHrs _ _ _ _ _ _ H (scoped_mono _ _ _ _ _ Hs Hm0)).
    - intros used kn sg sc al al1 _ _ x [].
    - intros ba b IH used kn sg sc al al1 H Hs.
      apply wf_single_inv in H. destruct H as (_ & _ & H).
      rewrite cse_region_single. simpl. exact (IH _ _ _ _ _ _ _ H (scoped_enter _ _ _ _ ba Hs)).
    - intros t c used kn sg sc al al1 H (Hsc & Hsg & _). simpl in H.
      destruct (forallb (fun a => memb a sc) c) eqn:Hc; [|discriminate].
      injection H as <-.
      rewrite cse_region_multi. simpl. apply map_sapp_in; [exact Hsg|].
      eapply incl_tran; [apply forallb_memb_incl; eassumption | exact Hsc].
    - intros used kn sg prefix sc al al1 _ _ x [].
    - intros o IHo os IHos used kn sg prefix sc al al1 H Hs. simpl in H.
      destruct (wf_op sc al o) as [al0|] eqn:Ho; [|discriminate].
      rewrite cse_ops_cons.
      destruct (cseo used kn sg prefix o) as [[o' kn'] sg'] eqn:Hc.
      destruct (IHo _ _ _ _ _ _ _ _ _ _ Ho Hs Hc) as (Hm & Hs').
      simpl. apply incl_app.
      + eapply incl_tran; [exact Hm|]. exact (proj2 (proj2 (proj2 wf_mono_all)) _ _ _ _ H).
      + exact (IHos _ _ _ _ _ _ _ H Hs').
  Qed.

  Lemma cse_op_scope : forall used kn sg sc al (i : bool) a r rg alr,
      incl a sc -> wf_regions sc al rg = Some alr -> (forall x, In x r -> ~ In x alr) ->
      scoped sc al sg kn ->
      incl al alr /\ incl (map (sapp sg) a) al /\
      incl (ment_regions (csers used (if i then @nil entry else kn) sg rg)) alr /\
      (forall x, In x al -> ~ In x r).
  Proof.
    intros used kn sg sc al i a r rg alr Ha Hwr Hdis Hs.
    pose proof (proj1 (proj2 wf_mono_all) _ _ _ _ Hwr) as Hmono.
    split; [exact Hmono|]. split; [|split].
    - destruct Hs as (Hsc & Hsg & _). apply map_sapp_in; [exact Hsg|]. eapply incl_tran; eassumption.
    - exact (proj1 (proj2 syn_all) _ used _ sg _ _ _ Hwr (scoped_iso _ _ _ _ i Hs)).
    - intros x Hx Hr. exact (Hdis x Hr (Hmono x Hx)).
  Qed.

  Lemma cse_op_head : forall used kn sg prefix o o' kn' sg',
      cseo used kn sg prefix o = (o', kn', sg') ->
      op_term o' = op_term o /\ op_args o' = map (sapp sg) (op_args o).
  Proof.
    intros used kn sg prefix [k mk t i a r rg] o' kn' sg' Hc.
    apply cse_op_cases in Hc. cbv zeta in Hc.
    destruct Hc as [(-> & _) | [(_ & -> & _) | [(_ & en & _ & -> & _) | (_ & -> & _)]]]; split; reflexivity.
  Qed.

  Variable arity : nat -> nat.
  Hypothesis osem_len : forall k a ds m, length (fst (osem k a ds m)) = arity k.

  (* the op remembered by `en` yields, in environment e and memory m, the values of its results *)
  Definition Eqen (en : entry) (e : env val) (m : mem) : Prop :=
    fst (osem (e_k en) (map e (e_args en)) (dregs (e_regs en) e) m) = map e (e_res en).
  Definition sg_ok (sg : subst) (e : env val) : Prop := forall x y, In (x, y) sg -> e x = e y.
  (* kn_ok0: every remembered op's equation held at SOME memory -- enough to reuse a pure op across writes;
     kn_loc: an entry of the current block whose position has seen no write since holds at the CURRENT
     memory -- what reusing a read-only op needs *)
  Definition kn_ok0 (kn : list entry) (e : env val) : Prop :=
    forall en, In en kn -> exists m0, Eqen en e m0.
  Definition kn_loc (kn : list entry) (prefix : list op) (e : env val) (m : mem) : Prop :=
    forall en, In en kn -> e_local en = true ->
      e_pos en <= length prefix /\
      (existsb mayw (skipn (e_pos en) prefix) = false -> Eqen en e m).

  Lemma sapp_ok : forall sg (e : env val) v, sg_ok sg e -> e (sapp sg v) = e v.
  Proof.
    induction sg as [|[x y] sg IH]; intros e v H; simpl; auto.
    destruct (Nat.eqb_spec v x) as [->|_].
    - symmetry. apply H. simpl; auto.
    - apply IH. intros x0 y0 H0. apply H. simpl; auto.
  Qed.

  Lemma map_sapp_ok : forall sg (e : env val) l, sg_ok sg e -> map e (map (sapp sg) l) = map e l.
  Proof. intros sg e l H. rewrite map_map. apply map_ext. intros v. apply sapp_ok; auto. Qed.

  Lemma Eqen_agree : forall en (e e' : env val) m,
      (forall x, In x (e_args en) -> e' x = e x) ->
      (forall x, In x (e_res en) -> e' x = e x) ->
      (forall x, In x (ment_regions (e_regs en)) -> e' x = e x) ->
      Eqen en e m -> Eqen en e' m.
  Proof.
    unfold Eqen. intros en e e' m H1 H2 H3 H.
    rewrite (map_agree e' e (e_args en)), (map_agree e' e (e_res en)); auto.
    rewrite <- H. f_equal. apply (@ok_ext _ _ _ _ _ _ _ OK).
    apply (proj1 (proj2 coinc_all)). auto.
  Qed.

  Lemma upd_inv : forall kn sg al (e : env val) ids vs,
      sg_in sg al -> kn_in kn al -> (forall x, In x al -> ~ In x ids) ->
      (sg_ok sg e -> sg_ok sg (updv e ids vs)) /\
      (forall en m, In en kn -> Eqen en e m -> Eqen en (updv e ids vs) m).
  Proof.
    intros kn sg al e ids vs Hsgin Hknin Hf. split.
    - intros Hsg x y Hxy. destruct (Hsgin x y Hxy) as [Hx Hy]. rewrite !upd_notin; auto.
    - intros en m Hen. destruct (Hknin en Hen) as (H1 & H2 & H3).
      apply Eqen_agree; intros x Hx; apply upd_notin; auto.
  Qed.

  Lemma step_inv : forall kn sg prefix al (e : env val) m k mk t i a' r rg',
      sg_in sg al -> kn_in kn al -> (forall x, In x al -> ~ In x r) ->
      sg_ok sg e -> kn_ok0 kn e -> kn_loc kn prefix e m ->
      sg_ok sg (fst (xop (Op k mk t i a' r rg') e m)) /\
      kn_ok0 kn (fst (xop (Op k mk t i a' r rg') e m)) /\
      kn_loc kn (prefix ++ [Op k mk t i a' r rg'])
             (fst (xop (Op k mk t i a' r rg') e m)) (snd (xop (Op k mk t i a' r rg') e m)).
  Proof.
    intros kn sg prefix al e m k mk t i a' r rg' Hsgin Hknin Hfresh Hsg Hk0 Hloc.
    rewrite xop_eq. cbn [fst snd].
    destruct (upd_inv kn sg al e r (fst (osem k (map e a') (dregs rg' e) m)) Hsgin Hknin Hfresh) as [U1 U2].
    split; [exact (U1 Hsg)|]. split.
    - intros en Hen. destruct (Hk0 en Hen) as [m0 Hm0]. exists m0. exact (U2 en m0 Hen Hm0).
    - intros en Hen Hl. destruct (Hloc en Hen Hl) as [Hpos Hq]. split.
      + rewrite app_length. simpl. lia.
      + (* no write since the entry, in particular not by the new op: the memory is unchanged *)
        intros Hex. rewrite skipn_app in Hex. rewrite existsb_app in Hex.
        apply orb_false_iff in Hex. destruct Hex as [Hex1 Hex2].
        replace (e_pos en - length prefix) with 0 in Hex2 by lia.
        cbn [skipn existsb] in Hex2.
        apply orb_false_iff in Hex2. destruct Hex2 as [Hex2 _].
        apply mayw_false_inv in Hex2. destruct Hex2 as [r0 He].
        pose proof (proj1 keeps_mem_all _ _ He e (map e a') m) as Hk. simpl in Hk. rewrite Hk.
        exact (U2 en m Hen (Hq Hex1)).
  Qed.

  Lemma sem_all :
    (forall o used kn sg prefix sc al al1 (e : env val) m o' kn' sg',
        wf_op sc al o = Some al1 -> scoped sc al sg kn -> arity_ok_op arity o = true ->
        sg_ok sg e -> kn_ok0 kn e -> kn_loc kn prefix e m ->
        cseo used kn sg prefix o = (o', kn', sg') ->
        xop o' e m = xop o e m /\
        sg_ok sg' (fst (xop o' e m)) /\ kn_ok0 kn' (fst (xop o' e m)) /\
        kn_loc kn' (prefix ++ [o']) (fst (xop o' e m)) (snd (xop o' e m))) /\
    (forall rs used kn sg sc al al1 (e : env val),
        wf_regions sc al rs = Some al1 -> scoped sc al sg kn -> arity_ok_regions arity rs = true ->
        sg_ok sg e -> kn_ok0 kn e ->
        Forall2 dext (dregs (csers used kn sg rs) e) (dregs rs e)) /\
    (forall rg used kn sg sc al al1 (e : env val),
        wf_region sc al rg = Some al1 -> scoped sc al sg kn -> arity_ok_region arity rg = true ->
        sg_ok sg e -> kn_ok0 kn e ->
        dext (dreg (cser used kn sg rg) e) (dreg rg e)) /\
    (forall os used kn sg prefix sc al al1 (e : env val) m,
        wf_ops sc al os = Some al1 -> scoped sc al sg kn -> arity_ok_ops arity os = true ->
        sg_ok sg e -> kn_ok0 kn e -> kn_loc kn prefix e m ->
        xops (cseos used kn sg prefix os) e m = xops os e m).
  Proof.
    apply syn_mutind.
    - intros k mk t i a r rg IH used kn sg prefix sc al al1 e m o'' kn' sg'
             Hwf Hs Har Hsg Hk0 Hloc Hc.
      apply wf_op_inv in Hwf. destruct Hwf as (alr & Ha & Hwr & Hnd & Hdis & ->).
      destruct (cse_op_scope used kn sg sc al i a r rg alr Ha Hwr Hdis Hs)
        as (Hmono & Ha'al & Hmentr & Hfresh).
      simpl in Har. apply andb_true_iff in Har. destruct Har as [Hlen Har].
      apply Nat.eqb_eq in Hlen.
      assert (Hk00 : kn_ok0 (if i then @nil entry else kn) e) by (destruct i; [intros en []|exact Hk0]).
      pose proof (IH used _ sg sc al alr e Hwr (scoped_iso _ _ _ _ i Hs) Har Hsg Hk00) as Hrg.
      destruct Hs as (Hsc & Hsgin & Hknin).
      set (rg' := csers used (if i then @nil entry else kn) sg rg) in *.
      set (a' := map (sapp sg) a) in *.
      assert (Hos : osem k (map e a') (dregs rg' e) m = osem k (map e a) (dregs rg e) m).
      { unfold a'. rewrite map_sapp_ok by exact Hsg. apply (@ok_ext _ _ _ _ _ _ _ OK). exact Hrg. }
      assert (Hx : forall mk', xop (Op k mk' t i a' r rg') e m = xop (Op k mk t i a r rg) e m).
      { intros mk'. rewrite !xop_eq. rewrite Hos. reflexivity. }
      pose proof (fun mk' => step_inv kn sg prefix al e m k mk' t i a' r rg' Hsgin Hknin Hfresh Hsg Hk0 Hloc)
        as Hstep.
      apply cse_op_cases in Hc. cbv zeta in Hc. fold rg' a' in Hc.
      destruct Hc as [(-> & -> & ->) | [(Ht & -> & -> & -> & _) |
                      [(Ht & en & Hg & -> & -> & -> & He) | (Ht & -> & -> & -> & rd & He)]]].
      + split; [apply Hx | apply Hstep].
      + cbn [set_mark]. split; [apply Hx | apply Hstep].
      + (* a known op is reused *)
        cbn [set_mark]. destruct (Hstep true) as (S1 & S2 & S3).
        split; [apply Hx|]. split; [|split; auto].
        apply kget_some in Hg. destruct Hg as (Hin & Hk & Hargs & Hreq).
        pose proof (@ok_req _ _ _ _ _ _ _ OK _ _ e Hreq) as Hre.
        assert (Hvs : fst (osem k (map e a') (dregs rg' e) m) = map e (e_res en)).
        { destruct He as [He | (He & Hl & Hex)].
          - destruct (Hk0 en Hin) as [m0 Hm0]. unfold Eqen in Hm0.
            rewrite Hk, Hargs in Hm0.
            rewrite (@ok_ext _ _ _ _ _ _ _ OK k (map e a') _ _ m0 Hre) in Hm0.
            pose proof (proj1 pure_all _ He e (map e a') m m0) as Hp. simpl in Hp.
            rewrite Hp. exact Hm0.
          - destruct (Hloc en Hin Hl) as [_ Hq]. specialize (Hq Hex). unfold Eqen in Hq.
            rewrite Hk, Hargs in Hq.
            rewrite (@ok_ext _ _ _ _ _ _ _ OK k (map e a') _ _ m Hre) in Hq. exact Hq. }
        intros x y Hxy. apply sadd_In in Hxy. destruct Hxy as [Hxy|Hxy]; [|apply S1; auto].
        rewrite xop_eq. cbn [fst]. rewrite Hvs.
        rewrite (upd_combine e r (e_res en) x y Hnd Hxy).
        symmetry. apply upd_notin. apply Hfresh.
        apply (proj1 (proj2 (Hknin en Hin))). eapply in_combine_r; eauto.
      + (* the op is remembered *)
        destruct (Hstep mk) as (S1 & S2 & S3).
        split; [apply Hx|]. split; auto.
        pose proof (xop_keeps_mem _ _ He e m) as Hm1.
        assert (Hnew : forall en', e_k en' = k -> e_args en' = a' -> e_res en' = r ->
                   (e_regs en' = rg' \/
                    (req (e_regs en') rg' = true /\ exists en, In en kn /\ e_regs en' = e_regs en)) ->
                   Eqen en' (fst (xop (Op k mk t i a' r rg') e m)) m).
        { intros en' H1 H2 H3 H6. unfold Eqen. rewrite H1, H2, H3.
          rewrite xop_eq. cbn [fst].
          set (vs := fst (osem k (map e a') (dregs rg' e) m)).
          set (e1 := updv e r vs).
          assert (Hre : Forall2 dext (dregs (e_regs en') e1) (dregs rg' e1)).
          { destruct H6 as [->|[H6 _]]; [apply F2_dext_refl | apply (@ok_req _ _ _ _ _ _ _ OK); auto]. }
          rewrite (@ok_ext _ _ _ _ _ _ _ OK k (map e1 a') _ _ m Hre).
          pose proof (proj1 coinc_all (Op k mk t i a' r rg') e1 e) as Hco. simpl in Hco.
          rewrite Hco.
          - fold vs. symmetry. apply map_upd_same; auto.
            unfold vs. rewrite osem_len. auto.
          - (* the op does not mention its own results *)
            intros x Hx0. unfold e1. apply upd_notin. intros Hin. apply (Hdis x Hin).
            apply in_app_or in Hx0. destruct Hx0 as [Hx0|Hx0]; [apply Hmono, Ha'al, Hx0 | apply Hmentr, Hx0]. }
        split.
        * intros en' Hen'. apply kset_In in Hen'.
          destruct Hen' as [H|(H1 & H2 & H3 & H4 & H5 & H6)]; [apply S2; auto|].
          exists m. apply Hnew; auto.
        * intros en' Hen' Hl'. apply kset_In in Hen'.
          destruct Hen' as [H|(H1 & H2 & H3 & H4 & H5 & H6)]; [apply S3; auto|].
          rewrite H5. split; [rewrite app_length; lia|].
          intros _. rewrite Hm1. apply Hnew; auto.
    - intros. rewrite cse_regions_nil. constructor.
    - intros rg IHr rs IHrs used kn sg sc al al1 e Hwf Hs Har Hsg Hk0.
      simpl in Hwf, Har.
      destruct (wf_region sc al rg) as [al0|] eqn:Hr; [|discriminate].
      apply andb_true_iff in Har. destruct Har as [Har1 Har2].
      pose proof (proj1 (proj2 (proj2 wf_mono_all)) _ _ _ _ Hr) as Hm0.
      rewrite cse_regions_cons, !dregs_cons. constructor.
      + exact (IHr _ _ _ _ _ _ e Hr Hs Har1 Hsg Hk0).
      + exact (IHrs _ _ _ _ _ _ e Hwf (scoped_mono _ _ _ _ _ Hs Hm0) Har2 Hsg Hk0).
    - intros. rewrite cse_region_empty. apply dext_refl.
    - (* RSingle: the block arguments are new, and no remembered op is local to the new block *)
      intros ba b IH used kn sg sc al al1 e Hwf Hs Har Hsg Hk0 vs m.
      apply wf_single_inv in Hwf. destruct Hwf as (Hnd & Hdis & Hwf). simpl in Har.
      rewrite cse_region_single, !dreg_single.
      destruct (upd_inv kn sg al e ba vs (proj1 (proj2 Hs)) (proj2 (proj2 Hs))
                        (fun x Hx Hb => Hdis x Hb Hx)) as [U1 U2].
      apply (IH used _ sg [] _ _ al1 _ m Hwf (scoped_enter _ _ _ _ ba Hs) Har (U1 Hsg)).
      + intros en Hen. apply in_map_iff in Hen. destruct Hen as (en0 & <- & Hen0).
        destruct (Hk0 en0 Hen0) as [m0 Hm0]. exists m0. exact (U2 en0 m0 Hen0 Hm0).
      + intros en Hen Hl. apply in_map_iff in Hen. destruct Hen as (en0 & <- & Hen0). discriminate Hl.
    - intros t c used kn sg sc al al1 e Hwf Hs Har Hsg Hk0.
      rewrite cse_region_multi, !dreg_multi. rewrite map_sapp_ok; auto. apply dext_refl.
    - intros. rewrite cse_ops_nil. reflexivity.
    - intros o IHo os IHos used kn sg prefix sc al al1 e m Hwf Hs Har Hsg Hk0 Hloc.
      simpl in Hwf, Har.
      destruct (wf_op sc al o) as [al0|] eqn:Ho; [|discriminate].
      apply andb_true_iff in Har. destruct Har as [Har1 Har2].
      rewrite cse_ops_cons.
      destruct (cseo used kn sg prefix o) as [[o' kn'] sg'] eqn:Hc.
      destruct (IHo _ _ _ _ _ _ _ _ _ _ _ _ Ho Hs Har1 Hsg Hk0 Hloc Hc) as (Hx & S1 & S2 & S3).
      destruct (proj1 syn_all _ _ _ _ _ _ _ _ _ _ _ Ho Hs Hc) as (_ & Hs').
      destruct (cse_op_head _ _ _ _ _ _ _ _ Hc) as [Et Ea].
      rewrite !xops_cons, Et, Ea. destruct (op_term o).
      + rewrite map_sapp_ok; auto.
      + rewrite <- Hx. exact (IHos _ _ _ _ _ _ _ _ _ Hwf Hs' Har2 S1 S2 S3).
  Qed.

  Theorem cse_mark_preserves_s : forall free r,
      wf_program free r = true -> arity_ok arity r = true ->
      forall e vs m, dreg (cse_mark eff_of meff_of req r) e vs m = dreg r e vs m.
  Proof.
    intros free r Hwf Har e vs m. unfold wf_program in Hwf.
    destruct (wf_region free free r) as [al1|] eqn:Hr; [|discriminate].
    unfold cse_mark.
    apply (proj1 (proj2 (proj2 sem_all)) r _ [] [] free free al1 e Hr (scoped_nil free) Har).
    - intros x y [].
    - intros en [].
  Qed.

  (* The program produced by CSE yields the same values and the same final memory.  `arity` and `osem_len`
     say that the number of results is a function of the op kind k (k interns the result types). *)
  Theorem cse_preserves : forall free r r',
      wf_program free r = true -> arity_ok arity r = true ->
      cse eff_of meff_of req r = Some r' ->
      forall e vs m, dreg r' e vs m = dreg r e vs m.
  Proof.
    intros free r r' Hwf Har Hc e vs m. unfold cse in Hc.
    rewrite (commit_preserves_s _ _ (cse_mark_marks_ok_s r (wf_program_unmarked free r Hwf)) Hc).
    exact (cse_mark_preserves_s free r Hwf Har e vs m).
  Qed.

  Lemma sapp_sadd_notin : forall sg f t v, ~ In v f -> sapp (sadd sg f t) v = sapp sg v.
  Proof.
    intros sg f; induction f as [|x f IH]; intros [|y t] v H; simpl; auto.
    destruct (Nat.eqb_spec v x) as [->|_].
    - destruct H. simpl; auto.
    - apply IH. intros Hf. apply H. simpl; auto.
  Qed.

  Lemma sapp_sadd_in : forall sg f t v,
      In v f -> length f <= length t -> In (sapp (sadd sg f t) v) t.
  Proof.
    intros sg f; induction f as [|x f IH]; intros t v H Hl; simpl in *; [tauto|].
    destruct t as [|y t]; simpl in *; [lia|].
    destruct (Nat.eqb v x) eqn:E; auto.
    right. apply IH; [|lia]. destruct H as [H|H]; auto.
    subst. rewrite Nat.eqb_refl in E. discriminate.
  Qed.

  (* D = the results of the ops marked so far.  Values of the input still in use are never renamed
     to one of them, and no remembered op is among them. *)
  Definition live (used sc : list vid) (sg : subst) (D : list vid) : Prop :=
    forall v, In v sc -> In v used -> ~ In (sapp sg v) D.
  Definition klive (kn : list entry) (D : list vid) : Prop :=
    forall en, In en kn ->
      length (e_res en) = arity (e_k en) /\ forall y, In y (e_res en) -> ~ In y D.
  Definition alive (used sc al : list vid) (sg : subst) (kn : list entry) (D : list vid) : Prop :=
    incl D al /\ live used sc sg D /\ klive kn D.

  Lemma alive_grow : forall used sc al al' sg kn D M,
      scoped sc al sg kn -> alive used sc al sg kn D ->
      incl al al' -> incl M al' -> (forall x, In x M -> ~ In x al) ->
      alive used sc al' sg kn (M ++ D).
  Proof.
    intros used sc al al' sg kn D M (Hsc & Hsg & Hkn) (HD & Hl & Hk) Hal HM HMf. split; [|split].
    - apply incl_app; [exact HM | eapply incl_tran; eassumption].
    - intros v Hv Hvu Hin. apply in_app_or in Hin. destruct Hin as [Hin|Hin].
      + apply (HMf _ Hin). apply sapp_in; auto.
      + exact (Hl v Hv Hvu Hin).
    - intros en Hen. destruct (Hk en Hen) as [K1 K2]. split; [exact K1|].
      intros y Hy Hin. apply in_app_or in Hin. destruct Hin as [Hin|Hin].
      + apply (HMf _ Hin). apply (proj1 (proj2 (Hkn en Hen))). exact Hy.
      + exact (K2 y Hy Hin).
  Qed.

  Lemma alive_iso : forall used sc al sg kn D (i : bool),
      alive used sc al sg kn D -> alive used sc al sg (if i then [] else kn) D.
  Proof.
    intros used sc al sg kn D [|] H; [|exact H]. destruct H as (HD & Hl & _).
    split; [exact HD|]. split; [exact Hl|intros en []].
  Qed.

  Lemma alive_enter : forall used sc al sg kn D ba,
      scoped sc al sg kn -> alive used sc al sg kn D -> (forall x, In x ba -> ~ In x al) ->
      alive used (ba ++ sc) (ba ++ al) sg (map unlocal kn) D.
  Proof.
    intros used sc al sg kn D ba (Hsc & Hsg & Hkn) (HD & Hl & Hk) Hdis. split; [|split].
    - apply incl_appr, HD.
    - intros v Hv Hvu. apply in_app_or in Hv. destruct Hv as [Hv|Hv]; [|exact (Hl v Hv Hvu)].
      rewrite (sapp_fresh sg al v Hsg (Hdis v Hv)). intros HvD. exact (Hdis v Hv (HD v HvD)).
    - intros en Hen. apply in_map_iff in Hen. destruct Hen as (en0 & <- & Hen0). exact (Hk en0 Hen0).
  Qed.

  (* a rewritten piece with mentions A and marks M, walked from `al` to `al1` with dead values D:
     it mentions neither a dead value nor one of its own marks, and its marks are defined by it *)
  Definition clean (A M D al al1 : list vid) : Prop :=
    (forall x, In x A -> ~ In x D /\ ~ In x M) /\ incl M al1 /\ (forall x, In x M -> ~ In x al).

  Lemma clean_nil : forall D al al1, clean [] [] D al al1.
  Proof. intros D al al1. split; [intros x []|]. split; intros x []. Qed.

  (* two consecutive pieces; the second is walked with the marks of the first added to D *)
  Lemma clean_app : forall A1 M1 A2 M2 D al al0 al1,
      incl al al0 -> incl al0 al1 -> incl A1 al0 ->
      clean A1 M1 D al al0 -> clean A2 M2 (M1 ++ D) al0 al1 ->
      clean (A1 ++ A2) (M1 ++ M2) D al al1.
  Proof.
    intros A1 M1 A2 M2 D al al0 al1 H0 H1 HA (Ra & Rd1 & Rd2) (Sa & Sd1 & Sd2). split; [|split].
    - intros x Hx. apply in_app_or in Hx. destruct Hx as [Hx|Hx].
      + destruct (Ra x Hx) as [R1 R2]. split; [exact R1|].
        intros Hm. apply in_app_or in Hm. destruct Hm as [Hm|Hm]; [exact (R2 Hm)|].
        exact (Sd2 x Hm (HA x Hx)).
      + destruct (Sa x Hx) as [S1 S2]. split.
        * intros HxD. apply S1. apply in_or_app. right. exact HxD.
        * intros Hm. apply in_app_or in Hm. destruct Hm as [Hm|Hm]; [|exact (S2 Hm)].
          apply S1. apply in_or_app. left. exact Hm.
    - apply incl_app; [eapply incl_tran; eassumption | exact Sd1].
    - intros x Hx Hal. apply in_app_or in Hx. destruct Hx as [Hx|Hx]; [exact (Rd2 x Hx Hal)|].
      exact (Sd2 x Hx (H0 x Hal)).
  Qed.

  Lemma clean_op : forall (mk : bool) a' r Arg Mrg D al alr,
      incl al alr -> incl a' al -> (forall x, In x a' -> ~ In x D) ->
      (forall x, In x r -> ~ In x alr) -> incl Arg alr ->
      clean Arg Mrg D al alr ->
      clean (a' ++ Arg) ((if mk then r else []) ++ Mrg) D al (r ++ alr).
  Proof.
    intros mk a' r Arg Mrg D al alr Hmono Ha' Ha'D Hdis HArg (Ra & Rd1 & Rd2).
    assert (Hr : forall x, In x (if mk then r else []) -> In x r) by (destruct mk; [auto|intros x []]).
    split; [|split].
    - intros x Hx. apply in_app_or in Hx. destruct Hx as [Hx|Hx].
      + split; [exact (Ha'D x Hx)|]. intros Hm. apply in_app_or in Hm. destruct Hm as [Hm|Hm].
        * exact (Hdis x (Hr x Hm) (Hmono x (Ha' x Hx))).
        * exact (Rd2 x Hm (Ha' x Hx)).
      + destruct (Ra x Hx) as [R1 R2]. split; [exact R1|].
        intros Hm. apply in_app_or in Hm. destruct Hm as [Hm|Hm]; [|exact (R2 Hm)].
        exact (Hdis x (Hr x Hm) (HArg x Hx)).
    - apply incl_app; [|apply incl_appr, Rd1]. intros x Hx. apply in_or_app. left. exact (Hr x Hx).
    - intros x Hx Hal. apply in_app_or in Hx. destruct Hx as [Hx|Hx]; [|exact (Rd2 x Hx Hal)].
      exact (Hdis x (Hr x Hx) (Hmono x Hal)).
  Qed.

  (* never raises: no marked result is mentioned by what phase 1 produces, so `commit` finds no use *)
  Lemma nr_all : forall used,
    (forall o kn sg prefix sc al al1 D o' kn' sg',
        wf_op sc al o = Some al1 -> scoped sc al sg kn -> alive used sc al sg kn D ->
        arity_ok_op arity o = true -> unmarked_op o = true -> incl (ment_op o) used ->
        cseo used kn sg prefix o = (o', kn', sg') ->
        clean (ment_op o') (marked_op o') D al al1 /\
        alive used (op_res o ++ sc) al1 sg' kn' (marked_op o' ++ D)) /\
    (forall rs kn sg sc al al1 D,
        wf_regions sc al rs = Some al1 -> scoped sc al sg kn -> alive used sc al sg kn D ->
        arity_ok_regions arity rs = true -> unmarked_regions rs = true ->
        incl (ment_regions rs) used ->
        clean (ment_regions (csers used kn sg rs)) (marked_regions (csers used kn sg rs)) D al al1) /\
    (forall rg kn sg sc al al1 D,
        wf_region sc al rg = Some al1 -> scoped sc al sg kn -> alive used sc al sg kn D ->
        arity_ok_region arity rg = true -> unmarked_region rg = true ->
        incl (ment_region rg) used ->
        clean (ment_region (cser used kn sg rg)) (marked_region (cser used kn sg rg)) D al al1) /\
    (forall os kn sg prefix sc al al1 D,
        wf_ops sc al os = Some al1 -> scoped sc al sg kn -> alive used sc al sg kn D ->
        arity_ok_ops arity os = true -> unmarked_ops os = true ->
        incl (ment_ops os) used ->
        clean (ment_ops (cseos used kn sg prefix os)) (marked_ops (cseos used kn sg prefix os)) D al al1).
  Proof.
    intros used. apply syn_mutind.
    - intros k mk t i a r rg IH kn sg prefix sc al al1 D o'' kn' sg' Hwf Hs Hlv Har Hu Hment Hc.
      apply wf_op_inv in Hwf. destruct Hwf as (alr & Ha & Hwr & Hnd & Hdis & ->).
      destruct (cse_op_scope used kn sg sc al i a r rg alr Ha Hwr Hdis Hs)
        as (Hmono & Ha'al & Hmentr & Hfresh).
      simpl in Har, Hu, Hment.
      apply andb_true_iff in Har. destruct Har as [Hlen Har]. apply Nat.eqb_eq in Hlen.
      apply andb_true_iff in Hu. destruct Hu as [Hmk Hu]. destruct mk; [discriminate|].
      apply incl_app_inv in Hment. destruct Hment as [Hma Hmrg].
      pose proof (IH _ sg sc al alr D Hwr (scoped_iso _ _ _ _ i Hs) (alive_iso _ _ _ _ _ _ i Hlv) Har Hu Hmrg)
        as Hcl.
      pose proof Hs as (Hsc & Hsgin & Hknin). pose proof Hlv as (HD & Hlive & Hklive).
      set (rg' := csers used (if i then @nil entry else kn) sg rg) in *.
      set (a' := map (sapp sg) a) in *.
      assert (Ha'D : forall x, In x a' -> ~ In x D).
      { intros x Hx. apply in_map_iff in Hx. destruct Hx as (v & <- & Hv).
        exact (Hlive v (Ha v Hv) (Hma v Hv)). }
      pose proof (fun mk' => clean_op mk' a' r _ _ D al alr Hmono Ha'al Ha'D Hdis Hmentr Hcl) as HA.
      assert (HG : forall mk', alive used sc (r ++ alr) sg kn (marked_op (Op k mk' t i a' r rg') ++ D)).
      { intros mk'. destruct (HA mk') as (_ & M1 & M2).
        apply (alive_grow used sc al); try assumption. apply incl_appr, Hmono. }
      (* the results of the op itself are neither dead nor marked inside its regions *)
      assert (HDr : incl (marked_regions rg' ++ D) alr).
      { apply incl_app; [apply Hcl | eapply incl_tran; eassumption]. }
      assert (HLu : live used (r ++ sc) sg (marked_op (Op k false t i a' r rg') ++ D)).
      { intros v Hv Hvu. apply in_app_or in Hv.
        destruct Hv as [Hv|Hv]; [|exact (proj1 (proj2 (HG false)) v Hv Hvu)].
        rewrite (sapp_fresh sg al v Hsgin (fun H => Hfresh v H Hv)).
        intros Hin. exact (Hdis v Hv (HDr v Hin)). }
      apply cse_op_cases in Hc. cbv zeta in Hc. fold rg' a' in Hc. cbn [op_res].
      destruct Hc as [(-> & -> & ->) | [(Ht & -> & -> & -> & Hdu & _) |
                      [(Ht & en & Hg & -> & -> & -> & _) | (Ht & -> & -> & -> & _)]]].
      + split; [apply HA|]. destruct (HG false) as (G1 & _ & G3). exact (conj G1 (conj HLu G3)).
      + (* dead op: none of its results is used *)
        cbn [set_mark]. split; [apply (HA true)|]. destruct (HG true) as (G1 & G2 & G3).
        split; [exact G1|]. split; [|exact G3].
        intros v Hv Hvu. apply in_app_or in Hv. destruct Hv as [Hv|Hv]; [|exact (G2 v Hv Hvu)].
        destruct (disjointb_spec _ _ Hdu v Hv Hvu).
      + (* replaced op: its results are renamed to those of a remembered op *)
        cbn [set_mark]. split; [apply (HA true)|]. destruct (HG true) as (G1 & G2 & G3).
        split; [exact G1|]. split; [|exact G3].
        apply kget_some in Hg. destruct Hg as (Hin & Hk & _).
        destruct (Hklive en Hin) as [K1 K2].
        intros v Hv Hvu. apply in_app_or in Hv. destruct Hv as [Hv|Hv].
        * assert (Hy : In (sapp (sadd sg r (e_res en)) v) (e_res en)).
          { apply sapp_sadd_in; [exact Hv|]. rewrite K1, Hk, Hlen. apply le_n. }
          intros Hin'. apply in_app_or in Hin'. destruct Hin' as [Hin'|Hin'].
          -- exact (proj2 (proj2 (HA true)) _ Hin' (proj1 (proj2 (Hknin en Hin)) _ Hy)).
          -- exact (K2 _ Hy Hin').
        * rewrite sapp_sadd_notin; [exact (G2 v Hv Hvu)|]. intros Hr. exact (Hfresh v (Hsc v Hv) Hr).
      + split; [apply HA|]. destruct (HG false) as (G1 & _ & G3).
        split; [exact G1|]. split; [exact HLu|].
        intros en' Hen'. apply kset_In in Hen'.
        destruct Hen' as [H|(H1 & _ & H3 & _)]; [exact (G3 en' H)|].
        rewrite H1, H3. split; [exact Hlen|].
        intros y Hy Hin. exact (Hdis y Hy (HDr y Hin)).
    - intros. rewrite cse_regions_nil. apply clean_nil.
    - intros rg IHr rs IHrs kn sg sc al al1 D Hwf Hs Hlv Har Hu Hment.
      simpl in Hwf, Har, Hu, Hment.
      destruct (wf_region sc al rg) as [al0|] eqn:Hr; [|discriminate].
      apply andb_true_iff in Har. destruct Har as [Har1 Har2].
      apply andb_true_iff in Hu. destruct Hu as [Hu1 Hu2].
      pose proof (proj1 (proj2 (proj2 wf_mono_all)) _ _ _ _ Hr) as Hm0.
      pose proof (proj1 (proj2 wf_mono_all) _ _ _ _ Hwf) as Hm1.
      apply incl_app_inv in Hment. destruct Hment as [Hme1 Hme2].
      pose proof (IHr kn sg sc al al0 D Hr Hs Hlv Har1 Hu1 Hme1) as C1.
      pose proof (proj1 (proj2 (proj2 syn_all)) _ used _ _ _ _ _ Hr Hs) as Hmr.
      rewrite cse_regions_cons. simpl.
      apply (clean_app _ _ _ _ D al al0 al1 Hm0 Hm1 Hmr C1).
      apply (IHrs kn sg sc al0 al1 _ Hwf (scoped_mono _ _ _ _ _ Hs Hm0)); [|exact Har2|exact Hu2|exact Hme2].
      destruct C1 as (_ & M1 & M2). apply (alive_grow used sc al); assumption.
    - intros. rewrite cse_region_empty. apply clean_nil.
    - intros ba b IH kn sg sc al al1 D Hwf Hs Hlv Har Hu Hment.
      apply wf_single_inv in Hwf. destruct Hwf as (Hnd & Hdis & Hwf).
      simpl in Har, Hu, Hment. rewrite cse_region_single. simpl.
      destruct (IH (map unlocal kn) sg [] (ba ++ sc) (ba ++ al) al1 D Hwf (scoped_enter _ _ _ _ ba Hs)
                   (alive_enter _ _ _ _ _ _ ba Hs Hlv Hdis) Har Hu Hment) as (Ba & Bd1 & Bd2).
      split; [exact Ba|]. split; [exact Bd1|].
      intros x Hx Hal. apply (Bd2 x Hx). apply in_or_app. right. exact Hal.
    - intros t c kn sg sc al al1 D Hwf Hs Hlv Har Hu Hment.
      simpl in Hwf, Hment.
      destruct (forallb (fun a => memb a sc) c) eqn:Hc; [|discriminate].
      rewrite cse_region_multi. simpl. split; [|split; intros x []].
      intros x Hx. split; [|intros []]. apply in_map_iff in Hx. destruct Hx as (v & <- & Hv).
      apply (proj1 (proj2 Hlv)); [exact (forallb_memb_incl _ _ Hc v Hv) | exact (Hment v Hv)].
    - intros. rewrite cse_ops_nil. apply clean_nil.
    - intros o IHo os IHos kn sg prefix sc al al1 D Hwf Hs Hlv Har Hu Hment.
      simpl in Hwf, Har, Hu, Hment.
      destruct (wf_op sc al o) as [al0|] eqn:Ho; [|discriminate].
      apply andb_true_iff in Har. destruct Har as [Har1 Har2].
      apply andb_true_iff in Hu. destruct Hu as [Hu1 Hu2].
      rewrite cse_ops_cons.
      destruct (cseo used kn sg prefix o) as [[o' kn'] sg'] eqn:Hc.
      apply incl_app_inv in Hment. destruct Hment as [Hme1 Hme2].
      destruct (IHo _ _ _ _ _ _ _ _ _ _ Ho Hs Hlv Har1 Hu1 Hme1 Hc) as (C1 & Hlv').
      destruct (proj1 syn_all _ _ _ _ _ _ _ _ _ _ _ Ho Hs Hc) as (Hmo & Hs').
      simpl.
      apply (clean_app _ _ _ _ D al al0 al1 (proj1 wf_mono_all _ _ _ _ Ho)
                       (proj2 (proj2 (proj2 wf_mono_all)) _ _ _ _ Hwf) Hmo C1).
      exact (IHos kn' sg' (prefix ++ [o']) _ al0 al1 _ Hwf Hs' Hlv' Har2 Hu2 Hme2).
  Qed.

  Theorem cse_never_raises : forall free r,
      wf_program free r = true -> arity_ok arity r = true ->
      cse eff_of meff_of req r <> None.
  Proof.
    intros free r Hwf Har. unfold cse, commit, cse_mark.
    unfold wf_program in Hwf.
    destruct (wf_region free free r) as [al1|] eqn:Hr; [|discriminate].
    destruct (proj1 (proj2 (proj2 (nr_all (ment_region r)))) r [] [] free free al1 [] Hr (scoped_nil free))
      as (Ra & _); auto.
    - split; [intros x []|]. split; [intros v _ _ []|intros en []].
    - apply incl_refl.
    - rewrite disjointb_intro; [discriminate|].
      intros x Hmk Hme. exact (proj2 (Ra x Hme) Hmk).
  Qed.

End CSEProofs.


(* the Section results once more with every parameter written out (`_s` = the form inside the Section) *)
Theorem cse_mark_preserves :
  forall (val mem : Type)
         (osem : nat -> list val -> list (rden val mem) -> mem -> list val * mem)
         (mden : nat -> list val -> rden val mem)
         (eff_of : nat -> eff) (meff_of : nat -> effs) (req : regions -> regions -> bool),
    sem_ok val mem osem mden eff_of meff_of req ->
    forall arity : nat -> nat,
    (forall k a ds m, length (fst (osem k a ds m)) = arity k) ->
    forall (free : list vid) (r : region),
      wf_program free r = true ->
      arity_ok arity r = true ->
      forall e vs m,
        den_region val mem osem mden (cse_mark eff_of meff_of req r) e vs m =
        den_region val mem osem mden r e vs m.
Proof. exact cse_mark_preserves_s. Qed.

Theorem commit_preserves :
  forall (val mem : Type)
         (osem : nat -> list val -> list (rden val mem) -> mem -> list val * mem)
         (mden : nat -> list val -> rden val mem)
         (eff_of : nat -> eff) (meff_of : nat -> effs) (req : regions -> regions -> bool),
    sem_ok val mem osem mden eff_of meff_of req ->
    forall q q' : region,
      marks_ok eff_of meff_of q = true ->
      commit q = Some q' ->
      forall e vs m,
        den_region val mem osem mden q' e vs m = den_region val mem osem mden q e vs m.
Proof. exact commit_preserves_s. Qed.

Theorem cse_mark_marks_ok_unmarked :
  forall (eff_of : nat -> eff) (meff_of : nat -> effs) (req : regions -> regions -> bool) (r : region),
    unmarked_region r = true ->
    marks_ok eff_of meff_of (cse_mark eff_of meff_of req r) = true.
Proof. exact cse_mark_marks_ok_s. Qed.

Theorem cse_mark_marks_ok :
  forall (eff_of : nat -> eff) (meff_of : nat -> effs) (req : regions -> regions -> bool)
         (free : list vid) (r : region),
    wf_program free r = true ->
    marks_ok eff_of meff_of (cse_mark eff_of meff_of req r) = true.
Proof.
  intros eff_of meff_of req free r Hwf. apply cse_mark_marks_ok_s.
  exact (wf_program_unmarked free r Hwf).
Qed.


Definition ex_eff (k : nat) : eff :=
  match k mod 5 with 0 => EPure | 1 => ERead | 2 => EWrite | 3 => ERec | _ => EUnk end.
Definition ex_meff (t : nat) : effs := None.
Definition ex_req (a b : regions) : bool :=
  match a, b with RNil, RNil => true | _, _ => false end.
Definition ex_arity (k : nat) : nat := match k with 5 => 1 | 6 => 1 | _ => 0 end.
Fixpoint ops_of (l : list op) : ops :=
  match l with [] => ONil | o :: l' => OCons o (ops_of l') end.

Definition ex_p : region :=
  RSingle [0] (ops_of
    [Op 5 false false false [0] [1] RNil;
     Op 5 false false false [0] [2] RNil;
     Op 6 false false false [1] [3] RNil;
     Op 6 false false false [2] [4] RNil;
     Op 7 false false false [0] [] RNil;
     Op 6 false false false [2] [5] RNil;
     Op 6 false false false [1] [6] RNil;
     Op 9 false true false [3; 4; 5; 6] [] RNil]).

Definition ex_q : region :=
  RSingle [0] (ops_of
    [Op 5 false false false [0] [1] RNil;
     Op 6 false false false [1] [3] RNil;
     Op 7 false false false [0] [] RNil;
     Op 6 false false false [1] [5] RNil;
     Op 9 false true false [3; 3; 5; 5] [] RNil]).

(* the read after the write is kept, the duplicates are removed *)
Example cse_example :
  wf_program [] ex_p = true /\ arity_ok ex_arity ex_p = true /\
  cse ex_eff ex_meff ex_req ex_p = Some ex_q.
Proof. vm_compute. repeat split. Qed.
