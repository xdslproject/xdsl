(* C05/ProofsGroup.v -- optional groups: present (every element tied to the anchor is printed and read
   back) and absent (the first element declines, set_empty fills the slots with the instance's
   empty data). *)
From Coq Require Import ZArith String Bool Arith List Lia.
From XV Require Import C05.Model C05.Check C05.ProofsBase C05.ProofsTok C05.ProofsState C05.ProofsSplit
  C05.ProofsElem C05.ProofsLook.
Import ListNotations.
Local Open Scope string_scope.
Local Open Scope list_scope.

Lemma kind_of_src_varlike : forall d s, src_varlike d s = true ->
  exists k, src_kind d s = Some k /\ kind_of_src d s = k /\ k <> KSingle.
Proof.
  intros d s H. unfold src_varlike in H. unfold kind_of_src.
  destruct (src_kind d s) as [[| |]|]; try discriminate; eexists; repeat split; discriminate.
Qed.

Lemma lit_declines : forall d l ld st tail,
  untrig [GLit l] tail -> parse_elem d (ELit l ld) st tail = Some (false, st, tail).
Proof.
  intros d l ld st tail Hu. cbn [parse_elem]. destruct tail as [|t r]; [reflexivity|].
  pose proof (Hu t eq_refl (GLit l) (or_introl eq_refl)) as H. simpl in H.
  destruct t as [s' l'| | | |kw dct]; cbn [is_lit]; try reflexivity.
  simpl in H. rewrite H. reflexivity.
Qed.
Lemma lit_accepts : forall d l ld st tail,
  parse_elem d (ELit l ld) st (TLit l ld :: tail) = Some (true, st, tail).
Proof. intros. cbn [parse_elem is_lit]. rewrite String.eqb_refl. reflexivity. Qed.

Lemma src_vals_types_nil : forall i s vs, vals_src s = true -> src_vals i s = Some vs ->
  (vs = [] <-> src_types i s = []).
Proof.
  intros i s vs Hv Hs. pose proof (vals_types_length i s vs Hv Hs) as Hl.
  split; intro H.
  - subst vs. destruct (src_types i s); [reflexivity | simpl in Hl; lia].
  - rewrite H in Hl. destruct vs; [reflexivity | simpl in Hl; lia].
Qed.

Lemma src_group_elem_present : forall fx d i s e,
  IOK d i ->
  src_in_range d s = true -> src_types i s <> [] ->
  elem_in_src_group d s e = true ->
  estep fx d i e (trig_in_group d e) (match e with ETypes _ => false | _ => true end).
Proof.
  intros fx d i s e Hio Hr Hne Hin. apply estep_intro. intros st tail Ha Hu.
  destruct e as [l ld|kw rs ex|s'|s'|x y|n p k' o dflt]; cbn [elem_in_src_group] in Hin; try discriminate.
  - exists [TLit l ld], true, st. split; [reflexivity|]. split; [apply lit_accepts|].
    split; [reflexivity|]. apply reach_refl; [exact Ha | exact I].
  - apply andb_true_iff in Hin. destruct Hin as [He Hv]. apply src_eqb_eq in He. subst s'.
    destruct (vals_step d i s (trig_in_group d (EVals s)) st tail Hio Ha Hv Hr) as [vs [st' [Hvs [Hp Hst']]]];
      [cbn [trig_in_group] | | exact Hu |].
    + intros ->. left; reflexivity.
    + intros Hnil. contradiction.
    + exists (sep (map TVal vs)), true, st'. split; [cbn [print_elem]; rewrite Hvs; reflexivity|].
      split; [|split; [reflexivity | exact Hst']].
      rewrite Hp. destruct vs; [|destruct (kind_of_src d s); reflexivity].
      exfalso. apply Hne, (src_vals_types_nil i s [] Hv Hvs). reflexivity.
  - apply src_eqb_eq in Hin. subst s'.
    destruct (types_step d i s (trig_in_group d (ETypes s)) st tail Hio Ha Hr) as [flag [st' [Hp Hst']]];
      [cbn [trig_in_group] | | exact Hu |].
    + intros ->. left; reflexivity.
    + intros Hnil. contradiction.
    + eexists; exists flag, st'. split; [reflexivity|]. split; [exact Hp|]. split; [discriminate | exact Hst'].
Qed.

Lemma concat_nil_nth : forall A (l : list (list A)) k, concat l = [] -> nth k l [] = [].
Proof.
  induction l as [|x r IH]; intros k H; simpl in *.
  - destruct k; reflexivity.
  - apply app_eq_nil in H. destruct H as [Hx Hr]. destruct k; [exact Hx | apply IH; exact Hr].
Qed.
Lemma concat_nil_all : forall A (l : list (list A)), concat l = [] -> l = map (fun _ => []) l.
Proof.
  induction l as [|x r IH]; intro H; simpl in *; [reflexivity|].
  apply app_eq_nil in H. destruct H as [-> Hr]. f_equal. apply IH; exact Hr.
Qed.

Lemma src_group_elem_empty : forall d i st s e,
  IOK d i -> agree d i st ->
  src_in_range d s = true -> src_varlike d s = true -> empty_ok d s = true -> src_types i s = [] ->
  elem_in_src_group d s e = true ->
  exists st', set_empty d e st = Some st' /\ reach d i st st' (elem_done d i e).
Proof.
  intros d i st s e Hio Ha Hr Hvl Hem Hnil Hin.
  destruct (kind_of_src_varlike d s Hvl) as [k [Hk [Hkk Hns]]]. clear Hkk.
  destruct e as [l ld|kw rs ex|s'|s'|x y|n p k' o dflt]; cbn [elem_in_src_group] in Hin; try discriminate.
  - exists st. split; [reflexivity | apply reach_refl; [exact Ha | exact I]].
  - apply andb_true_iff in Hin. destruct Hin as [He Hv]. apply src_eqb_eq in He. subst s'.
    destruct s as [j|j| |]; try discriminate.
    + simpl in Hk. destruct (nth_error (od_operands d) j) as [vd|] eqn:En; simpl in Hk; [|discriminate].
      inversion Hk; subst k.
      assert (j < length (od_operands d)) as Hj by (apply nth_error_Some; rewrite En; discriminate).
      assert (vals_of i j = []) as Hv0.
      { simpl in Hnil. unfold vals_of. apply map_eq_nil in Hnil. rewrite Hnil. reflexivity. }
      pose proof (agree_set_vals d i st j Ha Hj) as Hst. rewrite Hv0 in Hst.
      exists (set_vals j [] st). cbn [set_empty]. rewrite En. simpl.
      destruct (vd_kind vd); [congruence| |]; (split; [reflexivity | exact Hst]).
    + simpl in Hnil.
      assert (concat (map (map fst) (i_operands i)) = []) as Hc.
      { rewrite concat_map_map in *. apply map_eq_nil in Hnil. rewrite Hnil. reflexivity. }
      pose proof (agree_set_all_vals d i st Ha (build_sizes_length _ _ _ (io_osz _ _ Hio))) as Hst.
      exists (set_all_vals (map (map fst) (i_operands i)) st). cbn [set_empty].
      split; [|exact Hst].
      unfold set_all_vals. f_equal. f_equal.
      rewrite (concat_nil_all _ _ Hc) at 1. rewrite !map_map.
      assert (length (p_vals st) = length (i_operands i)) as Hl.
      { rewrite (ag_len_v _ _ _ Ha). symmetry. apply build_sizes_length, (io_osz _ _ Hio). }
      clear - Hl. revert Hl. generalize (p_vals st). generalize (i_operands i).
      induction l as [|x r IH]; intros [|y q] Hl; simpl in *; try discriminate; try reflexivity.
      f_equal. apply IH. lia.
  - apply src_eqb_eq in Hin. subst s'.
    destruct (set_types_own d i st s Hio Ha Hr) as [st' [Hs Hrest]].
    exists st'. cbn [set_empty]. rewrite Hnil in Hs. split; [exact Hs|exact Hrest].
Qed.

Lemma attr_group_elem_present : forall fx d i n p dflt a0 e gs,
  IOK d i ->
  attr_of i n p = Some a0 -> is_default a0 dflt = false ->
  elem_in_attr_group d n p dflt e = true ->
  short_lead_ok i e = true ->
  estep fx d i e gs true.
Proof.
  intros fx d i n p dflt a0 e gs Hio Hat Hnd Hin Hsl. apply estep_intro. intros st tail Ha _.
  destruct e as [l ld|kw rs ex|s'|s'|x y|n' p' k o dflt']; try discriminate.
  - exists [TLit l ld], true, st. split; [reflexivity|]. split; [apply lit_accepts|].
    split; [reflexivity|]. apply reach_refl; [exact Ha | exact I].
  - destruct (in_attr_group_inv _ _ _ _ _ _ _ _ _ Hin) as [-> [-> [-> Hdecl]]].
    destruct (parse_attr_present fx d i st n p k o dflt a0 tail Hio Ha Hdecl Hat Hnd) as [ts [st' [Hp [Hpa Hst']]]].
    { intros l -> ->. cbn [short_lead_ok] in Hsl. rewrite Hat in Hsl.
      unfold short_item. cbn [tok_lead]. rewrite Hsl. reflexivity. }
    exists ts, true, st'. split; [exact Hp|]. split; [exact Hpa|]. split; [reflexivity | exact Hst'].
Qed.
