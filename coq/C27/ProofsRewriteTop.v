(* C27/ProofsRewriteTop.v -- C27_rewrite_equiv: a successful direct match hands the rewriter function the bindings
   the statement simulation starts from (`apply_matched`); hence the same payload whenever the direct application
   rewrites, no match stays no match, and every outcome is the same on `rewrite_frag_ok`. *)
From Coq Require Import ZArith List Bool Lia.
From XV Require Import C27.Model C27.ProofsChain C27.ProofsOrder C27.ProofsMatch C27.ProofsEnv C27.ProofsRewrite C27.Proofs
                       C27.ProofsGuard C27.ProofsRewriteFull.
Import ListNotations.
Local Open Scope Z_scope.

Fixpoint nodup_pos (l : list pos) : bool :=
  match l with [] => true | p :: r => negb (mem_pos p r) && nodup_pos r end.
Definition nonlocal_entry (kp : key * pos) : bool := match fst kp with KLocal _ => false | _ => true end.
(* - the conversion recorded every pattern value at its own position (what makes the argument list of the
     rewriter function line up with the positions handed over by record_match), no local value among them,
   - as many rewriter arguments as positions *)
Definition rewrite_static_ok (fx : fixes) (P : pattern) : bool :=
  let '(preds, inp) := extract fx P in
  nodup_pos (map snd inp) && forallb nonlocal_entry inp &&
  match gen_stmts fx P inp (p_root P) rg_init (p_rw P) with
  | Some (st, _) => rg_nargs st =? zlen (rg_used st)
  | None => false
  end.

Lemma klookup_In : forall A (l : list (key * A)) k v, klookup l k = Some v -> In (k, v) l.
Proof.
  intros A l k v. induction l as [|[k' v'] l IH]; simpl; [discriminate |].
  destruct (key_eqb k' k) eqn:E; [intro H; inversion H; subst; apply key_eqb_eq in E; subst; left; reflexivity | auto].
Qed.
Lemma nodup_pos_inj_in : forall (l : list (key * pos)) k1 k2 p,
  nodup_pos (map snd l) = true -> In (k1, p) l -> In (k2, p) l -> k1 = k2.
Proof.
  induction l as [|[k q] l IH]; intros k1 k2 p Hn H1 H2; [contradiction |].
  simpl in Hn. apply andb_true_iff in Hn. destruct Hn as [Hm Hn]. apply negb_true_iff in Hm.
  assert (Hnot : forall k', In (k', q) l -> False).
  { intros k' Hk'. assert (In q (map snd l)) by (apply in_map_iff; exists (k', q); auto).
    apply mem_pos_In in H. congruence. }
  destruct H1 as [H1 | H1], H2 as [H2 | H2].
  - congruence.
  - inversion H1; subst. exfalso. eapply Hnot; exact H2.
  - inversion H2; subst. exfalso. eapply Hnot; exact H1.
  - eapply IH; eassumption.
Qed.
Lemma nonlocal_lookup : forall (inp : inputs) l, forallb nonlocal_entry inp = true -> klookup inp (KLocal l) = None.
Proof.
  induction inp as [|[k p] inp IH]; intros l H; [reflexivity |]. simpl in H. apply andb_true_iff in H. destruct H as [H1 H2].
  simpl. destruct k; simpl in *; try (apply IH; exact H2). discriminate.
Qed.

Lemma bind_args_tmp : forall args k j, rrlookup (bind_args k args) (RT j) = None.
Proof. induction args as [|a args IH]; intros k j; [reflexivity | simpl; apply IH]. Qed.
Lemma bind_args_lookup : forall args k j v, 0 <= j -> znth args j = Some v -> rrlookup (bind_args k args) (RA (k + j)) = Some v.
Proof.
  induction args as [|a args IH]; intros k j v Hj H; [rewrite znth_nil in H; discriminate |].
  simpl. destruct (k =? k + j) eqn:E.
  - apply Z.eqb_eq in E. assert (j = 0) by lia. subst j. rewrite znth_cons_0 in H. exact H.
  - apply Z.eqb_neq in E. replace j with ((j - 1) + 1) in H by lia. rewrite znth_cons_S in H by lia.
    replace (k + j) with ((k + 1) + (j - 1)) by lia. apply IH; [lia | exact H].
Qed.
Lemma all_some_znth : forall A B (f : A -> option B) l vs j p,
  all_some (map f l) = Some vs -> znth l j = Some p -> exists v, f p = Some v /\ znth vs j = Some v.
Proof.
  intros A B f. induction l as [|a l IH]; intros vs j p H Hz; [rewrite znth_nil in Hz; discriminate |].
  simpl in H. destruct (f a) as [b|] eqn:Ea; [| discriminate].
  destruct (all_some (map f l)) as [vs'|] eqn:E; [| discriminate]. inversion H; subst.
  pose proof (znth_some_range _ _ _ _ Hz) as [Hj _].
  destruct (Z.eq_dec j 0) as [-> | Hne].
  - rewrite znth_cons_0 in Hz. inversion Hz; subst. exists b. split; [exact Ea | reflexivity].
  - replace j with ((j - 1) + 1) in Hz |- * by lia. rewrite znth_cons_S in Hz by lia.
    destruct (IH _ _ _ eq_refl Hz) as (v & H1 & H2). exists v. split; [exact H1 |]. rewrite znth_cons_S by lia. exact H2.
Qed.
Lemma match_op_fresh : forall fx P pl e o x e', klookup e (KOp (op_id o)) = None -> match_op fx P pl e o x = MOk e' ->
  zlen (op_rtys o) = zlen (o_rtys x) /\ klookup e' (KOp (op_id o)) = Some (OOp (o_id x)).
Proof.
  intros fx P pl e [id name attrs operands rtys] x e' Hn H. cbn [match_op op_id op_rtys] in *. unfold bound_or in H.
  rewrite Hn in H.
  destruct (match name with Some n => negb (o_name x =? n) | None => false end); [discriminate |].
  destruct (match_attrs P x e attrs) as [| |e1]; try discriminate.
  destruct (negb (zlen operands =? zlen (o_operands x))); [discriminate |].
  destruct (match_operands_with _ e1 operands (o_operands x)) as [| |e2]; try discriminate.
  destruct (negb (zlen rtys =? zlen (o_rtys x))) eqn:E; [discriminate |].
  destruct (match_types P e2 rtys (o_rtys x)); try discriminate. injection H as <-.
  split; [apply negb_false_iff, Z.eqb_eq in E; exact E | apply klookup_cons_eq].
Qed.

Lemma eval_pos_norange : forall fx pl root p v, eval_pos fx pl root p = Some v -> norange v.
Proof.
  intros fx pl root p v H. destruct p; cbn [eval_pos] in H.
  - inversion H; exact I.
  - destruct (as_op pl (eval_pos fx pl root p)); [| discriminate]. inversion H. destruct (znth (o_operands p0) i); exact I.
  - destruct (eval_pos fx pl root p) as [[| | [k|q k] | | | |]|]; try discriminate; inversion H; try exact I.
    destruct (find_op pl q); exact I.
  - destruct (as_op pl (eval_pos fx pl root p)); [| discriminate]. inversion H. destruct ((0 <=? i) && (i <? zlen (o_rtys p0))); exact I.
  - destruct (as_op pl (eval_pos fx pl root p)); [| discriminate]. inversion H.
    destruct (if fx_attrorder fx then get_attr_or_prop p0 n else get_attr_then_prop p0 n); exact I.
  - destruct (eval_pos fx pl root p) as [[]|]; try discriminate. inversion H. exact I.
Qed.

(* the fragment of ProofsRewriteFull, as an executable check: a pdl.result in the rewrite only of a new operation whose
   result count (declared, or inferred from the replaced root) covers the index, no empty replacement list, for a root
   without declared result types only a replacement operation known to have no results, and every match-part value
   the rewrite reads is reached by the match tree *)
Definition key_reached (inp : inputs) (k : key) : bool :=
  match k with KLocal _ => true | _ => match klookup inp k with Some _ => true | None => false end end.
Definition rewrite_frag_ok (fx : fixes) (P : pattern) : bool :=
  let '(preds, inp) := extract fx P in
  frag_all (p_root P) [] (p_rw P) && forallb (fun s => forallb (key_reached inp) (stmt_keys s)) (p_rw P).

Lemma structk_dec : forall k, structk k \/ ~ structk k.
Proof. destruct k; simpl; tauto. Qed.

Lemma apply_matched : forall fx P pl x c e,
  fx_erase fx = true -> fx_range fx = true -> fx_infer fx = true ->
  match_side_conditions fx P pl -> rewrite_static_ok fx P = true ->
  find_op pl (o_id x) = Some x -> compile fx P = Some c ->
  pdl_match fx P pl x = MOk e ->
  (forall plF, run_rw fx (o_id x) (p_rw P) e pl = ROk plF -> interp_apply fx c pl (o_id x) = ROk plF) /\
  (rewrite_frag_ok fx P = true -> interp_apply fx c pl (o_id x) = run_rw fx (o_id x) (p_rw P) e pl).
Proof.
  intros fx P pl x c e Her Hra Hin (Hf & Ha & Hr & (seen' & Hlin) & Hidx) Hst Hx Hc Em.
  unfold interp_apply. rewrite Hx.
  unfold compile in Hc. unfold rewrite_static_ok in Hst. unfold rewrite_frag_ok. unfold pdl_match, extract in *.
  pose proof (sim_op fx P pl (o_id x) Hf Ha Hr (p_root P) [] [] [] seen' PRoot x (R_nil _ _ _) eq_refl Hx Hlin Hidx) as Hsim.
  destruct (extract_op fx P [] (p_root P) PRoot) as [preds inp] eqn:Eext. cbn [fst snd] in *.
  destruct (gen_stmts fx P inp (p_root P) rg_init (p_rw P)) as [[st code]|] eqn:Eg; [| discriminate].
  injection Hc as <-.
  apply andb_true_iff in Hst. destruct Hst as [Hst Hsync].
  apply andb_true_iff in Hst. destruct Hst as [Hnd Hnl]. apply Z.eqb_eq in Hsync.
  rewrite Em in Hsim. cbn [agree] in Hsim. destruct Hsim as [Hall HR].
  destruct (env_good fx P pl (p_root P) [] x e [] seen' ltac:(intros k _ H; exfalso; apply H; reflexivity) Hlin Em)
    as [(Hmono & Hcinv & Hsd & Hnew) _].
  assert (Hused : used_ok inp st) by (apply (grows_used _ _ _ (gen_stmts_grows _ _ _ _ _ _ _ _ Eg)); intros p []).
  destruct (all_some_map_some _ _ (eval_pos fx pl (o_id x)) (rg_used st)) as [args Hargs].
  { intros p Hp. destruct (Hused p Hp) as [k Hk]. eapply (R_ev _ _ _ _ _ _ HR); exact Hk. }
  assert (Him : interp_match fx {| c_matcher := gen_matcher (ordered preds) (rg_used st); c_nargs := rg_nargs st;
                                   c_rewriter := code ++ [RFinalize] |} pl x = IMatch args).
  { unfold interp_match. cbn [c_matcher]. rewrite chain_sound.
    apply (proj2 (ordered_match _ _ _ _ _ _)). apply (proj2 (seq_eval_match _ _ _ _ _ _)). split; [| exact Hargs].
    rewrite Forall_forall in Hall. exact Hall. }
  rewrite Him. cbn [c_nargs c_rewriter].
  assert (Hlen : zlen args = rg_nargs st).
  { rewrite Hsync. unfold zlen. rewrite (all_some_length _ _ _ _ _ Hargs). reflexivity. }
  rewrite Hlen, Z.eqb_refl.
  (* every value the conversion recorded is bound, to the denotation of its position *)
  assert (Hclosed : forall k p, klookup inp k = Some p -> exists v, klookup e k = Some v /\ eval_pos fx pl (o_id x) p = Some v).
  { intros k p Hk. assert (Hb : klookup e k <> None).
    { destruct (klookup e k) eqn:Ev; [discriminate |]. exfalso.
      destruct (structk_dec k) as [Hs | Hs].
      - assert (Hin' : In k seen') by (eapply (R_seen _ _ _ _ _ _ HR); [exact Hs | congruence]).
        apply (Hnew k Hin' (fun H => H)). exact Ev.
      - apply (proj1 (R_dom _ _ _ _ _ _ HR k Hs)) in Ev. congruence. }
    destruct (klookup e k) as [v|] eqn:Ev; [| congruence]. exists v. split; [reflexivity |].
    eapply (R_val _ _ _ _ _ _ HR); eassumption. }
  assert (Hnoloc : forall l, klookup inp (KLocal l) = None) by (intro l; apply nonlocal_lookup; exact Hnl).
  assert (Hinj : forall k1 k2 p, klookup inp k1 = Some p -> klookup inp k2 = Some p -> k1 = k2).
  { intros k1 k2 p H1 H2. eapply nodup_pos_inj_in; [exact Hnd | apply klookup_In; exact H1 | apply klookup_In; exact H2]. }
  assert (HArg : forall k p j, klookup inp k = Some p -> znth (rg_used st) j = Some p ->
                               exists v, klookup e k = Some v /\ rrlookup (bind_args 0 args) (RA j) = Some v).
  { intros k p j Hk Hz. destruct (Hclosed _ _ Hk) as (v & H1 & H2). exists v. split; [exact H1 |].
    destruct (all_some_znth _ _ _ _ _ _ _ Hargs Hz) as (v' & H3 & H4). assert (v' = v) by congruence. subst v'.
    pose proof (znth_some_range _ _ _ _ Hz) as [Hj _].
    replace j with (0 + j) by lia. apply bind_args_lookup; assumption. }
  destruct (Hcinv ltac:(split; intros; discriminate)) as [HCa HCt].
  destruct (match_op_fresh fx P pl [] (p_root P) x e eq_refl Em) as [Hrt Hroot].
  assert (HB : forall k p, klookup inp k = Some p -> klookup e k <> None).
  { intros k p Hk. destruct (Hclosed _ _ Hk) as (v & H1 & _). congruence. }
  assert (HI0 : Inv inp e (bind_args 0 args) e rg_init (bind_args 0 args)).
  { constructor; cbn [rg_vals rg_used rg_nargs rg_ntmp rg_init]; try discriminate; try reflexivity.
    - intros j v H. rewrite bind_args_tmp in H. discriminate.
    - intros p []. }
  split.
  - intros plF Hd.
    apply (stmts_sim fx P inp (p_root P) (o_id x) e (bind_args 0 args) (rg_used st) Her Hra Hin Hnoloc Hinj HArg HCa HCt Hroot
                     (p_rw P) rg_init st code e (bind_args 0 args) pl plF HI0 Eg (pre_refl _ _)); [| exact Hd].
    intros Hnil x' Hx'. rewrite Hx in Hx'. injection Hx' as <-. rewrite Hnil in Hrt.
    destruct (o_rtys x); [reflexivity | discriminate Hrt].
  - intro Hfrag. apply andb_true_iff in Hfrag. destruct Hfrag as [Hfa Hreach].
    apply (stmts_full fx P inp (p_root P) (o_id x) e (bind_args 0 args) (rg_used st) Her Hra Hin Hnoloc Hinj HArg HCa HCt Hroot
                      HB
                      (p_rw P) [] rg_init st code e (bind_args 0 args) pl HI0).
    + intros k v Hk. destruct (klookup inp k) as [p|] eqn:Ei.
      * eapply eval_pos_norange. eapply (R_val _ _ _ _ _ _ HR); eassumption.
      * exfalso. eapply (R_sub _ _ _ _ _ _ HR k); [congruence | exact Ei].
    + exact Eg.
    + apply pre_refl.
    + intros x' Hx'. rewrite Hx in Hx'. injection Hx' as <-. symmetry. exact Hrt.
    + apply TY_nil.
    + exact Hfa.
    + intros s Hs k Hk Hnl'. rewrite forallb_forall in Hreach. specialize (Hreach _ Hs).
      rewrite forallb_forall in Hreach. specialize (Hreach _ Hk). unfold key_reached in Hreach.
      destruct k; try (destruct (klookup inp _); [discriminate | discriminate Hreach]).
      exfalso. apply Hnl'. exact I.
Qed.

Theorem rewrite_equiv_partial : forall fx P pl x c plF,
  fx_erase fx = true -> fx_range fx = true -> fx_infer fx = true ->
  match_side_conditions fx P pl -> rewrite_static_ok fx P = true ->
  find_op pl (o_id x) = Some x -> compile fx P = Some c ->
  pdl_apply fx P pl (o_id x) = ROk plF -> interp_apply fx c pl (o_id x) = ROk plF.
Proof.
  intros fx P pl x c plF Her Hra Hin Hsc Hst Hx Hc Hd. unfold pdl_apply in Hd. rewrite Hx in Hd.
  destruct (pdl_match fx P pl x) as [| |e] eqn:Em; try discriminate.
  exact (proj1 (apply_matched fx P pl x c e Her Hra Hin Hsc Hst Hx Hc Em) plF Hd).
Qed.

Lemma run_rw_not_nomatch : forall fx root l e pl, run_rw fx root l e pl <> RNoMatch.
Proof.
  intros fx root. induction l as [|s l IH]; intros e pl; [discriminate |].
  destruct s; cbn [run_rw];
    repeat match goal with
           | |- context [match ?x with _ => _ end] => destruct x
           end; try discriminate; try apply IH.
Qed.

(* no match stays no match (the converted matcher neither records a match nor raises) *)
Theorem apply_nomatch : forall fx P pl x c,
  match_side_conditions fx P pl -> compile_guarded fx P = true ->
  find_op pl (o_id x) = Some x -> compile fx P = Some c ->
  pdl_apply fx P pl (o_id x) = RNoMatch -> interp_apply fx c pl (o_id x) = RNoMatch.
Proof.
  intros fx P pl x c Hsc Hg Hx Hc Hd. unfold pdl_apply in Hd. rewrite Hx in Hd. unfold interp_apply. rewrite Hx.
  pose proof (match_equiv fx P pl x c Hsc Hx Hc) as Hm.
  pose proof (compile_guarded_no_raise fx P pl x c Hg Hx Hc) as Hn.
  destruct (pdl_match fx P pl x) as [| |e] eqn:Em.
  - cbv beta iota in Hm. destruct (interp_match fx c pl x) as [| |args].
    + reflexivity.
    + exfalso. apply Hn. reflexivity.
    + exfalso. apply (Hm args). reflexivity.
  - discriminate Hd.
  - exfalso. eapply run_rw_not_nomatch. exact Hd.
Qed.

(* all repairs present: only static conditions on the pattern remain *)
Corollary rewrite_equiv_repaired : forall P pl x c seen',
  lin_op (p_root P) [] = Some seen' -> idx_op false (p_root P) ->
  rewrite_static_ok repaired P = true -> compile_guarded repaired P = true ->
  find_op pl (o_id x) = Some x -> compile repaired P = Some c ->
  (forall plF, pdl_apply repaired P pl (o_id x) = ROk plF -> interp_apply repaired c pl (o_id x) = ROk plF) /\
  (pdl_apply repaired P pl (o_id x) = RNoMatch -> interp_apply repaired c pl (o_id x) = RNoMatch).
Proof.
  intros P pl x c seen' Hlin Hidx Hs Hg Hx Hc.
  assert (Hsc : match_side_conditions repaired P pl).
  { repeat split; try (left; reflexivity); [exists seen'; exact Hlin | exact Hidx]. }
  split.
  - intros plF Hd. eapply rewrite_equiv_partial; try eassumption; reflexivity.
  - intro Hd. eapply apply_nomatch; eassumption.
Qed.

Theorem rewrite_equiv_full : forall fx P pl x c,
  fx_erase fx = true -> fx_range fx = true -> fx_infer fx = true ->
  match_side_conditions fx P pl -> rewrite_static_ok fx P = true -> compile_guarded fx P = true ->
  rewrite_frag_ok fx P = true ->
  find_op pl (o_id x) = Some x -> compile fx P = Some c ->
  pdl_apply fx P pl (o_id x) = interp_apply fx c pl (o_id x).
Proof.
  intros fx P pl x c Her Hra Hin Hsc Hst Hgd Hfrag Hx Hc.
  destruct (pdl_match fx P pl x) as [| |e] eqn:Em.
  - assert (Hd : pdl_apply fx P pl (o_id x) = RNoMatch) by (unfold pdl_apply; rewrite Hx, Em; reflexivity).
    rewrite Hd. symmetry. eapply apply_nomatch; eassumption.
  - pose proof (match_equiv fx P pl x c Hsc Hx Hc) as Hm. rewrite Em in Hm. destruct Hm.
  - unfold pdl_apply. rewrite Hx, Em. symmetry.
    exact (proj2 (apply_matched fx P pl x c e Her Hra Hin Hsc Hst Hx Hc Em) Hfrag).
Qed.
