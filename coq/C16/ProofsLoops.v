(* C16/ProofsLoops.v -- range folding, flattening, unrolling: iteration-space arithmetic. *)
From Coq Require Import ZArith List Bool Lia.
From XV Require Import C16.Model C16.ProofsFor.
Import ListNotations.
Local Open Scope Z_scope.

Section Iter.
Variable st : Type.

Lemma iter_from_map : forall (f g : Z -> st -> st) (phi : Z -> Z) step step',
  (forall v s, f v s = g (phi v) s) -> (forall v, phi (v + step) = phi v + step') ->
  forall n iv s, iter_from st f n iv step s = iter_from st g n (phi iv) step' s.
Proof.
  intros f g phi step step' Hf Hphi. induction n as [|n IH]; intros iv s; [reflexivity|].
  cbn [iter_from]. rewrite Hf, <- Hphi. apply IH.
Qed.

Lemma iter_from_app : forall (body : Z -> st -> st) a b iv step s,
  iter_from st body (a + b) iv step s =
  iter_from st body b (iv + Z.of_nat a * step) step (iter_from st body a iv step s).
Proof.
  intros body. induction a as [|a IH]; intros b iv step s.
  - cbn. f_equal. lia.
  - cbn [Nat.add iter_from]. rewrite IH. f_equal. lia.
Qed.
End Iter.

Lemma trip_shift : forall lb ub step c, trip (lb + c) (ub + c) step = trip lb ub step.
Proof.
  intros. unfold trip.
  replace (ub + c - (lb + c)) with (ub - lb) by lia.
  destruct (Z.ltb_spec lb ub), (Z.ltb_spec (lb + c) (ub + c)); reflexivity || lia.
Qed.

Lemma trip_scale : forall lb ub step lb' ub' c, 0 < step -> 0 < c -> ub' - lb' = (ub - lb) * c ->
  trip lb' ub' (step * c) = trip lb ub step.
Proof.
  intros lb ub step lb' ub' c Hs Hc He.
  destruct (trip_spec lb ub step Hs) as [H0 [Hub Hlb]].
  apply trip_unique; [lia|assumption|nia|nia].
Qed.

Lemma trip_mult : forall lb ub step m, 0 < step -> ub - lb = m * step ->
  trip lb ub step = Z.max 0 m.
Proof. intros lb ub step m Hs He. apply trip_unique; [assumption|lia|lia|lia]. Qed.

Lemma trip_ceil : forall lb ub step, 0 < step -> trip lb ub step = Z.max 0 (- ((lb - ub) / step)).
Proof.
  intros lb ub step Hs.
  pose proof (Z.div_mod (lb - ub) step ltac:(lia)).
  pose proof (Z.mod_pos_bound (lb - ub) step Hs).
  apply trip_unique; [assumption|lia|lia|lia].
Qed.

Section Fold.
Variable st : Type.

(* iv only used by `addi iv, c`: new range (lb+c, ub+c, step); needs no hypothesis at all *)
Theorem fold_add : forall (body : Z -> st -> st) c lb ub step s,
  for_sem st (fun iv => body (iv + c)) lb ub step s = for_sem st body (lb + c) (ub + c) step s.
Proof.
  intros. unfold for_sem. rewrite trip_shift.
  apply (iter_from_map st _ body (fun v => v + c)); [reflexivity|intros; lia].
Qed.

(* iv only used by `muli iv, c`: new range (lb*c, ub*c, step*c); correct for c > 0 *)
Theorem fold_mul : forall (body : Z -> st -> st) c lb ub step s, 0 < step -> 0 < c ->
  for_sem st (fun iv => body (iv * c)) lb ub step s = for_sem st body (lb * c) (ub * c) (step * c) s.
Proof.
  intros body c lb ub step s Hs Hc. unfold for_sem.
  rewrite (trip_scale lb ub step) by lia.
  apply (iter_from_map st _ body (fun v => v * c)); [reflexivity|intros; lia].
Qed.

(* a link of kind FOther changes neither the range nor the value: only multipliers are constrained *)
Definition link_ok (l : link) : Prop := l_kind l = FMul -> 0 < l_c l.

Definition fold_all (ls : list link) (r : range3) : range3 :=
  fold_left (fun a l => fold_one (l_kind l) (l_c l) a) ls r.

Lemma fold_one_correct : forall l (body : Z -> st -> st) lb ub step s, 0 < step -> link_ok l ->
  let '(lb', ub', step') := fold_one (l_kind l) (l_c l) (lb, ub, step) in
  0 < step' /\
  for_sem st (fun iv => body (apply_link l iv)) lb ub step s = for_sem st body lb' ub' step' s.
Proof.
  intros l body lb ub step s Hs Hl. unfold link_ok in Hl. unfold apply_link.
  destruct (l_kind l); cbn [fold_one].
  - split; [assumption|apply fold_add].
  - specialize (Hl eq_refl). split; [lia|apply fold_mul; assumption].
  - split; [assumption|reflexivity].
Qed.

Theorem fold_chain : forall ls (body : Z -> st -> st) lb ub step s, 0 < step ->
  Forall link_ok ls ->
  let '(lb', ub', step') := fold_all ls (lb, ub, step) in
  0 < step' /\
  for_sem st (fun iv => body (apply_chain ls iv)) lb ub step s = for_sem st body lb' ub' step' s.
Proof.
  induction ls as [|l rest IH]; intros body lb ub step s Hs Hok.
  - split; [assumption|reflexivity].
  - inversion Hok as [|? ? Hl Hrest]; subst.
    pose proof (fold_one_correct l (fun v => body (apply_chain rest v)) lb ub step s Hs Hl) as H1.
    change (fold_all (l :: rest) (lb, ub, step))
      with (fold_all rest (fold_one (l_kind l) (l_c l) (lb, ub, step))).
    destruct (fold_one (l_kind l) (l_c l) (lb, ub, step)) as [[lb1 ub1] step1].
    destruct H1 as [Hs1 H1]. specialize (IH body lb1 ub1 step1 s Hs1 Hrest).
    destruct (fold_all rest (lb1, ub1, step1)) as [[lb' ub'] step'].
    destruct IH as [Hs' IH]. split; [assumption|]. rewrite <- IH. exact H1.
Qed.

(* fold_pass folds exactly a prefix of the chain and applies fold_one to it in order *)
Fixpoint fold_prefix (ls : list link) : list link :=
  match ls with
  | [] => []
  | l :: rest =>
      if negb (Nat.eqb (l_uses l) 1) then []
      else match l_kind l with
           | FOther => []
           | _ => if negb (l_foldable l) then [] else l :: fold_prefix rest
           end
  end.

Lemma fold_pass_prefix : forall ls r n,
  fold_pass ls r n = (fold_all (fold_prefix ls) r, (length (fold_prefix ls) + n)%nat).
Proof.
  induction ls as [|l rest IH]; intros r n; [reflexivity|].
  cbn [fold_pass fold_prefix].
  destruct (negb (Nat.eqb (l_uses l) 1)); [reflexivity|].
  destruct (l_kind l) eqn:Ek; [| |reflexivity].
  1,2: destruct (negb (l_foldable l)); [reflexivity|].
  1,2: rewrite IH; unfold fold_all; cbn [fold_left length]; rewrite Ek, Nat.add_succ_r; reflexivity.
Qed.

(* the pass as a whole: if every multiplier it folds is positive, the rewritten loop (body now reads
   the iv directly) is equivalent to the original one (body reads the chain's value) *)
Theorem fold_pass_correct : forall ls (body : Z -> st -> st) lb ub step s, 0 < step ->
  (forall l, In l (fold_prefix ls) -> l_kind l = FMul -> 0 < l_c l) ->
  let '((lb', ub', step'), _) := fold_pass ls (lb, ub, step) 0 in
  0 < step' /\
  for_sem st (fun iv => body (apply_chain (fold_prefix ls) iv)) lb ub step s
  = for_sem st body lb' ub' step' s.
Proof.
  intros ls body lb ub step s Hs Hpos. rewrite fold_pass_prefix.
  apply fold_chain; [assumption|]. apply Forall_forall. exact Hpos.
Qed.
End Fold.

(* refutations: the pass multiplies by ANY loop-invariant value *)
Definition log_body : Z -> list Z -> list Z := fun iv s => iv :: s.

(* c = 0: the folded loop is `0 to 0 step 0`: zero trips under the cmpi-slt semantics (every fuel) ... *)
Theorem fold_mul_zero_refuted : exists lb ub step c, 0 < step /\ c = 0 /\
  forall fuel, for_fuel (list Z) log_body (S fuel) (lb * c) (ub * c) (step * c) []
               <> Some (for_sem (list Z) (fun iv => log_body (iv * c)) lb ub step []).
Proof.
  exists 0, 2, 1, 0. split; [reflexivity|]. split; [reflexivity|]. intros fuel. cbn. discriminate.
Qed.
(* ... and `range(_, _, 0)` raises ValueError under the xDSL interpreter's range semantics *)
Theorem fold_mul_zero_range_raises : forall lb ub step, py_range (lb * 0) (ub * 0) (step * 0) = None.
Proof. intros. unfold py_range. rewrite Z.mul_0_r. reflexivity. Qed.

(* c < 0: zero trips under cmpi-slt semantics, although the original loop ran *)
Theorem fold_mul_negative_refuted : exists lb ub step c, 0 < step /\ c < 0 /\
  forall fuel, for_fuel (list Z) log_body (S fuel) (lb * c) (ub * c) (step * c) []
               <> Some (for_sem (list Z) (fun iv => log_body (iv * c)) lb ub step []).
Proof.
  exists 0, 2, 1, (-1). split; [reflexivity|]. split; [reflexivity|]. intros fuel. cbn. discriminate.
Qed.

Lemma py_range_pos : forall lb ub step, 0 < step ->
  py_range lb ub step = Some (range_from (Z.to_nat (trip lb ub step)) lb step).
Proof.
  intros lb ub step Hs. unfold py_range.
  rewrite (proj2 (Z.eqb_neq step 0)) by lia. rewrite (proj2 (Z.ltb_lt 0 step) Hs). reflexivity.
Qed.

Lemma py_range_neg : forall lb ub step, step < 0 ->
  py_range lb ub step = Some (range_from (Z.to_nat (trip ub lb (- step))) lb step).
Proof.
  intros lb ub step Hs. unfold py_range, trip.
  rewrite (proj2 (Z.eqb_neq step 0)) by lia. rewrite (proj2 (Z.ltb_ge 0 step)) by lia.
  replace (lb - ub + - step - 1) with (lb - ub - step - 1) by lia. reflexivity.
Qed.

Section Unroll.
Variable st : Type.
Variable body : Z -> st -> st.

Lemma unroll_range_from : forall n v step s,
  unroll_sem st body (range_from n v step) s = iter_from st body n v step s.
Proof.
  induction n as [|n IH]; intros v step s; [reflexivity|].
  cbn [range_from iter_from]. unfold unroll_sem in *. cbn [fold_left]. apply IH.
Qed.

(* constant bounds, positive step: the unrolled straight-line code is the loop *)
Theorem unroll_correct : forall lb ub step s, 0 < step ->
  exists ivs, py_range lb ub step = Some ivs /\
              unroll_sem st body ivs s = for_sem st body lb ub step s.
Proof.
  intros lb ub step s Hs. eexists. split; [apply py_range_pos; assumption|].
  apply unroll_range_from.
Qed.

Theorem unroll_step_zero_raises : forall lb ub, py_range lb ub 0 = None.
Proof. reflexivity. Qed.

(* negative multiplier under Python-range semantics: the folded loop visits c*iv for the same ivs,
   i.e. range folding by c < 0 is unchanged under the xDSL interpreter (semantics-dependent note) *)
Theorem fold_mul_negative_range_ok : forall c lb ub step s, 0 < step -> c < 0 ->
  exists ivs, py_range (lb * c) (ub * c) (step * c) = Some ivs /\
              unroll_sem st body ivs s = for_sem st (fun iv => body (iv * c)) lb ub step s.
Proof.
  intros c lb ub step s Hs Hc. eexists. split; [apply py_range_neg; lia|].
  rewrite unroll_range_from. replace (- (step * c)) with (step * - c) by lia.
  rewrite (trip_scale lb ub step) by lia. symmetry.
  apply (iter_from_map st _ body (fun v => v * c)); [reflexivity|intros; lia].
Qed.
End Unroll.

(* a negative constant step: Python range iterates downwards, the cmpi-slt loop does not run *)
Theorem unroll_negative_step_differs : exists lb ub step, step < 0 /\
  py_range lb ub step = Some [2; 1] /\
  for_fuel (list Z) log_body 1 lb ub step [] = Some [].
Proof. exists 2, 0, (-1). split; [reflexivity|]. split; reflexivity. Qed.

Section Flatten.
Variable st : Type.

Fixpoint rep (n : nat) (b : st -> st) (s : st) : st :=
  match n with O => s | S n' => rep n' b (b s) end.

Lemma rep_add : forall a c b s, rep (a + c) b s = rep c b (rep a b s).
Proof. induction a as [|a IH]; intros c b s; [reflexivity|]. cbn. apply IH. Qed.

Lemma rep_mul : forall a c b s, rep (a * c) b s = rep a (rep c b) s.
Proof.
  induction a as [|a IH]; intros c b s; [reflexivity|].
  cbn [Nat.mul rep]. rewrite rep_add. apply IH.
Qed.

Lemma for_sem_const : forall (f : Z -> st -> st) (b : st -> st), (forall iv s, f iv s = b s) ->
  forall lb ub step s, for_sem st f lb ub step s = rep (Z.to_nat (trip lb ub step)) b s.
Proof.
  intros f b Hf lb ub step s. unfold for_sem. generalize (Z.to_nat (trip lb ub step)) as n.
  intros n. revert lb s. induction n as [|n IH]; intros lb s; [reflexivity|].
  cbn. rewrite Hf. apply IH.
Qed.

(* case "induction variables unused", code before 1ebef56: new loop 0 .. ou * ((iu-il)//is) step os *)
Definition nest_unused (b : st -> st) (ol ou os il iu is_ : Z) (s : st) : st :=
  for_sem st (fun _ s1 => for_sem st (fun _ => b) il iu is_ s1) ol ou os s.
Definition flat_unused_old (b : st -> st) (ol ou os il iu is_ : Z) (s : st) : st :=
  for_sem st (fun _ => b) ol (ou * ((iu - il) / is_)) os s.

Lemma nest_unused_flat : forall (b : st -> st) ol ou ub os il iu is_ s, 0 < os -> 0 < is_ ->
  trip ol ub os = trip ol ou os * trip il iu is_ ->
  for_sem st (fun _ => b) ol ub os s = nest_unused b ol ou os il iu is_ s.
Proof.
  intros b ol ou ub os il iu is_ s Hos His H. unfold nest_unused.
  rewrite (for_sem_const _ b) by reflexivity.
  rewrite (for_sem_const _ (rep (Z.to_nat (trip il iu is_)) b))
    by (intros; apply for_sem_const; reflexivity).
  rewrite <- rep_mul, H. f_equal. apply Z2Nat.inj_mul; apply trip_nonneg; assumption.
Qed.

Theorem flatten_unused_old_partial : forall (b : st -> st) ou os il iu is_ s,
  0 < os -> 0 < is_ -> il <= iu -> (iu - il) mod is_ = 0 -> (ou <= 0 \/ ou mod os = 0) ->
  flat_unused_old b 0 ou os il iu is_ s = nest_unused b 0 ou os il iu is_ s.
Proof.
  intros b ou os il iu is_ s Hos His Hle Hdiv Hou.
  apply nest_unused_flat; [assumption|assumption|].
  assert (Hf : 0 <= (iu - il) / is_) by (apply Z.div_pos; lia).
  apply Z.div_exact in Hdiv; [|lia]. set (f := (iu - il) / is_) in *.
  rewrite (trip_mult il iu is_ f), (Z.max_r 0 f) by lia.
  destruct Hou as [Hneg | Hmod].
  - rewrite (trip_zero 0 ou) by assumption.
    rewrite trip_zero by (apply Z.mul_nonpos_nonneg; assumption). reflexivity.
  - apply Z.div_exact in Hmod; [|lia]. rewrite Hmod. set (m := ou / os).
    rewrite (trip_mult 0 (os * m) os m), (trip_mult 0 (os * m * f) os (m * f)) by lia.
    exact (Z.mul_max_distr_nonneg_r 0 m f Hf).
Qed.

(* case "iv's used once, by the same addi": new loop ol .. ou step K *)
Definition nest_used (body : Z -> st -> st) (ol ou S K : Z) (s : st) : st :=
  for_sem st (fun o s1 => for_sem st (fun i => body (o + i)) 0 S K s1) ol ou S s.
Definition flat_used (body : Z -> st -> st) (ol ou K : Z) (s : st) : st :=
  for_sem st body ol ou K s.

Lemma nest_iter : forall (inner body : Z -> st -> st) q K S, S = Z.of_nat q * K ->
  (forall o s, inner o s = iter_from st body q o K s) ->
  forall n o s, iter_from st inner n o S s = iter_from st body (n * q) o K s.
Proof.
  intros inner body q K S HS Hinner. induction n as [|n IH]; intros o s; [reflexivity|].
  cbn [iter_from Nat.mul]. rewrite Hinner, iter_from_app, IH. f_equal. lia.
Qed.

Lemma nest_used_flat : forall (body : Z -> st -> st) ol ou ub S K s, 0 < K -> 0 < S -> S mod K = 0 ->
  trip ol ub K = trip ol ou S * (S / K) ->
  flat_used body ol ub K s = nest_used body ol ou S K s.
Proof.
  intros body ol ou ub S K s HK HS Hdiv H. unfold flat_used, nest_used, for_sem at 1 2.
  apply Z.div_exact in Hdiv; [|lia]. set (q := S / K) in *.
  rewrite (nest_iter _ body (Z.to_nat q) K S).
  - rewrite H. f_equal. apply Z2Nat.inj_mul; [apply trip_nonneg; assumption|lia].
  - lia.
  - intros o s1. unfold for_sem. rewrite (trip_mult 0 S K q) by lia.
    rewrite Z.max_r by lia.
    apply (iter_from_map st _ body (fun i => i + o)); [intros; f_equal; lia|intros; lia].
Qed.

Theorem flatten_used_partial : forall (body : Z -> st -> st) ol ou S K s,
  0 < K -> 0 < S -> S mod K = 0 -> (ou <= ol \/ (ou - ol) mod S = 0) ->
  flat_used body ol ou K s = nest_used body ol ou S K s.
Proof.
  intros body ol ou S K s HK HS Hdiv Hou.
  apply nest_used_flat; [assumption|assumption|assumption|].
  destruct Hou as [Hle | Hmod].
  - rewrite !trip_zero by assumption. reflexivity.
  - apply Z.div_exact in Hdiv, Hmod; [|lia|lia]. set (q := S / K) in *. set (m := (ou - ol) / S) in *.
    rewrite (trip_mult ol ou S m), (trip_mult ol ou K (m * q)) by lia. lia.
Qed.

(* the repaired code (1ebef56, 51aee64) *)
(* unused induction variables: new loop 0 .. ceildiv(ou,os) * (max(0,ceil((iu-il)/is)) * os) step os *)
Definition flat_unused (b : st -> st) (ou os il iu is_ : Z) (s : st) : st :=
  for_sem st (fun _ => b) 0 (unused_new_ub ou os il iu is_) os s.

(* FULL strength: every outer bound (also <= 0), every inner range (also empty / negative), no
   divisibility hypothesis; what remains is what the pass itself checks on the constants *)
Theorem flatten_unused_correct : forall (b : st -> st) ou os il iu is_ s, 0 < os -> 0 < is_ ->
  flat_unused b ou os il iu is_ s = nest_unused b 0 ou os il iu is_ s.
Proof.
  intros b ou os il iu is_ s Hos His.
  apply nest_unused_flat; [assumption|assumption|].
  rewrite (trip_ceil il iu is_), (trip_ceil 0 ou os) by assumption. unfold unused_new_ub.
  change (0 - ou) with (- ou). set (C := - (- ou / os)). set (F := Z.max 0 (- ((il - iu) / is_))).
  rewrite (trip_mult 0 (C * (F * os)) os (C * F)) by lia. lia.
Qed.

(* fused addi: the bound the repaired code uses *)
Definition used_new_ub (consts : bool) (ol ou S : Z) : Z :=
  if consts && negb ((ol <? ou) && negb ((ou - ol) mod S =? 0)) then ou
  else ol + (- ((- (ou - ol)) / S)) * S.

(* FULL strength for the fused variant: any outer range, divisible or not, empty or not *)
Theorem flatten_used_correct : forall (body : Z -> st -> st) consts ol ou S K s,
  0 < K -> 0 < S -> S mod K = 0 ->
  flat_used body ol (used_new_ub consts ol ou S) K s = nest_used body ol ou S K s.
Proof.
  intros body consts ol ou S K s HK HS Hdiv. unfold used_new_ub.
  destruct (consts && negb ((ol <? ou) && negb ((ou - ol) mod S =? 0))) eqn:E.
  - apply flatten_used_partial; try assumption.
    destruct (Z.ltb_spec ol ou); [|left; assumption].
    destruct (Z.eqb_spec ((ou - ol) mod S) 0); [right; assumption|].
    destruct consts; discriminate.
  - apply nest_used_flat; [assumption|assumption|assumption|].
    rewrite (trip_ceil ol ou S) by assumption. replace (ol - ou) with (- (ou - ol)) by lia.
    apply Z.div_exact in Hdiv; [|lia]. set (q := S / K) in *. set (C := - (- (ou - ol) / S)).
    rewrite (trip_mult ol (ol + C * S) K (C * q)) by lia. lia.
Qed.
End Flatten.

(* refutations (valid programs: all steps positive) *)
(* induction variables unused, outer 0..3 step 2, inner 0..5 step 2: 2*3 = 6 iterations become 3 *)
Theorem flatten_unused_old_refuted : exists ou os il iu is_,
  0 < os /\ 0 < is_ /\
  flat_unused_old Z Z.succ 0 ou os il iu is_ 0 <> nest_unused Z Z.succ 0 ou os il iu is_ 0.
Proof. exists 3, 2, 0, 5, 2. split; [reflexivity|]. split; [reflexivity|]. vm_compute. discriminate. Qed.

(* same, with every divisibility satisfied but an EMPTY inner range 5..0 and a negative outer bound:
   0 iterations become 10 *)
Theorem flatten_unused_old_negative_refuted : exists ou os il iu is_,
  0 < os /\ 0 < is_ /\ (iu - il) mod is_ = 0 /\ ou mod os = 0 /\
  flat_unused_old Z Z.succ 0 ou os il iu is_ 0 <> nest_unused Z Z.succ 0 ou os il iu is_ 0.
Proof. exists (-2), 1, 5, 0, 1. repeat split. vm_compute. discriminate. Qed.

(* induction variables used by one addi, outer 0..3 step 2, inner 0..2 step 1: body runs on
   0,1,2,3 before and on 0,1,2 after *)
Theorem flatten_used_old_refuted : exists ol ou S K,
  0 < K /\ 0 < S /\ S mod K = 0 /\
  flat_used (list Z) log_body ol ou K [] <> nest_used (list Z) log_body ol ou S K [].
Proof. exists 0, 3, 2, 1. repeat split. vm_compute. discriminate. Qed.
