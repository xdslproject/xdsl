(* C06/ProofsNum.v -- proofs about the numeric kernels of C06/Model.v:
   integer attributes (all widths / signedness), print_float's decision logic against the
   float / hex literal branches of the parser (CPython oracles as Section variables with
   pointwise hypotheses), dense elements and dense arrays. *)
From Coq Require Import ZArith List Bool Lia String Ascii.
From XV Require Import C06.Model C06.ProofsText.
Import ListNotations.
Local Open Scope Z_scope.

Lemma shiftl_1 : forall w, 0 <= w -> Z.shiftl 1 w = 2 ^ w.
Proof. intros. rewrite Z.shiftl_mul_pow2 by assumption. lia. Qed.

(* the three bound functions of xdsl/utils/comparisons.py for every width; h is 2^w / 2 (0 when w = 0) *)
Lemma bounds_spec : forall w, 0 <= w -> exists h,
  2 * h <= 2 ^ w <= 2 * h + 1 /\ 0 < 2 ^ w /\ unsigned_upper_bound w = 2 ^ w /\
  signed_lower_bound w = - h /\ signed_upper_bound w = 2 ^ w - h.
Proof.
  intros w Hw. exists (2 ^ w / 2). unfold unsigned_upper_bound, signed_lower_bound, signed_upper_bound.
  rewrite shiftl_1, Z.shiftr_div_pow2, Z.pow_1_r by lia.
  assert (Hp : 0 < 2 ^ w) by (apply Z.pow_pos_nonneg; lia).
  split; [Z.div_mod_to_equations; lia|]. repeat split; try assumption.
  destruct (Z.eq_dec w 0) as [->|Hz]; [reflexivity|].
  rewrite Z.max_l, shiftl_1 by lia. replace w with (Z.succ (w - 1)) at 2 3 by lia.
  rewrite Z.pow_succ_r, Z.mul_comm, Z.div_mul by lia. lia.
Qed.

Lemma in_range_iff : forall s w v,
  in_range s w v = true <-> fst (value_range s w) <= v < snd (value_range s w).
Proof. intros s w v. unfold in_range. destruct (value_range s w). cbn [fst snd]. lia. Qed.

Definition ity_ok (ty : ity) : Prop := match ty with TIndex => True | TInteger w _ => 0 <= w end.

(* Spec of IntegerAttr's stored value: exists exactly for in-range values; it is the value itself for
   unsigned types and the two's-complement representative (same residue mod 2^w, in the signed range)
   otherwise; storing is idempotent. *)
Lemma integer_attr_spec : forall w s v v', 0 <= w ->
  integer_attr (TInteger w s) v = Ok v' ->
  in_range s w v = true /\ in_range s w v' = true /\ v' mod 2 ^ w = v mod 2 ^ w /\
  (s <> Unsigned -> signed_lower_bound w <= v' < signed_upper_bound w) /\
  (s = Unsigned -> v' = v) /\
  normalized_value s w v' = Some v'.
Proof.
  intros w s v v' Hw H. cbn [integer_attr] in H.
  destruct (normalized_value s w v) as [z|] eqn:Hn; [|discriminate].
  destruct (in_range s w z) eqn:Hr'; [|discriminate]. injection H as ->.
  unfold normalized_value in Hn |- *. destruct (in_range s w v) eqn:Hr; [|discriminate].
  rewrite Hr'. cbn [negb] in Hn |- *. split; [reflexivity|]. split; [reflexivity|].
  apply in_range_iff in Hr, Hr'. destruct (bounds_spec w Hw) as (h & Hh & Hp & HU & HL & HS).
  rewrite HU, HL, HS in *.
  assert (Hwrap : (v - 2 ^ w) mod 2 ^ w = v mod 2 ^ w).
  { replace (v - 2 ^ w) with (v + (-1) * 2 ^ w) by lia. apply Z.mod_add. lia. }
  assert (Hidem : forall u, u < 2 ^ w - h -> (if 2 ^ w - h <=? u then Some (u - 2 ^ w) else Some u) = Some u).
  { intros u Hu. destruct (Z.leb_spec (2 ^ w - h) u); [lia|reflexivity]. }
  destruct s; cbn [value_range fst snd] in Hr, Hr'.
  - destruct (Z.leb_spec (2 ^ w - h) v); apply some_inj in Hn as <-.
    + (* upper half of the signless range: stored as v - 2^w *)
      split; [exact Hwrap|]. split; [lia|]. split; [discriminate|]. apply Hidem. lia.
    + split; [reflexivity|]. split; [lia|]. split; [discriminate|]. apply Hidem. lia.
  - rewrite Hidem in Hn by lia. apply some_inj in Hn as <-.
    split; [reflexivity|]. split; [lia|]. split; [discriminate|]. apply Hidem. lia.
  - apply some_inj in Hn as <-. repeat split; congruence.
Qed.

Lemma integer_attr_total : forall w s v, in_range s w v = true -> 0 <= w ->
  exists v', integer_attr (TInteger w s) v = Ok v'.
Proof.
  intros w s v Hr Hw. cbn [integer_attr]. unfold normalized_value. rewrite Hr. cbn [negb].
  (* it is enough that the normalised value is in range again *)
  assert (Hin : forall u, fst (value_range s w) <= u < snd (value_range s w) ->
                exists v', (if in_range s w u then Ok u else Raise E_VERIFY) = Ok v').
  { intros u Hu. apply in_range_iff in Hu. rewrite Hu. eexists; reflexivity. }
  apply in_range_iff in Hr. destruct (bounds_spec w Hw) as (h & Hh & Hp & HU & HL & HS).
  destruct s; cbn [value_range fst snd] in *; try destruct (Z.leb_spec (signed_upper_bound w) v);
    apply Hin; rewrite ?HU, ?HL, ?HS in *; lia.
Qed.

Lemma integer_attr_idem : forall ty v v', ity_ok ty -> integer_attr ty v = Ok v' -> integer_attr ty v' = Ok v'.
Proof.
  intros [|w s] v v' Hok H; [cbn in *; congruence|].
  destruct (integer_attr_spec w s v v' Hok H) as (_ & Hr & _ & _ & _ & Hn).
  unfold integer_attr. rewrite Hn, Hr. reflexivity.
Qed.

Definition ends_num (rest : text) : Prop := match rest with [] => True | c :: _ => c = 32 end.

Lemma digit_range : forall d, is_digit d = true -> 48 <= d <= 57.
Proof. intros d H. unfold is_digit in H. lia. Qed.

Lemma is_digit_id_char : forall c, is_digit c = true -> is_id_char c = true.
Proof. intros c H. unfold is_id_char. rewrite H. destruct (is_alpha_us c); reflexivity. Qed.

Lemma lex1_digit_start : forall fixed d r, is_digit d = true -> lex1 fixed (d :: r) = Ok (lex_number d r).
Proof.
  intros fixed d r Hd. pose proof (digit_range d Hd) as Hr.
  unfold lex1. rewrite (skip_blank_nonblank d r) by (split; lia).
  replace (is_alpha_us d) with false by (unfold is_alpha_us, in_rng; lia).
  rewrite !(proj2 (Z.eqb_neq d _)) by lia. rewrite Hd. reflexivity.
Qed.

Lemma span_digits : forall ds rest, forallb is_digit ds = true -> ends_num rest ->
  span_while is_digit (ds ++ rest) = (ds, rest).
Proof.
  intros ds rest Hds Hr. apply span_while_app; [assumption|].
  destruct rest as [|c r]; [exact I|]. cbn in Hr. subst. reflexivity.
Qed.

Lemma lex1_decimal : forall fixed ds rest, ds <> [] -> forallb is_digit ds = true -> ends_num rest ->
  lex1 fixed (ds ++ rest) = Ok (TInt ds, rest).
Proof.
  intros fixed ds rest Hne Hds Hr. destruct ds as [|d ds]; [contradiction|].
  cbn [forallb] in Hds. apply andb_true_iff in Hds as [Hd Hds].
  cbn [app]. rewrite lex1_digit_start by assumption. unfold lex_number.
  assert (Hhex : match ds ++ rest with
                 | x :: h :: _ => (d =? 48) && (x =? 120) && is_hexdigit h
                 | _ => false end = false).
  { destruct ds as [|x ds'].
    - cbn [app]. destruct rest as [|c [|h r]]; try reflexivity. cbn in Hr. subst.
      rewrite andb_false_r. reflexivity.
    - cbn [app]. cbn [forallb] in Hds. apply andb_true_iff in Hds as [Hx _].
      pose proof (digit_range x Hx).
      destruct (ds' ++ rest); [reflexivity|].
      replace (x =? 120) with false by lia.
      rewrite andb_false_r. reflexivity. }
  rewrite Hhex. rewrite span_digits by assumption.
  destruct rest as [|c r]; [reflexivity|]. cbn in Hr. subst. reflexivity.
Qed.

Lemma lex1_hex : forall fixed hs rest, hs <> [] -> forallb is_hexdigit hs = true -> ends_num rest ->
  lex1 fixed (48 :: 120 :: hs ++ rest) = Ok (TInt (48 :: 120 :: hs), rest).
Proof.
  intros fixed hs rest Hne Hhs Hr. rewrite lex1_digit_start by reflexivity. unfold lex_number.
  destruct hs as [|h hs']; [contradiction|]. cbn [app].
  cbn [forallb] in Hhs. apply andb_true_iff in Hhs as [Hh Hhs'].
  rewrite Hh. cbn [Z.eqb andb tl]. change ((48 =? 48) && (120 =? 120) && true) with true. cbv iota.
  change (h :: hs' ++ rest) with ((h :: hs') ++ rest).
  rewrite span_while_app.
  - reflexivity.
  - cbn [forallb]. rewrite Hh, Hhs'. reflexivity.
  - destruct rest as [|c r]; [exact I|]. cbn in Hr. subst. reflexivity.
Qed.

Lemma lex1_minus : forall fixed c r, c <> 62 -> lex1 fixed (45 :: c :: r) = Ok (TMinus, c :: r).
Proof.
  intros fixed c r Hc. unfold lex1. cbn [span_while]. cbn.
  replace (c =? 62) with false by lia. reflexivity.
Qed.

Lemma get_int_value_decimal : forall ds, forallb is_digit ds = true -> get_int_value ds = int_of_digits 10 ds.
Proof.
  intros ds H. unfold get_int_value. destruct ds as [|z [|x r]]; try reflexivity.
  cbn [forallb] in H. apply andb_true_iff in H as [_ H]. apply andb_true_iff in H as [Hx _].
  pose proof (digit_range x Hx).
  replace (x =? 120) with false by lia.
  replace (x =? 88) with false by lia.
  rewrite andb_false_r. reflexivity.
Qed.

Lemma get_int_value_hex : forall hs, get_int_value (48 :: 120 :: hs) = int_of_digits 16 hs.
Proof. reflexivity. Qed.

Lemma nat_digits10_value : forall n, 0 <= n -> get_int_value (nat_digits 10 false n) = Some n.
Proof.
  intros n Hn. rewrite get_int_value_decimal by (apply nat_digits10_all_digit; assumption).
  apply nat_digits_spec; lia.
Qed.

Lemma nat_digits_nonempty : forall n, 0 <= n -> nat_digits 10 false n <> [].
Proof. intros n Hn. apply nat_digits_spec; lia. Qed.

Definition int_toks (v : Z) : list tok :=
  if v <? 0 then [TMinus; TInt (nat_digits 10 false (- v))] else [TInt (nat_digits 10 false v)].

Lemma lexes_fmt_d : forall fixed v rest ts, ends_num rest -> lexes fixed rest ts ->
  lexes fixed (fmt_d v ++ rest) (int_toks v ++ ts).
Proof.
  intros fixed v rest ts Hr Hts. unfold fmt_d, int_toks. destruct (v <? 0) eqn:E.
  - cbn [app].
    pose proof (nat_digits_nonempty (- v) ltac:(lia)) as Hne.
    pose proof (nat_digits10_all_digit false (- v) ltac:(lia)) as Hall.
    destruct (nat_digits 10 false (- v)) as [|d ds] eqn:Ed; [contradiction|].
    eapply lexes_cons.
    + cbn [app]. apply lex1_minus. cbn [forallb] in Hall. apply andb_true_iff in Hall as [Hd _].
      pose proof (digit_range d Hd). lia.
    + eapply lexes_cons; [|exact Hts]. change (d :: ds ++ rest) with ((d :: ds) ++ rest).
      apply lex1_decimal; [discriminate|assumption|assumption].
  - cbn [app]. eapply lexes_cons; [|exact Hts].
    apply lex1_decimal; [apply nat_digits_nonempty; lia|apply nat_digits10_all_digit; lia|assumption].
Qed.

Lemma int_toks_length : forall v, (List.length (int_toks v) <= List.length (fmt_d v))%nat.
Proof.
  intros v. unfold int_toks, fmt_d. destruct (Z.ltb_spec v 0); cbn [List.length].
  - pose proof (nat_digits_nonempty (- v) ltac:(lia)). destruct (nat_digits 10 false (- v)); [contradiction|cbn; lia].
  - pose proof (nat_digits_nonempty v ltac:(lia)). destruct (nat_digits 10 false v); [contradiction|cbn; lia].
Qed.

Lemma int_toks_value : forall v rest allow_boolean,
  parse_optional_integer allow_boolean true (int_toks v ++ rest) = Ok (v, rest).
Proof.
  intros v rest ab. unfold int_toks. destruct (v <? 0) eqn:E.
  - cbn [app]. unfold parse_optional_integer.
    replace (if ab then parse_optional_boolean (TMinus :: TInt (nat_digits 10 false (- v)) :: rest) else None)
      with (@None (bool * list tok)) by (destruct ab; reflexivity).
    rewrite nat_digits10_value by lia. f_equal. f_equal. lia.
  - cbn [app]. unfold parse_optional_integer.
    replace (if ab then parse_optional_boolean (TInt (nat_digits 10 false v) :: rest) else None)
      with (@None (bool * list tok)) by (destruct ab; reflexivity).
    rewrite nat_digits10_value by lia. reflexivity.
Qed.

Lemma str_index : str "index" = [105; 110; 100; 101; 120]. Proof. reflexivity. Qed.
Lemma str_i : str "i" = [105]. Proof. reflexivity. Qed.
Lemma str_si : str "si" = [115; 105]. Proof. reflexivity. Qed.
Lemma str_ui : str "ui" = [117; 105]. Proof. reflexivity. Qed.
Lemma str_colon : str " : " = [32; 58; 32]. Proof. reflexivity. Qed.
Lemma str_0x : str "0x" = [48; 120]. Proof. reflexivity. Qed.

Lemma print_ity_bare : forall ty, ity_ok ty -> is_bare_id (print_ity ty) = true.
Proof.
  intros [|w s] Hok; [reflexivity|]. cbn in Hok.
  assert (Hd : forallb is_id_char (nat_digits 10 false w) = true).
  { apply forallb_forall. intros c Hc. apply is_digit_id_char.
    pose proof (nat_digits10_all_digit false w Hok) as H. rewrite forallb_forall in H. auto. }
  unfold print_ity, fmt_d. replace (w <? 0) with false by lia.
  destruct s; rewrite ?str_i, ?str_si, ?str_ui; cbn [app is_bare_id forallb]; rewrite ?Hd; reflexivity.
Qed.

Lemma parse_print_ity : forall ty, ity_ok ty -> parse_ity (print_ity ty) = Some ty.
Proof.
  intros [|w s] Hok; [reflexivity|]. cbn in Hok.
  pose proof (nat_digits10_all_digit false w Hok) as Hall.
  assert (Hv : int_of_digits 10 (nat_digits 10 false w) = Some w) by (apply nat_digits_spec; lia).
  unfold print_ity, fmt_d. destruct (Z.ltb_spec w 0); [lia|].
  destruct (nat_digits 10 false w) as [|d ds] eqn:Ed; [discriminate|].
  (* after the prefix comes a digit, so the text is not "index" *)
  assert (Hd : (d =? 110) = false).
  { cbn [forallb] in Hall. apply andb_true_iff in Hall as [Hd _]. apply digit_range in Hd. lia. }
  unfold parse_ity. rewrite str_index.
  destruct s; rewrite ?str_i, ?str_si, ?str_ui; cbn -[int_of_digits forallb is_digit];
    rewrite ?Hd, ?andb_false_r; cbn -[int_of_digits forallb is_digit]; rewrite Hall, Hv; reflexivity.
Qed.

Lemma lexes_type_suffix : forall fixed name, is_bare_id name = true ->
  lexes fixed (32 :: 58 :: 32 :: name) [TColon; TBare name].
Proof.
  intros fixed name Hb.
  eapply lexes_cons; [rewrite lex1_space; apply lex1_colon|].
  eapply lexes_cons.
  - rewrite lex1_space. rewrite <- (app_nil_r name) at 1. apply lex1_bare; [assumption|exact I].
  - apply lexes_nil. reflexivity.
Qed.

Lemma is_i1_eq : forall ty, is_i1 ty = true -> ty = TInteger 1 Signless.
Proof. intros [|w [| |]] H; try discriminate. cbn in H. apply Z.eqb_eq in H. subst. reflexivity. Qed.

Lemma i1_values : forall v v', integer_attr (TInteger 1 Signless) v = Ok v' -> v' = 0 \/ v' = -1.
Proof.
  intros v v' H. destruct (integer_attr_spec 1 Signless v v' ltac:(lia) H) as (_ & _ & _ & Hr & _).
  specialize (Hr ltac:(discriminate)). cbn in Hr. lia.
Qed.

Theorem int_attr_roundtrip_ok : forall ty v v', ity_ok ty ->
  integer_attr ty v = Ok v' -> integer_attr_roundtrip ty v' = Ok (ty, v').
Proof.
  intros ty v v' Hok H. pose proof (integer_attr_idem ty v v' Hok H) as Hidem.
  unfold integer_attr_roundtrip, print_integer_attr.
  destruct (is_i1 ty) eqn:Hi1.
  - apply is_i1_eq in Hi1 as ->. destruct (i1_values v v' H) as [-> | ->]; vm_compute; reflexivity.
  - unfold print_int.
    assert (Hlex : lex false (fmt_d v' ++ str " : " ++ print_ity ty) =
                   Ok (int_toks v' ++ [TColon; TBare (print_ity ty)])).
    { apply lex_of_lexes.
      - apply lexes_fmt_d; [reflexivity|]. apply lexes_type_suffix. apply print_ity_bare. assumption.
      - rewrite !app_length. pose proof (int_toks_length v'). cbn [List.length str]. lia. }
    rewrite Hlex. unfold parse_integer_attr.
    assert (Hnb : parse_optional_boolean (int_toks v' ++ [TColon; TBare (print_ity ty)]) = None).
    { unfold int_toks. destruct (v' <? 0); reflexivity. }
    rewrite Hnb. rewrite int_toks_value. rewrite parse_print_ity by assumption. rewrite Hidem. reflexivity.
Qed.

Lemma f64_eq_nonzero : forall a b, f64_eq a b = true -> f64_iszero b = false -> a = b.
Proof.
  intros a b H Hz. unfold f64_eq in H. apply andb_true_iff in H as [_ H].
  apply orb_true_iff in H as [H|H]; [apply Z.eqb_eq in H; assumption|].
  apply andb_true_iff in H as [_ H]. congruence.
Qed.

Lemma pow16_pow2 : forall s, 0 <= s -> 16 ^ Z.of_nat (Z.to_nat (2 * s)) = 2 ^ (8 * s).
Proof.
  intros s Hs. rewrite Z2Nat.id by lia. change 16 with (2 ^ 4).
  rewrite <- Z.pow_mul_r by lia. f_equal. lia.
Qed.

Section FloatProofs.
  Variable pack : fty -> Z -> Z.
  Variable unpack : fty -> Z -> Z.
  Variables fmt5e fmt9g fmt17g repr_ : Z -> text.
  Variable scan : text -> Z.
  Variable of_int : Z -> res Z.

  Notation float_attr := (float_attr pack unpack).
  Notation print_float := (print_float pack unpack fmt5e fmt9g fmt17g repr_ scan).
  Notation print_float_branch := (print_float_branch pack unpack fmt5e fmt9g fmt17g scan).
  Notation parse_float_attr := (parse_float_attr pack unpack scan of_int).
  Notation float_attr_roundtrip := (float_attr_roundtrip pack unpack fmt5e fmt9g fmt17g repr_ scan of_int).
  Notation float_hyps := (float_hyps pack unpack fmt5e fmt9g fmt17g repr_ scan).
  Notation decimal_ok := (decimal_ok pack unpack scan).

  Definition fty_ok (ty : fty) : Prop := is_bare_id (fname ty) = true /\ 0 < fsize ty.

  (* the decimal form the printer chooses in branch 2 *)
  Definition long_form (ty : fty) (x : Z) : text :=
    match fk ty with F32 => fmt9g x | F64 => fmt17g x | FRepr => repr_ x end.
  (* the integer printed in hex by the fallback branch *)
  Definition fallback_bits (ty : fty) (x : Z) : Z := match fk ty with F64 => x | _ => pack ty x end.

  (* branch numbers as in Model.print_float_branch: 0 hex of NaN / infinity, 1 short %.5e form,
     2 %.9g / %.17g / repr, 3 hexadecimal fallback *)
  Lemma print_float_by_branch : forall ty x,
    print_float ty x =
    match print_float_branch ty x with
    | 0 => str "0x" ++ hex_fixed false (Z.to_nat (2 * fsize ty)) (pack ty x)
    | 1 => insert0 (fmt5e x)
    | 2 => long_form ty x
    | _ => str "0x" ++ fmt_X (fallback_bits ty x)
    end.
  Proof.
    intros ty x. unfold Model.print_float, Model.print_float_branch, long_form, fallback_bits.
    destruct (f64_isnan x || f64_isinf x); [reflexivity|].
    destruct (f64_eq _ x); [reflexivity|].
    destruct (fk ty); [destruct (contains 46 (fmt9g x))|destruct (contains 46 (fmt17g x))|]; reflexivity.
  Qed.

  (* the four branches; in branch 1 the printer's own re-parse test succeeded *)
  Lemma print_float_branch_cases : forall ty x,
    print_float_branch ty x = 0 \/
    (print_float_branch ty x = 1 /\ f64_eq (float_attr ty (scan (insert0 (fmt5e x)))) x = true) \/
    print_float_branch ty x = 2 \/ print_float_branch ty x = 3.
  Proof.
    intros ty x. unfold Model.print_float_branch.
    destruct (f64_isnan x || f64_isinf x); [auto|].
    destruct (f64_eq _ x); [auto|].
    destruct (fk ty); [destruct (contains 46 (fmt9g x))|destruct (contains 46 (fmt17g x))|]; auto.
  Qed.

  Lemma print_float_hex : forall ty x, 0 < fsize ty -> 0 <= pack ty x < 2 ^ (8 * fsize ty) ->
    print_float_branch ty x = 0 \/ (print_float_branch ty x = 3 /\ fallback_bits ty x = pack ty x) ->
    exists hs, print_float ty x = str "0x" ++ hs /\ hex_lit hs (pack ty x).
  Proof.
    intros ty x Hsz Hp [Hb|[Hb Hbits]]; rewrite print_float_by_branch, Hb; eexists; (split; [reflexivity|]).
    - apply hex_fixed_lit; [lia|]. rewrite pow16_pow2 by lia. exact Hp.
    - rewrite Hbits. apply nat_digits16_lit. lia.
  Qed.

  Lemma hex_literal_roundtrip : forall ty x hs i,
    fty_ok ty -> float_attr ty x = x -> hex_lit hs i ->
    0 <= i < 2 ^ (8 * fsize ty) -> unpack ty i = x ->
    match lex false ((str "0x" ++ hs) ++ str " : " ++ fname ty) with
    | Ok ts => parse_float_attr ty ts
    | NoTok => NoTok
    | Raise e => Raise e
    end = Ok x.
  Proof.
    intros ty x hs i [Hname Hsz] Hcanon (Hne & Hhex & Hval) Hrange Hunpack.
    assert (Hlex : lex false ((str "0x" ++ hs) ++ str " : " ++ fname ty) =
                   Ok [TInt (48 :: 120 :: hs); TColon; TBare (fname ty)]).
    { apply lex_of_lexes.
      - rewrite str_0x, str_colon. cbn [app].
        eapply lexes_cons; [apply lex1_hex; [assumption|assumption|reflexivity]|].
        apply lexes_type_suffix. assumption.
      - rewrite !app_length. cbn [List.length str]. lia. }
    rewrite Hlex. unfold Model.parse_float_attr, parse_optional_number.
    change (is_hex_tok _) with true. rewrite get_int_value_hex, Hval, text_eqb_refl. cbn [negb].
    replace ((0 <=? i) && (i <? 2 ^ (8 * fsize ty))) with true by lia.
    rewrite Hunpack, Hcanon. reflexivity.
  Qed.

  Lemma lexes_float_inv : forall ty s neg b, Model.lexes_float ty s = Some (neg, b) ->
    lex false (s ++ str " : " ++ fname ty) =
    Ok ((if neg then [TMinus] else []) ++ [TFloat b; TColon; TBare (fname ty)]).
  Proof.
    intros ty s neg b H. unfold Model.lexes_float in H.
    destruct (lex false _) as [ts| |]; [|discriminate..].
    destruct ts as [|t1 ts]; [discriminate|]. destruct t1; try discriminate.
    (* after an optional MINUS both arms of `lexes_float` expect FLOAT COLON BARE and nothing more *)
    1: destruct ts as [|t1 ts]; [discriminate|]; destruct t1; try discriminate.
    all: destruct ts as [|t2 ts]; [discriminate|]; destruct t2; try discriminate.
    all: destruct ts as [|t3 ts]; [discriminate|]; destruct t3; try discriminate.
    all: destruct ts; [|discriminate]; destruct (text_eqb _ _ && _) eqn:E; [|discriminate].
    all: injection H as <- <-; apply andb_true_iff in E as [En _]; apply text_eqb_eq in En; subst; reflexivity.
  Qed.

  Lemma decimal_literal_roundtrip : forall ty x s neg b,
    Model.lexes_float ty s = Some (neg, b) ->
    scan s = (if neg then f64_neg (scan b) else scan b) ->
    float_attr ty (scan s) = x ->
    match lex false (s ++ str " : " ++ fname ty) with
    | Ok ts => parse_float_attr ty ts
    | NoTok => NoTok
    | Raise e => Raise e
    end = Ok x.
  Proof.
    intros ty x s neg b Hlex Hneg Hval. rewrite (lexes_float_inv ty s neg b Hlex).
    unfold Model.parse_float_attr.
    destruct neg; cbn [app is_hex_tok parse_optional_number]; rewrite text_eqb_refl; cbn [negb];
      rewrite <- Hneg, Hval; reflexivity.
  Qed.

  Lemma decimal_ok_roundtrip : forall ty x s, decimal_ok ty x s = true ->
    match lex false (s ++ str " : " ++ fname ty) with
    | Ok ts => parse_float_attr ty ts
    | NoTok => NoTok
    | Raise e => Raise e
    end = Ok x.
  Proof.
    intros ty x s H. unfold Model.decimal_ok in H.
    destruct (Model.lexes_float ty s) as [[neg b]|] eqn:E; [|discriminate].
    apply andb_true_iff in H as [H4 Hv]. apply Z.eqb_eq in H4, Hv.
    eapply decimal_literal_roundtrip; eauto.
  Qed.

  (* C06_float_rt: every class of value (NaN with payload, infinities, signed zeros, finite) of every
     float type; `float_attr ty x = x` says x is the payload of a FloatAttr of that type *)
  Theorem float_roundtrip_ok : forall ty x,
    fty_ok ty -> float_attr ty x = x -> float_hyps ty x = true ->
    float_attr_roundtrip ty x = Ok x.
  Proof.
    intros ty x Hok Hcanon Hh. pose proof Hok as [Hname Hsz].
    unfold Model.float_attr_roundtrip, float_attr_text.
    unfold Model.float_hyps in Hh. apply andb_true_iff in Hh as [Hrange Hh].
    apply andb_true_iff in Hrange as [Hp0 Hp1]. apply Z.leb_le in Hp0. apply Z.ltb_lt in Hp1.
    assert (Hhexrt : forall hs, print_float ty x = str "0x" ++ hs /\ hex_lit hs (pack ty x) ->
              match lex false (print_float ty x ++ str " : " ++ fname ty) with
              | Ok ts => parse_float_attr ty ts | NoTok => NoTok | Raise e => Raise e end = Ok x).
    { intros hs [-> Hhs]. apply hex_literal_roundtrip with (i := pack ty x); auto. }
    destruct (print_float_branch_cases ty x) as [Hb|[[Hb Heq]|[Hb|Hb]]]; rewrite Hb in Hh.
    - (* NaN / infinity: hex of the packed bits, fixed width *)
      destruct (print_float_hex ty x Hsz (conj Hp0 Hp1) (or_introl Hb)) as [hs Hhs]. eauto.
    - (* short %.5e form *)
      rewrite print_float_by_branch, Hb.
      destruct (f64_iszero x) eqn:Hz; [apply decimal_ok_roundtrip; assumption|].
      destruct (Model.lexes_float ty (insert0 (fmt5e x))) as [[neg b]|] eqn:E; [|discriminate].
      apply Z.eqb_eq in Hh. eapply decimal_literal_roundtrip; eauto.
      apply f64_eq_nonzero; assumption.
    - (* %.9g / %.17g / repr *)
      rewrite print_float_by_branch, Hb. apply decimal_ok_roundtrip. exact Hh.
    - (* hexadecimal fallback *)
      assert (Hbits : fallback_bits ty x = pack ty x).
      { unfold fallback_bits. destruct (fk ty); try reflexivity. apply Z.eqb_eq in Hh. congruence. }
      destruct (print_float_hex ty x Hsz (conj Hp0 Hp1) (or_intror (conj Hb Hbits))) as [hs Hhs]. eauto.
  Qed.
End FloatProofs.

Lemma map_res_map : forall {A B} (f : A -> res B) (g : B -> A) ps,
  Forall (fun p => f (g p) = Ok p) ps -> map_res f (map g ps) = Ok ps.
Proof.
  induction ps as [|p ps IH]; intros H; [reflexivity|]. inversion H; subst.
  cbn [map map_res]. rewrite H2, IH by assumption. reflexivity.
Qed.

Lemma le_bytes_length : forall k v, List.length (le_bytes k v) = k.
Proof. induction k; intros; cbn; [reflexivity|]. rewrite IHk. reflexivity. Qed.

Lemma le_bytes_bytes : forall k v, Forall is_byte (le_bytes k v).
Proof.
  induction k; intros; cbn; constructor; [|apply IHk].
  unfold is_byte. apply Z.mod_pos_bound. lia.
Qed.

Lemma of_le_bytes_le_bytes : forall k v, of_le_bytes (le_bytes k v) = v mod 256 ^ Z.of_nat k.
Proof.
  induction k; intros v.
  - cbn. rewrite Z.mod_1_r. reflexivity.
  - cbn [le_bytes of_le_bytes]. rewrite IHk. rewrite Nat2Z.inj_succ, Z.pow_succ_r by lia.
    assert (0 < 256 ^ Z.of_nat k) by (apply Z.pow_pos_nonneg; lia).
    rewrite Z.rem_mul_r by lia. lia.
Qed.

Lemma bytes_fromhex_hex : forall up bs, Forall is_byte bs -> bytes_fromhex (hex_of_bytes up bs) = Some bs.
Proof.
  induction bs as [|b bs IH]; intros H; [reflexivity|]. inversion H as [|? ? Hb Hbs]; subst.
  unfold is_byte in Hb. unfold hex_of_bytes in *. cbn [flat_map app bytes_fromhex].
  assert (Hq : 0 <= b / 16 < 16) by (split; [apply Z.div_pos|apply Z.div_lt_upper_bound]; lia).
  assert (Hm : 0 <= b mod 16 < 16) by (apply Z.mod_pos_bound; lia).
  rewrite (digit_val_char up _ Hq), (digit_val_char up _ Hm), IH by assumption.
  f_equal. f_equal. pose proof (Z.div_mod b 16 ltac:(lia)). lia.
Qed.

Lemma flat_map_bytes : forall k ps, Forall is_byte (flat_map (le_bytes k) ps).
Proof. induction ps; cbn; [constructor|]. apply Forall_app. split; [apply le_bytes_bytes|assumption]. Qed.

Lemma flat_map_le_length : forall k ps,
  List.length (flat_map (le_bytes k) ps) = (List.length ps * k)%nat.
Proof. induction ps; cbn; [reflexivity|]. rewrite app_length, le_bytes_length, IHps. reflexivity. Qed.

Lemma firstn_app_exact : forall {A} (a b : list A) k, List.length a = k -> firstn k (a ++ b) = a.
Proof. intros A a b k <-. rewrite firstn_app, Nat.sub_diag, firstn_all. cbn. apply app_nil_r. Qed.

Lemma skipn_app_exact : forall {A} (a b : list A) k, List.length a = k -> skipn k (a ++ b) = b.
Proof. intros A a b k <-. rewrite skipn_app, Nat.sub_diag, skipn_all. reflexivity. Qed.

Lemma chunks_flat_map : forall k ps fuel, k <> O -> (List.length ps <= fuel)%nat ->
  chunks fuel k (flat_map (le_bytes k) ps) = map (le_bytes k) ps.
Proof.
  induction ps as [|p ps IH]; intros fuel Hk Hf.
  - destruct fuel; reflexivity.
  - destruct fuel; [cbn in Hf; lia|]. cbn [flat_map map chunks].
    destruct (le_bytes k p ++ flat_map (le_bytes k) ps) eqn:E.
    + exfalso. assert (Hl : List.length (le_bytes k p ++ flat_map (le_bytes k) ps) = O) by (rewrite E; reflexivity).
      rewrite app_length, le_bytes_length in Hl. lia.
    + rewrite <- E. pose proof (le_bytes_length k p) as Hl.
      rewrite (firstn_app_exact _ _ k Hl), (skipn_app_exact _ _ k Hl).
      rewrite IH by (cbn in Hf; auto; lia). reflexivity.
Qed.

Lemma repeat_all_eq : forall (ps : list Z) p0, (forall p, In p ps -> p = p0) ->
  repeat p0 (List.length ps) = ps.
Proof.
  induction ps as [|p ps IH]; intros p0 H; [reflexivity|]. cbn.
  rewrite (H p (or_introl eq_refl)). f_equal. apply IH. intros q Hq. apply H. right. assumption.
Qed.

Lemma prod_nonneg : forall shape, Forall (fun d => 0 <= d) shape -> 0 <= fold_right Z.mul 1 shape.
Proof. induction 1; cbn; [lia|]. nia. Qed.

Lemma prod_pos_dims : forall shape, Forall (fun d => 0 <= d) shape -> fold_right Z.mul 1 shape <> 0 ->
  forallb (fun d => 1 <=? d) shape = true.
Proof.
  induction 1 as [|d shape Hd Hs IH]; cbn; intros Hp; [reflexivity|].
  assert (d <> 0 /\ fold_right Z.mul 1 shape <> 0) as [Hd0 Hp0] by nia.
  rewrite IH by assumption. replace (1 <=? d) with true by lia. reflexivity.
Qed.

Lemma shape_eqb_refl : forall a, shape_eqb a a = true.
Proof. induction a; cbn; [reflexivity|]. rewrite Z.eqb_refl, IHa. reflexivity. Qed.

Section DenseProofs.
  Variable pack : fty -> Z -> Z.
  Variable unpack : fty -> Z -> Z.
  Variables fmt5e fmt9g fmt17g repr_ : Z -> text.
  Variable scan : text -> Z.
  Variable of_int : Z -> res Z.

  Notation elem_value := (elem_value unpack).
  Notation print_elem := (print_elem pack unpack fmt5e fmt9g fmt17g repr_ scan).
  Notation parse_elem_text := (parse_elem_text pack unpack scan of_int).
  Notation print_dense := (print_dense pack unpack fmt5e fmt9g fmt17g repr_ scan).
  Notation parse_dense := (parse_dense pack unpack scan of_int).
  Notation dense_roundtrip := (dense_roundtrip pack unpack fmt5e fmt9g fmt17g repr_ scan of_int).
  Notation print_densearray := (print_densearray pack unpack fmt5e fmt9g fmt17g repr_ scan).
  Notation parse_array_elem := (parse_array_elem pack unpack scan).
  Notation densearray_roundtrip := (densearray_roundtrip pack unpack fmt5e fmt9g fmt17g repr_ scan).

  (* `hexfix` / `splatfix` = false: the unchanged tree; true: with the proposed repairs C06-2/3 and C06-4 *)

  (* one element printed on its own reads back as the stored element *)
  Definition elem_rt (hexfix : bool) (e : ety) (p : Z) : Prop :=
    parse_elem_text hexfix e (print_elem e (elem_value e p)) = Ok p.
  (* the stored element survives its little-endian byte representation (hex-string form) *)
  Definition payload_fits (e : ety) (sz : Z) (p : Z) : Prop :=
    payload_of_bytes e sz (le_bytes (Z.to_nat sz) p) = p.
  (* the splat test is exact: when it fires, all stored elements are the same *)
  Definition splat_exact (splatfix : bool) (e : ety) (ps : list Z) : Prop :=
    (if splatfix then is_splat_bits ps else is_splat e (map (elem_value e) ps)) = true ->
    forall p, In p ps -> p = hd 0 ps.

  Theorem dense_roundtrip_ok : forall hexfix splatfix e shape ps sz,
    elem_size e = Ok sz -> 0 < sz ->
    prod shape = Z.of_nat (List.length ps) -> Forall (fun d => 0 <= d) shape ->
    Forall (elem_rt hexfix e) ps -> Forall (payload_fits e sz) ps -> splat_exact splatfix e ps ->
    dense_roundtrip hexfix splatfix e shape ps = Ok ps.
  Proof.
    intros hexfix splatfix e shape ps sz Hsz Hszpos Hprod Hdims Hrt Hfits Hsplat.
    unfold Model.dense_roundtrip, Model.print_dense.
    set (len := Z.of_nat (List.length ps)) in *.
    destruct (len =? 0) eqn:Hlen0.
    { apply Z.eqb_eq in Hlen0. subst len. destruct ps; [|cbn in Hlen0; lia].
      unfold Model.parse_dense. rewrite Hprod. reflexivity. }
    apply Z.eqb_neq in Hlen0.
    destruct ps as [|p0 ps']; [subst len; cbn in Hlen0; lia|].
    destruct (if splatfix then is_splat_bits (p0 :: ps') else is_splat e (map (elem_value e) (p0 :: ps'))) eqn:Hsp.
    { (* splat *)
      unfold Model.parse_dense. cbn [map hd]. inversion Hrt as [|? ? Hrt0 _]; subst.
      unfold elem_rt in Hrt0. rewrite Hrt0. rewrite Hprod. subst len. rewrite Nat2Z.id.
      f_equal. apply repeat_all_eq. intros p Hp. apply (Hsplat Hsp p Hp). }
    destruct (100 <? len) eqn:Hbig.
    { (* hex string *)
      apply Z.ltb_lt in Hbig. rewrite Hsz. unfold Model.parse_dense.
      set (bs := flat_map (le_bytes (Z.to_nat sz)) (p0 :: ps')).
      rewrite bytes_fromhex_hex by apply flat_map_bytes. rewrite Hsz.
      assert (Hbl : Z.of_nat (List.length bs) = len * sz).
      { unfold bs. rewrite flat_map_le_length, Nat2Z.inj_mul, Z2Nat.id by lia. reflexivity. }
      replace (Z.of_nat (List.length bs) =? sz) with false by (symmetry; apply Z.eqb_neq; nia).
      rewrite Hbl, Z.div_mul by lia. rewrite Hprod, Z.eqb_refl.
      replace (Z.to_nat (len * sz)) with (List.length bs) by lia.
      rewrite firstn_all. unfold bs.
      rewrite chunks_flat_map by (try lia; rewrite flat_map_le_length; nia).
      rewrite map_map. f_equal. rewrite <- (map_id (p0 :: ps')) at 2.
      apply map_ext_in. intros p Hp. rewrite Forall_forall in Hfits. apply (Hfits p Hp). }
    (* nested list *)
    assert (Hcomplete : shape_is_complete shape len = true).
    { unfold shape_is_complete. fold (prod shape). rewrite Hprod, Z.eqb_refl, andb_true_r.
      apply prod_pos_dims; [assumption|]. fold (prod shape). lia. }
    rewrite Hcomplete. unfold Model.parse_dense.
    rewrite map_map. rewrite (map_res_map (parse_elem_text hexfix e) (fun p => print_elem e (elem_value e p))).
    - rewrite shape_eqb_refl. reflexivity.
    - exact Hrt.
  Qed.

  Theorem densearray_roundtrip_ok : forall hexfix e ps,
    Forall (fun p => parse_array_elem hexfix e (print_elem e (elem_value e p)) = Ok p) ps ->
    densearray_roundtrip hexfix e ps = Ok ps.
  Proof.
    intros hexfix e ps H. unfold Model.densearray_roundtrip, Model.print_densearray.
    apply (map_res_map (parse_array_elem hexfix e) (fun p => print_elem e (elem_value e p))). exact H.
  Qed.

  (* a stored integer element: the normal form of IntegerAttr (and int64 for index) *)
  Definition int_payload_ok (ty : ity) (p : Z) : Prop :=
    match ty with
    | TIndex => - 9223372036854775808 <= p < 9223372036854775808
    | TInteger w s => 0 <= w /\ integer_attr ty p = Ok p
    end.

  Lemma lex_fmt_d : forall v, lex false (fmt_d v) = Ok (int_toks v).
  Proof.
    intros v. rewrite <- (app_nil_r (fmt_d v)), <- (app_nil_r (int_toks v)).
    apply lex_of_lexes.
    - apply lexes_fmt_d; [exact I|]. apply lexes_nil. reflexivity.
    - rewrite !app_nil_r. apply int_toks_length.
  Qed.

  Lemma parse_elem_int_toks : forall v, exists h, Model.parse_elem scan (int_toks v) = Ok (VInt v, h).
  Proof.
    intros v. unfold int_toks. destruct (v <? 0) eqn:E.
    - cbn [Model.parse_elem]. rewrite nat_digits10_value by lia. eexists. do 3 f_equal. lia.
    - cbn [Model.parse_elem]. rewrite nat_digits10_value by lia. eexists. reflexivity.
  Qed.

  Lemma int_elem_rt : forall hexfix ty p, int_payload_ok ty p -> elem_rt hexfix (EI ty) p.
  Proof.
    intros hexfix ty p Hok. unfold elem_rt, Model.parse_elem_text, Model.print_elem, Model.elem_value.
    destruct (is_i1 ty) eqn:Hi1.
    - apply is_i1_eq in Hi1 as ->. destruct Hok as [_ Hok]. destruct (i1_values p p Hok) as [-> | ->]; vm_compute; reflexivity.
    - unfold print_int. rewrite lex_fmt_d. destruct (parse_elem_int_toks p) as [h ->].
      destruct ty as [|w s].
      + cbn in Hok. unfold Model.elem_payload, to_int, pyval_ltz. cbn [negb andb]. rewrite andb_false_r.
        replace ((-9223372036854775808 <=? p) && (p <? 9223372036854775808)) with true by lia. reflexivity.
      + destruct Hok as [Hw Hok]. destruct (integer_attr_spec w s p p Hw Hok) as (Hr & _ & _ & Hsg & _ & Hn).
        unfold Model.elem_payload, to_int, pyval_ltz.
        assert (Hneg : (p <? 0) && negb (match s with Unsigned => false | _ => true end) = false).
        { apply in_range_iff in Hr. destruct s; cbn [value_range fst snd negb] in *; lia. }
        rewrite Hneg, Hn. reflexivity.
  Qed.

  Lemma int_size_cases : forall w s sz, int_size (TInteger w s) = Ok sz ->
    (sz = 1 \/ sz = 2 \/ sz = 4 \/ sz = 8) /\ w <= 8 * sz.
  Proof.
    intros w s sz H. unfold int_size in H. rewrite Z.shiftr_div_pow2 in H by lia. change (2 ^ 3) with 8 in H.
    (* q = ceil(w / 8) *)
    assert (Hq : 8 * ((w + 7) / 8) <= w + 7 < 8 * ((w + 7) / 8) + 8) by (Z.div_mod_to_equations; lia).
    remember ((w + 7) / 8) as q eqn:Eq. clear Eq.
    destruct (Z.leb_spec 8 (q - 1)); [discriminate|]. injection H as <-.
    destruct (Z.leb_spec (q - 1) 0); [lia|]. destruct (Z.eqb_spec (q - 1) 1); [lia|].
    destruct (Z.leb_spec (q - 1) 3); lia.
  Qed.

  Lemma signed_fits : forall sz p, 0 < sz -> - 2 ^ (8 * sz - 1) <= p < 2 ^ (8 * sz - 1) ->
    let u := p mod 256 ^ sz in (if 2 ^ (8 * sz - 1) <=? u then u - 2 ^ (8 * sz) else u) = p.
  Proof.
    intros sz p Hsz Hp. change 256 with (2 ^ 8). rewrite <- Z.pow_mul_r by lia.
    assert (Hpow : 2 ^ (8 * sz) = 2 * 2 ^ (8 * sz - 1)).
    { replace (8 * sz) with (Z.succ (8 * sz - 1)) at 1 by lia. rewrite Z.pow_succ_r by lia. reflexivity. }
    assert (0 < 2 ^ (8 * sz - 1)) by (apply Z.pow_pos_nonneg; lia).
    cbv zeta. destruct (Z_lt_le_dec p 0) as [Hn|Hn].
    - replace (p mod 2 ^ (8 * sz)) with (p + 2 ^ (8 * sz)).
      + replace (2 ^ (8 * sz - 1) <=? p + 2 ^ (8 * sz)) with true by lia. lia.
      + apply Z.mod_unique with (q := -1); lia.
    - rewrite Z.mod_small by lia.
      replace (2 ^ (8 * sz - 1) <=? p) with false by lia. reflexivity.
  Qed.

  Lemma int_payload_fits : forall ty p sz, int_payload_ok ty p -> int_size ty = Ok sz ->
    payload_fits (EI ty) sz p.
  Proof.
    intros ty p sz Hok Hsz. unfold payload_fits, payload_of_bytes.
    rewrite of_le_bytes_le_bytes.
    destruct ty as [|w s].
    - cbn in Hsz. injection Hsz as <-. cbn in Hok. rewrite Z2Nat.id by lia.
      apply (signed_fits 8 p); [lia|]. cbn. lia.
    - destruct Hok as [Hw Hok]. destruct (int_size_cases w s sz Hsz) as [Hcases Hle].
      assert (Hszpos : 0 < sz) by lia. rewrite Z2Nat.id by lia.
      destruct (integer_attr_spec w s p p Hw Hok) as (Hr & _ & _ & Hsg & _ & _).
      destruct (bounds_spec w Hw) as (h & Hh & Hp & HU & HL & HS). rewrite HL, HS in Hsg.
      assert (Hmono : 2 ^ w <= 2 ^ (8 * sz)) by (apply Z.pow_le_mono_r; lia).
      destruct s.
      (* signless and signed values are stored in a signed struct format of 8 * sz >= w bits *)
      1, 2: apply (signed_fits sz p Hszpos); specialize (Hsg ltac:(discriminate));
            replace (8 * sz) with (Z.succ (8 * sz - 1)) in Hmono by lia; rewrite Z.pow_succ_r in Hmono by lia; lia.
      apply in_range_iff in Hr. cbn [value_range fst snd] in Hr. rewrite HU in Hr.
      change 256 with (2 ^ 8). rewrite <- Z.pow_mul_r by lia. apply Z.mod_small. lia.
  Qed.

  Lemma splat_exact_fixed : forall e ps, splat_exact true e ps.
  Proof.
    intros e ps Hs p Hp. destruct ps as [|p0 ps]; [destruct Hp|]. cbn [hd].
    cbn [is_splat_bits] in Hs. destruct Hp as [<-|Hp]; [reflexivity|]. rewrite forallb_forall in Hs.
    specialize (Hs p Hp). apply Z.eqb_eq in Hs. assumption.
  Qed.

  Lemma int_splat_exact : forall splatfix ty ps, splat_exact splatfix (EI ty) ps.
  Proof.
    intros [|] ty ps; [apply splat_exact_fixed|].
    intros Hs p Hp. destruct ps as [|p0 ps]; [destruct Hp|]. cbn [hd].
    cbn [map Model.is_splat Model.elem_value] in Hs. rewrite map_id in Hs.
    destruct Hp as [<-|Hp]; [reflexivity|]. rewrite forallb_forall in Hs.
    specialize (Hs p Hp). cbn in Hs. apply Z.eqb_eq in Hs. auto.
  Qed.

  (* dense attributes with integer / index elements round-trip for every shape, every width up to
     64 bits, every signedness and every stored value: list, splat and hex-string forms *)
  Theorem dense_int_roundtrip_ok : forall hexfix splatfix ty shape ps sz,
    int_size ty = Ok sz ->
    prod shape = Z.of_nat (List.length ps) -> Forall (fun d => 0 <= d) shape ->
    Forall (int_payload_ok ty) ps ->
    dense_roundtrip hexfix splatfix (EI ty) shape ps = Ok ps.
  Proof.
    intros hexfix splatfix ty shape ps sz Hsz Hprod Hdims Hps.
    assert (Hszpos : 0 < sz).
    { destruct ty as [|w s]; [cbn in Hsz; injection Hsz as <-; lia|]. destruct (int_size_cases w s sz Hsz); lia. }
    apply dense_roundtrip_ok with (sz := sz); auto.
    - eapply Forall_impl; [|exact Hps]. intros p Hp. apply int_elem_rt. assumption.
    - eapply Forall_impl; [|exact Hps]. intros p Hp. apply int_payload_fits; assumption.
    - apply int_splat_exact.
  Qed.

  Lemma int_array_elem_rt : forall hexfix w s p, int_payload_ok (TInteger w s) p ->
    parse_array_elem hexfix (EI (TInteger w s)) (print_elem (EI (TInteger w s)) (elem_value (EI (TInteger w s)) p)) = Ok p.
  Proof.
    intros hexfix w s p [Hw Hok]. unfold Model.parse_array_elem, Model.print_elem, Model.elem_value.
    destruct (is_i1 (TInteger w s)) eqn:Hi1.
    - apply is_i1_eq in Hi1. injection Hi1 as -> ->. destruct (i1_values p p Hok) as [-> | ->]; vm_compute; reflexivity.
    - unfold print_int. rewrite lex_fmt_d. rewrite <- (app_nil_r (int_toks p)), int_toks_value.
      destruct (integer_attr_spec w s p p Hw Hok) as (Hr & _ & _ & _ & _ & Hn). rewrite Hr, Hn. reflexivity.
  Qed.

  Theorem densearray_int_roundtrip_ok : forall hexfix w s ps,
    Forall (int_payload_ok (TInteger w s)) ps ->
    densearray_roundtrip hexfix (EI (TInteger w s)) ps = Ok ps.
  Proof.
    intros hexfix w s ps H. apply densearray_roundtrip_ok. eapply Forall_impl; [|exact H].
    intros p Hp. apply int_array_elem_rt. assumption.
  Qed.

  Notation print_float_branch := (print_float_branch pack unpack fmt5e fmt9g fmt17g scan).

  Lemma lex_hex_alone : forall hs, hs <> [] -> forallb is_hexdigit hs = true ->
    lex false (str "0x" ++ hs) = Ok [TInt (48 :: 120 :: hs)].
  Proof.
    intros hs Hne Hall. rewrite str_0x. cbn [app]. apply lex_of_lexes.
    - eapply lexes_cons.
      + rewrite <- (app_nil_r hs) at 1. apply lex1_hex; [assumption|assumption|exact I].
      + apply lexes_nil. reflexivity.
    - cbn [List.length]. lia.
  Qed.

  Lemma hex_elem_text_rt : forall ty p hs,
    0 <= p < 2 ^ (8 * fsize ty) -> pack ty (unpack ty p) = p -> hex_lit hs p ->
    parse_elem_text true (EF ty) (str "0x" ++ hs) = Ok p /\
    parse_array_elem true (EF ty) (str "0x" ++ hs) = Ok p.
  Proof.
    intros ty p hs Hr Hcanon (Hne & Hall & Hval).
    assert (Hlt : (p <? 2 ^ (8 * fsize ty)) = true) by lia.
    unfold Model.parse_elem_text, Model.parse_array_elem. rewrite lex_hex_alone by assumption.
    split.
    - cbn [Model.parse_elem]. change (is_hex_tok _) with true. rewrite get_int_value_hex, Hval.
      cbn [Model.elem_payload andb]. rewrite Hlt, Hcanon. reflexivity.
    - change (is_hex_tok _) with true. rewrite get_int_value_hex, Hval. cbn [andb]. rewrite Hlt, Hcanon. reflexivity.
  Qed.

  Definition hex_printed (ty : fty) (p : Z) : Prop :=
    let x := unpack ty p in
    print_float_branch ty x = 0 \/
    (print_float_branch ty x = 3 /\ fallback_bits pack ty x = p).

  Lemma hex_elem_rt : forall ty p, 0 < fsize ty ->
    0 <= p < 2 ^ (8 * fsize ty) -> pack ty (unpack ty p) = p -> hex_printed ty p ->
    elem_rt true (EF ty) p /\
    parse_array_elem true (EF ty) (print_elem (EF ty) (elem_value (EF ty) p)) = Ok p.
  Proof.
    intros ty p Hsz Hr Hcanon Hhex. unfold elem_rt, Model.print_elem, Model.elem_value.
    destruct (print_float_hex pack unpack fmt5e fmt9g fmt17g repr_ scan ty (unpack ty p) Hsz) as (hs & -> & Hhs).
    - rewrite Hcanon. exact Hr.
    - rewrite Hcanon. exact Hhex.
    - rewrite Hcanon in Hhs. apply hex_elem_text_rt; assumption.
  Qed.

  Lemma float_payload_fits : forall ty p, 0 < fsize ty -> 0 <= p < 2 ^ (8 * fsize ty) ->
    payload_fits (EF ty) (fsize ty) p.
  Proof.
    intros ty p Hsz Hr. unfold payload_fits, payload_of_bytes. rewrite of_le_bytes_le_bytes.
    rewrite Z2Nat.id by lia. change 256 with (2 ^ 8). rewrite <- Z.pow_mul_r by lia. apply Z.mod_small. lia.
  Qed.

  (* With the repairs, a float dense attribute round-trips bit for bit as soon as every element that is NOT
     printed in hexadecimal reads back on its own (the decimal forms: the CPython facts of C06_float_rt);
     NaN / infinity / hexadecimal-fallback elements and mixed signed zeros need no hypothesis. *)
  Theorem dense_float_roundtrip_fixed : forall ty shape ps,
    0 < fsize ty ->
    prod shape = Z.of_nat (List.length ps) -> Forall (fun d => 0 <= d) shape ->
    Forall (fun p => 0 <= p < 2 ^ (8 * fsize ty) /\ pack ty (unpack ty p) = p /\
                     (hex_printed ty p \/ elem_rt true (EF ty) p)) ps ->
    dense_roundtrip true true (EF ty) shape ps = Ok ps.
  Proof.
    intros ty shape ps Hsz Hprod Hdims Hps.
    apply dense_roundtrip_ok with (sz := fsize ty); auto.
    - eapply Forall_impl; [|exact Hps]. intros p (Hr & Hc & [Hh|Hrt]); [|assumption].
      apply hex_elem_rt; assumption.
    - eapply Forall_impl; [|exact Hps]. intros p (Hr & _ & _). apply float_payload_fits; assumption.
    - apply splat_exact_fixed.
  Qed.

  Theorem densearray_float_roundtrip_fixed : forall ty ps,
    0 < fsize ty ->
    Forall (fun p => 0 <= p < 2 ^ (8 * fsize ty) /\ pack ty (unpack ty p) = p /\
                     (hex_printed ty p \/
                      parse_array_elem true (EF ty) (print_elem (EF ty) (elem_value (EF ty) p)) = Ok p)) ps ->
    densearray_roundtrip true (EF ty) ps = Ok ps.
  Proof.
    intros ty ps Hsz Hps. apply densearray_roundtrip_ok.
    eapply Forall_impl; [|exact Hps]. intros p (Hr & Hc & [Hh|Hrt]); [|assumption].
    apply hex_elem_rt; assumption.
  Qed.
End DenseProofs.
