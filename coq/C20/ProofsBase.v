(* C20/ProofsBase.v -- generic lemmas: lists, functional dictionaries, the result monad,
   the register machine. *)
From Coq Require Import ZArith List Bool Lia ZifyBool.
From XV Require Import C20.Model.
Import ListNotations.
Local Open Scope Z_scope.

Lemma upd_same {A} (f : Z -> A) k v : upd f k v k = v.
Proof. unfold upd. now rewrite Z.eqb_refl. Qed.
Lemma upd_other {A} (f : Z -> A) k v x : x <> k -> upd f k v x = f x.
Proof. unfold upd. intros H. destruct (Z.eqb_spec x k); [contradiction | reflexivity]. Qed.

Lemma lset_length {A} i (v : A) l : length (lset i v l) = length l.
Proof. revert i; induction l as [|x l IH]; intros [|i]; simpl; auto. Qed.
Lemma nth_lset_same {A} i (v : A) l : (i < length l)%nat -> nth_error (lset i v l) i = Some v.
Proof.
  revert i; induction l as [|x l IH]; intros [|i] H; simpl in *; try lia; auto.
  apply IH. lia.
Qed.
Lemma nth_lset_other {A} i j (v : A) l : i <> j -> nth_error (lset i v l) j = nth_error l j.
Proof.
  revert i j; induction l as [|x l IH]; intros [|i] [|j] H; simpl; auto; try congruence.
Qed.
Lemma lset_app {A} (pre : list A) v y r : lset (length pre) v (pre ++ y :: r) = pre ++ v :: r.
Proof. induction pre as [|a pre IH]; simpl; congruence. Qed.
Lemma nth_error_lt {A} (l : list A) i x : nth_error l i = Some x -> (i < length l)%nat.
Proof. intros H. apply nth_error_Some. congruence. Qed.

Fixpoint count_none {A} (l : list (option A)) : nat :=
  match l with [] => O | None :: r => S (count_none r) | Some _ :: r => count_none r end.
Lemma count_none_lset {A} i (v : A) l :
  nth_error l i = Some None -> S (count_none (lset i (Some v) l)) = count_none l.
Proof.
  revert i; induction l as [|x l IH]; intros [|i] H; simpl in *; try discriminate.
  - inversion H; subst. reflexivity.
  - destruct x; simpl; rewrite <- (IH i H); reflexivity.
Qed.
Lemma count_none_le {A} (l : list (option A)) : (count_none l <= length l)%nat.
Proof. induction l as [|[x|] l IH]; cbn [count_none length]; lia. Qed.

Lemma map_snd_combine_seq {A} (l : list A) : forall k, map snd (combine (seq k (length l)) l) = l.
Proof. induction l as [|x l IH]; intros k; simpl; [reflexivity|]. now rewrite IH. Qed.
Lemma combine_seq_In {A} (l : list A) k x : forall a,
  In (k, x) (combine (seq a (length l)) l) -> exists i, k = (a + i)%nat /\ nth_error l i = Some x.
Proof.
  induction l as [|y l IH]; intros a I; [destruct I|]. destruct I as [E|I].
  - injection E as <- <-. exists O. now rewrite Nat.add_0_r.
  - destruct (IH (S a) I) as (i & -> & H). exists (S i). split; [lia|exact H].
Qed.

Lemma In_nth_error_ex {A} (l : list A) x : In x l -> exists i, nth_error l i = Some x.
Proof. apply In_nth_error. Qed.

Lemma NoDup_map_nth_inj {A B} (f : A -> B) (l : list A) i j a b :
  NoDup (map f l) -> nth_error l i = Some a -> nth_error l j = Some b -> f a = f b -> i = j.
Proof.
  intros ND Hi Hj E.
  assert (Hi' : nth_error (map f l) i = Some (f a)) by (now rewrite nth_error_map, Hi).
  assert (Hj' : nth_error (map f l) j = Some (f b)) by (now rewrite nth_error_map, Hj).
  rewrite NoDup_nth_error in ND. apply ND.
  - apply nth_error_lt in Hi'. exact Hi'.
  - congruence.
Qed.
Lemma NoDup_map_In_inj {A B} (f : A -> B) (l : list A) a b :
  NoDup (map f l) -> In a l -> In b l -> f a = f b -> a = b.
Proof.
  intros ND Ha Hb E.
  destruct (In_nth_error _ _ Ha) as [i Hi]. destruct (In_nth_error _ _ Hb) as [j Hj].
  assert (i = j) by (eapply NoDup_map_nth_inj; eauto). subst. congruence.
Qed.

Lemma fold_absorb {A B} (f : A -> B -> A) a l : (forall x, f a x = a) -> fold_left f l a = a.
Proof. intros H. induction l as [|x l IH]; simpl; [reflexivity|]. now rewrite H. Qed.
(* `for x in l: body` on a `res` state, the body beginning with `do s <- r`: an invariant I of the elements
   processed so far and the state is kept by every successful pass through the body *)
Lemma fold_res_inv {S X} (step : res S -> X -> res S) (I : list X -> S -> Prop) (Bad : exn -> Prop) l :
  (forall e x, step (Raise e) x = Raise e) -> (forall x, step OutOfFuel x = OutOfFuel) ->
  (forall q x r s, l = q ++ x :: r -> I q s ->
     match step (Ok s) x with Ok s' => I (q ++ [x]) s' | Raise e => Bad e | OutOfFuel => False end) ->
  forall s, I [] s ->
  match fold_left step l (Ok s) with Ok s' => I l s' | Raise e => Bad e | OutOfFuel => False end.
Proof.
  intros HR HF Hstep.
  assert (G : forall r q s, l = q ++ r -> I q s ->
            match fold_left step r (Ok s) with Ok s' => I l s' | Raise e => Bad e | OutOfFuel => False end).
  { induction r as [|x r IH]; intros q s E Iq; simpl.
    - now rewrite E, app_nil_r.
    - specialize (Hstep q x r s E Iq). destruct (step (Ok s) x) as [s1|e|].
      + apply (IH (q ++ [x])); [now rewrite <- app_assoc|assumption].
      + now rewrite fold_absorb.
      + destruct Hstep. }
  intros s. now apply (G l []).
Qed.

Lemma bind_Ok {A B} (r : res A) (f : A -> res B) b :
  bind r f = Ok b -> exists a, r = Ok a /\ f a = Ok b.
Proof. destruct r; simpl; intros H; try discriminate. eauto. Qed.
Lemma key_Ok {A} (o : option A) a : key o = Ok a -> o = Some a.
Proof. destruct o; simpl; intros H; inversion H; reflexivity. Qed.

Lemma exec_app is1 is2 rho : exec (is1 ++ is2) rho = exec is2 (exec is1 rho).
Proof. unfold exec. apply fold_left_app. Qed.
Lemma exec_snoc is i rho : exec (is ++ [i]) rho = step (exec is rho) i.
Proof. now rewrite exec_app. Qed.
Lemma get_zero rho : get rho ZERO = 0.
Proof. reflexivity. Qed.
Lemma get_set_same rho d v : d <> ZERO -> get (set rho d v) d = v.
Proof.
  intros H. unfold get, set. destruct (Z.eqb_spec d ZERO); [contradiction|].
  now rewrite Z.eqb_refl.
Qed.
Lemma get_set_other rho d v r : r <> d -> get (set rho d v) r = get rho r.
Proof.
  intros H. unfold get, set. destruct (Z.eqb_spec r ZERO); [reflexivity|].
  destruct (Z.eqb_spec d ZERO); [reflexivity|].
  destruct (Z.eqb_spec r d); [contradiction | reflexivity].
Qed.
Lemma narrow_idem x : narrow (narrow x) = narrow x.
Proof.
  unfold narrow.
  assert (H : (x mod 2 ^ 32 + (2 ^ 64 - 2 ^ 32)) mod 2 ^ 32 = x mod 2 ^ 32).
  { replace (2 ^ 64 - 2 ^ 32) with ((2 ^ 32 - 1) * 2 ^ 32) by reflexivity.
    rewrite Z.mod_add by (compute; congruence). apply Z.mod_mod. compute; congruence. }
  now rewrite H.
Qed.

(* what _insert_mv_op emits for a move of width w between registers of one kind *)
Definition copyf (fl : bool) (w : Z) (x : Z) : Z := if fl && (w =? 32) then narrow x else x.
Lemma copyf_idem fl w x : copyf fl w (copyf fl w x) = copyf fl w x.
Proof. unfold copyf. destruct (fl && (w =? 32)); auto using narrow_idem. Qed.

Definition instr_rd (i : instr) : reg :=
  match i with Mv d _ | FMvS d _ | FMvD d _ | Xor d _ _ => d end.

Lemma insert_mv_Ok e src dst w e' nv :
  insert_mv e src dst w = Ok (e', nv) -> is_float (vreg src) = is_float dst ->
  okw w = true /\ nv = new_value e dst /\
  exists i, e' = e ++ [i] /\ instr_rd i = dst /\
    forall rho, step rho i = set rho dst (copyf (is_float dst) w (get rho (vreg src))).
Proof.
  unfold insert_mv. intros H K. rewrite K in H.
  destruct (is_float dst) eqn:Fd; destruct (okw w) eqn:Ow; try discriminate.
  - inversion H; subst. repeat split; auto. eexists; split; [reflexivity|]. split.
    + destruct (w =? 32); reflexivity.
    + intros rho. unfold copyf. simpl. destruct (w =? 32); reflexivity.
  - inversion H; subst. repeat split; auto. eexists; split; [reflexivity|]. split; [reflexivity|].
    intros rho. reflexivity.
Qed.
Lemma insert_mv_res e src dst w :
  is_float (vreg src) = is_float dst ->
  (exists e' nv, insert_mv e src dst w = Ok (e', nv)) \/ (insert_mv e src dst w = Raise EPassFailed /\ okw w = false).
Proof.
  unfold insert_mv. intros K. rewrite K.
  destruct (is_float dst); destruct (okw w); eauto.
Qed.
