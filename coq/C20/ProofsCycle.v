(* C20/ProofsCycle.v -- finite-graph lemma used for the cycle phase: if every node of a finite
   set U has a child in U (w.r.t. a partial parent function), then the parent function is a
   bijection on U and every node of U lies on a duplicate-free parent cycle inside U. *)
From Coq Require Import ZArith List Bool Lia Arith.
From XV Require Import C20.ProofsBase.
Import ListNotations.

(* p = x1 :: ... :: xn is a path of parent links that ends in z: par xi = x(i+1), par xn = z *)
Fixpoint path (par : Z -> option Z) (p : list Z) (z : Z) : Prop :=
  match p with [] => True | x :: q => par x = Some (hd z q) /\ path par q z end.

Lemma hd_in (z : Z) q : In (hd z q) (z :: q).
Proof. destruct q; simpl; auto. Qed.
Lemma path_closed par p z x : path par p z -> In x p -> exists y, par x = Some y /\ In y (z :: tl p).
Proof.
  induction p as [|a q IH]; intros Pa I; [destruct I|]. destruct Pa as [Ha Pq]. destruct I as [<-|I].
  - exists (hd z q). split; [assumption|apply hd_in].
  - destruct (IH Pq I) as (y & Hy & [Iy|Iy]); exists y; (split; [assumption|]); [now left|].
    right. destruct q; [destruct Iy|now right].
Qed.
Lemma nth_error_seq' a n i : i < n -> nth_error (seq a n) i = Some (a + i).
Proof.
  revert a i; induction n; intros a i L; [lia|].
  destruct i; simpl; [f_equal; lia|]. rewrite IHn by lia. f_equal; lia.
Qed.
Lemma not_NoDup_ex (l : list Z) : ~ NoDup l ->
  exists i j x, i < j /\ nth_error l i = Some x /\ nth_error l j = Some x.
Proof.
  induction l as [|x r IH]; intros H; [exfalso; apply H; constructor|].
  destruct (in_dec Z.eq_dec x r) as [I|I].
  - destruct (In_nth_error _ _ I) as [j Hj]. exists 0, (S j), x. repeat split; [lia|assumption].
  - destruct IH as (i & j & y & L & Hi & Hj).
    + intros ND. apply H. now constructor.
    + exists (S i), (S j), y. repeat split; [lia|assumption|assumption].
Qed.

Section Orbit.
  Variable par : Z -> option Z.
  Variable U : list Z.
  Hypothesis NDU : NoDup U.
  Hypothesis child : forall d, In d U -> exists c, In c U /\ par c = Some d.

  Definition pp (x : Z) : Z := match par x with Some p => p | None => x end.

  (* pp maps U onto U; U being finite and duplicate free, pp is injective on U and maps U into U *)
  Lemma pp_onto d : In d U -> In d (map pp U).
  Proof.
    intros Id. destruct (child d Id) as (c & Ic & Pc). apply in_map_iff. exists c.
    split; [|assumption]. unfold pp. now rewrite Pc.
  Qed.
  Lemma pp_inj a b : In a U -> In b U -> pp a = pp b -> a = b.
  Proof.
    apply NoDup_map_In_inj. apply (NoDup_incl_NoDup NDU); [now rewrite map_length|exact pp_onto].
  Qed.
  Lemma pp_in x : In x U -> In (pp x) U /\ par x = Some (pp x).
  Proof.
    intros I. split.
    - apply (NoDup_length_incl NDU (l' := map pp U)); [now rewrite map_length|exact pp_onto|now apply in_map].
    - unfold pp. destruct (par x) as [p|] eqn:E; [reflexivity|exfalso].
      (* x would be its own image and the image of its child *)
      destruct (child x I) as (c & Ic & Pc).
      assert (c = x) by (apply pp_inj; auto; unfold pp; now rewrite Pc, E). subst c. congruence.
  Qed.
  Lemma iter_in k x : In x U -> In (Nat.iter k pp x) U.
  Proof. intros I. induction k; simpl; [assumption|]. now apply pp_in. Qed.
  Lemma iter_add p q x : Nat.iter (p + q) pp x = Nat.iter p pp (Nat.iter q pp x).
  Proof. induction p; simpl; congruence. Qed.
  Lemma iter_cancel k a b : In a U -> In b U -> Nat.iter k pp a = Nat.iter k pp b -> a = b.
  Proof.
    intros Ia Ib. induction k; simpl; intros E; [assumption|].
    apply IHk. apply pp_inj; auto using iter_in.
  Qed.

  Lemma returns d : In d U -> exists k, 1 <= k <= length U /\ Nat.iter k pp d = d.
  Proof.
    intros Id.
    set (L := map (fun k => Nat.iter k pp d) (seq 0 (S (length U)))).
    assert (HL : ~ NoDup L).
    { intros ND. assert (length L <= length U).
      { apply NoDup_incl_length; [assumption|]. intros x Ix. unfold L in Ix.
        apply in_map_iff in Ix as (k & <- & _). now apply iter_in. }
      unfold L in H. rewrite map_length, seq_length in H. lia. }
    destruct (not_NoDup_ex L HL) as (i & j & x & Lt & Hi & Hj).
    assert (Bj : j < S (length U)).
    { assert (j < length L) by (apply nth_error_Some; congruence).
      unfold L in H. now rewrite map_length, seq_length in H. }
    unfold L in Hi, Hj. rewrite nth_error_map in Hi, Hj.
    rewrite nth_error_seq' in Hi, Hj by lia. simpl in Hi, Hj.
    exists (j - i). split; [lia|].
    assert (E : Nat.iter i pp (Nat.iter (j - i) pp d) = Nat.iter i pp d).
    { rewrite <- iter_add. replace (i + (j - i)) with j by lia. congruence. }
    apply iter_cancel in E; auto using iter_in.
  Qed.

  Fixpoint orb (n : nat) (x : Z) : list Z :=
    match n with O => [] | S n => x :: orb n (pp x) end.
  Lemma iter_pp_comm i x : Nat.iter i pp (pp x) = pp (Nat.iter i pp x).
  Proof. induction i; simpl; congruence. Qed.
  Lemma orb_In n : forall x y, In y (orb n x) -> exists i, i < n /\ y = Nat.iter i pp x.
  Proof.
    induction n as [|n IH]; intros x y I; [destruct I|]. destruct I as [<-|I].
    - exists 0. split; [lia|reflexivity].
    - destruct (IH _ _ I) as (i & Li & ->). exists (S i). split; [lia|apply iter_pp_comm].
  Qed.
  Lemma orb_path n : forall x, In x U -> path par (orb n x) (Nat.iter n pp x).
  Proof.
    induction n as [|n IH]; intros x I; [exact Logic.I|]. destruct (pp_in x I) as [Ip Px]. split.
    - destruct n; exact Px.
    - change (Nat.iter (S n) pp x) with (pp (Nat.iter n pp x)). rewrite <- iter_pp_comm. now apply IH.
  Qed.
  Lemma orb_NoDup n : forall x, In x U -> (forall i, 0 < i < n -> Nat.iter i pp x <> x) -> NoDup (orb n x).
  Proof.
    induction n as [|n IH]; intros x I H; [constructor|]. constructor.
    - intros J. destruct (orb_In _ _ _ J) as (i & Li & E). apply (H (S i)); [lia|].
      change (Nat.iter (S i) pp x) with (pp (Nat.iter i pp x)). now rewrite <- iter_pp_comm.
    - apply IH; [now apply pp_in|]. intros i Li E. apply (H i); [lia|].
      rewrite iter_pp_comm in E. apply pp_inj in E; auto using iter_in.
  Qed.

  Lemma cycle_of d : In d U -> exists p, path par (d :: p) d /\ NoDup (d :: p) /\ incl p U.
  Proof.
    intros Id. destruct (returns d Id) as (k0 & B0 & R0).
    destruct (dec_inh_nat_subset_has_unique_least_element (fun k => 1 <= k /\ Nat.iter k pp d = d))
      as (k & [[K1 Kr] Kmin] & _).
    - intros n. destruct (le_dec 1 n); [|right; tauto].
      destruct (Z.eq_dec (Nat.iter n pp d) d); [left|right]; tauto.
    - exists k0. tauto.
    - destruct k as [|k]; [lia|]. exists (orb k (pp d)).
      change (d :: orb k (pp d)) with (orb (S k) d). split; [|split].
      + rewrite <- Kr at 2. now apply orb_path.
      + apply orb_NoDup; [assumption|]. intros i Li E. specialize (Kmin i). lia.
      + intros y Iy. destruct (orb_In _ _ _ Iy) as (i & _ & ->). apply iter_in. now apply pp_in.
  Qed.
End Orbit.
