(* C20/Proofs.v -- the third loop, and the theorems about `lower`. *)
From Coq Require Import ZArith List Bool Lia ZifyBool Relations.
From XV Require Import C20.Model C20.Spec C20.ProofsBase C20.ProofsTables C20.ProofsCycle
  C20.ProofsPhase1 C20.ProofsPhase3.
Import ListNotations.
Local Open Scope Z_scope.

(* the outcome of the pass on a well-formed parallel move: the loops do not run out of fuel; the pass
   gives up only for one of the stated causes; a sequence is emitted only if every register is allocated
   and every float cycle has a free float register, and then it is correct *)
Definition lowered (ms : list move) (free : list reg) (r : res (list instr * list value)) : Prop :=
  match r with
  | Ok (is, _) => simultaneous ms is /\ frame ms free is
      /\ (forall m, In m ms -> is_alloc (m_src m) = true /\ is_alloc (m_dst m) = true)
      /\ (forall d, on_cycle ms d -> is_float d = true -> exists f, In f free /\ is_float f = true)
  | Raise e => e = EPassFailed /\ fail_cause ms free
  | OutOfFuel => False
  end.

Lemma bad_width ms free :
  (exists m, In m ms /\ trivb m = false /\ okw (m_w m) = false) -> fail_cause ms free.
Proof.
  intros (m & Im & Tm & Wm). right. left. exists m.
  split; [assumption|]. split; [now apply trivb_false|assumption].
Qed.

Lemma forallb_false_ex {A} (f : A -> bool) l : forallb f l = false -> exists x, In x l /\ f x = false.
Proof.
  induction l as [|a l IH]; simpl; [discriminate|]. intros H. apply andb_false_iff in H as [H|H].
  - exists a. auto.
  - destruct (IH H) as (x & I & F). exists x. auto.
Qed.

Lemma nodupb_NoDup l : NoDup l -> nodupb l = true.
Proof.
  induction 1 as [|x l Hx _ IH]; [reflexivity|]. simpl. rewrite IH, andb_true_r.
  apply negb_true_iff. destruct (existsb (Z.eqb x) l) eqn:E; [|reflexivity].
  apply existsb_exists in E as (y & Iy & Ey). apply Z.eqb_eq in Ey. subst. contradiction.
Qed.
Lemma wf_verify ms free : wf_all ms free -> verify ms = true.
Proof.
  intros WF. unfold verify. apply andb_true_iff. split.
  - apply forallb_forall. intros m Im. rewrite (wa_kinds _ _ WF m Im). apply eqb_reflx.
  - apply nodupb_NoDup. apply NoDup_filter. apply (wa_dsts _ _ WF).
Qed.

Section Main.
  Variable ms : list move.
  Variable free : list reg.
  Variable c : cfg.
  Variable ck : value -> Z.
  Variable wl : value -> reg -> option Z.
  Variable ch0 : Z -> Z.
  Hypothesis WF : wf_all ms free.
  Hypothesis Hkey : forall a b, In a ms -> In b ms ->
    (ck (m_value a) = ck (m_value b) <-> m_src a = m_src b).
  Hypothesis Hw : forall m, In m ms -> trivb m = false -> wl (m_value m) (m_dst m) = Some (m_w m).
  Hypothesis Hch0 : forall k,
    ch0 k = Z.of_nat (length (filter (fun m => negb (trivb m) && (ck (m_value m) =? k)) ms)).
  Hypothesis Hrf : root_free c = false.
  Hypothesis Hxo : xor_old c = false.

  Notation P := (src_by_dst (loop1 ms)).
  Notation oidx := (output_index ms).
  Notation doneb := (doneb ms).
  Notation par := (par ms).
  Notation fi := (filter (fun r => negb (is_float r)) free).
  Notation ff := (filter is_float free).
  Let ND : NoDup (map m_dst ms) := wa_dsts _ _ WF.

  Lemma free_of_head d temp rest : free_of fi ff d = temp :: rest ->
    In temp free /\ is_float temp = is_float d.
  Proof.
    unfold free_of. intros H.
    destruct (is_float d) eqn:F.
    - assert (I : In temp ff) by (rewrite H; now left). apply filter_In in I. tauto.
    - assert (I : In temp fi) by (rewrite H; now left). apply filter_In in I as [I1 I2].
      apply negb_true_iff in I2. tauto.
  Qed.
  Lemma free_of_nil_float d : free_of fi ff d = [] -> is_float d = true ->
    forall f, In f free -> is_float f = false.
  Proof.
    unfold free_of. intros H F f If. rewrite F in H.
    destruct (is_float f) eqn:E; [|reflexivity]. exfalso.
    assert (In f ff) by (apply filter_In; auto). rewrite H in H0. destruct H0.
  Qed.

  Lemma triv_done s k m : Inv3 ms free s -> nth_error ms k = Some m -> trivb m = true ->
    doneb (results s) (m_dst m) = true.
  Proof.
    intros K Hk T. unfold ProofsPhase1.doneb.
    now rewrite (output_index_of ms k m ND Hk), (K_triv ms free s K k m Hk T).
  Qed.

  Definition step3_post (s : state) (d : reg) (r : res state) : Prop :=
    match r with
    | Ok s' => Inv3 ms free s' /\ doneb (results s') d = true
               /\ (forall r, doneb (results s) r = true -> doneb (results s') r = true)
               (* without a free float register no float register gets resolved: what `lowered` needs to
                  say that a float cycle then makes the pass fail *)
               /\ (ff = [] -> forall r, is_float r = true -> doneb (results s') r = doneb (results s) r)
    | Raise e => e = EPassFailed /\ fail_cause ms free
    | OutOfFuel => False
    end.

  (* the move m at index k closes a cycle d -> m_src m -> ... -> d of unresolved registers *)
  Section Cycle.
    Variables (s : state) (k : nat) (m : move) (q : list reg).
    Notation p := (m_src m :: q).
    Hypothesis K : Inv3 ms free s.
    Hypothesis Hk : nth_error ms k = Some m.
    Hypothesis Tm : trivb m = false.
    Hypothesis Pa : path par (m_dst m :: p) (m_dst m).
    Hypothesis NDc : NoDup (m_dst m :: p).
    Hypothesis HC : forall z, In z (m_dst m :: p) -> P z <> None /\ doneb (results s) z = false.

    Lemma cycle_facts :
      In m ms /\ oidx (m_dst m) = Some k /\ (k < length (results s))%nat
      /\ NoDup p /\ ~ In (m_dst m) p /\ (length p < loop_fuel ms)%nat.
    Proof.
      destruct (proj1 (NoDup_cons_iff _ _) NDc) as [Ndp NDp]. rewrite (K_len ms free s K).
      split; [eapply nth_error_In; eauto|]. split; [apply (output_index_of ms k m ND Hk)|].
      split; [now apply nth_error_lt in Hk|]. split; [assumption|]. split; [assumption|].
      exact (cycle_len ms free WF (m_dst m) p NDc (fun z I => proj1 (HC z I))).
    Qed.

    Lemma cycle_rotated inp : is_float (m_dst m) = false -> P (m_src m) = Some inp ->
      step3_post s (m_dst m)
        (do '(e1, rs1, out1) <- xor_chain_new ms (loop1 ms) (loop_fuel ms) (m_src m) (em s) (results s) inp (m_value m);
         do i <- key (oidx (vreg out1));
         Ok (mkS e1 (lset i (Some out1) rs1) (children s))).
    Proof.
      intros Fl Ei. destruct cycle_facts as (Im & Oidx & Klt & NDp & Ndp & Fu).
      assert (Ns : ~ In (m_src m) (m_dst m :: q)).
      { (* the cycle is duplicate free and m is not a self-move *)
        apply NoDup_cons_iff in NDp. intros [E|I]; [apply Ndp; now left|now apply NDp]. }
      destruct (xor_chain_spec ms free WF p (m_dst m) (loop_fuel ms) (m_src m) (em s) (results s) inp (m_value m)
                  (proj2 Pa) (proj1 Pa) NDp Ndp Ns eq_refl Ei (K_len ms free s K) Fu)
        as (mvs & rs' & out' & Hx & Vo & Fp & Sem).
      rewrite Hx. cbn [bind]. rewrite Vo, Oidx. cbn [key bind].
      destruct (cycle_step_inv ms free WF s (mkS (em s ++ mvs) (lset k (Some out') rs') (children s)) (m_dst m) p mvs
                  K Pa HC eq_refl (fills_last ms free WF _ _ _ (m_dst m) k out' Oidx Klt Fp))
        as (K' & D' & Mo & Kd).
      { intros rho. destruct (Sem rho) as (F1 & F2 & F3). split; [auto|].
        intros mx Imx Tmx [E|Ic]; f_equal; [|now apply F2].
        assert (mx = m) by (now apply (dst_inj ms free WF)). now subst mx. }
      refine (conj K' (conj D' (conj Mo _))). intros _ r Fr. apply Kd. congruence.
    Qed.

    (* with a free register temp of its kind the cycle is broken: temp := src m; the chain up to dst m; dst m := temp *)
    Lemma cycle_broken temp rest : free_of fi ff (m_dst m) = temp :: rest ->
      step3_post s (m_dst m)
        (do '(e1, temp_ssa) <- insert_mv (em s) (m_value m) temp (m_w m);
         do '(e2, rs2) <- break_chain wl ms (loop1 ms) (loop_fuel ms) (m_dst m) e1 (results s) (m_src m);
         do '(e3, nv) <- insert_mv e2 temp_ssa (m_dst m) (m_w m);
         Ok (mkS e3 (lset k (Some nv) rs2) (children s))).
    Proof.
      intros Fo. destruct cycle_facts as (Im & Oidx & Klt & NDp & Ndp & Fu).
      assert (NZd : m_dst m <> ZERO) by (now apply (nontriv_dst_nonzero ms free WF)).
      destruct (free_of_head _ _ _ Fo) as [Itemp Ktemp].
      assert (Ksrc : is_float (vreg (m_value m)) = is_float temp).
      { simpl. rewrite Ktemp. apply (wa_kinds _ _ WF m Im). }
      destruct (insert_mv_res (em s) (m_value m) temp (m_w m) Ksrc) as [(e1 & tv & Hins)|[Hins Hbw]].
      2:{ rewrite Hins. cbn [bind]. split; [reflexivity|]. apply bad_width. eauto. }
      rewrite Hins. cbn [bind].
      destruct (insert_mv_Ok _ _ _ _ _ _ Hins Ksrc) as (Okw & -> & it & -> & _ & Hit).
      pose proof (break_chain_spec ms free wl WF Hw p (m_dst m) (loop_fuel ms) (em s ++ [it]) (results s)
                    (proj2 Pa) NDp Ndp (K_len ms free s K) Fu) as B. cbn [hd] in B.
      destruct (break_chain wl ms (loop1 ms) (loop_fuel ms) (m_dst m) (em s ++ [it]) (results s) (m_src m))
        as [[e2 rs2]|e0|]; cbn [bind].
      2:{ destruct B as [-> B]. split; [reflexivity|now apply bad_width]. }
      2:{ destruct B. }
      destruct B as (mvs & -> & Fp & Sem).
      assert (Kfin : is_float (vreg (new_value (em s) temp)) = is_float (m_dst m)) by (simpl; assumption).
      destruct (insert_mv_res ((em s ++ [it]) ++ mvs) (new_value (em s) temp) (m_dst m) (m_w m) Kfin)
        as [(e3 & nv & Hfin)|[_ Hbw]]; [|congruence].
      rewrite Hfin. cbn [bind].
      destruct (insert_mv_Ok _ _ _ _ _ _ Hfin Kfin) as (_ & -> & ifin & -> & _ & Hifin).
      assert (NZt : temp <> ZERO) by (intros ->; now apply (wa_free_zero _ _ WF)).
      assert (Tc : ~ In temp (m_dst m :: p))
        by (intros Ic; apply (proj1 (HC temp Ic)), (free_no_dst ms free WF), Itemp).
      destruct (cycle_step_inv ms free WF s
                  (mkS (((em s ++ [it]) ++ mvs) ++ [ifin]) (lset k (Some (new_value ((em s ++ [it]) ++ mvs) (m_dst m))) rs2) (children s))
                  (m_dst m) p ([it] ++ mvs ++ [ifin]) K Pa HC) as (K' & D' & Mo & Kd).
      { simpl em. now rewrite <- !app_assoc. }
      { now apply (fills_last ms free WF). }
      { intros rho. rewrite !exec_app. change (exec [it] rho) with (step rho it). rewrite Hit.
        set (rho2 := set rho temp (copyf (is_float temp) (m_w m) (get rho (vreg (m_value m))))).
        destruct (Sem rho2) as [F1 F2].
        change (exec [ifin] (exec mvs rho2)) with (step (exec mvs rho2) ifin). rewrite Hifin.
        simpl vreg. split.
        - intros r Nc Nf. rewrite get_set_other by (intros ->; apply Nc; now left).
          rewrite F1 by (intros I; apply Nc; now right).
          unfold rho2. apply get_set_other. intros ->. contradiction.
        - intros mx Imx Tmx Ic. rewrite !view_copyf. destruct Ic as [E|Ic].
          + assert (mx = m) by (now apply (dst_inj ms free WF)). subst mx.
            rewrite get_set_same by assumption. rewrite F1 by (intros I; apply Tc; now right).
            unfold rho2. rewrite get_set_same by assumption. simpl vreg.
            rewrite Ktemp. now rewrite !copyf_idem.
          + rewrite get_set_other by (intros Ed; apply Ndp; now rewrite <- Ed).
            rewrite (F2 mx Imx Tmx Ic). rewrite copyf_idem. f_equal.
            unfold rho2. apply get_set_other.
            destruct (wa_free _ _ WF temp mx Itemp Imx) as [N _]. congruence. }
      refine (conj K' (conj D' (conj Mo _))). intros Eff r Fr. apply Kd. intros E.
      unfold free_of in Fo. rewrite <- E, Fr, Eff in Fo. discriminate.
    Qed.
  End Cycle.

  Lemma loop3_step_spec s k m : Inv3 ms free s -> nth_error ms k = Some m ->
    step3_post s (m_dst m) (loop3_step c wl ms (loop1 ms) fi ff (Ok s) (k, m)).
  Proof.
    intros K Hk. unfold loop3_step. cbn [bind].
    assert (Klt : (k < length (results s))%nat) by (rewrite (K_len ms free s K); now apply nth_error_lt in Hk).
    destruct (nth_error (results s) k) as [[v|]|] eqn:Ek; [| |apply nth_error_None in Ek; now apply Nat.lt_nge in Klt].
    - split; [assumption|]. split; [|auto]. unfold ProofsPhase1.doneb.
      now rewrite (output_index_of ms k m ND Hk), Ek.
    - destruct (slot_cycle ms free WF s k m K Hk Ek) as (Tm & q & Pa & NDc & HC).
      destruct (free_of fi ff (m_dst m)) as [|temp rest] eqn:Fo; [|exact (cycle_broken s k m q K Hk Tm Pa NDc HC temp rest Fo)].
      destruct (is_float (m_dst m)) eqn:Fl.
      + split; [reflexivity|]. right. right. exists (m_dst m).
        split; [now apply (cycle_on ms free WF (m_dst m) (m_src m :: q))|]. split; [assumption|].
        now apply free_of_nil_float with (d := m_dst m).
      + simpl vreg. destruct (HC (m_src m)) as [Ps _]; [right; now left|].
        destruct (P (m_src m)) as [inp|] eqn:Ei; [|congruence]. cbn [key bind]. rewrite Hxo.
        now apply (cycle_rotated s k m q).
  Qed.

  Lemma loop3_spec s : Inv3 ms free s ->
    match fold_left (loop3_step c wl ms (loop1 ms) fi ff) (combine (seq 0 (length ms)) ms) (Ok s) with
    | Ok s' => Inv3 ms free s'
               /\ (forall im, In im (combine (seq 0 (length ms)) ms) -> doneb (results s') (m_dst (snd im)) = true)
               /\ (ff = [] -> forall r, is_float r = true -> doneb (results s') r = doneb (results s) r)
    | Raise e => e = EPassFailed /\ fail_cause ms free
    | OutOfFuel => False
    end.
  Proof.
    intros K.
    apply (fold_res_inv (loop3_step c wl ms (loop1 ms) fi ff)
      (fun q s' => Inv3 ms free s' /\ (forall im, In im q -> doneb (results s') (m_dst (snd im)) = true)
                   /\ (ff = [] -> forall r, is_float r = true -> doneb (results s') r = doneb (results s) r))
      (fun e => e = EPassFailed /\ fail_cause ms free)); [reflexivity|reflexivity| |].
    2:{ split; [assumption|]. split; [intros im []|reflexivity]. }
    intros q [k m] r s1 E (K1 & D1 & F1).
    destruct (combine_seq_In ms k m 0) as (i & -> & Hk); [rewrite E; apply in_elt|]. cbn [Nat.add].
    pose proof (loop3_step_spec s1 i m K1 Hk) as St.
    destruct (loop3_step c wl ms (loop1 ms) fi ff (Ok s1) (i, m)) as [s2|e|]; [|exact St..].
    destruct St as (K2 & D2 & Mo & F2). split; [assumption|]. split.
    - intros im I. apply in_app_or in I as [I|[<-|[]]]; [apply Mo; auto|exact D2].
    - intros Eff r0 Fr. now rewrite (F2 Eff r0 Fr), (F1 Eff r0 Fr).
  Qed.

  Definition rewrite_gen : res (list instr * list value) :=
    if negb (forallb (fun m => is_alloc (m_src m) && is_alloc (m_dst m)) ms) then Raise EPassFailed else
    let t := loop1 ms in
    let s0 := mkS [] (results0 t) ch0 in
    do '(s2, f1, f2) <- fold_left (loop2_step c ck wl ms t (leaves t)) (map m_dst ms) (Ok (s0, fi, ff));
    do s3 <- fold_left (loop3_step c wl ms t f1 f2) (combine (seq 0 (length ms)) ms) (Ok s2);
    if forallb (fun o => match o with Some _ => true | None => false end) (results s3)
    then Ok (em s3, flat_map (fun o => match o with Some v => [v] | None => [] end) (results s3))
    else Raise EValueError.

  Lemma rewrite_gen_spec : lowered ms free rewrite_gen.
  Proof.
    unfold lowered, rewrite_gen.
    destruct (forallb (fun m => is_alloc (m_src m) && is_alloc (m_dst m)) ms) eqn:Al; cbn [negb].
    2:{ split; [reflexivity|]. left. destruct (forallb_false_ex _ _ Al) as (m & Im & F).
        exists m. split; [assumption|]. apply andb_false_iff in F. exact F. }
    pose proof (loop2_spec ms free ck wl WF Hkey Hw c (map m_dst ms) _ fi ff (inv2_0 ms free ck ch0 WF Hch0) ND) as L2.
    destruct (fold_left (loop2_step c ck wl ms (loop1 ms) (leaves (loop1 ms))) (map m_dst ms)
                (Ok (mkS [] (results0 (loop1 ms)) ch0, fi, ff))) as [[[s2 fi'] ff']|e|];
      cbn [bind].
    2:{ destruct L2 as [-> L2]. split; [reflexivity|now apply bad_width]. }
    2:{ destruct L2. }
    destruct L2 as (J2 & Hfree & _). destruct (Hfree Hrf) as [-> ->].
    pose proof (inv3_of_inv2 ms free ck WF Hkey s2 J2) as K2.
    pose proof (loop3_spec s2 K2) as L3.
    destruct (fold_left (loop3_step c wl ms (loop1 ms) fi ff) (combine (seq 0 (length ms)) ms) (Ok s2)) as [s3|e|];
      cbn [bind]; [|exact L3|exact L3].
    destruct L3 as (K3 & D3 & Flo).
    assert (Dall : forall m, In m ms -> doneb (results s3) (m_dst m) = true).
    { intros m Im. rewrite <- (map_snd_combine_seq ms 0) in Im. apply in_map_iff in Im as (im & <- & I).
      now apply D3. }
    assert (All : forallb (fun o : option value => match o with Some _ => true | None => false end) (results s3) = true).
    { apply forallb_forall. intros o Io. destruct (In_nth_error _ _ Io) as [i Hi].
      assert (Li : (i < length ms)%nat) by (rewrite <- (K_len ms free s3 K3); now apply nth_error_lt in Hi).
      destruct (nth_error ms i) as [m|] eqn:Hm; [|apply nth_error_None in Hm; now apply Nat.lt_nge in Li].
      specialize (Dall m (nth_error_In _ _ Hm)). unfold ProofsPhase1.doneb in Dall.
      rewrite (output_index_of ms i m ND Hm), Hi in Dall. destruct o; [reflexivity|discriminate]. }
    rewrite All.
    assert (Pnone : forall r, (forall m, In m ms -> trivb m = false -> m_dst m <> r) -> P r = None).
    { intros r H. destruct (P r) as [v|] eqn:E; [|reflexivity]. exfalso.
      destruct (P_inv ms free WF _ _ E) as (m & Im & Tm & Dm & _). exact (H m Im Tm Dm). }
    split; [|split; [|split]].
    - intros rho m Im. destruct (K_sem ms free s3 K3 rho) as [S1 S2].
      destruct (trivb m) eqn:Tm.
      + unfold trivb in Tm. apply Z.eqb_eq in Tm. f_equal. rewrite <- Tm. apply S2.
        * left. apply Pnone. intros m' Im' Tm' Dm'.
          assert (m' = m) by (apply (dst_inj ms free WF); auto; congruence). subst m'.
          unfold trivb in Tm'. apply Z.eqb_neq in Tm'. contradiction.
        * intros If. destruct (wa_free _ _ WF _ m If Im) as [N _]. congruence.
      + now apply S1, Dall.
    - intros rho r Nd Nf. destruct (K_sem ms free s3 K3 rho) as [_ S2]. apply S2; [|assumption].
      left. apply Pnone. intros m Im _ E. apply Nd. rewrite <- E. now apply in_map.
    - intros m Im. apply andb_true_iff. revert m Im. now apply forallb_forall.
    - intros d Cd Fd. destruct ff as [|f r] eqn:Eff.
      2:{ exists f. apply filter_In. rewrite Eff. now left. }
      (* the third loop cannot resolve a float register without a free float register: d is the destination of
         a non-trivial move, unresolved after the tree phase, resolved at the end *)
      exfalso. pose proof Cd as Cd'. apply clos_trans_tn1 in Cd'.
      assert (exists y, edge ms y d) as (y & m & Im & Nm & _ & Dm) by (inversion Cd'; subst; eauto).
      apply trivb_false in Nm. subst d.
      assert (Dd : doneb (results s2) (m_dst m) = false).
      { destruct (doneb (results s2) (m_dst m)) eqn:D; [|reflexivity]. exfalso.
        exact (I_nocyc ms ck s2 (J_inv ms ck s2 _ J2) m Im Nm D Cd). }
      rewrite <- (Flo eq_refl _ Fd), (Dall m Im) in Dd. discriminate.
  Qed.

End Main.

(* The code as it is (`unchanged`) agrees with the repaired algorithm whenever every cycle of
   the move graph has a designated free register of its kind (in particular on every acyclic
   graph: trees, chains, fan-outs, self-moves): the xor chain is then never used and the head of
   each free list is a designated register. *)
Definition every_cycle_has_free (ms : list move) (free : list reg) : Prop :=
  forall d, on_cycle ms d -> exists f, In f free /\ is_float f = is_float d.

Section Partial.
  Variable ms : list move.
  Variable free : list reg.
  Variable c cu : cfg.
  Variable ck : value -> Z.
  Variable wl : value -> reg -> option Z.
  Variable ch0 : Z -> Z.
  Hypothesis WF : wf_all ms free.
  Hypothesis Hkey : forall a b, In a ms -> In b ms ->
    (ck (m_value a) = ck (m_value b) <-> m_src a = m_src b).
  Hypothesis Hw : forall m, In m ms -> trivb m = false -> wl (m_value m) (m_dst m) = Some (m_w m).
  Hypothesis Hch0 : forall k,
    ch0 k = Z.of_nat (length (filter (fun m => negb (trivb m) && (ck (m_value m) =? k)) ms)).
  Hypothesis Hrf : root_free c = false.
  Hypothesis Hxo : xor_old c = false.
  Hypothesis HP : every_cycle_has_free ms free.

  Notation P := (src_by_dst (loop1 ms)).
  Notation doneb := (doneb ms).
  Notation fi := (filter (fun r => negb (is_float r)) free).
  Notation ff := (filter is_float free).
  Let ND : NoDup (map m_dst ms) := wa_dsts _ _ WF.

  Lemma loop3_step_agree s k m xi xf : Inv3 ms free s -> nth_error ms k = Some m ->
    loop3_step cu wl ms (loop1 ms) (fi ++ xi) (ff ++ xf) (Ok s) (k, m) = loop3_step c wl ms (loop1 ms) fi ff (Ok s) (k, m).
  Proof.
    intros K Hk. unfold loop3_step. cbn [bind].
    destruct (nth_error (results s) k) as [[v|]|] eqn:Ek; try reflexivity.
    destruct (slot_cycle ms free WF s k m K Hk Ek) as (_ & p & Pa & _ & _).
    destruct (HP (m_dst m) (cycle_on ms free WF _ _ Pa)) as (f & If & Kf).
    unfold free_of. destruct (is_float (m_dst m)) eqn:Fl.
    - assert (I : In f ff) by (apply filter_In; split; [assumption|congruence]).
      destruct ff as [|temp rest]; [destruct I|]. reflexivity.
    - assert (I : In f fi) by (apply filter_In; split; [assumption|]; rewrite Kf; reflexivity).
      destruct fi as [|temp rest]; [destruct I|]. reflexivity.
  Qed.

  Lemma loop3_agree xi xf : forall l s,
    incl l (combine (seq 0 (length ms)) ms) -> Inv3 ms free s ->
    fold_left (loop3_step cu wl ms (loop1 ms) (fi ++ xi) (ff ++ xf)) l (Ok s)
    = fold_left (loop3_step c wl ms (loop1 ms) fi ff) l (Ok s).
  Proof.
    induction l as [|[k m] l IH]; intros s Inc K; [reflexivity|]. cbn [fold_left].
    destruct (combine_seq_In ms k m 0 (Inc _ (or_introl eq_refl))) as (i & -> & Hk). cbn [Nat.add].
    rewrite (loop3_step_agree s i m xi xf K Hk).
    pose proof (loop3_step_spec ms free c wl WF Hw Hxo s i m K Hk) as St.
    destruct (loop3_step c wl ms (loop1 ms) fi ff (Ok s) (i, m)) as [s1|e|]; [|now rewrite !fold_absorb..].
    apply IH; [intros x I; apply Inc; now right|apply St].
  Qed.

  Lemma rewrite_agree : rewrite_gen ms free cu ck wl ch0 = rewrite_gen ms free c ck wl ch0.
  Proof.
    unfold rewrite_gen.
    destruct (negb (forallb (fun m => is_alloc (m_src m) && is_alloc (m_dst m)) ms)); [reflexivity|].
    set (s0 := mkS [] (results0 (loop1 ms)) ch0).
    pose proof (eq_trans (loop2_core ms ck wl cu (map m_dst ms) s0 fi ff fi ff)
                         (eq_sym (loop2_core ms ck wl c (map m_dst ms) s0 fi ff fi ff))) as Co.
    pose proof (loop2_spec ms free ck wl WF Hkey Hw cu (map m_dst ms) s0 fi ff (inv2_0 ms free ck ch0 WF Hch0) ND) as Lu.
    pose proof (loop2_spec ms free ck wl WF Hkey Hw c (map m_dst ms) s0 fi ff (inv2_0 ms free ck ch0 WF Hch0) ND) as Lr.
    destruct (fold_left (loop2_step cu ck wl ms (loop1 ms) (leaves (loop1 ms))) (map m_dst ms) (Ok (s0, fi, ff)))
      as [[[su fiu] ffu]|eu|];
    destruct (fold_left (loop2_step c ck wl ms (loop1 ms) (leaves (loop1 ms))) (map m_dst ms) (Ok (s0, fi, ff)))
      as [[[sr fir] ffr]|er|]; simpl in Co; try discriminate; try (destruct Lu; fail); try (destruct Lr; fail).
    - inversion Co; subst sr. cbn [bind].
      destruct Lu as (_ & _ & (xi & xf & -> & ->)). destruct Lr as (J2 & Hfree & _).
      destruct (Hfree Hrf) as [-> ->].
      now rewrite (loop3_agree xi xf _ su (incl_refl _) (inv3_of_inv2 ms free ck WF Hkey su J2)).
    - inversion Co. reflexivity.
  Qed.

End Partial.


Definition cnt_pred (ck : value -> Z) (k : Z) (m : move) : bool := negb (trivb m) && (ck (m_value m) =? k).

(* C20-4: the counter keyed by register counts the non-trivial moves reading that register *)
Lemma children_by_reg_gen (ims : list (nat * move)) : forall f k,
  fold_left (fun f im => let m := snd im in
                         if m_src m =? m_dst m then f else upd f (m_src m) (f (m_src m) + 1)) ims f k
  = f k + Z.of_nat (length (filter (cnt_pred vreg k) (map snd ims))).
Proof.
  induction ims as [|[i m] r IH]; intros f k; simpl; [lia|].
  rewrite IH. unfold cnt_pred at 2, trivb. simpl.
  destruct (m_src m =? m_dst m); simpl; [lia|].
  unfold upd. rewrite (Z.eqb_sym (m_src m) k). destruct (Z.eqb_spec k (m_src m)) as [->|]; simpl; lia.
Qed.
Lemma children_by_reg_spec ms k :
  children_by_reg (combine (seq 0 (length ms)) ms) k = Z.of_nat (length (filter (cnt_pred vreg k) ms)).
Proof. unfold children_by_reg. rewrite children_by_reg_gen, map_snd_combine_seq. reflexivity. Qed.

(* C20-5: the width table keyed by output register *)
Lemma width_tbl_notin l : forall f d, ~ In d (map m_dst l) ->
  fold_left (fun f m => upd f (m_dst m) (Some (m_w m))) l f d = f d.
Proof.
  induction l as [|x r IH]; intros f d H; simpl; [reflexivity|].
  rewrite IH by (intros K; apply H; now right). apply upd_other. intros E; apply H; now left.
Qed.
Lemma width_tbl_spec l : forall f m, NoDup (map m_dst l) -> In m l ->
  fold_left (fun f m => upd f (m_dst m) (Some (m_w m))) l f (m_dst m) = Some (m_w m).
Proof.
  induction l as [|x r IH]; intros f m ND I; [destruct I|]. simpl in *.
  apply NoDup_cons_iff in ND as [Hx ND]. destruct I as [->|I].
  - rewrite width_tbl_notin by assumption. apply upd_same.
  - now apply IH.
Qed.

(* the SSA-value-keyed lookups of the tree with C20-1 + C20-2 under `wf` *)
Lemma width_val ms free m : wf ms free -> In m ms -> src_type_by_src ms (vid (m_value m)) = Some (m_w m).
Proof.
  intros WF I. simpl. destruct (src_type_In ms m I) as (m' & I' & E & H). rewrite H. f_equal.
  now apply (wf_width _ _ WF).
Qed.

Definition wl_val (ms : list move) : value -> reg -> option Z := fun src _ => src_type_by_src ms (vid src).
Definition wl_dst (ms : list move) : value -> reg -> option Z := fun _ d => width_by_dst_tbl ms d.
Definition ims (ms : list move) := combine (seq 0 (length ms)) ms.
(* C20-1, 2, 4, 5 without C20-3: equal to `repaired_all` when no move overwrites `zero` *)
Definition repaired_reg : cfg := mkCfg false false false true true.

Lemma rewrite_val_eq c ms free : zero_first c = false -> cnt_by_reg c = false -> width_by_dst c = false ->
  rewrite c ms free = rewrite_gen ms free c vid (wl_val ms) (children0 (loop1 ms)).
Proof.
  intros Z B W. unfold rewrite, rewrite_gen, tables_of, children_of, kept, tables_of. rewrite Z, B.
  unfold bind at 1.
  replace (ckey c) with vid by (unfold ckey; rewrite B; reflexivity).
  replace (wlook c ms) with (wl_val ms) by (unfold wlook, wl_val; rewrite W; reflexivity).
  reflexivity.
Qed.
Lemma rewrite_reg_eq ms free :
  rewrite repaired_reg ms free = rewrite_gen ms free repaired_reg vreg (wl_dst ms) (children_by_reg (ims ms)).
Proof. reflexivity. Qed.

(* without a non-trivial move into `zero`, C20-3 changes nothing *)
Lemma zero_pass_noop l : forall e rs, (forall im, In im l -> zero_move (snd im) = false) ->
  zero_pass l e rs = Ok (e, rs).
Proof.
  induction l as [|[i m] r IH]; intros e rs H; simpl; [reflexivity|].
  pose proof (H (i, m) (or_introl eq_refl)) as Hm. simpl in Hm. rewrite Hm.
  apply IH. intros im I. apply H. now right.
Qed.
Lemma filter_all {A} (f : A -> bool) l : (forall x, In x l -> f x = true) -> filter f l = l.
Proof.
  induction l as [|x l IH]; intros H; simpl; [reflexivity|].
  rewrite (H x (or_introl eq_refl)). f_equal. apply IH. intros y I. apply H. now right.
Qed.
Lemma rewrite_all_eq ms free : (forall m, In m ms -> m_dst m = ZERO -> m_src m = ZERO) ->
  rewrite repaired_all ms free = rewrite repaired_reg ms free.
Proof.
  intros HZ.
  assert (NZ : forall im, In im (ims ms) -> zero_move (snd im) = false).
  { intros [i m] I. apply in_combine_r in I. simpl. unfold zero_move.
    destruct (Z.eqb_spec (m_dst m) ZERO) as [E|]; [|reflexivity].
    rewrite (HZ m I E), E. reflexivity. }
  assert (F : filter (fun im => negb (zero_move (snd im))) (ims ms) = ims ms).
  { apply filter_all. intros im I. now rewrite (NZ im I). }
  unfold rewrite, tables_of, children_of, kept, tables_of. cbn [zero_first cnt_by_reg repaired_all repaired_reg].
  unfold loop1z. fold (ims ms). rewrite F. rewrite zero_pass_noop by assumption. reflexivity.
Qed.

Lemma repaired_spec ms free : wf ms free -> lowered ms free (rewrite repaired ms free).
Proof.
  intros WF. rewrite (rewrite_val_eq repaired ms free eq_refl eq_refl eq_refl).
  exact (rewrite_gen_spec ms free repaired vid (wl_val ms) (children0 (loop1 ms)) (wf_wf_all _ _ WF)
           (wf_ssa _ _ WF) (fun m Im _ => width_val ms free m WF Im) (children0_spec ms) eq_refl eq_refl).
Qed.
Lemma all_spec ms free : wf_all ms free -> lowered ms free (rewrite repaired_all ms free).
Proof.
  intros WF. rewrite (rewrite_all_eq ms free (wa_zero _ _ WF)), rewrite_reg_eq.
  apply (rewrite_gen_spec ms free repaired_reg vreg (wl_dst ms) (children_by_reg (ims ms)) WF); auto.
  - intros a b _ _. reflexivity.
  - intros m Im _. unfold wl_dst, width_by_dst_tbl. apply width_tbl_spec; [apply (wa_dsts _ _ WF)|assumption].
  - intros k. apply children_by_reg_spec.
Qed.

(* from the rewrite to the pass: `lower` verifies first, and a well-formed move verifies *)
Section Lowered.
  Variable c : cfg.
  Variable ms : list move.
  Variable free : list reg.
  Hypothesis WF : wf_all ms free.
  Hypothesis Hlow : lowered ms free (rewrite c ms free).

  Lemma lowered_eq : lower c ms free = rewrite c ms free.
  Proof. unfold lower. now rewrite (wf_verify ms free WF). Qed.
  Lemma lowered_sound is vs : lower c ms free = Ok (is, vs) -> simultaneous ms is /\ frame ms free is.
  Proof. rewrite lowered_eq. intros H. pose proof Hlow as L. rewrite H in L. split; apply L. Qed.
  Lemma lowered_failure :
    match lower c ms free with
    | Ok _ => True
    | Raise e => e = EPassFailed /\ fail_cause ms free
    | OutOfFuel => False
    end.
  Proof. rewrite lowered_eq. destruct (rewrite c ms free) as [[is vs]|e|]; [exact I|exact Hlow..]. Qed.
  Lemma lowered_fails :
    (exists m, In m ms /\ (is_alloc (m_src m) = false \/ is_alloc (m_dst m) = false))
    \/ (exists d, on_cycle ms d /\ is_float d = true /\ forall f, In f free -> is_float f = false) ->
    lower c ms free = Raise EPassFailed.
  Proof.
    rewrite lowered_eq. intros H.
    destruct (rewrite c ms free) as [[is vs]|e|]; [exfalso|now destruct Hlow as [-> _]|destruct Hlow].
    destruct Hlow as (_ & _ & Al & Cy). destruct H as [(m & Im & Hm)|(d & Cd & Fd & Hf)].
    - destruct (Al m Im). destruct Hm; congruence.
    - destruct (Cy d Cd Fd) as (f & If & Ff). rewrite (Hf f If) in Ff. discriminate.
  Qed.
  Lemma lowered_success : ~ fail_cause ms free -> exists is vs, lower c ms free = Ok (is, vs).
  Proof.
    rewrite lowered_eq. intros NF.
    destruct (rewrite c ms free) as [[is vs]|e|]; [eauto|destruct Hlow; contradiction|destruct Hlow].
  Qed.
End Lowered.

Theorem lower_repaired_simultaneous ms free is vs :
  wf ms free -> lower repaired ms free = Ok (is, vs) -> simultaneous ms is.
Proof. intros WF H. exact (proj1 (lowered_sound _ _ _ (wf_wf_all _ _ WF) (repaired_spec _ _ WF) is vs H)). Qed.
Theorem lower_repaired_frame ms free is vs :
  wf ms free -> lower repaired ms free = Ok (is, vs) -> frame ms free is.
Proof. intros WF H. exact (proj2 (lowered_sound _ _ _ (wf_wf_all _ _ WF) (repaired_spec _ _ WF) is vs H)). Qed.
Theorem lower_repaired_fails_when_impossible ms free :
  wf ms free ->
  (exists m, In m ms /\ (is_alloc (m_src m) = false \/ is_alloc (m_dst m) = false))
  \/ (exists d, on_cycle ms d /\ is_float d = true /\ forall f, In f free -> is_float f = false) ->
  lower repaired ms free = Raise EPassFailed.
Proof. intros WF. exact (lowered_fails _ _ _ (wf_wf_all _ _ WF) (repaired_spec _ _ WF)). Qed.
Theorem lower_repaired_failure ms free :
  wf ms free ->
  match lower repaired ms free with
  | Ok _ => True
  | Raise e => e = EPassFailed /\ fail_cause ms free
  | OutOfFuel => False
  end.
Proof. intros WF. exact (lowered_failure _ _ _ (wf_wf_all _ _ WF) (repaired_spec _ _ WF)). Qed.
Theorem lower_repaired_success ms free :
  wf ms free -> ~ fail_cause ms free -> exists is vs, lower repaired ms free = Ok (is, vs).
Proof. intros WF. exact (lowered_success _ _ _ (wf_wf_all _ _ WF) (repaired_spec _ _ WF)). Qed.

Theorem lower_all_simultaneous ms free is vs :
  wf_all ms free -> lower repaired_all ms free = Ok (is, vs) -> simultaneous ms is.
Proof. intros WF H. exact (proj1 (lowered_sound _ _ _ WF (all_spec _ _ WF) is vs H)). Qed.
Theorem lower_all_frame ms free is vs :
  wf_all ms free -> lower repaired_all ms free = Ok (is, vs) -> frame ms free is.
Proof. intros WF H. exact (proj2 (lowered_sound _ _ _ WF (all_spec _ _ WF) is vs H)). Qed.
Theorem lower_all_failure ms free :
  wf_all ms free ->
  match lower repaired_all ms free with
  | Ok _ => True
  | Raise e => e = EPassFailed /\ fail_cause ms free
  | OutOfFuel => False
  end.
Proof. intros WF. exact (lowered_failure _ _ _ WF (all_spec _ _ WF)). Qed.
Theorem lower_all_fails_when_impossible ms free :
  wf_all ms free ->
  (exists m, In m ms /\ (is_alloc (m_src m) = false \/ is_alloc (m_dst m) = false))
  \/ (exists d, on_cycle ms d /\ is_float d = true /\ forall f, In f free -> is_float f = false) ->
  lower repaired_all ms free = Raise EPassFailed.
Proof. intros WF. exact (lowered_fails _ _ _ WF (all_spec _ _ WF)). Qed.
Theorem lower_all_success ms free :
  wf_all ms free -> ~ fail_cause ms free -> exists is vs, lower repaired_all ms free = Ok (is, vs).
Proof. intros WF. exact (lowered_success _ _ _ WF (all_spec _ _ WF)). Qed.

Lemma lower_agree ms free : wf ms free -> every_cycle_has_free ms free ->
  lower unchanged ms free = lower repaired ms free.
Proof.
  intros WF HP. unfold lower.
  rewrite (rewrite_val_eq unchanged ms free eq_refl eq_refl eq_refl),
          (rewrite_val_eq repaired ms free eq_refl eq_refl eq_refl).
  now rewrite (rewrite_agree ms free repaired unchanged vid (wl_val ms) (children0 (loop1 ms)) (wf_wf_all _ _ WF)
                 (wf_ssa _ _ WF) (fun m Im _ => width_val ms free m WF Im) (children0_spec ms) eq_refl eq_refl HP).
Qed.

Theorem lower_unchanged_partial ms free :
  wf ms free -> every_cycle_has_free ms free ->
  match lower unchanged ms free with
  | Ok (is, _) => simultaneous ms is /\ frame ms free is
  | Raise e => e = EPassFailed /\ fail_cause ms free
  | OutOfFuel => False
  end.
Proof.
  intros WF HP. rewrite (lower_agree ms free WF HP).
  pose proof (lower_repaired_failure ms free WF) as F.
  destruct (lower repaired ms free) as [[is vs]|e|] eqn:E; auto.
  split; [eapply lower_repaired_simultaneous|eapply lower_repaired_frame]; eauto.
Qed.

Lemma acyclic_has_free ms free : (forall d, ~ on_cycle ms d) -> every_cycle_has_free ms free.
Proof. intros H d C. destruct (H d C). Qed.

(* refutations of the full statements on the faithful model of the pinned tree *)
Definition s1 : reg := 2.  Definition s2 : reg := 4.  Definition s3 : reg := 6.  Definition s4 : reg := 8.
Definition fs1 : reg := 3. Definition fs2 : reg := 5.
Definition rho0 : regfile := fun r => 100 + r.

(* {s1->s2, s3->s4, s4->s3}: s1 is only read, yet `mv s1 <- s3` is emitted *)
Definition ms_root : list move := [mkM 0 s1 s2 32; mkM 1 s3 s4 32; mkM 2 s4 s3 32].
Lemma wf_ms_root : wf ms_root [].
Proof.
  constructor; simpl.
  - intros m [<-|[<-|[<-|[]]]]; reflexivity.
  - repeat constructor; simpl; intuition discriminate.
  - intros a b [<-|[<-|[<-|[]]]] [<-|[<-|[<-|[]]]]; simpl; split; intros H; try reflexivity; discriminate.
  - intros a b [<-|[<-|[<-|[]]]] [<-|[<-|[<-|[]]]]; simpl; intros H; try reflexivity; discriminate.
  - intros f m [].
  - intros [].
  - intros m [<-|[<-|[<-|[]]]]; simpl; intros H; discriminate.
Qed.
Lemma frame_refuted :
  exists ms free is vs, wf ms free /\ lower unchanged ms free = Ok (is, vs) /\ ~ frame ms free is.
Proof.
  exists ms_root, [].
  eexists. eexists. split; [exact wf_ms_root|]. split; [vm_compute; reflexivity|].
  intros F. specialize (F rho0 s1). vm_compute in F.
  assert (H : 106 = 102) by (apply F; intuition discriminate). discriminate.
Qed.

(* {s2->s1, s3->s2, s1->s3} without free register: the xor chain rotates the wrong way *)
Definition ms_rot : list move := [mkM 0 s2 s1 32; mkM 1 s3 s2 32; mkM 2 s1 s3 32].
Lemma wf_ms_rot : wf ms_rot [].
Proof.
  constructor; simpl.
  - intros m [<-|[<-|[<-|[]]]]; reflexivity.
  - repeat constructor; simpl; intuition discriminate.
  - intros a b [<-|[<-|[<-|[]]]] [<-|[<-|[<-|[]]]]; simpl; split; intros H; try reflexivity; discriminate.
  - intros a b [<-|[<-|[<-|[]]]] [<-|[<-|[<-|[]]]]; simpl; intros H; try reflexivity; discriminate.
  - intros f m [].
  - intros [].
  - intros m [<-|[<-|[<-|[]]]]; simpl; intros H; discriminate.
Qed.
Lemma simultaneous_refuted :
  exists ms free is vs, wf ms free /\ lower unchanged ms free = Ok (is, vs) /\ ~ simultaneous ms is.
Proof.
  exists ms_rot, [].
  eexists. eexists. split; [exact wf_ms_rot|]. split; [vm_compute; reflexivity|].
  intros S. specialize (S rho0 (mkM 0 s2 s1 32) (or_introl eq_refl)). vm_compute in S. discriminate.
Qed.

(* the verifier accepts duplicate `zero` destinations; the model of the pinned tree then runs out
   of fuel (the real pass does not terminate), aborts, or -- here -- hits the sanity assertion *)
Lemma duplicate_zero_refuted :
  verify [mkM 0 ZERO s1 64; mkM 0 ZERO s2 64; mkM 1 s1 ZERO 32; mkM 2 s2 ZERO 64] = true
  /\ lower unchanged [mkM 0 ZERO s1 64; mkM 0 ZERO s2 64; mkM 1 s1 ZERO 32; mkM 2 s2 ZERO 64] [] = OutOfFuel
  /\ verify [mkM 0 s1 ZERO 32; mkM 1 s2 ZERO 32] = true
  /\ lower unchanged [mkM 0 s1 ZERO 32; mkM 1 s2 ZERO 32] [] = Raise EAssertion.
Proof. vm_compute. repeat split. Qed.

(* {zero->s2, s2->zero}: the xor swap through the hard-wired zero register leaves s2 unchanged *)
Lemma zero_swap_refuted :
  exists is vs, lower unchanged [mkM 0 ZERO s2 64; mkM 1 s2 ZERO 64] [] = Ok (is, vs)
    /\ get (exec is rho0) s2 <> get rho0 ZERO.
Proof. eexists. eexists. split; [vm_compute; reflexivity|]. vm_compute. discriminate. Qed.

(* two SSA values (ids 1 and 2) live in s1, which is itself overwritten: AssertionError *)
Lemma shared_register_refuted :
  verify [mkM 0 s2 s1 32; mkM 1 s1 s2 32; mkM 2 s1 s3 32] = true /\
  lower unchanged [mkM 0 s2 s1 32; mkM 1 s1 s2 32; mkM 2 s1 s3 32] [] = Raise EAssertion.
Proof. vm_compute. split; reflexivity. Qed.

(* one float value moved with widths 64 and 32: the 64-bit move is emitted as fmv.s *)
Lemma mixed_width_refuted :
  exists is vs, lower unchanged [mkM 0 fs1 fs2 64; mkM 0 fs1 fs1 32] [] = Ok (is, vs)
    /\ get (exec is (fun _ => 5)) fs2 <> 5.
Proof. eexists. eexists. split; [vm_compute; reflexivity|]. vm_compute. discriminate. Qed.

Example repaired_root : exists is vs, lower repaired ms_root [] = Ok (is, vs)
  /\ map (get (exec is rho0)) [s1; s2; s3; s4] = map (get rho0) [s1; s1; s4; s3].
Proof. eexists. eexists. split; [vm_compute; reflexivity|]. vm_compute. reflexivity. Qed.
Example repaired_rot : exists is vs, lower repaired ms_rot [] = Ok (is, vs)
  /\ map (get (exec is rho0)) [s1; s2; s3] = map (get rho0) [s2; s3; s1].
Proof. eexists. eexists. split; [vm_compute; reflexivity|]. vm_compute. reflexivity. Qed.

(* non-vacuity of the hypotheses of the partial theorem: a cyclic graph with a designated free register *)
Definition ms_cyc : list move := [mkM 0 s1 s2 32; mkM 1 s2 s1 32; mkM 2 s3 s4 32].
Lemma partial_hyps_satisfiable :
  wf ms_cyc [40] /\ every_cycle_has_free ms_cyc [40] /\ on_cycle ms_cyc s1.
Proof.
  split; [|split].
  - constructor; simpl.
    + intros m [<-|[<-|[<-|[]]]]; reflexivity.
    + repeat constructor; simpl; intuition discriminate.
    + intros a b [<-|[<-|[<-|[]]]] [<-|[<-|[<-|[]]]]; simpl; split; intros H; try reflexivity; discriminate.
    + intros a b [<-|[<-|[<-|[]]]] [<-|[<-|[<-|[]]]]; simpl; intros H; try reflexivity; discriminate.
    + intros f m [<-|[]] [<-|[<-|[<-|[]]]]; simpl; split; discriminate.
    + intros [H|[]]. discriminate.
    + intros m [<-|[<-|[<-|[]]]]; simpl; intros H; discriminate.
  - intros d Cd. exists 40. split; [now left|].
    unfold on_cycle in Cd. apply clos_trans_tn1 in Cd.
    assert (exists y, edge ms_cyc y d) as (y & m & Im & _ & _ & Dm) by (inversion Cd; subst; eauto).
    destruct Im as [<-|[<-|[<-|[]]]]; simpl in Dm; subst d; reflexivity.
  - unfold on_cycle. apply t_trans with s2; apply t_step.
    + exists (mkM 0 s1 s2 32). simpl. intuition discriminate.
    + exists (mkM 1 s2 s1 32). simpl. intuition discriminate.
Qed.

(* the witnesses of kf-3 .. kf-6 under all repairs *)
Definition ms_shared : list move := [mkM 0 s2 s1 32; mkM 1 s1 s2 32; mkM 2 s1 s3 32].
Lemma wf_all_shared : wf_all ms_shared [] /\ ~ wf ms_shared [].
Proof.
  split.
  - constructor; simpl.
    + intros m [<-|[<-|[<-|[]]]]; reflexivity.
    + repeat constructor; simpl; intuition discriminate.
    + intros f m [].
    + intros [].
    + intros m [<-|[<-|[<-|[]]]]; simpl; intros H; discriminate.
  - intros W. pose proof (wf_ssa _ _ W (mkM 1 s1 s2 32) (mkM 2 s1 s3 32)) as H. simpl in H.
    assert (E : 1 = 2) by (apply H; auto). discriminate.
Qed.
Example all_shared : exists is vs, lower repaired_all ms_shared [] = Ok (is, vs)
  /\ map (get (exec is rho0)) [s1; s2; s3] = map (get rho0) [s2; s1; s1].
Proof. eexists. eexists. split; [vm_compute; reflexivity|]. vm_compute. reflexivity. Qed.
Example all_mixed_width : exists is vs, lower repaired_all [mkM 0 fs1 fs2 64; mkM 0 fs1 fs1 32] [] = Ok (is, vs)
  /\ get (exec is (fun _ => 5)) fs2 = 5.
Proof. eexists. eexists. split; [vm_compute; reflexivity|]. vm_compute. reflexivity. Qed.
(* `zero` as a repeated destination (outside wf_all; swept exhaustively by the harness) *)
Example all_duplicate_zero : exists is vs,
  lower repaired_all [mkM 0 ZERO s1 64; mkM 0 ZERO s2 64; mkM 1 s1 ZERO 32; mkM 2 s2 ZERO 64] [] = Ok (is, vs)
  /\ map (get (exec is rho0)) [s1; s2; ZERO; s3] = [0; 0; 0; get rho0 s3].
Proof. eexists. eexists. split; [vm_compute; reflexivity|]. vm_compute. reflexivity. Qed.
Example all_zero_swap : exists is vs, lower repaired_all [mkM 0 ZERO s2 64; mkM 1 s2 ZERO 64] [] = Ok (is, vs)
  /\ get (exec is rho0) s2 = 0.
Proof. eexists. eexists. split; [vm_compute; reflexivity|]. vm_compute. reflexivity. Qed.
