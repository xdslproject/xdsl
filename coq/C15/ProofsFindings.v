(* C15/ProofsFindings.v -- operations whose implementation on the CURRENT tree refutes the
   full-strength statement: a `_refuted` witness (checked by vm_compute on the generated
   definition) and the strongest `_partial` statement that does hold.
   Content: cmpi ult/ule/ugt/uge (known finding C15-kf-2; the repair
   build/proposed_fixes/C15-5-breaks-pinned-tests.diff contradicts a pinned test and is not applied).
   shli, shrsi, divsi, remsi, floordivsi and cmpi eq/ne/signed have full theorems in ProofsOps.v;
   refutations of their definitions before the repairs 4351108 6674019 2cae97b e4f2eb2 are in
   ProofsOld.v, about the copies in C15/Old.v.
   To flip cmpi-unsigned after a repair: delete its block, append block cmpi-unsigned of
   C15/ProofsFixed.v.disabled to ProofsOps.v, swap the theorems in Props/C15.v. *)
From Coq Require Import ZArith Bool Lia ZifyBool.
From XV Require Import C15.Py C15.Spec Gen.C15_comparisons Gen.C15_arith C15.ProofsBase C15.ProofsOps.
Local Open Scope Z_scope.

Definition cmpi_refuted_on (dom : Z -> Z -> Prop) (pred : Z) : Prop :=
  exists w a b r t, 1 <= w /\ dom w a /\ dom w b /\ run_cmpi pred w a b = Some r /\
                    spec_cmpi pred w (wrap w a) (wrap w b) = Some t /\ wrap 1 r <> Z.b2z t.

(* ================================================================== BEGIN cmpi-unsigned (unfixed) *)
(* ult/ule/ugt/uge compare the Python ints, i.e. they are the SIGNED comparisons on canonical
   operands: -1 (= 0xFF) `ult` 1 is reported true *)
Lemma cmpi_ult_refuted : cmpi_refuted_on canon 6. Proof. exists 8, (-1), 1, 1, false. vm_compute; intuition discriminate. Qed.
Lemma cmpi_ule_refuted : cmpi_refuted_on canon 7. Proof. exists 8, (-1), 1, 1, false. vm_compute; intuition discriminate. Qed.
Lemma cmpi_ugt_refuted : cmpi_refuted_on canon 8. Proof. exists 8, (-1), 1, 0, true. vm_compute; intuition discriminate. Qed.
Lemma cmpi_uge_refuted : cmpi_refuted_on canon 9. Proof. exists 8, (-1), 1, 0, true. vm_compute; intuition discriminate. Qed.

(* they are right exactly when signed and unsigned order agree: operands of the same sign *)
Definition cmpi_ok_same_sign (pred : Z) : Prop :=
  forall w a b, 1 <= w -> canon w a -> canon w b -> (a < 0 <-> b < 0) ->
  exists r t, run_cmpi pred w a b = Some r /\ spec_cmpi pred w (wrap w a) (wrap w b) = Some t /\
              signless 1 r /\ wrap 1 r = Z.b2z t.

Lemma wrap_diff_same_sign w a b : 1 <= w -> canon w a -> canon w b -> (a < 0 <-> b < 0) ->
  wrap w a - wrap w b = a - b.
Proof.
  intros Hw [? ?] [? ?] Hs. pose proof (pow2_half w Hw).
  destruct (Z_lt_dec a 0); [rewrite !wrap_neg by lia | rewrite !wrap_small by lia]; lia.
Qed.

(* after normalisation the interpreter compares a and b where MLIR compares their patterns *)
Ltac cmpi_same_sign :=
  intros w a b Hw Ha Hb Hs; unfold run_cmpi, spec_cmpi; rewrite !to_signed_eval by assumption; cbn [bind];
  pose proof (wrap_diff_same_sign w a b Hw Ha Hb Hs);
  match goal with |- exists r t, Some (Z.b2z ?c) = _ /\ Some ?d = _ /\ _ => replace d with c by lia end;
  apply cmpi_i1.

Lemma cmpi_ult_partial : cmpi_ok_same_sign 6. Proof. cmpi_same_sign. Qed.
Lemma cmpi_ule_partial : cmpi_ok_same_sign 7. Proof. cmpi_same_sign. Qed.
Lemma cmpi_ugt_partial : cmpi_ok_same_sign 8. Proof. cmpi_same_sign. Qed.
Lemma cmpi_uge_partial : cmpi_ok_same_sign 9. Proof. cmpi_same_sign. Qed.
(* ================================================================== END cmpi-unsigned *)

(* cmpi returns Python True = 1 where the canonical i1 `true` (what arith.constant true evaluates to)
   is -1: a fact about the representation.  Every consumer normalises its operands (cf. cmpi_eq_ok at
   w = 1), so no operation observes the difference. *)
Lemma cmpi_result_not_canonical :
  exists w a b r, 1 <= w /\ canon w a /\ canon w b /\ run_cmpi 2 w a b = Some r /\ ~ canon 1 r.
Proof. exists 8, 3, 5, 1. vm_compute; intuition discriminate. Qed.
