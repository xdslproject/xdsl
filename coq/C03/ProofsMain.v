(* C03/ProofsMain.v -- soundness (a successful run of the model yields an isomorphism, under: unique
   identities, defs precede uses on the left, outside uses of the left are outside the right; result types
   only if they are compared or assumed equal), completeness (isomorphic IR is reported equivalent when
   defs precede uses on the left and the parent check at the root passes) and reflexivity; then symmetry
   of the spec, the clone model is isomorphic to its source, the theorems for the two configurations
   (unchanged tree / repaired), refutation witnesses. *)
From Coq Require Import List Arith Bool Lia.
From XV Require Import C03.Model C03.ProofsSpec.
Import ListNotations.

(* the values/blocks in sv/sb are keys of the context *)
Definition covers (c : ctx) (sv : list vid) (sb : list bid) : Prop :=
  (forall o, In o sv -> In o (map fst (cv c))) /\ (forall s, In s sb -> In s (map fst (cb c))).

Lemma in_map_fst : forall (l : list (nat * nat)) k v, In (k, v) l -> In k (map fst l).
Proof. intros l k v H. apply in_map_iff. exists (k, v). auto. Qed.

Lemma in_map_fst_ex : forall (l : list (nat * nat)) k, In k (map fst l) -> exists v, In (k, v) l.
Proof. intros l k H. apply in_map_iff in H. destruct H as [[k' v] [E H]]. simpl in E. subst. eauto. Qed.

Lemma grows_keys : forall k k' l l' seen, grows k k' l l' ->
  (forall o, In o seen -> In o (map fst l)) -> forall o, In o (k ++ seen) -> In o (map fst l').
Proof.
  intros k k' l l' seen [L H] C o Ho. apply in_app_iff in Ho. destruct Ho as [Ho|Ho].
  - destruct (in_combine_ex_l _ _ _ Ho L) as [y Hy]. eapply in_map_fst. apply H. left. exact Hy.
  - apply C in Ho. apply in_map_fst_ex in Ho. destruct Ho as [v Hv]. eapply in_map_fst. apply H. right. exact Hv.
Qed.

Lemma covers_ext : forall c c' sv sb d d' b b',
  covers c sv sb -> ext d d' b b' c c' -> covers c' (d ++ sv) (b ++ sb).
Proof. intros c c' sv sb d d' b b' [C1 C2] [V B]. split; eapply grows_keys; eassumption. Qed.

Lemma covers_incl : forall c sv sb sv' sb', covers c sv sb -> incl sv' sv -> incl sb' sb -> covers c sv' sb'.
Proof. intros c sv sb sv' sb' [C1 C2] I1 I2. split; intros o H; [apply C1, I1|apply C2, I2]; exact H. Qed.

Lemma Forall2_in_impl : forall (A B : Type) (P Q : A -> B -> Prop) l l',
  Forall2 P l l' -> (forall x y, In x l -> In y l' -> P x y -> Q x y) -> Forall2 Q l l'.
Proof.
  induction 1 as [|x y l l' Hh Ht IH]; intros HI; constructor.
  - apply HI; simpl; auto.
  - apply IH. intros x0 y0 Hx Hy. apply HI; simpl; auto.
Qed.

Lemma Forall2_combine : forall (A B : Type) (Q : A -> B -> Prop) l l',
  length l = length l' -> (forall x y, In (x, y) (combine l l') -> Q x y) -> Forall2 Q l l'.
Proof.
  induction l as [|x l IH]; destruct l' as [|y l']; simpl; intros Hl H; try discriminate; constructor.
  - apply H. auto.
  - apply IH; [lia|]. intros; apply H; auto.
Qed.

Lemma Forall2_combine_inv : forall (A B : Type) (Q : A -> B -> Prop) l l',
  Forall2 Q l l' -> forall x y, In (x, y) (combine l l') -> Q x y.
Proof.
  induction 1 as [|a b l l' Hh Ht IH]; simpl; intros x y H; [contradiction|].
  destruct H as [H|H]; [inversion H; subst; exact Hh|apply IH; exact H].
Qed.

Lemma in_combine_map : forall (A B : Type) (f : A -> B) l l' x y,
  In (x, y) (combine l l') -> In (f x, f y) (combine (map f l) (map f l')).
Proof.
  induction l as [|a l IH]; destruct l' as [|b l']; simpl; intros x y H; try contradiction.
  destruct H as [H|H]; [inversion H; subst; auto|right; apply IH; exact H].
Qed.

Lemma in_combine_map_eq : forall (A B : Type) (f : A -> B) l l' x y,
  map f l = map f l' -> In (x, y) (combine l l') -> f x = f y.
Proof.
  induction l as [|a l IH]; destruct l' as [|b l']; simpl; intros x y E H; try contradiction.
  inversion E. destruct H as [H|H]; [inversion H; subst; auto|eapply IH; eauto].
Qed.

Section Sound.
  Variable cf : cfg.
  Variable rt : bool.
  Variables Rv Rb : nat -> nat -> Prop.
  Variables Iva Ivb : list vid.
  Variables Iba Ibb : list bid.

  (* the predicates that ext_ok_* (ProofsSpec.v) hands to uses_*, for arbitrary inside sets *)
  Definition Pext (o : vid) : Prop := ~ In o Iva -> ~ In o Ivb.
  Definition Qext (s : bid) : Prop := ~ In s Iba -> ~ In s Ibb.
  Definition in_rel (c : ctx) : Prop :=
    (forall p, In p (cv c) -> Rv (fst p) (snd p)) /\ (forall p, In p (cb c) -> Rb (fst p) (snd p)).

  Lemma in_rel_earlier : forall d d' b b' c c', ext d d' b b' c c' -> in_rel c' -> in_rel c.
  Proof.
    intros d d' b b' c c' E [H1 H2]. split; intros p H.
    - apply H1. exact (grows_mono _ _ _ _ _ (proj1 E) H).
    - apply H2. exact (grows_mono _ _ _ _ _ (proj2 E) H).
  Qed.

  (* every write to the context keeps it inside the relations when the new pairs are related *)
  Lemma in_rel_ext : forall d d' b b' c c', ext d d' b b' c c' -> in_rel c ->
    (forall p, In p (combine d d') -> Rv (fst p) (snd p)) ->
    (forall p, In p (combine b b') -> Rb (fst p) (snd p)) -> in_rel c'.
  Proof.
    intros d d' b b' c c' [[_ V] [_ B]] [H1 H2] Hv Hb.
    split; intros p Hp; [apply V in Hp|apply B in Hp]; destruct Hp; auto.
  Qed.

  Lemma use_sound : forall (l : list (nat * nat)) (R : nat -> nat -> Prop) (Ia Ib seen : list nat) xs ys,
    all_mapped l xs ys = true -> length xs = length ys ->
    (forall p, In p l -> R (fst p) (snd p)) ->
    (forall o, In o xs -> In o Ia -> In o seen) -> (forall x, In x seen -> In x (map fst l)) ->
    (forall o, In o xs -> ~ In o Ia -> ~ In o Ib) ->
    Forall2 (fun o o' => R o o' \/ (~ In o Ia /\ ~ In o' Ib /\ o = o')) xs ys.
  Proof.
    intros l R Ia Ib seen xs ys Ha Hl HR Hd Hc He.
    eapply Forall2_in_impl; [exact (all_mapped_true _ _ _ Ha Hl)|].
    intros o o' Hio _ Hg. cbv beta in Hg. unfold get_or_self in Hg.
    destruct (lookup l o) as [q|] eqn:E.
    - subst q. left. apply lookup_some_in in E. apply (HR _ E).
    - subst o'. apply lookup_none_notin in E.
      destruct (in_dec Nat.eq_dec o Ia) as [Hi|Hn].
      + exfalso. apply E, Hc, Hd; assumption.
      + right. auto.
  Qed.

  (* P is needed only where the spec asks for equal result types and the code does not compare them *)
  Definition rt_hyp (P : Prop) : Prop := rt = true -> cmp_rt cf = false -> P.

  Lemma rt_hyp_and : forall P Q : Prop, rt_hyp (P /\ Q) -> rt_hyp P /\ rt_hyp Q.
  Proof. intros P Q H. split; intros A B; apply (H A B). Qed.

  (* Rv, Rb are meant to be the pairs of the FINAL context (run_bij below instantiates them so): the
     hypothesis is in_rel of the context the run ends with, and every earlier context is inside it
     (in_rel_earlier through equiv_ext), so whatever a lookup returned on the way is a related pair. *)
  Lemma sound_all :
    (forall x c y c' sv sb, equiv_op cf c x y = (true, c') -> in_rel c' ->
       dpu_op Iva Iba sv sb x -> covers c sv sb -> uses_op Pext Qext x -> rt_hyp (rt_eq_op x y) ->
       m_op rt Rv Rb Iva Ivb Iba Ibb x y)
    /\ (forall l c l' c' sv sb, equiv_ops cf c l l' = (true, c') -> ops_len l = ops_len l' -> in_rel c' ->
       dpu_ops Iva Iba sv sb l -> covers c sv sb -> uses_ops Pext Qext l -> rt_hyp (rt_eq_ops l l') ->
       m_ops rt Rv Rb Iva Ivb Iba Ibb l l')
    /\ (forall k c k' c' sv sb, equiv_block cf c k k' = (true, c') -> in_rel c' ->
       dpu_block Iva Iba sv sb k -> covers c sv sb -> uses_block Pext Qext k -> rt_hyp (rt_eq_block k k') ->
       m_block rt Rv Rb Iva Ivb Iba Ibb k k')
    /\ (forall r c r' c' sv sb, equiv_blocks cf c r r' = (true, c') -> blocks_len r = blocks_len r' -> in_rel c' ->
       dpu_blocks Iva Iba sv sb r -> covers c sv sb -> uses_blocks Pext Qext r -> rt_hyp (rt_eq_blocks r r') ->
       m_blocks rt Rv Rb Iva Ivb Iba Ibb r r')
    /\ (forall g c g' c' sv sb, equiv_regions cf c g g' = (true, c') -> regions_len g = regions_len g' -> in_rel c' ->
       dpu_regions Iva Iba sv sb g -> covers c sv sb -> uses_regions Pext Qext g -> rt_hyp (rt_eq_regions g g') ->
       m_regions rt Rv Rb Iva Ivb Iba Ibb g g').
  Proof.
    apply ir_mutind.
    - intros n os rs a p ss g IHg par c y c' sv sb H HR Hd Hc Hu Hrt.
      destruct y as [n' os' rs' a' p' ss' g' par'].
      apply equiv_op_true in H. destruct H as (c1 & Hg & -> & Lg & Lr & En & Ea & Ep & Lo & Ls & Hty & Ho & Hs).
      destruct Hd as (Hdo & Hds & Hdg). destruct Hu as (Huo & Hus & Hug).
      destruct Hc as [Hc1 Hc2]. destruct HR as [HRv HRb]. cbn [cv cb] in HRv, HRb.
      assert (Eg := proj2 (proj2 (proj2 (proj2 equiv_ext))) g cf c g' c1 Hg Lg).
      destruct (rt_hyp_and _ _ Hrt) as [Hrt1 Hrt2].
      assert (Hsnd : rt = true -> map snd rs = map snd rs').
      { intros Ert. destruct (cmp_rt cf) eqn:Ecmp; [exact (Hty eq_refl)|exact (Hrt1 Ert Ecmp)]. }
      cbn [m_op]. repeat split; try assumption.
      + apply (use_sound (cv c) Rv Iva Ivb sv os os' Ho Lo); [|exact Hdo|exact Hc1|exact Huo].
        intros q Hq. apply HRv. apply reg_results_in. right. exact (grows_mono _ _ _ _ _ (proj1 Eg) Hq).
      + apply Forall2_combine; [assumption|]. intros r r' Hin. split.
        * apply (HRv (fst r, fst r')). apply reg_results_in. left.
          apply in_combine_map with (f := @fst vid ty). exact Hin.
        * intros Ert. eapply in_combine_map_eq with (f := @snd vid ty); [apply Hsnd; exact Ert|exact Hin].
      + apply (use_sound (cb c) Rb Iba Ibb sb ss ss' Hs Ls); [|exact Hds|exact Hc2|exact Hus].
        intros q Hq. apply HRb. exact (grows_mono _ _ _ _ _ (proj2 Eg) Hq).
      + eapply IHg; eauto.
        * split; intros q Hq; [apply HRv; apply reg_results_in; right; exact Hq|apply HRb; exact Hq].
        * split; assumption.
    - intros c l' c' sv sb H Hl. destruct l'; simpl in *; [tauto|discriminate].
    - intros o IHo t IHt c l' c' sv sb H Hl HR Hd Hc Hu Hrt.
      destruct l' as [|o' t']; [simpl in Hl; discriminate|].
      cbn [equiv_ops] in H. destruct (equiv_op cf c o o') as [ok c1] eqn:Ho.
      destruct ok; [|discriminate]. simpl in Hl.
      destruct Hd as [Hd1 Hd2]. destruct Hu as [Hu1 Hu2]. destruct (rt_hyp_and _ _ Hrt) as [Hrt1 Hrt2].
      assert (Eo := proj1 equiv_ext o cf c o' c1 Ho).
      assert (Et := proj1 (proj2 equiv_ext) t cf c1 t' c' H ltac:(lia)).
      cbn [m_ops]. split.
      + eapply IHo; eauto. eapply in_rel_earlier; eauto.
      + eapply IHt; eauto. eapply covers_ext; eauto.
    - intros b args body IHb c k' c' sv sb H HR Hd Hc Hu Hrt. destruct k' as [b' args' body'].
      apply equiv_block_true in H. destruct H as (v1 & Ha & Hl1 & Hl2 & H).
      assert (Epre := block_pre_ext c args args' v1 b b' Ha Hl1).
      assert (Eb := proj1 (proj2 equiv_ext) body cf _ body' c' H Hl2).
      destruct (reg_args_true _ _ _ _ Ha) as [Ha1 Ha2].
      destruct HR as [HRv HRb].
      cbn [m_block]. repeat split.
      + apply (HRb (b, b')). apply (grows_mono _ _ _ _ _ (proj2 Eb)). simpl. auto.
      + apply Forall2_combine; [assumption|]. intros r r' Hin. split.
        * apply (HRv (fst r, fst r')). apply (grows_mono _ _ _ _ _ (proj1 Eb)). simpl. apply Ha1. left.
          apply in_combine_map with (f := @fst vid ty). exact Hin.
        * eapply in_combine_map_eq with (f := @snd vid ty); [apply Ha2; exact Hl1|exact Hin].
      + eapply IHb; eauto.
        * split; assumption.
        * apply (covers_ext _ _ _ _ _ _ _ _ Hc Epre).
    - intros c r' c' sv sb H Hl. destruct r'; simpl in *; [tauto|discriminate].
    - intros k IHk t IHt c r' c' sv sb H Hl HR Hd Hc Hu Hrt.
      destruct r' as [|k' t']; [simpl in Hl; discriminate|].
      cbn [equiv_blocks] in H. destruct (equiv_block cf c k k') as [ok c1] eqn:Hk.
      destruct ok; [|discriminate]. simpl in Hl.
      destruct Hd as [Hd1 Hd2]. destruct Hu as [Hu1 Hu2]. destruct (rt_hyp_and _ _ Hrt) as [Hrt1 Hrt2].
      assert (Ek := proj1 (proj2 (proj2 equiv_ext)) k cf c k' c1 Hk).
      destruct (proj1 (proj2 (proj2 (proj2 equiv_ext))) t cf c1 t' c' H ltac:(lia)) as [Et _].
      cbn [m_blocks]. split.
      + eapply IHk; eauto. eapply in_rel_earlier; eauto.
      + eapply IHt; eauto; try lia. eapply covers_ext; eauto.
    - intros c g' c' sv sb H Hl. destruct g'; simpl in *; [tauto|discriminate].
    - intros r IHr t IHt c g' c' sv sb H Hl HR Hd Hc Hu Hrt.
      destruct g' as [|r' t']; [simpl in Hl; discriminate|].
      apply equiv_regions_true in H. destruct H as (Hbl & c1 & Hr & H). simpl in Hl.
      destruct Hd as [Hd1 Hd2]. destruct Hu as [Hu1 Hu2]. destruct (rt_hyp_and _ _ Hrt) as [Hrt1 Hrt2].
      assert (Epre := region_pre_ext c r r' Hbl).
      destruct (proj1 (proj2 (proj2 (proj2 equiv_ext))) r cf _ r' c1 Hr Hbl) as [Er _].
      assert (Et := proj2 (proj2 (proj2 (proj2 equiv_ext))) t cf c1 t' c' H ltac:(lia)).
      assert (Hc0 := covers_ext _ _ _ _ _ _ _ _ Hc Epre). simpl in Hc0.
      cbn [m_regions]. split.
      + eapply IHr; eauto. eapply in_rel_earlier; eauto.
      + eapply IHt; eauto; try lia.
        * eapply covers_incl; [eapply covers_ext; [exact Hc0|exact Er]| |].
          -- apply incl_refl.
          -- intros z Hz. apply in_app_iff in Hz. apply in_app_iff.
             destruct Hz as [Hz|Hz]; [left; exact Hz|right; apply in_app_iff; right; exact Hz].
  Qed.
End Sound.

Lemma pair_eta : forall (p : nat * nat), p = (fst p, snd p).
Proof. intros [x y]. reflexivity. Qed.

Lemma in_rel_top : forall d d' b b' c', ext d d' b b' empty_ctx c' ->
  in_rel (fun x y => In (x, y) (combine d d')) (fun x y => In (x, y) (combine b b')) c'.
Proof.
  intros d d' b b' c' [[_ V] [_ B]]. split; intros p H; rewrite <- pair_eta.
  - apply V in H. simpl in H. tauto.
  - apply B in H. simpl in H. tauto.
Qed.

Lemma covers_nil : forall c, covers c [] [].
Proof. intros c. split; intros o H; inversion H. Qed.

(* a successful run from the empty context: the pairs it registered are two one-to-one
   correspondences, and they are all that the final context holds *)
Lemma run_bij : forall d d' b b' c', ext d d' b b' empty_ctx c' ->
  NoDup d -> NoDup d' -> NoDup b -> NoDup b' ->
  bij (fun x y => In (x, y) (combine d d')) d d' /\ bij (fun x y => In (x, y) (combine b b')) b b'
  /\ in_rel (fun x y => In (x, y) (combine d d')) (fun x y => In (x, y) (combine b b')) c'.
Proof.
  intros d d' b b' c' X N1 N2 N3 N4. pose proof X as [[L1 _] [L2 _]].
  split; [apply bij_combine; assumption|]. split; [apply bij_combine; assumption|].
  apply in_rel_top. exact X.
Qed.

Theorem sound_op_gen : forall cf rt a b,
  NoDup (defs_op a) -> NoDup (defs_op b) -> NoDup (blks_op a) -> NoDup (blks_op b) ->
  dpu_top_op a -> ext_ok_op a b ->
  (rt = true -> cmp_rt cf = false -> rt_eq_op a b) ->
  se_op cf a b = true -> iso_op rt a b.
Proof.
  intros cf rt a b N1 N2 N3 N4 Hd He Hrt H. unfold se_op in H.
  destruct (equiv_op cf empty_ctx a b) as [ok c'] eqn:E. simpl in H. subst ok.
  destruct (run_bij _ _ _ _ _ (proj1 equiv_ext a cf _ b c' E) N1 N2 N3 N4) as (Bv & Bb & HR).
  do 2 eexists. split; [exact Bv|]. split; [exact Bb|].
  eapply (proj1 (sound_all cf rt _ _ _ _ _ _)); eauto. apply covers_nil.
Qed.

Theorem sound_block_gen : forall cf rt a b,
  NoDup (defs_block a) -> NoDup (defs_block b) -> NoDup (blks_block a) -> NoDup (blks_block b) ->
  dpu_top_block a -> ext_ok_block a b ->
  (rt = true -> cmp_rt cf = false -> rt_eq_block a b) ->
  se_block cf a b = true -> iso_block rt a b.
Proof.
  intros cf rt a b N1 N2 N3 N4 Hd He Hrt H. unfold se_block in H.
  destruct (equiv_block cf empty_ctx a b) as [ok c'] eqn:E. simpl in H. subst ok.
  destruct (run_bij _ _ _ _ _ (proj1 (proj2 (proj2 equiv_ext)) a cf _ b c' E) N1 N2 N3 N4) as (Bv & Bb & HR).
  do 2 eexists. split; [exact Bv|]. split; [exact Bb|].
  eapply (proj1 (proj2 (proj2 (sound_all cf rt _ _ _ _ _ _)))); eauto. apply covers_nil.
Qed.

Theorem sound_region_gen : forall cf rt a b,
  NoDup (defs_blocks a) -> NoDup (defs_blocks b) -> NoDup (blks_blocks a) -> NoDup (blks_blocks b) ->
  dpu_top_region a -> ext_ok_region a b ->
  (rt = true -> cmp_rt cf = false -> rt_eq_blocks a b) ->
  se_region cf a b = true -> iso_region rt a b.
Proof.
  intros cf rt a b N1 N2 N3 N4 Hd He Hrt H. rewrite se_region_regions in H.
  destruct (equiv_regions cf empty_ctx (GCons a GNil) (GCons b GNil)) as [ok c'] eqn:E. simpl in H. subst ok.
  pose proof (proj2 (proj2 (proj2 (proj2 equiv_ext))) _ cf _ _ c' E eq_refl) as X.
  cbn [defs_regions blks_regions] in X. rewrite !app_nil_r in X.
  destruct (run_bij _ _ _ _ _ X N1 N2 N3 N4) as (Bv & Bb & HR).
  do 2 eexists. split; [exact Bv|]. split; [exact Bb|].
  refine (proj1 (proj2 (proj2 (proj2 (proj2 (sound_all cf rt _ _ _ _ _ _)))) _ _ _ c' [] [] E eq_refl HR _ (covers_nil _) _ _)).
  - split; [|exact I]. cbn [app]. rewrite app_nil_r. exact Hd.
  - split; [exact He|exact I].
  - intros A B. split; [exact (Hrt A B)|exact I].
Qed.

Lemma in_combine_map_inv : forall (A B : Type) (f : A -> B) l l' p,
  In p (combine (map f l) (map f l')) -> exists x y, p = (f x, f y) /\ In (x, y) (combine l l').
Proof.
  induction l as [|a l IH]; destruct l' as [|b l']; simpl; intros p H; try contradiction.
  destruct H as [H|H].
  - exists a, b. auto.
  - destruct (IH _ _ H) as (x & y & E & Hi). exists x, y. auto.
Qed.

Lemma Forall2_map_eq : forall (A B C : Type) (f : A -> C) (g : B -> C) l l',
  Forall2 (fun x y => f x = g y) l l' -> map f l = map g l'.
Proof. induction 1; simpl; congruence. Qed.

Section Complete.
  Variable cf : cfg.
  Variable rt : bool.
  Variables Rv Rb : nat -> nat -> Prop.
  Variables Iva Ivb : list vid.
  Variables Iba Ibb : list bid.
  Hypothesis Bv : bij Rv Iva Ivb.
  Hypothesis Bb : bij Rb Iba Ibb.
  Hypothesis Hrt : cmp_rt cf = true -> rt = true.

  Notation M_op := (m_op rt Rv Rb Iva Ivb Iba Ibb).
  Notation M_ops := (m_ops rt Rv Rb Iva Ivb Iba Ibb).
  Notation M_block := (m_block rt Rv Rb Iva Ivb Iba Ibb).
  Notation M_blocks := (m_blocks rt Rv Rb Iva Ivb Iba Ibb).
  Notation M_regions := (m_regions rt Rv Rb Iva Ivb Iba Ibb).
  Notation IR := (in_rel Rv Rb).

  Lemma m_ops_len : forall l l', M_ops l l' -> ops_len l = ops_len l'.
  Proof. induction l as [|o t IH]; intros [|o' t'] H; simpl in *; try contradiction; auto. destruct H as [_ H]. f_equal. apply IH. exact H. Qed.
  Lemma m_blocks_len : forall l l', M_blocks l l' -> blocks_len l = blocks_len l'.
  Proof. induction l as [|o t IH]; intros [|o' t'] H; simpl in *; try contradiction; auto. destruct H as [_ H]. f_equal. apply IH. exact H. Qed.
  Lemma m_regions_len : forall l l', M_regions l l' -> regions_len l = regions_len l'.
  Proof. induction l as [|o t IH]; intros [|o' t'] H; simpl in *; try contradiction; auto. destruct H as [_ H]. f_equal. apply IH. exact H. Qed.

  Lemma m_blocks_ids : forall r r', M_blocks r r' ->
    forall p, In p (combine (blocks_ids r) (blocks_ids r')) -> Rb (fst p) (snd p).
  Proof.
    induction r as [|k t IH]; destruct r' as [|k' t']; simpl; intros H p Hp; try contradiction.
    destruct H as [Hk Ht]. destruct Hp as [Hp|Hp]; [|apply IH with (r' := t'); assumption].
    subst p. destruct k, k'. simpl in *. tauto.
  Qed.

  Lemma use_complete : forall (l : list (nat * nat)) (R : nat -> nat -> Prop) (Ia Ib seen : list nat) xs ys,
    Forall2 (fun o o' => R o o' \/ (~ In o Ia /\ ~ In o' Ib /\ o = o')) xs ys ->
    (forall p, In p l -> R (fst p) (snd p)) -> bij R Ia Ib ->
    (forall o, In o xs -> In o Ia -> In o seen) -> (forall x, In x seen -> In x (map fst l)) ->
    all_mapped l xs ys = true.
  Proof.
    intros l R Ia Ib seen xs ys H HR B Hs Hcov. apply all_mapped_complete.
    eapply Forall2_in_impl; [exact H|]. intros o o' Hio _ Hc. cbv beta. unfold get_or_self.
    destruct (lookup l o) as [q|] eqn:E.
    - apply lookup_some_in in E. apply HR in E. simpl in E.
      destruct Hc as [Hc|(Hn & _ & _)]; [exact (bij_fun _ _ _ B _ _ _ E Hc)|].
      exfalso. apply Hn. exact (proj1 (bij_dom _ _ _ B _ _ E)).
    - apply lookup_none_notin in E.
      destruct Hc as [Hc|(_ & _ & Hc)]; [|exact Hc]. exfalso. apply E, Hcov, (Hs o Hio). exact (proj1 (bij_dom _ _ _ B _ _ Hc)).
  Qed.

  Lemma parent_ok_in : forall c b b', IR c -> In (b, b') (cb c) ->
    parent_fail cf c (Some b) (Some b') = false.
  Proof.
    intros c b b' [_ HRb] Hin. unfold parent_fail.
    destruct (in_lookup_some _ _ _ Hin) as [q Hq]. rewrite Hq.
    apply lookup_some_in in Hq. apply HRb in Hq. apply HRb in Hin. simpl in *.
    rewrite (bij_fun _ _ _ Bb _ _ _ Hq Hin). rewrite Nat.eqb_refl. reflexivity.
  Qed.

  Lemma complete_all :
    (forall x c y sv sb, M_op x y -> IR c -> dpu_op Iva Iba sv sb x -> covers c sv sb ->
       parent_fail cf c (op_parent x) (op_parent y) = false -> wfp_op x -> wfp_op y ->
       exists c', equiv_op cf c x y = (true, c') /\ IR c')
    /\ (forall l c l' sv sb b b', M_ops l l' -> IR c -> dpu_ops Iva Iba sv sb l -> covers c sv sb ->
       wfp_ops b l -> wfp_ops b' l' -> In (b, b') (cb c) ->
       exists c', equiv_ops cf c l l' = (true, c') /\ IR c')
    /\ (forall k c k' sv sb, M_block k k' -> IR c -> dpu_block Iva Iba sv sb k -> covers c sv sb ->
       wfp_block k -> wfp_block k' ->
       exists c', equiv_block cf c k k' = (true, c') /\ IR c')
    /\ (forall r c r' sv sb, M_blocks r r' -> IR c -> dpu_blocks Iva Iba sv sb r -> covers c sv sb ->
       wfp_blocks r -> wfp_blocks r' ->
       exists c', equiv_blocks cf c r r' = (true, c') /\ IR c')
    /\ (forall g c g' sv sb, M_regions g g' -> IR c -> dpu_regions Iva Iba sv sb g -> covers c sv sb ->
       wfp_regions g -> wfp_regions g' ->
       exists c', equiv_regions cf c g g' = (true, c') /\ IR c').
  Proof.
    apply ir_mutind.
    - intros n os rs a p ss g IHg par c y sv sb Hm HR Hd Hc Hpar Hw Hw'.
      destruct y as [n' os' rs' a' p' ss' g' par']. cbn [m_op] in Hm.
      destruct Hm as (En & Ea & Ep & Hos & Hrs & Hss & Hg). subst n' a' p'.
      destruct Hd as (Hdo & Hds & Hdg). destruct Hc as [Hc1 Hc2].
      simpl in Hpar, Hw, Hw'.
      destruct (IHg c g' sv sb Hg HR Hdg (conj Hc1 Hc2) Hw Hw') as (c1 & Eg & HR1).
      assert (El1 := Forall2_len _ _ _ _ _ Hos). assert (El2 := Forall2_len _ _ _ _ _ Hrs).
      assert (El3 := Forall2_len _ _ _ _ _ Hss). assert (El4 := m_regions_len _ _ Hg).
      assert (Hty : cmp_rt cf && negb (nats_eqb (map snd rs) (map snd rs')) = false).
      { destruct (cmp_rt cf) eqn:Ecmp; [|reflexivity]. simpl. apply negb_false_iff, nats_eqb_eq.
        apply Forall2_map_eq. eapply Forall2_in_impl; [exact Hrs|]. intros r r' _ _ [_ Ht]. apply Ht, Hrt. reflexivity. }
      assert (Ho := use_complete (cv c) Rv Iva Ivb sv os os' Hos (proj1 HR) Bv Hdo Hc1).
      assert (Hs := use_complete (cb c) Rb Iba Ibb sb ss ss' Hss (proj2 HR) Bb Hds Hc2).
      cbn [equiv_op]. rewrite Nat.eqb_refl. cbn [negb].
      rewrite <- El1, <- El2, <- El3, <- El4, !Nat.eqb_refl, Hty. cbn [negb orb].
      rewrite Hpar, Ho, Hs. cbn [negb]. rewrite Eg. cbn [negb].
      eexists. split; [reflexivity|].
      eapply in_rel_ext; [apply results_ext; exact El2|exact HR1| |intros ? []].
      intros q Hq. apply in_combine_map_inv in Hq. destruct Hq as (r & r' & -> & Hin).
      exact (proj1 (Forall2_combine_inv _ _ _ _ _ Hrs _ _ Hin)).
    - intros c l' sv sb b b' Hm HR _ _ _ _ _. destruct l'; simpl in Hm; [|contradiction].
      exists c. auto.
    - intros o IHo t IHt c l' sv sb b b' Hm HR Hd Hc Hw Hw' Hin.
      destruct l' as [|o' t']; simpl in Hm; [contradiction|]. destruct Hm as [Hmo Hmt].
      destruct Hd as [Hd1 Hd2]. destruct Hw as (Hp & Hwo & Hwt). destruct Hw' as (Hp' & Hwo' & Hwt').
      assert (Hpar : parent_fail cf c (op_parent o) (op_parent o') = false).
      { rewrite Hp, Hp'. apply parent_ok_in; assumption. }
      destruct (IHo c o' sv sb Hmo HR Hd1 Hc Hpar Hwo Hwo') as (c1 & Eo & HR1).
      assert (Xo := proj1 equiv_ext o cf c o' c1 Eo).
      destruct (IHt c1 t' _ _ b b' Hmt HR1 Hd2 (covers_ext _ _ _ _ _ _ _ _ Hc Xo) Hwt Hwt'
                  (grows_mono _ _ _ _ _ (proj2 Xo) Hin)) as (c2 & Et & HR2).
      exists c2. cbn [equiv_ops]. rewrite Eo. auto.
    - intros b args body IHb c k' sv sb Hm HR Hd Hc Hw Hw'. destruct k' as [b' args' body'].
      cbn [m_block] in Hm. destruct Hm as (Hb & Hargs & Hbody).
      simpl in Hd, Hw, Hw'.
      assert (El1 := Forall2_len _ _ _ _ _ Hargs). assert (El2 := m_ops_len _ _ Hbody).
      destruct (reg_args_complete args args' (cv c)) as [v1 Ha].
      { eapply Forall2_in_impl; [exact Hargs|]. intros r r' _ _ [_ Ht]. exact Ht. }
      assert (Epre := block_pre_ext c args args' v1 b b' Ha El1).
      assert (HR0 : IR (Ctx v1 ((b, b') :: cb c))).
      { eapply in_rel_ext; [exact Epre|exact HR| |intros q [<-|[]]; exact Hb].
        intros q Hq. apply in_combine_map_inv in Hq. destruct Hq as (r & r' & -> & Hin).
        exact (proj1 (Forall2_combine_inv _ _ _ _ _ Hargs _ _ Hin)). }
      destruct (IHb _ body' _ _ b b' Hbody HR0 Hd (covers_ext _ _ _ _ _ _ _ _ Hc Epre) Hw Hw')
        as (c2 & Eb & HR2); [simpl; auto|].
      exists c2. cbn [equiv_block]. rewrite <- El1, <- El2, !Nat.eqb_refl. cbn [negb orb].
      rewrite Ha. cbn [negb]. auto.
    - intros c r' sv sb Hm HR _ _ _ _. destruct r'; simpl in Hm; [|contradiction]. exists c. auto.
    - intros k IHk t IHt c r' sv sb Hm HR Hd Hc Hw Hw'.
      destruct r' as [|k' t']; simpl in Hm; [contradiction|]. destruct Hm as [Hmk Hmt].
      destruct Hd as [Hd1 Hd2]. destruct Hw as [Hwk Hwt]. destruct Hw' as [Hwk' Hwt'].
      destruct (IHk c k' sv sb Hmk HR Hd1 Hc Hwk Hwk') as (c1 & Ek & HR1).
      assert (Xk := proj1 (proj2 (proj2 equiv_ext)) k cf c k' c1 Ek).
      destruct (IHt c1 t' _ _ Hmt HR1 Hd2 (covers_ext _ _ _ _ _ _ _ _ Hc Xk) Hwt Hwt') as (c2 & Et & HR2).
      exists c2. cbn [equiv_blocks]. rewrite Ek. auto.
    - intros c g' sv sb Hm HR _ _ _ _. destruct g'; simpl in Hm; [|contradiction]. exists c. auto.
    - intros r IHr t IHt c g' sv sb Hm HR Hd Hc Hw Hw'.
      destruct g' as [|r' t']; simpl in Hm; [contradiction|]. destruct Hm as [Hmr Hmt].
      destruct Hd as [Hd1 Hd2]. destruct Hw as [Hwr Hwt]. destruct Hw' as [Hwr' Hwt'].
      assert (Hbl := m_blocks_len _ _ Hmr).
      assert (Epre := region_pre_ext c r r' Hbl).
      assert (HR0 : IR (Ctx (cv c) (reg_blocks (cb c) r r'))).
      { eapply in_rel_ext; [exact Epre|exact HR|intros ? []|eapply m_blocks_ids; eauto]. }
      assert (Hc0 := covers_ext _ _ _ _ _ _ _ _ Hc Epre). simpl in Hc0.
      destruct (IHr _ r' _ _ Hmr HR0 Hd1 Hc0 Hwr Hwr') as (c1 & Er & HR1).
      destruct (proj1 (proj2 (proj2 (proj2 equiv_ext))) r cf _ r' c1 Er Hbl) as [Xr _].
      assert (Hc1 : covers c1 (defs_blocks r ++ sv) (blks_blocks r ++ sb)).
      { eapply covers_incl; [eapply covers_ext; [exact Hc0|exact Xr]|apply incl_refl|].
        intros z Hz. apply in_app_iff in Hz. apply in_app_iff.
        destruct Hz as [Hz|Hz]; [left; exact Hz|right; apply in_app_iff; right; exact Hz]. }
      destruct (IHt c1 t' _ _ Hmt HR1 Hd2 Hc1 Hwt Hwt') as (c2 & Et & HR2).
      exists c2. rewrite equiv_regions_cons. unfold equiv_region, region_pre.
      rewrite Hbl, Nat.eqb_refl. cbn [negb]. rewrite Er. auto.
  Qed.
End Complete.

Definition root_parent_ok (cf : cfg) (a b : op) : Prop := parent_strict cf = true -> detached a b.

Lemma parent_fail_top : forall cf a b, root_parent_ok cf a b ->
  parent_fail cf empty_ctx (op_parent a) (op_parent b) = false.
Proof.
  intros cf a b H. unfold root_parent_ok in H. unfold parent_fail. destruct (op_parent a) eqn:Ea; [|reflexivity].
  destruct (op_parent b) eqn:Eb; [|reflexivity]. simpl.
  destruct (parent_strict cf); [|reflexivity].
  destruct (H eq_refl) as [X|X]; congruence.
Qed.

Lemma in_rel_empty : forall Rv Rb, in_rel Rv Rb empty_ctx.
Proof. intros. split; intros p H; inversion H. Qed.

Theorem complete_op_gen : forall cf rt a b,
  (cmp_rt cf = true -> rt = true) -> wfp_op a -> wfp_op b -> dpu_top_op a -> root_parent_ok cf a b ->
  iso_op rt a b -> se_op cf a b = true.
Proof.
  intros cf rt a b Hrt Wa Wb Hd Hp (Rv & Rb & Bv & Bb & Hm).
  destruct (proj1 (complete_all cf rt Rv Rb _ _ _ _ Bv Bb Hrt) a empty_ctx b [] [] Hm (in_rel_empty _ _) Hd (covers_nil _) (parent_fail_top _ _ _ Hp) Wa Wb)
    as (c' & E & _).
  unfold se_op. rewrite E. reflexivity.
Qed.

Theorem complete_block_gen : forall cf rt a b,
  (cmp_rt cf = true -> rt = true) -> wfp_block a -> wfp_block b -> dpu_top_block a ->
  iso_block rt a b -> se_block cf a b = true.
Proof.
  intros cf rt a b Hrt Wa Wb Hd (Rv & Rb & Bv & Bb & Hm).
  destruct (proj1 (proj2 (proj2 (complete_all cf rt Rv Rb _ _ _ _ Bv Bb Hrt))) a empty_ctx b [] [] Hm (in_rel_empty _ _) Hd (covers_nil _) Wa Wb)
    as (c' & E & _).
  unfold se_block. rewrite E. reflexivity.
Qed.

Theorem complete_region_gen : forall cf rt a b,
  (cmp_rt cf = true -> rt = true) -> wfp_blocks a -> wfp_blocks b -> dpu_top_region a ->
  iso_region rt a b -> se_region cf a b = true.
Proof.
  intros cf rt a b Hrt Wa Wb Hd (Rv & Rb & Bv & Bb & Hm). rewrite se_region_regions.
  destruct (proj2 (proj2 (proj2 (proj2 (complete_all cf rt Rv Rb _ _ _ _ Bv Bb Hrt))))
              (GCons a GNil) empty_ctx (GCons b GNil) [] []) as (c' & E & _).
  - exact (conj Hm I).
  - apply in_rel_empty.
  - split; [|exact I]. cbn [app]. rewrite app_nil_r. exact Hd.
  - apply covers_nil.
  - exact (conj Wa I).
  - exact (conj Wb I).
  - rewrite E. reflexivity.
Qed.

(* reflexivity needs no scoping hypothesis: forward references and graph regions are included *)

Definition idctx : ctx -> Prop := in_rel eq eq.

Lemma get_id : forall l o, (forall p : nat * nat, In p l -> fst p = snd p) -> get_or_self l o = o.
Proof.
  intros l o H. unfold get_or_self. destruct (lookup l o) eqn:E; [|reflexivity].
  apply lookup_some_in in E. apply H in E. simpl in E. auto.
Qed.

Lemma all_mapped_id : forall l xs, (forall p : nat * nat, In p l -> fst p = snd p) -> all_mapped l xs xs = true.
Proof.
  intros l xs H. apply all_mapped_complete. induction xs; constructor; auto. apply get_id. exact H.
Qed.

Lemma nats_eqb_refl : forall l, nats_eqb l l = true.
Proof. intros l. apply nats_eqb_eq. reflexivity. Qed.

Lemma combine_same : forall (A : Type) (l : list A) p, In p (combine l l) -> fst p = snd p.
Proof. induction l; simpl; intros p H; [contradiction|]. destruct H as [H|H]; [subst; reflexivity|auto]. Qed.

Section Refl.
  Variable cf : cfg.

  Lemma parent_refl : forall c p, idctx c ->
    (parent_strict cf = true -> forall b, p = Some b -> In (b, b) (cb c)) ->
    parent_fail cf c p p = false.
  Proof.
    intros c p [_ Hid] H. unfold parent_fail. destruct p as [b|]; [|reflexivity].
    destruct (lookup (cb c) b) as [q|] eqn:E.
    - apply lookup_some_in in E. apply Hid in E. simpl in E. subst q. rewrite Nat.eqb_refl. reflexivity.
    - destruct (parent_strict cf) eqn:Es; [|reflexivity].
      exfalso. apply lookup_none_notin in E. apply E. eapply in_map_fst. apply (H eq_refl b eq_refl).
  Qed.

  Lemma refl_all :
    (forall x c, idctx c -> parent_fail cf c (op_parent x) (op_parent x) = false ->
       (parent_strict cf = true -> wfp_op x) ->
       exists c', equiv_op cf c x x = (true, c') /\ idctx c')
    /\ (forall l c b, idctx c -> (parent_strict cf = true -> wfp_ops b l /\ In (b, b) (cb c)) ->
       exists c', equiv_ops cf c l l = (true, c') /\ idctx c')
    /\ (forall k c, idctx c -> (parent_strict cf = true -> wfp_block k) ->
       exists c', equiv_block cf c k k = (true, c') /\ idctx c')
    /\ (forall r c, idctx c -> (parent_strict cf = true -> wfp_blocks r) ->
       exists c', equiv_blocks cf c r r = (true, c') /\ idctx c')
    /\ (forall g c, idctx c -> (parent_strict cf = true -> wfp_regions g) ->
       exists c', equiv_regions cf c g g = (true, c') /\ idctx c').
  Proof.
    apply ir_mutind.
    - intros n os rs a p ss g IHg par c Hid Hpar Hw. simpl in Hpar, Hw.
      destruct (IHg c Hid Hw) as (c1 & Eg & Hid1).
      cbn [equiv_op]. rewrite !Nat.eqb_refl, nats_eqb_refl, andb_false_r. cbn [negb orb].
      destruct Hid as [Hi1 Hi2].
      rewrite Hpar, (all_mapped_id _ os Hi1), (all_mapped_id _ ss Hi2). cbn [negb]. rewrite Eg. cbn [negb].
      eexists. split; [reflexivity|].
      eapply in_rel_ext; [apply results_ext; reflexivity|exact Hid1|apply combine_same|intros ? []].
    - intros c b Hid _. exists c. auto.
    - intros o IHo t IHt c b Hid Hw.
      assert (Hpar : parent_fail cf c (op_parent o) (op_parent o) = false).
      { apply parent_refl; [exact Hid|]. intros Es b0 Eb. destruct (Hw Es) as [(Hp & _ & _) Hin].
        rewrite Hp in Eb. inversion Eb; subst. exact Hin. }
      destruct (IHo c Hid Hpar) as (c1 & Eo & Hid1).
      { intros Es. destruct (Hw Es) as [(_ & X & _) _]. exact X. }
      assert (Xo := proj1 equiv_ext o cf c o c1 Eo).
      destruct (IHt c1 b Hid1) as (c2 & Et & Hid2).
      { intros Es. destruct (Hw Es) as [(_ & _ & X) Hin]. split; [exact X|]. exact (grows_mono _ _ _ _ _ (proj2 Xo) Hin). }
      exists c2. cbn [equiv_ops]. rewrite Eo. auto.
    - intros b args body IHb c Hid Hw. simpl in Hw.
      destruct (reg_args_complete args args (cv c)) as [v1 Ha].
      { clear. induction args; constructor; auto. }
      destruct (IHb (Ctx v1 ((b, b) :: cb c)) b) as (c2 & Eb & Hid2).
      { eapply in_rel_ext; [exact (block_pre_ext c _ _ v1 b b Ha eq_refl)|exact Hid|apply combine_same|].
        intros q [<-|[]]. reflexivity. }
      { intros Es. split; [auto|simpl; auto]. }
      exists c2. cbn [equiv_block]. rewrite !Nat.eqb_refl. cbn [negb orb]. rewrite Ha. cbn [negb]. auto.
    - intros c Hid _. exists c. auto.
    - intros k IHk t IHt c Hid Hw.
      destruct (IHk c Hid) as (c1 & Ek & Hid1); [intros Es; apply (Hw Es)|].
      destruct (IHt c1 Hid1) as (c2 & Et & Hid2); [intros Es; apply (Hw Es)|].
      exists c2. cbn [equiv_blocks]. rewrite Ek. auto.
    - intros c Hid _. exists c. auto.
    - intros r IHr t IHt c Hid Hw.
      destruct (IHr (Ctx (cv c) (reg_blocks (cb c) r r))) as (c1 & Er & Hid1).
      { eapply in_rel_ext; [exact (region_pre_ext c r r eq_refl)|exact Hid|intros ? []|apply combine_same]. }
      { intros Es; apply (Hw Es). }
      destruct (IHt c1 Hid1) as (c2 & Et & Hid2); [intros Es; apply (Hw Es)|].
      exists c2. rewrite equiv_regions_cons. unfold equiv_region, region_pre.
      rewrite Nat.eqb_refl. cbn [negb]. rewrite Er. auto.
  Qed.
End Refl.

(* strict parent check (unchanged tree): only for a detached root with consistent parent fields;
   relaxed parent check (repaired): unconditional *)
Theorem refl_op_gen : forall cf a,
  (parent_strict cf = true -> op_parent a = None /\ wfp_op a) -> se_op cf a a = true.
Proof.
  intros cf a H.
  destruct (proj1 (refl_all cf) a empty_ctx (in_rel_empty _ _)) as (c' & E & _).
  - apply parent_fail_top. intros Es. left. apply (H Es).
  - intros Es. apply (H Es).
  - unfold se_op. rewrite E. reflexivity.
Qed.

Theorem refl_block_gen : forall cf a, (parent_strict cf = true -> wfp_block a) -> se_block cf a a = true.
Proof.
  intros cf a H. destruct (proj1 (proj2 (proj2 (refl_all cf))) a empty_ctx (in_rel_empty _ _) H) as (c' & E & _).
  unfold se_block. rewrite E. reflexivity.
Qed.

Theorem refl_region_gen : forall cf a, (parent_strict cf = true -> wfp_blocks a) -> se_region cf a a = true.
Proof.
  intros cf a H. rewrite se_region_regions.
  destruct (proj2 (proj2 (proj2 (proj2 (refl_all cf)))) (GCons a GNil) empty_ctx (in_rel_empty _ _)) as (c' & E & _).
  - intros Es. exact (conj (H Es) I).
  - rewrite E. reflexivity.
Qed.

Lemma Forall2_flip : forall (A B : Type) (P : A -> B -> Prop) (Q : B -> A -> Prop) l l',
  Forall2 P l l' -> (forall x y, P x y -> Q y x) -> Forall2 Q l' l.
Proof. induction 1; intros HI; constructor; auto. Qed.

Lemma bij_flip : forall R d c, bij R d c -> bij (fun y x => R x y) c d.
Proof.
  intros R d c [H1 H2 H3 H4 H5]. constructor; intros.
  - apply and_comm. apply H1. assumption.
  - apply H3; assumption.
  - apply H2; assumption.
  - eapply H5; eauto.
  - eapply H4; eauto.
Qed.

Section Sym.
  Variable rt : bool.
  Variables Rv Rb : nat -> nat -> Prop.
  Variables Iva Ivb : list vid.
  Variables Iba Ibb : list bid.
  Notation Rv' := (fun y x => Rv x y).
  Notation Rb' := (fun y x => Rb x y).

  Lemma m_sym_all :
    (forall x y, m_op rt Rv Rb Iva Ivb Iba Ibb x y -> m_op rt Rv' Rb' Ivb Iva Ibb Iba y x)
    /\ (forall l l', m_ops rt Rv Rb Iva Ivb Iba Ibb l l' -> m_ops rt Rv' Rb' Ivb Iva Ibb Iba l' l)
    /\ (forall k k', m_block rt Rv Rb Iva Ivb Iba Ibb k k' -> m_block rt Rv' Rb' Ivb Iva Ibb Iba k' k)
    /\ (forall r r', m_blocks rt Rv Rb Iva Ivb Iba Ibb r r' -> m_blocks rt Rv' Rb' Ivb Iva Ibb Iba r' r)
    /\ (forall g g', m_regions rt Rv Rb Iva Ivb Iba Ibb g g' -> m_regions rt Rv' Rb' Ivb Iva Ibb Iba g' g).
  Proof.
    apply ir_mutind.
    - intros n os rs a p ss g IHg par y H. destruct y as [n' os' rs' a' p' ss' g' par'].
      cbn [m_op] in *. destruct H as (En & Ea & Ep & Hos & Hrs & Hss & Hg).
      repeat split; auto.
      + eapply Forall2_flip; [exact Hos|].
        intros o o' [H|(H1 & H2 & H3)]; [left; exact H|right; auto].
      + eapply Forall2_flip; [exact Hrs|].
        intros r r' [H1 H2]. split; [exact H1|]. intros E. symmetry. auto.
      + eapply Forall2_flip; [exact Hss|].
        intros s s' [H|(H1 & H2 & H3)]; [left; exact H|right; auto].
      + apply IHg. exact Hg.
    - intros l' H. destruct l'; simpl in *; tauto.
    - intros o IHo t IHt l' H. destruct l' as [|o' t']; simpl in *; [tauto|].
      destruct H as [H1 H2]; split; [apply IHo; exact H1|apply IHt; exact H2].
    - intros b args body IHb k' H. destruct k' as [b' args' body']. cbn [m_block] in *.
      destruct H as (Hb & Hargs & Hbody). split; [exact Hb|]. split; [|apply IHb; exact Hbody].
      eapply Forall2_flip; [exact Hargs|].
      intros r r' [H1 H2]. split; auto.
    - intros r' H. destruct r'; simpl in *; tauto.
    - intros k IHk t IHt r' H. destruct r' as [|k' t']; simpl in *; [tauto|].
      destruct H as [H1 H2]; split; [apply IHk; exact H1|apply IHt; exact H2].
    - intros g' H. destruct g'; simpl in *; tauto.
    - intros r IHr t IHt g' H. destruct g' as [|r' t']; simpl in *; [tauto|].
      destruct H as [H1 H2]; split; [apply IHr; exact H1|apply IHt; exact H2].
  Qed.
End Sym.

Theorem iso_op_sym : forall rt a b, iso_op rt a b -> iso_op rt b a.
Proof.
  intros rt a b (Rv & Rb & Bv & Bb & Hm).
  exists (fun y x => Rv x y), (fun y x => Rb x y).
  split; [apply bij_flip; exact Bv|]. split; [apply bij_flip; exact Bb|].
  apply (proj1 (m_sym_all rt Rv Rb _ _ _ _)). exact Hm.
Qed.

Theorem iso_block_sym : forall rt a b, iso_block rt a b -> iso_block rt b a.
Proof.
  intros rt a b (Rv & Rb & Bv & Bb & Hm).
  exists (fun y x => Rv x y), (fun y x => Rb x y).
  split; [apply bij_flip; exact Bv|]. split; [apply bij_flip; exact Bb|].
  apply (proj1 (proj2 (proj2 (m_sym_all rt Rv Rb _ _ _ _)))). exact Hm.
Qed.

Theorem iso_region_sym : forall rt a b, iso_region rt a b -> iso_region rt b a.
Proof.
  intros rt a b (Rv & Rb & Bv & Bb & Hm).
  exists (fun y x => Rv x y), (fun y x => Rb x y).
  split; [apply bij_flip; exact Bv|]. split; [apply bij_flip; exact Bb|].
  apply (proj1 (proj2 (proj2 (proj2 (m_sym_all rt Rv Rb _ _ _ _))))). exact Hm.
Qed.

(* symmetry of the check, through sound + complete *)
Theorem sym_op_gen : forall cf a b,
  wf_op a -> wf_op b -> dpu_top_op a -> dpu_top_op b -> ext_ok_op a b -> root_parent_ok cf b a ->
  se_op cf a b = true -> se_op cf b a = true.
Proof.
  intros cf a b (N1 & N2 & W1) (N3 & N4 & W2) Da Db He Hp H.
  apply complete_op_gen with (rt := cmp_rt cf); auto.
  apply iso_op_sym. apply sound_op_gen with (cf := cf); auto.
  intros E1 E2. congruence.
Qed.

Theorem sym_block_gen : forall cf a b,
  wf_block a -> wf_block b -> dpu_top_block a -> dpu_top_block b -> ext_ok_block a b ->
  se_block cf a b = true -> se_block cf b a = true.
Proof.
  intros cf a b (N1 & N2 & W1) (N3 & N4 & W2) Da Db He H.
  apply complete_block_gen with (rt := cmp_rt cf); auto.
  apply iso_block_sym. apply sound_block_gen with (cf := cf); auto.
  intros E1 E2. congruence.
Qed.

Theorem sym_region_gen : forall cf a b,
  wf_region a -> wf_region b -> dpu_top_region a -> dpu_top_region b -> ext_ok_region a b ->
  se_region cf a b = true -> se_region cf b a = true.
Proof.
  intros cf a b (N1 & N2 & W1) (N3 & N4 & W2) Da Db He H.
  apply complete_region_gen with (rt := cmp_rt cf); auto.
  apply iso_region_sym. apply sound_region_gen with (cf := cf); auto.
  intros E1 E2. congruence.
Qed.

Section CloneProofs.
  Variables (fv : vid -> vid) (fb : bid -> bid).

  Lemma map_fst_ren : forall l, map fst (ren_res fv l) = map fv (map fst l).
  Proof. intros l. unfold ren_res. rewrite !map_map. reflexivity. Qed.

  Lemma defs_blks_clone :
    (forall x, defs_op (clone_op fv fb x) = map fv (defs_op x) /\ blks_op (clone_op fv fb x) = map fb (blks_op x))
    /\ (forall l, defs_ops (clone_ops fv fb l) = map fv (defs_ops l) /\ blks_ops (clone_ops fv fb l) = map fb (blks_ops l))
    /\ (forall k, defs_block (clone_block fv fb k) = map fv (defs_block k) /\ blks_block (clone_block fv fb k) = map fb (blks_block k))
    /\ (forall r, defs_blocks (clone_blocks fv fb r) = map fv (defs_blocks r) /\ blks_blocks (clone_blocks fv fb r) = map fb (blks_blocks r))
    /\ (forall g, defs_regions (clone_regions fv fb g) = map fv (defs_regions g) /\ blks_regions (clone_regions fv fb g) = map fb (blks_regions g)).
  Proof.
    apply ir_mutind.
    - intros n os rs a p ss g [H1 H2] par. simpl.
      rewrite H1, H2, map_app, map_fst_ren. auto.
    - simpl. auto.
    - intros o [H1 H2] t [H3 H4]. simpl. rewrite H1, H2, H3, H4, !map_app. auto.
    - intros b args body [H1 H2]. simpl.
      rewrite H1, H2, map_app, map_fst_ren. auto.
    - simpl. auto.
    - intros k [H1 H2] t [H3 H4]. simpl. rewrite H1, H2, H3, H4, !map_app. auto.
    - simpl. auto.
    - intros r [H1 H2] t [H3 H4]. simpl. rewrite H1, H2, H3, H4, !map_app. auto.
  Qed.

  Lemma wfp_clone :
    (forall x, wfp_op x -> wfp_op (clone_op fv fb x))
    /\ (forall l, forall b, wfp_ops b l -> wfp_ops (fb b) (clone_ops fv fb l))
    /\ (forall k, wfp_block k -> wfp_block (clone_block fv fb k))
    /\ (forall r, wfp_blocks r -> wfp_blocks (clone_blocks fv fb r))
    /\ (forall g, wfp_regions g -> wfp_regions (clone_regions fv fb g)).
  Proof.
    apply ir_mutind.
    - intros n os rs a p ss g IH par H. simpl in *. auto.
    - simpl. auto.
    - intros o IHo t IHt b (Hp & Ho & Ht). simpl. repeat split; auto.
      destruct o. simpl in *. rewrite Hp. reflexivity.
    - intros b args body IH H. simpl in *. auto.
    - simpl. auto.
    - intros k IHk t IHt [H1 H2]. simpl. split; auto.
    - simpl. auto.
    - intros r IHr t IHt [H1 H2]. simpl. split; auto.
  Qed.

  Variable rt : bool.
  Variables Iva Ivb : list vid.
  Variables Iba Ibb : list bid.
  Hypothesis Hout_v : forall o, ~ In o Iva -> fv o = o.
  Hypothesis Hout_b : forall s, ~ In s Iba -> fb s = s.
  Notation Rv := (fun o o' => In o Iva /\ o' = fv o).
  Notation Rb := (fun s s' => In s Iba /\ s' = fb s).

  Lemma use_clone : forall (f : nat -> nat) (Ia Ib : list nat) o,
    (forall x, ~ In x Ia -> f x = x) -> (~ In o Ia -> ~ In o Ib) ->
    (In o Ia /\ f o = f o) \/ (~ In o Ia /\ ~ In (f o) Ib /\ o = f o).
  Proof.
    intros f Ia Ib o Hout Hfresh. destruct (in_dec Nat.eq_dec o Ia) as [Hi|Hn]; [left; auto|].
    right. rewrite (Hout o Hn). auto.
  Qed.

  Lemma Forall2_map_r : forall (A B : Type) (P : A -> B -> Prop) (f : A -> B) l,
    (forall x, In x l -> P x (f x)) -> Forall2 P l (map f l).
  Proof. induction l; simpl; intros H; constructor; auto. Qed.

  Lemma m_clone_all :
    (forall x, incl (defs_op x) Iva -> incl (blks_op x) Iba -> uses_op (Pext Iva Ivb) (Qext Iba Ibb) x ->
       m_op rt Rv Rb Iva Ivb Iba Ibb x (clone_op fv fb x))
    /\ (forall l, incl (defs_ops l) Iva -> incl (blks_ops l) Iba -> uses_ops (Pext Iva Ivb) (Qext Iba Ibb) l ->
       m_ops rt Rv Rb Iva Ivb Iba Ibb l (clone_ops fv fb l))
    /\ (forall k, incl (defs_block k) Iva -> incl (blks_block k) Iba -> uses_block (Pext Iva Ivb) (Qext Iba Ibb) k ->
       m_block rt Rv Rb Iva Ivb Iba Ibb k (clone_block fv fb k))
    /\ (forall r, incl (defs_blocks r) Iva -> incl (blks_blocks r) Iba -> uses_blocks (Pext Iva Ivb) (Qext Iba Ibb) r ->
       m_blocks rt Rv Rb Iva Ivb Iba Ibb r (clone_blocks fv fb r))
    /\ (forall g, incl (defs_regions g) Iva -> incl (blks_regions g) Iba -> uses_regions (Pext Iva Ivb) (Qext Iba Ibb) g ->
       m_regions rt Rv Rb Iva Ivb Iba Ibb g (clone_regions fv fb g)).
  Proof.
    apply ir_mutind.
    - intros n os rs a p ss g IHg par Hi1 Hi2 (Huo & Hus & Hug). simpl in Hi1, Hi2.
      apply incl_app_inv in Hi1. destruct Hi1 as [Hi1 Hi1'].
      simpl. split; [reflexivity|]. split; [reflexivity|]. split; [reflexivity|].
      split; [|split; [|split; [|apply IHg; assumption]]].
      + apply Forall2_map_r. intros o Ho. apply use_clone; [exact Hout_v|apply Huo; exact Ho].
      + unfold ren_res. apply Forall2_map_r. intros r Hr.
        split; [split; [apply Hi1'; apply in_map; exact Hr|reflexivity]|intros _; reflexivity].
      + apply Forall2_map_r. intros o Ho. apply use_clone; [exact Hout_b|apply Hus; exact Ho].
    - intros; simpl; auto.
    - intros o IHo t IHt Hi1 Hi2 [Hu1 Hu2]. simpl in Hi1, Hi2.
      apply incl_app_inv in Hi1. apply incl_app_inv in Hi2. destruct Hi1 as [A1 A2], Hi2 as [B1 B2].
      simpl. split; [apply IHo; assumption|apply IHt; assumption].
    - intros b args body IHb Hi1 Hi2 Hu. simpl in Hi1, Hi2, Hu.
      apply incl_app_inv in Hi1. destruct Hi1 as [Hi1 Hi1'].
      simpl. split; [|split].
      + split; [apply Hi2; simpl; auto|reflexivity].
      + unfold ren_res. apply Forall2_map_r. intros r Hr.
        split; [split; [apply Hi1; apply in_map; exact Hr|reflexivity]|reflexivity].
      + apply IHb; auto. intros z Hz. apply Hi2. simpl. auto.
    - intros; simpl; auto.
    - intros k IHk t IHt Hi1 Hi2 [Hu1 Hu2]. simpl in Hi1, Hi2.
      apply incl_app_inv in Hi1. apply incl_app_inv in Hi2. destruct Hi1 as [A1 A2], Hi2 as [B1 B2].
      simpl. split; [apply IHk; assumption|apply IHt; assumption].
    - intros; simpl; auto.
    - intros r IHr t IHt Hi1 Hi2 [Hu1 Hu2]. simpl in Hi1, Hi2.
      apply incl_app_inv in Hi1. apply incl_app_inv in Hi2. destruct Hi1 as [A1 A2], Hi2 as [B1 B2].
      simpl. split; [apply IHr; assumption|apply IHt; assumption].
  Qed.
End CloneProofs.

Lemma defs_detach : forall x, defs_op (detach x) = defs_op x /\ blks_op (detach x) = blks_op x.
Proof. intros []. auto. Qed.

Lemma m_op_detach : forall rt Rv Rb Iva Ivb Iba Ibb x y,
  m_op rt Rv Rb Iva Ivb Iba Ibb x y -> m_op rt Rv Rb Iva Ivb Iba Ibb x (detach y).
Proof. intros rt Rv Rb Iva Ivb Iba Ibb [] []. simpl. auto. Qed.

Lemma bij_map : forall (f : nat -> nat) (l : list nat),
  (forall x y, In x l -> In y l -> f x = f y -> x = y) ->
  bij (fun o o' => In o l /\ o' = f o) l (map f l).
Proof.
  intros f l Hinj. constructor.
  - intros x y [H ->]. split; [exact H|apply in_map; exact H].
  - intros x H. exists (f x). auto.
  - intros y H. apply in_map_iff in H. destruct H as (x & E & H). exists x. auto.
  - intros x y y' [_ ->] [_ ->]. reflexivity.
  - intros x x' y [H1 ->] [H2 E]. apply Hinj; auto.
Qed.

(* the conditions on the renaming: identity outside the cloned IR, injective inside *)
Definition renaming_ok (fv : vid -> vid) (fb : bid -> bid) (a : op) : Prop :=
  (forall o, ~ In o (defs_op a) -> fv o = o) /\ (forall s, ~ In s (blks_op a) -> fb s = s)
  /\ (forall x y, In x (defs_op a) -> In y (defs_op a) -> fv x = fv y -> x = y)
  /\ (forall x y, In x (blks_op a) -> In y (blks_op a) -> fb x = fb y -> x = y).

Lemma defs_clone_root : forall fv fb a,
  defs_op (clone_root fv fb a) = map fv (defs_op a) /\ blks_op (clone_root fv fb a) = map fb (blks_op a).
Proof.
  intros fv fb a. unfold clone_root. destruct (defs_detach (clone_op fv fb a)) as [E1 E2].
  rewrite E1, E2. apply (proj1 (defs_blks_clone fv fb)).
Qed.

(* freshness of the new ids is ext_ok_op a (clone): no outside use of a is one of the new ids *)
Theorem iso_clone : forall rt fv fb a,
  renaming_ok fv fb a -> ext_ok_op a (clone_root fv fb a) -> iso_op rt a (clone_root fv fb a).
Proof.
  intros rt fv fb a (Ho1 & Ho2 & Hi1 & Hi2) He.
  destruct (defs_clone_root fv fb a) as [E1 E2].
  exists (fun o o' => In o (defs_op a) /\ o' = fv o), (fun s s' => In s (blks_op a) /\ s' = fb s).
  rewrite E1, E2. split; [apply bij_map; exact Hi1|]. split; [apply bij_map; exact Hi2|].
  unfold clone_root. apply m_op_detach.
  apply (proj1 (m_clone_all fv fb rt _ _ _ _ Ho1 Ho2)); try apply incl_refl.
  unfold ext_ok_op in He. rewrite E1, E2 in He. exact He.
Qed.

Theorem clone_op_gen : forall cf fv fb a,
  wfp_op a -> dpu_top_op a -> renaming_ok fv fb a -> ext_ok_op a (clone_root fv fb a) ->
  se_op cf a (clone_root fv fb a) = true.
Proof.
  intros cf fv fb a W D R E.
  apply complete_op_gen with (rt := true); auto.
  - unfold clone_root. assert (X := proj1 (wfp_clone fv fb) a W). destruct (clone_op fv fb a). exact X.
  - intros _. right. unfold clone_root. destruct (clone_op fv fb a). reflexivity.
  - apply iso_clone; assumption.
Qed.

(* The theorems quoted by Props/C03.v, for an arbitrary configuration cf.  The repairs are numbered after
   the findings they answer (witnesses (1)-(4) below): repair 1 = result types are compared (cmp_rt),
   repair 3 = the parent is compared only when it is in the context (parent_strict = false). *)

(* -- valid for every configuration (the extra hypotheses make up for the missing repairs) -- *)
Theorem sound_partial : forall cf a b,
  wf_op a -> wf_op b -> dpu_top_op a -> ext_ok_op a b -> rt_eq_op a b ->
  se_op cf a b = true -> iso_op true a b.
Proof. intros cf a b (N1 & N2 & _) (N3 & N4 & _) D E R H. apply sound_op_gen with (cf := cf); auto. Qed.

Theorem sound_upto_rt : forall cf a b,          (* without rt_eq: isomorphic up to result types *)
  wf_op a -> wf_op b -> dpu_top_op a -> ext_ok_op a b -> se_op cf a b = true -> iso_op false a b.
Proof.
  intros cf a b (N1 & N2 & _) (N3 & N4 & _) D E H.
  apply sound_op_gen with (cf := cf); auto. intros X; discriminate.
Qed.

Theorem complete_partial : forall cf a b,
  wf_op a -> wf_op b -> dpu_top_op a -> detached a b -> iso_op true a b -> se_op cf a b = true.
Proof.
  intros cf a b (_ & _ & W1) (_ & _ & W2) D P I.
  apply complete_op_gen with (rt := true); auto. intros _. exact P.
Qed.

Theorem refl_partial : forall cf a, op_parent a = None -> wfp_op a -> se_op cf a a = true.
Proof. intros cf a P W. apply refl_op_gen. auto. Qed.
Theorem refl_block : forall cf a, wfp_block a -> se_block cf a a = true.
Proof. intros cf a W. apply refl_block_gen. auto. Qed.
Theorem refl_region : forall cf a, wfp_blocks a -> se_region cf a a = true.
Proof. intros cf a W. apply refl_region_gen. auto. Qed.

Theorem sym_partial : forall cf a b,
  wf_op a -> wf_op b -> dpu_top_op a -> dpu_top_op b -> ext_ok_op a b -> detached a b ->
  se_op cf a b = true -> se_op cf b a = true.
Proof.
  intros cf a b Wa Wb Da Db E P H. apply sym_op_gen; auto.
  intros _. destruct P; [right|left]; assumption.
Qed.

(* -- with repair 1 (result types compared) -- *)
Theorem sound_fix1 : forall cf a b, cmp_rt cf = true ->
  wf_op a -> wf_op b -> dpu_top_op a -> ext_ok_op a b -> se_op cf a b = true -> iso_op true a b.
Proof.
  intros cf a b F (N1 & N2 & _) (N3 & N4 & _) D E H.
  apply sound_op_gen with (cf := cf); auto. intros _ X. congruence.
Qed.
Theorem sound_block_fix1 : forall cf a b, cmp_rt cf = true ->
  wf_block a -> wf_block b -> dpu_top_block a -> ext_ok_block a b -> se_block cf a b = true -> iso_block true a b.
Proof.
  intros cf a b F (N1 & N2 & _) (N3 & N4 & _) D E H.
  apply sound_block_gen with (cf := cf); auto. intros _ X. congruence.
Qed.
Theorem sound_region_fix1 : forall cf a b, cmp_rt cf = true ->
  wf_region a -> wf_region b -> dpu_top_region a -> ext_ok_region a b -> se_region cf a b = true -> iso_region true a b.
Proof.
  intros cf a b F (N1 & N2 & _) (N3 & N4 & _) D E H.
  apply sound_region_gen with (cf := cf); auto. intros _ X. congruence.
Qed.

(* -- with repair 3 (parent compared only when it is in the context) -- *)
Theorem complete_fix3 : forall cf a b, parent_strict cf = false ->
  wf_op a -> wf_op b -> dpu_top_op a -> iso_op true a b -> se_op cf a b = true.
Proof.
  intros cf a b F (_ & _ & W1) (_ & _ & W2) D I.
  apply complete_op_gen with (rt := true); auto. intros X. congruence.
Qed.
Theorem refl_fix3 : forall cf a, parent_strict cf = false -> se_op cf a a = true.
Proof. intros cf a F. apply refl_op_gen. intros X. congruence. Qed.
Theorem refl_block_fix3 : forall cf a, parent_strict cf = false -> se_block cf a a = true.
Proof. intros cf a F. apply refl_block_gen. intros X. congruence. Qed.
Theorem refl_region_fix3 : forall cf a, parent_strict cf = false -> se_region cf a a = true.
Proof. intros cf a F. apply refl_region_gen. intros X. congruence. Qed.
Theorem sym_fix3 : forall cf a b, parent_strict cf = false ->
  wf_op a -> wf_op b -> dpu_top_op a -> dpu_top_op b -> ext_ok_op a b ->
  se_op cf a b = true -> se_op cf b a = true.
Proof. intros cf a b F Wa Wb Da Db E H. apply sym_op_gen; auto. intros X. congruence. Qed.

(* -- block / region roots (no root parent check is involved), every configuration -- *)
Theorem complete_block : forall cf a b,
  wf_block a -> wf_block b -> dpu_top_block a -> iso_block true a b -> se_block cf a b = true.
Proof. intros cf a b (_ & _ & W1) (_ & _ & W2) D I. apply complete_block_gen with (rt := true); auto. Qed.
Theorem complete_region : forall cf a b,
  wf_region a -> wf_region b -> dpu_top_region a -> iso_region true a b -> se_region cf a b = true.
Proof. intros cf a b (_ & _ & W1) (_ & _ & W2) D I. apply complete_region_gen with (rt := true); auto. Qed.
Theorem sound_block_partial : forall cf a b,
  wf_block a -> wf_block b -> dpu_top_block a -> ext_ok_block a b -> rt_eq_block a b ->
  se_block cf a b = true -> iso_block true a b.
Proof. intros cf a b (N1 & N2 & _) (N3 & N4 & _) D E R H. apply sound_block_gen with (cf := cf); auto. Qed.
Theorem sound_region_partial : forall cf a b,
  wf_region a -> wf_region b -> dpu_top_region a -> ext_ok_region a b -> rt_eq_blocks a b ->
  se_region cf a b = true -> iso_region true a b.
Proof. intros cf a b (N1 & N2 & _) (N3 & N4 & _) D E R H. apply sound_region_gen with (cf := cf); auto. Qed.

(* The side conditions of a concrete IR come down to finitely many facts "each of these ids that
   lies in l lies in l'"; they are decided by evaluation. *)
Lemma within_dec : forall us l l',
  forallb (fun o => if in_dec Nat.eq_dec o l then if in_dec Nat.eq_dec o l' then true else false else true) us = true ->
  forall o, In o us -> In o l -> In o l'.
Proof.
  intros us l l' H o Ho Hl. rewrite forallb_forall in H. specialize (H o Ho).
  destruct (in_dec Nat.eq_dec o l); [|contradiction]. destruct (in_dec Nat.eq_dec o l'); [assumption|discriminate].
Qed.

Lemma outside_dec : forall us l l',
  forallb (fun o => if in_dec Nat.eq_dec o l' then if in_dec Nat.eq_dec o l then true else false else true) us = true ->
  forall o, In o us -> ~ In o l -> ~ In o l'.
Proof. intros us l l' H o Ho Hn Hi. exact (Hn (within_dec _ _ _ H o Ho Hi)). Qed.

(* a renaming that moves the ids lo .. hi up by k: correct when these are exactly the inside ids *)
Definition shift (lo hi k o : nat) : nat := if (lo <=? o) && (o <=? hi) then o + k else o.

Lemma shift_ok : forall lo hi k l, (forall o, In o l <-> lo <= o <= hi) ->
  (forall o, ~ In o l -> shift lo hi k o = o)
  /\ (forall x y, In x l -> In y l -> shift lo hi k x = shift lo hi k y -> x = y).
Proof.
  intros lo hi k l H. unfold shift. split.
  - intros o Hn. destruct (Nat.leb_spec lo o); [|reflexivity]. destruct (Nat.leb_spec o hi); [|reflexivity].
    exfalso. apply Hn, H. lia.
  - intros x y Hx Hy. apply H in Hx, Hy.
    rewrite !(proj2 (Nat.leb_le _ _)) by lia. simpl. lia.
Qed.

Lemma shift_renaming_ok : forall a lv hv kv lb hb kb,
  (forall o, In o (defs_op a) <-> lv <= o <= hv) -> (forall s, In s (blks_op a) <-> lb <= s <= hb) ->
  renaming_ok (shift lv hv kv) (shift lb hb kb) a.
Proof.
  intros a lv hv kv lb hb kb Hv Hb.
  destruct (shift_ok _ _ kv _ Hv) as [V1 V2], (shift_ok _ _ kb _ Hb) as [B1 B2].
  repeat split; assumption.
Qed.

(* (1) result types differ: test.op() : i32  vs  test.op() : i64 *)
Definition w1_a : op := Op 0 [] [(1, 0)] 0 0 [] GNil None.
Definition w1_b : op := Op 0 [] [(2, 1)] 0 0 [] GNil None.

Lemma w1_facts : wf_op w1_a /\ wf_op w1_b /\ dpu_top_op w1_a /\ ext_ok_op w1_a w1_b /\ detached w1_a w1_b
  /\ se_op cfg_original w1_a w1_b = true /\ ~ iso_op true w1_a w1_b /\ se_op cfg_fixed w1_a w1_b = false.
Proof.
  assert (W : forall r, wf_op (Op 0 [] [r] 0 0 [] GNil None)).
  { intros r. split; [|split; [constructor|exact I]]. simpl. repeat constructor. intros []. }
  split; [apply W|]. split; [apply W|].
  split; [repeat split; intros ? []|]. split; [repeat split; intros ? []|].
  split; [left; reflexivity|]. split; [reflexivity|]. split; [|reflexivity].
  intros (Rv & Rb & _ & _ & Hm). simpl in Hm. destruct Hm as (_ & _ & _ & _ & Hr & _).
  inversion Hr as [|? ? ? ? [_ Ht] _]; subst. simpl in Ht. specialize (Ht eq_refl). discriminate.
Qed.

(* (2) use before def (graph region): module { "use"(%d) ; %d = "def"() } vs its clone *)
Definition w2_a : op :=
  Op 9 [] [] 0 0 []
     (GCons (BCons (Blk 1 [] (OCons (Op 0 [5] [] 0 0 [] GNil (Some 1))
                             (OCons (Op 1 [] [(5, 0)] 0 0 [] GNil (Some 1)) ONil))) BNil) GNil) None.
Definition w2_fv : vid -> vid := shift 5 5 10.
Definition w2_fb : bid -> bid := shift 1 1 10.

Lemma w2_renaming : renaming_ok w2_fv w2_fb w2_a.
Proof. apply shift_renaming_ok; simpl; lia. Qed.

Lemma w2_ext : ext_ok_op w2_a (clone_root w2_fv w2_fb w2_a).
Proof. cbv -[In not]. repeat split; apply outside_dec; reflexivity. Qed.

Lemma w2_wf : wf_op w2_a /\ wf_op (clone_root w2_fv w2_fb w2_a).
Proof. split; repeat split; simpl; repeat constructor; intros []. Qed.

Lemma w2_facts : forall cf,
  se_op cf w2_a w2_a = true /\ se_op cf w2_a (clone_root w2_fv w2_fb w2_a) = false
  /\ iso_op true w2_a (clone_root w2_fv w2_fb w2_a).
Proof.
  intros cf. split; [|split].
  - destruct cf as [[] []]; reflexivity.
  - destruct cf as [[] []]; reflexivity.
  - apply iso_clone; [apply w2_renaming|apply w2_ext].
Qed.

(* (3) an op attached to a block compared with itself *)
Definition w3_a : op := Op 0 [] [] 0 0 [] GNil (Some 7).
Lemma w3_facts : wfp_op w3_a /\ se_op cfg_original w3_a w3_a = false /\ se_op cfg_fixed w3_a w3_a = true.
Proof. split; [exact I|split; reflexivity]. Qed.

(* (4) two blocks of one region, the first dominating the second:
       ^b1: %5 = "def"() ; "use"(%5)         ^b2: %6 = "def"() ; "use"(%5)
   b2 ~ b1 is reported (the outside operand %5 of b2 is compared by identity with b1's own %5),
   b1 ~ b2 is not; they are not isomorphic *)
Definition w4_b1 : block :=
  Blk 1 [] (OCons (Op 1 [] [(5, 0)] 0 0 [] GNil (Some 1)) (OCons (Op 0 [5] [] 0 0 [] GNil (Some 1)) ONil)).
Definition w4_b2 : block :=
  Blk 2 [] (OCons (Op 1 [] [(6, 0)] 0 0 [] GNil (Some 2)) (OCons (Op 0 [5] [] 0 0 [] GNil (Some 2)) ONil)).

Lemma w4_facts : forall cf,
  wf_block w4_b1 /\ wf_block w4_b2 /\ dpu_top_block w4_b1 /\ dpu_top_block w4_b2
  /\ se_block cf w4_b2 w4_b1 = true /\ se_block cf w4_b1 w4_b2 = false /\ ~ iso_block true w4_b2 w4_b1.
Proof.
  intros cf.
  assert (W : forall b x u, wf_block (Blk b [] (OCons (Op 1 [] [(x, 0)] 0 0 [] GNil (Some b))
                                             (OCons (Op 0 [u] [] 0 0 [] GNil (Some b)) ONil)))).
  { intros b x u. repeat split; simpl; repeat constructor; intros []. }
  assert (D : forall b x u, dpu_top_block (Blk b [] (OCons (Op 1 [] [(x, 0)] 0 0 [] GNil (Some b))
                                                    (OCons (Op 0 [u] [] 0 0 [] GNil (Some b)) ONil)))).
  { intros b x u. repeat split; simpl; intros ? []; tauto. }
  split; [apply W|]. split; [apply W|]. split; [apply D|]. split; [apply D|].
  split; [destruct cf as [[] []]; reflexivity|]. split; [destruct cf as [[] []]; reflexivity|].
  intros (Rv & Rb & Bv & _ & Hm). simpl in Hm.
  destruct Hm as (_ & _ & (_ & _ & _ & _ & Hr & _) & (_ & _ & _ & Hu & _) & _).
  inversion Hr as [|? ? ? ? [Hr1 _] _]; subst. simpl in Hr1.
  inversion Hu as [|? ? ? ? Hc _]; subst. destruct Hc as [Hc|(_ & Hc & _)].
  - destruct (bij_dom _ _ _ Bv _ _ Hc) as [Hd _]. simpl in Hd. intuition discriminate.
  - apply Hc. simpl. auto.
Qed.

(* non-vacuity: a nested IR with block arguments, a successor, an outside operand (40) and backward
   references, all side conditions hold, equivalent to its clone and to itself, in both configurations *)
Definition nv_a : op :=
  Op 9 [40] [(1, 0)] 3 4 []
     (GCons (BCons (Blk 1 [(2, 0); (3, 1)]
                        (OCons (Op 0 [2; 40] [(4, 0)] 1 0 [] GNil (Some 1))
                        (OCons (Op 2 [4] [] 0 0 [2]
                                   (GCons (BCons (Blk 3 [] (OCons (Op 0 [4; 3] [(6, 1)] 0 0 [] GNil (Some 3)) ONil)) BNil) GNil)
                                   (Some 1)) ONil)))
            (BCons (Blk 2 [(5, 0)] (OCons (Op 2 [5; 4] [] 0 0 [1] GNil (Some 2)) ONil)) BNil)) GNil) None.
(* shift 1 6 20 and shift 1 3 20 *)
Definition nv_fv (o : vid) : vid := if (1 <=? o) && (o <=? 6) then o + 20 else o.
Definition nv_fb (s : bid) : bid := if (1 <=? s) && (s <=? 3) then s + 20 else s.

Lemma nv_wf : wf_op nv_a.
Proof.
  split; [|split]; simpl.
  - repeat constructor; simpl; lia.
  - repeat constructor; simpl; lia.
  - tauto.
Qed.

Lemma nv_dpu : dpu_top_op nv_a.
Proof. cbv -[In]. repeat split; apply within_dec; reflexivity. Qed.

Lemma nv_ren : renaming_ok nv_fv nv_fb nv_a.
Proof. apply (shift_renaming_ok nv_a 1 6 20 1 3 20); simpl; lia. Qed.

Lemma nv_ext : ext_ok_op nv_a (clone_root nv_fv nv_fb nv_a).
Proof. cbv -[In not]. repeat split; apply outside_dec; reflexivity. Qed.

Lemma nv_facts :
  wf_op nv_a /\ dpu_top_op nv_a /\ renaming_ok nv_fv nv_fb nv_a /\ ext_ok_op nv_a (clone_root nv_fv nv_fb nv_a)
  /\ se_op cfg_original nv_a (clone_root nv_fv nv_fb nv_a) = true
  /\ se_op cfg_fixed nv_a (clone_root nv_fv nv_fb nv_a) = true
  /\ se_op cfg_original (clone_root nv_fv nv_fb nv_a) nv_a = true
  /\ se_op cfg_original nv_a nv_a = true.
Proof.
  split; [exact nv_wf|]. split; [exact nv_dpu|]. split; [exact nv_ren|]. split; [exact nv_ext|].
  repeat split; vm_compute; reflexivity.
Qed.

(* refutations of the code as found (cfg_original), in the form Props/C03.v quotes *)

Lemma sound_refuted_lemma : exists a b,
  wf_op a /\ wf_op b /\ dpu_top_op a /\ ext_ok_op a b /\ detached a b
  /\ se_op cfg_original a b = true /\ ~ iso_op true a b.
Proof. exists w1_a, w1_b. pose proof w1_facts as H. tauto. Qed.

Lemma complete_refuted_lemma : exists a b,
  wf_op a /\ wf_op b /\ detached a b /\ iso_op true a b /\ se_op cfg_original a b = false.
Proof.
  exists w2_a, (clone_root w2_fv w2_fb w2_a).
  pose proof w2_wf as [H1 H2]. pose proof (w2_facts cfg_original) as (_ & H3 & H4).
  repeat split; try assumption; apply H1 || apply H2 || (left; reflexivity).
Qed.

Lemma refl_refuted_lemma : exists a, wfp_op a /\ se_op cfg_original a a = false.
Proof. exists w3_a. pose proof w3_facts as H. tauto. Qed.

Lemma sym_refuted_lemma : exists a b,
  wf_block a /\ wf_block b /\ dpu_top_block a /\ dpu_top_block b
  /\ se_block cfg_original a b = true /\ se_block cfg_original b a = false /\ ~ iso_block true a b.
Proof. exists w4_b2, w4_b1. pose proof (w4_facts cfg_original) as H. tauto. Qed.

Lemma clone_refuted_lemma : exists a fv fb,
  wf_op a /\ renaming_ok fv fb a /\ ext_ok_op a (clone_root fv fb a)
  /\ se_op cfg_original a a = true /\ se_op cfg_original a (clone_root fv fb a) = false.
Proof.
  exists w2_a, w2_fv, w2_fb. pose proof w2_wf as [H1 _]. pose proof (w2_facts cfg_original) as (H2 & H3 & _).
  pose proof w2_renaming. pose proof w2_ext. tauto.
Qed.

Lemma fixed_forward_ref_persists_lemma : exists a fv fb,
  wf_op a /\ renaming_ok fv fb a /\ ext_ok_op a (clone_root fv fb a)
  /\ iso_op true a (clone_root fv fb a) /\ se_op cfg_fixed a (clone_root fv fb a) = false.
Proof.
  exists w2_a, w2_fv, w2_fb. pose proof w2_wf as [H1 _]. pose proof (w2_facts cfg_fixed) as (_ & H3 & H4).
  pose proof w2_renaming. pose proof w2_ext. tauto.
Qed.

Lemma fixed_outside_operand_persists_lemma : exists a b,
  wf_block a /\ wf_block b /\ dpu_top_block a /\ dpu_top_block b
  /\ se_block cfg_fixed a b = true /\ se_block cfg_fixed b a = false /\ ~ iso_block true a b.
Proof. exists w4_b2, w4_b1. pose proof (w4_facts cfg_fixed) as H. tauto. Qed.
