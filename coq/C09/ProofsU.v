(* C09/ProofsU.v -- the concrete class table of the correspondence check (C09/Enc.v, checked against
   python introspection on every run) satisfies the hypotheses of the theorems; the witnesses, over that
   table, of the refuted statements and of the satisfiability of the partial ones. *)
From Coq Require Import List Arith ZArith Bool Lia.
From XV Require Import Base.Show C09.Model C09.Proofs C09.ProofsGet C09.Enc.
Import ListNotations.

Lemma U_final_leaf : final_leaf U.
Proof.
  intros k k' Hf Hs. unfold U in *; simpl in *. unfold u_sub in Hs.
  do 18 (destruct k' as [|k'];
         [ simpl in Hs;
           repeat (apply orb_true_iff in Hs as [Hs|Hs];
                   [apply Nat.eqb_eq in Hs; subst; try discriminate Hf; try reflexivity|]);
           discriminate Hs |]).
  simpl in Hs.
  repeat (apply orb_true_iff in Hs as [Hs|Hs];
          [apply Nat.eqb_eq in Hs; subst; try discriminate Hf; try reflexivity|]).
  discriminate Hs.
Qed.

Lemma U_refl : forall k, sub U k k = true.
Proof.
  intros k. unfold U; simpl. unfold u_sub.
  do 18 (destruct k as [|k]; [reflexivity|]).
  simpl. rewrite Nat.eqb_refl. reflexivity.
Qed.

Lemma U_root : forall k, sub U k 0 = true.
Proof.
  intros k. unfold U; simpl. unfold u_sub.
  do 18 (destruct k as [|k]; [reflexivity|]).
  reflexivity.
Qed.

Definition i8 : attr := Par 9 [Data 3 8; Data 5 0].

(* without well-namedness verify can accept outside the denotation: the second occurrence of T0
   is only compared with the binding, its own inner constraint EqAttr(IntAttr 1) is never checked *)
Lemma illnamed_witness : exists c a x',
  constructible U c = true /\ verify_opt U c a [] = Some x' /\ forall s, ~ sat U s c a.
Proof.
  exists (CAllOf [CVar 0 (CBase 3); CVar 0 (CEq (Data 3 1))]), (Data 3 2), [(0, Data 3 2)].
  split; [reflexivity|]. split; [vm_compute; reflexivity|].
  intros s [_ [[_ H] _]]. discriminate H.
Qed.

(* AllOf.infer returns the attribute of its first inferable conjunct without looking at the others *)
Lemma infer_refuted_witness : exists c x v,
  constructible U c = true /\ can_infer U c (cdom x) = true /\
  infer U c x = Ok v /\ verify_opt U c v x = None.
Proof.
  exists (CAllOf [CEq (Data 3 1); CEq (Data 3 2)]), [], (Data 3 1).
  repeat split; vm_compute; reflexivity.
Qed.

(* ParamAttrConstraint.infer builds IntegerAttr(300 : i8), which the class rejects: infer raises *)
Lemma infer_raises_witness : exists c x,
  constructible U c = true /\ can_infer U c (cdom x) = true /\ infer U c x = Err EVerify.
Proof.
  exists (CParam 10 [CEq (Data 3 300); CEq i8]), []. repeat split; vm_compute; reflexivity.
Qed.

(* the hypotheses of the partial infer theorem are satisfiable with a variable taken from the context *)
Lemma infer_partial_witness : exists c x a,
  constructible U c = true /\ can_infer U c (cdom x) = true /\ valid_attr U a /\
  sat U (env_of x) c a /\ infer U c x = Ok a.
Proof.
  exists (CParam 10 [CVar 0 (CBase 3); CEq i8]), [(0, Data 3 5)], (Par 10 [Data 3 5; i8]).
  split; [reflexivity|]. split; [reflexivity|]. split; [|split]; cbv; repeat split; reflexivity.
Qed.

(* the parameter definitions of the generic classes (IntegerAttr, Box, Pair) use no variables *)
Lemma U_generic_cdef_good : forall k, ntv U k <> 0 -> forallP (good U) (cdef U k).
Proof.
  intros k. unfold U; simpl.
  do 18 (destruct k as [|k];
         [ simpl; intros Hn; try (exfalso; apply Hn; reflexivity);
           repeat split; vm_compute; reflexivity |]).
  simpl. intros Hn. constructor.
Qed.
