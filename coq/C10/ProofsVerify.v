(* C10/ProofsVerify.v -- OpDef.verify as a whole: it accepts exactly when the four lists split
   into the declared segments and every piece / property / attribute satisfies its constraint
   under ONE assignment of the constraint variables; constructor output verifies. *)
From Coq Require Import ZArith List Bool Lia.
From XV Require Import C10.Model C10.Proofs C10.ProofsAcc.
Import ListNotations.
Local Open Scope Z_scope.

Lemma bind_ok : forall T U (r : res T) (f : T -> res U) y,
  bind r f = Ok y <-> exists x, r = Ok x /\ f x = Ok y.
Proof.
  intros. destruct r; cbn; split.
  - intros H; eauto.
  - intros (x & E & H). injection E as <-. auto.
  - discriminate.
  - intros (x & E & _). discriminate.
Qed.

Section Whole.
Variable A : Type.
Variable A_eqb : A -> A -> bool.
Hypothesis A_eqb_spec : forall a b, A_eqb a b = true <-> a = b.
Variable ver : version.     (* which of the two repairs the modelled code contains *)

Notation irdl_op_arg_definition := (Model.irdl_op_arg_definition ver).
Notation verify_variadic_size := (Model.verify_variadic_size ver).
Notation well_defined := (Proofs.well_defined ver).
Notation same_nonvacuous := (ProofsAcc.same_nonvacuous ver).
(* the value universe A holds attributes and ints: see Model.v *)
Variable of_int : Z -> A.
Variable as_int : A -> option Z.
Notation constr := (constr A).
Notation cctx := (cctx A).
Notation verify_attr := (verify_attr A A_eqb).
Notation verify_range := (Model.verify_range A A_eqb of_int).
Notation verify_arg_constr := (Model.verify_arg_constr A A_eqb of_int).
Notation verify_args_loop := (Model.verify_args_loop A A_eqb of_int).
Notation verify_entry_args := (Model.verify_entry_args A A_eqb of_int).
Notation verify_regions_loop := (Model.verify_regions_loop A A_eqb of_int).
Notation verify_nconstr := (Model.verify_nconstr A A_eqb of_int as_int).
Notation verify_named := (Model.verify_named A A_eqb of_int as_int).
Notation irdl_op_verify_arg_list := (Model.irdl_op_verify_arg_list A A_eqb ver of_int).
Notation opdef_verify := (Model.opdef_verify A A_eqb ver of_int as_int).

Definition assignment := nat -> option A.
Definition sat (sg : assignment) (c : constr) (a : A) : Prop :=
  cpred A c a = true /\ forall v, cvar A c = Some v -> sg v = Some a.
Definition all_sat (sg : assignment) (ps : list (constr * A)) : Prop :=
  Forall (fun p => sat sg (fst p) (snd p)) ps.

(* a range with an optional length constraint: the LENGTH (as an int value) must satisfy the
   length constraint -- this is where integer variables shared between segments are compared *)
Definition range_pairs (c : constr) (lc : option constr) (seg : list A) : list (constr * A) :=
  match lc with Some l => [(l, of_int (len seg))] | None => [] end ++ map (pair c) seg.
Definition piece_pairs (d : argdef A) (seg : list A) : list (constr * A) :=
  match akind A d with
  | Single => map (pair (aconstr A d)) seg
  | _ => range_pairs (aconstr A d) (alen A d) seg
  end.
Definition arg_pairs (defs : list (argdef A)) (segs : list (list A)) : list (constr * A) :=
  flat_map (fun p => piece_pairs (fst p) (snd p)) (combine defs segs).
(* a region contributes the argument types of its first block (nothing if it has no block) *)
Definition entry_pairs (c : constr) (lc : option constr) (r : region A) : list (constr * A) :=
  match r with [] => [] | b :: _ => range_pairs c lc b end.
Definition region_pairs (defs : list (regiondef A)) (segs : list (list (region A))) : list (constr * A) :=
  flat_map (fun p => flat_map (entry_pairs (rentry A (fst p)) (rlen A (fst p))) (snd p))
           (combine defs segs).
(* a property/attribute: the value itself, or the integer payload of an IntAttr *)
Definition nconstr_of (nc : nconstr A) : constr := match nc with NAttr _ c => c | NIntAttr _ ic => ic end.
Definition nvalue (nc : nconstr A) (a : A) : option A :=
  match nc with
  | NAttr _ _ => Some a
  | NIntAttr _ _ => match as_int a with Some k => Some (of_int k) | None => None end
  end.
Definition named_pairs (defs : list (bool * nconstr A)) (vals : list (option A)) : list (constr * A) :=
  flat_map (fun p => match snd p with
                     | Some a => match nvalue (snd (fst p)) a with
                                 | Some x => [(nconstr_of (snd (fst p)), x)]
                                 | None => []
                                 end
                     | None => []
                     end) (combine defs vals).
Definition single_ok (defs : list (regiondef A)) (segs : list (list (region A))) : Prop :=
  Forall (fun p => rsingle A (fst p) = true -> Forall (fun r => len r = 1) (snd p)) (combine defs segs).
(* absent only if optional; an IntAttr-constrained value is an IntAttr *)
Definition present_ok (defs : list (bool * nconstr A)) (vals : list (option A)) : Prop :=
  Forall (fun p => match snd p with
                   | None => fst (fst p) = true
                   | Some a => nvalue (snd (fst p)) a <> None
                   end) (combine defs vals).

Fixpoint verify_pairs (ps : list (constr * A)) (ctx : cctx) : res cctx :=
  match ps with
  | [] => Ok ctx
  | (c, a) :: r => do ctx' <- verify_attr c a ctx; verify_pairs r ctx'
  end.

Lemma verify_pairs_app : forall p q ctx,
  verify_pairs (p ++ q) ctx = (do ctx' <- verify_pairs p ctx; verify_pairs q ctx').
Proof.
  induction p as [|[c a] r IH]; intros q ctx; [reflexivity|]. cbn [app verify_pairs].
  destruct (verify_attr c a ctx); cbn [bind]; auto.
Qed.

Lemma range_of_pairs : forall c l ctx,
  verify_range_of A A_eqb c l ctx = verify_pairs (map (pair c) l) ctx.
Proof.
  induction l as [|a r IH]; intros ctx; [reflexivity|]. cbn [verify_range_of map verify_pairs].
  destruct (verify_attr c a ctx); cbn [bind]; auto.
Qed.

Lemma range_pairs_ok : forall c lc l ctx,
  verify_range c lc l ctx = verify_pairs (range_pairs c lc l) ctx.
Proof.
  intros c [l0|] l ctx; unfold Model.verify_range, range_pairs; cbn [app verify_pairs].
  - destruct (verify_attr l0 (of_int (len l)) ctx); cbn [bind]; auto using range_of_pairs.
  - apply range_of_pairs.
Qed.

Definition extends (ctx ctx' : cctx) : Prop :=
  forall v a, ctx_get A v ctx = Some a -> ctx_get A v ctx' = Some a.
Definition ctx_wf (base : nat -> A -> bool) (ctx : cctx) : Prop :=
  forall v a, ctx_get A v ctx = Some a -> base v a = true.
Definition consistent (base : nat -> A -> bool) (cs : list constr) : Prop :=
  forall c, In c cs -> forall v, cvar A c = Some v -> forall a, cpred A c a = base v a.

Lemma verify_pairs_sound : forall base ps ctx ctx',
  consistent base (map fst ps) -> ctx_wf base ctx ->
  verify_pairs ps ctx = Ok ctx' ->
  extends ctx ctx' /\ ctx_wf base ctx' /\ all_sat (fun v => ctx_get A v ctx') ps.
Proof.
  intros base. induction ps as [|[c a] r IH]; intros ctx ctx' Hc Hwf H.
  - cbn in H. injection H as <-. split; [intros v a0 E; exact E|]. split; [auto|constructor].
  - cbn [verify_pairs] in H. apply bind_ok in H. destruct H as (ctx1 & H1 & H2).
    assert (Hc' : consistent base (map fst r)).
    { intros c0 Hin. apply Hc. right. exact Hin. }
    assert (Hhead : forall v, cvar A c = Some v -> forall x, cpred A c x = base v x).
    { apply Hc. left. reflexivity. }
    assert (Hstep : extends ctx ctx1 /\ ctx_wf base ctx1 /\
                    cpred A c a = true /\ forall v, cvar A c = Some v -> ctx_get A v ctx1 = Some a).
    { unfold Model.verify_attr in H1. destruct (cvar A c) as [v|] eqn:Ev.
      - destruct (ctx_get A v ctx) as [b|] eqn:Eg.
        + destruct (A_eqb a b) eqn:Eab; [|discriminate]. injection H1 as <-.
          apply A_eqb_spec in Eab. subst b.
          split; [intros w x E; exact E|]. split; [auto|]. split.
          * rewrite (Hhead v eq_refl). eapply Hwf; eauto.
          * intros w Ew. injection Ew as <-. exact Eg.
        + destruct (cpred A c a) eqn:Ep; [|discriminate]. injection H1 as <-.
          split; [|split; [|split]].
          * intros w x E. cbn [ctx_get]. destruct (Nat.eqb_spec w v); [subst; congruence|exact E].
          * intros w x E. cbn [ctx_get] in E. destruct (Nat.eqb_spec w v).
            -- subst. injection E as <-. rewrite <- (Hhead v eq_refl). exact Ep.
            -- eapply Hwf; eauto.
          * reflexivity.
          * intros w Ew. injection Ew as <-. cbn [ctx_get]. rewrite Nat.eqb_refl. reflexivity.
      - destruct (cpred A c a) eqn:Ep; [|discriminate]. injection H1 as <-.
        split; [intros w x E; exact E|]. split; [auto|]. split; [reflexivity|discriminate]. }
    destruct Hstep as (Hext1 & Hwf1 & Hp & Hv).
    destruct (IH _ _ Hc' Hwf1 H2) as (Hext2 & Hwf2 & Hall).
    split; [intros v x E; apply Hext2, Hext1, E|]. split; [exact Hwf2|].
    constructor; [|exact Hall]. split; [exact Hp|]. intros v Ev. cbn [fst snd]. apply Hext2, Hv, Ev.
Qed.

Lemma verify_pairs_complete : forall (sg : assignment) ps ctx,
  (forall v a, ctx_get A v ctx = Some a -> sg v = Some a) ->
  all_sat sg ps -> exists ctx', verify_pairs ps ctx = Ok ctx'.
Proof.
  intros sg. induction ps as [|[c a] r IH]; intros ctx Hag Hall; [eexists; reflexivity|].
  inversion Hall as [|? ? [Hp Hv] Hr]; subst. cbn [fst snd] in *. cbn [verify_pairs].
  unfold Model.verify_attr. destruct (cvar A c) as [v|] eqn:Ev.
  - destruct (ctx_get A v ctx) as [b|] eqn:Eg.
    + assert (a = b) by (specialize (Hag _ _ Eg); specialize (Hv _ eq_refl); congruence). subst b.
      assert (E : A_eqb a a = true) by (apply A_eqb_spec; reflexivity). rewrite E. cbn [bind]. apply IH; auto.
    + rewrite Hp. cbn [bind]. apply IH; auto. intros w x E. cbn [ctx_get] in E.
      destruct (Nat.eqb_spec w v); [subst; injection E as <-; auto|auto].
  - rewrite Hp. cbn [bind]. apply IH; auto.
Qed.

(* threading the ConstraintContext through all checks = existence of ONE assignment *)
Theorem verify_pairs_iff : forall base ps,
  consistent base (map fst ps) ->
  ((exists ctx', verify_pairs ps [] = Ok ctx') <-> exists sg, all_sat sg ps).
Proof.
  intros base ps Hc. split.
  - intros [ctx' H]. eapply verify_pairs_sound in H; eauto.
    + destruct H as (_ & _ & H). eauto.
    + intros v a E. discriminate.
  - intros [sg H]. eapply verify_pairs_complete; eauto. intros v a E. discriminate.
Qed.

Lemma args_loop_pairs : forall accs defs attr args segs ctx,
  run accs attr args = expected (map (akind A) defs) segs ->
  Forall2 (fun d seg => size_ok (akind A d) (len seg)) defs segs ->
  verify_args_loop accs defs attr args ctx = verify_pairs (arg_pairs defs segs) ctx.
Proof.
  intros accs defs attr args segs ctx Hrun H. revert accs ctx Hrun.
  induction H as [|d seg defs segs Hd Hr IH]; intros accs ctx Hrun.
  - destruct accs; reflexivity.
  - destruct accs as [|acc accs]; [discriminate|].
    cbn [map] in Hrun. rewrite run_cons, expected_cons in Hrun. injection Hrun as Hacc Hrun.
    cbn [Model.verify_args_loop]. rewrite Hacc. cbn [bind]. rewrite accres_list_shape.
    unfold arg_pairs. cbn [combine flat_map fst snd]. rewrite verify_pairs_app.
    fold (arg_pairs defs segs).
    assert (E : verify_arg_constr d seg ctx = verify_pairs (piece_pairs d seg) ctx).
    { unfold Model.verify_arg_constr, piece_pairs.
      destruct (akind A d) eqn:Ek; try apply range_pairs_ok.
      cbn [size_ok] in Hd. destruct seg as [|x0 [|y0 r0]].
      - exfalso. rewrite len_nil in Hd. lia.
      - cbn. destruct (verify_attr (aconstr A d) x0 ctx); reflexivity.
      - exfalso. rewrite !len_cons in Hd. pose proof (len_nonneg _ r0). lia. }
    rewrite E. destruct (verify_pairs (piece_pairs d seg) ctx); cbn [bind]; auto.
Qed.

Lemma entry_args_pairs : forall c lc rs ctx,
  verify_entry_args c lc rs ctx = verify_pairs (flat_map (entry_pairs c lc) rs) ctx.
Proof.
  induction rs as [|r rs IH]; intros ctx; [reflexivity|]. cbn [Model.verify_entry_args flat_map].
  destruct r as [|b bs]; cbn [entry_pairs app]; [apply IH|].
  rewrite verify_pairs_app, range_pairs_ok.
  destruct (verify_pairs (range_pairs c lc b) ctx); cbn [bind]; auto.
Qed.

Lemma forallb_len1 : forall (rs : list (region A)),
  forallb (fun rg => len rg =? 1) rs = true <-> Forall (fun r => len r = 1) rs.
Proof.
  intros. rewrite forallb_forall, Forall_forall. split; intros H r Hr; specialize (H r Hr);
    [apply Z.eqb_eq|apply Z.eqb_eq]; auto.
Qed.

Lemma regions_loop_pairs : forall accs defs attr regions segs ctx ctx',
  run accs attr regions = expected (map (rkind A) defs) segs ->
  length defs = length segs ->
  (verify_regions_loop accs defs attr regions ctx = Ok ctx' <->
   single_ok defs segs /\ verify_pairs (region_pairs defs segs) ctx = Ok ctx').
Proof.
  intros accs defs attr regions segs. revert accs segs.
  induction defs as [|d defs IH]; intros accs segs ctx ctx' Hrun Hl.
  - destruct segs; [|discriminate]. destruct accs; cbn; (split; [intros H; split; [constructor|exact H]|tauto]).
  - destruct segs as [|seg segs]; [discriminate|]. injection Hl as Hl.
    destruct accs as [|acc accs]; [discriminate|].
    cbn [map] in Hrun. rewrite run_cons, expected_cons in Hrun. injection Hrun as Hacc Hrun.
    cbn [Model.verify_regions_loop]. rewrite Hacc. cbn [bind]. rewrite accres_list_shape.
    unfold single_ok, region_pairs. cbn [combine flat_map fst snd]. rewrite verify_pairs_app.
    fold (region_pairs defs segs). rewrite Forall_cons_iff. cbn [fst snd]. fold (single_ok defs segs).
    rewrite entry_args_pairs.
    destruct (rsingle A d) eqn:Es; cbn [andb].
    + destruct (forallb (fun rg => len rg =? 1) seg) eqn:Ef; cbn [negb].
      * apply forallb_len1 in Ef. rewrite bind_ok. split.
        -- intros (c1 & H1 & H2). apply (IH accs segs c1 ctx' Hrun Hl) in H2. destruct H2 as [S P].
           split; [split; auto|]. rewrite H1. cbn [bind]. exact P.
        -- intros ((_ & S) & P). apply bind_ok in P. destruct P as (c1 & H1 & H2).
           exists c1. split; auto. apply (IH accs segs c1 ctx' Hrun Hl); auto.
      * split; [discriminate|]. intros ((S1 & _) & _). specialize (S1 eq_refl).
        apply forallb_len1 in S1. congruence.
    + rewrite bind_ok. split.
      * intros (c1 & H1 & H2). apply (IH accs segs c1 ctx' Hrun Hl) in H2. destruct H2 as [S P].
        split; [split; [discriminate|auto]|]. rewrite H1. cbn [bind]. exact P.
      * intros ((_ & S) & P). apply bind_ok in P. destruct P as (c1 & H1 & H2).
        exists c1. split; auto. apply (IH accs segs c1 ctx' Hrun Hl); auto.
Qed.

Lemma named_pairs_iff : forall defs vals ctx ctx',
  verify_named defs vals ctx = Ok ctx' <->
  present_ok defs vals /\ verify_pairs (named_pairs defs vals) ctx = Ok ctx'.
Proof.
  induction defs as [|[opt c] defs IH]; intros vals ctx ctx'.
  - cbn. split; [intros H; split; [constructor|exact H]|tauto].
  - destruct vals as [|v vals].
    + cbn. split; [intros H; split; [constructor|exact H]|tauto].
    + cbn [Model.verify_named]. unfold present_ok, named_pairs. cbn [combine flat_map fst snd].
      fold (named_pairs defs vals). rewrite Forall_cons_iff. cbn [fst snd]. fold (present_ok defs vals).
      destruct v as [a|].
      * assert (Hn : verify_nconstr c a ctx
                     = match nvalue c a with
                       | Some x => verify_attr (nconstr_of c) x ctx
                       | None => Raise VerifyException
                       end).
        { unfold Model.verify_nconstr, nvalue, nconstr_of. destruct c; [reflexivity|].
          destruct (as_int a); reflexivity. }
        rewrite Hn. destruct (nvalue c a) as [x|] eqn:En.
        -- cbn [app verify_pairs]. rewrite !bind_ok. split.
           ++ intros (c1 & H1 & H2). apply IH in H2. destruct H2 as [S P].
              split; [split; [discriminate|auto]|]. eauto.
           ++ intros ((_ & S) & (c1 & H1 & H2)). exists c1. split; auto. apply IH; auto.
        -- cbn [bind]. split; [discriminate|]. intros ((S & _) & _). congruence.
      * cbn [app]. destruct opt.
        -- rewrite IH. intuition.
        -- split; [discriminate|]. intros ((S & _) & _). discriminate S.
Qed.

(* the sizes split `args` as declared; for attr-sized they are the recorded ones *)
Definition seg_for {T} (opt : sizeopt) (kinds : list kind) (args : list T) (attr : seg_attr)
  (sizes : list Z) : Prop :=
  segmentation opt kinds (len args) sizes /\ (opt = AttrSized -> attr = Dense true sizes).

(* the two preconditions under which the unrepaired code is right (see the refutations in
   Props/C10.v); each becomes vacuous once the corresponding repair is in the code
   (same_nonvacuous is defined in ProofsAcc.v) *)
Definition attr_disciplined (opt : sizeopt) (attr : seg_attr) (n : Z) : Prop :=
  opt = AttrSized -> fix_attr_sum ver = false ->
  forall vs, attr = Dense true vs -> Forall (fun s => 0 <= s) vs /\ zsum vs = n.

Lemma verify_size_seg_for : forall T opt kinds (args : list T) attr,
  well_defined opt kinds -> attr_disciplined opt attr (len args) ->
  (verify_variadic_size opt kinds (len args) attr = Ok tt <-> exists sizes, seg_for opt kinds args attr sizes).
Proof.
  intros T opt kinds args attr Hwd Hd. unfold seg_for. destruct opt.
  1-2: rewrite verify_sizes_iff by (auto; discriminate); split; intros (s & H); exists s;
    [split; [exact H | discriminate] | exact (proj1 H)].
  - split.
    + intros H. destruct (fix_attr_sum ver) eqn:Ef.
      * apply attr_size_sound_repaired in H; auto. destruct H as (sizes & -> & Hseg).
        exists sizes. split; auto.
      * pose proof H as H'. cbn [Model.verify_variadic_size] in H'. rewrite Ef in H'.
        apply attr_size_iff_weak in H'. destruct H' as (sizes & -> & Hw).
        destruct (Hd eq_refl Ef _ eq_refl) as [Hn Hs]. exists sizes. split; auto.
        apply (attr_size_sound_partial ver); auto.
    + intros (sizes & Hseg & Ha). rewrite (Ha eq_refl). apply (attr_size_complete ver _ _ _ Hseg).
Qed.

Lemma seg_for_segs : forall T opt kinds (args : list T) attr sizes,
  seg_for opt kinds args attr sizes ->
  Forall2 (fun k seg => size_ok k (len seg)) kinds (split_sizes sizes args).
Proof.
  intros T opt kinds args attr sizes ((Hok & Hsum & _) & _).
  pose proof (split_lengths _ _ args (sizes_nonneg _ _ Hok) Hsum) as Hl.
  revert Hl. generalize (split_sizes sizes args). clear Hsum. induction Hok as [|k s ks ss Hk _ IH]; intros segs Hl.
  - destruct segs; [constructor|discriminate].
  - destruct segs as [|seg segs]; [discriminate|]. cbn [map] in Hl. injection Hl as <- Hl. constructor; auto.
Qed.

Lemma F2_map_l : forall X Y Z (f : X -> Y) (P : Y -> Z -> Prop) l1 l2,
  Forall2 P (map f l1) l2 -> Forall2 (fun x z => P (f x) z) l1 l2.
Proof.
  intros X Y Z0 f P l1. induction l1 as [|x r IH]; intros l2 H; inversion H; subst; constructor; auto.
Qed.

Lemma sized_loop_iff : forall T opt kinds accs (args : list T) attr (loop : res cctx) ctx' (Q : list Z -> Prop),
  irdl_op_arg_definition opt kinds = Ok accs ->
  attr_disciplined opt attr (len args) -> same_nonvacuous opt kinds ->
  (forall sizes, seg_for opt kinds args attr sizes ->
     run accs attr args = expected kinds (split_sizes sizes args) -> (loop = Ok ctx' <-> Q sizes)) ->
  ((do _ <- verify_variadic_size opt kinds (len args) attr; loop) = Ok ctx' <->
   exists sizes, seg_for opt kinds args attr sizes /\ Q sizes).
Proof.
  intros T opt kinds accs args attr loop ctx' Q Hacc Hd Hnv Hloop.
  assert (Hwd : well_defined opt kinds) by (eexists; eauto).
  assert (Hrun : forall sizes, seg_for opt kinds args attr sizes ->
            run accs attr args = expected kinds (split_sizes sizes args)).
  { intros sizes [Hseg Ha]. eapply accessors_spec; eauto; intros E; rewrite (Ha E); eauto. }
  rewrite bind_ok. split.
  - intros ([] & Hv & Hl). apply verify_size_seg_for in Hv; auto. destruct Hv as [sizes Hs].
    exists sizes. split; [exact Hs|]. apply (Hloop _ Hs (Hrun _ Hs)), Hl.
  - intros (sizes & Hs & Hq). exists tt. split.
    + apply verify_size_seg_for; eauto.
    + apply (Hloop _ Hs (Hrun _ Hs)), Hq.
Qed.

Lemma arg_list_iff : forall opt accs defs attr args ctx ctx',
  irdl_op_arg_definition opt (map (akind A) defs) = Ok accs ->
  attr_disciplined opt attr (len args) -> same_nonvacuous opt (map (akind A) defs) ->
  (irdl_op_verify_arg_list opt accs defs attr args ctx = Ok ctx' <->
   exists sizes, seg_for opt (map (akind A) defs) args attr sizes /\
                 verify_pairs (arg_pairs defs (split_sizes sizes args)) ctx = Ok ctx').
Proof.
  intros opt accs defs attr args ctx ctx' Hacc Hd Hnv. unfold Model.irdl_op_verify_arg_list.
  apply (sized_loop_iff _ _ _ _ _ _ _ _ _ Hacc Hd Hnv). intros sizes Hs Hrun.
  rewrite (args_loop_pairs _ _ _ _ _ ctx Hrun); [reflexivity|].
  apply (F2_map_l _ _ _ (akind A) (fun k (seg : list A) => size_ok k (len seg))).
  eapply seg_for_segs; eauto.
Qed.

Lemma regions_iff : forall opt accs defs attr (regions : list (region A)) ctx ctx',
  irdl_op_arg_definition opt (map (rkind A) defs) = Ok accs ->
  attr_disciplined opt attr (len regions) -> same_nonvacuous opt (map (rkind A) defs) ->
  ((do _ <- verify_variadic_size opt (map (rkind A) defs) (len regions) attr;
    verify_regions_loop accs defs attr regions ctx) = Ok ctx' <->
   exists sizes, seg_for opt (map (rkind A) defs) regions attr sizes /\
                 single_ok defs (split_sizes sizes regions) /\
                 verify_pairs (region_pairs defs (split_sizes sizes regions)) ctx = Ok ctx').
Proof.
  intros opt accs defs attr regions ctx ctx' Hacc Hd Hnv.
  apply (sized_loop_iff _ _ _ _ _ _ _ _
           (fun sizes => single_ok defs (split_sizes sizes regions) /\
                         verify_pairs (region_pairs defs (split_sizes sizes regions)) ctx = Ok ctx')
           Hacc Hd Hnv).
  intros sizes Hs Hrun. apply regions_loop_pairs; [exact Hrun|].
  pose proof (seg_for_segs _ _ _ _ _ _ Hs) as H. apply F2_length in H. rewrite map_length in H. exact H.
Qed.

Notation opdef := (opdef A).
Notation opinst := (opinst A).

Definition opt_list {T} (o : option T) : list T := match o with Some x => [x] | None => [] end.
Definition arg_constrs (d : argdef A) : list constr := aconstr A d :: opt_list (alen A d).
Definition reg_constrs (d : regiondef A) : list constr := rentry A d :: opt_list (rlen A d).
Definition named_constr (p : bool * nconstr A) : constr := nconstr_of (snd p).
Definition all_constrs (d : opdef) : list constr :=
  flat_map arg_constrs (d_operands A d) ++ flat_map arg_constrs (d_results A d)
  ++ flat_map reg_constrs (d_regions A d)
  ++ map named_constr (d_props A d) ++ map named_constr (d_attrs A d).

Definition op_pairs (d : opdef) (o : opinst) (s1 s2 s3 : list Z) : list (constr * A) :=
  arg_pairs (d_operands A d) (split_sizes s1 (o_operands A o))
  ++ arg_pairs (d_results A d) (split_sizes s2 (o_results A o))
  ++ region_pairs (d_regions A d) (split_sizes s3 (o_regions A o))
  ++ named_pairs (d_props A d) (o_props A o)
  ++ named_pairs (d_attrs A d) (o_attrs A o).

(* the property's statement for one operation *)
Definition op_valid (d : opdef) (o : opinst) : Prop :=
  exists s1 s2 s3 s4,
    seg_for (d_opopt A d) (map (akind A) (d_operands A d)) (o_operands A o) (o_opseg A o) s1 /\
    seg_for (d_resopt A d) (map (akind A) (d_results A d)) (o_results A o) (o_resseg A o) s2 /\
    seg_for (d_regopt A d) (map (rkind A) (d_regions A d)) (o_regions A o) (o_regseg A o) s3 /\
    seg_for (d_sucopt A d) (d_succs A d) (o_succs A o) (o_sucseg A o) s4 /\
    single_ok (d_regions A d) (split_sizes s3 (o_regions A o)) /\
    present_ok (d_props A d) (o_props A o) /\ o_extra_prop A o = false /\
    present_ok (d_attrs A d) (o_attrs A o) /\
    exists sg, all_sat sg (op_pairs d o s1 s2 s3).

(* preconditions: the two known defects excluded, variables used with one base constraint *)
Definition op_disciplined (d : opdef) (o : opinst) : Prop :=
  attr_disciplined (d_opopt A d) (o_opseg A o) (len (o_operands A o)) /\
  attr_disciplined (d_resopt A d) (o_resseg A o) (len (o_results A o)) /\
  attr_disciplined (d_regopt A d) (o_regseg A o) (len (o_regions A o)) /\
  attr_disciplined (d_sucopt A d) (o_sucseg A o) (len (o_succs A o)).
(* the successor list is not among them: OpDef.verify only counts the successors, it reads none through an accessor *)
Definition def_nonvacuous (d : opdef) : Prop :=
  same_nonvacuous (d_opopt A d) (map (akind A) (d_operands A d)) /\
  same_nonvacuous (d_resopt A d) (map (akind A) (d_results A d)) /\
  same_nonvacuous (d_regopt A d) (map (rkind A) (d_regions A d)).
Definition def_consistent (d : opdef) : Prop := exists base, consistent base (all_constrs d).

Lemma in_range_pairs : forall c lc seg p, In p (range_pairs c lc seg) -> In (fst p) (c :: opt_list lc).
Proof.
  intros c lc seg p H. unfold range_pairs in H. apply in_app_iff in H. destruct H as [H|H].
  - destruct lc as [l|]; [|destruct H]. destruct H as [<-|[]]. right. left. reflexivity.
  - apply in_map_iff in H. destruct H as (a & <- & _). left. reflexivity.
Qed.
Lemma in_arg_pairs : forall defs segs p,
  In p (arg_pairs defs segs) -> In (fst p) (flat_map arg_constrs defs).
Proof.
  intros defs segs p H. unfold arg_pairs in H. apply in_flat_map in H. destruct H as ([d seg] & Hin & Hp).
  cbn [fst snd] in Hp. apply in_flat_map. exists d. split; [eapply in_combine_l; eauto|].
  unfold piece_pairs in Hp. unfold arg_constrs.
  destruct (akind A d); [|eapply in_range_pairs; exact Hp|eapply in_range_pairs; exact Hp].
  apply in_map_iff in Hp. destruct Hp as (a & <- & _). left. reflexivity.
Qed.
Lemma in_region_pairs : forall defs segs p,
  In p (region_pairs defs segs) -> In (fst p) (flat_map reg_constrs defs).
Proof.
  intros defs segs p H. unfold region_pairs in H. apply in_flat_map in H. destruct H as ([d seg] & Hin & Hp).
  cbn [fst snd] in Hp. apply in_flat_map in Hp. destruct Hp as (r & _ & Hp).
  apply in_flat_map. exists d. split; [eapply in_combine_l; eauto|].
  unfold entry_pairs in Hp. destruct r; [destruct Hp|]. eapply in_range_pairs; eauto.
Qed.
Lemma in_named_pairs : forall defs vals p,
  In p (named_pairs defs vals) -> In (fst p) (map named_constr defs).
Proof.
  intros defs vals p H. unfold named_pairs in H. apply in_flat_map in H. destruct H as ([[b c] v] & Hin & Hp).
  cbn [fst snd] in Hp. destruct v as [a|]; [|destruct Hp]. destruct (nvalue c a); [|destruct Hp].
  destruct Hp as [<-|[]]. cbn [fst].
  apply in_combine_l in Hin. change (nconstr_of c) with (named_constr (b, c)). apply in_map. exact Hin.
Qed.

Lemma op_pairs_consistent : forall base d o s1 s2 s3,
  consistent base (all_constrs d) -> consistent base (map fst (op_pairs d o s1 s2 s3)).
Proof.
  intros base d o s1 s2 s3 H c Hin. apply H. revert c Hin. unfold op_pairs, all_constrs. rewrite !map_app.
  assert (L : forall (ps : list (constr * A)) cs, (forall p, In p ps -> In (fst p) cs) -> incl (map fst ps) cs).
  { intros ps cs Hp c Hc. apply in_map_iff in Hc. destruct Hc as (p & <- & Hc). apply Hp, Hc. }
  repeat apply incl_app_app; apply L.
  - apply in_arg_pairs.
  - apply in_arg_pairs.
  - apply in_region_pairs.
  - apply in_named_pairs.
  - apply in_named_pairs.
Qed.

Lemma get_accessors_ok : forall d x, get_accessors A ver d = Ok x ->
  irdl_op_arg_definition (d_opopt A d) (map (akind A) (d_operands A d)) = Ok (x_operands x) /\
  irdl_op_arg_definition (d_resopt A d) (map (akind A) (d_results A d)) = Ok (x_results x) /\
  irdl_op_arg_definition (d_regopt A d) (map (rkind A) (d_regions A d)) = Ok (x_regions x) /\
  irdl_op_arg_definition (d_sucopt A d) (d_succs A d) = Ok (x_succs x).
Proof.
  intros d x H. unfold get_accessors in H.
  apply bind_ok in H. destruct H as (a & Ha & H). apply bind_ok in H. destruct H as (b & Hb & H).
  apply bind_ok in H. destruct H as (c & Hc & H). apply bind_ok in H. destruct H as (e & He & H).
  injection H as <-. cbn. auto.
Qed.

Theorem opdef_verify_iff : forall d x o,
  get_accessors A ver d = Ok x -> op_disciplined d o -> def_nonvacuous d -> def_consistent d ->
  (opdef_verify d x o = Ok tt <-> op_valid d o).
Proof.
  intros d x o Hx (D1 & D2 & D3 & D4) (N1 & N2 & N3) [base Hc].
  destruct (get_accessors_ok _ _ Hx) as (X1 & X2 & X3 & X4).
  assert (W4 : well_defined (d_sucopt A d) (d_succs A d)) by (eexists; eauto).
  assert (Hthread : forall s1 s2 s3, (exists ctx', verify_pairs (op_pairs d o s1 s2 s3) [] = Ok ctx') <->
                                     exists sg, all_sat sg (op_pairs d o s1 s2 s3))
    by (intros; apply (verify_pairs_iff base), op_pairs_consistent, Hc).
  unfold Model.opdef_verify, op_valid. split.
  - intros H.
    apply bind_ok in H. destruct H as (c1 & H1 & H).
    apply bind_ok in H. destruct H as (c2 & H2 & H).
    apply bind_ok in H. destruct H as ([] & H3 & H).
    apply bind_ok in H. destruct H as (c3 & H3' & H).
    apply bind_ok in H. destruct H as ([] & H4 & H).
    apply bind_ok in H. destruct H as (c4 & H5 & H).
    destruct (o_extra_prop A o) eqn:Ex; [discriminate|].
    apply bind_ok in H. destruct H as (c5 & H6 & _).
    apply (arg_list_iff _ _ _ _ _ _ _ X1 D1 N1) in H1. destruct H1 as (s1 & S1 & P1).
    apply (arg_list_iff _ _ _ _ _ _ _ X2 D2 N2) in H2. destruct H2 as (s2 & S2 & P2).
    assert (H3'' : (do _ <- verify_variadic_size (d_regopt A d) (map (rkind A) (d_regions A d))
                              (len (o_regions A o)) (o_regseg A o);
                    verify_regions_loop (x_regions x) (d_regions A d) (o_regseg A o)
                              (o_regions A o) c2) = Ok c3).
    { rewrite H3. exact H3'. }
    apply (regions_iff _ _ _ _ _ _ _ X3 D3 N3) in H3''. destruct H3'' as (s3 & S3 & G3 & P3).
    apply verify_size_seg_for in H4; auto. destruct H4 as (s4 & S4).
    apply named_pairs_iff in H5. destruct H5 as (G5 & P5).
    apply named_pairs_iff in H6. destruct H6 as (G6 & P6).
    exists s1, s2, s3, s4. repeat (split; [assumption|]). split; [reflexivity|]. split; [assumption|].
    apply Hthread. exists c5. unfold op_pairs. rewrite verify_pairs_app, P1. cbn [bind]. rewrite verify_pairs_app, P2. cbn [bind].
    rewrite verify_pairs_app, P3. cbn [bind]. rewrite verify_pairs_app, P5. cbn [bind]. exact P6.
  - intros (s1 & s2 & s3 & s4 & S1 & S2 & S3 & S4 & G3 & G5 & Ex & G6 & P).
    apply Hthread in P. destruct P as [c5 P]. unfold op_pairs in P.
    rewrite verify_pairs_app in P. apply bind_ok in P. destruct P as (c1 & P1 & P).
    rewrite verify_pairs_app in P. apply bind_ok in P. destruct P as (c2 & P2 & P).
    rewrite verify_pairs_app in P. apply bind_ok in P. destruct P as (c3 & P3 & P).
    rewrite verify_pairs_app in P. apply bind_ok in P. destruct P as (c4 & P5 & P6).
    apply bind_ok. exists c1. split; [apply (arg_list_iff _ _ _ _ _ _ _ X1 D1 N1); exists s1; split; assumption|].
    apply bind_ok. exists c2. split; [apply (arg_list_iff _ _ _ _ _ _ _ X2 D2 N2); exists s2; split; assumption|].
    assert (H3 : (do _ <- verify_variadic_size (d_regopt A d) (map (rkind A) (d_regions A d))
                              (len (o_regions A o)) (o_regseg A o);
                    verify_regions_loop (x_regions x) (d_regions A d) (o_regseg A o)
                              (o_regions A o) c2) = Ok c3).
    { apply (regions_iff _ _ _ _ _ _ _ X3 D3 N3). exists s3. split; [exact S3 | split; [exact G3 | exact P3]]. }
    apply bind_ok in H3. destruct H3 as ([] & H3 & H3').
    apply bind_ok. exists tt. split; [exact H3|].
    apply bind_ok. exists c3. split; [exact H3'|].
    apply bind_ok. exists tt. split; [apply verify_size_seg_for; [exact W4 | exact D4 | exists s4; exact S4]|].
    apply bind_ok. exists c4. split; [apply named_pairs_iff; auto|].
    rewrite Ex. apply bind_ok. exists c5. split; [apply named_pairs_iff; auto|reflexivity].
Qed.

Lemma norm_none_to_empty : forall T (l : list (barg T)), map norm (map none_to_empty l) = map norm l.
Proof. intros. rewrite map_map. apply map_ext. intros []; reflexivity. Qed.

Definition built_pairs (d : opdef) (b : buildargs A) : list (constr * A) :=
  arg_pairs (d_operands A d) (map norm (b_operands A b))
  ++ arg_pairs (d_results A d) (map norm (b_results A b))
  ++ region_pairs (d_regions A d) (map norm (b_regions A b))
  ++ named_pairs (d_props A d) (b_props A b)
  ++ named_pairs (d_attrs A d) (b_attrs A b).

Lemma seg_for_unique : forall T opt kinds (args : list T) attr s s',
  well_defined opt kinds -> seg_for opt kinds args attr s -> seg_for opt kinds args attr s' -> s = s'.
Proof.
  intros T opt kinds args attr s s' Hwd [H1 A1] [H2 A2]. destruct opt.
  - eapply segmentation_unique; eauto. discriminate.
  - eapply segmentation_unique; eauto. discriminate.
  - specialize (A1 eq_refl). specialize (A2 eq_refl). congruence.
Qed.

Lemma built_construct : forall T opt kinds (args : list (barg T)) f z given a accs,
  irdl_build_arg_list kinds args = Ok (f, z) -> init_option opt kinds z given = Ok a ->
  irdl_op_arg_definition opt kinds = Ok accs -> same_nonvacuous opt kinds ->
  run accs a f = expected kinds (map norm args) /\ seg_for opt kinds f a z /\
  attr_disciplined opt a (len f) /\ split_sizes z f = map norm args.
Proof.
  intros T opt kinds args f z given a accs B I X N.
  destruct (built_construct_verifies _ _ _ _ _ _ _ _ _ _ B I X N) as (S & Ha & _ & R).
  destruct (build_arg_list_spec _ _ _ _ _ B) as (_ & _ & _ & E).
  split; [exact R|]. split; [split; assumption|]. split; [|exact E].
  destruct S as (K & L & _). intros Eo _ vs Ev. rewrite (Ha Eo) in Ev. injection Ev as <-.
  split; eauto using sizes_nonneg.
Qed.

Theorem built_op_verifies : forall d x b o,
  get_accessors A ver d = Ok x -> irdl_op_init A d b = Ok o ->
  def_nonvacuous d -> same_nonvacuous (d_sucopt A d) (d_succs A d) -> def_consistent d ->
  (* accessors give back the constructor's arguments *)
  run (x_operands x) (o_opseg A o) (o_operands A o)
    = expected (map (akind A) (d_operands A d)) (map norm (b_operands A b)) /\
  run (x_results x) (o_resseg A o) (o_results A o)
    = expected (map (akind A) (d_results A d)) (map norm (b_results A b)) /\
  run (x_regions x) (o_regseg A o) (o_regions A o)
    = expected (map (rkind A) (d_regions A d)) (map norm (b_regions A b)) /\
  run (x_succs x) (o_sucseg A o) (o_succs A o) = expected (d_succs A d) (map norm (b_succs A b)) /\
  (* and verification reduces to the constraints on those arguments *)
  (opdef_verify d x o = Ok tt <->
   single_ok (d_regions A d) (map norm (b_regions A b)) /\
   present_ok (d_props A d) (b_props A b) /\ b_extra_prop A b = false /\
   present_ok (d_attrs A d) (b_attrs A b) /\
   exists sg, all_sat sg (built_pairs d b)).
Proof.
  intros d x b o Hx Hi (N1 & N2 & N3) N4 Hc.
  destruct (get_accessors_ok _ _ Hx) as (X1 & X2 & X3 & X4).
  unfold irdl_op_init in Hi.
  apply bind_ok in Hi. destruct Hi as ([f1 z1] & B1 & Hi).
  apply bind_ok in Hi. destruct Hi as ([f2 z2] & B2 & Hi).
  apply bind_ok in Hi. destruct Hi as ([f3 z3] & B3 & Hi).
  apply bind_ok in Hi. destruct Hi as ([f4 z4] & B4 & Hi).
  apply bind_ok in Hi. destruct Hi as (a1 & I1 & Hi).
  apply bind_ok in Hi. destruct Hi as (a2 & I2 & Hi).
  apply bind_ok in Hi. destruct Hi as (a3 & I3 & Hi).
  apply bind_ok in Hi. destruct Hi as (a4 & I4 & Hi).
  injection Hi as <-. cbn [fst snd] in *.
  destruct (built_construct _ _ _ _ _ _ _ _ _ B1 I1 X1 N1) as (R1 & F1 & D1 & E1).
  destruct (built_construct _ _ _ _ _ _ _ _ _ B2 I2 X2 N2) as (R2 & F2 & D2 & E2).
  destruct (built_construct _ _ _ _ _ _ _ _ _ B3 I3 X3 N3) as (R3 & F3 & D3 & E3).
  destruct (built_construct _ _ _ _ _ _ _ _ _ B4 I4 X4 N4) as (R4 & F4 & D4 & _).
  rewrite norm_none_to_empty in R1, R3, E1, E3.
  cbn [o_operands o_opseg o_results o_resseg o_regions o_regseg o_succs o_sucseg].
  repeat (split; [assumption|]).
  set (o := {| o_operands := f1; o_opseg := a1; o_results := f2; o_resseg := a2;
               o_regions := f3; o_regseg := a3; o_succs := f4; o_sucseg := a4;
               o_props := b_props A b; o_extra_prop := b_extra_prop A b; o_attrs := b_attrs A b |}).
  rewrite (opdef_verify_iff d x o Hx (conj D1 (conj D2 (conj D3 D4))) (conj N1 (conj N2 N3)) Hc).
  unfold op_valid, op_pairs, built_pairs. cbn [o o_operands o_opseg o_results o_resseg o_regions o_regseg
    o_succs o_sucseg o_props o_extra_prop o_attrs]. split.
  - intros (s1 & s2 & s3 & s4 & T1 & T2 & T3 & T4 & G3 & G5 & Ex & G6 & P).
    rewrite (seg_for_unique _ _ _ _ _ _ _ (ex_intro _ _ X1) T1 F1) in P.
    rewrite (seg_for_unique _ _ _ _ _ _ _ (ex_intro _ _ X2) T2 F2) in P.
    rewrite (seg_for_unique _ _ _ _ _ _ _ (ex_intro _ _ X3) T3 F3) in P, G3.
    rewrite E1, E2, E3 in P. rewrite E3 in G3. auto.
  - intros (G3 & G5 & Ex & G6 & P). exists z1, z2, z3, z4. rewrite E1, E2, E3.
    repeat (split; [assumption|]). exact P.
Qed.

End Whole.

(* value universe Z with Model.zof_int / zas_int: type ids < 1000; 1000 + k = IntAttr(k); 2000 + k = int k *)
Definition ex_c (allowed : list Z) (v : option nat) : constr Z :=
  {| cpred := fun a => existsb (Z.eqb a) allowed; cvar := v |}.
Definition ex_any (v : option nat) : constr Z := {| cpred := fun _ => true; cvar := v |}.
(* operands: variadic V0 in {1,2} of length N (int variable, key 1) + single V0 in {1,2}, attr-sized;
   optional result V0; two same-size variadic successors; one required IntAttr property equal to N *)
Definition ex_def : opdef Z :=
  {| d_operands := [ {| akind := Variadic; aconstr := ex_c [1; 2] (Some 0%nat);
                        alen := Some (ex_any (Some 1%nat)) |};
                     {| akind := Single; aconstr := ex_c [1; 2] (Some 0%nat); alen := None |} ];
     d_opopt := AttrSized;
     d_results := [ {| akind := Optional; aconstr := ex_c [1; 2] (Some 0%nat); alen := None |} ];
     d_resopt := NoOption;
     d_regions := []; d_regopt := NoOption; d_succs := [Variadic; Variadic]; d_sucopt := SameSize;
     d_props := [(false, NIntAttr Z (ex_any (Some 1%nat)))]; d_attrs := [] |}.
Definition ex_op_p (seg : list Z) (res : list Z) (p : Z) : opinst Z :=
  {| o_operands := [2; 2; 2]; o_opseg := Dense true seg; o_results := res; o_resseg := Missing;
     o_regions := []; o_regseg := Missing; o_succs := [0; 0; 0; 0]; o_sucseg := Missing;
     o_props := [Some p]; o_extra_prop := false; o_attrs := [] |}.
Definition ex_op (seg : list Z) (res : list Z) : opinst Z := ex_op_p seg res 1002.   (* IntAttr(2) *)

Lemma ex_hypotheses : forall ver,
  op_disciplined Z ver ex_def (ex_op [2; 1] [2]) /\ def_nonvacuous Z ver ex_def /\
  def_consistent Z ex_def /\ same_nonvacuous ver (d_sucopt Z ex_def) (d_succs Z ex_def).
Proof.
  intros ver. split; [|split; [|split]].
  - unfold op_disciplined, attr_disciplined.
    split; [|split; [|split]]; intros E _ vs Ev; try discriminate E.
    injection Ev as <-. split; [repeat constructor; lia|reflexivity].
  - unfold def_nonvacuous, same_nonvacuous. split; [|split]; intros E; discriminate E.
  - exists (fun v a => if Nat.eqb v 0 then existsb (Z.eqb a) [1; 2] else true).
    intros c Hin v Hv a. cbn in Hin.
    destruct Hin as [<-|[<-|[<-|[<-|[<-|[]]]]]]; cbn in *; injection Hv as <-; reflexivity.
  - intros _ _. reflexivity.
Qed.

(* three attr-sized variadic operand segments sharing one length variable N (the omp.* pattern
   `var_operand_def(RangeOf(AnyAttr()).of_length(IntVarConstraint("N", AnyInt())))`) *)
Definition ex_len_def : opdef Z :=
  let seg := {| akind := Variadic; aconstr := ex_any None; alen := Some (ex_any (Some 1%nat)) |} in
  {| d_operands := [seg; seg; seg]; d_opopt := AttrSized;
     d_results := []; d_resopt := NoOption; d_regions := []; d_regopt := NoOption;
     d_succs := []; d_sucopt := NoOption; d_props := []; d_attrs := [] |}.
Definition ex_len_op (sizes : list Z) : opinst Z :=
  {| o_operands := map (fun _ => 1) (seq 0 (Z.to_nat (zsum sizes))); o_opseg := Dense true sizes;
     o_results := []; o_resseg := Missing; o_regions := []; o_regseg := Missing;
     o_succs := []; o_sucseg := Missing; o_props := []; o_extra_prop := false; o_attrs := [] |}.

Definition v_pinned : version := {| fix_attr_sum := false; fix_same_novar := false |}.
Definition v_repaired : version := {| fix_attr_sum := true; fix_same_novar := true |}.

(* with both repairs in the code, OpDef.verify accepts exactly the valid operations; the only
   remaining hypothesis is that a constraint variable is always used with one base constraint *)
Theorem opdef_verify_iff_repaired :
  forall A A_eqb, (forall a b : A, A_eqb a b = true <-> a = b) ->
  forall of_int as_int d x o,
  get_accessors A v_repaired d = Ok x -> def_consistent A d ->
  (opdef_verify A A_eqb v_repaired of_int as_int d x o = Ok tt <-> op_valid A of_int as_int d o).
Proof.
  intros A A_eqb Hspec of_int as_int d x o Hx Hc. apply opdef_verify_iff; auto.
  - unfold op_disciplined, attr_disciplined. split; [|split; [|split]]; intros _ E; discriminate E.
  - unfold def_nonvacuous, same_nonvacuous. split; [|split]; intros _ E; discriminate E.
Qed.
