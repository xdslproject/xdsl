(* C01/ProofsArgs.v -- WF is preserved by Block.insert_arg, Block.erase_arg and
   PatternRewriter.erase_block_argument (re-indexing of the arguments of a live block). *)
From Coq Require Import ZArith List Bool PArith FMapPositive Lia.
From XV Require Import C01.Model C01.Spec C01.ProofsBase C01.ProofsFrame C01.ProofsUses C01.ProofsOperands
  C01.ProofsRauw C01.ProofsSetOperands C01.ProofsOps C01.ProofsBlocks.
Import ListNotations.
Local Open Scope Z_scope.

(* a value that has not been erased / replaced by a successful erase call *)
Definition val_live (s : state) (v : vid) : Prop :=
  exists vr, PM.find v (s_values s) = Some vr /\ v_dead vr = false.

Lemma allocV_T1 : forall x, preserves same_T1 (allocV x).
Proof. intros x s s' r H. unfold allocV in H. injection H as <- _. split; apply agree_refl. Qed.
Lemma allocV_T2 : forall x, preserves same_T2 (allocV x).
Proof. intros x s s' r H. unfold allocV in H. injection H as <- _. split; apply agree_refl. Qed.
Lemma allocV_T3 : forall x, preserves same_T3 (allocV x).
Proof. intros x s s' r H. unfold allocV in H. injection H as <- _. split; apply agree_refl. Qed.
#[export] Hint Resolve allocV_T1 allocV_T2 allocV_T3 : pres.

Lemma add_index_T1 : forall d v, preserves same_T1 (add_index d v).
Proof. intros. unfold add_index. pres fr_T1. Qed.
Lemma add_index_T2 : forall d v, preserves same_T2 (add_index d v).
Proof. intros. unfold add_index. pres fr_T2. Qed.
Lemma add_index_T3 : forall d v, preserves same_T3 (add_index d v).
Proof. intros. unfold add_index. pres fr_T3. Qed.
Lemma add_index_U : forall d v, preserves same_U (add_index d v).
Proof. intros. unfold add_index. apply updV_same_U. intro x. destruct (v_kind x); reflexivity. Qed.
Lemma add_index_A : forall d v, preserves same_A (add_index d v).
Proof. intros. unfold add_index. pres fr_A. Qed.
#[export] Hint Resolve add_index_T1 add_index_T2 add_index_T3 add_index_U add_index_A : pres.

Lemma value_erase_T1 : forall v safe, preserves same_T1 (value_erase v safe).
Proof. intros. unfold value_erase. pres fr_T1. Qed.
Lemma value_erase_T2 : forall v safe, preserves same_T2 (value_erase v safe).
Proof. intros. unfold value_erase. pres fr_T2. Qed.
Lemma value_erase_T3 : forall v safe, preserves same_T3 (value_erase v safe).
Proof. intros. unfold value_erase. pres fr_T3. Qed.
#[export] Hint Resolve value_erase_T1 value_erase_T2 value_erase_T3 : pres.

Lemma kill_value_T1 : forall v, preserves same_T1 (kill [GValue v]).
Proof. intros. unfold kill. simpl. pres fr_T1. Qed.
Lemma kill_value_T2 : forall v, preserves same_T2 (kill [GValue v]).
Proof. intros. unfold kill. simpl. pres fr_T2. Qed.
Lemma kill_value_T3 : forall v, preserves same_T3 (kill [GValue v]).
Proof. intros. unfold kill. simpl. pres fr_T3. Qed.
Lemma kill_value_U : forall v, preserves same_U (kill [GValue v]).
Proof. intros. unfold kill. simpl. pres fr_U. Qed.
Lemma kill_value_A : forall v, preserves same_A (kill [GValue v]).
Proof. intros. unfold kill. simpl. pres fr_A. Qed.
#[export] Hint Resolve kill_value_T1 kill_value_T2 kill_value_T3 kill_value_U kill_value_A : pres.

Lemma insert_arg_T1 : forall b i, preserves same_T1 (insert_arg b i).
Proof. intros. unfold insert_arg. pres fr_T1. Qed.
Lemma insert_arg_T2 : forall b i, preserves same_T2 (insert_arg b i).
Proof. intros. unfold insert_arg. pres fr_T2. Qed.
Lemma insert_arg_T3 : forall b i, preserves same_T3 (insert_arg b i).
Proof. intros. unfold insert_arg. pres fr_T3. Qed.

Lemma erase_arg_T1 : forall b a safe, preserves same_T1 (erase_arg b a safe).
Proof.
  intros. unfold erase_arg. apply (pres_bind _ fr_T1); [apply (pres_getV _ fr_T1)|intro ar].
  destruct (v_kind ar); pres fr_T1.
Qed.
Lemma erase_arg_T2 : forall b a safe, preserves same_T2 (erase_arg b a safe).
Proof.
  intros. unfold erase_arg. apply (pres_bind _ fr_T2); [apply (pres_getV _ fr_T2)|intro ar].
  destruct (v_kind ar); pres fr_T2.
Qed.
Lemma erase_arg_T3 : forall b a safe, preserves same_T3 (erase_arg b a safe).
Proof.
  intros. unfold erase_arg. apply (pres_bind _ fr_T3); [apply (pres_getV _ fr_T3)|intro ar].
  destruct (v_kind ar); pres fr_T3.
Qed.

Lemma nth_error_skipn : forall {A} (l : list A) n k, nth_error (skipn n l) k = nth_error l (n + k).
Proof.
  intros A l n. revert l. induction n as [|n IH]; intros l k; [reflexivity|].
  destruct l as [|x r]; simpl; [destruct k; reflexivity|apply IH].
Qed.
Lemma nth_error_firstn : forall {A} (l : list A) n k, (k < n)%nat -> nth_error (firstn n l) k = nth_error l k.
Proof.
  intros A l n. revert l. induction n as [|n IH]; intros l k H; [lia|].
  destruct l as [|x r]; simpl; [destruct k; reflexivity|]. destruct k; [reflexivity|]. simpl. apply IH. lia.
Qed.

Lemma In_skipn : forall {A} (l : list A) n x, In x (skipn n l) -> exists k, (n <= k)%nat /\ nth_error l k = Some x.
Proof.
  intros A l n x H. destruct (In_nth_error _ _ H) as (k & N). rewrite nth_error_skipn in N.
  exists (n + k)%nat. split; [lia|exact N].
Qed.
Lemma In_firstn : forall {A} (l : list A) n x, In x (firstn n l) -> exists k, (k < n)%nat /\ nth_error l k = Some x.
Proof.
  intros A l n x H. destruct (In_nth_error _ _ H) as (k & N).
  assert (k < length (firstn n l))%nat by (apply nth_error_Some; congruence).
  rewrite firstn_length in H0. exists k. split; [lia|]. rewrite nth_error_firstn in N by lia. exact N.
Qed.

Definition shift (d : Z) (x : value_rec) : value_rec :=
  match v_kind x with
  | KArg b i => set_v_kind (KArg b (i + d)) x
  | KRes o i => set_v_kind (KRes o (i + d)) x
  | KErased _ => x
  end.

Lemma shift_loop : forall d l s s' r, NoDup l ->
  forM l (add_index d) s = (s', Ok r) ->
  s_ops s' = s_ops s /\ s_blocks s' = s_blocks s /\
  forall v, PM.find v (s_values s') =
            if mem v l then option_map (shift d) (PM.find v (s_values s)) else PM.find v (s_values s).
Proof.
  intros d l. induction l as [|a t IH]; intros s s' r ND H; simpl in H.
  - apply ret_ok in H as [-> _]. auto.
  - apply bind_ok in H as (s1 & ? & H1 & H2). inversion ND as [|? ? NI ND']; subst.
    unfold add_index in H1. apply updV_ok in H1 as (xr & F & ->).
    destruct (IH _ _ _ ND' H2) as (E1 & E2 & E3). simpl in E1, E2, E3.
    split; [exact E1|]. split; [exact E2|]. intro v. rewrite E3. simpl. rewrite find_add.
    destruct (Pos.eqb_spec v a) as [->|N]; simpl.
    + apply mem_false in NI. rewrite NI, F. reflexivity.
    + reflexivity.
Qed.

Lemma nth_insert : forall {A} (l : list A) n x i, (n <= length l)%nat ->
  nth_error (firstn n l ++ x :: skipn n l) i =
  if (i <? n)%nat then nth_error l i else if (i =? n)%nat then Some x else nth_error l (i - 1).
Proof.
  intros A l n x i L. destruct (Nat.ltb_spec i n).
  - rewrite nth_error_app1 by (rewrite firstn_length; lia). apply nth_error_firstn. lia.
  - rewrite nth_error_app2 by (rewrite firstn_length; lia). rewrite firstn_length, Nat.min_l by lia.
    destruct (Nat.eqb_spec i n) as [->|N]; [rewrite Nat.sub_diag; reflexivity|].
    destruct (i - n)%nat as [|k] eqn:E; [lia|]. simpl. rewrite nth_error_skipn. f_equal. lia.
Qed.

Lemma nth_delete : forall {A} (l : list A) n i, (n < length l)%nat ->
  nth_error (firstn n l ++ skipn (S n) l) i = if (i <? n)%nat then nth_error l i else nth_error l (S i).
Proof.
  intros A l n i L. destruct (Nat.ltb_spec i n).
  - rewrite nth_error_app1 by (rewrite firstn_length; lia). apply nth_error_firstn. lia.
  - rewrite nth_error_app2 by (rewrite firstn_length; lia). rewrite firstn_length, Nat.min_l by lia.
    rewrite nth_error_skipn. f_equal. lia.
Qed.

Lemma NoDup_skipn : forall {A} (l : list A) n, NoDup l -> NoDup (skipn n l).
Proof.
  intros A l n H. rewrite <- (firstn_skipn n l) in H. apply NoDup_app_inv in H. tauto.
Qed.

Lemma NoDup_nth_eq : forall {A} (l : list A) i j x, NoDup l -> nth_error l i = Some x -> nth_error l j = Some x -> i = j.
Proof.
  intros A l i j x ND Hi Hj. rewrite NoDup_nth_error in ND. apply ND; [|congruence].
  apply nth_error_Some. congruence.
Qed.

Lemma args_NoDup : forall s b br, WF_args s -> PM.find b (s_blocks s) = Some br -> b_erased br = false ->
  NoDup (b_args br).
Proof.
  intros s b br W F E. apply NoDup_nth_error. intros i j Hi Eq.
  destruct (nth_error (b_args br) i) as [v|] eqn:Ni; [|apply nth_error_None in Ni; lia].
  symmetry in Eq. destruct (W b br F E i v Ni) as (vr & Fv & K). destruct (W b br F E j v Eq) as (vr' & Fv' & K').
  rewrite Fv in Fv'. injection Fv' as <-. rewrite K in K'. injection K' as K'. lia.
Qed.

(* the arguments of one live block b are re-indexed: new argument list args', every member of
   which says (b, its position); every other live value keeps its kind and is not an old argument of b *)
Lemma reindex_I : forall s s' b br br',
  WF_results s -> WF_args s -> WF_owner s ->
  PM.find b (s_blocks s) = Some br -> b_erased br = false ->
  s_ops s' = s_ops s ->
  (forall b', b' <> b -> PM.find b' (s_blocks s') = PM.find b' (s_blocks s)) ->
  PM.find b (s_blocks s') = Some br' ->
  (forall i v, nth_error (b_args br') i = Some v ->
     exists vr', PM.find v (s_values s') = Some vr' /\ v_kind vr' = KArg b (Z.of_nat i)) ->
  (forall v vr', ~ In v (b_args br') -> PM.find v (s_values s') = Some vr' -> v_dead vr' = false ->
     (exists old, v_kind vr' = KErased old) \/
     (exists vr, PM.find v (s_values s) = Some vr /\ v_kind vr = v_kind vr' /\ v_dead vr = false /\ ~ In v (b_args br))) ->
  (forall v vr, PM.find v (s_values s) = Some vr -> ~ In v (b_args br) ->
     exists vr', PM.find v (s_values s') = Some vr' /\ v_kind vr' = v_kind vr) ->
  WF_results s' /\ WF_args s' /\ WF_owner s'.
Proof.
  intros s s' b br br' W1 W2 W3 Fb Eb Eops Oth Fb' HA HB HC.
  assert (ArgK : forall v j, nth_error (b_args br) j = Some v ->
            exists vr, PM.find v (s_values s) = Some vr /\ v_kind vr = KArg b (Z.of_nat j)).
  { intros v j N. exact (W2 b br Fb Eb j v N). }
  split; [|split].
  - intros o x F E i v N. rewrite Eops in F. destruct (W1 o x F E i v N) as (vr & Fv & K).
    assert (NI : ~ In v (b_args br)).
    { intro I. destruct (In_nth_error _ _ I) as (j & Nj). destruct (ArgK v j Nj) as (vr2 & Fv2 & K2).
      rewrite Fv in Fv2. injection Fv2 as <-. rewrite K in K2. discriminate. }
    destruct (HC v vr Fv NI) as (vr' & Fv' & K'). exists vr'. split; [exact Fv'|]. rewrite K'. exact K.
  - intros b' x F E i v N. destruct (Pos.eq_dec b' b) as [->|Nb].
    + rewrite Fb' in F. injection F as <-. apply HA. exact N.
    + rewrite (Oth b' Nb) in F. destruct (W2 b' x F E i v N) as (vr & Fv & K).
      assert (NI : ~ In v (b_args br)).
      { intro I. destruct (In_nth_error _ _ I) as (j & Nj). destruct (ArgK v j Nj) as (vr2 & Fv2 & K2).
        rewrite Fv in Fv2. injection Fv2 as <-. rewrite K in K2. injection K2 as K2 _. apply Nb. exact K2. }
      destruct (HC v vr Fv NI) as (vr' & Fv' & K'). exists vr'. split; [exact Fv'|]. rewrite K'. exact K.
  - intros v vr' F D. destruct (in_dec Pos.eq_dec v (b_args br')) as [I|NI].
    + destruct (In_nth_error _ _ I) as (i & N). destruct (HA i v N) as (vr2 & F2 & K2).
      rewrite F in F2. injection F2 as <-. rewrite K2. exists br'. split; [exact Fb'|].
      rewrite znth_of_nat. exact N.
    + destruct (HB v vr' NI F D) as [(old & K)|(vr & Fv & K & Dv & NIa)]; [rewrite K; exact I|].
      rewrite <- K. specialize (W3 v vr Fv Dv). destruct (v_kind vr) as [o i|b' i|old].
      * destruct W3 as (x & Fx & Z). exists x. rewrite Eops. auto.
      * destruct W3 as (x & Fx & Z). destruct (Pos.eq_dec b' b) as [->|Nb].
        -- exfalso. rewrite Fb in Fx. injection Fx as <-. apply NIa. eapply znth_In; eauto.
        -- exists x. rewrite (Oth b' Nb). auto.
      * exact I.
Qed.

Lemma allocV_eff : forall rec s s' e, allocV rec s = (s', Ok e) ->
  e = n_value s /\ s_ops s' = s_ops s /\ s_blocks s' = s_blocks s /\
  s_values s' = PM.add (n_value s) rec (s_values s).
Proof. intros rec s s' e H. unfold allocV in H. injection H as <- <-. simpl. auto. Qed.

Theorem insert_arg_WF : forall s s' b index v,
  WF s -> blk_live s b -> insert_arg b index s = (s', Ok v) -> WF s'.
Proof.
  intros s s' b index v W (br & Fb & Eb) H.
  pose proof (insert_arg_T1 b index s s' _ H) as T1.
  pose proof (insert_arg_T2 b index s s' _ H) as T2.
  pose proof (insert_arg_T3 b index s s' _ H) as T3.
  unfold insert_arg in H.
  apply bind_ok in H as (s0 & br0 & Hg & H). apply getB_ok in Hg as [-> Fb0].
  rewrite Fb in Fb0. injection Fb0 as <-.
  destruct ((index <? 0) || (zlen (b_args br) <? index)) eqn:Rg; [exfalso; eapply raise_ok; eauto|].
  apply orb_false_iff in Rg as [R1 R2]. apply Z.ltb_ge in R1, R2.
  apply bind_ok in H as (s1 & new & Ha & H).
  apply bind_ok in H as (s2 & r2 & Hl & H).
  apply bind_ok in H as (s3 & r3 & Hu & H). apply ret_ok in H as [-> ->].
  rewrite slice_from_eq in Hl, Hu by lia. rewrite slice_to_eq in Hu by lia.
  set (n := Z.to_nat index) in *. set (args := b_args br) in *.
  assert (Ln : (n <= length args)%nat) by (unfold zlen in R2; lia).
  set (rec := mkValue (KArg b index) None false) in *.
  pose proof (fresh_value s W) as FR.
  pose proof (args_NoDup s b br (wf_args s W) Fb Eb) as NDa. fold args in NDa.
  assert (ArgK : forall v j, nth_error args j = Some v ->
            exists vr, PM.find v (s_values s) = Some vr /\ v_kind vr = KArg b (Z.of_nat j)).
  { intros w j N. exact (wf_args s W b br Fb Eb j w N). }
  destruct (allocV_eff _ _ _ _ Ha) as (En & Eo1 & Eb1 & Ev1).
  destruct (shift_loop 1 _ _ _ _ (NoDup_skipn args n NDa) Hl) as (Eo2 & Eb2 & Ev2).
  apply WF_parts with (s := s); try assumption.
  - eapply UWF_same; [eapply UWF_same; [apply (allocV_UWF rec s s1 new (WF_UWF s W) FR eq_refl Ha)|]|].
    + eapply (pres_forM _ fr_U); [|exact Hl]. apply add_index_U.
    + eapply updB_same_U; [|exact Hu]. intro x. reflexivity.
  - eapply WF_alloc_same; [eapply updB_same_A; exact Hu|].
    eapply WF_alloc_same; [eapply (pres_forM _ fr_A); [|exact Hl]; apply add_index_A|].
    eapply allocV_alloc; [apply (wf_alloc s W)|exact Ha].
  - apply updB_ok in Hu as (xb & Fx & ->). rewrite Eb2, Eb1, Fb in Fx. injection Fx as <-.
    assert (FV : forall w, PM.find w (s_values s2) =
              if mem w (skipn n args) then option_map (shift 1) (PM.find w (s_values s))
              else if Pos.eqb w new then Some rec else PM.find w (s_values s)).
    { intro w. rewrite Ev2, Ev1, find_add, <- En.
      destruct (mem w (skipn n args)) eqn:M; [|reflexivity].
      destruct (Pos.eqb_spec w new) as [->|_]; [|reflexivity].
      exfalso. apply mem_In in M. destruct (In_skipn _ _ _ M) as (k & _ & Nk).
      destruct (ArgK _ _ Nk) as (vr & Fv & _). rewrite En in Fv. congruence. }
    assert (NewNI : ~ In new args).
    { intro I. destruct (In_nth_error _ _ I) as (k & Nk). destruct (ArgK _ _ Nk) as (vr & Fv & _).
      rewrite En in Fv. congruence. }
    eapply (reindex_I s _ b br (set_b_args (firstn n args ++ new :: skipn n args) br));
      [apply (wf_results s W)|apply (wf_args s W)|apply (wf_owner s W)|exact Fb|exact Eb| | | | | | ]; simpl.
    + rewrite Eo2, Eo1. reflexivity.
    + intros b' Nb. rewrite find_add_other by exact Nb. rewrite Eb2, Eb1. reflexivity.
    + apply find_add_same.
    + (* members of the new list *)
      intros i w N. rewrite nth_insert in N by exact Ln. rewrite FV.
      destruct (Nat.ltb_spec i n) as [Lt|Ge].
      * destruct (ArgK _ _ N) as (vr & Fv & K).
        assert (M : mem w (skipn n args) = false).
        { apply mem_false. intro I. destruct (In_skipn _ _ _ I) as (k & Lk & Nk).
          pose proof (NoDup_nth_eq _ _ _ _ NDa N Nk). lia. }
        rewrite M. destruct (Pos.eqb_spec w new) as [->|_].
        -- exfalso. apply NewNI. eapply nth_error_In; eauto.
        -- exists vr. auto.
      * destruct (Nat.eqb_spec i n) as [->|Ne].
        -- injection N as <-.
           assert (M : mem new (skipn n args) = false).
           { apply mem_false. intro I. destruct (In_skipn _ _ _ I) as (k & _ & Nk). apply NewNI. eapply nth_error_In; eauto. }
           rewrite M, Pos.eqb_refl. exists rec. split; [reflexivity|]. simpl. f_equal. unfold n. lia.
        -- destruct (ArgK _ _ N) as (vr & Fv & K).
           assert (M : mem w (skipn n args) = true).
           { apply mem_In. apply nth_error_In with (n := (i - 1 - n)%nat). rewrite nth_error_skipn.
             replace (n + (i - 1 - n))%nat with (i - 1)%nat by lia. exact N. }
           rewrite M, Fv. simpl. exists (shift 1 vr). split; [reflexivity|].
           unfold shift. rewrite K. simpl. f_equal. lia.
    + (* the other values *)
      intros w vr' NI Fw D. rewrite FV in Fw.
      assert (NIa : ~ In w args).
      { intro I. apply NI. rewrite <- (firstn_skipn n args) in I. apply in_app_or in I.
        apply in_or_app. destruct I as [I|I]; [left; exact I|right; right; exact I]. }
      assert (M : mem w (skipn n args) = false).
      { apply mem_false. intro I. apply NI. apply in_or_app. right. right. exact I. }
      rewrite M in Fw. destruct (Pos.eqb_spec w new) as [->|_].
      * exfalso. apply NI. apply in_or_app. right. left. reflexivity.
      * right. exists vr'. auto.
    + intros w vr Fw NIa. rewrite FV.
      assert (M : mem w (skipn n args) = false).
      { apply mem_false. intro I. apply NIa. change (In w args). rewrite <- (firstn_skipn n args). apply in_or_app. right. exact I. }
      rewrite M. destruct (Pos.eqb_spec w new) as [->|_]; [rewrite En in Fw; congruence|].
      exists vr. auto.
Qed.

Lemma kill_shadow : forall s4 s5 s6 arg x4 r,
  same_I s4 s5 -> PM.find arg (s_values s4) = Some x4 -> kill [GValue arg] s5 = (s6, Ok r) ->
  same_I (with_values (PM.add arg (set_v_dead true x4) (s_values s4)) s4) s6.
Proof.
  intros s4 s5 s6 arg x4 r (Ao & Ab & Av) F4 H. unfold kill in H. simpl in H.
  apply bind_ok in H as (s & r0 & Hk & Hr). apply ret_ok in Hr as [-> _]. apply updV_ok in Hk as (x5 & F5 & ->).
  split; [|split]; simpl.
  - exact Ao.
  - exact Ab.
  - intro i. rewrite !find_add. destruct (Pos.eqb_spec i arg) as [->|N].
    + specialize (Av arg). rewrite F4, F5 in Av. simpl in Av. unfold pI_val in Av. injection Av as K D.
      simpl. unfold pI_val. simpl. rewrite K. reflexivity.
    + apply Av.
Qed.

Lemma In_split3 : forall {A} (l : list A) n a x, nth_error l n = Some a -> In x l ->
  In x (firstn n l) \/ x = a \/ In x (skipn (S n) l).
Proof.
  intros A l n a x Nn I. destruct (In_nth_error _ _ I) as (k & Nk).
  destruct (Nat.lt_trichotomy k n) as [Lt|[->|Gt]].
  - left. apply nth_error_In with (n := k). rewrite nth_error_firstn by lia. exact Nk.
  - right. left. congruence.
  - right. right. apply nth_error_In with (n := (k - S n)%nat). rewrite nth_error_skipn.
    replace (S n + (k - S n))%nat with k by lia. exact Nk.
Qed.

(* `val_live s arg` is needed: an argument that was already erased keeps its (stale) index, and erasing
   it a second time would remove whatever argument now sits at that position *)
Theorem erase_arg_WF : forall s s' b arg safe r,
  WF s -> blk_live s b -> val_live s arg -> erase_arg b arg safe s = (s', Ok r) -> WF s'.
Proof.
  intros s s' b arg safe r W (br & Fb & Eb) (ar & Fa & Da) H.
  pose proof (erase_arg_T1 b arg safe s s' _ H) as T1.
  pose proof (erase_arg_T2 b arg safe s s' _ H) as T2.
  pose proof (erase_arg_T3 b arg safe s s' _ H) as T3.
  unfold erase_arg in H.
  apply bind_ok in H as (s0 & ar0 & Hg & H). apply getV_ok in Hg as [-> Fa0].
  rewrite Fa in Fa0. injection Fa0 as <-.
  pose proof (wf_owner s W arg ar Fa Da) as Ow.
  revert H Ow. destruct (v_kind ar) as [o i|ab aidx|old] eqn:Ka; intros H Ow;
    try (exfalso; eapply raise_ok; eauto; fail).
  revert H. destruct (Pos.eqb_spec ab b) as [->|Nb]; simpl; intro H; [|exfalso; eapply raise_ok; eauto].
  apply bind_ok in H as (s0 & br0 & Hg & H). apply getB_ok in Hg as [-> Fb0].
  rewrite Fb in Fb0. injection Fb0 as <-.
  destruct Ow as (br1 & Fb1 & Zarg). rewrite Fb in Fb1. injection Fb1 as <-.
  pose proof (znth_lt _ _ _ Zarg) as Ri.
  destruct (znth_some _ _ _ Zarg) as (n & -> & Nn).
  apply bind_ok in H as (s2 & r2 & Hl & H).
  apply bind_ok in H as (s3 & r3 & Hu & H).
  apply bind_ok in H as (s5 & r5 & Hv & Hk).
  rewrite slice_from_eq in Hl, Hu by lia. rewrite slice_to_eq in Hu by lia.
  replace (Z.to_nat (Z.of_nat n + 1)) with (S n) in Hl, Hu by lia. rewrite Nat2Z.id in Hu.
  set (args := b_args br) in *.
  assert (Ln : (n < length args)%nat) by (unfold zlen in Ri; lia).
  pose proof (fresh_value s W) as FR.
  pose proof (args_NoDup s b br (wf_args s W) Fb Eb) as NDa. fold args in NDa.
  assert (ArgK : forall v j, nth_error args j = Some v ->
            exists vr, PM.find v (s_values s) = Some vr /\ v_kind vr = KArg b (Z.of_nat j)).
  { intros w j N. exact (wf_args s W b br Fb Eb j w N). }
  destruct (shift_loop (-1) _ _ _ _ (NoDup_skipn args (S n) NDa) Hl) as (Eo2 & Eb2 & Ev2).
  (* SSAValue.erase *)
  unfold value_erase in Hv.
  apply bind_ok in Hv as (s3' & fu & Hf & Hv). apply get_first_use_eff in Hf as [-> _].
  destruct (safe && is_some fu); [exfalso; eapply raise_ok; eauto|].
  apply bind_ok in Hv as (s4 & e & Ha & Hr).
  set (rec := mkValue (KErased arg) None false) in *.
  (* the groups U and A step by step *)
  assert (SU2 : same_U s s2) by (eapply (pres_forM _ fr_U); [|exact Hl]; apply add_index_U).
  assert (SU3 : same_U s2 s3) by (eapply updB_same_U; [|exact Hu]; intro x; reflexivity).
  assert (SA2 : same_A s s2) by (eapply (pres_forM _ fr_A); [|exact Hl]; apply add_index_A).
  assert (SA3 : same_A s2 s3) by (eapply updB_same_A; exact Hu).
  assert (U3 : UWF s3) by (eapply UWF_same; [eapply UWF_same; [apply WF_UWF; exact W|exact SU2]|exact SU3]).
  assert (A3 : WF_alloc s3) by (eapply WF_alloc_same; [exact SA3|eapply WF_alloc_same; [exact SA2|apply (wf_alloc s W)]]).
  pose proof (fresh_of_alloc s3 A3) as FR3.
  assert (N3 : n_value s3 = n_value s).
  { destruct SA2 as (_ & _ & _ & _ & _ & _ & _ & _ & Q2 & _). destruct SA3 as (_ & _ & _ & _ & _ & _ & _ & _ & Q3 & _). congruence. }
  pose proof (allocV_UWF rec s3 s4 e U3 FR3 eq_refl Ha) as U4.
  pose proof (rauw_UWF _ _ _ _ _ U4 Hr) as U5.
  pose proof (allocV_alloc _ _ _ _ A3 Ha) as A4.
  pose proof (WF_alloc_same _ _ (rauw_A _ _ _ _ _ Hr) A4) as A5.
  pose proof (rauw_I _ _ _ _ _ Hr) as SI45.
  destruct (allocV_eff _ _ _ _ Ha) as (En & Eo4 & Eb4 & Ev4).
  apply WF_parts with (s := s); try assumption.
  - eapply UWF_same; [exact U5|]. eapply kill_value_U. exact Hk.
  - eapply WF_alloc_same; [|exact A5]. eapply kill_value_A. exact Hk.
  - apply updB_ok in Hu as (xb & Fx & ->). rewrite Eb2, Fb in Fx. injection Fx as <-.
    cbn [b_args set_b_args s_ops s_blocks s_values n_value with_values with_blocks] in Eo4, Eb4, Ev4, En, FR3, N3.
    assert (Fe : PM.find e (s_values s) = None) by (rewrite En, N3; exact FR).
    assert (ArgNI : mem arg (skipn (S n) args) = false).
    { apply mem_false. intro I. destruct (In_skipn _ _ _ I) as (k & Lk & Nk).
      pose proof (NoDup_nth_eq _ _ _ _ NDa Nn Nk). lia. }
    assert (Ne : arg <> e) by (intro E; rewrite E in Fa; congruence).
    assert (F4 : PM.find arg (s_values s4) = Some ar).
    { rewrite Ev4, find_add, <- En. destruct (Pos.eqb_spec arg e); [contradiction|].
      rewrite Ev2, ArgNI. exact Fa. }
    pose proof (kill_shadow _ _ _ _ _ _ SI45 F4 Hk) as SI.
    apply (WF_index_same _ _ SI).
    assert (FV : forall w, PM.find w (PM.add arg (set_v_dead true ar) (s_values s4)) =
              if Pos.eqb w arg then Some (set_v_dead true ar)
              else if Pos.eqb w e then Some rec
              else if mem w (skipn (S n) args) then option_map (shift (-1)) (PM.find w (s_values s))
              else PM.find w (s_values s)).
    { intro w. rewrite find_add. destruct (Pos.eqb w arg); [reflexivity|].
      rewrite Ev4, find_add, <- En. destruct (Pos.eqb w e); [reflexivity|]. apply Ev2. }
    eapply (reindex_I s _ b br (set_b_args (firstn n args ++ skipn (S n) args) br));
      [apply (wf_results s W)|apply (wf_args s W)|apply (wf_owner s W)|exact Fb|exact Eb| | | | | | ];
      cbn [b_args set_b_args s_ops s_blocks s_values n_value with_values with_blocks].
    + rewrite Eo4, Eo2. reflexivity.
    + intros b' Nb. rewrite Eb4. rewrite find_add_other by exact Nb. rewrite Eb2. reflexivity.
    + rewrite Eb4. apply find_add_same.
    + (* members of the new list *)
      intros i w N. rewrite nth_delete in N by exact Ln. rewrite FV.
      destruct (Nat.ltb_spec i n) as [Lt|Ge].
      * destruct (ArgK _ _ N) as (vr & Fv & K).
        destruct (Pos.eqb_spec w arg) as [->|_]; [pose proof (NoDup_nth_eq _ _ _ _ NDa N Nn); lia|].
        destruct (Pos.eqb_spec w e) as [->|_]; [congruence|].
        assert (M : mem w (skipn (S n) args) = false).
        { apply mem_false. intro I. destruct (In_skipn _ _ _ I) as (k & Lk & Nk).
          pose proof (NoDup_nth_eq _ _ _ _ NDa N Nk). lia. }
        rewrite M. exists vr. auto.
      * destruct (ArgK _ _ N) as (vr & Fv & K).
        destruct (Pos.eqb_spec w arg) as [->|_]; [pose proof (NoDup_nth_eq _ _ _ _ NDa N Nn); lia|].
        destruct (Pos.eqb_spec w e) as [->|_]; [congruence|].
        assert (M : mem w (skipn (S n) args) = true).
        { apply mem_In. apply nth_error_In with (n := (i - n)%nat). rewrite nth_error_skipn.
          replace (S n + (i - n))%nat with (S i) by lia. exact N. }
        rewrite M, Fv. simpl. exists (shift (-1) vr). split; [reflexivity|].
        unfold shift. rewrite K. cbn [v_kind set_v_kind]. f_equal. lia.
    + (* the other values *)
      intros w vr' NI Fw D. rewrite FV in Fw.
      destruct (Pos.eqb_spec w arg) as [->|Na]; [injection Fw as <-; simpl in D; discriminate|].
      destruct (Pos.eqb_spec w e) as [->|Nwe]; [injection Fw as <-; left; exists arg; reflexivity|].
      assert (M : mem w (skipn (S n) args) = false).
      { apply mem_false. intro I. apply NI. apply in_or_app. right. exact I. }
      rewrite M in Fw. right. exists vr'. split; [exact Fw|]. split; [reflexivity|]. split; [exact D|].
      intro I. change (In w args) in I. destruct (In_split3 _ _ _ _ Nn I) as [I1|[I1|I1]].
      * apply NI. apply in_or_app. left. exact I1.
      * contradiction.
      * apply NI. apply in_or_app. right. exact I1.
    + intros w vr Fw NIa. rewrite FV.
      destruct (Pos.eqb_spec w arg) as [->|_]; [exfalso; apply NIa; eapply nth_error_In; exact Nn|].
      destruct (Pos.eqb_spec w e) as [->|_]; [congruence|].
      assert (M : mem w (skipn (S n) args) = false).
      { apply mem_false. intro I. apply NIa. destruct (In_skipn _ _ _ I) as (k & _ & Nk). eapply nth_error_In; exact Nk. }
      rewrite M. exists vr. auto.
Qed.

(* SSAValue.erase keeps the kind and the dead mark of every existing value *)
Lemma value_erase_keeps : forall s s' v safe r, WF s -> value_erase v safe s = (s', Ok r) ->
  forall w x, PM.find w (s_values s) = Some x ->
    exists x', PM.find w (s_values s') = Some x' /\ v_kind x' = v_kind x /\ v_dead x' = v_dead x.
Proof.
  intros s s' v safe r W H w x Fw. unfold value_erase in H.
  apply bind_ok in H as (s0 & fu & Hf & H). apply get_first_use_eff in Hf as [-> _].
  destruct (safe && is_some fu); [exfalso; eapply raise_ok; eauto|].
  apply bind_ok in H as (s4 & e & Ha & Hr).
  destruct (allocV_eff _ _ _ _ Ha) as (En & _ & _ & Ev4).
  pose proof (fresh_value s W) as FR.
  assert (F4 : PM.find w (s_values s4) = Some x).
  { rewrite Ev4, find_add. destruct (Pos.eqb_spec w (n_value s)) as [->|_]; [congruence|exact Fw]. }
  destruct (rauw_I _ _ _ _ _ Hr) as (_ & _ & Av).
  destruct (agree_find_rev _ _ _ _ _ Av F4) as (x' & F' & P). unfold pI_val in P. injection P as P1 P2.
  exists x'. auto.
Qed.

Theorem pr_erase_block_argument_WF : forall s s' arg safe r,
  WF s -> val_live s arg ->
  (forall vr b i, PM.find arg (s_values s) = Some vr -> v_kind vr = KArg b i -> blk_live s b) ->
  pr_erase_block_argument arg safe s = (s', Ok r) -> WF s'.
Proof.
  intros s s' arg safe r W (ar & Fa & Da) BL H. unfold pr_erase_block_argument in H.
  apply bind_ok in H as (s1 & r1 & Hv & H). unfold pr_replace_all_uses_with in Hv.
  pose proof (value_erase_WF _ _ _ _ _ W Hv) as W1.
  destruct (value_erase_keeps _ _ _ _ _ W Hv arg ar Fa) as (ar1 & Fa1 & K1 & D1).
  destruct (value_erase_T1 _ _ _ _ _ Hv) as [_ Ab].
  apply bind_ok in H as (s2 & ar2 & Hg & H). apply getV_ok in Hg as [-> Fa2].
  rewrite Fa1 in Fa2. injection Fa2 as <-.
  revert H. rewrite K1. destruct (v_kind ar) as [o i|b i|old] eqn:Ka; intro H;
    try (exfalso; eapply raise_ok; eauto; fail).
  destruct (BL ar b i Fa Ka) as (br & Fb & Eb).
  destruct (agree_find_rev _ _ _ _ _ Ab Fb) as (br1 & Fb1 & P). unfold pT1_blk in P. injection P as _ _ P3.
  eapply (erase_arg_WF s1 s' b arg safe r W1); [| |exact H].
  - exists br1. split; [exact Fb1|congruence].
  - exists ar1. split; [exact Fa1|congruence].
Qed.
