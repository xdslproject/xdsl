(* C16/ProofsMore.v -- scf.index_switch lowering, control-flow-hoist, lower-affine for/load/store,
   frontend-desymrefy (single-block store/load forwarding). *)
From Coq Require Import ZArith List Bool Lia.
From XV Require Import C16.Model C16.ProofsLicm.
Import ListNotations.
Local Open Scope Z_scope.

Section SwitchP.
Variable st : Type.
Variable casef : nat -> st -> st.

Lemma case_idx_lt : forall v cases i, case_idx v cases = Some i -> (i < length cases)%nat.
Proof.
  induction cases as [|c r IH]; intros i H; cbn in *; [discriminate|].
  destruct (v =? c); [inversion H; lia|].
  destruct (case_idx v r) as [j|] eqn:E; cbn in H; [|discriminate].
  inversion H; subst. specialize (IH j eq_refl). lia.
Qed.

Lemma sw_lookup_combine : forall v cases k d,
  sw_lookup v (combine cases (seq k (length cases))) d =
  match case_idx v cases with Some i => (k + i)%nat | None => d end.
Proof.
  induction cases as [|c r IH]; intros k d; cbn; [reflexivity|].
  destruct (v =? c); [lia|].
  rewrite IH. destruct (case_idx v r); cbn; lia.
Qed.

Lemma nth_region_block : forall (cases : list Z) i, (i <= length cases)%nat ->
  nth_error (lower_switch cases) (S i)
  = Some (mkSBlock (Some i) (SBr (length cases + 2))).
Proof.
  intros cases i Hi. unfold lower_switch. cbv zeta. cbn [nth_error].
  set (f := fun i => mkSBlock (Some i) (SBr (length cases + 2))).
  change [mkSBlock (Some (length cases)) (SBr (length cases + 2)); mkSBlock None SExit]
    with (map f [length cases] ++ [mkSBlock None SExit]).
  rewrite app_assoc, <- map_app, <- seq_S.
  rewrite nth_error_app1 by (rewrite map_length, seq_length; lia).
  rewrite nth_error_map, (nth_error_nth' _ O) by (rewrite seq_length; lia).
  rewrite seq_nth by lia. reflexivity.
Qed.

Lemma nth_exit_block : forall (cases : list Z),
  nth_error (lower_switch cases) (length cases + 2) = Some (mkSBlock None SExit).
Proof.
  intros cases. rewrite Nat.add_comm. unfold lower_switch. cbv zeta.
  change (nth_error (?b :: ?l) (2 + ?n)) with (nth_error l (S n)).
  rewrite nth_error_app2 by (rewrite map_length, seq_length; lia).
  rewrite map_length, seq_length. replace (S (length cases) - length cases)%nat with 1%nat by lia.
  reflexivity.
Qed.

(* the lowered switch runs the same region as scf.index_switch whenever the index argument survives
   the cast to i32 *)
Theorem switch_lowering : forall cases arg s fuel, trunc32 arg = arg -> (3 <= fuel)%nat ->
  sw_run st casef fuel (lower_switch cases) arg 0%nat s = RDone st (switch_sem st casef cases arg s).
Proof.
  intros cases arg s fuel Ht Hf.
  destruct (Nat.le_exists_sub _ _ Hf) as [k [-> _]]. rewrite Nat.add_comm. cbn [Nat.add].
  cbn [sw_run]. unfold lower_switch at 1. cbn [nth_error sb_pay sb_term].
  rewrite Ht. rewrite sw_lookup_combine. unfold switch_sem.
  destruct (case_idx arg cases) as [i|] eqn:E.
  - apply case_idx_lt, Nat.lt_le_incl in E. cbn [Nat.add]. rewrite nth_region_block by assumption.
    cbn [sb_pay sb_term]. rewrite nth_exit_block. reflexivity.
  - rewrite nth_region_block by apply Nat.le_refl. cbn [sb_pay sb_term].
    rewrite nth_exit_block. reflexivity.
Qed.
End SwitchP.

(* an index that does not fit 32 bits: 2^32 + 1 selects `case 1` after the cast, the default before *)
Theorem switch_lowering_refuted : exists cases arg,
  sw_run (list nat) (fun i s => i :: s) 3 (lower_switch cases) arg 0%nat []
  <> RDone _ (switch_sem (list nat) (fun i s => i :: s) cases arg []).
Proof. exists [1], 4294967297. vm_compute. discriminate. Qed.

Lemma signed_trunc_small : forall h z, -h <= z < h ->
  (let m := z mod (2 * h) in if m <? h then m else m - 2 * h) = z.
Proof.
  intros h z Hz. cbv zeta. destruct (Z.neg_nonneg_cases z) as [Hn | Hp].
  - rewrite <- (Z.mod_unique z (2 * h) (-1) (z + 2 * h)) by lia.
    rewrite (proj2 (Z.ltb_ge _ _)) by lia. lia.
  - rewrite Z.mod_small by lia. rewrite (proj2 (Z.ltb_lt _ _)) by lia. reflexivity.
Qed.

Lemma trunc32_small : forall z, -2147483648 <= z < 2147483648 -> trunc32 z = z.
Proof. exact (signed_trunc_small 2147483648). Qed.

Section CfhP.
Variable st : Type.
Variables (thenk elsek : Z -> st -> st).

Theorem cfh_commutes : forall a b c s,
  cfh_hoisted st thenk elsek (Some a) (Some b) c s = cfh_orig st thenk elsek (Some a) (Some b) c s.
Proof. intros. destruct c; reflexivity. Qed.

(* the op of the branch that is NOT taken traps: fine before, a trap after hoisting *)
Theorem cfh_refuted : forall b s,
  cfh_orig st thenk elsek None (Some b) false s = Some (elsek b s)
  /\ cfh_hoisted st thenk elsek None (Some b) false s = None.
Proof. intros. split; reflexivity. Qed.
End CfhP.

(* the pass hoists exactly when the trait table says every branch op is hoistable; outside the
   declared-Pure divisions those ops cannot trap *)
Theorem cfh_pass_partial : forall then_ops else_ops o a b,
  cfh_pass then_ops else_ops = true -> In o (then_ops ++ else_ops) ->
  declared_pure_division (fst o) = false -> (forall c, snd o = Some c -> b = c) ->
  op_eval (fst o) a b <> None.
Proof.
  intros t e o a b Hp Hin Hk Hrc. unfold cfh_pass in Hp. rewrite forallb_forall in Hp.
  specialize (Hp o Hin). eapply hoistable_partial; eassumption.
Qed.

Theorem cfh_pass_refuted : exists then_ops else_ops a b,
  cfh_pass then_ops else_ops = true /\ op_eval (fst (hd (KAddi, None) then_ops)) a b = None.
Proof. exists [(KRemsi, None)], [], 3, 0. split; reflexivity. Qed.

Theorem lower_affine_for_correct : forall lb ub step l u,
  mods_nonneg lb [] [] -> mods_nonneg ub [] [] ->
  lower_affine_for [lb] [ub] step = LFor l u step -> affine_for_bounds lb ub = Some (l, u).
Proof.
  intros lb ub step l u Hl Hu H. unfold lower_affine_for in H.
  destruct (negb (aexpr_closed lb) || negb (aexpr_closed ub)); [discriminate|].
  unfold affine_for_bounds.
  rewrite <- (affine_lowering_partial lb [] [] Hl), <- (affine_lowering_partial ub [] [] Hu).
  destruct (lower_eval lb [] []), (lower_eval ub [] []); try discriminate.
  inversion H; subst. reflexivity.
Qed.

Theorem lower_index_map_correct : forall results dims,
  Forall (fun e => mods_nonneg e dims []) results ->
  lower_index_map results dims = affine_index_map results dims.
Proof.
  intros results dims H. unfold lower_index_map, affine_index_map.
  induction H as [|e r He _ IH]; [reflexivity|].
  cbn [map]. rewrite IH. f_equal. apply affine_lowering_partial. assumption.
Qed.

(* symbolic store semantics of a single block: `fetch_reads s r ops cur` is what the fetch with
   result id r reads, given that the cell of symbol s currently holds `cur` *)
Fixpoint fetch_reads (s r : nat) (ops : list sop) (cur : option sval) : option (option sval) :=
  match ops with
  | [] => None
  | SFetch s' r' :: rest =>
      if Nat.eqb r r' then (if Nat.eqb s s' then Some cur else None) else fetch_reads s r rest cur
  | SUpdate s' v :: rest => fetch_reads s r rest (if Nat.eqb s s' then Some v else cur)
  | _ :: rest => fetch_reads s r rest cur
  end.

(* "the value fetched equals the last update": the lookup the pass performs (nearest preceding update
   of the symbol) is exactly the content of the symbol's cell when the fetch executes *)
Theorem last_write_is_cell_content : forall s r ops cur c,
  fetch_reads s r ops cur = Some c -> last_write_before s r ops cur = c.
Proof.
  intros s r. induction ops as [|o rest IH]; intros cur c H; cbn in *; [discriminate|].
  destruct o as [s'|s' v|s' r'|id args]; try (apply IH; assumption).
  destruct (Nat.eqb r r').
  - destruct (Nat.eqb s s'); [inversion H; reflexivity|discriminate].
  - apply IH. assumption.
Qed.

(* semantic preservation of the reference forwardings `forward` and `forward2` *)
Section DesymSem.
Variable outv : nat -> Z.                 (* values defined outside the block (constants, arguments) *)
Variable usef : nat -> list Z -> Z.       (* what the op with result id computes from its operand values *)
Variable init : nat -> Z.                 (* content of a symbol's cell on entry (symbols of an outer scope) *)
Notation valof := (sym_valof outv).
Notation cell := (sym_cell init).
Notation run := (sym_run outv usef init).

Lemma existsb_false_In : forall (p : sval -> bool) l, existsb p l = false ->
  forall v, In v l -> p v = false.
Proof.
  intros p l H v Hin. destruct (p v) eqn:E; [|reflexivity].
  assert (existsb p l = true) by (apply existsb_exists; exists v; split; assumption). congruence.
Qed.

Lemma valof_upd_f : forall fe ue x z v, mentions_f x v = false -> valof (upd fe x z) ue v = valof fe ue v.
Proof.
  intros fe ue x z v H. destruct v as [n|r]; [reflexivity|]. cbn in *. unfold upd.
  rewrite Nat.eqb_sym. rewrite H. reflexivity.
Qed.
Lemma valof_upd_u : forall fe ue x z v, mentions_u x v = false -> valof fe (upd ue x z) v = valof fe ue v.
Proof.
  intros fe ue x z v H. destruct v as [n|r]; [|reflexivity]. cbn in *. unfold upd.
  rewrite Nat.eqb_sym. rewrite H. reflexivity.
Qed.

Lemma cell_upd_same : forall sy s z, cell (upd sy s z) s = z.
Proof. intros. unfold sym_cell, upd. rewrite Nat.eqb_refl. reflexivity. Qed.
Lemma cell_upd_other : forall sy s s' z, Nat.eqb s' s = false -> cell (upd sy s z) s' = cell sy s'.
Proof. intros sy s s' z H. unfold sym_cell, upd. rewrite H. reflexivity. Qed.

(* The simulation between the original run (cells sy1, fetched values fe1) and the run of the forwarded
   block (sy2, fe2): sm holds the known content of cells, fm the values that replace erased fetches;
   everything they mention, and every erased fetch, is in `seen`, so that the SSA discipline keeps
   later definitions from disturbing it. *)
Record inv (sm fm : list (nat * sval)) (sy1 fe1 sy2 fe2 ue : fenv) (seen : list sval) : Prop := {
  inv_sym_some : forall s v, sym_lookup s sm = Some v -> cell sy1 s = valof fe2 ue v /\ In v seen;
  inv_sym_none : forall s, sym_lookup s sm = None -> cell sy1 s = cell sy2 s;
  inv_f_some : forall r v, val_lookup r fm = Some v ->
                 fe1 r = Some (valof fe2 ue v) /\ In v seen /\ In (VFetch r) seen;
  inv_f_none : forall r, val_lookup r fm = None -> fe1 r = fe2 r }.

Lemma resolve_ok : forall sm fm sy1 fe1 sy2 fe2 ue seen v,
  inv sm fm sy1 fe1 sy2 fe2 ue seen -> valof fe1 ue v = valof fe2 ue (resolve fm v).
Proof.
  intros sm fm sy1 fe1 sy2 fe2 ue seen v [_ _ Fs Fn]. destruct v as [n|r]; [reflexivity|].
  cbn [resolve sym_valof]. destruct (val_lookup r fm) as [w|] eqn:E.
  - destruct (Fs r w E) as [H _]. rewrite H. reflexivity.
  - rewrite (Fn r E). reflexivity.
Qed.

Lemma resolve_seen : forall sm fm sy1 fe1 sy2 fe2 ue seen v,
  inv sm fm sy1 fe1 sy2 fe2 ue seen -> In (resolve fm v) (v :: seen).
Proof.
  intros sm fm sy1 fe1 sy2 fe2 ue seen v [_ _ Fs _]. destruct v as [n|r]; [left; reflexivity|].
  cbn [resolve]. destruct (val_lookup r fm) as [w|] eqn:E; [|left; reflexivity].
  right. apply (Fs r w E).
Qed.

Lemma map_resolve_ok : forall sm fm sy1 fe1 sy2 fe2 ue seen args,
  inv sm fm sy1 fe1 sy2 fe2 ue seen ->
  map (valof fe1 ue) args = map (valof fe2 ue) (map (resolve fm) args).
Proof.
  intros sm fm sy1 fe1 sy2 fe2 ue seen args I. rewrite map_map. apply map_ext.
  intros v. eapply resolve_ok; eassumption.
Qed.

Lemma inv_seen : forall sm fm sy1 fe1 sy2 fe2 ue seen seen',
  inv sm fm sy1 fe1 sy2 fe2 ue seen -> incl seen seen' -> inv sm fm sy1 fe1 sy2 fe2 ue seen'.
Proof.
  intros sm fm sy1 fe1 sy2 fe2 ue seen seen' [Sy Sn Fs Fn] Hincl.
  constructor; [|assumption| |assumption].
  - intros s v H. destruct (Sy s v H) as [H1 H2]. auto.
  - intros r v H. destruct (Fs r v H) as [H1 [H2 H3]]. auto.
Qed.

Lemma inv_set_sym : forall sm fm sy1 fe1 sy2 fe2 ue seen s v sy1' sy2',
  inv sm fm sy1 fe1 sy2 fe2 ue seen ->
  (forall s', Nat.eqb s' s = false -> cell sy1' s' = cell sy1 s') ->
  (forall s', Nat.eqb s' s = false -> cell sy2' s' = cell sy2 s') ->
  cell sy1' s = valof fe2 ue v -> In v seen ->
  inv ((s, v) :: sm) fm sy1' fe1 sy2' fe2 ue seen.
Proof.
  intros sm fm sy1 fe1 sy2 fe2 ue seen s v sy1' sy2' [Sy Sn Fs Fn] H1 H2 Hs Hv.
  constructor; [| |assumption|assumption].
  - intros s' w H. cbn [sym_lookup] in H. destruct (Nat.eqb s' s) eqn:E.
    + apply Nat.eqb_eq in E. subst s'. injection H as <-. split; assumption.
    + rewrite H1 by assumption. apply Sy. assumption.
  - intros s' H. cbn [sym_lookup] in H. destruct (Nat.eqb s' s) eqn:E; [discriminate|].
    rewrite H1, H2 by assumption. apply Sn. assumption.
Qed.

(* the original block stores v in cell s; the forwarded block (cells sy2') may or may not *)
Lemma inv_update : forall sm fm sy1 fe1 sy2 fe2 ue seen s v sy2',
  inv sm fm sy1 fe1 sy2 fe2 ue seen ->
  (forall s', Nat.eqb s' s = false -> cell sy2' s' = cell sy2 s') ->
  inv ((s, resolve fm v) :: sm) fm (upd sy1 s (valof fe1 ue v)) fe1 sy2' fe2 ue (v :: seen).
Proof.
  intros sm fm sy1 fe1 sy2 fe2 ue seen s v sy2' I H2.
  apply inv_set_sym with (sy1 := sy1) (sy2 := sy2).
  - apply (inv_seen _ _ _ _ _ _ _ seen); [assumption|apply incl_tl, incl_refl].
  - intros s' E. apply cell_upd_other. assumption.
  - assumption.
  - rewrite cell_upd_same. eapply resolve_ok; eassumption.
  - eapply resolve_seen; eassumption.
Qed.

Lemma inv_fetch_forwarded : forall sm fm sy1 fe1 sy2 fe2 ue seen s x w,
  inv sm fm sy1 fe1 sy2 fe2 ue seen -> sym_lookup s sm = Some w ->
  inv sm ((x, w) :: fm) sy1 (upd fe1 x (cell sy1 s)) sy2 fe2 ue (VFetch x :: seen).
Proof.
  intros sm fm sy1 fe1 sy2 fe2 ue seen s x w I Es.
  destruct (inv_seen _ _ _ _ _ _ _ _ (VFetch x :: seen) I) as [Sy Sn Fs Fn]; [apply incl_tl, incl_refl|].
  constructor; [assumption|assumption| |].
  - intros r v H. cbn [val_lookup] in H. unfold upd. destruct (Nat.eqb r x) eqn:E.
    + apply Nat.eqb_eq in E. subst r. injection H as <-. destruct (Sy s w Es) as [H1 H2].
      rewrite H1. split; [reflexivity|]. split; [assumption|left; reflexivity].
    + apply Fs. assumption.
  - intros r H. cbn [val_lookup] in H. unfold upd.
    destruct (Nat.eqb r x); [discriminate|]. apply Fn. assumption.
Qed.

Lemma inv_fetch_kept : forall sm fm sy1 fe1 sy2 fe2 ue seen x c,
  inv sm fm sy1 fe1 sy2 fe2 ue seen -> existsb (mentions_f x) seen = false ->
  inv sm fm sy1 (upd fe1 x c) sy2 (upd fe2 x c) ue (VFetch x :: seen).
Proof.
  intros sm fm sy1 fe1 sy2 fe2 ue seen x c [Sy Sn Fs Fn] Hx.
  pose proof (existsb_false_In _ _ Hx) as Hx'.
  apply (inv_seen _ _ _ _ _ _ _ seen); [|apply incl_tl, incl_refl].
  constructor; [|assumption| |].
  - intros s v H. destruct (Sy s v H) as [H1 H2]. rewrite valof_upd_f by auto. auto.
  - intros r v H. destruct (Fs r v H) as [H1 [H2 H3]]. rewrite valof_upd_f by auto.
    pose proof (Hx' _ H3) as Hr. cbn in Hr. unfold upd. rewrite Nat.eqb_sym, Hr. auto.
  - intros r H. unfold upd. destruct (Nat.eqb r x); [reflexivity|]. apply Fn. assumption.
Qed.

Lemma inv_use : forall sm fm sy1 fe1 sy2 fe2 ue seen id args z,
  inv sm fm sy1 fe1 sy2 fe2 ue seen -> existsb (mentions_u id) (args ++ seen) = false ->
  inv sm fm sy1 fe1 sy2 fe2 (upd ue id z) (VOut id :: args ++ seen).
Proof.
  intros sm fm sy1 fe1 sy2 fe2 ue seen id args z [Sy Sn Fs Fn] Hid.
  assert (Hid' : forall v, In v seen -> mentions_u id v = false).
  { intros v Hv. apply (existsb_false_In _ _ Hid). apply in_or_app. right. assumption. }
  apply (inv_seen _ _ _ _ _ _ _ seen); [|apply incl_tl, incl_appr, incl_refl].
  constructor; [|assumption| |assumption].
  - intros s v H. destruct (Sy s v H) as [H1 H2]. rewrite valof_upd_u by auto. auto.
  - intros r v H. destruct (Fs r v H) as [H1 [H2 H3]]. rewrite valof_upd_u by auto. auto.
Qed.

(* store/load forwarding preserves what every remaining op computes: on every block in SSA form the
   forwarded block produces the same values *)
Theorem forward_preserves : forall ops sm fm sy1 fe1 sy2 fe2 ue seen,
  wf_block ops seen = true -> inv sm fm sy1 fe1 sy2 fe2 ue seen ->
  run (forward ops sm fm) sy2 fe2 ue = run ops sy1 fe1 ue.
Proof.
  induction ops as [|o rest IH]; intros sm fm sy1 fe1 sy2 fe2 ue seen Hwf I; [reflexivity|].
  destruct o as [s|s v|s x|id args]; cbn [forward sym_run wf_block] in Hwf |- *.
  - eapply IH; eassumption.
  - eapply IH; [eassumption|]. apply inv_update with (sy2 := sy2); [assumption|reflexivity].
  - apply andb_prop in Hwf. destruct Hwf as [Hx Hwf]. apply negb_true_iff in Hx.
    destruct (sym_lookup s sm) as [w|] eqn:Es.
    + eapply IH; [eassumption|]. apply inv_fetch_forwarded; assumption.
    + cbn [sym_run]. rewrite <- (inv_sym_none _ _ _ _ _ _ _ _ I s Es).
      eapply IH; [eassumption|]. apply inv_fetch_kept; assumption.
  - apply andb_prop in Hwf. destruct Hwf as [Hid Hwf]. apply negb_true_iff in Hid.
    rewrite <- (map_resolve_ok _ _ _ _ _ _ _ _ args I). f_equal.
    eapply IH; [eassumption|]. apply inv_use; assumption.
Qed.

Theorem forward_preserves_block : forall ops sy fe ue, wf_block ops [] = true ->
  run (forward ops [] []) sy fe ue = run ops sy fe ue.
Proof.
  intros ops sy fe ue Hwf. eapply forward_preserves; [eassumption|].
  constructor; cbn; intros; try discriminate; reflexivity.
Qed.

(* the same for blocks that also use cells of an enclosing scope (forward2) *)
Notation final := (sym_final outv usef init).

(* a cell of the enclosing scope whose content lags behind has an update still to come *)
Definition pending (decl : list nat) (rest : list sop) (sy1 sy2 : fenv) : Prop :=
  forall s, existsb (Nat.eqb s) decl = false -> cell sy1 s = cell sy2 s \/ later_update s rest = true.

Lemma pending_update : forall decl rest sy1 sy2 s v z sy2',
  pending decl (SUpdate s v :: rest) sy1 sy2 ->
  (forall s', Nat.eqb s' s = false -> cell sy2' s' = cell sy2 s') ->
  (existsb (Nat.eqb s) decl = false -> cell sy2' s = z \/ later_update s rest = true) ->
  pending decl rest (upd sy1 s z) sy2'.
Proof.
  intros decl rest sy1 sy2 s v z sy2' P Hother Hs s' Hs'. destruct (Nat.eqb s' s) eqn:E.
  - apply Nat.eqb_eq in E. subst s'. rewrite cell_upd_same.
    destruct (Hs Hs') as [H|H]; [left; symmetry; assumption|right; assumption].
  - rewrite cell_upd_other, Hother by assumption.
    specialize (P s' Hs'). cbn [later_update existsb] in P. rewrite E in P. exact P.
Qed.

Theorem forward2_preserves : forall decl ops sm fm sy1 fe1 sy2 fe2 ue seen,
  wf_block ops seen = true -> inv sm fm sy1 fe1 sy2 fe2 ue seen -> pending decl ops sy1 sy2 ->
  run (forward2 decl ops sm fm) sy2 fe2 ue = run ops sy1 fe1 ue
  /\ (forall s, existsb (Nat.eqb s) decl = false ->
        cell (final (forward2 decl ops sm fm) sy2 fe2 ue) s = cell (final ops sy1 fe1 ue) s).
Proof.
  intros decl. induction ops as [|o rest IH]; intros sm fm sy1 fe1 sy2 fe2 ue seen Hwf I P.
  - split; [reflexivity|]. intros s Hs.
    destruct (P s Hs) as [H|H]; [symmetry; assumption|discriminate].
  - destruct o as [s|s v|s x|id args]; cbn [forward2 sym_run sym_final wf_block] in Hwf |- *.
    + eapply IH; eassumption.
    + destruct (existsb (Nat.eqb s) decl || later_update s rest) eqn:Ec.
      * (* the update is dropped: a declared symbol, or not the last update of an outer one *)
        eapply IH; [eassumption|apply inv_update with (sy2 := sy2); [assumption|reflexivity]|].
        apply pending_update with (v := v) (sy2 := sy2); [assumption|reflexivity|].
        intros Hd. rewrite Hd in Ec. right. exact Ec.
      * cbn [sym_run sym_final]. rewrite <- (resolve_ok _ _ _ _ _ _ _ _ v I).
        eapply IH; [eassumption|apply inv_update with (sy2 := sy2); [assumption|]|].
        -- intros s' E. apply cell_upd_other. assumption.
        -- apply pending_update with (v := v) (sy2 := sy2); [assumption| |].
           ++ intros s' E. apply cell_upd_other. assumption.
           ++ intros _. left. apply cell_upd_same.
    + apply andb_prop in Hwf. destruct Hwf as [Hx Hwf]. apply negb_true_iff in Hx.
      destruct (sym_lookup s sm) as [w|] eqn:Es.
      * eapply IH; [eassumption|apply inv_fetch_forwarded; assumption|exact P].
      * (* the fetch stays and from now on is the known content of the cell *)
        cbn [sym_run sym_final]. rewrite <- (inv_sym_none _ _ _ _ _ _ _ _ I s Es).
        eapply IH; [eassumption| |exact P].
        apply inv_set_sym with (sy1 := sy1) (sy2 := sy2); [apply inv_fetch_kept; assumption| | | |].
        -- reflexivity.
        -- reflexivity.
        -- cbn [sym_valof]. unfold upd. rewrite Nat.eqb_refl. reflexivity.
        -- left. reflexivity.
    + apply andb_prop in Hwf. destruct Hwf as [Hid Hwf]. apply negb_true_iff in Hid.
      rewrite <- (map_resolve_ok _ _ _ _ _ _ _ _ args I).
      destruct (IH sm fm sy1 fe1 sy2 fe2 (upd ue id (usef id (map (valof fe1 ue) args))) _ Hwf
                  (inv_use _ _ _ _ _ _ _ _ _ _ _ I Hid) P) as [IH1 IH2].
      split; [f_equal; exact IH1|exact IH2].
Qed.

(* from the empty state: a whole block; the values computed AND the final content of every cell of the
   enclosing scope are preserved *)
Theorem forward2_preserves_block : forall decl ops sy fe ue, wf_block ops [] = true ->
  run (forward2 decl ops [] []) sy fe ue = run ops sy fe ue
  /\ (forall s, existsb (Nat.eqb s) decl = false ->
        cell (final (forward2 decl ops [] []) sy fe ue) s = cell (final ops sy fe ue) s).
Proof.
  intros decl ops sy fe ue Hwf. eapply forward2_preserves; [eassumption| |].
  - constructor; cbn; intros; try discriminate; reflexivity.
  - intros s _. left. reflexivity.
Qed.
End DesymSem.
