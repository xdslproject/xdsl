(* C05/ProofsState.v -- the facts carried through the parse: what inst_ok gives, and how every state
   update preserves `agree`, only `extends` the state, and sets the slot it is meant to set (`reach`). *)
From Coq Require Import ZArith String Bool Arith List Lia.
From XV Require Import C05.Model C05.Check C05.ProofsBase.
Import ListNotations.
Local Open Scope string_scope.
Local Open Scope list_scope.

Record IOK (d : opdef) (i : inst) : Prop := mkIOK {
  io_osz : build_sizes_ok (od_operands d) (i_operands i) = true;
  io_rsz : build_sizes_ok (od_results d) (i_results i) = true;
  io_oty : forall seg vt, In seg (i_operands i) -> In vt seg -> starts_type (av_full (snd vt)) = true;
  io_rty : forall seg t, In seg (i_results i) -> In t seg -> starts_type (av_full t) = true;
  io_ver : match verify_defs (od_operands d) (map (fun seg => Some (map snd seg)) (i_operands i)) [] with
           | Some ctx1 => match verify_defs (od_results d) (map Some (i_results i)) ctx1 with
                          | Some _ => true
                          | None => false
                          end
           | None => false
           end = true;
  io_pnd : nodup_keys (i_props i) = true;
  io_and : nodup_keys (i_attrs i) = true;
  io_pv : forall n a, In (n, a) (i_props i) ->
            In n (adef_names (od_props d)) /\ ~ In n (od_hidden d) /\ starts_attr (av_full a) = true;
  io_av : forall n a, In (n, a) (i_attrs i) -> ~ In n (od_hidden d) /\ starts_attr (av_full a) = true;
  io_pdef : forall a, In a (od_props d) -> adef_inst_ok (i_props i) a = true;
  io_adef : forall a, In a (od_attrs d) -> adef_inst_ok (i_attrs i) a = true
}.

Lemma inst_ok_IOK : forall d i, inst_ok d i = true -> IOK d i.
Proof.
  intros d i H. unfold inst_ok in H.
  repeat (apply andb_true_iff in H; destruct H as [H ?]).
  constructor; try assumption.
  - intros seg vt Hs Hv.
    match goal with Hf : forallb _ (i_operands i) = true |- _ => rewrite forallb_forall in Hf; specialize (Hf seg Hs);
      rewrite forallb_forall in Hf; exact (Hf vt Hv) end.
  - intros seg t Hs Ht.
    match goal with Hf : forallb _ (i_results i) = true |- _ => rewrite forallb_forall in Hf; specialize (Hf seg Hs);
      rewrite forallb_forall in Hf; exact (Hf t Ht) end.
  - intros n a Hin.
    match goal with Hf : forallb _ (i_props i) = true |- _ => rewrite forallb_forall in Hf; specialize (Hf (n, a) Hin) end.
    cbn [fst snd] in *.
    repeat match goal with Hc : _ && _ = true |- _ => apply andb_true_iff in Hc; destruct Hc end.
    repeat split.
    + apply mem_In; assumption.
    + intro Hh. apply mem_In in Hh.
      match goal with Hn : negb _ = true |- _ => rewrite Hh in Hn; discriminate end.
    + assumption.
  - intros n a Hin.
    match goal with Hf : forallb _ (i_attrs i) = true |- _ => rewrite forallb_forall in Hf; specialize (Hf (n, a) Hin) end.
    cbn [fst snd] in *.
    repeat match goal with Hc : _ && _ = true |- _ => apply andb_true_iff in Hc; destruct Hc end.
    split.
    + intro Hh. apply mem_In in Hh.
      match goal with Hn : negb _ = true |- _ => rewrite Hh in Hn; discriminate end.
    + assumption.
  - intros a Hin.
    match goal with Hf : forallb (adef_inst_ok (i_props i)) _ = true |- _ => rewrite forallb_forall in Hf; exact (Hf a Hin) end.
  - intros a Hin.
    match goal with Hf : forallb (adef_inst_ok (i_attrs i)) _ = true |- _ => rewrite forallb_forall in Hf; exact (Hf a Hin) end.
Qed.

Definition kind_len (k : kind) (n : nat) : Prop :=
  match k with KSingle => n = 1 | KOpt => n <= 1 | KVar => True end.

Lemma build_sizes_length : forall A vds (segs : list (list A)),
  build_sizes_ok vds segs = true -> length segs = length vds.
Proof.
  induction vds as [|vd r IH]; intros [|s rs] H; simpl in *; try discriminate; auto.
  apply andb_true_iff in H; destruct H as [_ H]. f_equal; apply IH; exact H.
Qed.
Lemma build_sizes_nth : forall A vds (segs : list (list A)) k vd,
  build_sizes_ok vds segs = true -> nth_error vds k = Some vd ->
  kind_len (vd_kind vd) (length (nth k segs [])).
Proof.
  induction vds as [|v r IH]; intros [|s rs] k vd H Hn; simpl in *; try discriminate.
  - destruct k; discriminate.
  - apply andb_true_iff in H; destruct H as [H1 H2].
    destruct k as [|k]; simpl in *.
    + inversion Hn; subst. destruct (vd_kind vd); simpl.
      * apply Nat.eqb_eq; exact H1.
      * apply Nat.leb_le; exact H1.
      * exact I.
    + eapply IH; eassumption.
Qed.
Lemma build_sizes_map : forall A B (g : A -> B) vds (segs : list (list A)),
  build_sizes_ok vds segs = true -> build_sizes_ok vds (map (map g) segs) = true.
Proof.
  induction vds as [|v r IH]; intros [|s rs] H; simpl in *; try discriminate; auto.
  apply andb_true_iff in H; destruct H as [H1 H2].
  rewrite map_length, H1. simpl. apply IH; exact H2.
Qed.

Record extends (st st' : pst) : Prop := mkExt {
  ex_v : forall k, isset (p_vals st) k -> isset (p_vals st') k;
  ex_o : forall k, isset (p_otys st) k -> isset (p_otys st') k;
  ex_r : forall k, isset (p_rtys st) k -> isset (p_rtys st') k;
  ex_p : forall n, lookup n (p_props st) <> None -> lookup n (p_props st') <> None;
  ex_a : forall n, lookup n (p_attrs st) <> None -> lookup n (p_attrs st') <> None
}.
Lemma extends_refl : forall st, extends st st.
Proof. intro st; constructor; auto. Qed.
Lemma extends_trans : forall a b c, extends a b -> extends b c -> extends a c.
Proof. intros a b c [] []; constructor; auto. Qed.

Lemma isset_set_nth : forall A (l : list (option A)) k x, k < length l -> isset (set_nth k (Some x) l) k.
Proof. intros A l k x H; exists x; apply nth_error_set_nth_eq; exact H. Qed.
Lemma isset_set_nth_mono : forall A (l : list (option A)) k x j, isset l j -> isset (set_nth k (Some x) l) j.
Proof.
  intros A l k x j [y Hy]. destruct (Nat.eq_dec k j) as [->|Hne].
  - exists x. apply nth_error_set_nth_eq. apply nth_error_Some. rewrite Hy; discriminate.
  - exists y. rewrite nth_error_set_nth_neq; assumption.
Qed.
Definition all_set {A} (l : list (option A)) : Prop := forall k, k < length l -> isset l k.
Lemma isset_map_Some : forall A (segs : list A) k, k < length segs -> isset (map Some segs) k.
Proof.
  intros A segs k H. destruct (nth_error segs k) as [x|] eqn:E.
  - exists x. rewrite nth_error_map, E. reflexivity.
  - apply nth_error_None in E; lia.
Qed.
Lemma isset_lt : forall A (l : list (option A)) k, isset l k -> k < length l.
Proof. intros A l k [x Hx]. apply nth_error_Some. rewrite Hx; discriminate. Qed.

Definition reach (d : opdef) (i : inst) (st st' : pst) (P : pst -> Prop) : Prop :=
  agree d i st' /\ extends st st' /\ P st'.

Lemma reach_refl : forall d i st (P : pst -> Prop), agree d i st -> P st -> reach d i st st P.
Proof. intros d i st P Ha Hp. split; [exact Ha|]. split; [apply extends_refl | exact Hp]. Qed.

Definition holds {A} (data : nat -> A) (l : list (option A)) : Prop :=
  forall k x, nth_error l k = Some (Some x) -> x = data k.

Lemma holds_set_nth : forall A (data : nat -> A) l k,
  holds data l -> k < length l -> holds data (set_nth k (Some (data k)) l).
Proof.
  intros A data l k H Hk j x Hj. destruct (Nat.eq_dec k j) as [->|Hne].
  - rewrite nth_error_set_nth_eq in Hj by exact Hk. injection Hj as <-. reflexivity.
  - rewrite nth_error_set_nth_neq in Hj by exact Hne. exact (H j x Hj).
Qed.

Lemma nth_map_nil : forall A B (g : A -> B) (l : list (list A)) k,
  nth k (map (map g) l) [] = map g (nth k l []).
Proof. intros. change (@nil B) with (map g (@nil A)). apply map_nth. Qed.

Lemma holds_map_Some : forall A (segs : list (list A)), holds (fun k => nth k segs []) (map Some segs).
Proof.
  intros A segs k x H. rewrite nth_error_map in H.
  destruct (nth_error segs k) as [y|] eqn:E; [|discriminate]. injection H as <-.
  symmetry. apply nth_error_nth; exact E.
Qed.

Lemma all_set_map_Some : forall A (segs : list A), all_set (map Some segs).
Proof. intros A segs k Hk. apply isset_map_Some. rewrite map_length in Hk; exact Hk. Qed.

Lemma agree_set_vals : forall d i st k,
  agree d i st -> k < length (od_operands d) ->
  reach d i st (set_vals k (vals_of i k) st) (fun s => isset (p_vals s) k).
Proof.
  intros d i st k [lv lo lr av ao ar ap aa] Hk. split; [|split].
  - constructor; simpl; auto; [rewrite set_nth_length; exact lv | apply holds_set_nth; [exact av | lia]].
  - constructor; simpl; auto. intro j; apply isset_set_nth_mono.
  - apply isset_set_nth; simpl; lia.
Qed.
Lemma agree_set_otys : forall d i st k,
  agree d i st -> k < length (od_operands d) ->
  reach d i st (set_otys k (otys_of i k) st) (fun s => isset (p_otys s) k).
Proof.
  intros d i st k [lv lo lr av ao ar ap aa] Hk. split; [|split].
  - constructor; simpl; auto; [rewrite set_nth_length; exact lo | apply holds_set_nth; [exact ao | lia]].
  - constructor; simpl; auto. intro j; apply isset_set_nth_mono.
  - apply isset_set_nth; simpl; lia.
Qed.
Lemma agree_set_rtys : forall d i st k,
  agree d i st -> k < length (od_results d) ->
  reach d i st (set_rtys k (rtys_of i k) st) (fun s => isset (p_rtys s) k).
Proof.
  intros d i st k [lv lo lr av ao ar ap aa] Hk. split; [|split].
  - constructor; simpl; auto; [rewrite set_nth_length; exact lr | apply holds_set_nth; [exact ar | lia]].
  - constructor; simpl; auto. intro j; apply isset_set_nth_mono.
  - apply isset_set_nth; simpl; lia.
Qed.

Lemma agree_set_all_vals : forall d i st,
  agree d i st -> length (i_operands i) = length (od_operands d) ->
  reach d i st (set_all_vals (map (map fst) (i_operands i)) st) (fun s => all_set (p_vals s)).
Proof.
  intros d i st [lv lo lr av ao ar ap aa] Hl. split; [|split].
  - constructor; simpl; auto; [rewrite !map_length; exact Hl|].
    intros k vs H. unfold vals_of. rewrite <- nth_map_nil. exact (holds_map_Some _ _ k vs H).
  - constructor; simpl; auto.
    intros k Hk. apply all_set_map_Some. rewrite !map_length, Hl, <- lv. exact (isset_lt _ _ _ Hk).
  - apply all_set_map_Some.
Qed.
Lemma agree_set_all_otys : forall d i st,
  agree d i st -> length (i_operands i) = length (od_operands d) ->
  reach d i st (set_all_otys (map (map snd) (i_operands i)) st) (fun s => all_set (p_otys s)).
Proof.
  intros d i st [lv lo lr av ao ar ap aa] Hl. split; [|split].
  - constructor; simpl; auto; [rewrite !map_length; exact Hl|].
    intros k vs H. unfold otys_of. rewrite <- nth_map_nil. exact (holds_map_Some _ _ k vs H).
  - constructor; simpl; auto.
    intros k Hk. apply all_set_map_Some. rewrite !map_length, Hl, <- lo. exact (isset_lt _ _ _ Hk).
  - apply all_set_map_Some.
Qed.
Lemma agree_set_all_rtys : forall d i st,
  agree d i st -> length (i_results i) = length (od_results d) ->
  reach d i st (set_all_rtys (i_results i) st) (fun s => all_set (p_rtys s)).
Proof.
  intros d i st [lv lo lr av ao ar ap aa] Hl. split; [|split].
  - constructor; simpl; auto; [rewrite map_length; exact Hl | exact (holds_map_Some _ _)].
  - constructor; simpl; auto.
    intros k Hk. apply all_set_map_Some. rewrite map_length, Hl, <- lr. exact (isset_lt _ _ _ Hk).
  - apply all_set_map_Some.
Qed.

Lemma lookup_cons_ne : forall n m a dct, lookup n dct <> None -> lookup n ((m, a) :: dct) <> None.
Proof. intros n m a dct H; simpl. destruct (String.eqb m n); [discriminate | exact H]. Qed.

Lemma lookup_cons_sub : forall n a (dct idct : list (string * av)),
  (forall m b, lookup m dct = Some b -> lookup m idct = Some b) -> lookup n idct = Some a ->
  forall m b, lookup m ((n, a) :: dct) = Some b -> lookup m idct = Some b.
Proof.
  intros n a dct idct H Hn m b Hm. simpl in Hm. destruct (String.eqb n m) eqn:E; [|exact (H m b Hm)].
  apply String.eqb_eq in E. subst m. injection Hm as <-. exact Hn.
Qed.

Lemma agree_set_attr : forall d i st p n a,
  agree d i st -> attr_of i n p = Some a ->
  reach d i st (set_attr p n a st)
    (fun s => lookup n (if p then p_props s else p_attrs s) = Some a).
Proof.
  intros d i st p n a [lv lo lr av ao ar ap aa] Hat. unfold attr_of in Hat.
  destruct p; (split; [|split]).
  1,4: constructor; simpl; auto; apply lookup_cons_sub; assumption.
  1,3: constructor; simpl; auto; intro m; apply lookup_cons_ne.
  all: simpl; rewrite String.eqb_refl; reflexivity.
Qed.
