(* Props/C19.v -- property C19: register allocation never gives one register to two live values.
   The theorem statements closed by `exact` of lemmas proved in C19/Proofs*.v, and three Examples on concrete
   functions closed by evaluation (C19_out_of_registers, C19_for_example, C19_loop_yield_iv_refuted).

   Model: C19/Model.v (RegisterStack, ValueAllocator, HasRegisterConstraints.allocate_registers,
   BlockNaiveAllocator.allocate_block, RISC-V zero rule, allocate_func, riscv_scf.for).
   Spec (C19/ProofsSpec.v, readable in a minute): a block is `sl : list sop`; a program point is a
   split sl = p ++ s; `live s v` = some operation of s reads v and none defines it; `wf_prog` = SSA;
   `io_ok` = an in/out operand dies at its in/out use (documented contract of HasRegisterConstraints);
   `forced_ok` = the registers the INPUT forces (pre-assigned, propagated through in/out ties) do not
   themselves clash; `input_ok` = zero is neither allocatable nor pre-assigned, pool >= 0.
   The model is that of /repo after the repairs d11e3b9 (RegisterStack.push / exclude_register) and
   26a8b63 (allocate_func excludes every pre-assigned register); the code before them is kept as
   `allocate_func_old` for the two recorded refutations.
   First the theorems for the straight-line fragment (`map Simple sl`), any size, any pool, any
   pre-assignment; then those for a function with one riscv_scf.for.  `zr` = RISC-V zero rule on/off (off = x86). *)
From Coq Require Import ZArith List Bool.
From XV Require Import C19.Model C19.ProofsSpec C19.ProofsAlloc C19.ProofsOp C19.ProofsStep C19.ProofsMain
                       C19.ProofsFunc C19.ProofsRefute C19.ProofsLoop C19.ProofsLoop2 C19.ProofsLoopEx C19.ProofsLoopSem C19.Enc.
Import ListNotations.
Local Open Scope Z_scope.

(* The allocator invariant, at every point of the backward walk: once the operations of the suffix s
   are processed, every value live before s has a register and that register is NOT available. *)
Theorem C19_allocator_invariant : forall zr pool allow pre sl,
  input_ok zr pool (mkFunc pre (map Simple sl)) -> wf_prog sl -> io_ok sl ->
  forall p s a, sl = p ++ s ->
  allocate_sops (mk_cfg zr (mkFunc pre (map Simple sl))) s (init_state pool allow (mkFunc pre (map Simple sl))) = Ok a ->
  (forall v, live s v -> exists r, ty a v = Some r /\ ~ In r (available (stk a)))
  /\ NoDup (available (stk a)).
Proof. intros zr pool allow pre sl Hin Hwf Hio. exact (func_invariant zr pool allow pre sl Hin Hwf Hio). Qed.
Print Assumptions C19_allocator_invariant.

(* No interference: two different values live at the same program point hold the same register only
   if both are known constants zero sitting in the hard-wired zero register. *)
Theorem C19_no_interference : forall zr pool allow pre sl af,
  input_ok zr pool (mkFunc pre (map Simple sl)) -> wf_prog sl -> io_ok sl ->
  forced_ok (ty0 (mkFunc pre (map Simple sl))) sl ->
  allocate_func zr pool allow (mkFunc pre (map Simple sl)) = Ok af ->
  forall p s v1 v2 r, sl = p ++ s -> live s v1 -> live s v2 -> v1 <> v2 ->
  ty af v1 = Some r -> ty af v2 = Some r ->
  zr = true /\ r = 0 /\ In v1 (zero_consts sl) /\ In v2 (zero_consts sl).
Proof.
  intros zr pool allow pre sl af Hin Hwf Hio Hf Hrun.
  exact (func_no_interference zr pool allow pre sl Hin Hwf Hio af Hrun Hf).
Qed.
Print Assumptions C19_no_interference.

(* ... and no result (even a dead one) is written into the register of a value live after the op. *)
Theorem C19_no_clobber : forall zr pool allow pre sl af,
  input_ok zr pool (mkFunc pre (map Simple sl)) -> wf_prog sl -> io_ok sl ->
  forced_ok (ty0 (mkFunc pre (map Simple sl))) sl ->
  allocate_func zr pool allow (mkFunc pre (map Simple sl)) = Ok af ->
  forall p o s d v r, sl = p ++ o :: s -> In d (defs o) -> live s v -> d <> v ->
  ty af d = Some r -> ty af v = Some r ->
  zr = true /\ r = 0 /\ In d (zero_consts sl) /\ In v (zero_consts sl).
Proof.
  intros zr pool allow pre sl af Hin Hwf Hio Hf Hrun.
  exact (func_no_clobber zr pool allow pre sl Hin Hwf Hio af Hrun Hf).
Qed.
Print Assumptions C19_no_clobber.

(* Without any assumption on the input's own ties/pre-assignments: whatever sharing there is, is
   confined to registers that the input itself pre-assigned (or to `zero`): registers handed out
   from the pool never clash with anything. *)
Theorem C19_interference_confined : forall zr pool allow pre sl af,
  input_ok zr pool (mkFunc pre (map Simple sl)) -> wf_prog sl -> io_ok sl ->
  allocate_func zr pool allow (mkFunc pre (map Simple sl)) = Ok af ->
  (forall p s v1 v2 r, sl = p ++ s -> live s v1 -> live s v2 -> v1 <> v2 ->
     ty af v1 = Some r -> ty af v2 = Some r ->
     (exists w, ty0 (mkFunc pre (map Simple sl)) w = Some r) \/ (zr = true /\ r = 0))
  /\ (forall p o s d v r, sl = p ++ o :: s -> In d (defs o) -> live s v -> d <> v ->
     ty af d = Some r -> ty af v = Some r ->
     (exists w, ty0 (mkFunc pre (map Simple sl)) w = Some r) \/ (zr = true /\ r = 0)).
Proof.
  intros zr pool allow pre sl af Hin Hwf Hio Hrun. split.
  - exact (func_confined zr pool allow pre sl Hin Hwf Hio af Hrun).
  - exact (func_def_confined zr pool allow pre sl Hin Hwf Hio af Hrun).
Qed.
Print Assumptions C19_interference_confined.

(* Pre-assigned registers are kept. *)
Theorem C19_preallocated_respected : forall zr pool allow pre sl af,
  input_ok zr pool (mkFunc pre (map Simple sl)) -> wf_prog sl -> io_ok sl ->
  allocate_func zr pool allow (mkFunc pre (map Simple sl)) = Ok af ->
  forall v r, ty0 (mkFunc pre (map Simple sl)) v = Some r -> ty af v = Some r.
Proof.
  intros zr pool allow pre sl af Hin Hwf Hio Hrun.
  exact (func_preallocated zr pool allow pre sl Hin Hwf Hio af Hrun).
Qed.
Print Assumptions C19_preallocated_respected.

(* Reserved registers are respected: a value that was unallocated in the input gets a register of the
   pool handed to the allocator, or an infinite one if allowed, or `zero` if it is a constant 0, or a
   register the input pre-assigned (through an in/out tie) -- never anything else (sp, ra, s-registers...). *)
Theorem C19_reserved_respected : forall zr pool allow pre sl af,
  input_ok zr pool (mkFunc pre (map Simple sl)) -> wf_prog sl -> io_ok sl ->
  allocate_func zr pool allow (mkFunc pre (map Simple sl)) = Ok af ->
  forall v r, ty af v = Some r -> ty0 (mkFunc pre (map Simple sl)) v = None ->
  In r pool \/ (r < 0 /\ allow = true) \/ (zr = true /\ r = 0 /\ In v (zero_consts sl))
  \/ (exists w, ty0 (mkFunc pre (map Simple sl)) w = Some r).
Proof.
  intros zr pool allow pre sl af Hin Hwf Hio Hrun.
  exact (func_reserved zr pool allow pre sl Hin Hwf Hio af Hrun).
Qed.
Print Assumptions C19_reserved_respected.

(* Every live value and every result has a register; in/out operand and result share one. *)
Theorem C19_allocated_and_tied : forall zr pool allow pre sl af,
  input_ok zr pool (mkFunc pre (map Simple sl)) -> wf_prog sl -> io_ok sl ->
  allocate_func zr pool allow (mkFunc pre (map Simple sl)) = Ok af ->
  (forall p s v, sl = p ++ s -> live s v -> exists r, ty af v = Some r)
  /\ (forall p o s d, sl = p ++ o :: s -> In d (defs o) -> exists r, ty af d = Some r)
  /\ (forall o x y, In o sl -> In (x, y) (s_io o) -> ty af x = ty af y /\ ty af x <> None).
Proof.
  intros zr pool allow pre sl af Hin Hwf Hio Hrun. split; [|split].
  - exact (func_live_allocated zr pool allow pre sl Hin Hwf Hio af Hrun).
  - exact (func_defs_allocated zr pool allow pre sl Hin Hwf Hio af Hrun).
  - exact (func_ties zr pool allow pre sl Hin Hwf Hio af Hrun).
Qed.
Print Assumptions C19_allocated_and_tied.

(* Semantics: run the allocated code on a register machine (reads of `zero` give 0, writes to it are
   discarded, operands read before results are written) and the SSA program on an environment, with
   arbitrary (uninterpreted) operation functions `fop`, constants 0 and moves as such: every operation
   -- in particular the final return -- reads the same operand values in both runs. *)
Theorem C19_semantics : forall zr pool allow pre sl af,
  input_ok zr pool (mkFunc pre (map Simple sl)) -> wf_prog sl -> io_ok sl ->
  forced_ok (ty0 (mkFunc pre (map Simple sl))) sl ->
  allocate_func zr pool allow (mkFunc pre (map Simple sl)) = Ok af ->
  forall (data : Type) (dzero : data) (fop : nat -> nat -> list data -> data)
         (env0 : value -> data) (rf0 : Z -> data),
  (forall v, live sl v -> read_reg data dzero zr (asg_of af) rf0 v = env0 v) ->
  forall p o s, sl = p ++ o :: s -> forall v, In v (uses o) ->
    read_reg data dzero zr (asg_of af) (exec_regs data dzero fop zr (asg_of af) 0 p rf0) v
    = exec_ssa data dzero fop 0 p env0 v.
Proof.
  intros zr pool allow pre sl af Hin Hwf Hio Hf Hrun data dzero fop env0 rf0 Hinit.
  exact (func_semantics zr pool allow pre sl Hin Hwf Hio af Hrun Hf data dzero fop env0 rf0 Hinit).
Qed.
Print Assumptions C19_semantics.

(* Recorded refutations of the allocator BEFORE the repairs (known_findings.d/C19.json: fixed): on
   inputs satisfying every hypothesis above, the faithful model of the old code put two live values
   into one register; the repaired model separates them / fails explicitly. *)
Theorem C19_infinite_preassigned_old_refuted :
  exists zr pool allow pre sl af p s v1 v2 r,
    let fn := mkFunc pre (map Simple sl) in
    input_ok zr pool fn /\ wf_prog sl /\ io_ok sl /\ forced_ok (ty0 fn) sl
    /\ allocate_func_old zr pool allow pre sl = Ok af
    /\ sl = p ++ s /\ live s v1 /\ live s v2 /\ v1 <> v2
    /\ ty af v1 = Some r /\ ty af v2 = Some r /\ r <> 0
    /\ match allocate_func zr pool allow fn with
       | Ok af' => ty af' v1 <> ty af' v2 | Err _ => False end.
Proof. exact infinite_preassigned_old_refuted. Qed.
Print Assumptions C19_infinite_preassigned_old_refuted.

Theorem C19_unexcluded_preassigned_old_refuted :
  exists zr pool allow pre sl af p s v1 v2 r,
    let fn := mkFunc pre (map Simple sl) in
    input_ok zr pool fn /\ wf_prog sl /\ io_ok sl /\ forced_ok (ty0 fn) sl
    /\ allocate_func_old zr pool allow pre sl = Ok af
    /\ sl = p ++ s /\ live s v1 /\ live s v2 /\ v1 <> v2
    /\ ty af v1 = Some r /\ ty af v2 = Some r /\ r <> 0
    /\ allocate_func zr pool allow fn = Err OutOfRegisters.
Proof. exact unexcluded_preassigned_old_refuted. Qed.
Print Assumptions C19_unexcluded_preassigned_old_refuted.

(* The hypotheses are satisfiable by a non-trivial program (zero constant, pre-assigned a0 that is in
   the pool and gets excluded, a register reused by two consecutive values). *)
Theorem C19_hypotheses_satisfiable :
  exists zr pool allow pre sl af,
    let fn := mkFunc pre (map Simple sl) in
    input_ok zr pool fn /\ wf_prog sl /\ io_ok sl /\ forced_ok (ty0 fn) sl
    /\ allocate_func zr pool allow fn = Ok af
    /\ ty af 0%nat = Some 0 /\ ty af 1%nat = Some 10
    /\ ty af 2%nat = ty af 3%nat /\ ty af 2%nat = Some 5.
Proof. exact hypotheses_satisfiable. Qed.
Print Assumptions C19_hypotheses_satisfiable.

(* OutOfRegisters is an explicit result, not a silent wrong answer: three values live together,
   two registers, no infinite registers. *)
Example C19_out_of_registers :
  allocate_func true [6; 5] false
    (mkFunc [None; None; None; None]
       [S_ [] [0%nat] [] KOther true; S_ [] [1%nat] [] KOther true; S_ [] [2%nat] [] KOther true;
        S_ [0%nat; 1%nat; 2%nat] [3%nat] [] KOther true; S_ [3%nat] [] [] KOther true])
  = Err OutOfRegisters.
Proof. vm_compute. reflexivity. Qed.

(* On a loop with a zero constant, a step and a loop-carried value the riscv_scf.for model computes the
   registers the real pass prints (zero, t2, t3, t0 | result t0 | iv t1, carried t0 | t4, t4, t0). *)
Example C19_for_example :
  match allocate_func true [17; 16; 15; 14; 13; 12; 11; 10; 31; 30; 29; 28; 7; 6; 5] false
    (mkFunc (repeat None 10)
       [S_ [] [0%nat] [] KZero true; S_ [] [1%nat] [] KOther true; S_ [] [2%nat] [] KOther true;
        S_ [] [3%nat] [] KOther true;
        F_ 0%nat 1%nat (Some 2%nat) [3%nat] [4%nat] [5%nat; 6%nat]
           [B_ [] [7%nat] [] KOther true; B_ [6%nat; 7%nat] [8%nat] [] KOther true;
            B_ [8%nat; 8%nat] [9%nat] [] KOther true] [9%nat];
        S_ [4%nat] [] [] KOther true]) with
  | Ok af => map (ty af) (seq 0 10)
             = [Some 0; Some 7; Some 28; Some 5; Some 5; Some 6; Some 5; Some 29; Some 29; Some 5]
  | Err _ => False
  end.
Proof. vm_compute. reflexivity. Qed.

(* riscv_scf.for: the building blocks of the end-to-end theorems further down (C19_no_interference_loop ...),
   each for an arbitrary invariant and arbitrary programs, stated with their exact hypotheses (hence
   `_partial`).  `Inv c t0 FR L E M a` (C19/ProofsAlloc.v) is the allocator invariant: the registers of
   the values in L are not available, two of them share a register only if the typing t0 pre-assigns it,
   or it is zero, or the pair is exempt by E; values outside M still have their t0 type.

   (1) allocating the loop-carried groups (block_arg, iter operand, yield operand, result) preserves the
       invariant, PROVIDED the groups do not overlap (NoDup (concat gs)), the block argument, the iter
       operand and the yield operand of every group are so far untouched and unallocated in the input
       (the iter operand dies at the loop: it is used by nothing processed before; the yield operand is a
       body value, not the induction variable and not an outer value), and the result is unallocated
       in the input.  These hypotheses exclude the shape of the recorded finding C19-kf-3 (yield of the
       induction variable), see C19_loop_yield_iv_refuted below. *)
Theorem C19_loop_groups_partial : forall c t0 (FR : value -> Z -> Prop) gs0, NoDup (concat gs0) ->
  forall (L M : value -> Prop) gs pre acc a a',
    gs0 = pre ++ gs ->
    Inv c t0 FR (setof L acc) (Eg gs0) (setof M acc) a ->
    (forall g, In g gs -> exists b it y r_, g = [b; it; y; r_] /\ NoDup g
        /\ ~ M b /\ ~ M it /\ ~ M y /\ t0 b = None /\ t0 it = None /\ t0 y = None /\ t0 r_ = None
        /\ (L r_ \/ ~ M r_) /\ ~ In r_ (zconsts c)
        /\ (forall u w r, In u g -> In w g -> FR u r -> FR w r)
        /\ (forall u, In u g -> ~ In u acc)) ->
    NoDup (concat gs) ->
    fold_res allocate_values_same_reg gs a = Ok a' ->
    Inv c t0 FR (setof L (acc ++ concat gs)) (Eg gs0) (setof M (acc ++ concat gs)) a' /\ mono a a'
    /\ (forall g, In g gs -> exists R, forall u, In u g -> ty a' u = Some R)
    /\ (forall w, ~ In w (concat gs) -> ty a' w = ty a w).
Proof. intros c t0 FR gs0 Hnd. exact (groups_phase4 c t0 FR gs0 Hnd). Qed.
Print Assumptions C19_loop_groups_partial.

(* (2) reserving registers that are not available (the loop-carried ones) preserves the invariant *)
Theorem C19_loop_reserve_partial : forall c t0 (FR : value -> Z -> Prop) (L : value -> Prop) E (M : value -> Prop) a regs,
  Inv c t0 FR L E M a ->
  (forall r, In r regs -> ~ In r (available (stk a)) /\ (r < 0 -> - r - 1 < next_inf (stk a))) ->
  Inv c t0 FR L E M (set_stk a (fold_left (fun s r => reserve_register r s) regs (stk a))).
Proof. exact reserve_inv. Qed.
Print Assumptions C19_loop_reserve_partial.

(* (3) the walk over a segment q of a block l (the loop body inside the virtual straight-line block
       pre ++ H :: body ++ Y :: post, where the pseudo-operations H / Y stand for the loop header and the
       back edge and make live-ins, induction variable and yield operands live throughout the body),
       started from ANY state that satisfies the invariant at the point below the segment -- in
       particular one with reserved registers -- re-establishes it at every point of the segment;
       t0 may be the typing in which the members of the loop-carried groups count as pre-assigned. *)
Theorem C19_loop_body_partial : forall c t0 (FR : value -> Z -> Prop),
  (forall v r, t0 v = Some r -> FR v r) ->
  forall l, wf_prog l -> io_ok l ->
  (forall o' x y, In o' l -> In (x, y) (s_io o') -> ~ In y (zconsts c)) ->
  (forall o' x y, In o' l -> In (x, y) (s_io o') -> forall r, (FR x r -> FR y r) /\ (FR y r -> FR x r)) ->
  forall q s0 p a0 a, l = p ++ q ++ s0 ->
    Inv c t0 FR (live s0) Enone (ment s0) a0 -> (forall v, live s0 v -> exists r, ty a0 v = Some r) ->
    allocate_sops c q a0 = Ok a ->
    Inv c t0 FR (live (q ++ s0)) Enone (ment (q ++ s0)) a
    /\ (forall v, live (q ++ s0) v -> exists r, ty a v = Some r) /\ mono a0 a.
Proof. intros c t0 FR Hpre l Hwf Hio Hnz Htie. exact (walk_from c t0 FR Hpre l Hwf Hio Hnz Htie). Qed.
Print Assumptions C19_loop_body_partial.

(* Recorded finding C19-kf-3 (found through the C22 pipeline check, C22-kf-7): a riscv_scf.for that
   yields its own induction variable -- `scf.for %i ... iter_args(%acc = %init) { yield %i }`, valid IR
   produced by xDSL's own lowering -- is allocated without error and the induction variable (value 5),
   the iter operand (3), the carried block argument (6) and the result (4) all get t0: the loop header's
   `mv iv <- lb` overwrites the carried value, the increment of iv overwrites the yielded one. *)
Example C19_loop_yield_iv_refuted :
  match allocate_func true [17; 16; 15; 14; 13; 12; 11; 10; 31; 30; 29; 28; 7; 6; 5] false
    (mkFunc (repeat None 7)
       [S_ [] [0%nat] [] KZero true; S_ [] [1%nat] [] KOther true; S_ [] [2%nat] [] KOther true;
        S_ [2%nat] [3%nat] [] KMv true;
        F_ 0%nat 1%nat None [3%nat] [4%nat] [5%nat; 6%nat] [] [5%nat];
        S_ [4%nat] [] [] KOther true]) with
  | Ok af => ty af 3%nat = Some 5 /\ ty af 5%nat = Some 5 /\ ty af 4%nat = Some 5
  | Err _ => False
  end.
Proof. vm_compute. repeat split; reflexivity. Qed.

(* (4) once the groups are allocated and their registers reserved, the invariant also holds for the typing
       `rebased` in which the group members gv count as pre-assigned their registers (this is what lets the
       body walk (3) treat the carried block arguments like pre-assigned values). *)
Theorem C19_loop_rebase_partial : forall c t0 (FR FR' : value -> Z -> Prop) gv a (L : value -> Prop) E (M : value -> Prop),
  Inv c t0 FR L E M a ->
  (forall v, In v gv -> M v) ->
  (forall v, In v gv -> exists R, ty a v = Some R /\ is_reserved R (stk a) = true) ->
  (zero_rule c = true -> forall v, In v gv -> ty a v <> Some 0) ->
  (forall v r, FR v r -> FR' v r) ->
  (forall v r, L v -> ty a v = Some r -> (exists w, In w gv /\ ty a w = Some r) -> FR' v r) ->
  Inv c (rebased t0 gv a) FR' L E M a.
Proof. exact rebase. Qed.
Print Assumptions C19_loop_rebase_partial.

(* riscv_scf.for, END TO END: a function  pre ; riscv_scf.for f ; post  with one loop (one nesting level)
   and no pre-assigned register.  Liveness is the straight-line liveness of the virtual block
       virt pre f post = pre ++ H :: body ++ Y :: post          (C19/ProofsLoop2.v)
   whose pseudo-operation H (loop header) reads lb, ub, step, ties each iter operand to its carried block
   argument and defines the induction variable, and whose pseudo-operation Y (back edge / exit) reads the
   induction variable, the body's live-ins, ub and step -- so all of these are live throughout the body,
   which is the fixed point of loop liveness over the back edge -- and ties each yield operand to its result.
   `tconn` = connected by in/out ties, the H / Y ties and the back-edge ties (block argument ~ yield operand).
   Hypotheses: SSA and the in/out contract on the virtual block (this includes: an iter operand dies at the
   loop); the loop-carried groups do not overlap; values of the body are not used after the loop;
   the induction variable, the live-ins and lb/ub/step are not members of a loop-carried group (so every
   yield operand is a value of its own; this excludes `yield %iv`, the recorded finding C19-kf-3);
   values tied into one register are never live together (the satisfiability of the input's own ties).
   Conclusion: after a successful allocate_func every value live at any point -- before, inside (at every
   body point, at the loop start and at the loop end) or after the loop -- has a register, and two different
   values live at the same point share a register only if it is `zero` (with the zero rule). *)
Theorem C19_no_interference_loop : forall zr pool allow types pre f post iv cb af,
  (zr = true -> ~ In 0 pool) -> (forall r, In r pool -> 0 <= r) ->
  (forall v, ty0 (mkFunc types (map Simple pre ++ For f :: map Simple post)) v = None) ->
  f_bargs f = iv :: cb ->
  wf_prog (virt pre f post) -> io_ok (virt pre f post) ->
  (forall o x y, In o (virt pre f post) -> In (x, y) (s_io o) ->
     ~ In y (zconsts (mk_cfg zr (mkFunc types (map Simple pre ++ For f :: map Simple post))))) ->
  length (f_iters f) = length cb /\ length (f_iters f) = length (f_yield f) /\ length (f_iters f) = length (f_res f) ->
  NoDup (concat (groups f)) ->
  (forall v, In v (iv :: cb) \/ defined_in (f_body f) v -> ~ used_in post v) ->
  ~ In iv (concat (groups f)) ->
  (forall v, In v (live_ins_body f) -> ~ In v (concat (groups f)) /\ v <> iv) ->
  (forall v, In v (f_lb f :: f_ub f :: step_list f) -> ~ In v (concat (groups f)) /\ v <> iv) ->
  (forall p s, virt pre f post = p ++ s -> forall v1 v2, live s v1 -> live s v2 -> v1 <> v2 ->
     tconn pre f post v1 v2 -> False) ->
  allocate_func zr pool allow (mkFunc types (map Simple pre ++ For f :: map Simple post)) = Ok af ->
  forall p s, virt pre f post = p ++ s ->
    (forall v, live s v -> exists r, ty af v = Some r)
    /\ (forall v1 v2 r, live s v1 -> live s v2 -> v1 <> v2 -> ty af v1 = Some r -> ty af v2 = Some r ->
          zr = true /\ r = 0).
Proof. exact loop_no_interference. Qed.
Print Assumptions C19_no_interference_loop.

(* The hypotheses of C19_no_interference_loop are satisfiable by a loop that carries a value:
     %0 = li ; %1 = li ; %2 = li ; %3 = mv %2
     %4 = riscv_scf.for %5 = %0 to %1 iter_args(%6 = %3) { %7 = add %6, %5 ; yield %7 } ; return %4
   every hypothesis is checked, allocation succeeds (iter operand, carried block argument, yield operand and
   result share t0, the induction variable is in t1) and the theorem gives freedom from interference at
   every point. *)
Theorem C19_loop_hypotheses_satisfiable :
  exists zr pool allow types pre f post af,
    allocate_func zr pool allow (mkFunc types (map Simple pre ++ For f :: map Simple post)) = Ok af
    /\ f_iters f <> []
    /\ ty af 3%nat = Some 5 /\ ty af 6%nat = Some 5 /\ ty af 7%nat = Some 5 /\ ty af 4%nat = Some 5
    /\ ty af 5%nat = Some 6
    /\ forall p s, virt pre f post = p ++ s ->
         (forall v, live s v -> exists r, ty af v = Some r)
         /\ (forall v1 v2 r, live s v1 -> live s v2 -> v1 <> v2 -> ty af v1 = Some r -> ty af v2 = Some r ->
               zr = true /\ r = 0).
Proof. exact loop_hypotheses_satisfiable. Qed.
Print Assumptions C19_loop_hypotheses_satisfiable.

(* ... and no result of an operation before, inside or after the loop is written into the register of a
   value that is live after that operation; the loop header's write of the induction variable clobbers
   nothing live in the body (same hypotheses, plus: a value is not written while a value tied to it is live). *)
Theorem C19_no_clobber_loop : forall zr pool allow types pre f post iv cb af,
  (zr = true -> ~ In 0 pool) -> (forall r, In r pool -> 0 <= r) ->
  (forall v, ty0 (mkFunc types (map Simple pre ++ For f :: map Simple post)) v = None) ->
  f_bargs f = iv :: cb ->
  wf_prog (virt pre f post) -> io_ok (virt pre f post) ->
  (forall o x y, In o (virt pre f post) -> In (x, y) (s_io o) ->
     ~ In y (zconsts (mk_cfg zr (mkFunc types (map Simple pre ++ For f :: map Simple post))))) ->
  length (f_iters f) = length cb /\ length (f_iters f) = length (f_yield f) /\ length (f_iters f) = length (f_res f) ->
  NoDup (concat (groups f)) ->
  (forall v, In v (iv :: cb) \/ defined_in (f_body f) v -> ~ used_in post v) ->
  ~ In iv (concat (groups f)) ->
  (forall v, In v (live_ins_body f) -> ~ In v (concat (groups f)) /\ v <> iv) ->
  (forall v, In v (f_lb f :: f_ub f :: step_list f) -> ~ In v (concat (groups f)) /\ v <> iv) ->
  (forall p s, virt pre f post = p ++ s -> forall v1 v2, live s v1 -> live s v2 -> v1 <> v2 ->
     tconn pre f post v1 v2 -> False) ->
  (forall p o s, virt pre f post = p ++ o :: s -> forall d v, In d (defs o) -> live s v -> d <> v ->
     tconn pre f post d v -> False) ->
  allocate_func zr pool allow (mkFunc types (map Simple pre ++ For f :: map Simple post)) = Ok af ->
  (forall l1 o l2 rest, (pre = l1 ++ o :: l2 /\ rest = l2 ++ Hop f :: f_body f ++ Yop f :: post)
                        \/ (f_body f = l1 ++ o :: l2 /\ rest = l2 ++ Yop f :: post)
                        \/ (post = l1 ++ o :: l2 /\ rest = l2) ->
     forall d v r, In d (defs o) -> live rest v -> d <> v -> ty af d = Some r -> ty af v = Some r ->
       zr = true /\ r = 0)
  /\ (forall v r, live (f_body f ++ Yop f :: post) v -> v <> iv -> ty af iv = Some r -> ty af v = Some r ->
       zr = true /\ r = 0).
Proof. exact loop_no_clobber. Qed.
Print Assumptions C19_no_clobber_loop.

(* its extra hypothesis holds for the example of C19_loop_hypotheses_satisfiable as well *)
Theorem C19_loop_clobber_hypothesis_satisfiable :
  forall p o s, virt ex_pre ex_f ex_post = p ++ o :: s -> forall d v, In d (defs o) -> live s v -> d <> v ->
    tconn ex_pre ex_f ex_post d v -> False.
Proof. exact loop_clobber_hypotheses_satisfiable. Qed.
Print Assumptions C19_loop_clobber_hypothesis_satisfiable.

(* The live-ins computed by the model of _live_ins_per_block contain every outer value the body reads (or
   yields): so the pseudo-operation Y of the virtual block keeps exactly the right values live over the back
   edge, i.e. the straight-line liveness of `virt` is the loop's liveness fixed point. *)
Theorem C19_loop_live_ins_complete : forall f v,
  (used_in (f_body f) v \/ In v (f_yield f)) -> ~ defined_in (f_body f) v -> ~ In v (f_bargs f) ->
  In v (live_ins_body f).
Proof. exact live_ins_complete. Qed.
Print Assumptions C19_loop_live_ins_complete.

(* Semantics of one loop iteration (the induction step for every trip count): under the hypotheses of
   C19_no_interference_loop / C19_no_clobber_loop, with the registers assigned by allocate_func, running the
   loop body on the register machine and on the SSA environment from states that agree on everything live
   at the top of the body yields states that agree on everything live at the end of the body: the induction
   variable, the body's live-ins, ub/step, the yield operands (= the next carried values, = the results) and
   every value live after the loop; operation functions are uninterpreted. *)
Theorem C19_semantics_loop_iteration : forall zr pool allow types pre f post iv cb af,
  (zr = true -> ~ In 0 pool) -> (forall r, In r pool -> 0 <= r) ->
  (forall v, ty0 (mkFunc types (map Simple pre ++ For f :: map Simple post)) v = None) ->
  f_bargs f = iv :: cb ->
  wf_prog (virt pre f post) -> io_ok (virt pre f post) ->
  (forall o x y, In o (virt pre f post) -> In (x, y) (s_io o) ->
     ~ In y (zconsts (mk_cfg zr (mkFunc types (map Simple pre ++ For f :: map Simple post))))) ->
  length (f_iters f) = length cb /\ length (f_iters f) = length (f_yield f) /\ length (f_iters f) = length (f_res f) ->
  NoDup (concat (groups f)) ->
  (forall v, In v (iv :: cb) \/ defined_in (f_body f) v -> ~ used_in post v) ->
  ~ In iv (concat (groups f)) ->
  (forall v, In v (live_ins_body f) -> ~ In v (concat (groups f)) /\ v <> iv) ->
  (forall v, In v (f_lb f :: f_ub f :: step_list f) -> ~ In v (concat (groups f)) /\ v <> iv) ->
  (forall p s, virt pre f post = p ++ s -> forall v1 v2, live s v1 -> live s v2 -> v1 <> v2 ->
     tconn pre f post v1 v2 -> False) ->
  (forall p o s, virt pre f post = p ++ o :: s -> forall d v, In d (defs o) -> live s v -> d <> v ->
     tconn pre f post d v -> False) ->
  allocate_func zr pool allow (mkFunc types (map Simple pre ++ For f :: map Simple post)) = Ok af ->
  forall (data : Type) (dzero : data) (fop : nat -> nat -> list data -> data) (env : value -> data) (rf : Z -> data),
    (forall v, live (f_body f ++ Yop f :: post) v -> read_reg data dzero zr (asg_of af) rf v = env v) ->
    (forall v, In v (zero_consts (pre ++ [Hop f])) -> env v = dzero) ->
    (forall v, live (Yop f :: post) v ->
       read_reg data dzero zr (asg_of af)
         (exec_regs data dzero fop zr (asg_of af) (length (pre ++ [Hop f])) (f_body f) rf) v
       = exec_ssa data dzero fop (length (pre ++ [Hop f])) (f_body f) env v)
    /\ (forall v, In v (zero_consts ((pre ++ [Hop f]) ++ f_body f)) ->
          exec_ssa data dzero fop (length (pre ++ [Hop f])) (f_body f) env v = dzero).
Proof. exact func_loop_iteration. Qed.
Print Assumptions C19_semantics_loop_iteration.

(* Semantics of the WHOLE loop, for every trip count n (induction on n over the iteration step above):
   SSA semantics `ssa_loop` of riscv_scf.for -- induction variable := lb, carried := iter operands; n times:
   body, then induction variable := ivnext iv step, carried := yielded values; finally results := carried --
   against the lowered loop on the register machine `regs_loop` -- mv iv <- lb ; (body ; iv <- ivnext iv step)^n,
   the carried values and results staying in their registers (no moves: that is what the lowering emits).
   If the two states agree on everything live before the loop, they agree on everything live after it, the
   loop results included; operation functions and the induction-variable update are uninterpreted.
   (C19/ProofsLoopSem.v: ssa_loop, regs_loop.) *)
Theorem C19_semantics_loop : forall zr pool allow types pre f post iv cb af,
  (zr = true -> ~ In 0 pool) -> (forall r, In r pool -> 0 <= r) ->
  (forall v, ty0 (mkFunc types (map Simple pre ++ For f :: map Simple post)) v = None) ->
  f_bargs f = iv :: cb ->
  wf_prog (virt pre f post) -> io_ok (virt pre f post) ->
  (forall o x y, In o (virt pre f post) -> In (x, y) (s_io o) ->
     ~ In y (zconsts (mk_cfg zr (mkFunc types (map Simple pre ++ For f :: map Simple post))))) ->
  length (f_iters f) = length cb /\ length (f_iters f) = length (f_yield f) /\ length (f_iters f) = length (f_res f) ->
  NoDup (concat (groups f)) ->
  (forall v, In v (iv :: cb) \/ defined_in (f_body f) v -> ~ used_in post v) ->
  ~ In iv (concat (groups f)) ->
  (forall v, In v (live_ins_body f) -> ~ In v (concat (groups f)) /\ v <> iv) ->
  (forall v, In v (f_lb f :: f_ub f :: step_list f) -> ~ In v (concat (groups f)) /\ v <> iv) ->
  (forall p s, virt pre f post = p ++ s -> forall v1 v2, live s v1 -> live s v2 -> v1 <> v2 ->
     tconn pre f post v1 v2 -> False) ->
  (forall p o s, virt pre f post = p ++ o :: s -> forall d v, In d (defs o) -> live s v -> d <> v ->
     tconn pre f post d v -> False) ->
  allocate_func zr pool allow (mkFunc types (map Simple pre ++ For f :: map Simple post)) = Ok af ->
  forall (data : Type) (dzero : data) (fop : nat -> nat -> list data -> data) (ivnext : data -> data -> data)
         (n : nat) (env : value -> data) (rf : Z -> data),
    (forall v, live (Hop f :: f_body f ++ Yop f :: post) v -> read_reg data dzero zr (asg_of af) rf v = env v) ->
    (forall v, In v (zero_consts (pre ++ [Hop f])) -> env v = dzero) ->
    forall v, live post v ->
      read_reg data dzero zr (asg_of af) (regs_loop data dzero fop ivnext zr (asg_of af) pre f iv n rf) v
      = ssa_loop data dzero fop ivnext pre f iv cb n env v.
Proof. exact func_loop_semantics. Qed.
Print Assumptions C19_semantics_loop.

(* ... and it applies to the example loop: for every trip count the returned value %4 is the same *)
Theorem C19_semantics_loop_example :
  exists af, allocate_func true [7; 6; 5] false ex_fn = Ok af /\
  forall (data : Type) (dzero : data) (fop : nat -> nat -> list data -> data) (ivnext : data -> data -> data)
         (n : nat) (env : value -> data) (rf : Z -> data),
    (forall v, live (Hop ex_f :: f_body ex_f ++ Yop ex_f :: ex_post) v -> read_reg data dzero true (asg_of af) rf v = env v) ->
    (forall v, In v (zero_consts (ex_pre ++ [Hop ex_f])) -> env v = dzero) ->
    read_reg data dzero true (asg_of af) (regs_loop data dzero fop ivnext true (asg_of af) ex_pre ex_f 5%nat n rf) 4%nat
    = ssa_loop data dzero fop ivnext ex_pre ex_f 5%nat [6%nat] n env 4%nat.
Proof. exact loop_semantics_example. Qed.
Print Assumptions C19_semantics_loop_example.
