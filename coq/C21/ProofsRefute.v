(* C21/ProofsRefute.v -- refutation witnesses of the full-strength statements on the model of the
   UNREPAIRED prologue pass (version flags false), the partial/repaired corollaries, and encodability. *)
From Coq Require Import ZArith List Bool Lia Arith.
From XV Require Import Base.Show Gen.C21_tables C21.Model C21.Spec C21.Enc C21.ProofsMachine C21.ProofsLower
  C21.ProofsSim C21.ProofsAbi.
Import ListNotations.
Local Open Scope Z_scope.

Definition the_func (p : sprog) : vfunc :=
  match c21_lower p with Some f => f | None => mkVfunc [] None end.

Definition unrepaired : version := mkVer false false.
Definition repaired : version := mkVer true true.

(* witness 1: f(a..h) = (g + g) * h, eight i64 arguments; allocation as produced by the real allocator
   (g -> r11, h -> rbx, copy of g -> r10); entry state per SysV with the arguments 1..6, 7, 9.
   The witnesses are written with the harness encoder C21/Enc.v: `zprog w n ops ret`, `ZC k` a constant,
   `ZB o a b` a binary op on values a and b (o: 1 add, 2 mul, otherwise sub; arguments are values 0..n-1, op j defines
   value n+j); `alloc_of f regs` assigns registers to the IR values in order of definition. *)

Definition w1_p : sprog := zprog 64 8 [ZB 1 6 6; ZB 2 8 7] 9.
Definition w1_raw : list Z := [1; 2; 3; 4; 5; 6; 7; 9].
Definition w1_alloc : vreg -> reg := alloc_of (the_func w1_p) [11; 3; 10; 10; 3; 3].
Definition w1_s0 : state :=
  init_state [(7, 1); (6, 2); (2, 3); (1, 4); (8, 5); (9, 6); (3, 1003); (5, 1005); (12, 1012); (13, 1013);
              (14, 1014); (15, 1015)] 4096 424242 [7; 9].

Lemma w1_entry : entry_ok 8 w1_raw 4096 424242 w1_s0.
Proof.
  constructor; [vm_compute; reflexivity | vm_compute; reflexivity | vm_compute; discriminate | vm_compute; reflexivity
               | vm_compute; reflexivity | | ].
  - intros i _ H6. do 6 (destruct i as [|i]; [vm_compute; reflexivity|]). lia.
  - intros j Hj. do 2 (destruct j as [|j]; [vm_compute; reflexivity|]). lia.
Qed.

(* every hypothesis of pipeline_correct except stack_args_ok holds, the function returns to its caller with
   rsp and the callee-saved registers intact -- and rax is not the source value 126 = (7+7)*9 *)
Theorem stack_args_refuted :
  exists p f alloc raw entry_rsp ra s0 v,
    c21_lower p = Some f /\ src_sem p raw = Some (Some v) /\ alloc_ok alloc f = true
    /\ entry_ok (sp_nargs p) raw entry_rsp ra s0
    /\ exists sf, exec (c21_finish unrepaired (sp_w p) alloc f) s0 = Returned sf ra
                  /\ low (sp_w p) (regs sf RAX) <> v.
Proof.
  exists w1_p, (the_func w1_p), w1_alloc, w1_raw, 4096, 424242, w1_s0, 126.
  split; [vm_compute; reflexivity|]. split; [vm_compute; reflexivity|]. split; [vm_compute; reflexivity|]. split; [exact w1_entry|].
  eexists. split; [vm_compute; reflexivity|]. vm_compute. discriminate.
Qed.

(* the same program on the model of the repaired pass returns the source value *)
Example w1_repaired :
  exists sf, exec (c21_finish repaired W64 w1_alloc (the_func w1_p)) w1_s0 = Returned sf 424242
             /\ low W64 (regs sf RAX) = 126.
Proof. eexists. split; [vm_compute; reflexivity|]. vm_compute. reflexivity. Qed.

(* witness 2: an i32 function whose values live in ebx: rbx is not saved *)

Definition w2_p : sprog := zprog 32 2 [ZC (-3); ZB 2 0 2; ZB 1 3 1; ZB 1 4 0; ZB 2 5 1; ZB 1 6 2; ZB 1 7 3] 8.
Definition w2_raw : list Z := [1; 2].
Definition w2_alloc : vreg -> reg := alloc_of (the_func w2_p) [8; 3; 2; 1; 1; 9; 9; 8; 8; 3; 3; 2; 2; 1; 1].
Definition w2_s0 : state :=
  init_state [(7, 1); (6, 2); (3, 1003); (5, 1005); (12, 1012); (13, 1013); (14, 1014); (15, 1015)] 4096 424242 [].

Lemma w2_entry : entry_ok 2 w2_raw 4096 424242 w2_s0.
Proof.
  constructor; [vm_compute; reflexivity | vm_compute; reflexivity | vm_compute; discriminate | vm_compute; reflexivity
               | vm_compute; reflexivity | | ].
  - intros i Hi _. do 2 (destruct i as [|i]; [vm_compute; reflexivity|]). lia.
  - intros j Hj. lia.
Qed.

Theorem callee_saved_narrow_refuted :
  exists p f alloc raw entry_rsp ra s0 v,
    c21_lower p = Some f /\ src_sem p raw = Some (Some v) /\ alloc_ok alloc f = true
    /\ entry_ok (sp_nargs p) raw entry_rsp ra s0 /\ stack_args_ok unrepaired (sp_w p) alloc f
    /\ exists sf r, exec (c21_finish unrepaired (sp_w p) alloc f) s0 = Returned sf ra
                    /\ low (sp_w p) (regs sf RAX) = v          (* the value is right ... *)
                    /\ In r sysv_callee_saved /\ regs sf r <> regs s0 r.   (* ... but rbx is clobbered *)
Proof.
  exists w2_p, (the_func w2_p), w2_alloc, w2_raw, 4096, 424242, w2_s0, 4294967290.
  split; [vm_compute; reflexivity|]. split; [vm_compute; reflexivity|]. split; [vm_compute; reflexivity|]. split; [exact w2_entry|].
  split; [right; left; vm_compute; reflexivity|].
  eexists. exists 3. split; [vm_compute; reflexivity|]. split; [vm_compute; reflexivity|].
  split; [vm_compute; auto|]. vm_compute. discriminate.
Qed.

(* witness 3: i8 multiplication is emitted as an `imul` on 8-bit registers, which does not exist *)

Definition w3_p : sprog := zprog 8 2 [ZB 2 0 1] 2.
Definition w3_f : vfunc := match c21_lower_v false w3_p with Some f => f | None => mkVfunc [] None end.
Definition w3_alloc : vreg -> reg := alloc_of w3_f [2; 1; 1; 1].

(* for the lowering that does not refuse 8-bit multiplication (c21_lower_v false) *)
Theorem imul8_not_encodable :
  exists p f alloc ver, c21_lower_v false p = Some f /\ alloc_ok alloc f = true
    /\ forallb encodable (c21_finish ver (sp_w p) alloc f) = false.
Proof. exists w3_p, w3_f, w3_alloc, unrepaired. repeat split; vm_compute; reflexivity. Qed.

(* every other width only produces instructions of the subset that exist *)
Lemma encodable_shift : forall k i, encodable (shift_instr k i) = encodable i.
Proof. intros k i. destruct i; cbn [shift_instr]; try reflexivity. destruct (base =? RSP); reflexivity. Qed.

Lemma encodable_assign : forall w alloc d, w <> W8 -> encodable (fst (assign_def w alloc d)) = true.
Proof.
  intros w alloc d Hw. destruct d as [d i | d j | d k | d s | o d t s]; cbn [assign_def fst encodable]; try reflexivity.
  destruct o; cbn [xinstr encodable]; try reflexivity. destruct w; try reflexivity. contradiction.
Qed.

Theorem encodable_partial : forall ver w alloc f, w <> W8 -> forallb encodable (c21_finish ver w alloc f) = true.
Proof.
  intros ver w alloc f Hw. unfold c21_finish. rewrite !forallb_app.
  assert (Hbody : forallb encodable (map fst (body_ops w alloc f)) = true).
  { apply forallb_forall. intros i Hi. apply in_map_iff in Hi. destruct Hi as [[i' r] [<- Hin]].
    unfold body_ops in Hin. apply filter_In in Hin. destruct Hin as [Hin _]. apply in_app_or in Hin.
    destruct Hin as [Hin|Hin].
    - apply in_map_iff in Hin. destruct Hin as [d [Hd _]]. cbn [fst]. rewrite <- (encodable_assign w alloc d Hw).
      rewrite Hd. reflexivity.
    - destruct (vf_ret f); cbn [assign_ret In] in Hin; [|contradiction].
      destruct Hin as [Hin|[]]. inversion Hin; subst. reflexivity. }
  apply andb_true_iff. split; [|apply andb_true_iff; split; [|apply andb_true_iff; split; [|reflexivity]]].
  - apply forallb_forall. intros i Hi. apply in_map_iff in Hi. destruct Hi as [r [<- _]]. reflexivity.
  - destruct (v_shift ver); [|exact Hbody].
    apply forallb_forall. intros i Hi. apply in_map_iff in Hi. destruct Hi as [i' [<- Hin]].
    rewrite encodable_shift. rewrite forallb_forall in Hbody. apply Hbody. exact Hin.
  - apply forallb_forall. intros i Hi. apply in_map_iff in Hi. destruct Hi as [r [<- _]]. reflexivity.
Qed.

(* value and rsp, without the side condition stack_args_ok, for any version of the pass that rebases the offsets *)
Theorem returns_source_value_repaired : forall ver p f alloc raw entry_rsp ra s0 v,
  v_shift ver = true ->
  c21_lower p = Some f -> src_sem p raw = Some (Some v) -> alloc_ok alloc f = true ->
  entry_ok (sp_nargs p) raw entry_rsp ra s0 ->
  exists sf, exec (c21_finish ver (sp_w p) alloc f) s0 = Returned sf ra
    /\ low (sp_w p) (regs sf RAX) = v /\ regs sf RSP = entry_rsp + 8.
Proof.
  intros ver p f alloc raw sp0 ra s0 v Hs Hl Hsem Hok Hen.
  destruct (pipeline_correct ver p f alloc raw sp0 ra s0 (Some v) Hl Hsem Hok Hen (or_introl Hs))
    as [sf [He [Hr [Hv _]]]].
  exists sf. split; [exact He|]. split; [apply Hv; reflexivity | exact Hr].
Qed.

(* the verdict for the code version found in the source on this run (Gen/C21_tables.v) *)
Theorem current_stack_args :
  if c21_prologue_shifts
  then (forall entry_rsp k i, 0 <= k -> load_addr c21_prologue_shifts entry_rsp k i = sysv_stack_arg_addr entry_rsp i)
  else (forall entry_rsp k i, 0 < k -> load_addr c21_prologue_shifts entry_rsp k i <> sysv_stack_arg_addr entry_rsp i).
Proof.
  destruct c21_prologue_shifts eqn:E.
  - intros sp k i Hk. apply stack_args_offset; [exact Hk | left; reflexivity].
  - intros sp k i Hk H. apply stack_args_offset in H; [|lia]. destruct H as [H|H]; [discriminate | lia].
Qed.
