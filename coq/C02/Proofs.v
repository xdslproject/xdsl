(* C02/Proofs.v -- the world-level statements about the clone entry points (specification: iso_via,
   fresh_ids, into_ok below + iso_op / scoped_op of ProofsBase.v), for the code as it is
   (cfg_original) and for the repaired remap (cfg_fixed). *)
From Coq Require Import List ZArith Bool Lia.
From XV Require Import C02.Model C02.ProofsBase C02.ProofsWalk.
Import ListNotations.
Local Open Scope Z_scope.

(* f sends the ids of l injectively to objects created between the two counters *)
Definition maps_fresh (f : Z -> Z) (l : list Z) (lo hi : Z) : Prop :=
  NoDup (map f l) /\ forall x, In x l -> lo <= f x < hi.

(* the returned mappers: values / blocks defined inside the source (lv / lb) go injectively to objects
   created by this call; everything else is as in the caller's mappers (identity when not mentioned) *)
Definition iso_via (w w' : world) (vm0 bm0 vm' bm' : amap) (lv lb : list Z) : Prop :=
  maps_fresh (get vm') lv (w_nval w) (w_nval w') /\ maps_fresh (get bm') lb (w_nblk w) (w_nblk w') /\
  (forall v, ~ In v lv -> get vm' v = get vm0 v) /\ (forall b, ~ In b lb -> get bm' b = get bm0 b).

(* the objects of the copy (operations, values, blocks) were all created by this call, each once *)
Definition fresh_ids (w w' : world) (io lv lb : list Z) : Prop :=
  (forall i, In i io -> w_nop w <= i < w_nop w') /\
  (forall v, In v lv -> w_nval w <= v < w_nval w') /\
  (forall b, In b lb -> w_nblk w <= b < w_nblk w') /\
  NoDup io /\ NoDup lv /\ NoDup lb.

(* one region: its successors are scoped *)
Definition scoped_region (r : blocks) : Prop := scoped_blocks (db_region r) (bids r) r.

Lemma maps_fresh_zseq : forall f l lo hi,
  map f l = zseq lo (length l) -> hi = lo + Z.of_nat (length l) -> maps_fresh f l lo hi.
Proof.
  intros f l lo hi H ->. split.
  - rewrite H. apply zseq_NoDup.
  - intros x Hx. apply zseq_In. rewrite <- H. now apply in_map.
Qed.

Lemma fresh_zseq : forall (l : list Z) lo n hi,
  l = zseq lo n -> hi = lo + Z.of_nat n -> (forall i, In i l -> lo <= i < hi) /\ NoDup l.
Proof. intros l lo n hi -> ->. split; [intros i; apply zseq_In | apply zseq_NoDup]. Qed.

(* phase 1 started from outside (no enclosing region) *)
Lemma hyp_init : forall s s' lv lb,
  facts_v s s' lv -> facts_b s s' lb -> NoDup lv -> NoDup lb ->
  hyp lb [] (get (vm s')) (get (bm s')) s lv lb.
Proof.
  intros s s' lv lb [_ Hm] [_ Hn] Hv Hb. constructor; auto.
  - rewrite Hm. now apply get_regs_map.
  - rewrite Hn. now apply get_regs_map.
  - intros b [[]|Hb']. rewrite Hn. now rewrite get_regs_notin.
  - apply incl_refl.
Qed.

Lemma phase1_op : forall x s s' y,
  sh_op s x = (s', y) -> NoDup (dv_op x) -> NoDup (db_op x) -> scoped_op (db_op x) [] x ->
  iso_op false (get (vm s')) (get (bm s')) x y /\ facts s s' (dv_op x) (db_op x) (ido_op x) (ido_op y).
Proof.
  intros x s s' y H Hv Hb Hs. destruct (proj1 sh_spec _ _ _ _ H) as [F I]. split; auto.
  destruct F as (Fv & Fb & _). eapply I; eauto using hyp_init.
Qed.

Lemma phase1_regions : forall g s s' g',
  sh_regions s g = (s', g') -> NoDup (dv_regions g) -> NoDup (db_regions g) -> scoped_regions (db_regions g) [] g ->
  iso_regions false (get (vm s')) (get (bm s')) g g' /\
  facts s s' (dv_regions g) (db_regions g) (ido_regions g) (ido_regions g').
Proof.
  intros g s s' g' H Hv Hb Hs. destruct (proj2 (proj2 (proj2 (proj2 sh_spec))) _ _ _ _ H) as [F I]. split; auto.
  destruct F as (Fv & Fb & _). eapply I; eauto using hyp_init.
Qed.

Lemma sh_region_as_regions : forall s r,
  sh_regions s (GCons r GNil) = (fst (sh_region s r), GCons (snd (sh_region s r)) GNil).
Proof.
  intros. cbn [sh_regions]. unfold sh_region.
  destruct (alloc_blks (nblk s) (bm s) r) as [[nb m] ids].
  destruct (sh_blocks _ r ids) as [s1 r']. reflexivity.
Qed.

Lemma phase1_region : forall r s s' r',
  sh_region s r = (s', r') -> NoDup (dv_blocks r) -> NoDup (db_region r) -> scoped_region r ->
  iso_blocks false (get (vm s')) (get (bm s')) r r' /\
  facts s s' (dv_blocks r) (db_region r) (ido_blocks r) (ido_blocks r').
Proof.
  intros r s s' r' H Hv Hb Hs.
  pose proof (sh_region_as_regions s r) as E. rewrite H in E. cbn [fst snd] in E.
  apply phase1_regions in E.
  - cbn [iso_regions dv_regions db_regions ido_regions] in E. rewrite !app_nil_r in E.
    destruct E as [[E1 _] E2]. split; auto.
  - cbn [dv_regions]. now rewrite app_nil_r.
  - cbn [db_regions]. now rewrite app_nil_r.
  - cbn [scoped_regions db_regions]. rewrite !app_nil_r. split; auto.
Qed.

Lemma fresh_of_facts : forall (w : world) s' vm0 bm0 lv lb io io' dvy dby,
  facts (st_of w vm0 bm0) s' lv lb io io' -> NoDup lv -> NoDup lb ->
  dvy = map (get (vm s')) lv -> dby = map (get (bm s')) lb ->
  forall its, iso_via w (world_of its s') vm0 bm0 (vm s') (bm s') lv lb /\
              fresh_ids w (world_of its s') io' dvy dby.
Proof.
  intros w s' vm0 bm0 lv lb io io' dvy dby ([Fv Fm] & [Fb Fn] & [Fo Fi]) Hv Hb -> -> its.
  cbn [st_of nop nval nblk vm bm] in *.
  assert (Mv : map (get (vm s')) lv = zseq (w_nval w) (length lv)) by (rewrite Fm; now apply get_regs_map).
  assert (Mb : map (get (bm s')) lb = zseq (w_nblk w) (length lb)) by (rewrite Fn; now apply get_regs_map).
  unfold iso_via, fresh_ids, world_of. cbn [w_nop w_nval w_nblk].
  destruct (fresh_zseq _ _ _ (nop s') Fi Fo) as [Ro No].
  destruct (fresh_zseq _ _ _ (nval s') Mv Fv) as [Rv Nv].
  destruct (fresh_zseq _ _ _ (nblk s') Mb Fb) as [Rb Nb].
  split; [split; [|split; [|split]] | split; [|split; [|split; [|split; [|split]]]]]; auto.
  - now apply maps_fresh_zseq.
  - now apply maps_fresh_zseq.
  - intros v Hn. rewrite Fm. now apply get_regs_notin.
  - intros b Hn. rewrite Fn. now apply get_regs_notin.
Qed.

Theorem clone_op_correct : forall w x vm0 bm0 co,
  NoDup (dv_op x) -> NoDup (db_op x) -> scoped_op (db_op x) [] x ->
  exists y, let r := clone_op w x vm0 bm0 co in
    r_new r = Some y /\ items (r_world r) = items w ++ [IOp y] /\
    iso_op co (get (r_vm r)) (get (r_bm r)) x y /\
    iso_via w (r_world r) vm0 bm0 (r_vm r) (r_bm r) (dv_op x) (db_op x) /\
    fresh_ids w (r_world r) (ido_op y) (dv_op y) (db_op y).
Proof.
  intros w x vm0 bm0 co Hv Hb Hs. unfold clone_op.
  destruct (sh_op (st_of w vm0 bm0) x) as [s1 y] eqn:E.
  destruct (phase1_op _ _ _ _ E Hv Hb Hs) as [I F].
  set (fv := get (vm s1)) in *. set (fb := get (bm s1)) in *.
  set (y' := if co then fst (sw_op (mapped_walk (vm s1) (walk_op x)) y) else y).
  assert (I' : iso_op co fv fb x y').
  { subst y'. destruct co; auto. unfold mapped_walk.
    rewrite <- (app_nil_r (map (map (get (vm s1))) (walk_op x))).
    apply (proj1 sw_aligned x y fv fb [] I). }
  assert (Io : ido_op y' = ido_op y).
  { subst y'. destruct co; auto. apply (proj1 sw_ids). }
  exists y'. cbn [r_new r_world r_vm r_bm items world_of].
  split; [reflexivity|]. split; [reflexivity|]. split; [exact I'|].
  destruct (proj1 (iso_defs co fv fb) _ _ I') as [Dv Db].
  rewrite Io.
  apply (fresh_of_facts w s1 vm0 bm0 _ _ _ _ _ _ F Hv Hb Dv Db (items w ++ [IOp y'])).
Qed.

Definition resolve_index (insert_index : option Z) (d : blocks) : Z :=
  match insert_index with Some i => i | None => blocks_len d end.

(* what clone_into must achieve: the destination keeps its blocks, in order; the new blocks `nb` sit
   at `index`; they are the source renamed by the returned mappers; nothing else in the world moves *)
Definition into_ok (w : world) (src : blocks) (j : nat) (d : blocks) (index : Z)
                   (vm0 bm0 : amap) (co : bool) (r : result) : Prop :=
  exists nb,
    items (r_world r) =
      replace_item j (IReg (blocks_app (bfirstn (Z.to_nat index) d)
                                       (blocks_app nb (bskipn (Z.to_nat index) d)))) (items w) /\
    iso_blocks co (get (r_vm r)) (get (r_bm r)) src nb /\
    iso_via w (r_world r) vm0 bm0 (r_vm r) (r_bm r) (dv_blocks src) (db_region src) /\
    fresh_ids w (r_world r) (ido_blocks nb) (dv_blocks nb) (db_region nb).

Lemma clone_into_general : forall c w src j d idx vm0 bm0 co,
  nth_error (items w) j = Some (IReg d) ->
  NoDup (dv_blocks src) -> NoDup (db_region src) -> scoped_region src ->
  0 <= resolve_index idx d <= blocks_len d ->
  (remap_new_only c = true \/ co = false \/ walk_blocks (bfirstn (Z.to_nat (resolve_index idx d)) d) = []) ->
  exists r, clone_into c w src j idx vm0 bm0 co = Some r /\ into_ok w src j d (resolve_index idx d) vm0 bm0 co r.
Proof.
  intros c w src j d idx vm0 bm0 co Hj Hv Hb Hs Hr Hc.
  unfold clone_into. rewrite Hj. fold (resolve_index idx d). set (index := resolve_index idx d) in *.
  destruct (sh_region (st_of w vm0 bm0) src) as [s1 nb] eqn:E.
  destruct (phase1_region _ _ _ _ E Hv Hb Hs) as [I F].
  set (fv := get (vm s1)) in *. set (fb := get (bm s1)) in *.
  set (L := mapped_walk (vm s1) (walk_blocks src)).
  assert (HL : L = map (map fv) (walk_blocks src) ++ []) by (subst L; unfold mapped_walk; now rewrite app_nil_r).
  destruct (proj1 (proj2 (proj2 (proj2 sw_aligned))) src nb fv fb [] I) as [A1 A2]. rewrite <- HL in A1, A2.
  rewrite insert_block_in_range by exact Hr.
  set (n := Z.to_nat index). set (pre := bfirstn n d). set (post := bskipn n d).
  set (nb' := if co then fst (sw_blocks L nb) else nb).
  assert (I' : iso_blocks co fv fb src nb') by (subst nb'; destruct co; auto).
  assert (Io : ido_blocks nb' = ido_blocks nb).
  { subst nb'. destruct co; auto. apply (proj1 (proj2 (proj2 (proj2 sw_ids)))). }
  eexists. split; [reflexivity|]. exists nb'. cbn [r_world r_vm r_bm items world_of].
  split; [|split; [exact I'|]].
  - f_equal. f_equal. subst nb'. destruct co; cbn [andb negb].
    + destruct (remap_new_only c) eqn:Ec; cbn [negb]; [reflexivity|].
      destruct Hc as [Hc | [Hc | Hc]]; try discriminate.
      rewrite sw_blocks_app. cbn [fst].
      rewrite (proj1 (proj2 (proj2 (proj2 sw_noops))) pre L Hc). cbn [fst snd].
      rewrite sw_blocks_app. cbn [fst]. rewrite A2.
      rewrite (proj1 (proj2 (proj2 (proj2 sw_nil))) post). reflexivity.
    + reflexivity.
  - destruct (proj1 (proj2 (proj2 (proj2 (iso_defs co fv fb)))) _ _ I') as (Dv & Db1 & Db2).
    rewrite Io.
    assert (Db : db_region nb' = map fb (db_region src)) by (unfold db_region; now rewrite map_app, Db1, Db2).
    apply (fresh_of_facts w s1 vm0 bm0 _ _ _ _ _ _ F Hv Hb Dv Db).
Qed.

(* out-of-range index: insert_block does nothing, the populated new blocks stay detached *)
Lemma clone_into_out_of_range : forall c w src j d idx vm0 bm0 co,
  nth_error (items w) j = Some (IReg d) ->
  (resolve_index idx d < 0 \/ blocks_len d < resolve_index idx d) ->
  exists r nb d', clone_into c w src j idx vm0 bm0 co = Some r /\
    items (r_world r) = replace_item j (IReg d') (items w) ++ orphans nb /\
    bids d' = bids d /\ length (bids nb) = length (bids src).
Proof.
  intros c w src j d idx vm0 bm0 co Hj Hr. unfold clone_into. rewrite Hj.
  fold (resolve_index idx d). set (index := resolve_index idx d) in *.
  destruct (sh_region (st_of w vm0 bm0) src) as [s1 nb] eqn:E.
  rewrite insert_block_out_of_range by exact Hr.
  eexists. eexists. eexists. split; [reflexivity|]. cbn [r_world items world_of]. split; [reflexivity|].
  split.
  - destruct (co && negb (remap_new_only c)); auto using sw_blocks_bids.
  - assert (Hn : length (bids nb) = length (bids src)).
    { unfold sh_region in E. rewrite alloc_blks_spec in E.
      eapply sh_blocks_bids_len; [exact E | now rewrite zseq_length]. }
    destruct (co && remap_new_only c); auto. now rewrite sw_blocks_bids.
Qed.
