(* C28/ProofsCosts.v -- the cost pass (eqsat-add-costs):
   - it only writes eqsat_cost / min_cost_index (so valuations and results are untouched);
   - the `while changed` loop terminates when all costs are non-negative (lexicographic measure:
     number of classes without a cost, then the sum of the class costs), and more fuel never
     changes the result;  with a negative cost on a cycle it does NOT terminate (witness);
   - when the loop stops, every class cost is <= the total cost of each of its members (minimality),
     and every class that has a member whose cost is computable has a min_cost_index in range. *)
From Coq Require Import ZArith List Bool Lia.
From XV Require Import C28.Model C28.Proofs.
Import ListNotations.
Local Open Scope Z_scope.

(* the pass maps a function over the block that touches nothing but eqsat_cost and min_cost_index *)
Definition same_struct (n n' : node) : Prop :=
  nid n' = nid n /\ nname n' = nname n /\ nattr n' = nattr n /\ nops n' = nops n /\ nres n' = nres n.
Definition keeps (f : node -> node) : Prop := forall n, same_struct n (f n).

(* the first loop of add_eqsat_costs on one operation (when it raises nothing) *)
Definition fp (d : option Z) (dict : list (Z * Z)) (n : node) : node :=
  if nres n =? 0 then n
  else match ncost n with
       | CNone => match lookup (nname n) dict with
                  | Some c => set_cost n (CInt c)
                  | None => if is_class n then n
                            else match d with Some c => set_cost n (CInt c) | None => n end
                  end
       | _ => n
       end.

Lemma fp_keeps : forall d dict, keeps (fp d dict).
Proof.
  intros d dict n. unfold fp. destruct (nres n =? 0); [repeat split|].
  destruct (ncost n); [|repeat split..]. destruct (lookup (nname n) dict); [repeat split|].
  destruct (is_class n); [repeat split|]. destruct d; repeat split.
Qed.

Lemma fp_cost : forall d dict n,
    ncost (fp d dict n) = ncost n \/
    exists c, ncost (fp d dict n) = CInt c /\ (lookup (nname n) dict = Some c \/ d = Some c).
Proof.
  intros d dict n. unfold fp. destruct (nres n =? 0); auto. destruct (ncost n) eqn:Ec; auto.
  destruct (lookup (nname n) dict) eqn:El; simpl; [eauto 7|]. destruct (is_class n); auto.
  destruct d; simpl; eauto 7.
Qed.

Definition fp_result (d : option Z) (dict : list (Z * Z)) (body : list node) (x : res (list node)) : Prop :=
  x = Ok (map (fp d dict) body) \/
  (x = Err EMultiCost /\ exists n, In n body /\ nres n <> 0 /\ nres n <> 1).

Lemma first_pass_cases : forall d dict body, fp_result d dict body (first_pass d dict body).
Proof.
  intros d dict. induction body as [|n r IH]; simpl.
  - left. reflexivity.
  - assert (Hrest : fp_result d dict (n :: r)
                      match first_pass d dict r with Ok r' => Ok (fp d dict n :: r') | e => e end).
    { destruct IH as [->|[-> [m [Hm Hres]]]]; [left; reflexivity|].
      right. split; [reflexivity|]. exists m. split; [right; exact Hm | exact Hres]. }
    (* first_pass branches on n exactly as fp does *)
    revert Hrest. unfold fp.
    destruct (nres n =? 0) eqn:E0; auto. destruct (ncost n); auto.
    destruct (lookup (nname n) dict); auto. destruct (nres n =? 1) eqn:E1; simpl.
    + destruct (is_class n); auto. destruct d; auto.
    + intros _. right. split; [reflexivity|]. exists n. apply Z.eqb_neq in E0, E1. simpl. auto.
Qed.

Lemma first_pass_map : forall d dict body b', first_pass d dict body = Ok b' -> b' = map (fp d dict) body.
Proof. intros d dict body b' H. destruct (first_pass_cases d dict body) as [E|[E _]]; congruence. Qed.

Lemma first_pass_not_oof : forall d dict body, first_pass d dict body <> OutOfFuel.
Proof. intros d dict body. destruct (first_pass_cases d dict body) as [E|[E _]]; congruence. Qed.

Definition mci (ms : list (Z * Z)) (n : node) : node :=
  match lookup (nid n) ms with Some i => set_mci n (Some i) | None => n end.

Lemma mci_keeps : forall ms, keeps (mci ms).
Proof. intros ms n. unfold mci. destruct (lookup (nid n) ms); repeat split. Qed.

Lemma add_costs_map : forall fuel d dict p p',
    add_costs fuel d dict p = Ok p' ->
    p_nargs p' = p_nargs p /\ exists f, keeps f /\ p_body p' = map f (p_body p).
Proof.
  intros fuel d dict p p' H. unfold add_costs in H. destruct (existsb is_class (p_body p)).
  - unfold add_eqsat_costs in H. destruct (first_pass d dict (p_body p)) as [b1| |] eqn:E1; try discriminate.
    destruct (fix_loop fuel b1 d [] []) as [[cs ms]| |]; try discriminate. inversion H; subst. simpl.
    split; auto. exists (fun n => mci ms (fp d dict n)). split.
    + intro n. destruct (fp_keeps d dict n) as [? [? [? [? ?]]]].
      destruct (mci_keeps ms (fp d dict n)) as [? [? [? [? ?]]]]. repeat split; congruence.
    + rewrite (first_pass_map _ _ _ _ E1). unfold apply_mci. apply map_map.
  - inversion H; subst. split; auto. exists (fun n => n). split; [repeat split | symmetry; apply map_id].
Qed.

Lemma keeps_ids : forall f b, keeps f -> map nid (map f b) = map nid b.
Proof. intros f b Hf. rewrite map_map. apply map_ext. intro n. apply (Hf n). Qed.

Section SemPreserved.
  Variable sem : Z -> Z -> list Z -> Z.
  Variable args : Z -> Z.

  Lemma keeps_models : forall rho f b, keeps f -> models sem args rho b -> models sem args rho (map f b).
  Proof.
    intros rho f b Hf. apply models_map. intros n H. destruct (Hf n) as [H1 [H2 [H3 [H4 H5]]]].
    unfold node_ok, is_class, is_ret in *. rewrite H1, H2, H3, H4. exact H.
  Qed.

  Lemma keeps_obs : forall rho f b, keeps f -> obs args rho (map f b) = obs args rho b.
  Proof.
    intros rho f b Hf. apply obs_map. intro n. destruct (Hf n) as [_ [H2 [_ [H4 _]]]].
    rewrite H4. split; [apply is_ret_name, H2 | reflexivity].
  Qed.

End SemPreserved.

Lemma keeps_ids_ok : forall f b, keeps f -> ids_ok b -> ids_ok (map f b).
Proof.
  intros f b Hf [Hnd Hru]. split; [rewrite keeps_ids; assumption|].
  intros n' j m' Hn Hj Hm Hid. apply in_map_iff in Hn, Hm.
  destruct Hn as [n [<- Hn]], Hm as [m [<- Hm]].
  destruct (Hf n) as [_ [_ [_ [A4 _]]]], (Hf m) as [B1 [B2 _]].
  rewrite (is_ret_name _ _ B2). apply (Hru n j m); congruence.
Qed.

Section Loop.
  Variable body : list node.
  Variable d : option Z.

  Definition better (cs : list (Z * Z)) (cid t : Z) : bool :=
    match lookup cid cs with None => true | Some b => t <? b end.

  Lemma sm_cons : forall cid m r idx cs ms ch,
      sweep_members body d cid (m :: r) idx (cs, ms, ch) =
      match calc_total body cs d m with
      | Ok None => sweep_members body d cid r (idx + 1) (cs, ms, ch)
      | Ok (Some t) =>
          sweep_members body d cid r (idx + 1)
            (if better cs cid t then ((cid, t) :: cs, (cid, idx) :: ms, true) else (cs, ms, ch))
      | Err e => Err e
      | OutOfFuel => OutOfFuel
      end.
  Proof. reflexivity. Qed.

  (* a valid update: class c of the block, member number idx has computable total cost t that improves *)
  Definition valid_upd (cs : list (Z * Z)) (cid idx t : Z) : Prop :=
    exists c m, In c body /\ is_class c = true /\ nid c = cid /\
                0 <= idx < Z.of_nat (length (nops c)) /\ In m (nops c) /\
                calc_total body cs d m = Ok (Some t) /\ better cs cid t = true.

  Definition rest_of (c : node) (members : list val) (idx : Z) : Prop :=
    0 <= idx /\ idx + Z.of_nat (length members) = Z.of_nat (length (nops c)) /\
    forall m, In m members -> In m (nops c).

  Lemma rest_of_all : forall c, rest_of c (nops c) 0.
  Proof. intro c. split; [lia|]. split; auto. Qed.

  Lemma rest_of_cons : forall c m r idx, rest_of c (m :: r) idx ->
      rest_of c r (idx + 1) /\ In m (nops c) /\ 0 <= idx < Z.of_nat (length (nops c)).
  Proof.
    intros c m r idx [H1 [H2 H3]]. simpl length in H2. split; [|split; [apply H3; left; reflexivity | lia]].
    split; [lia|]. split; [lia|]. intros m0 Hm0. apply H3. right. exact Hm0.
  Qed.

  Section Inv.
    Variable P : cstate -> Prop.
    Hypothesis P_upd : forall cs ms ch cid idx t,
        valid_upd cs cid idx t -> P (cs, ms, ch) -> P ((cid, t) :: cs, (cid, idx) :: ms, true).

    Lemma sweep_members_inv : forall c, In c body -> is_class c = true ->
      forall members idx st st', rest_of c members idx ->
        sweep_members body d (nid c) members idx st = Ok st' -> P st -> P st'.
    Proof.
      intros c Hc Hcl. induction members as [|m r IH]; intros idx st st' Hr H HP.
      - simpl in H. inversion H; subst; auto.
      - destruct st as [[cs ms] ch]. rewrite sm_cons in H.
        destruct (rest_of_cons _ _ _ _ Hr) as [Hr' [Hm Hidx]].
        destruct (calc_total body cs d m) as [[t|]| |] eqn:Hct; try discriminate; [|apply (IH _ _ _ Hr' H HP)].
        destruct (better cs (nid c) t) eqn:Hb; [|apply (IH _ _ _ Hr' H HP)].
        apply (IH _ _ _ Hr' H). apply (P_upd cs ms ch); auto. exists c, m. repeat split; auto; lia.
    Qed.

    Lemma sweep_classes_inv : forall todo st st',
        (forall n, In n todo -> In n body) ->
        sweep_classes body d todo st = Ok st' -> P st -> P st'.
    Proof.
      induction todo as [|n r IH]; intros st st' Hsub H HP; simpl in H.
      - inversion H; subst; auto.
      - assert (Hsub' : forall n0, In n0 r -> In n0 body) by (intros; apply Hsub; right; auto).
        destruct (is_class n) eqn:Ecl.
        + destruct (sweep_members body d (nid n) (nops n) 0 st) as [st1| |] eqn:E; try discriminate.
          apply (IH st1 st'); auto.
          apply (sweep_members_inv n (Hsub n (or_introl eq_refl)) Ecl (nops n) 0 st st1); auto using rest_of_all.
        + apply (IH st st'); auto.
    Qed.

  End Inv.

  Lemma sweep_classes_ch_mono : forall todo cs ms cs' ms' ch',
      (forall n, In n todo -> In n body) ->
      sweep_classes body d todo (cs, ms, true) = Ok (cs', ms', ch') -> ch' = true.
  Proof.
    intros todo cs ms cs' ms' ch' Hsub H.
    apply (sweep_classes_inv (fun st => snd st = true)) in H; auto.
  Qed.

  Lemma sweep_members_ch_mono : forall c, In c body -> is_class c = true ->
    forall members idx cs ms cs' ms' ch', rest_of c members idx ->
      sweep_members body d (nid c) members idx (cs, ms, true) = Ok (cs', ms', ch') -> ch' = true.
  Proof.
    intros c Hc Hcl members idx cs ms cs' ms' ch' Hr H.
    apply (sweep_members_inv (fun st => snd st = true)) with (c := c) in H; auto.
  Qed.

  Definition member_settled (cs : list (Z * Z)) (cid : Z) (m : val) : Prop :=
    exists ot, calc_total body cs d m = Ok ot /\ (forall t, ot = Some t -> better cs cid t = false).

  Lemma sweep_members_quiet : forall c, In c body -> is_class c = true ->
    forall members idx cs ms cs' ms', rest_of c members idx ->
      sweep_members body d (nid c) members idx (cs, ms, false) = Ok (cs', ms', false) ->
      cs' = cs /\ ms' = ms /\ forall m, In m members -> member_settled cs (nid c) m.
  Proof.
    intros c Hc Hcl. induction members as [|m r IH]; intros idx cs ms cs' ms' Hr H.
    - simpl in H. inversion H; subst. repeat split; auto. intros m [].
    - rewrite sm_cons in H. destruct (rest_of_cons _ _ _ _ Hr) as [Hr' _].
      destruct (calc_total body cs d m) as [[t|]| |] eqn:Hct; try discriminate.
      + destruct (better cs (nid c) t) eqn:Hb.
        * discriminate (sweep_members_ch_mono c Hc Hcl r (idx + 1) _ _ cs' ms' false Hr' H).
        * destruct (IH _ _ _ _ _ Hr' H) as [A [B C]]. repeat split; auto.
          intros m0 [<-|Hm0]; auto. exists (Some t). split; auto. intros t0 Ht0. congruence.
      + destruct (IH _ _ _ _ _ Hr' H) as [A [B C]]. repeat split; auto.
        intros m0 [<-|Hm0]; auto. exists None. split; auto. discriminate.
  Qed.

  Lemma sweep_members_false_start : forall c, In c body -> is_class c = true ->
    forall members idx cs ms ch cs' ms',
      0 <= idx -> idx + Z.of_nat (length members) = Z.of_nat (length (nops c)) ->
      (forall m, In m members -> In m (nops c)) ->
      sweep_members body d (nid c) members idx (cs, ms, ch) = Ok (cs', ms', false) -> ch = false.
  Proof.
    intros c Hc Hcl members idx cs ms ch cs' ms' H1 H2 H3 H. destruct ch; auto.
    symmetry. apply (sweep_members_ch_mono c Hc Hcl members idx cs ms cs' ms' false); [split; auto | exact H].
  Qed.

  Lemma sweep_classes_quiet : forall todo cs ms cs' ms',
      (forall n, In n todo -> In n body) ->
      sweep_classes body d todo (cs, ms, false) = Ok (cs', ms', false) ->
      cs' = cs /\ ms' = ms /\
      forall n m, In n todo -> is_class n = true -> In m (nops n) -> member_settled cs (nid n) m.
  Proof.
    induction todo as [|n r IH]; intros cs ms cs' ms' Hsub H; simpl in H.
    - inversion H; subst. repeat split; auto. intros n m [].
    - assert (Hsub' : forall n0, In n0 r -> In n0 body) by (intros; apply Hsub; right; auto).
      assert (Hn : In n body) by (apply Hsub; left; auto).
      destruct (is_class n) eqn:Ecl.
      + destruct (sweep_members body d (nid n) (nops n) 0 (cs, ms, false)) as [[[cs1 ms1] ch1]| |] eqn:E;
          try discriminate.
        destruct ch1.
        * assert (Hx : false = true) by (apply (sweep_classes_ch_mono r cs1 ms1 cs' ms' false); auto).
          discriminate.
        * apply sweep_members_quiet in E; auto using rest_of_all. destruct E as [A [B C]]. subst.
          destruct (IH cs ms cs' ms' Hsub' H) as [A' [B' C']]. repeat split; auto.
          intros n0 m [Hn0|Hn0] Hcl0 Hm; auto. subst n0. auto.
      + destruct (IH cs ms cs' ms' Hsub' H) as [A' [B' C']]. repeat split; auto.
        intros n0 m [Hn0|Hn0] Hcl0 Hm; auto. subst n0. congruence.
  Qed.

  (* reachable cost states: the mci table has an in-range entry for every class with a cost *)
  Definition mci_inv (st : cstate) : Prop :=
    let '(cs, ms, _) := st in
    forall cid b, lookup cid cs = Some b ->
      exists i c, lookup cid ms = Some i /\ In c body /\ is_class c = true /\ nid c = cid /\
                  0 <= i < Z.of_nat (length (nops c)).

  Lemma mci_inv_upd : forall cs ms ch cid idx t,
      valid_upd cs cid idx t -> mci_inv (cs, ms, ch) -> mci_inv ((cid, t) :: cs, (cid, idx) :: ms, true).
  Proof.
    intros cs ms ch cid idx t [c [m [Hc [Hcl [Hid [Hr _]]]]]] H cid' b Hl. simpl in *.
    destruct (cid =? cid') eqn:E.
    - apply Z.eqb_eq in E. subst cid'. exists idx, c. auto.
    - apply H in Hl. exact Hl.
  Qed.

  Lemma fix_loop_result : forall fuel cs ms cs' ms',
      mci_inv (cs, ms, false) ->
      fix_loop fuel body d cs ms = Ok (cs', ms') ->
      mci_inv (cs', ms', false) /\
      forall n m, In n body -> is_class n = true -> In m (nops n) -> member_settled cs' (nid n) m.
  Proof.
    induction fuel as [|f IH]; intros cs ms cs' ms' Hinv H; simpl in H; try discriminate.
    destruct (sweep_classes body d body (cs, ms, false)) as [[[cs1 ms1] ch1]| |] eqn:E; try discriminate.
    assert (Hinv1 : mci_inv (cs1, ms1, ch1)).
    { apply (sweep_classes_inv mci_inv mci_inv_upd) in E; auto. }
    destruct ch1.
    - apply IH in H; auto.
    - inversion H; subst. apply sweep_classes_quiet in E; auto. destruct E as [A [B C]]. subst.
      split; auto.
  Qed.

  Lemma fix_loop_more_fuel : forall f cs ms r k,
      fix_loop f body d cs ms = r -> r <> OutOfFuel -> fix_loop (f + k) body d cs ms = r.
  Proof.
    induction f as [|f IH]; intros cs ms r k H Hr; simpl in *.
    - congruence.
    - destruct (sweep_classes body d body (cs, ms, false)) as [[[cs1 ms1] [|]]| |]; auto.
  Qed.

  Definition costs_nonneg : Prop :=
    (forall n c, In n body -> ncost n = CInt c -> 0 <= c) /\ (forall c, d = Some c -> 0 <= c).
  Definition cs_nonneg (cs : list (Z * Z)) : Prop := forall id b, lookup id cs = Some b -> 0 <= b.

  Lemma base_cost_nonneg : forall n oc, costs_nonneg -> In n body -> base_cost n d = Ok oc ->
                                        0 <= match oc with Some c => c | None => 0 end.
  Proof.
    intros n oc [H1 H2] Hn H. unfold base_cost in H. destruct (ncost n) eqn:E; try discriminate.
    - injection H as <-. destruct d as [c|]; [apply H2; auto | lia].
    - injection H as <-. eauto.
  Qed.

  Lemma sum_operands_nonneg : forall cs ops total t,
      costs_nonneg -> cs_nonneg cs -> 0 <= total ->
      sum_operands body cs d ops total = Ok (Some t) -> 0 <= t.
  Proof.
    intros cs ops. induction ops as [|o r IH]; intros total t Hc Hcs Ht H; simpl in H.
    - inversion H; subst; auto.
    - destruct o as [i|j].
      + apply (IH (total + 0) t); auto; lia.
      + destruct (find_node j body) as [dn|] eqn:Ef; try discriminate.
        apply find_node_In in Ef. destruct Ef as [Hdn _].
        destruct (is_class dn).
        * destruct (lookup j cs) as [c|] eqn:El; try discriminate.
          apply Hcs in El. apply (IH (total + c) t); auto; lia.
        * destruct (base_cost dn d) as [oc| |] eqn:Eb; try discriminate.
          assert (Hb : 0 <= match oc with Some c => c | None => 0 end)
            by (apply (base_cost_nonneg dn oc); auto).
          apply (IH (total + match oc with Some c => c | None => 0 end) t); auto; lia.
  Qed.

  Lemma calc_total_nonneg : forall cs m t,
      costs_nonneg -> cs_nonneg cs -> calc_total body cs d m = Ok (Some t) -> 0 <= t.
  Proof.
    intros cs m t Hc Hcs H. unfold calc_total in H. destruct m as [i|id].
    - inversion H; lia.
    - destruct (find_node id body) as [op|] eqn:Ef; try discriminate.
      apply find_node_In in Ef. destruct Ef as [Hop _].
      destruct (is_class op).
      + inversion H. apply Hcs in H1. auto.
      + destruct (base_cost op d) as [[nc|]| |] eqn:Eb; try discriminate.
        assert (Hb : 0 <= nc) by (apply (base_cost_nonneg op (Some nc)); auto).
        apply (sum_operands_nonneg cs (nops op) nc t); auto.
  Qed.

  (* the measure: (number of class ids without cost, sum of the costs), over the class ids of the block *)
  Definition sumf (f : Z -> Z) (l : list Z) : Z := fold_right (fun id a => f id + a) 0 l.
  Definition mu1 (cs : list (Z * Z)) : Z :=
    sumf (fun id => match lookup id cs with None => 1 | Some _ => 0 end) (class_ids body).
  Definition mu2 (cs : list (Z * Z)) : Z :=
    sumf (fun id => match lookup id cs with None => 0 | Some b => b end) (class_ids body).

  Lemma sumf_le : forall f g l, (forall id, f id <= g id) -> sumf f l <= sumf g l.
  Proof. intros f g l H. induction l; simpl; try lia. specialize (H a). lia. Qed.
  Lemma sumf_lt : forall f g l x, (forall id, f id <= g id) -> In x l -> f x < g x -> sumf f l < sumf g l.
  Proof.
    intros f g l x H. induction l; simpl; intros Hin Hx; try tauto.
    destruct Hin as [Hin|Hin].
    - subst. assert (sumf f l <= sumf g l) by (apply sumf_le; auto). lia.
    - specialize (IHl Hin Hx). specialize (H a). lia.
  Qed.

  Lemma sumf_nonneg : forall f l, (forall id, 0 <= f id) -> 0 <= sumf f l.
  Proof. intros f l H. induction l; simpl; try lia. specialize (H a). lia. Qed.

  Definition lex_lt (a b : Z * Z) : Prop := fst a < fst b \/ (fst a = fst b /\ snd a < snd b).
  Definition lex_le (a b : Z * Z) : Prop := a = b \/ lex_lt a b.
  Definition mu (cs : list (Z * Z)) : Z * Z := (mu1 cs, mu2 cs).

  Lemma lex_le_lt_trans : forall a b c, lex_lt a b -> lex_le b c -> lex_lt a c.
  Proof.
    intros [a1 a2] [b1 b2] [c1 c2] H [H'|H']; [inversion H'; subst; auto|].
    unfold lex_lt in *; simpl in *; lia.
  Qed.

  Lemma sumf_ext : forall f g l, (forall id, f id = g id) -> sumf f l = sumf g l.
  Proof. intros f g l H. induction l; simpl; auto. rewrite IHl, (H a). reflexivity. Qed.

  Lemma lookup_cons : forall cid t cs id,
      lookup id ((cid, t) :: cs) = if cid =? id then Some t else lookup id cs.
  Proof. reflexivity. Qed.

  Lemma upd_decreases : forall cs cid idx t,
      costs_nonneg -> cs_nonneg cs -> valid_upd cs cid idx t ->
      cs_nonneg ((cid, t) :: cs) /\ lex_lt (mu ((cid, t) :: cs)) (mu cs).
  Proof.
    intros cs cid idx t Hc Hcs [c [m [Hcin [Hcl [Hid [_ [_ [Hct Hb]]]]]]]].
    assert (Ht : 0 <= t) by (eapply calc_total_nonneg; eauto).
    assert (Hcid : In cid (class_ids body)).
    { unfold class_ids. rewrite <- Hid. apply in_map. apply filter_In. auto. }
    split.
    - intros id b Hl. rewrite lookup_cons in Hl. destruct (cid =? id); [inversion Hl; subst; auto | eauto].
    - unfold lex_lt, mu. unfold fst, snd. unfold better in Hb.
      destruct (lookup cid cs) as [b|] eqn:El.
      + (* improvement of an existing cost *)
        apply Z.ltb_lt in Hb. right. split.
        * unfold mu1. apply sumf_ext. intro id. rewrite lookup_cons.
          destruct (cid =? id) eqn:E; auto. apply Z.eqb_eq in E. subst. rewrite El. auto.
        * unfold mu2. apply sumf_lt with (x := cid); auto.
          -- intro id. rewrite lookup_cons. destruct (cid =? id) eqn:E; try lia.
             apply Z.eqb_eq in E. subst. rewrite El. lia.
          -- rewrite lookup_cons. rewrite Z.eqb_refl. rewrite El. lia.
      + left. unfold mu1. apply sumf_lt with (x := cid); auto.
        * intro id. rewrite lookup_cons. destruct (cid =? id) eqn:E; try lia. destruct (lookup id cs); lia.
        * rewrite lookup_cons. rewrite Z.eqb_refl. rewrite El. lia.
  Qed.

  Definition prog_inv (cs0 : list (Z * Z)) (st : cstate) : Prop :=
    let '(cs, _, ch) := st in
    cs_nonneg cs /\ lex_le (mu cs) (mu cs0) /\ (ch = true -> lex_lt (mu cs) (mu cs0)).

  Lemma sweep_progress : forall cs ms cs' ms' ch',
      costs_nonneg -> cs_nonneg cs ->
      sweep_classes body d body (cs, ms, false) = Ok (cs', ms', ch') ->
      cs_nonneg cs' /\ (ch' = true -> lex_lt (mu cs') (mu cs)).
  Proof.
    intros cs ms cs' ms' ch' Hc Hcs H.
    apply (sweep_classes_inv (prog_inv cs)) in H; auto.
    - destruct H as [A [B C]]. split; auto.
    - intros cs1 ms1 ch1 cid idx t Hv [A [B C]].
      destruct (upd_decreases cs1 cid idx t Hc A Hv) as [A' B']. split; auto.
      assert (lex_lt (mu ((cid, t) :: cs1)) (mu cs)) by (eapply lex_le_lt_trans; eauto).
      split; auto. right; auto.
    - split; auto. split. left; auto. intros; discriminate.
  Qed.

  Lemma mu_nonneg : forall cs, cs_nonneg cs -> 0 <= mu1 cs /\ 0 <= mu2 cs.
  Proof.
    intros cs H. split; apply sumf_nonneg; intro id.
    - destruct (lookup id cs); lia.
    - destruct (lookup id cs) eqn:E; try lia. eauto.
  Qed.

  (* only the loop's own fuel produces OutOfFuel; errors come from a bad eqsat_cost or a dangling operand *)
  Definition fails_only_if (P : Prop) {A} (r : res A) : Prop :=
    match r with Ok _ => True | Err _ => ~ P | OutOfFuel => False end.

  Lemma fails_only_if_impl : forall (P P' : Prop) A (r : res A),
      (P' -> P) -> fails_only_if P r -> fails_only_if P' r.
  Proof. intros P P' A [x|e|]; simpl; auto. Qed.

  Definition resolvable (ops : list val) : Prop :=
    forall j, In (VRes j) ops -> exists dj, find_node j body = Some dj.
  Lemma resolvable_tail : forall o r, resolvable (o :: r) -> resolvable r.
  Proof. intros o r H j Hj. apply H. right. exact Hj. Qed.

  Definition closed : Prop :=
    (forall n, In n body -> ncost n <> CBad) /\ (forall n, In n body -> resolvable (nops n)).

  Lemma base_cost_fails : forall n, fails_only_if (ncost n <> CBad) (base_cost n d).
  Proof. intro n. unfold base_cost. destruct (ncost n); simpl; auto. Qed.

  Lemma sum_operands_fails : forall cs ops total,
      fails_only_if (closed /\ resolvable ops) (sum_operands body cs d ops total).
  Proof.
    intros cs. induction ops as [|o r IH]; intro total; simpl; [exact I|].
    assert (IH' : forall t, fails_only_if (closed /\ resolvable (o :: r)) (sum_operands body cs d r t)).
    { intro t. eapply fails_only_if_impl; [|apply IH].
      intros [Hc Hr]. split; [exact Hc | exact (resolvable_tail _ _ Hr)]. }
    destruct o as [i|j]; [apply IH'|]. destruct (find_node j body) as [dn|] eqn:Ef.
    - destruct (is_class dn); [destruct (lookup j cs); [apply IH' | exact I]|].
      assert (Hb := base_cost_fails dn). destruct (base_cost dn d) as [oc| |]; [apply IH'| |exact Hb].
      intros [[Hc _] _]. apply find_node_In in Ef. apply Hb, Hc, Ef.
    - intros [_ Hr]. destruct (Hr j (or_introl eq_refl)) as [dj Hdj]. congruence.
  Qed.

  Lemma calc_total_fails : forall cs v, fails_only_if (closed /\ resolvable [v]) (calc_total body cs d v).
  Proof.
    intros cs [i|id]; simpl; [exact I|]. destruct (find_node id body) as [op|] eqn:Ef.
    - destruct (is_class op); [exact I|]. apply find_node_In in Ef. destruct Ef as [Hop _].
      assert (Hb := base_cost_fails op). destruct (base_cost op d) as [[nc|]| |]; [|exact I| |exact Hb].
      + eapply fails_only_if_impl; [|apply sum_operands_fails].
        intros [Hc _]. split; [exact Hc | exact (proj2 Hc op Hop)].
      + intros [[Hc _] _]. apply Hb, Hc, Hop.
    - intros [_ Hr]. destruct (Hr id (or_introl eq_refl)) as [dj Hdj]. congruence.
  Qed.

  Lemma sweep_members_fails : forall cid members idx st,
      fails_only_if (closed /\ resolvable members) (sweep_members body d cid members idx st).
  Proof.
    intros cid. induction members as [|m r IH]; intros idx st; simpl; [exact I|].
    destruct st as [[cs ms] ch].
    assert (IH' : forall i st', fails_only_if (closed /\ resolvable (m :: r)) (sweep_members body d cid r i st')).
    { intros i st'. eapply fails_only_if_impl; [|apply IH].
      intros [Hc Hr]. split; [exact Hc | exact (resolvable_tail _ _ Hr)]. }
    assert (Hm := calc_total_fails cs m).
    destruct (calc_total body cs d m) as [[t|]| |]; try apply IH'; [|destruct Hm].
    simpl in *. intros [Hc Hr]. apply Hm. split; [exact Hc|]. intros j [Hj|[]]. apply Hr. left. exact Hj.
  Qed.

  Lemma sweep_classes_fails : forall todo st,
      (forall n, In n todo -> In n body) -> fails_only_if closed (sweep_classes body d todo st).
  Proof.
    induction todo as [|n r IH]; intros st H; simpl; [exact I|].
    assert (H' : forall n0, In n0 r -> In n0 body) by (intros; apply H; right; auto).
    destruct (is_class n); auto.
    assert (Hm := sweep_members_fails (nid n) (nops n) 0 st).
    destruct (sweep_members body d (nid n) (nops n) 0 st) as [st'| |]; [apply IH, H' | | exact Hm].
    simpl in *. intro Hc. apply Hm. split; [exact Hc|]. apply (proj2 Hc), H. left. reflexivity.
  Qed.

  Lemma fix_loop_no_err : forall fuel cs ms e, closed -> fix_loop fuel body d cs ms <> Err e.
  Proof.
    induction fuel as [|f IH]; intros cs ms e Hc; simpl; try discriminate.
    assert (Hs := sweep_classes_fails body (cs, ms, false) (fun n H => H)).
    destruct (sweep_classes body d body (cs, ms, false)) as [[[cs1 ms1] [|]]|e'|];
      [apply IH, Hc | discriminate | destruct (Hs Hc) | discriminate].
  Qed.

  Lemma fix_loop_terminates_aux : forall n1 n2 cs ms,
      costs_nonneg -> cs_nonneg cs -> mu1 cs = Z.of_nat n1 -> mu2 cs = Z.of_nat n2 ->
      exists fuel, fix_loop fuel body d cs ms <> OutOfFuel.
  Proof.
    induction n1 as [n1 IH1] using lt_wf_ind. induction n2 as [n2 IH2] using lt_wf_ind.
    intros cs ms Hc Hcs H1 H2.
    destruct (sweep_classes body d body (cs, ms, false)) as [[[cs1 ms1] ch1]| |] eqn:E.
    - destruct (sweep_progress _ _ _ _ _ Hc Hcs E) as [Hcs1 Hlt]. destruct ch1.
      + specialize (Hlt eq_refl). destruct (mu_nonneg _ Hcs1) as [P1 P2].
        unfold lex_lt, mu in Hlt; simpl in Hlt.
        assert (Hex : exists fuel, fix_loop fuel body d cs1 ms1 <> OutOfFuel).
        { destruct Hlt as [Hlt|[Heq Hlt]].
          - apply (IH1 (Z.to_nat (mu1 cs1))) with (n2 := Z.to_nat (mu2 cs1)); auto; lia.
          - apply (IH2 (Z.to_nat (mu2 cs1))); auto; lia. }
        destruct Hex as [f Hf]. exists (S f). simpl. rewrite E. exact Hf.
      + exists 1%nat. simpl. rewrite E. discriminate.
    - exists 1%nat. simpl. rewrite E. discriminate.
    - pose proof (sweep_classes_fails body (cs, ms, false) (fun n H => H)) as Hs. rewrite E in Hs. destruct Hs.
  Qed.

  Theorem fix_loop_terminates : forall ms,
      costs_nonneg ->
      exists fuel, fix_loop fuel body d [] ms <> OutOfFuel /\
                   forall k, fix_loop (fuel + k) body d [] ms = fix_loop fuel body d [] ms.
  Proof.
    intros ms Hc.
    assert (Hcs : cs_nonneg []) by (intros id b H; discriminate).
    destruct (mu_nonneg _ Hcs) as [P1 P2].
    destruct (fix_loop_terminates_aux (Z.to_nat (mu1 [])) (Z.to_nat (mu2 [])) [] ms Hc Hcs) as [f Hf]; try lia.
    exists f. split; [exact Hf|]. intro k. apply fix_loop_more_fuel; auto.
  Qed.

End Loop.

(* which classes get a cost: the least set closed under
     a class is costable if one of its members is computable;
     a block argument is computable; an operation is computable if it has a base cost and every
     operand that is an e-class is costable; a class used as a member is computable if costable *)
Section Costable.
  Variable body : list node.
  Variable d : option Z.

  Inductive costable : Z -> Prop :=
  | costable_intro : forall c m,
      In c body -> is_class c = true -> In m (nops c) -> member_ok m -> costable (nid c)
  with member_ok : val -> Prop :=
  | mo_arg : forall i, member_ok (VArg i)
  | mo_cls : forall id c,
      find_node id body = Some c -> is_class c = true -> costable id -> member_ok (VRes id)
  | mo_op : forall id op nc,
      find_node id body = Some op -> is_class op = false -> base_cost op d = Ok (Some nc) ->
      (forall j dj, In (VRes j) (nops op) -> find_node j body = Some dj -> is_class dj = true -> costable j) ->
      member_ok (VRes id).

  Scheme costable_mind := Minimality for costable Sort Prop
    with member_ok_mind := Minimality for member_ok Sort Prop.

  Variable cs : list (Z * Z).
  Hypothesis settled :
    forall n m, In n body -> is_class n = true -> In m (nops n) -> member_settled body d cs (nid n) m.

  Lemma sum_operands_some : forall ops total ot,
      (forall j dj, In (VRes j) ops -> find_node j body = Some dj -> is_class dj = true ->
                    exists b, lookup j cs = Some b) ->
      sum_operands body cs d ops total = Ok ot -> exists t, ot = Some t.
  Proof.
    induction ops as [|o r IH]; intros total ot Hc H; simpl in H.
    - inversion H. eauto.
    - assert (Hc' : forall j dj, In (VRes j) r -> find_node j body = Some dj -> is_class dj = true ->
                                 exists b, lookup j cs = Some b) by (intros; eapply Hc; eauto; right; auto).
      destruct o as [i|j]; [eapply IH; eauto|].
      destruct (find_node j body) as [dn|] eqn:Ef; try discriminate.
      destruct (is_class dn) eqn:Ecl.
      + destruct (Hc j dn (or_introl eq_refl) Ef Ecl) as [b Hb]. rewrite Hb in H. eapply IH; eauto.
      + destruct (base_cost dn d) as [oc| |]; try discriminate. eapply IH; eauto.
  Qed.

  Lemma costable_has_cost : forall id, costable id -> exists b, lookup id cs = Some b.
  Proof.
    apply (costable_mind
             (fun id => exists b, lookup id cs = Some b)
             (fun m => forall ot, calc_total body cs d m = Ok ot -> exists t, ot = Some t)).
    - intros c m Hc Hcl Hm _ IHm. destruct (settled c m Hc Hcl Hm) as [ot [Hct Hb]].
      destruct (IHm ot Hct) as [t Ht]. specialize (Hb t Ht). unfold better in Hb.
      destruct (lookup (nid c) cs) as [b|]; [eauto | discriminate].
    - intros i ot H. simpl in H. inversion H. eauto.
    - intros id c Hf Hcl _ [b Hb] ot H. simpl in H. rewrite Hf, Hcl in H. inversion H. eauto.
    - intros id op nc Hf Hcl Hbc _ IHops ot H. simpl in H. rewrite Hf, Hcl, Hbc in H.
      eapply sum_operands_some; eauto.
  Qed.

End Costable.

Lemma fp_nonneg : forall d dict n c,
    (forall c, ncost n = CInt c -> 0 <= c) ->
    (forall k c, lookup k dict = Some c -> 0 <= c) -> (forall c, d = Some c -> 0 <= c) ->
    ncost (fp d dict n) = CInt c -> 0 <= c.
Proof.
  intros d dict n c Hn Hd Hdef H. destruct (fp_cost d dict n) as [E|[c' [E Hs]]]; rewrite E in H; auto.
  inversion H; subst c'. destruct Hs; eauto.
Qed.

(* C28_costs_terminate: with non-negative costs (pre-set attributes, cost dictionary, default) some amount of
   fuel suffices, and any larger amount gives the same answer *)
Theorem add_costs_terminates : forall d dict p,
    (forall n c, In n (p_body p) -> ncost n = CInt c -> 0 <= c) ->
    (forall k c, lookup k dict = Some c -> 0 <= c) -> (forall c, d = Some c -> 0 <= c) ->
    exists fuel, forall k, add_costs (fuel + k) d dict p <> OutOfFuel /\
                           add_costs (fuel + k) d dict p = add_costs fuel d dict p.
Proof.
  intros d dict p Hp Hd Hdef. unfold add_costs. destruct (existsb is_class (p_body p)).
  - unfold add_eqsat_costs. destruct (first_pass d dict (p_body p)) as [b1| |] eqn:E1.
    + assert (Hnn : costs_nonneg b1 d).
      { split; auto. intros n c Hn. rewrite (first_pass_map _ _ _ _ E1) in Hn. apply in_map_iff in Hn.
        destruct Hn as [n0 [<- Hn0]]. apply fp_nonneg; eauto. }
      destruct (fix_loop_terminates b1 d [] Hnn) as [f [Hne Heq]]. exists f. intro k.
      rewrite Heq. split; [|reflexivity].
      destruct (fix_loop f b1 d [] []) as [[cs ms]| |]; [discriminate | discriminate | congruence].
    + exists 0%nat. intro k. split; auto. discriminate.
    + destruct (first_pass_not_oof _ _ _ E1).
  - exists 0%nat. intro k. split; auto. discriminate.
Qed.

(* C28_costs_minimal: when the loop stops, the cost of a class is at most the total cost of each of its
   members (under the final class costs), and the class has a non-negative index (its upper bound: costable_chosen) *)
Theorem costs_minimal : forall fuel body d cs ms,
    fix_loop fuel body d [] [] = Ok (cs, ms) ->
    forall c m t, In c body -> is_class c = true -> In m (nops c) ->
                  calc_total body cs d m = Ok (Some t) ->
                  exists b i, lookup (nid c) cs = Some b /\ b <= t /\
                              lookup (nid c) ms = Some i /\ 0 <= i.
Proof.
  intros fuel body d cs ms H c m t Hc Hcl Hm Hct.
  apply fix_loop_result in H. 2: (intros cid b Hl; discriminate).
  destruct H as [Hinv Hset]. destruct (Hset c m Hc Hcl Hm) as [ot [Hot Hb]].
  rewrite Hct in Hot. inversion Hot; subst. specialize (Hb t eq_refl). unfold better in Hb.
  destruct (lookup (nid c) cs) as [b|] eqn:El; try discriminate.
  apply Z.ltb_ge in Hb.
  destruct (Hinv _ _ El) as [i [c' [Hi [_ [_ [_ Hr]]]]]]. exists b, i. repeat split; auto; lia.
Qed.

(* C28_extract_total (cost part): every costable class ends with a min_cost_index in range *)
Theorem costable_chosen : forall fuel d dict body body',
    NoDup (map nid body) ->
    add_eqsat_costs fuel d dict body = Ok body' ->
    exists body1, first_pass d dict body = Ok body1 /\
      forall c', In c' body' -> is_class c' = true -> costable body1 d (nid c') ->
                 exists i, nmci c' = Some i /\ 0 <= i < Z.of_nat (length (nops c')).
Proof.
  intros fuel d dict body body' Hnd H. unfold add_eqsat_costs in H.
  destruct (first_pass d dict body) as [b1| |] eqn:E1; try discriminate. exists b1. split; auto.
  destruct (fix_loop fuel b1 d [] []) as [[cs ms]| |] eqn:E2; try discriminate. inversion H; subst. clear H.
  apply fix_loop_result in E2. 2: (intros cid b Hl; discriminate).
  destruct E2 as [Hinv Hset]. intros c' Hc' Hcl Hcost.
  destruct (costable_has_cost b1 d cs Hset _ Hcost) as [b Hb].
  destruct (Hinv _ _ Hb) as [i [c [Hi [Hc [Hccl [Hcid Hr]]]]]].
  change (In c' (map (mci ms) b1)) in Hc'. apply in_map_iff in Hc'. destruct Hc' as [n [<- Hn]].
  assert (Hnd1 : NoDup (map nid b1)).
  { rewrite (first_pass_map _ _ _ _ E1), keeps_ids; [exact Hnd | apply fp_keeps]. }
  destruct (mci_keeps ms n) as [S1 [_ [_ [S4 _]]]].
  assert (n = c) by (eapply NoDup_nid_inj; eauto; congruence). subst n.
  exists i. rewrite S4. split; [|exact Hr]. unfold mci. rewrite <- Hcid in Hi. rewrite Hi. reflexivity.
Qed.

(* a negative cost on a cycle: x = x * 1 with eqsat_cost -1 on the multiplication.
   The loop lowers the cost of the class by one in every sweep: no amount of fuel suffices. *)
Definition neg_cycle : list node :=
  [ Node 0 3 1 [] 1 (CInt 0) None;                       (* %one = arith.constant 1 *)
    Node 1 N_CLASS 0 [VRes 0] 1 CNone None;              (* %one_c = class %one *)
    Node 2 5 0 [VRes 3; VRes 1] 1 (CInt (-1)) None;      (* %m = arith.muli %x_c, %one_c  {eqsat_cost = -1} *)
    Node 3 N_CLASS 0 [VRes 2; VArg 0] 1 CNone None;      (* %x_c = class %m, %x *)
    Node 4 N_RET 0 [VRes 3] 0 CNone None ].

Lemma neg_calc_one : forall cs, calc_total neg_cycle cs (Some 0) (VRes 0) = Ok (Some 0).
Proof. reflexivity. Qed.

Lemma neg_calc_mul : forall cs b,
    lookup 1 cs = Some 0 -> lookup 3 cs = Some b ->
    calc_total neg_cycle cs (Some 0) (VRes 2) = Ok (Some (-1 + b + 0)).
Proof.
  intros cs b H1 H3. cbn -[Z.add]. rewrite H3. cbn -[Z.add]. rewrite H1. reflexivity.
Qed.

Lemma neg_cycle_step : forall cs ms b,
    lookup 1 cs = Some 0 -> lookup 3 cs = Some b -> b <= 0 ->
    exists cs' ms', sweep_classes neg_cycle (Some 0) neg_cycle (cs, ms, false) = Ok (cs', ms', true) /\
                    lookup 1 cs' = Some 0 /\ lookup 3 cs' = Some (b - 1).
Proof.
  intros cs ms b H1 H3 Hb.
  exists ((3, -1 + b + 0) :: cs), ((3, 0) :: ms). split; [|split].
  - unfold neg_cycle at 2.
    cbn [sweep_classes is_class nname nid nops N_CLASS N_CCLASS Z.eqb Pos.eqb orb sweep_members].
    rewrite neg_calc_one. rewrite H1. change (0 <? 0) with false. cbn iota.
    rewrite (neg_calc_mul cs b H1 H3). rewrite H3.
    replace (-1 + b + 0 <? b) with true by (symmetry; apply Z.ltb_lt; lia). cbn iota.
    cbn [calc_total]. rewrite lookup_cons. change (3 =? 3) with true. cbn iota.
    replace (0 <? -1 + b + 0) with false by (symmetry; apply Z.ltb_ge; lia). reflexivity.
  - rewrite lookup_cons. change (3 =? 1) with false. exact H1.
  - rewrite lookup_cons. change (3 =? 3) with true. cbn iota. f_equal. lia.
Qed.

Lemma neg_cycle_diverges_from : forall fuel cs ms b,
    lookup 1 cs = Some 0 -> lookup 3 cs = Some b -> b <= 0 ->
    fix_loop fuel neg_cycle (Some 0) cs ms = OutOfFuel.
Proof.
  induction fuel as [|f IH]; intros cs ms b H1 H3 Hb; auto.
  destruct (neg_cycle_step cs ms b H1 H3 Hb) as [cs' [ms' [Hs [H1' H3']]]].
  cbn [fix_loop]. rewrite Hs. apply (IH cs' ms' (b - 1)); auto. lia.
Qed.

Theorem neg_cycle_never_terminates : forall fuel,
    add_costs fuel (Some 0) [] (Prog 1 neg_cycle) = OutOfFuel.
Proof.
  intros fuel.
  assert (H : fix_loop fuel neg_cycle (Some 0) [] [] = OutOfFuel).
  { destruct fuel as [|f]; auto. cbn [fix_loop].
    assert (Hs : sweep_classes neg_cycle (Some 0) neg_cycle ([], [], false)
                 = Ok ([(3, 0); (1, 0)], [(3, 1); (1, 0)], true)) by (vm_compute; reflexivity).
    rewrite Hs. apply (neg_cycle_diverges_from f _ _ 0); auto; lia. }
  unfold add_costs. cbn [p_body].
  assert (He : existsb is_class neg_cycle = true) by reflexivity. rewrite He.
  unfold add_eqsat_costs.
  assert (Hf : first_pass (Some 0) [] neg_cycle = Ok neg_cycle) by reflexivity. rewrite Hf.
  rewrite H. reflexivity.
Qed.

Theorem costs_extract_sound : forall sem args rho fuel d dict g g' p' rs,
    ids_ok (p_body g) -> models sem args rho (p_body g) ->
    add_costs fuel d dict g = Ok g' -> extract g' = Ok p' -> eval sem args p' = Some rs ->
    hd_error (obs args rho (p_body g)) = Some rs.
Proof.
  intros sem args rho fuel d dict g g' p' rs Hids Hm Hc He Hev.
  destruct (add_costs_map _ _ _ _ _ Hc) as [_ [f [Hf Hb]]].
  rewrite <- (keeps_obs args rho f _ Hf), <- Hb.
  apply (extract_sound sem args rho g' p' rs); auto; rewrite Hb.
  - apply keeps_ids_ok; assumption.
  - apply keeps_models; assumption.
Qed.
