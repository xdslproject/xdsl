(* C26/ProofsSimplify.v -- AffineExpr.simplify (SimpleAffineExprFlattener) preserves the value.
   Stack invariant: every row on operand_expr_stack, read as
       sum_i row[i]*dims[i] + sum_j row[nd+j]*syms[j] + sum_k row[nd+ns+k]*value(local_exprs[k]) + row[-1],
   equals the value of the sub-expression it stands for; every local expression evaluates. *)
From Coq Require Import ZArith List Bool Arith Lia Znumtheory.
From XV Require Import C26.Model C26.ProofsAlg.
Import ListNotations.
Local Open Scope Z_scope.

Lemma nth_error_app_add {A} (a b : list A) i : nth_error (a ++ b) (length a + i) = nth_error b i.
Proof. rewrite nth_error_app2 by lia. f_equal. lia. Qed.

Fixpoint dot (r v : list Z) : Z :=
  match r, v with
  | x :: r', y :: v' => x * y + dot r' v'
  | _, _ => 0
  end.

Lemma dot_nil_r r : dot r [] = 0.
Proof. destruct r; reflexivity. Qed.

Lemma dot_repeat0 k v : dot (repeat 0 k) v = 0.
Proof. revert v. induction k as [|k IH]; intros [|y v]; simpl; auto. Qed.

Lemma dot_app a a' b b' : length a = length b -> dot (a ++ a') (b ++ b') = dot a b + dot a' b'.
Proof.
  revert b. induction a as [|x a IH]; intros [|y b] H; simpl in *; try discriminate; auto.
  rewrite IH by lia. lia.
Qed.

Lemma dot_unit n i x vec y :
  nth_error vec i = Some y -> dot (unit_row n i x) vec = x * y.
Proof.
  intros H. apply nth_error_split in H. destruct H as [l1 [l2 [-> Hl]]].
  unfold unit_row. rewrite dot_app by (rewrite repeat_length; auto).
  simpl. rewrite !dot_repeat0. lia.
Qed.

Lemma unit_row_length n i x : (i < n)%nat -> length (unit_row n i x) = n.
Proof. intros H. unfold unit_row. rewrite app_length, repeat_length. simpl. rewrite repeat_length. lia. Qed.

Lemma unit_row_nth n i x : (i < n)%nat -> nth_error (unit_row n i x) i = Some x.
Proof.
  intros H. unfold unit_row. rewrite nth_error_app2 by (rewrite repeat_length; lia).
  rewrite repeat_length, Nat.sub_diag. reflexivity.
Qed.

Lemma dot_add a b v : length a = length b ->
  dot (map (fun lr => fst lr + snd lr) (combine a b)) v = dot a v + dot b v.
Proof.
  revert b v. induction a as [|x a IH]; intros [|y b] v H; simpl in *; try discriminate; auto.
  destruct v as [|z v]; simpl; auto. rewrite IH by lia. lia.
Qed.

Lemma dot_scale a c v : dot (map (fun l => l * c) a) v = dot a v * c.
Proof.
  revert v. induction a as [|x a IH]; intros [|z v]; simpl; auto. rewrite IH. lia.
Qed.

Lemma dot_zero a v : dot (map (fun _ : Z => 0) a) v = 0.
Proof. revert v. induction a as [|x a IH]; intros [|z v]; simpl; auto. Qed.

Lemma dot_div g a v : 0 < g -> Forall (fun l => (g | l)) a ->
  dot a v = g * dot (map (fun l => l / g) a) v.
Proof.
  intros Hg H. revert v. induction H as [|x a [k ->] Ha IH]; intros [|z v]; simpl; try lia.
  rewrite IH, Z.div_mul by lia. lia.
Qed.

Lemma dot_sub_at i c row v y :
  nth_error v i = Some y -> (i < length row)%nat ->
  dot (sub_at i c row) v = dot row v - c * y.
Proof.
  revert row v. induction i as [|i IH]; intros [|x row] [|z v] Hy Hl; simpl in *; try discriminate; try lia.
  - inversion Hy; subst. lia.
  - rewrite (IH row v Hy) by lia. lia.
Qed.

Lemma sub_at_length i c row : length (sub_at i c row) = length row.
Proof. revert i. induction row as [|x row IH]; intros [|i]; simpl; auto. Qed.

Lemma insert_at_length i x row : length (insert_at i x row) = S (length row).
Proof.
  unfold insert_at. rewrite <- (firstn_skipn i row) at 3. rewrite !app_length. simpl. lia.
Qed.

Lemma gcd_row_spec row c : 0 < c ->
  0 < gcd_row row c /\ (gcd_row row c | c) /\ Forall (fun l => (gcd_row row c | l)) row.
Proof.
  intros Hc. induction row as [|x row IH]; simpl.
  - split; auto. split; [apply Z.divide_refl | constructor].
  - destruct IH as [Hp [Hdc Hall]]. set (g := gcd_row row c) in *.
    assert (Hg : 0 < Z.gcd (Z.abs x) g).
    { pose proof (Z.gcd_nonneg (Z.abs x) g).
      destruct (Z.eq_dec (Z.gcd (Z.abs x) g) 0) as [E|E]; [|lia].
      apply Z.gcd_eq_0_r in E. lia. }
    split; auto. split.
    + eapply Z.divide_trans; [apply Z.gcd_divide_r | exact Hdc].
    + constructor.
      * apply Z.divide_abs_r. apply Z.gcd_divide_l.
      * eapply Forall_impl; [|exact Hall]. intros a Ha.
        eapply Z.divide_trans; [apply Z.gcd_divide_r | exact Ha].
Qed.

Lemma div_by_gcd_norm g (row : list Z) :
  (if negb (g =? 1) then map (fun l => l / g) row else row) = map (fun l => l / g) row.
Proof.
  destruct (g =? 1) eqn:E; simpl; auto. apply Z.eqb_eq in E. subst.
  induction row as [|x row IH]; simpl; auto. rewrite Z.div_1_r. f_equal. exact IH.
Qed.

Lemma kind_eqb_eq a b : kind_eqb a b = true -> a = b.
Proof. destruct a, b; simpl; intros; try discriminate; auto. Qed.

Lemma expr_eqb_eq a b : expr_eqb a b = true -> a = b.
Proof.
  revert b. induction a as [p|p|v|k l IHl r IHr]; intros [q|q|w|k' l' r'] H; simpl in H; try discriminate.
  - apply Nat.eqb_eq in H. congruence.
  - apply Nat.eqb_eq in H. congruence.
  - apply Z.eqb_eq in H. congruence.
  - apply andb_true_iff in H. destruct H as [H Hr]. apply andb_true_iff in H. destruct H as [Hk Hl].
    apply kind_eqb_eq in Hk. apply IHl in Hl. apply IHr in Hr. congruence.
Qed.

Lemma find_local_id_spec ls e i : find_local_id ls e = Some i -> nth_error ls i = Some e.
Proof.
  revert i. induction ls as [|x ls IH]; simpl; intros i H; try discriminate.
  destruct (expr_eqb x e) eqn:E.
  - inversion H; subst. apply expr_eqb_eq in E. subst. reflexivity.
  - destruct (find_local_id ls e); inversion H; subst. simpl. auto.
Qed.

Section Simp.
  Variables (nd ns : nat) (d s : list Z).
  Hypothesis Hd : length d = nd.
  Hypothesis Hs : length s = ns.

  (* pre lv: the values of the columns of a row (dims, symbols, locals); rowval: the number a row stands for
     (last column = constant); Inv: the locals evaluate to lv and every row on the stack has the value of the
     sub-expression it stands for; returns_inv r es: r is Ok and its state satisfies Inv for es *)
  Definition pre (lv : list Z) : list Z := d ++ s ++ lv.
  Definition rowval (row lv : list Z) : Z := dot row (pre lv ++ [1]).
  Definition lvals (ls : list expr) (lv : list Z) : Prop :=
    Forall2 (fun le v => eval le d s = Ok v) ls lv.
  Definition row_ok (lv : list Z) (row : list Z) (e : expr) : Prop :=
    length row = (nd + ns + length lv + 1)%nat /\ eval e d s = Ok (rowval row lv).
  Definition Inv (st : flat_state) (es : list expr) (lv : list Z) : Prop :=
    lvals (locals st) lv /\ Forall2 (row_ok lv) (stack st) es.

  Definition returns_inv (r : res flat_state) (es : list expr) : Prop :=
    exists st' lv, r = Ok st' /\ Inv st' es lv.

  Lemma returns_inv_ok r es st' : returns_inv r es -> r = Ok st' -> exists lv, Inv st' es lv.
  Proof. intros [st1 [lv [-> HI]]] H. apply Ok_inj in H. subst st1. exists lv. exact HI. Qed.

  (* the shape of the visit specifications: under Q the visit raises, under P it returns with the invariant *)
  Lemma guarded_returns (P Q : Prop) r es err st' :
    Q \/ P -> (Q -> r = Raise err) /\ (P -> returns_inv r es) -> r = Ok st' -> exists lv, Inv st' es lv.
  Proof.
    intros [HQ|HP] [Hraise Hret] H.
    - rewrite (Hraise HQ) in H. discriminate.
    - exact (returns_inv_ok _ _ _ (Hret HP) H).
  Qed.

  Lemma returns_inv_push st es lv row e :
    Inv st es lv -> row_ok lv row e -> returns_inv (Ok (push row st)) (e :: es).
  Proof.
    intros [Hl Hr] Hrow. exists (push row st), lv. split; [reflexivity|].
    split; [exact Hl | constructor; assumption].
  Qed.

  Lemma pre_length lv : length (pre lv) = (nd + ns + length lv)%nat.
  Proof. unfold pre. rewrite !app_length. lia. Qed.

  Lemma pre_snoc lv q : pre (lv ++ [q]) = pre lv ++ [q].
  Proof. unfold pre. rewrite !app_assoc. reflexivity. Qed.

  Lemma cols_eq lv : pre lv ++ [1] = d ++ s ++ lv ++ [1].
  Proof. unfold pre. rewrite <- !app_assoc. reflexivity. Qed.

  Lemma nth_pre_dim lv p v : nth_error d p = Some v -> nth_error (pre lv ++ [1]) p = Some v.
  Proof.
    intros H. rewrite cols_eq, nth_error_app1; [exact H|]. apply nth_error_Some. congruence.
  Qed.

  Lemma nth_pre_sym lv p v : nth_error s p = Some v -> nth_error (pre lv ++ [1]) (nd + p) = Some v.
  Proof.
    intros H. rewrite cols_eq, <- Hd, nth_error_app_add, nth_error_app1; [exact H|].
    apply nth_error_Some. congruence.
  Qed.

  Lemma nth_pre_local lv i v : nth_error lv i = Some v -> nth_error (pre lv ++ [1]) (nd + ns + i) = Some v.
  Proof.
    intros H. rewrite cols_eq, <- Hd, <- Hs, <- Nat.add_assoc, !nth_error_app_add, nth_error_app1; [exact H|].
    apply nth_error_Some. congruence.
  Qed.

  Lemma nth_pre_const lv : nth_error (pre lv ++ [1]) (nd + ns + length lv) = Some 1.
  Proof. rewrite <- pre_length, <- (Nat.add_0_r (length (pre lv))). exact (nth_error_app_add (pre lv) [1] 0). Qed.

  Lemma num_cols_lv st es lv : Inv st es lv -> num_cols nd ns st = (nd + ns + length lv + 1)%nat.
  Proof. intros [Hl _]. unfold num_cols. rewrite (Forall2_length' _ _ _ Hl). reflexivity. Qed.

  Lemma unit_row_ok st es lv i x y e :
    Inv st es lv -> nth_error (pre lv ++ [1]) i = Some y -> eval e d s = Ok (x * y) ->
    row_ok lv (unit_row (num_cols nd ns st) i x) e.
  Proof.
    intros HI Hy He. split.
    - rewrite (num_cols_lv _ _ _ HI). apply unit_row_length.
      assert (Hi : (i < length (pre lv ++ [1%Z]))%nat) by (apply nth_error_Some; congruence).
      rewrite app_length, pre_length in Hi. exact Hi.
    - unfold rowval. rewrite (dot_unit _ _ _ _ _ Hy). exact He.
  Qed.

  Lemma rowval_insert row lv x q :
    (nd + ns + length lv <= length row)%nat ->
    rowval (insert_at (nd + ns + length lv) x row) (lv ++ [q]) = rowval row lv + x * q.
  Proof.
    intros Hl. unfold rowval, insert_at.
    replace (dot row) with (dot (firstn (nd + ns + length lv) row ++ skipn (nd + ns + length lv) row))
      by (rewrite firstn_skipn; reflexivity).
    rewrite pre_snoc, <- app_assoc, !dot_app by (rewrite firstn_length, pre_length; lia).
    simpl. lia.
  Qed.

  Lemma row_ok_extend lv row e q :
    row_ok lv row e -> row_ok (lv ++ [q]) (insert_at (nd + ns + length lv) 0 row) e.
  Proof.
    intros [Hl He]. split.
    - rewrite insert_at_length, app_length. simpl. lia.
    - rewrite rowval_insert by lia. rewrite He. f_equal. lia.
  Qed.

  Lemma ids_eval (mk : nat -> expr) (env l1 l2 : list Z) :
    (forall p, eval (mk p) d s = match nth_error env p with Some v => Ok v | None => Raise IndexErr end) ->
    env = l1 ++ l2 ->
    Forall2 (fun id v => eval id d s = Ok v) (map mk (seq (length l1) (length l2))) l2.
  Proof.
    intros Hmk. revert l1. induction l2 as [|x l2 IH]; intros l1 E; simpl; constructor.
    - rewrite Hmk, E, nth_error_app2 by lia. rewrite Nat.sub_diag. reflexivity.
    - specialize (IH (l1 ++ [x])). rewrite app_length in IH. simpl in IH.
      rewrite Nat.add_1_r in IH. apply IH. rewrite <- app_assoc. exact E.
  Qed.

  Lemma fold_terms_eval ids vals :
    Forall2 (fun id v => eval id d s = Ok v) ids vals ->
    forall coeffs acc accv, eval acc d s = Ok accv -> length coeffs = length ids ->
    eval (fold_left (fun acc ef => if snd ef =? 0 then acc else add acc (mul_const (fst ef) (snd ef)))
                    (combine ids coeffs) acc) d s = Ok (accv + dot coeffs vals).
  Proof.
    induction 1 as [|id v ids vals Hid H IH]; intros coeffs acc accv Hacc Hlen.
    - simpl. rewrite dot_nil_r. rewrite Hacc. f_equal. lia.
    - destruct coeffs as [|f coeffs]; [discriminate|]. simpl in Hlen. simpl.
      destruct (f =? 0) eqn:Ef.
      + apply Z.eqb_eq in Ef. subst. rewrite (IH coeffs acc accv Hacc) by lia. f_equal; lia.
      + rewrite (IH coeffs _ (accv + v * f)) by (try lia; rewrite add_eval, mul_const_eval, Hacc, Hid; reflexivity).
        f_equal. lia.
  Qed.

  Lemma from_flat_form_spec row ls lv :
    lvals ls lv -> length row = (nd + ns + length lv + 1)%nat ->
    exists e, from_flat_form row nd ns ls = Ok e /\ eval e d s = Ok (rowval row lv).
  Proof.
    intros Hlv Hlen. pose proof (Forall2_length' _ _ _ Hlv) as Hll.
    assert (Hne : row <> []) by (intros ->; simpl in Hlen; lia).
    destruct (exists_last Hne) as [body [ct ->]]. rewrite app_length, Nat.add_cancel_r in Hlen.
    unfold from_flat_form. rewrite removelast_last, last_last, app_length, Hlen, Hll, Nat.eqb_refl.
    eexists. split; [reflexivity|].
    assert (Hids : Forall2 (fun id v => eval id d s = Ok v)
                     (map Dim (seq 0 nd) ++ map Sym (seq 0 ns) ++ ls) (pre lv)).
    { apply Forall2_app; [|apply Forall2_app; [|exact Hlv]].
      - rewrite <- Hd. apply (ids_eval Dim d [] d); reflexivity.
      - rewrite <- Hs. apply (ids_eval Sym s [] s); reflexivity. }
    assert (Hf := fold_terms_eval _ _ Hids body (Const 0) 0 eq_refl).
    rewrite !app_length, !map_length, !seq_length, Nat.add_assoc, Hll in Hf. specialize (Hf Hlen).
    unfold rowval. rewrite dot_app by (rewrite pre_length; exact Hlen). simpl dot.
    destruct (ct =? 0) eqn:Ect.
    - apply Z.eqb_eq in Ect. rewrite Hf. f_equal. lia.
    - rewrite add_eval, Hf. simpl. f_equal. lia.
  Qed.

  Lemma add_local_spec st es lv dv le v :
    Inv st es lv -> 0 < dv -> eval le d s = Ok v ->
    exists st', add_local_floordiv_id nd ns dv le st = Ok st' /\ Inv st' es (lv ++ [v]).
  Proof.
    intros [Hl Hrows] Hdv He. unfold add_local_floordiv_id. rewrite (proj2 (Z.leb_gt dv 0) Hdv).
    eexists. split; [reflexivity|]. unfold local_start. rewrite (Forall2_length' _ _ _ Hl).
    split; simpl.
    - apply Forall2_app; [exact Hl | constructor; [exact He | constructor]].
    - clear Hl. induction Hrows as [|row e rows es' Hre Hr IH]; simpl; constructor; [|exact IH].
      apply row_ok_extend. exact Hre.
  Qed.

  Lemma find_local_val st es lv q loc v :
    Inv st es lv -> find_local_id (locals st) q = Some loc -> eval q d s = Ok v -> nth_error lv loc = Some v.
  Proof.
    intros [Hl _] Hf Hq. apply find_local_id_spec in Hf.
    destruct (Forall2_nth_error_l _ _ _ _ _ Hl Hf) as [w [Hw Ew]].
    rewrite Hq in Ew. apply Ok_inj in Ew. subst w. exact Hw.
  Qed.

  Lemma local_row_ok st es lv loc v e :
    Inv st es lv -> nth_error lv loc = Some v -> eval e d s = Ok v ->
    row_ok lv (unit_row (num_cols nd ns st) (local_start nd ns + loc) 1) e.
  Proof.
    intros HI Hv He. apply (unit_row_ok _ _ _ _ _ _ _ HI (nth_pre_local lv loc v Hv)).
    rewrite Z.mul_1_l. exact He.
  Qed.

  Lemma visit_dim_spec st es lv p :
    Inv st es lv ->
    ((nd <= p)%nat -> visit_dim nd ns p st = Raise AssertErr) /\
    ((p < nd)%nat -> returns_inv (visit_dim nd ns p st) (Dim p :: es)).
  Proof.
    intros HI. unfold visit_dim. split; intros Hp.
    - rewrite (proj2 (Nat.ltb_ge p nd) Hp). reflexivity.
    - rewrite (proj2 (Nat.ltb_lt p nd) Hp). apply (returns_inv_push _ _ _ _ _ HI).
      destruct (nth_error d p) as [x|] eqn:Hx; [|apply nth_error_None in Hx; lia].
      apply (unit_row_ok _ _ _ _ _ _ _ HI (nth_pre_dim lv p x Hx)). cbn [eval]. rewrite Hx, Z.mul_1_l. reflexivity.
  Qed.

  Lemma visit_sym_spec st es lv p :
    Inv st es lv ->
    ((ns <= p)%nat -> visit_sym nd ns p st = Raise AssertErr) /\
    ((p < ns)%nat -> returns_inv (visit_sym nd ns p st) (Sym p :: es)).
  Proof.
    intros HI. unfold visit_sym. split; intros Hp.
    - rewrite (proj2 (Nat.ltb_ge p ns) Hp). reflexivity.
    - rewrite (proj2 (Nat.ltb_lt p ns) Hp). apply (returns_inv_push _ _ _ _ _ HI).
      destruct (nth_error s p) as [x|] eqn:Hx; [|apply nth_error_None in Hx; lia].
      apply (unit_row_ok _ _ _ _ _ _ _ HI (nth_pre_sym lv p x Hx)). cbn [eval]. rewrite Hx, Z.mul_1_l. reflexivity.
  Qed.

  Lemma visit_const_spec st es lv c :
    Inv st es lv -> returns_inv (visit_const nd ns c st) (Const c :: es).
  Proof.
    intros HI. apply (returns_inv_push _ _ _ _ _ HI).
    apply (unit_row_ok _ _ _ _ _ 1 _ HI); [|simpl; f_equal; lia].
    unfold constant_index. rewrite (num_cols_lv _ _ _ HI), Nat.add_sub. apply nth_pre_const.
  Qed.

  Lemma visit_add_spec st es lv l r :
    Inv st (r :: l :: es) lv -> returns_inv (visit_add st) (Bin Add l r :: es).
  Proof.
    intros [Hl Hrows].
    inversion Hrows as [|rhs er rows1 es1 [Lr Er] Hrows1 E1 E2]; subst.
    inversion Hrows1 as [|lhs el rows2 es2 [Ll El] Hrows2 E3 E4]; subst.
    unfold visit_add, pop2. rewrite <- E1. cbn [bind]. rewrite Ll, Lr, Nat.eqb_refl.
    apply (returns_inv_push {| stack := rows2; locals := locals st |} es lv); [split; assumption|]. split.
    - rewrite map_length, combine_length. lia.
    - simpl. rewrite El, Er. unfold rowval. rewrite dot_add by lia. reflexivity.
  Qed.

  (* the state after the right operand `Const c` has been visited *)
  Definition const_row (st : flat_state) (c : Z) : list Z :=
    unit_row (num_cols nd ns st) (constant_index nd ns st) c.
  Definition with_const (st : flat_state) (c : Z) : flat_state := push (const_row st c) st.

  Lemma pop2_with_const st es lv l c :
    Inv st (l :: es) lv ->
    exists lhs st0,
      pop2 (with_const st c) = Ok (const_row st c, lhs, st0) /\ row_const nd ns st0 (const_row st c) = Ok c /\
      row_ok lv lhs l /\ Inv st0 es lv.
  Proof.
    intros [Hl Hrows]. inversion Hrows as [|lhs el rest es1 Hlhs Hrest E1 E2]; subst.
    exists lhs, {| stack := rest; locals := locals st |}. split; [|split; [|split]].
    - unfold pop2, with_const. simpl. rewrite <- E1. reflexivity.
    - unfold row_const, const_row, constant_index, num_cols. simpl. rewrite unit_row_nth by lia. reflexivity.
    - exact Hlhs.
    - split; assumption.
  Qed.

  Lemma visit_mul_spec st es lv l c :
    Inv st (l :: es) lv -> returns_inv (visit_mul nd ns (Const c) (with_const st c)) (Bin Mul l (Const c) :: es).
  Proof.
    intros HI. destruct (pop2_with_const _ _ _ _ c HI) as [lhs [st0 [Hpop [Hrc [[Ll El] HI0]]]]].
    unfold visit_mul. rewrite Hpop. cbn [bind is_const negb]. rewrite Hrc. cbn [bind].
    apply (returns_inv_push _ _ _ _ _ HI0). split.
    - rewrite map_length. exact Ll.
    - simpl. rewrite El. simpl. unfold rowval. rewrite dot_scale. reflexivity.
  Qed.

  Definition div_kind (is_ceil : bool) : kind := if is_ceil then CeilDiv else FloorDiv.

  Lemma div_kind_ctor (b : bool) x y : (if b then ceildiv x y else floordiv x y) = divlike (div_kind b) x y.
  Proof. destruct b; reflexivity. Qed.

  Lemma eval_div_kind_cancel b g X c : 0 < g -> 0 < c -> (g | c) ->
    eval_kind (div_kind b) (g * X) c = eval_kind (div_kind b) X (c / g).
  Proof.
    intros Hg Hc [k ->]. rewrite Z.div_mul by lia. assert (0 < k) by nia.
    assert (E : (k * g =? 0) = false) by (apply Z.eqb_neq; lia).
    assert (E' : (k =? 0) = false) by (apply Z.eqb_neq; lia).
    destruct b; cbn [div_kind eval_kind]; rewrite E, E'; f_equal.
    - replace (- (g * X)) with (- X * g) by lia. rewrite Z.div_mul_cancel_r by lia. reflexivity.
    - rewrite (Z.mul_comm g X). apply Z.div_mul_cancel_r; lia.
  Qed.

  (* the gcd step of visit_div and visit_mod leaves the quotient unchanged *)
  Lemma div_by_gcd_eval b lv lhs l c :
    row_ok lv lhs l -> 0 < c ->
    exists v, 0 < c / gcd_row lhs c /\
      eval_kind (div_kind b) (rowval (map (fun x => x / gcd_row lhs c) lhs) lv) (c / gcd_row lhs c) = Ok v /\
      eval (Bin (div_kind b) l (Const c)) d s = Ok v.
  Proof.
    intros [Ll El] Hc. destruct (gcd_row_spec lhs c Hc) as [Hg [Hgc Hgl]].
    set (g := gcd_row lhs c) in *.
    assert (Hdv : 0 < c / g) by (apply Z.div_str_pos; split; [exact Hg | apply Z.divide_pos_le; assumption]).
    assert (Hv : exists v, eval_kind (div_kind b) (rowval (map (fun x => x / g) lhs) lv) (c / g) = Ok v).
    { assert (E : (c / g =? 0) = false) by (apply Z.eqb_neq; lia).
      destruct b; cbn [div_kind eval_kind]; rewrite E; eexists; reflexivity. }
    destruct Hv as [v Hv]. exists v. split; [exact Hdv|]. split; [exact Hv|].
    simpl. rewrite El. cbn [bind]. rewrite <- Hv. unfold rowval. rewrite (dot_div g lhs _ Hg Hgl).
    apply eval_div_kind_cancel; assumption.
  Qed.

  Lemma flat_div_expr k row st es lv dv v :
    Inv st es lv -> length row = (nd + ns + length lv + 1)%nat -> 0 < dv ->
    eval_kind k (rowval row lv) dv = Ok v ->
    exists a q, from_flat_form row nd ns (locals st) = Ok a /\ divlike k a (Const dv) = Ok q /\
                eval q d s = Ok v.
  Proof.
    intros [Hlv _] Hlen Hdv Hv. destruct (from_flat_form_spec row _ lv Hlv Hlen) as [a [Ha Ea]].
    destruct (divlike_pos_total k a dv) as [q Hq]; [lia|]. exists a, q. split; [exact Ha|]. split; [exact Hq|].
    rewrite (divlike_eval k _ _ _ d s Hq), Ea. exact Hv.
  Qed.

  Lemma visit_div_spec st es lv l c is_ceil :
    Inv st (l :: es) lv ->
    (c <= 0 -> visit_div nd ns (Const c) is_ceil (with_const st c) = Raise ValueErr) /\
    (0 < c -> returns_inv (visit_div nd ns (Const c) is_ceil (with_const st c))
                          (Bin (div_kind is_ceil) l (Const c) :: es)).
  Proof.
    intros HI. destruct (pop2_with_const _ _ _ _ c HI) as [lhs [st0 [Hpop [Hrc [Hlhs HI0]]]]].
    unfold visit_div. rewrite Hpop. cbn [bind is_const negb]. rewrite Hrc. cbn [bind]. split; intros Hc.
    - rewrite (proj2 (Z.leb_le c 0) Hc). reflexivity.
    - rewrite (proj2 (Z.leb_gt c 0) Hc), div_by_gcd_norm.
      destruct (div_by_gcd_eval is_ceil lv lhs l c Hlhs Hc) as [v [Hdv [Hv Hnode]]].
      set (lhs' := map (fun x => x / gcd_row lhs c) lhs) in *. set (dv := c / gcd_row lhs c) in *.
      assert (Ll' : length lhs' = (nd + ns + length lv + 1)%nat)
        by (unfold lhs'; rewrite map_length; apply Hlhs).
      destruct (dv =? 1) eqn:Hd1.
      + (* divisor 1: the division disappears *)
        apply Z.eqb_eq in Hd1. apply (returns_inv_push _ _ _ _ _ HI0). split; [exact Ll'|].
        rewrite Hnode, <- Hv, Hd1. destruct is_ceil; simpl; f_equal; rewrite ?Z.div_1_r; lia.
      + destruct (flat_div_expr _ lhs' _ _ _ dv v HI0 Ll' Hdv Hv) as [a [q [Ha [Hq Eq]]]].
        rewrite Ha. cbn [bind]. rewrite div_kind_ctor, Hq. cbn [bind].
        destruct (find_local_id (locals st0) q) as [loc|] eqn:Hfind; cbn [bind].
        * (* reuse an existing local *)
          apply (returns_inv_push _ _ _ _ _ HI0).
          exact (local_row_ok _ _ _ _ _ _ HI0 (find_local_val _ _ _ _ _ _ HI0 Hfind Eq) Hnode).
        * (* a new local *)
          destruct (add_local_spec _ _ _ dv q v HI0 Hdv Eq) as [st2 [Hadd HI2]].
          rewrite Hadd. cbn [bind]. apply (returns_inv_push _ _ _ _ _ HI2).
          apply (local_row_ok _ _ _ _ v _ HI2); [|exact Hnode].
          rewrite (Forall2_length' _ _ _ (proj1 HI2)), app_length, Nat.add_sub, nth_error_app2, Nat.sub_diag by lia.
          reflexivity.
  Qed.

  Lemma forallb_mod_divides c row :
    forallb (fun l => l mod c =? 0) row = true -> 0 < c -> Forall (fun l => (c | l)) row.
  Proof.
    intros H Hc. apply Forall_forall. intros x Hx.
    rewrite forallb_forall in H. specialize (H x Hx). apply Z.eqb_eq in H.
    apply Z.mod_divide; [lia | exact H].
  Qed.

  (* visit_mod by a constant: l mod c = l - c * (l floordiv c), the quotient being a local *)
  Lemma visit_mod_spec st es lv l c :
    Inv st (l :: es) lv ->
    (c <= 0 -> visit_mod nd ns (Const c) (with_const st c) = Raise AssertErr) /\
    (0 < c -> returns_inv (visit_mod nd ns (Const c) (with_const st c)) (Bin Mod l (Const c) :: es)).
  Proof.
    intros HI. destruct (pop2_with_const _ _ _ _ c HI) as [lhs [st0 [Hpop [Hrc [Hlhs HI0]]]]].
    unfold visit_mod. rewrite Hpop. cbn [bind is_const negb]. rewrite Hrc. cbn [bind]. split; intros Hc.
    - rewrite (proj2 (Z.ltb_ge 0 c) Hc). reflexivity.
    - rewrite (proj2 (Z.ltb_lt 0 c) Hc). cbn [negb].
      pose proof Hlhs as [Ll El].
      assert (Hnode : eval (Bin Mod l (Const c)) d s = Ok (rowval lhs lv mod c)).
      { simpl. rewrite El. simpl. rewrite (proj2 (Z.eqb_neq c 0)) by lia. reflexivity. }
      destruct (forallb (fun l0 => l0 mod c =? 0) lhs) eqn:Hall.
      + (* every coefficient is a multiple of c *)
        apply (returns_inv_push _ _ _ _ _ HI0). split.
        * rewrite map_length. exact Ll.
        * rewrite Hnode. unfold rowval at 2. rewrite dot_zero. f_equal.
          apply Z.mod_divide; [lia|]. unfold rowval.
          rewrite (dot_div c lhs _ Hc (forallb_mod_divides c lhs Hall Hc)). apply Z.divide_factor_l.
      + rewrite div_by_gcd_norm.
        destruct (div_by_gcd_eval false lv lhs l c Hlhs Hc) as [v [Hdv [Hv Hq]]].
        assert (Ev : v = rowval lhs lv / c).
        { simpl in Hq. rewrite El in Hq. simpl in Hq. rewrite (proj2 (Z.eqb_neq c 0)) in Hq by lia.
          apply Ok_inj in Hq. symmetry. exact Hq. }
        set (lhs' := map (fun x => x / gcd_row lhs c) lhs) in *. set (dv := c / gcd_row lhs c) in *.
        destruct (flat_div_expr FloorDiv lhs' _ _ _ dv v HI0) as [a [q [Ha [Hdiv Eq]]]];
          [unfold lhs'; rewrite map_length; exact Ll | exact Hdv | exact Hv |].
        rewrite Ha. cbn [bind]. unfold floordiv. rewrite Hdiv. cbn [bind].
        destruct (find_local_id (locals st0) q) as [loc|] eqn:Hfind.
        * pose proof (find_local_val _ _ _ _ _ _ HI0 Hfind Eq) as Hloc.
          assert (loc < length lv)%nat by (apply nth_error_Some; congruence).
          apply (returns_inv_push _ _ _ _ _ HI0). split.
          -- rewrite sub_at_length. exact Ll.
          -- rewrite Hnode. unfold rowval, local_start.
             rewrite (dot_sub_at _ _ _ _ _ (nth_pre_local lv loc v Hloc)) by lia.
             f_equal. fold (rowval lhs lv). rewrite Ev, Z.mod_eq by lia. reflexivity.
        * destruct (add_local_spec _ _ _ dv q v HI0 Hdv Eq) as [st2 [Hadd HI2]].
          rewrite Hadd. cbn [bind]. apply (returns_inv_push _ _ _ _ _ HI2). split.
          -- rewrite insert_at_length, app_length. simpl. lia.
          -- rewrite Hnode, Ll, Nat.add_sub, rowval_insert by lia. f_equal. rewrite Ev, Z.mod_eq by lia. lia.
  Qed.

  (* the common beginning of visit_mul, visit_div and visit_mod *)
  Lemma const_rhs {A} r st1 st2 (k : list Z -> list Z -> flat_state -> res A) x :
    walk nd ns r st1 = Ok st2 ->
    (do '(rhs, lhs, st) <- pop2 st2; if negb (is_const r) then Raise NotImpl else k rhs lhs st) = Ok x ->
    exists c, r = Const c /\ st2 = with_const st1 c.
  Proof.
    intros Hw H. destruct (pop2 st2) as [[[rhs lhs] st]|]; [|discriminate]. simpl in H.
    destruct r as [p|p|c|k' l' r']; try discriminate. apply Ok_inj in Hw. exists c. auto.
  Qed.

  Lemma walk_inv e : forall st st' es lv,
    walk nd ns e st = Ok st' -> Inv st es lv -> exists lv', Inv st' (e :: es) lv'.
  Proof.
    induction e as [p|p|v|k l IHl r IHr]; intros st st' es lv H HI.
    - exact (guarded_returns _ _ _ _ _ _ (Nat.le_gt_cases nd p) (visit_dim_spec _ _ _ p HI) H).
    - exact (guarded_returns _ _ _ _ _ _ (Nat.le_gt_cases ns p) (visit_sym_spec _ _ _ p HI) H).
    - exact (returns_inv_ok _ _ _ (visit_const_spec _ _ _ v HI) H).
    - cbn [walk] in H. apply bind_ok in H. destruct H as [st1 [H1 H]].
      apply bind_ok in H. destruct H as [st2 [H2 H]].
      destruct (IHl _ _ _ _ H1 HI) as [lv1 HI1].
      destruct k.
      4-5: destruct (const_rhs _ _ _ _ _ H2 H) as [c [-> ->]];
        exact (guarded_returns _ _ _ _ _ _ (Z.le_gt_cases c 0) (visit_div_spec _ _ _ _ c _ HI1) H).
      + destruct (IHr _ _ _ _ H2 HI1) as [lv2 HI2].
        exact (returns_inv_ok _ _ _ (visit_add_spec _ _ _ _ _ HI2) H).
      + destruct (const_rhs _ _ _ _ _ H2 H) as [c [-> ->]].
        exact (returns_inv_ok _ _ _ (visit_mul_spec _ _ _ _ c HI1) H).
      + destruct (const_rhs _ _ _ _ _ H2 H) as [c [-> ->]].
        exact (guarded_returns _ _ _ _ _ _ (Z.le_gt_cases c 0) (visit_mod_spec _ _ _ _ c HI1) H).
  Qed.

  Theorem simplify_eval e e' : simplify nd ns e = Ok e' -> eval e' d s = eval e d s.
  Proof.
    unfold simplify, flattener_simplify. intros H.
    destruct (negb (is_pure_affine e)); [discriminate|].
    apply bind_ok in H. destruct H as [st [Hw H]].
    assert (HI0 : Inv {| stack := []; locals := [] |} [] []) by (split; constructor).
    destruct (walk_inv e _ _ _ _ Hw HI0) as [lv [Hl Hrows]].
    inversion Hrows as [|top e0 rest es0 [Ltop Etop] Hrest E1 E2]; subst.
    rewrite <- E1 in H. destruct (from_flat_form_spec top _ lv Hl Ltop) as [e0 [E0 V]].
    rewrite E0 in H. apply Ok_inj in H. subst e'. rewrite V, Etop. reflexivity.
  Qed.
End Simp.
