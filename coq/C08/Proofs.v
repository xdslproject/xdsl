(* C08/Proofs.v -- specifications and proofs for property C08 (attribute equality/hashing). *)
From Coq Require Import ZArith List Bool Lia ZifyBool.
From XV Require Import C08.Model.
Import ListNotations.
Local Open Scope Z_scope.

Section PyvalInd.
  Variable P : pyval -> Prop.
  Hypothesis HInt : forall z, P (VInt z).
  Hypothesis HStr : forall s, P (VStr s).
  Hypothesis HBytes : forall b, P (VBytes b).
  Hypothesis HEnum : forall k, P (VEnum k).
  Hypothesis HTuple : forall l, Forall P l -> P (VTuple l).
  Hypothesis HUnord : forall k l, Forall P l -> P (VUnord k l).
  Hypothesis HFloat : forall b o, P (VFloatData b o).
  Hypothesis HData : forall c p, P p -> P (VData c p).
  Hypothesis HParam : forall c l, Forall P l -> P (VParam c l).
  Fixpoint pyval_ind' (a : pyval) : P a :=
    let fix go (l : list pyval) : Forall P l :=
      match l with
      | [] => Forall_nil P
      | x :: t => Forall_cons x (pyval_ind' x) (go t)
      end in
    match a with
    | VInt z => HInt z
    | VStr s => HStr s
    | VBytes b => HBytes b
    | VEnum k => HEnum k
    | VTuple l => HTuple l (go l)
    | VUnord k l => HUnord k l (go l)
    | VFloatData b o => HFloat b o
    | VData c p => HData c p (pyval_ind' p)
    | VParam c l => HParam c l (go l)
    end.
End PyvalInd.

Lemma list_eqb_map_iff {A B} (f : A -> A -> bool) (r : A -> B) (l1 : list A) :
  Forall (fun x => forall y, f x y = true <-> r x = r y) l1 ->
  forall l2, list_eqb f l1 l2 = true <-> map r l1 = map r l2.
Proof.
  induction 1 as [|x t Hx Ht IH]; intros [|y l2]; cbn; split; intro E;
    try reflexivity; try discriminate.
  - apply andb_true_iff in E. destruct E as [E1 E2].
    apply Hx in E1. apply IH in E2. congruence.
  - injection E as E1 E2. apply andb_true_iff. split; [apply Hx | apply IH]; assumption.
Qed.

Lemma list_eqb_Z_iff (l1 l2 : list Z) : list_eqb Z.eqb l1 l2 = true <-> l1 = l2.
Proof.
  rewrite (list_eqb_map_iff Z.eqb (fun x => x)).
  - now rewrite !map_id.
  - apply Forall_forall. intros x _ y. apply Z.eqb_eq.
Qed.

Lemma list_eqb_refl {A} (f : A -> A -> bool) l : (forall x, f x x = true) -> list_eqb f l l = true.
Proof. intro Hf. induction l as [|x t IH]; cbn; [reflexivity | now rewrite Hf, IH]. Qed.

Lemma ukind_eqb_iff k1 k2 : ukind_eqb k1 k2 = true <-> k1 = k2.
Proof. destruct k1, k2; cbn; split; congruence. Qed.

Lemma is_nan_canon : is_nan CANON_NAN = true.  Proof. reflexivity. Qed.
Lemma is_zero_0 : is_zero 0 = true.            Proof. reflexivity. Qed.

(* the pinned FloatData.__eq__ (fd_eq_cur) identifies exactly: all NaNs with each other, +0 with -0 *)
Lemma fd_eq_cur_iff b1 b2 : fd_eq_cur b1 b2 = true <-> relax_bits b1 = relax_bits b2.
Proof.
  unfold fd_eq_cur, py_float_eq, relax_bits.
  destruct (is_nan b1) eqn:N1, (is_nan b2) eqn:N2; cbn [andb orb negb].
  - split; reflexivity.
  - split; [discriminate|].
    destruct (is_zero b2) eqn:Z2; intro E; [discriminate E|].
    subst b2. rewrite is_nan_canon in N2. discriminate N2.
  - split; [discriminate|].
    destruct (is_zero b1) eqn:Z1; intro E; [discriminate E|].
    subst b1. rewrite is_nan_canon in N1. discriminate N1.
  - destruct (is_zero b1) eqn:Z1, (is_zero b2) eqn:Z2; cbn [andb orb negb].
    + rewrite orb_true_r. split; reflexivity.
    + rewrite orb_false_r, Z.eqb_eq. split; intro E.
      * subst b2. rewrite Z1 in Z2. discriminate Z2.
      * subst b2. rewrite is_zero_0 in Z2. discriminate Z2.
    + rewrite orb_false_r, Z.eqb_eq. split; intro E.
      * subst b2. rewrite Z1 in Z2. discriminate Z2.
      * subst b1. rewrite is_zero_0 in Z1. discriminate Z1.
    + rewrite orb_false_r. apply Z.eqb_eq.
Qed.

Lemma fd_eq_fix_iff b1 b2 : fd_eq_fix b1 b2 = true <-> b1 = b2.
Proof. apply Z.eqb_eq. Qed.

Section EqIff.
  Variable feq : Z -> Z -> bool.
  Variable r : Z -> Z.
  Hypothesis feq_iff : forall b1 b2, feq b1 b2 = true <-> r b1 = r b2.

  Lemma eqb_gen_iff a : forall b, eqb_gen feq a b = true <-> map_bits r a = map_bits r b.
  Proof.
    induction a as [z|s|bs|k|l IH|k l IH|b o|c p IH|c l IH] using pyval_ind';
      intros [z2|s2|bs2|k2|l2|k2 l2|b2 o2|c2 p2|c2 l2]; cbn [eqb_gen map_bits];
      try (split; intro E; discriminate E).
    - rewrite Z.eqb_eq. split; congruence.
    - rewrite list_eqb_Z_iff. split; congruence.
    - rewrite list_eqb_Z_iff. split; congruence.
    - rewrite list_eqb_Z_iff. split; congruence.
    - rewrite (list_eqb_map_iff _ (map_bits r) l IH). split; congruence.
    - rewrite andb_true_iff, ukind_eqb_iff, (list_eqb_map_iff _ (map_bits r) l IH).
      split; [intros [E1 E2]; congruence | intro E; injection E; auto].
    - rewrite feq_iff. split; congruence.
    - rewrite andb_true_iff, Z.eqb_eq, IH.
      split; [intros [E1 E2]; congruence | intro E; injection E; auto].
    - rewrite andb_true_iff, Z.eqb_eq, (list_eqb_map_iff _ (map_bits r) l IH).
      split; [intros [E1 E2]; congruence | intro E; injection E; auto].
  Qed.
End EqIff.

(* Characterisation of `==` with the pinned FloatData.__eq__ (`eqb`): structural equality up to the sign of float
   zeros, the payload of NaNs and the identity of float objects. *)
Theorem eqb_iff_relax a b : eqb a b = true <-> relax a = relax b.
Proof. apply (eqb_gen_iff fd_eq_cur relax_bits fd_eq_cur_iff). Qed.

(* With repair C08-1: equality is exactly equality of observables. *)
Theorem eqb_fix_iff_obs a b : eqb_fix a b = true <-> obs a = obs b.
Proof. apply (eqb_gen_iff fd_eq_fix (fun x => x) fd_eq_fix_iff). Qed.

Lemma bool_eq_of_iff (x y : bool) : (x = true <-> y = true) -> x = y.
Proof. destruct x, y; intros [H1 H2]; try reflexivity; [symmetry; now apply H1 | now apply H2]. Qed.

(* --- Spec: an equivalence relation, stated on the boolean function *)
Definition is_equivalence (e : pyval -> pyval -> bool) : Prop :=
  (forall a, e a a = true) /\
  (forall a b, e a b = e b a) /\
  (forall a b c, e a b = true -> e b c = true -> e a c = true).

Lemma equivalence_of_kernel (e : pyval -> pyval -> bool) (k : pyval -> pyval) :
  (forall a b, e a b = true <-> k a = k b) -> is_equivalence e.
Proof.
  intro H. repeat split.
  - intro a. now apply H.
  - intros a b. apply bool_eq_of_iff. rewrite !H. split; congruence.
  - intros a b c. rewrite !H. congruence.
Qed.

Theorem eqb_equivalence : is_equivalence eqb.
Proof. exact (equivalence_of_kernel eqb relax eqb_iff_relax). Qed.
Theorem eqb_fix_equivalence : is_equivalence eqb_fix.
Proof. exact (equivalence_of_kernel eqb_fix obs eqb_fix_iff_obs). Qed.

(* --- map_bits composition: relax factors through obs *)
Lemma map_map_Forall {A B C} (f : A -> B) (g : B -> C) (h : A -> C) l :
  Forall (fun x => g (f x) = h x) l -> map g (map f l) = map h l.
Proof. intro H. rewrite map_map. apply map_ext_in. intros x Hx. rewrite Forall_forall in H. now apply H. Qed.

Lemma map_bits_comp (f g : Z -> Z) a : map_bits f (map_bits g a) = map_bits (fun b => f (g b)) a.
Proof.
  induction a as [z|s|bs|k|l IH|k l IH|b o|c p IH|c l IH] using pyval_ind'; cbn [map_bits];
    try reflexivity; try (now rewrite IH); f_equal; exact (map_map_Forall _ _ _ l IH).
Qed.

Lemma relax_obs a : relax (obs a) = relax a.
Proof. unfold relax, obs. now rewrite map_bits_comp. Qed.

(* Two attributes built from the same parameters (identical up to the identity of the float
   objects created by the constructors) are equal. *)
Theorem same_params_equal a b : obs a = obs b -> eqb a b = true.
Proof.
  intro E. apply eqb_iff_relax. rewrite <- (relax_obs a), <- (relax_obs b). now rewrite E.
Qed.
Theorem same_params_equal_fix a b : obs a = obs b -> eqb_fix a b = true.
Proof. apply eqb_fix_iff_obs. Qed.

(* --- observability *)
(* witnesses: f64 FloatAttr-like trees; class ids are arbitrary *)
Definition w_float (bits oid : Z) : pyval := VParam 7 [VFloatData bits oid; VParam 8 []].
Definition NEG_ZERO : Z := 9223372036854775808.          (* 0x8000000000000000 *)
Definition NAN_PAYLOAD_1 : Z := 9221120237041090561.     (* 0x7ff8000000000001 *)

Theorem observable_refuted_zero :
  obs (w_float 0 1) <> obs (w_float NEG_ZERO 2) /\ eqb (w_float 0 1) (w_float NEG_ZERO 2) = true.
Proof. split; [discriminate | vm_compute; reflexivity]. Qed.
Theorem observable_refuted_nan :
  obs (w_float CANON_NAN 1) <> obs (w_float NAN_PAYLOAD_1 2) /\
  eqb (w_float CANON_NAN 1) (w_float NAN_PAYLOAD_1 2) = true.
Proof. split; [discriminate | vm_compute; reflexivity]. Qed.

Theorem observable_refuted :
  (exists a b, obs a <> obs b /\ eqb a b = true /\ nan_free a = true /\ nan_free b = true) /\
  (exists a b, obs a <> obs b /\ eqb a b = true /\ relax a <> a).
Proof.
  split.
  - exists (w_float 0 1), (w_float NEG_ZERO 2).
    destruct observable_refuted_zero as [H1 H2]. repeat split; auto.
  - exists (w_float CANON_NAN 1), (w_float NAN_PAYLOAD_1 2).
    destruct observable_refuted_nan as [H1 H2]. repeat split; auto.
    (* relax forgets which float object it was: compare that field alone, not the bits *)
    intro H. apply (f_equal (fun v => match v with VParam _ (VFloatData _ o :: _) => o | _ => 0 end)) in H.
    discriminate H.
Qed.

(* strongest statement that holds: attributes that differ in the coarser observable are unequal *)
Theorem observable_partial a b : relax a <> relax b -> eqb a b = false.
Proof.
  intro N. destruct (eqb a b) eqn:E; [|reflexivity]. apply eqb_iff_relax in E. contradiction.
Qed.

Lemma map_ext_forallb {A B} (p : A -> bool) (f g : A -> B) l :
  Forall (fun x => p x = true -> f x = g x) l -> forallb p l = true -> map f l = map g l.
Proof.
  induction 1 as [|x t Hx Ht IH]; cbn; intro E; [reflexivity|].
  apply andb_true_iff in E. destruct E as [E1 E2]. now rewrite Hx, IH.
Qed.

Lemma forallb_map_id {A} (p : A -> bool) (f : A -> A) l :
  Forall (fun x => p x = true -> f x = x) l -> forallb p l = true -> map f l = l.
Proof. intros H E. rewrite <- (map_id l) at 2. exact (map_ext_forallb p f (fun x => x) l H E). Qed.

Lemma relax_bits_regular b : is_nan b = false -> is_zero b = false -> relax_bits b = b.
Proof. unfold relax_bits. now intros -> ->. Qed.

(* on attributes without zero / NaN float leaves nothing is lost: relax = obs *)
Lemma special_free_relax a : special_free a = true -> relax a = obs a.
Proof.
  unfold relax, obs.
  induction a as [z|s|bs|k|l IH|k l IH|b o|c p IH|c l IH] using pyval_ind';
    cbn [special_free map_bits]; intro S; try reflexivity.
  - f_equal. exact (map_ext_forallb _ _ _ l IH S).
  - f_equal. exact (map_ext_forallb _ _ _ l IH S).
  - apply andb_true_iff in S. destruct S as [S1 S2].
    rewrite relax_bits_regular; [reflexivity| |];
      [destruct (is_nan b)|destruct (is_zero b)]; auto; discriminate.
  - now rewrite IH.
  - f_equal. exact (map_ext_forallb _ _ _ l IH S).
Qed.

Theorem observable_partial_special_free a b :
  special_free a = true -> special_free b = true -> obs a <> obs b -> eqb a b = false.
Proof.
  intros Sa Sb N. apply observable_partial.
  rewrite (special_free_relax a Sa), (special_free_relax b Sb). exact N.
Qed.

Theorem observable_fix a b : obs a <> obs b -> eqb_fix a b = false.
Proof.
  intro N. destruct (eqb_fix a b) eqn:E; [|reflexivity]. apply eqb_fix_iff_obs in E. contradiction.
Qed.

Lemma list_eqb_map_eq2 {A B} (e g : A -> A -> bool) (h : A -> B) (l1 : list A) :
  Forall (fun x => forall y, e x y = true -> g x y = true -> h x = h y) l1 ->
  forall l2, list_eqb e l1 l2 = true -> list_eqb g l1 l2 = true -> map h l1 = map h l2.
Proof.
  induction 1 as [|x t Hx Ht IH]; intros [|y l2]; cbn; intros E G;
    try reflexivity; try discriminate.
  apply andb_true_iff in E. destruct E as [E1 E2].
  apply andb_true_iff in G. destruct G as [G1 G2].
  f_equal; [now apply Hx | now apply IH].
Qed.

Lemma py_hash_float_zero b : is_zero b = true -> py_hash_float b = 0.
Proof. unfold py_hash_float. now intros ->. Qed.

Lemma fd_key_cur_consistent b1 o1 b2 o2 :
  fd_eq_cur b1 b2 = true ->
  (if is_nan b1 && is_nan b2 then o1 =? o2 else true) = true ->
  fd_key_cur b1 o1 = fd_key_cur b2 o2.
Proof.
  unfold fd_eq_cur, py_float_eq, fd_key_cur.
  destruct (is_nan b1) eqn:N1, (is_nan b2) eqn:N2; cbn [andb orb negb]; intros E G;
    try discriminate E.
  - apply Z.eqb_eq in G. now subst.
  - apply orb_true_iff in E. destruct E as [E|E].
    + apply Z.eqb_eq in E. now subst.
    + apply andb_true_iff in E. destruct E as [Z1 Z2].
      now rewrite (py_hash_float_zero b1 Z1), (py_hash_float_zero b2 Z2).
Qed.

(* Equal attributes have equal hash KEYS (hence equal hashes whatever CPython's hash functions
   are), provided corresponding NaN leaves are the same float object. *)
Theorem hkey_consistent_partial a :
  forall b, eqb a b = true -> nan_objs_agree a b = true -> hkey a = hkey b.
Proof.
  unfold eqb, hkey.
  induction a as [z|s|bs|k|l IH|k l IH|b o|c p IH|c l IH] using pyval_ind';
    intros [z2|s2|bs2|k2|l2|k2 l2|b2 o2|c2 p2|c2 l2];
    cbn [eqb_gen nan_objs_agree hkey_gen]; intros E G; try discriminate E.
  - apply Z.eqb_eq in E. now subst.
  - apply list_eqb_Z_iff in E. now subst.
  - apply list_eqb_Z_iff in E. now subst.
  - apply list_eqb_Z_iff in E. now subst.
  - f_equal. now apply (list_eqb_map_eq2 _ _ _ l IH).
  - apply andb_true_iff in E. destruct E as [E1 E2]. apply ukind_eqb_iff in E1. subst k2.
    destruct k; f_equal; now apply (list_eqb_map_eq2 _ _ _ l IH).
  - now apply fd_key_cur_consistent.
  - apply andb_true_iff in E. destruct E as [E1 E2]. f_equal. f_equal. now apply IH.
  - apply andb_true_iff in E. destruct E as [E1 E2]. f_equal.
    now apply (list_eqb_map_eq2 _ _ _ l IH).
Qed.

Lemma list_eqb_agree_of_free (e g : pyval -> pyval -> bool) (p : pyval -> bool) (l1 : list pyval) :
  Forall (fun x => forall y, p x = true -> e x y = true -> g x y = true) l1 ->
  forall l2, forallb p l1 = true -> list_eqb e l1 l2 = true -> list_eqb g l1 l2 = true.
Proof.
  induction 1 as [|x t Hx Ht IH]; intros [|y l2]; cbn; intros F E;
    try reflexivity; try discriminate.
  apply andb_true_iff in E. destruct E as [E1 E2].
  apply andb_true_iff in F. destruct F as [F1 F2].
  apply andb_true_iff. split; [now apply Hx | now apply IH].
Qed.

Lemma nan_free_agree a : forall b, nan_free a = true -> eqb a b = true -> nan_objs_agree a b = true.
Proof.
  unfold eqb.
  induction a as [z|s|bs|k|l IH|k l IH|b o|c p IH|c l IH] using pyval_ind';
    intros [z2|s2|bs2|k2|l2|k2 l2|b2 o2|c2 p2|c2 l2];
    cbn [eqb_gen nan_objs_agree nan_free]; intros F E; try reflexivity; try discriminate E.
  - now apply (list_eqb_agree_of_free _ _ _ l IH).
  - apply andb_true_iff in E. destruct E as [E1 E2]. now apply (list_eqb_agree_of_free _ _ _ l IH).
  - destruct (is_nan b); [discriminate F | reflexivity].
  - apply andb_true_iff in E. destruct E as [E1 E2]. now apply IH.
  - apply andb_true_iff in E. destruct E as [E1 E2]. now apply (list_eqb_agree_of_free _ _ _ l IH).
Qed.

Theorem hkey_consistent_nan_free a b : nan_free a = true -> eqb a b = true -> hkey a = hkey b.
Proof. intros F E. apply hkey_consistent_partial; [exact E | now apply nan_free_agree]. Qed.

(* the repaired hash key depends on the observable only *)
Lemma hkey_fix_obs a : hkey_fix (obs a) = hkey_fix a.
Proof.
  unfold hkey_fix, obs.
  induction a as [z|s|bs|k|l IH|k l IH|b o|c p IH|c l IH] using pyval_ind';
    cbn [map_bits hkey_gen]; try reflexivity.
  - f_equal. exact (map_map_Forall _ _ _ l IH).
  - destruct k; f_equal; exact (map_map_Forall _ _ _ l IH).
  - now rewrite IH.
  - f_equal. exact (map_map_Forall _ _ _ l IH).
Qed.

Theorem hkey_fix_consistent a b : eqb_fix a b = true -> hkey_fix a = hkey_fix b.
Proof.
  intro E. apply eqb_fix_iff_obs in E.
  rewrite <- (hkey_fix_obs a), <- (hkey_fix_obs b). now rewrite E.
Qed.

Section Oracles.
  Variable hash_buf : list Z -> Z.
  Variable hash_id : Z -> Z.
  Variable hash_tuple : list Z -> Z.
  Variable hash_fset : list Z -> Z.
  Let H := hash hash_buf hash_id hash_tuple hash_fset.
  Let Hfix := hash_fix hash_buf hash_id hash_tuple hash_fset.

  Theorem hash_consistent_partial a b :
    eqb a b = true -> nan_objs_agree a b = true -> H a = H b.
  Proof. intros E G. unfold H, hash. now rewrite (hkey_consistent_partial a b E G). Qed.

  Theorem hash_consistent_nan_free a b :
    nan_free a = true -> eqb a b = true -> H a = H b.
  Proof. intros F E. unfold H, hash. now rewrite (hkey_consistent_nan_free a b F E). Qed.

  Theorem hash_fix_consistent a b : eqb_fix a b = true -> Hfix a = Hfix b.
  Proof. intro E. unfold Hfix, hash_fix. now rewrite (hkey_fix_consistent a b E). Qed.

  (* CPython: two live objects have different addresses and _Py_HashPointer is a rotation *)
  Hypothesis hash_id_inj : forall i j, hash_id i = hash_id j -> i = j.

  Theorem hash_consistent_refuted :
    exists a b, eqb a b = true /\ obs a = obs b /\ H a <> H b.
  Proof.
    exists (VFloatData CANON_NAN 1), (VFloatData CANON_NAN 2).
    split; [vm_compute; reflexivity|]. split; [reflexivity|].
    unfold H, hash, hkey. cbn [hkey_gen]. unfold fd_key_cur. rewrite is_nan_canon. cbn [interp].
    intro E. apply hash_id_inj in E. discriminate E.
  Qed.

  Variable R : Type.
  Variable req : R -> R -> bool.
  Variable aeq : pyval -> pyval -> bool.
  Variable akey : pyval -> hk.
  Let OE := oi_eq R req aeq akey hash_buf hash_id hash_tuple hash_fset.
  Let OH := oi_hash R akey hash_buf hash_id hash_tuple hash_fset.

  Theorem opinfo_consistent a b : OE a b = EqTrue -> OH a = OH b.
  Proof.
    unfold OE, OH, oi_eq, oi_eq_with.
    destruct (Z.eqb_spec (oi_hash R akey hash_buf hash_id hash_tuple hash_fset a)
                         (oi_hash R akey hash_buf hash_id hash_tuple hash_fset b)) as [E|N];
      cbn [negb]; [intros _; exact E | discriminate].
  Qed.


  Lemma regions_all_refl l : (forall r, req r r = true) -> regions_all R req l l = EqTrue.
  Proof. intro Hr. induction l as [|x t IH]; cbn; [reflexivity | now rewrite Hr]. Qed.

  Theorem opinfo_refl a :
    (forall x, aeq x x = true) -> (forall r, req r r = true) -> OE a a = EqTrue.
  Proof.
    intros Ha Hr. unfold OE, oi_eq, oi_eq_with. rewrite Z.eqb_refl. cbn [negb].
    rewrite !(list_eqb_refl Z.eqb) by apply Z.eqb_refl.
    rewrite !(list_eqb_refl aeq) by exact Ha.
    cbn [negb]. now apply regions_all_refl.
  Qed.

  (* what an equal CSE key guarantees about the two operations; `k` is the observable that
     characterises attribute equality (relax for eqb, the pinned FloatData; obs for eqb_fix, repair C08-1) *)
  Variable k : pyval -> pyval.
  Hypothesis aeq_iff : forall x y, aeq x y = true <-> k x = k y.
  Theorem opinfo_eq_sound a b :
    OE a b = EqTrue ->
    oi_name R a = oi_name R b /\ map k (oi_attrs R a) = map k (oi_attrs R b) /\
    map k (oi_props R a) = map k (oi_props R b) /\ oi_operands R a = oi_operands R b /\
    map k (oi_results R a) = map k (oi_results R b) /\
    regions_all R req (oi_regions R a) (oi_regions R b) = EqTrue.
  Proof.
    unfold OE, oi_eq, oi_eq_with.
    destruct (_ =? _); cbn [negb]; [|discriminate].
    destruct (list_eqb Z.eqb (oi_name R a) (oi_name R b)) eqn:E1; cbn [negb]; [|discriminate].
    destruct (list_eqb aeq (oi_attrs R a) (oi_attrs R b)) eqn:E2; cbn [negb]; [|discriminate].
    destruct (list_eqb aeq (oi_props R a) (oi_props R b)) eqn:E3; cbn [negb]; [|discriminate].
    destruct (list_eqb Z.eqb (oi_operands R a) (oi_operands R b)) eqn:E4; cbn [negb]; [|discriminate].
    destruct (list_eqb aeq (oi_results R a) (oi_results R b)) eqn:E5; cbn [negb]; [|discriminate].
    intro E6.
    assert (K : forall l1 l2, list_eqb aeq l1 l2 = true -> map k l1 = map k l2).
    { intros l1 l2. apply list_eqb_map_iff. apply Forall_forall. intros x _ y. apply aeq_iff. }
    apply list_eqb_Z_iff in E1. apply list_eqb_Z_iff in E4.
    repeat split; auto.
  Qed.
End Oracles.

Theorem opinfo_refl_cur (hash_buf : list Z -> Z) (hash_id : Z -> Z) (hash_tuple hash_fset : list Z -> Z)
        (R : Type) (req : R -> R -> bool) (a : opinfo R) :
  (forall r, req r r = true) -> oi_eq R req eqb hkey hash_buf hash_id hash_tuple hash_fset a a = EqTrue.
Proof. apply opinfo_refl. apply eqb_equivalence. Qed.

Theorem opinfo_eq_sound_cur (hash_buf : list Z -> Z) (hash_id : Z -> Z) (hash_tuple hash_fset : list Z -> Z)
        (R : Type) (req : R -> R -> bool) (a b : opinfo R) :
  oi_eq R req eqb hkey hash_buf hash_id hash_tuple hash_fset a b = EqTrue ->
  oi_name R a = oi_name R b /\ map relax (oi_attrs R a) = map relax (oi_attrs R b) /\
  map relax (oi_props R a) = map relax (oi_props R b) /\ oi_operands R a = oi_operands R b /\
  map relax (oi_results R a) = map relax (oi_results R b) /\
  regions_all R req (oi_regions R a) (oi_regions R b) = EqTrue.
Proof. apply opinfo_eq_sound. apply eqb_iff_relax. Qed.

Lemma mod_window m x : 0 < m -> - m <= x < m -> x mod (2 * m) = if x <? 0 then x + 2 * m else x.
Proof.
  intros Hm Hx. destruct (Z.ltb_spec x 0); symmetry.
  - apply Z.mod_unique with (q := -1); lia.
  - apply Z.mod_unique with (q := 0); lia.
Qed.

Lemma signless_bounds w : 0 < w ->
  unsigned_ub w = 2 * 2 ^ (w - 1) /\ signed_lb w = - 2 ^ (w - 1) /\ signed_ub w = 2 ^ (w - 1) /\
  0 < 2 ^ (w - 1).
Proof.
  intro Hw. unfold unsigned_ub, signed_lb, signed_ub.
  assert (E : 2 ^ w = 2 * 2 ^ (w - 1)).
  { replace w with (Z.succ (w - 1)) at 1 by lia. apply Z.pow_succ_r. lia. }
  assert (P : 0 < 2 ^ (w - 1)) by (apply Z.pow_pos_nonneg; lia).
  repeat split; auto.
  - rewrite E, Z.shiftr_div_pow2 by lia. change (2 ^ 1) with 2.
    rewrite Z.mul_comm, Z.div_mul by lia. reflexivity.
  - rewrite Z.max_l by lia. reflexivity.
Qed.

(* A signless IntegerAttr of width w > 0 built from any two in-range integers: construction
   succeeds, and the two attributes store the same value iff the integers have the same
   w-bit pattern (e.g. 255 : i8 and -1 : i8). *)
Theorem integer_attr_signless_bits w v1 v2 :
  0 < w -> in_range Signless w v1 = true -> in_range Signless w v2 = true ->
  exists n1 n2,
    integer_attr_value Signless w v1 false = Some n1 /\
    integer_attr_value Signless w v2 false = Some n2 /\
    n1 mod 2 ^ w = v1 mod 2 ^ w /\
    (n1 = n2 <-> v1 mod 2 ^ w = v2 mod 2 ^ w).
Proof.
  intros Hw R1 R2.
  destruct (signless_bounds w Hw) as (Eu & El & Es & Pm).
  unfold integer_attr_value, normalized_value. rewrite R1, R2.
  unfold in_range, value_range in *. rewrite Es, Eu, El in *.
  replace (2 ^ w) with (2 * 2 ^ (w - 1)) by (symmetry; exact Eu).
  set (m := 2 ^ (w - 1)) in *.
  assert (N : forall v, (- m <=? v) && (v <? 2 * m) = true ->
              exists n, (if m <=? v then Some (v - 2 * m) else Some v) = Some n /\
                        - m <= n < m /\ n mod (2 * m) = v mod (2 * m) /\
                        (- m <=? n) && (n <? 2 * m) = true).
  { intros v Hv. destruct (Z.leb_spec m v).
    - exists (v - 2 * m). repeat split; try lia.
      replace (v - 2 * m) with (v + (-1) * (2 * m)) by lia. apply Z_mod_plus_full.
    - exists v. repeat split; lia. }
  destruct (N v1 R1) as (n1 & E1 & B1 & M1 & I1).
  destruct (N v2 R2) as (n2 & E2 & B2 & M2 & I2).
  exists n1, n2. rewrite E1, E2, I1, I2. repeat split; auto.
  - intro E. now rewrite <- M1, <- M2, E.
  - intro E. rewrite <- M1, <- M2 in E.
    rewrite (mod_window m n1 Pm B1), (mod_window m n2 Pm B2) in E.
    destruct (n1 <? 0) eqn:S1, (n2 <? 0) eqn:S2; lia.
Qed.

(* Equality requires the identical class object while the hash ignores the class: two
   attributes with the same parameters whose classes are distinct objects (e.g. the
   UnregisteredAttr subclasses that every Context creates afresh for the same name) are unequal
   and hash alike. *)
Theorem distinct_class_objects_unequal c1 c2 ps :
  c1 <> c2 -> eqb (VParam c1 ps) (VParam c2 ps) = false /\ hkey (VParam c1 ps) = hkey (VParam c2 ps).
Proof.
  intro N. split; [|reflexivity].
  unfold eqb. cbn [eqb_gen]. destruct (Z.eqb_spec c1 c2); [contradiction | reflexivity].
Qed.
