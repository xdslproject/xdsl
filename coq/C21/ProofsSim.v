(* C21/ProofsSim.v -- simulation: the machine running the assigned instructions tracks the SSA values of
   the x86 IR, given an allocation satisfying alloc_ok (property C19's no-interference invariant). *)
From Coq Require Import ZArith List Bool Lia Arith.
From XV Require Import Gen.C21_tables C21.Model C21.Spec C21.ProofsMachine C21.ProofsLower.
Import ListNotations.
Local Open Scope Z_scope.

Lemma shift_instr_0 : forall i, shift_instr 0 i = i.
Proof. intros i. destruct i; cbn [shift_instr]; try reflexivity. destruct (base =? RSP); [f_equal; lia | reflexivity]. Qed.

Lemma map_shift_0 : forall l, map (shift_instr 0) l = l.
Proof. intros l. induction l as [|i l IH]; cbn [map]; [reflexivity | rewrite shift_instr_0, IH; reflexivity]. Qed.

Lemma shift_xinstr : forall k o w d s, shift_instr k (xinstr o w d s) = xinstr o w d s.
Proof. intros. destruct o; reflexivity. Qed.

Section Sim.
Variable w : width.
Variable raw : list Z.
Variable alloc : vreg -> reg.
Variable delta : Z.            (* what the prologue pass adds to rsp-relative offsets *)

(* what the second canonicalize leaves of one allocated operation *)
Definition emit2 (d : vdef) : list (instr * reg) :=
  let x := assign_def w alloc d in if redundant (fst x) then [] else [x].

Lemma filter_emit2 : forall l,
  filter (fun x => negb (redundant (fst x))) (map (assign_def w alloc) l) = flat_map emit2 l.
Proof.
  induction l as [|d l IH]; cbn [map filter flat_map]; [reflexivity|].
  unfold emit2 at 1. cbv zeta. destruct (redundant (fst (assign_def w alloc d))); cbn [negb app]; rewrite IH; reflexivity.
Qed.

Definition agree (L : list vreg) (st : state) (e : venv) : Prop :=
  forall v, In v L -> low w (regs st (alloc v)) = e v.

(* the slot the (rebased) load of stack argument j reads holds that argument *)
Definition stk_ok (st : state) (j : nat) : Prop :=
  let a := low W64 (regs st RSP + (c21_stack_arg_offset (Z.of_nat j) + delta)) in
  aligned a = true /\ mem st a = Some (nth (max_reg_args + j) raw 0).

Lemma snd_assign_def : forall d, snd (assign_def w alloc d) = alloc (def_id d).
Proof. intros d. destruct d; reflexivity. Qed.

Lemma step_def : forall d st e,
  (forall u, In u (def_uses d) -> low w (regs st (alloc u)) = e u) ->
  tie_ok alloc d = true ->
  (forall d' i, d = VArg d' i -> regs st (arg_reg i) = nth i raw 0) ->
  (forall d' j, d = VStk d' j -> stk_ok st j) ->
  exists st1, step (shift_instr delta (fst (assign_def w alloc d))) st = Running st1
    /\ low w (regs st1 (alloc (def_id d))) = vdef_val w raw e d
    /\ (forall r, r <> alloc (def_id d) -> regs st1 r = regs st r)
    /\ mem st1 = mem st.
Proof.
  intros d st e Hu Htie Harg Hstk.
  (* every operation writes one value V into the register of its result *)
  assert (HV : exists V, step (shift_instr delta (fst (assign_def w alloc d))) st
                         = Running (mkState (write_reg w (alloc (def_id d)) V (regs st)) (mem st))
                         /\ low w V = vdef_val w raw e d).
  { destruct d as [d i | d j | d k | d s | o d t s];
      cbn [assign_def fst shift_instr def_id vdef_val def_uses tie_ok] in *.
    - exists (regs st (arg_reg i)). split; [reflexivity|]. now rewrite (Harg d i eq_refl).
    - replace (RSP =? RSP) with true by reflexivity. cbn [step].
      destruct (Hstk d j eq_refl) as [Hal Hm]. cbv zeta in Hal, Hm. rewrite Hal, Hm.
      eexists. split; reflexivity.
    - exists k. split; reflexivity.
    - exists (regs st (alloc s)). split; [reflexivity|]. apply Hu. now left.
    - apply Z.eqb_eq in Htie. rewrite shift_xinstr, Htie.
      assert (Ht : low w (regs st (alloc t)) = e t) by (apply Hu; cbn [In]; auto).
      assert (Hs : low w (regs st (alloc s)) = e s) by (apply Hu; cbn [In]; auto).
      destruct o; cbn [xinstr step xop_eval]; eexists; (split; [reflexivity|]); rewrite <- Ht, <- Hs; symmetry.
      + apply low_add.
      + apply low_mul.
      + apply low_sub. }
  destruct HV as (V & -> & HV). eexists. split; [reflexivity|]. cbn [regs mem]. split; [|split; [|reflexivity]].
  - now rewrite write_reg_same.
  - intros r Hr. now apply write_reg_other.
Qed.

Lemma redundant_assign : forall d, redundant (fst (assign_def w alloc d)) = true ->
  (exists d' i, d = VArg d' i /\ alloc d' = arg_reg i) \/ (exists d' s, d = VMov d' s /\ alloc d' = alloc s).
Proof.
  intros d H. destruct d as [d i | d j | d k | d s | o d t s]; cbn [assign_def fst redundant] in H; try discriminate.
  - left. exists d, i. split; [reflexivity | apply Z.eqb_eq; exact H].
  - right. exists d, s. split; [reflexivity | apply Z.eqb_eq; exact H].
  - destruct o; discriminate.
Qed.

(* ... as the second canonicalize leaves it: a dropped move had nothing to do *)
Lemma emit2_def : forall d st e,
  (forall u, In u (def_uses d) -> low w (regs st (alloc u)) = e u) ->
  tie_ok alloc d = true ->
  (forall d' i, d = VArg d' i -> regs st (arg_reg i) = nth i raw 0) ->
  (forall d' j, d = VStk d' j -> stk_ok st j) ->
  exists st1, exec (map (shift_instr delta) (map fst (emit2 d))) st = Running st1
    /\ low w (regs st1 (alloc (def_id d))) = vdef_val w raw e d
    /\ (forall r, ~ In r (map snd (emit2 d)) -> regs st1 r = regs st r)
    /\ (forall r, r <> alloc (def_id d) -> regs st1 r = regs st r)
    /\ mem st1 = mem st.
Proof.
  intros d st e Hu Htie Harg Hstk. unfold emit2. cbv zeta.
  destruct (redundant (fst (assign_def w alloc d))) eqn:Hred.
  - exists st. split; [reflexivity|]. split; [|auto].
    destruct (redundant_assign d Hred) as [[d' [i [-> Heq]]] | [d' [s [-> Heq]]]]; cbn [def_id vdef_val]; rewrite Heq.
    + now rewrite (Harg d' i eq_refl).
    + apply Hu. now left.
  - destruct (step_def d st e Hu Htie Harg Hstk) as [st1 [Hs [Hv [Hf Hm]]]].
    exists st1. cbn [map exec]. rewrite Hs. split; [reflexivity|]. split; [exact Hv|]. split; [|auto].
    intros r Hn. apply Hf. intros ->. apply Hn. left. apply snd_assign_def.
Qed.

Lemma live_in_cons_other : forall d r retlive v,
  In v (live_in r retlive) -> v <> def_id d -> In v (live_in (d :: r) retlive).
Proof.
  intros d r retlive v Hin Hne. cbn [live_in]. apply in_or_app. right. apply filter_In. split; [exact Hin|].
  apply negb_true_iff. apply Nat.eqb_neq. exact Hne.
Qed.

Lemma live_in_cons_use : forall d r retlive u, In u (def_uses d) -> In u (live_in (d :: r) retlive).
Proof. intros. cbn [live_in]. apply in_or_app. left. assumption. Qed.

Lemma sim_defs : forall l st e retlive res,
  In RSP res ->
  (forall d i, In (VArg d i) l -> In (arg_reg i) res /\ regs st (arg_reg i) = nth i raw 0) ->
  (forall d j, In (VStk d j) l -> stk_ok st j) ->
  agree (live_in l retlive) st e ->
  alloc_ok_from res alloc l retlive = true ->
  exists st', exec (map (shift_instr delta) (map fst (flat_map emit2 l))) st = Running st'
    /\ agree retlive st' (veval w raw l e)
    /\ mem st' = mem st
    /\ (forall r, ~ In r (map snd (flat_map emit2 l)) -> regs st' r = regs st r)
    /\ (forall r, In r res -> regs st' r = regs st r).
Proof.
  induction l as [|d l IH]; intros st e retlive res Hrsp Harg Hstk Hag Hok.
  - exists st. cbn [flat_map map exec veval live_in] in *. repeat split; auto.
  - cbn [alloc_ok_from] in Hok. apply andb_true_iff in Hok. destruct Hok as [Hok Hrest].
    apply andb_true_iff in Hok. destruct Hok as [Hok Hint].
    apply andb_true_iff in Hok. destruct Hok as [Hres Htie].
    apply negb_true_iff in Hres. rewrite forallb_forall in Hint.
    assert (Hnres : ~ In (alloc (def_id d)) res).
    { intro Hin. apply memz_In in Hin. congruence. }
    assert (Hnrsp : alloc (def_id d) <> RSP) by (intro Heq; apply Hnres; rewrite Heq; exact Hrsp).
    assert (Hint' : forall v, In v (live_in l retlive) -> v <> def_id d -> alloc v <> alloc (def_id d)).
    { intros v Hin Hne Heq. specialize (Hint v Hin). apply orb_true_iff in Hint. destruct Hint as [Hint|Hint].
      - apply Nat.eqb_eq in Hint. contradiction.
      - apply negb_true_iff, Z.eqb_neq in Hint. contradiction. }
    cbn [flat_map veval]. set (val := vdef_val w raw e d). rewrite !map_app.
    destruct (emit2_def d st e) as [st1 [He1 [Hv1 [Hn1 [Hf1 Hm1]]]]].
    + intros u Hu. apply Hag. apply live_in_cons_use. exact Hu.
    + exact Htie.
    + intros d' i ->. apply (Harg d' i). left. reflexivity.
    + intros d' j ->. apply (Hstk d' j). left. reflexivity.
    + rewrite (exec_app_running _ _ _ _ He1).
      destruct (IH st1 (vupd e (def_id d) val) retlive res) as [st' [He [Hag' [Hm [Hfr Hrs]]]]].
      * exact Hrsp.
      * intros d' i Hin. destruct (Harg d' i (or_intror Hin)) as [H1 H2]. split; [exact H1|].
        rewrite Hf1; [exact H2|]. intro Heq. apply Hnres. rewrite <- Heq. exact H1.
      * intros d' j Hin. destruct (Hstk d' j (or_intror Hin)) as [H1 H2]. unfold stk_ok in *. cbv zeta in *.
        rewrite (Hf1 RSP) by (apply not_eq_sym; exact Hnrsp). rewrite Hm1. split; assumption.
      * intros v Hin. destruct (Nat.eq_dec v (def_id d)) as [->|Hne].
        -- rewrite vupd_same. exact Hv1.
        -- rewrite vupd_other by exact Hne. rewrite Hf1 by (apply Hint'; assumption).
           apply Hag. apply live_in_cons_other; assumption.
      * exact Hrest.
      * exists st'. split; [exact He|]. split; [exact Hag'|]. split; [congruence|]. split.
        -- intros r Hnin. rewrite Hfr by (intro Hin; apply Hnin; apply in_or_app; right; exact Hin).
           apply Hn1. intro Hin. apply Hnin. apply in_or_app. left. exact Hin.
        -- intros r Hin. rewrite Hrs by exact Hin. apply Hf1. intro Heq. apply Hnres. rewrite <- Heq. exact Hin.
Qed.

End Sim.
