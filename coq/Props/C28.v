(* Props/C28.v -- property C28: equality saturation preserves program results.
   ONLY theorem statements closed by `exact`.
   Model: C28/Model.v (`create` = eqsat-create-eclasses, `add_costs` = eqsat-add-costs, `extract` =
   eqsat-extract on one block: list of operations with ids, operand lists, eqsat_cost, min_cost_index).
   Spec (C28/Proofs.v): `eval sem args p` executes a block in order with uninterpreted operation
   semantics `sem` (None: use before definition or a left-over e-class); `models sem args rho body`: the
   valuation rho satisfies every operation (value = sem of operand values) and every e-class (all
   members have the value of the class: the class invariant which sound rewrite rules maintain -- the
   saturation engine is abstracted to exactly this); `obs args rho body`: values of the returned
   operands under rho; `ids_ok`: operation ids are unique and no operand names a return operation. *)
From Coq Require Import ZArith List Lia.
From XV Require Import C28.Model C28.Proofs C28.ProofsCosts.
Import ListNotations.
Local Open Scope Z_scope.

(* Extraction is sound on EVERY e-graph (cyclic or not, any block order, any min_cost_index choice):
   if a valuation models the e-graph, whatever program extraction leaves returns -- whenever it is
   executable -- exactly the values the valuation gives to the results. *)
Theorem C28_extract_sound : forall sem args rho g p' rs,
  ids_ok (p_body g) -> models sem args rho (p_body g) ->
  extract g = Ok p' -> eval sem args p' = Some rs ->
  hd_error (obs args rho (p_body g)) = Some rs.
Proof. exact extract_sound. Qed.
Print Assumptions C28_extract_sound.

(* the cost pass only writes eqsat_cost / min_cost_index: cost assignment + extraction is sound *)
Theorem C28_costs_extract_sound : forall sem args rho fuel d dict g g' p' rs,
  ids_ok (p_body g) -> models sem args rho (p_body g) ->
  add_costs fuel d dict g = Ok g' -> extract g' = Ok p' -> eval sem args p' = Some rs ->
  hd_error (obs args rho (p_body g)) = Some rs.
Proof. exact costs_extract_sound. Qed.
Print Assumptions C28_costs_extract_sound.

(* the `while changed` loop of add_eqsat_costs terminates when no cost is negative (costs strictly
   decrease on a well-founded order); more fuel does not change the answer *)
Theorem C28_costs_terminate : forall d dict p,
  (forall n c, In n (p_body p) -> ncost n = CInt c -> 0 <= c) ->
  (forall k c, lookup k dict = Some c -> 0 <= c) -> (forall c, d = Some c -> 0 <= c) ->
  exists fuel, forall k, add_costs (fuel + k) d dict p <> OutOfFuel /\
                         add_costs (fuel + k) d dict p = add_costs fuel d dict p.
Proof. exact add_costs_terminates. Qed.
Print Assumptions C28_costs_terminate.

(* ... and it does NOT terminate with a negative cost on a cycle (x = x * 1, eqsat_cost -1 on the muli) *)
Theorem C28_costs_negative_cycle_diverges : forall fuel,
  add_costs fuel (Some 0) [] (Prog 1 neg_cycle) = OutOfFuel.
Proof. exact neg_cycle_never_terminates. Qed.
Print Assumptions C28_costs_negative_cycle_diverges.

(* when the loop stops, the cost of a class is at most the total cost of each of its members *)
Theorem C28_costs_minimal : forall fuel body d cs ms,
  fix_loop fuel body d [] [] = Ok (cs, ms) ->
  forall c m t, In c body -> is_class c = true -> In m (nops c) ->
                calc_total body cs d m = Ok (Some t) ->
                exists b i, lookup (nid c) cs = Some b /\ b <= t /\ lookup (nid c) ms = Some i /\ 0 <= i.
Proof. exact costs_minimal. Qed.
Print Assumptions C28_costs_minimal.

(* every class that has a member with a computable cost gets a min_cost_index in range *)
Theorem C28_costs_chosen : forall fuel d dict body body',
  NoDup (map nid body) ->
  add_eqsat_costs fuel d dict body = Ok body' ->
  exists body1, first_pass d dict body = Ok body1 /\
    forall c', In c' body' -> is_class c' = true -> costable body1 d (nid c') ->
               exists i, nmci c' = Some i /\ 0 <= i < Z.of_nat (length (nops c')).
Proof. exact costable_chosen. Qed.
Print Assumptions C28_costs_chosen.

(* Totality on e-graphs in definition-before-use order (C28/ProofsExtract.v).
   `wf_egraph body` = the conditions of ClassOp.verify_ plus an index for every class:
   unique ids, every operand defined earlier (`ordered`), members of a class pairwise different,
   a member operation is an ordinary operation used by that class only, every class has a
   min_cost_index in range, there is a return. *)
From XV Require Import C28.ProofsExtract C28.ProofsCreate.

(* extraction then raises no exception, leaves no e-class, and the extracted block is executable
   (with C28_extract_sound it returns the values of the e-graph) *)
Theorem C28_extract_total : forall sem args g,
  wf_egraph (p_body g) ->
  exists p' rs, extract g = Ok p' /\ (forall n, In n (p_body p') -> is_class n = false) /\
                eval sem args p' = Some rs.
Proof. exact extract_total. Qed.
Print Assumptions C28_extract_total.

(* No rewrite rules: for EVERY well-formed source function (`wf_src`: unique ids, definition before use,
   no e-class operations, single-result operations, a return, no negative / non-integer eqsat_cost) and every
   non-negative default cost and cost dictionary, create ; add-costs ; extract succeeds with enough fuel,
   leaves no e-class, and the result is executable and returns, for every operation semantics and every
   input, exactly what the source returns. *)
Theorem C28_create_extract_id : forall p d dict,
  wf_src (p_body p) -> 0 <= d -> (forall k c, lookup k dict = Some c -> 0 <= c) ->
  exists fuel, forall k, exists g g' p',
    create p = Ok g /\ add_costs (fuel + k) (Some d) dict g = Ok g' /\ extract g' = Ok p' /\
    (forall n, In n (p_body p') -> is_class n = false) /\
    forall sem args, exists rs, eval sem args p = Some rs /\ eval sem args p' = Some rs.
Proof. exact create_extract_id. Qed.
Print Assumptions C28_create_extract_id.

(* non-vacuity / behaviour witnesses; the programs are defined in C28/ProofsExamples.v:
   ex_identity = tests/filecheck/projects/eqsat/identity.mlir; ex_cycle = x_c = class(muli x_c one_c, x) with
   all costs 0; ex_two = an e-graph with a two-member class whose second member is chosen;
   pipeline fuel d p = create ; add_costs fuel d [] ; extract *)
From XV Require Import C28.ProofsExamples.

Example C28_identity_example :
  pipeline 10 (Some 1) ex_identity = Ok ex_identity.
Proof. exact C28_identity_example_pf. Qed.

Example C28_wf_src_example :
  wf_src (p_body ex_identity).
Proof. exact C28_wf_src_example_pf. Qed.

Example C28_cycle_example :
  match add_costs 10 (Some 0) [] ex_cycle with Ok g' => extract g' | e => e end
  = Ok (Prog 1 [ Node 4 N_RET 0 [VArg 0] 0 CNone None ]).
Proof. exact C28_cycle_example_pf. Qed.

Example C28_cyclic_choice_not_executable :
  forall sem args,
  match extract (Prog 1 [ Node 0 3 1 [] 1 CNone None; Node 1 N_CLASS 0 [VRes 0] 1 CNone (Some 0);
                          Node 2 5 0 [VRes 3; VRes 1] 1 CNone None;
                          Node 3 N_CLASS 0 [VRes 2; VArg 0] 1 CNone (Some 0);
                          Node 4 N_RET 0 [VRes 3] 0 CNone None ]) with
  | Ok p' => eval sem args p' = None
  | _ => False
  end.
Proof. exact C28_cyclic_choice_not_executable_pf. Qed.

Example C28_wf_egraph_example :
  wf_egraph (p_body ex_two).
Proof. exact C28_wf_egraph_example_pf. Qed.

Example C28_two_example :
  extract ex_two = Ok (Prog 1 [ Node 2 5 0 [VArg 0; VArg 0] 1 CNone None; Node 4 N_RET 0 [VRes 2] 0 CNone None ]).
Proof. exact C28_two_example_pf. Qed.
