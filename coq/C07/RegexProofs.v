(* C07/RegexProofs.v -- soundness of the cost analyser of C07/Regex.v:
     cost_bound r = Some (k, p)  ->  the backtracking matcher takes at most k*(consumed+1) steps on
     a successful match, at most k*(remaining+1) on a failing one (k if p = true), for every input;
   for every regex, the matcher's fuel suffices and what a match leaves is a suffix of the input (bt_keeps);
   and for a nested repetition, which the analyser rejects, the exact step count 7*2^n - 1 (nested_plus_steps). *)
From Coq Require Import ZArith Nnat List Bool Arith Lia.
From XV Require Import C07.Regex.
Import ListNotations.

Section Proofs.
Variable U : named -> Z -> bool.

Notation bt := (Regex.bt U).
Notation mem := (Regex.mem U).

Definition star_loop (a : regex) (k : list Z -> res) : nat -> list Z -> res :=
  fix loop (fuel : nat) (s : list Z) {struct fuel} : res :=
  match fuel with
  | O => (0, MFuel)
  | S f =>
      let '(da, oa) := bt a s (fun s' => if length s' <? length s then loop f s' else k s') in
      match oa with
      | MNone => let '(dk, ok) := k s in (S (da + dk), ok)
      | _ => (S da, oa)
      end
  end.
Definition cont_of (a : regex) (k : list Z -> res) (f : nat) (s : list Z) : list Z -> res :=
  fun s' => if length s' <? length s then star_loop a k f s' else k s'.

Lemma bt_star : forall a s k, bt (Star a) s k = star_loop a k (S (length s)) s.
Proof. reflexivity. Qed.

Lemma loop_succ : forall a k f s d o, bt a s (cont_of a k f s) = (d, o) -> o <> MNone ->
  star_loop a k (S f) s = (S d, o).
Proof.
  intros a k f s d o H Hne. change (star_loop a k (S f) s) with
    (let '(da, oa) := bt a s (cont_of a k f s) in
     match oa with MNone => let '(dk, ok) := k s in (S (da + dk), ok) | _ => (S da, oa) end).
  rewrite H. destruct o; try reflexivity. congruence.
Qed.
Lemma loop_fail : forall a k f s d dk ok, bt a s (cont_of a k f s) = (d, MNone) -> k s = (dk, ok) ->
  star_loop a k (S f) s = (S (d + dk), ok).
Proof.
  intros a k f s d dk ok H Hk. change (star_loop a k (S f) s) with
    (let '(da, oa) := bt a s (cont_of a k f s) in
     match oa with MNone => let '(dk, ok) := k s in (S (da + dk), ok) | _ => (S da, oa) end).
  rewrite H, Hk. reflexivity.
Qed.
Lemma alt_succ : forall a b s k d o, bt a s k = (d, o) -> o <> MNone -> bt (Alt a b) s k = (S d, o).
Proof. intros a b s k d o H Hne. cbn [Regex.bt]. rewrite H. destruct o; try reflexivity. congruence. Qed.
Lemma alt_fail : forall a b s k da db ob, bt a s k = (da, MNone) -> bt b s k = (db, ob) ->
  bt (Alt a b) s k = (S (da + db), ob).
Proof. intros a b s k da db ob H Hb. cbn [Regex.bt]. rewrite H, Hb. reflexivity. Qed.
Lemma chr_hit : forall c x s k d o, mem c x = true -> k s = (d, o) -> bt (Chr c) (x :: s) k = (S d, o).
Proof. intros c x s k d o Hm Hk. cbn [Regex.bt]. rewrite Hm, Hk. reflexivity. Qed.
Lemma chr_miss : forall c x s k, mem c x = false -> bt (Chr c) (x :: s) k = (1, MNone).
Proof. intros c x s k Hm. cbn [Regex.bt]. rewrite Hm. reflexivity. Qed.
Lemma chr_nil : forall c k, bt (Chr c) [] k = (1, MNone).
Proof. reflexivity. Qed.
Lemma pair_eta : forall (p : res), p = (fst p, snd p).
Proof. intros [a b]. reflexivity. Qed.

Lemma cont_shorter : forall a k f s s', length s' < length s -> cont_of a k f s s' = star_loop a k f s'.
Proof. intros a k f s s' H. unfold cont_of. apply Nat.ltb_lt in H. rewrite H. reflexivity. Qed.

Definition stops (X : cset) (s : list Z) : Prop :=
  match s with x :: _ => mem X x = false | [] => True end.
Lemma class_loop_stop : forall X k f s, stops X s ->
  star_loop (Chr X) k (S f) s = (S (1 + fst (k s)), snd (k s)).
Proof.
  intros X k f s Hs. apply loop_fail; [|apply pair_eta].
  destruct s as [|x t]; [apply chr_nil|apply chr_miss; exact Hs].
Qed.
Lemma class_loop_step : forall X k f x t d o, mem X x = true -> star_loop (Chr X) k f t = (d, o) ->
  star_loop (Chr X) k (S f) (x :: t) =
  match o with MNone => (S (S d + fst (k (x :: t))), snd (k (x :: t))) | _ => (S (S d), o) end.
Proof.
  intros X k f x t d o Hm Hl.
  assert (Hb : bt (Chr X) (x :: t) (cont_of (Chr X) k f (x :: t)) = (S d, o)).
  { apply (chr_hit X x t _ d o Hm). rewrite cont_shorter; [exact Hl|cbn; lia]. }
  destruct o; [apply (loop_succ _ _ _ _ _ _ Hb); discriminate|apply (loop_fail _ _ _ _ _ _ _ Hb), pair_eta|
               apply (loop_succ _ _ _ _ _ _ Hb); discriminate].
Qed.

(* what class 1 asks of a continuation: when it fails it has taken at most Fk steps (po); it cannot fail (inf).
   In `Info`: iC steps per character consumed, iF steps for a failure of the pattern itself, iN the factor on the
   continuation's failure bound, iInf = the pattern cannot fail when what follows it cannot *)
Definition po (Fk : nat) (k : list Z -> res) := forall s, snd (k s) = MNone -> fst (k s) <= Fk.
Definition inf (k : list Z -> res) := forall s, snd (k s) <> MNone.

(* x is the verdict of r on s with continuation k: a failure costs at most B steps; any other verdict is k's
   on some s1, reached at C steps per character consumed plus B *)
Definition concl (C B : nat) (s : list Z) (k : list Z -> res) (x : res) : Prop :=
  (snd x = MNone -> fst x <= B) /\
  (snd x <> MNone -> exists s1, length s1 <= length s /\ snd (k s1) = snd x /\
                                fst x <= C * (length s - length s1) + B + fst (k s1)).

Lemma mul_max_split : forall a b x y, a * x + b * y <= Nat.max a b * (x + y).
Proof.
  intros a b x y. rewrite Nat.mul_add_distr_l.
  apply Nat.add_le_mono; apply Nat.mul_le_mono_r; lia.
Qed.

Lemma concl_fail : forall C B s k d, d <= B -> concl C B s k (d, MNone).
Proof. intros C B s k d Hd. split; cbn [fst snd]; [intros _; exact Hd|congruence]. Qed.

(* c steps, then k on s' (Eps, a character that matches, EndA at the end) *)
Lemma concl_pass : forall C B Fk s k s' c, po Fk k -> length s' <= length s -> c + Fk <= B ->
  concl C B s k (c + fst (k s'), snd (k s')).
Proof.
  intros C B Fk s k s' c Hpo Hl Hc. split; cbn [fst snd].
  - intro Hn. specialize (Hpo s' Hn). lia.
  - intros _. exists s'. repeat split; [exact Hl|nia].
Qed.

Lemma an_sound : forall r kinf i, an r kinf = Some i ->
  forall Fk k, po Fk k -> (kinf = true -> inf k) ->
  forall s, concl (iC i) (iF i + iN i * Fk) s k (bt r s k) /\ (iInf i = true -> snd (bt r s k) <> MNone).
Proof.
  induction r as [|c|a IHa b IHb|a IHa b IHb|a IHa|]; intros kinf i Han Fk k Hpo Hinf s.
  - cbn in Han. injection Han as <-. cbn [iC iF iN iInf]. split; [|intro Hk; apply (Hinf Hk)].
    change (bt Eps s k) with (k s). rewrite (pair_eta (k s)).
    apply (concl_pass 0 _ Fk s k s 0 Hpo (le_n _)). lia.
  - cbn in Han. injection Han as <-. cbn [iC iF iN iInf]. split; [|discriminate].
    destruct s as [|x s']; [rewrite chr_nil; apply concl_fail; lia|].
    destruct (mem c x) eqn:Em; [|rewrite (chr_miss c x s' k Em); apply concl_fail; lia].
    rewrite (chr_hit c x s' k _ _ Em (pair_eta _)).
    apply (concl_pass 1 _ Fk (x :: s') k s' 1 Hpo (Nat.le_succ_diag_r _)). lia.
  - cbn [an] in Han. destruct (an b kinf) as [ib|] eqn:Eb; [|discriminate].
    destruct (an a (iInf ib)) as [ia|] eqn:Ea; [|discriminate].
    injection Han as <-. cbn [iC iF iN iInf].
    pose (kb := fun s' => bt b s' k).
    assert (Hb : forall s', concl (iC ib) (iF ib + iN ib * Fk) s' k (kb s') /\
                            (iInf ib = true -> snd (kb s') <> MNone))
      by (intro s'; apply (IHb kinf ib Eb Fk k Hpo Hinf s')).
    assert (Hpob : po (iF ib + iN ib * Fk) kb) by (intros s' Hn; exact (proj1 (proj1 (Hb s')) Hn)).
    destruct (IHa (iInf ib) ia Ea _ kb Hpob (fun Hi s' => proj2 (Hb s') Hi) s) as [[Hn Hs] Hia].
    change (bt (Cat a b) s k) with (bt a s kb). split; [|exact Hia]. split.
    + intro Hx. specialize (Hn Hx). rewrite Nat.mul_add_distr_l, Nat.mul_assoc in Hn.
      rewrite Nat.mul_add_distr_r. lia.
    + (* a's verdict is kb's on some s1, and that one is k's on some s2 *)
      intro Hx. destruct (Hs Hx) as (s1 & Hl1 & Ho1 & Hd1).
      destruct (proj2 (proj1 (Hb s1))) as (s2 & Hl2 & Ho2 & Hd2); [rewrite Ho1; exact Hx|].
      exists s2. split; [lia|]. split; [rewrite Ho2; exact Ho1|].
      pose proof (mul_max_split (iC ia) (iC ib) (length s - length s1) (length s1 - length s2)) as Hm.
      replace (length s - length s1 + (length s1 - length s2)) with (length s - length s2) in Hm by lia.
      rewrite Nat.mul_add_distr_l, Nat.mul_assoc in Hd1. rewrite Nat.mul_add_distr_r. lia.
  - cbn [an] in Han. destruct (an a kinf) as [ia|] eqn:Ea; [|discriminate].
    destruct (an b kinf) as [ib|] eqn:Eb; [|discriminate].
    injection Han as <-. cbn [iC iF iN iInf].
    destruct (IHa kinf ia Ea Fk k Hpo Hinf s) as [[Han Has] Hia].
    destruct (IHb kinf ib Eb Fk k Hpo Hinf s) as [[Hbn Hbs] Hib].
    destruct (bt a s k) as [da oa] eqn:Ea'. destruct (bt b s k) as [db ob] eqn:Eb'. cbn [fst snd] in *.
    assert (Hmax : forall x, iC ia * x <= Nat.max (iC ia) (iC ib) * x /\ iC ib * x <= Nat.max (iC ia) (iC ib) * x)
      by (intro x; split; apply Nat.mul_le_mono_r; lia).
    assert (Hoa : oa = MNone \/ oa <> MNone) by (destruct oa; [right|left|right]; congruence).
    destruct Hoa as [->|Hne].
    + rewrite (alt_fail a b s k _ _ _ Ea' Eb'). specialize (Han eq_refl). split; [split; cbn [fst snd]|].
      * intro Hx. specialize (Hbn Hx). rewrite Nat.mul_add_distr_r. lia.
      * intro Hx. destruct (Hbs Hx) as (s1 & Hl & Ho & Hd). exists s1. repeat split; [exact Hl|exact Ho|].
        pose proof (proj2 (Hmax (length s - length s1))). rewrite Nat.mul_add_distr_r. lia.
      * intro Hi. apply orb_true_iff in Hi. destruct Hi as [Hi|Hi]; [exfalso; exact (Hia Hi eq_refl)|exact (Hib Hi)].
    + rewrite (alt_succ a b s k _ _ Ea' Hne). split; [split; cbn [fst snd]; [intro Hx; contradiction|]|intros _; exact Hne].
      intros _. destruct (Has Hne) as (s1 & Hl & Ho & Hd). exists s1. repeat split; [exact Hl|exact Ho|].
      pose proof (proj1 (Hmax (length s - length s1))). rewrite Nat.mul_add_distr_r. lia.
  - cbn [an] in Han. destruct kinf; [|discriminate].
    destruct (an a true) as [ia|] eqn:Ea; [|discriminate].
    injection Han as <-. cbn [iC iF iN iInf].
    pose proof (Hinf eq_refl) as Hk. set (C := iC ia + iF ia + 1).
    assert (Hloop : forall fuel s, length s < fuel ->
              exists s1, length s1 <= length s /\ snd (k s1) = snd (star_loop a k fuel s) /\
                fst (star_loop a k fuel s) <= C * (length s - length s1) + (iF ia + 1) + fst (k s1)).
    { induction fuel as [|f IHf]; intros s0 Hlt; [lia|].
      assert (Hcinf : inf (cont_of a k f s0)).
      { intros s'. unfold cont_of. destruct (length s' <? length s0) eqn:El; [|apply Hk].
        apply Nat.ltb_lt in El. destruct (IHf s' ltac:(lia)) as (s1 & _ & <- & _). apply Hk. }
      assert (Hcpo : po 0 (cont_of a k f s0)) by (intros s' Hn; destruct (Hcinf s' Hn)).
      destruct (IHa true ia Ea 0 (cont_of a k f s0) Hcpo (fun _ => Hcinf) s0) as [[Hn Hs] _].
      destruct (bt a s0 (cont_of a k f s0)) as [d o] eqn:Eb. cbn [fst snd] in Hn, Hs.
      rewrite Nat.mul_0_r, Nat.add_0_r in Hn, Hs.
      assert (Ho : o = MNone \/ o <> MNone) by (destruct o; [right|left|right]; congruence).
      destruct Ho as [->|Hne].
      - rewrite (loop_fail a k f s0 d _ _ Eb (pair_eta (k s0))). specialize (Hn eq_refl).
        exists s0. cbn [fst snd]. repeat split; lia.
      - rewrite (loop_succ a k f s0 _ _ Eb Hne). cbn [fst snd].
        destruct (Hs Hne) as (s1 & Hl1 & Ho1 & Hd1). unfold cont_of in Ho1, Hd1.
        destruct (length s1 <? length s0) eqn:El.
        + (* the body consumed something: the loop goes on from s1 *)
          apply Nat.ltb_lt in El. destruct (IHf s1 ltac:(lia)) as (s2 & Hl2 & Ho2 & Hd2).
          exists s2. split; [lia|]. split; [rewrite Ho2; exact Ho1|].
          replace (length s0 - length s2) with ((length s0 - length s1) + (length s1 - length s2)) by lia.
          assert (iF ia + 1 <= (iF ia + 1) * (length s0 - length s1))
            by (rewrite <- (Nat.mul_1_r (iF ia + 1)) at 1; apply Nat.mul_le_mono_l; lia).
          rewrite Nat.mul_add_distr_l.
          assert (Hx : C * (length s0 - length s1) =
                       iC ia * (length s0 - length s1) + (iF ia + 1) * (length s0 - length s1)) by (unfold C; lia).
          lia.
        + apply Nat.ltb_ge in El. exists s1. repeat split; [exact Hl1|exact Ho1|].
          replace (length s0 - length s1) with 0 in * by lia. lia. }
    rewrite bt_star. destruct (Hloop (S (length s)) s ltac:(lia)) as (s1 & Hl & Ho & Hd).
    assert (Hne : snd (star_loop a k (S (length s)) s) <> MNone) by (rewrite <- Ho; apply Hk).
    split; [split; [intro Hx; contradiction|]|intros _; exact Hne].
    intros _. exists s1. repeat split; [exact Hl|exact Ho|]. fold C. lia.
  - cbn in Han. injection Han as <-. cbn [iC iF iN iInf]. split; [|discriminate].
    destruct s as [|x [|y t]].
    + replace (bt EndA [] k) with (1 + fst (k []), snd (k [])) by (cbn [Regex.bt]; destruct (k []); reflexivity).
      apply (concl_pass 0 _ Fk [] k [] 1 Hpo (le_n _)). lia.
    + destruct (x =? 10)%Z eqn:Ex.
      * replace (bt EndA [x] k) with (1 + fst (k [x]), snd (k [x]))
          by (cbn [Regex.bt]; rewrite Ex; destruct (k [x]); reflexivity).
        apply (concl_pass 0 _ Fk [x] k [x] 1 Hpo (le_n _)). lia.
      * replace (bt EndA [x] k) with (1, @MNone) by (cbn [Regex.bt]; rewrite Ex; reflexivity).
        apply concl_fail. lia.
    + apply concl_fail. lia.
Qed.

Lemma accept_inf : inf accept. Proof. intros s. cbn. discriminate. Qed.
Lemma accept_po : po 0 accept. Proof. intros s H. cbn in H. discriminate. Qed.

Lemma existsb_in_range : forall x l, existsb (in_range x) l = true ->
  exists r, In r l /\ (fst r <= x <= snd r)%Z.
Proof.
  intros x l H. apply existsb_exists in H. destruct H as (r & Hin & Hr).
  exists r. split; [exact Hin|]. unfold in_range in Hr. apply andb_true_iff in Hr. lia.
Qed.
Lemma in_range_existsb : forall x q l, In q l -> (fst q <= x <= snd q)%Z -> existsb (in_range x) l = true.
Proof.
  intros x q l Hq Hx. apply existsb_exists. exists q. split; [exact Hq|].
  unfold in_range. apply andb_true_iff. lia.
Qed.

Lemma cdisj_sound : forall a b x, cdisj a b = true -> mem a x = true -> mem b x = false.
Proof.
  intros a b x Hd Ha. unfold cdisj in Hd.
  apply andb_true_iff in Hd. destruct Hd as [Hp Hd]. apply andb_true_iff in Hp. destruct Hp as [Hpa Hpb].
  unfold plain in Hpa, Hpb. unfold Regex.mem in *.
  destruct (cs_named a); [|discriminate]. destruct (cs_named b); [|discriminate].
  cbn [existsb] in *. rewrite orb_false_r in *.
  destruct (cs_neg a), (cs_neg b); try discriminate;
    rewrite ?xorb_false_l, ?xorb_true_l in *.
  - apply negb_true_iff in Ha.
    destruct (existsb (in_range x) (cs_ranges b)) eqn:Eb; [|reflexivity].
    apply existsb_in_range in Eb. destruct Eb as (r & Hin & Hr).
    rewrite forallb_forall in Hd. specialize (Hd r Hin). unfold range_within in Hd.
    apply existsb_exists in Hd. destruct Hd as (q & Hq & Hw). apply andb_true_iff in Hw.
    rewrite (in_range_existsb x q _ Hq ltac:(lia)) in Ha. discriminate.
  - apply negb_false_iff.
    apply existsb_in_range in Ha. destruct Ha as (r & Hin & Hr).
    rewrite forallb_forall in Hd. specialize (Hd r Hin). unfold range_within in Hd.
    apply existsb_exists in Hd. destruct Hd as (q & Hq & Hw). apply andb_true_iff in Hw.
    apply (in_range_existsb x q _ Hq ltac:(lia)).
  - destruct (existsb (in_range x) (cs_ranges b)) eqn:Eb; [|reflexivity].
    apply existsb_in_range in Ha. destruct Ha as (ra & Hina & Hra).
    apply existsb_in_range in Eb. destruct Eb as (rb & Hinb & Hrb).
    unfold ranges_disjoint in Hd. rewrite forallb_forall in Hd. specialize (Hd ra Hina).
    rewrite forallb_forall in Hd. specialize (Hd rb Hinb). apply orb_true_iff in Hd. lia.
Qed.

Definition headin (fs : list cset) (s : list Z) : bool :=
  match s with x :: _ => existsb (fun c => mem c x) fs | [] => false end.

Lemma headin_app : forall f1 f2 s, headin (f1 ++ f2) s = headin f1 s || headin f2 s.
Proof. intros f1 f2 [|x t]; cbn; [reflexivity|apply existsb_app]. Qed.

Lemma all_disj_headin : forall f1 f2 s, all_disj f1 f2 = true -> headin f1 s = true -> headin f2 s = false.
Proof.
  intros f1 f2 [|x t] Hd H1; [reflexivity|]. cbn in *.
  apply existsb_exists in H1. destruct H1 as (c1 & Hin1 & Hm1).
  destruct (existsb (fun c => mem c x) f2) eqn:E2; [|reflexivity].
  apply existsb_exists in E2. destruct E2 as (c2 & Hin2 & Hm2).
  unfold all_disj in Hd. rewrite forallb_forall in Hd. specialize (Hd c1 Hin1).
  rewrite forallb_forall in Hd. specialize (Hd c2 Hin2).
  rewrite (cdisj_sound c1 c2 x Hd Hm1) in Hm2. discriminate.
Qed.

Lemma det_sound : forall B, det B = true -> forall s k,
  (headin (firsts B) s = false -> exists d, bt B s k = (d, MNone) /\ d <= dsize B)
  /\ ((exists s1 d, length s1 < length s /\ headin (firsts B) s = true /\
         bt B s k = (d + fst (k s1), snd (k s1)) /\ d <= dsize B)
      \/ (exists d, bt B s k = (d, MNone) /\ d <= dsize B)).
Proof.
  induction B as [|c|a IHa b IHb|a IHa b IHb|a IHa|]; intros Hdet s k; try discriminate.
  - cbn [firsts dsize]. destruct s as [|x t].
    + split; [intros _; exists 1; split; [apply chr_nil|lia]|right; exists 1; split; [apply chr_nil|lia]].
    + cbn [headin existsb]. rewrite orb_false_r. destruct (mem c x) eqn:Em.
      * split; [discriminate|]. left. exists t, 1.
        rewrite (chr_hit c x t k _ _ Em (pair_eta _)). cbn [length]. repeat split; lia.
      * rewrite (chr_miss c x t k Em).
        split; [intros _; exists 1; split; [reflexivity|lia]|right; exists 1; split; [reflexivity|lia]].
  - cbn [det] in Hdet. apply andb_true_iff in Hdet. destruct Hdet as [Hda Hdb].
    cbn [firsts dsize]. pose (kb := fun s' => bt b s' k).
    change (bt (Cat a b) s k) with (bt a s kb).
    destruct (IHa Hda s kb) as [Ha1 Ha2]. split.
    + intro Hh. destruct (Ha1 Hh) as (d & Heq & Hd). exists d. split; [exact Heq|lia].
    + destruct Ha2 as [Hl|Hr].
      * destruct Hl as (s1 & d & Hlen & Hh & Heq & Hd).
        destruct (IHb Hdb s1 k) as [_ [Hl2|Hr2]].
        -- destruct Hl2 as (s2 & d2 & Hlen2 & _ & Heq2 & Hd2). left. exists s2, (d + d2).
           assert (Hkb : kb s1 = (d2 + fst (k s2), snd (k s2))) by exact Heq2.
           rewrite Hkb in Heq. cbn [fst snd] in Heq.
           repeat split; [lia|exact Hh|rewrite Heq; f_equal; lia|lia].
        -- destruct Hr2 as (d2 & Heq2 & Hd2). right. exists (d + d2).
           assert (Hkb : kb s1 = (d2, MNone)) by exact Heq2.
           rewrite Hkb in Heq. cbn [fst snd] in Heq. split; [exact Heq|lia].
      * destruct Hr as (d & Heq & Hd). right. exists d. split; [exact Heq|lia].
  - cbn [det] in Hdet. apply andb_true_iff in Hdet. destruct Hdet as [Hdab Hdisj].
    apply andb_true_iff in Hdab. destruct Hdab as [Hda Hdb].
    cbn [firsts dsize]. rewrite headin_app.
    destruct (IHa Hda s k) as [Ha1 Ha2]. destruct (IHb Hdb s k) as [Hb1 Hb2].
    split.
    + intro Hh. apply orb_false_iff in Hh. destruct Hh as [Hha Hhb].
      destruct (Ha1 Hha) as (da & Heqa & Hda'). destruct (Hb1 Hhb) as (db & Heqb & Hdb').
      rewrite (alt_fail a b s k _ _ _ Heqa Heqb). exists (S (da + db)). split; [reflexivity|lia].
    + destruct Ha2 as [Hl|Hr].
      * destruct Hl as (s1 & d & Hlen & Hh & Heq & Hd).
        destruct (snd (k s1)) eqn:Es.
        -- left. exists s1, (S d). rewrite Hh.
           rewrite (alt_succ a b s k _ _ Heq ltac:(discriminate)), Es.
           repeat split; lia.
        -- pose proof (all_disj_headin _ _ s Hdisj Hh) as Hhb.
           destruct (Hb1 Hhb) as (db & Heqb & Hdb').
           rewrite (alt_fail a b s k _ _ _ Heq Heqb).
           left. exists s1, (S (d + db)). rewrite Hh, Es. repeat split; [lia|f_equal; lia|lia].
        -- left. exists s1, (S d). rewrite Hh.
           rewrite (alt_succ a b s k _ _ Heq ltac:(discriminate)), Es.
           repeat split; lia.
      * destruct Hr as (da & Heqa & Hda').
        destruct Hb2 as [Hl2|Hr2].
        -- destruct Hl2 as (s1 & d & Hlen & Hh & Heq & Hd).
           rewrite (alt_fail a b s k _ _ _ Heqa Heq).
           left. exists s1, (S (da + d)). rewrite Hh, orb_true_r.
           repeat split; [lia|f_equal; lia|lia].
        -- destruct Hr2 as (db & Heqb & Hdb').
           rewrite (alt_fail a b s k _ _ _ Heqa Heqb). right. exists (S (da + db)).
           split; [reflexivity|lia].
Qed.

Definition kq (q2 : cset) : list Z -> res := fun s' => bt (Chr q2) s' accept.

Lemma kq_cases : forall q2 s0,
  (exists x t, s0 = x :: t /\ mem q2 x = true /\ kq q2 s0 = (1, MSome t)) \/ kq q2 s0 = (1, MNone).
Proof.
  intros q2 [|x t]; [right; reflexivity|]. unfold kq. destruct (mem q2 x) eqn:Em.
  - left. exists x, t. repeat split; [exact Em|]. apply (chr_hit q2 x t accept 0 (MSome t) Em eq_refl).
  - right. apply chr_miss. exact Em.
Qed.

Lemma kq_disjoint : forall fs q2 s, all_disj fs [q2] = true -> headin fs s = true -> kq q2 s = (1, MNone).
Proof.
  intros fs q2 s Hd Hh. destruct (kq_cases q2 s) as [(x & t & -> & Hm & _)|Hq]; [|exact Hq].
  pose proof (all_disj_headin _ [q2] (x :: t) Hd Hh) as Hc. cbn in Hc. rewrite Hm in Hc. discriminate.
Qed.

Lemma delimited_loop : forall B q2, det B = true -> all_disj (firsts B) [q2] = true ->
  forall fuel s, length s < fuel ->
  forall d o, star_loop B (kq q2) fuel s = (d, o) ->
  o <> MFuel /\
  (forall sf, o = MSome sf -> length sf < length s /\ d <= (dsize B + 3) * (length s - length sf)) /\
  (o = MNone -> d <= (dsize B + 3) * length s + (dsize B + 2)).
Proof.
  intros B q2 Hdet Hdisj. induction fuel as [|f IHf]; intros s Hlt d0 o0 Hrun; [lia|].
  destruct (det_sound B Hdet s (cont_of B (kq q2) f s)) as [_ [Hl|Hr]].
  - destruct Hl as (s1 & d & Hlen & Hh & Heq & Hd).
    rewrite (cont_shorter B (kq q2) f s s1 Hlen) in Heq.
    destruct (star_loop B (kq q2) f s1) as [d' o'] eqn:El'. cbn [fst snd] in Heq.
    destruct (IHf s1 ltac:(lia) d' o' El') as (Hnf & Hs & Hn).
    destruct o' as [sf| |].
    + rewrite (loop_succ B (kq q2) f s _ _ Heq ltac:(discriminate)) in Hrun.
      injection Hrun as <- <-.
      split; [discriminate|]. split; [|discriminate].
      intros sf0 Hsf. injection Hsf as <-. destruct (Hs sf eq_refl) as [Hl1 Hd1]. split; [lia|].
      replace (length s - length sf) with ((length s - length s1) + (length s1 - length sf)) by lia.
      rewrite Nat.mul_add_distr_l.
      assert (dsize B + 3 <= (dsize B + 3) * (length s - length s1))
        by (rewrite <- (Nat.mul_1_r (dsize B + 3)) at 1; apply Nat.mul_le_mono_l; lia).
      lia.
    + (* the rest of the loop failed: the closing delimiter cannot match here *)
      rewrite (loop_fail B (kq q2) f s _ _ _ Heq (kq_disjoint _ q2 s Hdisj Hh)) in Hrun. injection Hrun as <- <-.
      split; [discriminate|]. split; [discriminate|]. intros _.
      specialize (Hn eq_refl).
      assert ((dsize B + 3) * length s1 + (dsize B + 3) <= (dsize B + 3) * length s).
      { rewrite <- Nat.mul_succ_r. apply Nat.mul_le_mono_l. lia. }
      lia.
    + exfalso. apply Hnf. reflexivity.
  - destruct Hr as (d & Heq & Hd).
    destruct (kq_cases q2 s) as [(x & t & -> & Hm & Hq)|Hq];
      rewrite (loop_fail B (kq q2) f _ _ _ _ Heq Hq) in Hrun; injection Hrun as <- <-.
    + split; [discriminate|]. split; [|discriminate].
      intros sf Hsf. injection Hsf as <-. cbn [length]. split; [lia|].
      replace (S (length t) - length t) with 1 by lia. lia.
    + split; [discriminate|]. split; [discriminate|]. intros _. lia.
Qed.

(* the opening delimiter q1, then a continuation that is linear with constant K' <= K *)
Lemma after_opening : forall q1 (kk : list Z -> res) K' a b K s d0 o0,
  K' <= K -> a + 1 <= 2 * K -> b + 1 <= 2 * K ->
  (forall t d o, kk t = (d, o) ->
     o <> MFuel /\
     (forall sf, o = MSome sf -> length sf <= length t /\ d <= K' * (length t - length sf) + a) /\
     (o = MNone -> d <= K' * length t + b)) ->
  bt (Chr q1) s kk = (d0, o0) ->
  o0 <> MFuel /\
  (forall sf, o0 = MSome sf -> length sf <= length s /\ d0 <= K * (length s - length sf + 1)) /\
  (o0 = MNone -> d0 <= K * (length s + 1)).
Proof.
  intros q1 kk K' a b K s d0 o0 HK Ha Hb Hkk Hrun.
  destruct s as [|x t]; [rewrite chr_nil in Hrun|destruct (mem q1 x) eqn:Em; [|rewrite (chr_miss _ _ _ _ Em) in Hrun]].
  1, 3: (injection Hrun as <- <-; split; [discriminate|]; split; [discriminate|]; intros _; nia).
  destruct (kk t) as [d o] eqn:Ek. rewrite (chr_hit q1 x t kk d o Em Ek) in Hrun. injection Hrun as <- <-.
  destruct (Hkk t d o Ek) as (Hnf & Hs & Hn). split; [exact Hnf|]. split.
  - intros sf Hsf. destruct (Hs sf Hsf) as [Hl Hd]. cbn [length]. split; [lia|].
    assert (K' * (length t - length sf) <= K * (length t - length sf)) by (apply Nat.mul_le_mono_r; exact HK).
    replace (S (length t) - length sf + 1) with ((length t - length sf) + 2) by lia.
    rewrite Nat.mul_add_distr_l. lia.
  - intros Ho. specialize (Hn Ho). cbn [length].
    assert (K' * length t <= K * length t) by (apply Nat.mul_le_mono_r; exact HK).
    replace (S (length t) + 1) with (length t + 2) by lia. rewrite Nat.mul_add_distr_l. lia.
Qed.

Lemma delimited_sound : forall r k, delimited r = Some k -> forall s d o,
  bt_match U r s = (d, o) ->
  o <> MFuel /\
  (forall sf, o = MSome sf -> length sf <= length s /\ d <= k * (length s - length sf + 1)) /\
  (o = MNone -> d <= k * (length s + 1)).
Proof.
  intros r k Hr s d0 o0 Hrun. unfold delimited in Hr.
  destruct r as [|c|a b|a b|a|]; try discriminate.
  destruct a as [|q1|a1 a2|a1 a2|a1|]; try discriminate.
  destruct b as [|c|b1 b2|b1 b2|b1|]; try discriminate.
  destruct b1 as [|c|b11 b12|b11 b12|B|]; try discriminate.
  destruct b2 as [|q2|b21 b22|b21 b22|b21|]; try discriminate.
  destruct (det B && all_disj (firsts B) [q2]) eqn:E; [|discriminate].
  injection Hr as <-. apply andb_true_iff in E. destruct E as [Hdet Hdisj].
  unfold bt_match in Hrun.
  change (bt (Cat (Chr q1) (Cat (Star B) (Chr q2))) s accept)
    with (bt (Chr q1) s (fun s' => star_loop B (kq q2) (S (length s')) s')) in Hrun.
  apply (after_opening q1 (fun s' => star_loop B (kq q2) (S (length s')) s') (dsize B + 3) 0 (dsize B + 2)
           (dsize B + 4) s d0 o0); [lia|lia|lia| |exact Hrun].
  intros t d o El. destruct (delimited_loop B q2 Hdet Hdisj (S (length t)) t ltac:(lia) d o El) as (Hnf & Hs & Hn).
  split; [exact Hnf|]. split; [|exact Hn]. intros sf Hsf. destruct (Hs sf Hsf). split; lia.
Qed.

(* Class 3: the unrolled loop  q1 N* (S N* )* q2 *)

Lemma unroll_body_eq : forall b sp n, unroll_body b = Some (sp, n) ->
  forall s k, bt b s k = bt sp s (fun s1 => bt (Star (Chr n)) s1 k).
Proof.
  intros b sp n H s k. unfold unroll_body in H.
  destruct b as [|c|a r|a r|a|]; try discriminate.
  destruct r as [|c|a2 r2|a2 r2|x|]; try discriminate.
  - destruct r2 as [|c|a3 r3|a3 r3|x|]; try discriminate.
    destruct x as [|c|? ?|? ?|?|]; try discriminate.
    injection H as <- <-. reflexivity.
  - destruct x as [|c|? ?|? ?|?|]; try discriminate.
    injection H as <- <-. reflexivity.
Qed.

(* what the continuation of a class star must satisfy: linear success, linear failure,
   and a prompt failure whenever the next character is still in the class X *)
Definition kspec (C a b c0 : nat) (X : cset) (k : list Z -> res) (s : list Z) : Prop :=
  snd (k s) <> MFuel /\
  (forall sf, snd (k s) = MSome sf -> length sf <= length s /\ fst (k s) <= C * (length s - length sf) + a) /\
  (snd (k s) = MNone -> fst (k s) <= C * length s + b) /\
  (headin [X] s = true -> snd (k s) = MNone /\ fst (k s) <= c0).

Lemma ns_loop : forall C a b c0 X k, c0 + 2 <= C ->
  forall fuel s, length s < fuel ->
  (forall s', length s' <= length s -> kspec C a b c0 X k s') ->
  forall d o, star_loop (Chr X) k fuel s = (d, o) ->
  o <> MFuel /\
  (forall sf, o = MSome sf -> length sf <= length s /\ d <= C * (length s - length sf) + (a + 2)) /\
  (o = MNone -> d <= C * length s + (b + 2)).
Proof.
  intros C a b c0 X k HC. induction fuel as [|f IHf]; intros s Hlt Hk d o Hrun; [lia|].
  destruct (Hk s (le_n _)) as (Hnf & Hs & Hn & Hh).
  assert (Hstop : stops X s ->
     o <> MFuel /\
     (forall sf, o = MSome sf -> length sf <= length s /\ d <= C * (length s - length sf) + (a + 2)) /\
     (o = MNone -> d <= C * length s + (b + 2))).
  { intro Hst. rewrite (class_loop_stop X k f s Hst) in Hrun. injection Hrun as <- <-.
    split; [exact Hnf|]. split.
    - intros sf Hsf. destruct (Hs sf Hsf) as [Hl Hd]. split; [exact Hl|lia].
    - intro Ho. specialize (Hn Ho). lia. }
  destruct s as [|x t]; [apply Hstop; exact I|].
  destruct (mem X x) eqn:Em; [|apply Hstop; exact Em].
  destruct (star_loop (Chr X) k f t) as [d1 o1] eqn:El.
  rewrite (class_loop_step X k f x t d1 o1 Em El) in Hrun.
  assert (Hk' : forall s', length s' <= length t -> kspec C a b c0 X k s')
    by (intros s' Hs'; apply Hk; cbn; lia).
  destruct (IHf t ltac:(cbn in Hlt; lia) Hk' d1 o1 El) as (Hnf1 & Hs1 & Hn1).
  assert (Hmul : C * length (x :: t) = C * length t + C) by (cbn [length]; rewrite Nat.mul_succ_r; reflexivity).
  destruct o1 as [sf1| |]; injection Hrun as <- <-.
  - split; [discriminate|]. split; [|discriminate].
    intros sf Hsf. injection Hsf as <-. destruct (Hs1 sf1 eq_refl) as [Hl1 Hd1]. cbn [length]. split; [lia|].
    replace (S (length t) - length sf1) with (S (length t - length sf1)) by lia.
    rewrite Nat.mul_succ_r. lia.
  - (* the rest failed: so does k here, promptly, the next character being in X *)
    assert (Hhd : headin [X] (x :: t) = true) by (cbn; rewrite Em; reflexivity).
    destruct (Hh Hhd) as [Hko Hkd].
    rewrite Hko. split; [discriminate|]. split; [discriminate|]. intros _.
    specialize (Hn1 eq_refl). lia.
  - exfalso. apply Hnf1. reflexivity.
Qed.

Section Unrolled.
Variables (sp : regex) (n q2 : cset) (body : regex).
Hypothesis Hbody : forall s k, bt body s k = bt sp s (fun s1 => bt (Star (Chr n)) s1 k).
Hypothesis Hdet : det sp = true.
Hypothesis Hq : all_disj (firsts sp) [q2] = true.
Hypothesis Hn : all_disj (firsts sp) [n] = true.
Hypothesis Hnq : cdisj n q2 = true.

Let C := dsize sp + 5.
Let c0 := dsize sp + 3.

Lemma kq_fails_on : forall X s, cdisj X q2 = true -> headin [X] s = true -> kq q2 s = (1, MNone).
Proof. intros X s Hd. apply kq_disjoint. cbn. rewrite Hd. reflexivity. Qed.

Lemma not_first_of : forall X s, all_disj (firsts sp) [X] = true -> headin [X] s = true ->
  headin (firsts sp) s = false.
Proof.
  intros X s Hd Hh. destruct (headin (firsts sp) s) eqn:E; [|reflexivity].
  rewrite (all_disj_headin _ _ s Hd E) in Hh. discriminate.
Qed.

Lemma loop_prompt : forall X, all_disj (firsts sp) [X] = true -> cdisj X q2 = true ->
  forall f s, headin [X] s = true ->
  exists d, star_loop body (kq q2) (S f) s = (d, MNone) /\ d <= c0.
Proof.
  intros X HX HXq f s Hh.
  destruct (det_sound sp Hdet s (fun s1 => bt (Star (Chr n)) s1 (cont_of body (kq q2) f s))) as [Hd1 _].
  destruct (Hd1 (not_first_of X s HX Hh)) as (dS & Hb & HdS). rewrite <- Hbody in Hb.
  rewrite (loop_fail body (kq q2) f s dS _ _ Hb (kq_fails_on X s HXq Hh)).
  exists (S (dS + 1)). split; [reflexivity|unfold c0; lia].
Qed.

Lemma unrolled_loop_n : forall fuel s, length s < fuel -> kspec C 0 C c0 n (star_loop body (kq q2) fuel) s.
Proof.
  induction fuel as [|f IHf]; intros s Hlt; [lia|].
  unfold kspec.
  set (cont := cont_of body (kq q2) f s).
  assert (Hprompt : headin [n] s = true ->
            snd (star_loop body (kq q2) (S f) s) = MNone /\ fst (star_loop body (kq q2) (S f) s) <= c0).
  { intro Hh. destruct (loop_prompt n Hn Hnq f s Hh) as (d & -> & Hd). split; [reflexivity|exact Hd]. }
  destruct (det_sound sp Hdet s (fun s1 => bt (Star (Chr n)) s1 cont)) as [_ [Hl|Hr]].
  - destruct Hl as (s1 & dS & Hlen & Hh & Hb & HdS). rewrite <- Hbody in Hb.
    assert (Hks : forall s', length s' <= length s1 -> kspec C 0 C c0 n cont s').
    { intros s' Hs'. unfold kspec, cont. rewrite cont_shorter by lia. apply (IHf s'). lia. }
    rewrite bt_star in Hb.
    destruct (star_loop (Chr n) cont (S (length s1)) s1) as [d1 o1] eqn:E1. cbn [fst snd] in Hb.
    destruct (ns_loop C 0 C c0 n cont ltac:(unfold C, c0; lia) (S (length s1)) s1 ltac:(lia) Hks d1 o1 E1)
      as (Hnf1 & Hs1 & Hn1).
    assert (HC1 : C <= C * (length s - length s1))
      by (rewrite <- (Nat.mul_1_r C) at 1; apply Nat.mul_le_mono_l; lia).
    assert (Hsplit : forall x, x <= length s1 ->
               C * (length s - x) = C * (length s - length s1) + C * (length s1 - x)).
    { intros x Hx. rewrite <- Nat.mul_add_distr_l. f_equal. lia. }
    destruct o1 as [sf1| |].
    + rewrite (loop_succ body (kq q2) f s _ _ Hb ltac:(discriminate)). cbn [fst snd].
      split; [discriminate|]. split.
      * intros sf Hsf. injection Hsf as <-. destruct (Hs1 sf1 eq_refl) as [Hl1 Hd1]. split; [lia|].
        rewrite (Hsplit (length sf1) Hl1). unfold C in *. lia.
      * split; [discriminate|]. intro Hh'. exfalso.
        rewrite (not_first_of n s Hn Hh') in Hh. discriminate.
    + rewrite (loop_fail body (kq q2) f s _ _ _ Hb (kq_disjoint _ q2 s Hq Hh)). cbn [fst snd].
      split; [discriminate|]. split; [discriminate|]. split.
      * intros _. specialize (Hn1 eq_refl).
        assert (C * length s1 + C <= C * length s).
        { rewrite <- Nat.mul_succ_r. apply Nat.mul_le_mono_l. lia. }
        unfold C in *. lia.
      * intro Hh'. exfalso. rewrite (not_first_of n s Hn Hh') in Hh. discriminate.
    + exfalso. apply Hnf1. reflexivity.
  - destruct Hr as (dS & Hb & HdS). rewrite <- Hbody in Hb.
    destruct (kq_cases q2 s) as [(x & t & -> & Hm & Hk)|Hk];
      rewrite (loop_fail body (kq q2) f _ dS _ _ Hb Hk); cbn [fst snd].
    + split; [discriminate|]. split.
      * intros sf Hsf. injection Hsf as <-. cbn [length]. split; [lia|].
        replace (S (length t) - length t) with 1 by lia. unfold C. lia.
      * split; [discriminate|]. intro Hh. exfalso.
        rewrite (kq_fails_on n (x :: t) Hnq Hh) in Hk. discriminate.
    + split; [discriminate|]. split; [discriminate|]. split; [unfold C; lia|].
      intros _. split; [reflexivity|unfold c0; lia].
Qed.

Lemma unrolled_loop_X : forall X, all_disj (firsts sp) [X] = true -> cdisj X q2 = true ->
  forall fuel s, length s < fuel -> kspec C 0 C c0 X (star_loop body (kq q2) fuel) s.
Proof.
  intros X HX HXq fuel s Hlt. destruct (unrolled_loop_n fuel s Hlt) as (H1 & H2 & H3 & _).
  split; [exact H1|]. split; [exact H2|]. split; [exact H3|].
  intro Hh. destruct fuel as [|f]; [lia|].
  destruct (loop_prompt X HX HXq f s Hh) as (d & -> & Hd). split; [reflexivity|exact Hd].
Qed.

End Unrolled.

Lemma unrolled_sound : forall r k, unrolled r = Some k -> forall s d o,
  bt_match U r s = (d, o) ->
  o <> MFuel /\
  (forall sf, o = MSome sf -> length sf <= length s /\ d <= k * (length s - length sf + 1)) /\
  (o = MNone -> d <= k * (length s + 1)).
Proof.
  intros r k Hr s d0 o0 Hrun. unfold unrolled in Hr.
  destruct r as [|c|a b|a b|a|]; try discriminate.
  destruct a as [|q1|a1 a2|a1 a2|a1|]; try discriminate.
  destruct b as [|c|b1 b2|b1 b2|b1|]; try discriminate.
  destruct b1 as [|c|b11 b12|b11 b12|b11|]; try discriminate.
  destruct b11 as [|n0|? ?|? ?|?|]; try discriminate.
  destruct b2 as [|c|b21 b22|b21 b22|b21|]; try discriminate.
  destruct b21 as [|c|? ?|? ?|B|]; try discriminate.
  destruct b22 as [|q2|? ?|? ?|?|]; try discriminate.
  destruct (unroll_body B) as [[sp n]|] eqn:Eu; [|discriminate].

  destruct (det sp && all_disj (firsts sp) [q2] && all_disj (firsts sp) [n] && cdisj n q2 &&
            all_disj (firsts sp) [n0] && cdisj n0 q2) eqn:E; [|discriminate].
  injection Hr as <-.
  repeat (apply andb_true_iff in E; destruct E as [E ?]).
  rename E into Hdet.
  pose proof (unroll_body_eq B sp n Eu) as Hbody.
  set (C := dsize sp + 5). set (c0 := dsize sp + 3).
  set (ktop := fun s'' => star_loop B (kq q2) (S (length s'')) s'').
  unfold bt_match in Hrun.
  change (bt (Cat (Chr q1) (Cat (Star (Chr n0)) (Cat (Star B) (Chr q2)))) s accept)
    with (bt (Chr q1) s (fun s' => star_loop (Chr n0) ktop (S (length s')) s')) in Hrun.
  apply (after_opening q1 (fun s' => star_loop (Chr n0) ktop (S (length s')) s') C (0 + 2) (C + 2) (dsize sp + 8)
           s d0 o0); [unfold C; lia..| |exact Hrun].
  intros t d o El. apply (ns_loop C 0 C c0 n0 ktop ltac:(unfold C, c0; lia) (S (length t)) t ltac:(lia)); [|exact El].
  intros s' _. unfold ktop.
  apply (unrolled_loop_X sp n q2 B Hbody Hdet ltac:(assumption) ltac:(assumption) ltac:(assumption)
           n0 ltac:(assumption) ltac:(assumption) (S (length s')) s'). lia.
Qed.

Theorem cost_bound_sound : forall r k p, cost_bound r = Some (k, p) -> forall s d o,
  bt_match U r s = (d, o) ->
  o <> MFuel /\
  (forall sf, o = MSome sf -> length sf <= length s /\ d <= k * (length s - length sf + 1)) /\
  (o = MNone -> d <= k * (length s + 1) /\ (p = true -> d <= k)).
Proof.
  intros r k p Hc s d0 o0 Hrun. unfold cost_bound in Hc.
  destruct (an r true) as [i|] eqn:Ean.
  - injection Hc as <- <-.
    destruct (an_sound r true i Ean 0 accept accept_po (fun _ => accept_inf) s) as [[Hn Hs] _].
    unfold bt_match in Hrun. rewrite Hrun, Nat.mul_0_r, Nat.add_0_r in Hn, Hs. cbn [fst snd] in Hn, Hs.
    assert (Ho : o0 = MNone \/ o0 <> MNone) by (destruct o0; [right|left|right]; congruence).
    destruct Ho as [->|Hne].
    + specialize (Hn eq_refl). split; [discriminate|]. split; [discriminate|]. intros _. split; [|intros _; lia].
      rewrite Nat.mul_add_distr_l. lia.
    + destruct (Hs Hne) as (s1 & Hl & <- & Hd). cbn [accept fst snd] in *.
      split; [discriminate|]. split; [|contradiction].
      intros sf Hsf. injection Hsf as <-. split; [exact Hl|].
      assert (iC i * (length s - length s1) <= (iC i + iF i) * (length s - length s1))
        by (apply Nat.mul_le_mono_r; lia).
      rewrite Nat.mul_add_distr_l. lia.
  - destruct (delimited r) as [k'|] eqn:Ed.
    + injection Hc as <- <-.
      destruct (delimited_sound r k' Ed s d0 o0 Hrun) as (Hnf & Hs & Hn).
      split; [exact Hnf|]. split; [exact Hs|]. intros Ho. split; [exact (Hn Ho)|discriminate].
    + destruct (unrolled r) as [k'|] eqn:Eu; [|discriminate]. injection Hc as <- <-.
      destruct (unrolled_sound r k' Eu s d0 o0 Hrun) as (Hnf & Hs & Hn).
      split; [exact Hnf|]. split; [exact Hs|]. intros Ho. split; [exact (Hn Ho)|discriminate].
Qed.

(* the bound for a match attempted at index i of a text s, as `pattern.match(text, pos)` is called *)
Corollary cost_bound_linear : forall r k p, cost_bound r = Some (k, p) -> forall s i,
  steps (bt_match_at U r s i) <= k * (length s - i + 1).
Proof.
  intros r k p Hc s i. unfold bt_match_at, steps.
  destruct (bt_match U r (skipn i s)) as [d o] eqn:Er. cbn [fst].
  destruct (cost_bound_sound r k p Hc (skipn i s) d o Er) as (Hnf & Hs & Hn).
  rewrite skipn_length in Hs, Hn.
  destruct o as [sf| |].
  - destruct (Hs sf eq_refl) as [Hl Hd].
    assert (k * (length s - i - length sf + 1) <= k * (length s - i + 1)) by (apply Nat.mul_le_mono_l; lia).
    lia.
  - apply (Hn eq_refl).
  - congruence.
Qed.

(* For EVERY regex (analysable or not): the fuel of the star loop suffices, and what a match leaves is a
   suffix of the input.  Both are the invariant below, for a property P of inputs that passes to tails. *)

Definition is_suffix (l s : list Z) : Prop := exists pre, s = pre ++ l.
Lemma is_suffix_refl : forall s, is_suffix s s.
Proof. intro s. exists []. reflexivity. Qed.
Lemma is_suffix_tail : forall x t s, is_suffix (x :: t) s -> is_suffix t s.
Proof. intros x t s [pre ->]. exists (pre ++ [x]). rewrite <- app_assoc. reflexivity. Qed.
Lemma is_suffix_trans : forall a b c, is_suffix a b -> is_suffix b c -> is_suffix a c.
Proof. intros a b c [p ->] [q ->]. exists (q ++ p). rewrite app_assoc. reflexivity. Qed.
Lemma is_suffix_len : forall l s, is_suffix l s -> length l <= length s.
Proof. intros l s [pre ->]. rewrite app_length. lia. Qed.
Lemma is_suffix_In : forall l s x, is_suffix l s -> In x l -> In x s.
Proof. intros l s x [pre ->] H. apply in_or_app. right. exact H. Qed.

Definition keeps (P : list Z -> Prop) (o : mres) : Prop :=
  match o with MSome sf => P sf | MNone => True | MFuel => False end.

Lemma bt_keeps : forall (P : list Z -> Prop), (forall x t, P (x :: t) -> P t) ->
  forall r s k, (forall s', P s' -> keeps P (snd (k s'))) -> P s -> keeps P (snd (bt r s k)).
Proof.
  intros P Ptl.
  induction r as [|c|a IHa b IHb|a IHa b IHb|a IHa|]; intros s k Hk Hs.
  - exact (Hk s Hs).
  - destruct s as [|x t]; [exact I|]. destruct (mem c x) eqn:Em.
    + rewrite (chr_hit c x t k _ _ Em (pair_eta _)). exact (Hk t (Ptl x t Hs)).
    + rewrite (chr_miss c x t k Em). exact I.
  - change (bt (Cat a b) s k) with (bt a s (fun s' => bt b s' k)).
    apply IHa; [|exact Hs]. intros s' Hs'. exact (IHb s' k Hk Hs').
  - pose proof (IHa s k Hk Hs) as Ha. destruct (bt a s k) as [da oa] eqn:Ea.
    destruct oa as [sf| |]; [rewrite (alt_succ a b s k _ _ Ea ltac:(discriminate)); exact Ha| |destruct Ha].
    rewrite (alt_fail a b s k _ _ _ Ea (pair_eta _)). exact (IHb s k Hk Hs).
  - rewrite bt_star.
    assert (Hloop : forall fuel s0, length s0 < fuel -> P s0 -> keeps P (snd (star_loop a k fuel s0))).
    { induction fuel as [|f IHf]; intros s0 Hlt Hs0; [lia|].
      assert (Hc : forall s', P s' -> keeps P (snd (cont_of a k f s0 s'))).
      { intros s' Hs'. unfold cont_of. destruct (length s' <? length s0) eqn:El; [|exact (Hk s' Hs')].
        apply Nat.ltb_lt in El. apply IHf; [lia|exact Hs']. }
      pose proof (IHa s0 _ Hc Hs0) as Ha. destruct (bt a s0 (cont_of a k f s0)) as [d o] eqn:Eb.
      destruct o as [sf| |]; [rewrite (loop_succ a k f s0 _ _ Eb ltac:(discriminate)); exact Ha| |destruct Ha].
      rewrite (loop_fail a k f s0 _ _ _ Eb (pair_eta _)). exact (Hk s0 Hs0). }
    apply Hloop; [lia|exact Hs].
  - destruct s as [|x [|y t]]; [| |exact I].
    + cbn [Regex.bt]. pose proof (Hk [] Hs) as H. destruct (k []). exact H.
    + cbn [Regex.bt]. destruct (x =? 10)%Z; [|exact I]. pose proof (Hk [x] Hs) as H. destruct (k [x]). exact H.
Qed.

Corollary bt_match_no_fuel : forall r s, snd (bt_match U r s) <> MFuel.
Proof.
  intros r s H. pose proof (bt_keeps (fun _ => True) (fun _ _ _ => I) r s accept (fun _ _ => I) I) as Hk.
  unfold bt_match in H. rewrite H in Hk. exact Hk.
Qed.

Corollary bt_match_suffix : forall r s sf, snd (bt_match U r s) = MSome sf -> is_suffix sf s.
Proof.
  intros r s sf H.
  pose proof (bt_keeps (fun l => is_suffix l s) (fun x t => is_suffix_tail x t s) r s accept (fun _ H' => H')
                (is_suffix_refl s)) as Hk.
  unfold bt_match in H. rewrite H in Hk. exact Hk.
Qed.

Corollary bt_match_len : forall r s sf, snd (bt_match U r s) = MSome sf -> length sf <= length s.
Proof. intros r s sf H. exact (is_suffix_len _ _ (bt_match_suffix r s sf H)). Qed.

End Proofs.

(* A pattern the analyser rejects, and rightly: on q x^n, with x in N and the closing Q missing, the nested
   repetition  Q0 ((N N* )|E)* Q  is tried in every way the run can be cut into pieces.  The outer loop on x^j
   costs L j steps with L 0 = 5 and L (j+1) = 2 L j + 2 (so L j = 7*2^j - 2): the inner star, unwinding from
   x^(j-1) down to nothing, restarts the outer loop on every shorter run. *)
Section Nested.
Variable U : named -> Z -> bool.
Notation bt := (Regex.bt U).
Notation mem := (Regex.mem U).

Fixpoint nested_steps (j : nat) : nat := match j with 0 => 5 | S i => 2 * nested_steps i + 2 end.

Lemma nested_steps_closed : forall j, N.of_nat (S (nested_steps j)) = (7 * 2 ^ N.of_nat j - 1)%N.
Proof.
  intro j. assert (H : (N.of_nat (nested_steps j) + 2 = 7 * 2 ^ N.of_nat j)%N).
  { induction j as [|j IH]; [reflexivity|]. cbn [nested_steps]. rewrite Nat2N.inj_succ, N.pow_succ_r'. lia. }
  lia.
Qed.

Variables (N Q : cset) (E : regex) (x : Z).
Hypothesis HN : mem N x = true.
Hypothesis HQ : mem Q x = false.
Hypothesis HE : forall j k, bt E (repeat x j) k = (1, MNone).
Let B := Alt (Cat (Chr N) (Star (Chr N))) E.

Lemma kq_run : forall j, kq U Q (repeat x j) = (1, MNone).
Proof. intros [|j]; [reflexivity|]. apply chr_miss. exact HQ. Qed.

Lemma nested_inner : forall j f,
  (forall i, i < j -> star_loop U B (kq U Q) f (repeat x i) = (nested_steps i, MNone)) ->
  forall m, m < j -> forall g, m < g ->
  exists d, star_loop U (Chr N) (cont_of U B (kq U Q) f (repeat x j)) g (repeat x m) = (d, MNone) /\
            d + 5 = nested_steps (S m).
Proof.
  intros j f Hout.
  assert (Hk : forall i, i < j -> cont_of U B (kq U Q) f (repeat x j) (repeat x i) = (nested_steps i, MNone)).
  { intros i Hi. rewrite cont_shorter; [exact (Hout i Hi)|rewrite !repeat_length; exact Hi]. }
  induction m as [|m IH]; intros Hm g Hg; (destruct g as [|g]; [lia|]).
  - exists 7. split; [|reflexivity]. rewrite (class_loop_stop U N _ g [] I). exact (f_equal (fun r => (S (1 + fst r), snd r)) (Hk 0 Hm)).
  - destruct (IH ltac:(lia) g ltac:(lia)) as (d & Hd & Hs).
    exists (S (S d + nested_steps (S m))). split; [|cbn [nested_steps] in *; lia].
    cbn [repeat]. rewrite (class_loop_step U N _ g x (repeat x m) d MNone HN Hd).
    exact (f_equal (fun r => (S (S d + fst r), snd r)) (Hk (S m) Hm)).
Qed.

Lemma nested_outer : forall j f, j < f -> star_loop U B (kq U Q) f (repeat x j) = (nested_steps j, MNone).
Proof.
  induction j as [j IH] using lt_wf_ind. intros [|f] Hf; [lia|].
  destruct j as [|j].
  - apply (loop_fail U B _ f [] 3 1 MNone); [|reflexivity].
    apply (alt_fail U _ E [] _ 1 1 MNone); [reflexivity|apply (HE 0)].
  - destruct (nested_inner (S j) f (fun i Hi => IH i Hi f ltac:(lia)) j ltac:(lia) (S j) ltac:(lia))
      as (d & Hd & Hs).
    rewrite <- Hs. replace (d + 5) with (S (S (S d + 1) + 1)) by lia.
    apply loop_fail; [|apply (kq_run (S j))].
    apply alt_fail; [|apply (HE (S j))].
    change (bt (Cat (Chr N) (Star (Chr N))) (repeat x (S j)) ?k) with (bt (Chr N) (x :: repeat x j) (fun s' => bt (Star (Chr N)) s' k)).
    apply (chr_hit U N x _ _ d MNone HN). rewrite bt_star, repeat_length. exact Hd.
Qed.

Theorem nested_plus_steps : forall Q0 q n, mem Q0 q = true ->
  bt_match U (Cat (Chr Q0) (Cat (Star B) (Chr Q))) (q :: repeat x n) = (S (nested_steps n), MNone).
Proof.
  intros Q0 q n Hq. unfold bt_match.
  change (bt (Cat (Chr Q0) (Cat (Star B) (Chr Q))) (q :: repeat x n) (accept))
    with (bt (Chr Q0) (q :: repeat x n) (fun s' => star_loop U B (kq U Q) (S (length s')) s')).
  apply (chr_hit U Q0 q _ _ _ MNone Hq). apply nested_outer. rewrite repeat_length. lia.
Qed.
End Nested.
