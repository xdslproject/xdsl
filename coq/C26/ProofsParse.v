(* C26/ProofsParse.v -- printing then parsing preserves the value.
   `str_toks e` is the token sequence of str(e); the parser model is the fuelled
   precedence-climbing parser of Model.v.  Spec: `rebuild` below (re-apply the smart
   constructors bottom-up, looking identifiers up in the space) and `eval`. *)
From Coq Require Import ZArith List Bool Arith Lia.
From XV Require Import C26.Model C26.ProofsAlg.
Import ListNotations.
Local Open Scope Z_scope.

Section PP.
  Variables (nd ns : nat).

  (* what parsing the printed form amounts to *)
  Fixpoint rebuild (e : expr) : res expr :=
    match e with
    | Dim p => if (p <? nd)%nat then Ok (Dim p) else Raise ParseErr
    | Sym p => if (p <? ns)%nat then Ok (Sym p) else Raise ParseErr
    | Const v => Ok (Const v)
    | Bin k l r => do l' <- rebuild l; do r' <- rebuild r; binary k l' r'
    end.

  Lemma rebuild_eval e e' d s : rebuild e = Ok e' -> eval e' d s = eval e d s.
  Proof.
    revert e'. induction e as [p|p|v|k l IHl r IHr]; intros e' H; simpl in H.
    - destruct (p <? nd)%nat; try discriminate H; apply Ok_inj in H; subst e'; reflexivity.
    - destruct (p <? ns)%nat; try discriminate H; apply Ok_inj in H; subst e'; reflexivity.
    - apply Ok_inj in H. subst e'. reflexivity.
    - exact (binary_rebuild_eval _ _ _ _ _ _ d s H IHl IHr).
  Qed.

  Lemma parse_primary_S f ts :
    parse_primary nd ns (S f) ts =
    match ts with
    | TId i :: ts' =>
        match i with
        | IdDim p => if (p <? nd)%nat then Ok (Dim p, ts') else Raise ParseErr
        | IdSym p => if (p <? ns)%nat then Ok (Sym p, ts') else Raise ParseErr
        | _ => Raise ParseErr
        end
    | TLParen :: ts' =>
        do '(e, ts2) <- parse_affine_expr nd ns f ts';
        match ts2 with
        | TRParen :: ts3 => Ok (e, ts3)
        | _ => Raise ParseErr
        end
    | TInt v :: ts' => Ok (Const v, ts')
    | TMinus :: ts' =>
        do '(e, ts2) <- parse_primary nd ns f ts';
        Ok (neg e, ts2)
    | _ => Raise ParseErr
    end.
  Proof. reflexivity. Qed.

  Lemma parse_binop_rhs_S f lhs prec ts :
    parse_binop_rhs nd ns (S f) lhs prec ts =
    let tp := tok_prec (hd_error ts) in
    if tp <? prec then Ok (lhs, ts)
    else match ts with
         | [] => Raise ParseErr
         | binop :: ts1 =>
             do '(rhs, ts2) <- parse_primary nd ns f ts1;
             let np := tok_prec (hd_error ts2) in
             do '(rhs', ts3) <- (if tp <? np then parse_binop_rhs nd ns f rhs (tp + 1) ts2 else Ok (rhs, ts2));
             do lhs' <- create_binop lhs rhs' binop;
             parse_binop_rhs nd ns f lhs' prec ts3
         end.
  Proof. reflexivity. Qed.

  Lemma parse_affine_expr_S f ts :
    parse_affine_expr nd ns (S f) ts =
    (do '(lhs, ts1) <- parse_primary nd ns f ts; parse_binop_rhs nd ns f lhs 0 ts1).
  Proof. reflexivity. Qed.

  Lemma create_binop_kind l r k : create_binop l r (kind_tok k) = binary k l r.
  Proof. destruct k; reflexivity. Qed.

  Lemma kind_tok_prec k : (tok_prec (Some (kind_tok k)) <? 0) = false /\
                          (tok_prec (Some (kind_tok k)) <? -1) = false.
  Proof. destruct k; split; reflexivity. Qed.

  (* fuel that suffices for the printed form of e *)
  Fixpoint pfuel (e : expr) : nat :=
    match e with
    | Bin _ l r => 3 + Nat.max (pfuel l) (pfuel r)
    | _ => 2
    end.

  Lemma pfuel_ge2 e : (2 <= pfuel e)%nat.
  Proof. destruct e; simpl; lia. Qed.

  Lemma parse_primary_printed e : forall fuel rest,
    (pfuel e <= fuel)%nat ->
    parse_primary nd ns fuel (str_toks e ++ rest) = (do e' <- rebuild e; Ok (e', rest)).
  Proof.
    induction e as [p|p|v|k l IHl r IHr]; intros fuel rest Hf.
    - destruct fuel as [|f]; [simpl in Hf; lia|]. rewrite parse_primary_S. simpl.
      destruct (p <? nd)%nat; reflexivity.
    - destruct fuel as [|f]; [simpl in Hf; lia|]. rewrite parse_primary_S. simpl.
      destruct (p <? ns)%nat; reflexivity.
    - simpl in Hf. destruct fuel as [|[|f]]; try lia. simpl str_toks.
      destruct (v <? 0) eqn:Hv.
      + rewrite parse_primary_S. cbn [app]. rewrite parse_primary_S. simpl.
        do 3 f_equal. lia.
      + rewrite parse_primary_S. reflexivity.
    - simpl in Hf. pose proof (pfuel_ge2 r). destruct fuel as [|[|[|[|f]]]]; try lia.
      simpl str_toks. cbn [app]. rewrite parse_primary_S.
      rewrite parse_affine_expr_S.
      rewrite <- app_assoc, IHl by lia. simpl rebuild.
      destruct (rebuild l) as [l'|err]; [|reflexivity]. cbn [bind].
      rewrite parse_binop_rhs_S. cbn [hd_error app].
      destruct (kind_tok_prec k) as [Hp0 Hp1]. cbv zeta. rewrite Hp0.
      rewrite <- app_assoc, IHr by lia.
      destruct (rebuild r) as [r'|err]; [|reflexivity]. cbn [bind app hd_error].
      change (tok_prec (Some TRParen)) with (-1). rewrite Hp1. cbn [bind].
      rewrite create_binop_kind.
      destruct (binary k l' r') as [b|err]; [|reflexivity]. cbn [bind].
      rewrite parse_binop_rhs_S. reflexivity.
  Qed.

  Lemma str_toks_length_fuel e : (pfuel e <= 2 * length (str_toks e) + 1)%nat.
  Proof.
    induction e as [p|p|v|k l IHl r IHr]; simpl; try lia.
    - destruct (v <? 0); simpl; lia.
    - rewrite !app_length. simpl. rewrite app_length. simpl. lia.
  Qed.

  (* parsing str(e), followed by any tokens that do not start with a binary operator,
     re-applies the smart constructors and leaves those tokens untouched *)
  Lemma parse_printed e rest :
    tok_prec (hd_error rest) = -1 ->
    parse_expr nd ns (str_toks e ++ rest) = (do e' <- rebuild e; Ok (e', rest)).
  Proof.
    intros Hrest. unfold parse_expr, default_fuel.
    replace (2 * length (str_toks e ++ rest) + 3)%nat
      with (S (S (2 * length (str_toks e ++ rest) + 1)))%nat by lia.
    rewrite parse_affine_expr_S.
    rewrite parse_primary_printed.
    - destruct (rebuild e) as [e'|err]; [|reflexivity]. cbn [bind].
      rewrite parse_binop_rhs_S. cbv zeta. rewrite Hrest. reflexivity.
    - pose proof (str_toks_length_fuel e). rewrite app_length. lia.
  Qed.

  Theorem print_parse e rest e' rest' :
    tok_prec (hd_error rest) = -1 ->
    parse_expr nd ns (str_toks e ++ rest) = Ok (e', rest') ->
    rest' = rest /\ forall d s, eval e' d s = eval e d s.
  Proof.
    intros Hrest H. rewrite (parse_printed e rest Hrest) in H.
    apply bind_ok in H. destruct H as [x [Hx H]]. inversion H; subst.
    split; auto. intros d s. apply rebuild_eval; auto.
  Qed.

  (* non-vacuity: expressions in the space that are pure affine with non-zero constant
     divisors always parse back *)
  Fixpoint parseable (e : expr) : Prop :=
    match e with
    | Dim p => (p < nd)%nat
    | Sym p => (p < ns)%nat
    | Const _ => True
    | Bin Add l r => parseable l /\ parseable r
    | Bin Mul l r => (is_const l = true \/ is_const r = true) /\ parseable l /\ parseable r
    | Bin _ l r => (exists c, r = Const c /\ c <> 0) /\ parseable l
    end.

  Lemma rebuild_const_stays e : is_const e = true -> rebuild e = Ok e.
  Proof. destruct e; simpl; try discriminate; auto. Qed.

  Lemma rebuild_total e : parseable e -> exists e', rebuild e = Ok e'.
  Proof.
    induction e as [p|p|v|k l IHl r IHr]; simpl; intros H.
    - apply Nat.ltb_lt in H. rewrite H. eauto.
    - apply Nat.ltb_lt in H. rewrite H. eauto.
    - eauto.
    - destruct k.
      3-5: destruct H as [[c [-> Hc]] Hl]; destruct (IHl Hl) as [l' ->]; exact (divlike_pos_total _ l' c Hc).
      + destruct H as [Hl Hr]. destruct (IHl Hl) as [l' ->]. destruct (IHr Hr) as [r' ->]. simpl. eauto.
      + destruct H as [Hc [Hl Hr]]. destruct (IHl Hl) as [l' El]. destruct (IHr Hr) as [r' Er].
        rewrite El, Er. cbn [bind binary]. apply mul_raises_iff.
        destruct Hc as [Hc|Hc]; [left|right].
        * rewrite (rebuild_const_stays _ Hc) in El. apply Ok_inj in El. subst l'. exact Hc.
        * rewrite (rebuild_const_stays _ Hc) in Er. apply Ok_inj in Er. subst r'. exact Hc.
  Qed.

  Theorem print_parse_total e rest :
    parseable e -> tok_prec (hd_error rest) = -1 ->
    exists e', parse_expr nd ns (str_toks e ++ rest) = Ok (e', rest) /\
               forall d s, eval e' d s = eval e d s.
  Proof.
    intros Hp Hrest. destruct (rebuild_total e Hp) as [e' He].
    exists e'. rewrite (parse_printed e rest Hrest), He. split; [reflexivity|].
    intros d s. apply rebuild_eval; auto.
  Qed.
End PP.
