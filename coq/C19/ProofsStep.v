(* C19/ProofsStep.v -- one step of the backward walk: `allocate_sop` takes the invariant at the
   point after an operation to the invariant at the point before it. *)
From Coq Require Import ZArith List Bool Arith Lia.
From XV Require Import C19.Model C19.ProofsSpec C19.ProofsStack C19.ProofsAlloc C19.ProofsOp.
Import ListNotations.
Local Open Scope Z_scope.

Definition ment (s : list sop) (v : value) : Prop := used_in s v \/ defined_in s v.
Definition Eo (o : sop) (x y : value) : Prop := In (x, y) (s_io o) \/ In (y, x) (s_io o).
Definition Enone (x y : value) : Prop := False.

Lemma ex_in_cons : forall (f : sop -> list value) o s v,
  (exists o', In o' (o :: s) /\ In v (f o')) <-> In v (f o) \/ exists o', In o' s /\ In v (f o').
Proof.
  intros f o s v. split.
  - intros [o' [[H|H] Hv]]; [subst; left; exact Hv | right; exists o'; split; assumption].
  - intros [H|[o' [H Hv]]]; [exists o; split; [left; reflexivity | exact H] | exists o'; split; [right; exact H | exact Hv]].
Qed.

Lemma used_in_cons : forall o s v, used_in (o :: s) v <-> In v (uses o) \/ used_in s v.
Proof. exact (ex_in_cons uses). Qed.
Lemma defined_in_cons : forall o s v, defined_in (o :: s) v <-> In v (defs o) \/ defined_in s v.
Proof. exact (ex_in_cons defs). Qed.

Lemma ex_in_app : forall (f : sop -> list value) s1 s2 v,
  (exists o, In o (s1 ++ s2) /\ In v (f o)) <-> (exists o, In o s1 /\ In v (f o)) \/ exists o, In o s2 /\ In v (f o).
Proof.
  intros f s1 s2 v. split.
  - intros [o [Ho Hv]]. apply in_app_or in Ho. destruct Ho as [Ho|Ho]; [left | right]; exists o; split; assumption.
  - intros [[o [Ho Hv]]|[o [Ho Hv]]]; exists o; (split; [apply in_or_app; auto | exact Hv]).
Qed.
Lemma used_in_app : forall s1 s2 v, used_in (s1 ++ s2) v <-> used_in s1 v \/ used_in s2 v.
Proof. exact (ex_in_app uses). Qed.
Lemma defined_in_app : forall s1 s2 v, defined_in (s1 ++ s2) v <-> defined_in s1 v \/ defined_in s2 v.
Proof. exact (ex_in_app defs). Qed.

Lemma classic_ment : forall s v, ment s v \/ ~ ment s v.
Proof.
  intros s v. unfold ment.
  destruct (in_dec Nat.eq_dec v (flat_map uses s)) as [H|H]; [left; left; apply in_flat_map; exact H|].
  destruct (in_dec Nat.eq_dec v (flat_map defs s)) as [H1|H1]; [left; right; apply in_flat_map; exact H1|].
  right. intros [Hc|Hc]; apply in_flat_map in Hc; contradiction.
Qed.

(* a value that is mentioned in s and not defined there is live before s *)
Lemma live_or_untouched : forall s v, ~ defined_in s v -> live s v \/ ~ ment s v.
Proof.
  intros s v Hnd. destruct (classic_ment s v) as [[Hu|Hd]|Hm];
    [left; split; assumption | contradiction | right; exact Hm].
Qed.

(* what the step needs to know about the operation `o` followed by the suffix `s` *)
Record op_facts (c : cfg) (FR : value -> Z -> Prop) (o : sop) (s : list sop) : Prop := {
  of_nodup_defs : NoDup (defs o);
  of_nodup_fst : NoDup (map fst (s_io o));
  of_use : forall v, In v (uses o) -> ~ In v (defs o) /\ ~ defined_in s v;
  of_def : forall d, In d (defs o) -> ~ defined_in s d;
  of_io_dead : forall x, In x (map fst (s_io o)) -> ~ used_in s x;
  of_io_nz : forall x y, In (x, y) (s_io o) -> ~ In y (zconsts c);
  of_tied : forall x y, In (x, y) (s_io o) -> forall r, (FR x r -> FR y r) /\ (FR y r -> FR x r) }.

Section Step.
  Variable c : cfg.
  Variable t0 : value -> option Z.
  Variable FR : value -> Z -> Prop.
  Hypothesis FR_pre : forall v r, t0 v = Some r -> FR v r.
  Notation Inv := (Inv c t0 FR).
  Notation Pset := (Pset t0).

  (* ---- the exemption Eo relates an in/out operand with its own result and nothing else ---- *)

  Lemma io_fst_not_def : forall o s x y, op_facts c FR o s -> In (x, y) (s_io o) -> ~ In x (defs o).
  Proof.
    intros o s x y F Hin. apply (of_use c FR o s F x). apply in_or_app. right. exact (in_map fst _ _ Hin).
  Qed.

  Lemma io_snd_def : forall o x y, In (x, y) (s_io o) -> In y (defs o).
  Proof. intros o x y Hin. apply in_or_app. right. exact (in_map snd _ _ Hin). Qed.

  Lemma Eo_tie_ok : forall o s x y, op_facts c FR o s -> In (x, y) (s_io o) -> tie_ok c FR (Eo o) x y.
  Proof.
    intros o s x y F Hin. pose proof (io_snd_def o x y Hin) as Hy.
    split; [intros ->; exact (io_fst_not_def o s y y F Hin Hy)|].
    split; [left; exact Hin|]. split; [right; exact Hin|]. split; [|split; [|split]].
    - intros w [H|H]; [|destruct (io_fst_not_def o s x y F Hin (io_snd_def o w x H))].
      pose proof (nodup_map_inj fst _ _ _ (of_nodup_fst c FR o s F) H Hin eq_refl) as Heq. congruence.
    - intros w [H|H]; [destruct (io_fst_not_def o s y w F H Hy)|].
      pose proof (nodup_map_inj snd _ _ _ (NoDup_app_r _ _ (of_nodup_defs c FR o s F)) H Hin eq_refl) as Heq.
      congruence.
    - exact (of_io_nz c FR o s F x y Hin).
    - exact (of_tied c FR o s F x y Hin).
  Qed.

  Lemma Eo_out : forall o s d w, op_facts c FR o s -> In d (s_outs o) -> ~ Eo o d w /\ ~ Eo o w d.
  Proof.
    intros o s d w F Hd.
    assert (H1 : ~ In (d, w) (s_io o)).
    { intro H. apply (io_fst_not_def o s d w F H). apply in_or_app. left. exact Hd. }
    assert (H2 : ~ In (w, d) (s_io o)).
    { intro H. exact (NoDup_app_disjoint _ _ (of_nodup_defs c FR o s F) d Hd (in_map snd _ _ H)). }
    unfold Eo. tauto.
  Qed.

  (* ---- in/out pairs and outs: afterwards every definition of o is protected, and has a register ---- *)
  Lemma sop_defs_phase : forall o s (L M : value -> Prop) a a1 a2,
    op_facts c FR o s ->
    Inv L (Eo o) M a ->
    (forall d, In d (defs o) -> L d \/ ~ M d) ->
    (forall x, In x (map fst (s_io o)) -> ~ M x) ->
    fold_res (fun p a => allocate_values_same_reg [fst p; snd p] a) (s_io o) a = Ok a1 ->
    fold_res (allocate_value c) (s_outs o) a1 = Ok a2 ->
    Inv (setof (setof L (pairvals (s_io o))) (s_outs o)) (Eo o)
        (setof (setof M (pairvals (s_io o))) (s_outs o)) a2
    /\ mono a a2
    /\ (forall x y, In (x, y) (s_io o) -> exists r, ty a2 x = Some r /\ ty a2 y = Some r)
    /\ (forall d, In d (defs o) -> exists r, ty a2 d = Some r).
  Proof.
    intros o s L M a a1 a2 F HI0 Hdef Hfst E1 E2.
    destruct (io_phase c t0 FR FR_pre (Eo o) (s_io o) L M a a1 HI0) as [HI1 [Hm1 [Hio1 _]]];
      [| exact (of_nodup_fst c FR o s F) | exact (NoDup_app_r _ _ (of_nodup_defs c FR o s F)) | | exact E1 |].
    { intros x y Hin. split; [exact (Eo_tie_ok o s x y F Hin)|].
      split; [exact (Hfst x (in_map fst _ _ Hin)) | exact (Hdef y (io_snd_def o x y Hin))]. }
    { intros x y Hx Hy ->. apply (proj1 (of_use c FR o s F y (in_or_app _ _ y (or_intror Hx)))).
      exact (in_or_app _ _ y (or_intror Hy)). }
    destruct (alloc_list c t0 FR FR_pre (Eo o) (s_outs o) _ _ a1 a2 HI1) as [HI2 [Hm2 [Hout2 _]]]; [|exact E2|].
    { intros d Hd. apply setof_pre. apply Hdef. apply in_or_app. left. exact Hd. }
    split; [exact HI2|]. split; [intros w q H; exact (Hm2 w q (Hm1 w q H))|]. split.
    - intros x y Hin. destruct (Hio1 x y Hin) as [r [Hx Hy]]. exists r. split; apply Hm2; assumption.
    - intros d Hd. apply in_app_or in Hd. destruct Hd as [Hd|Hd]; [exact (Hout2 d Hd)|].
      destruct (in_map_snd (s_io o) d Hd) as [x Hin]. destruct (Hio1 x d Hin) as [r [_ Hr]].
      exists r. exact (Hm2 d r Hr).
  Qed.

  Lemma sop_uses_phase : forall o s (L M : value -> Prop) a2 a',
    op_facts c FR o s ->
    Inv L (Eo o) M a2 ->
    (forall d, In d (s_outs o) -> L d /\ exists r, ty a2 d = Some r) ->
    (forall v, In v (s_ins o) -> L v \/ ~ M v) ->
    fold_res (allocate_value c) (s_ins o) (fold_left (fun a v => free_value v a) (rev (s_outs o)) a2) = Ok a' ->
    Inv (setof (fun v => L v /\ ~ In v (s_outs o)) (s_ins o)) (Eo o) (setof M (s_ins o)) a'
    /\ mono a2 a'
    /\ (forall v, In v (s_ins o) -> exists r, ty a' v = Some r).
  Proof.
    intros o s L M a2 a' F HI2 Houts Hins Hal.
    destruct (free_phase c t0 FR (Eo o) M (rev (s_outs o)) L a2 HI2) as [HI3 Hty3].
    { intros d Hd. apply in_rev in Hd. destruct (Houts d Hd) as [HL Hr].
      split; [exact HL|]. split; [exact Hr|]. intros w. exact (Eo_out o s d w F Hd). }
    { apply NoDup_rev. exact (NoDup_app_l _ _ (of_nodup_defs c FR o s F)). }
    destruct (alloc_list c t0 FR FR_pre (Eo o) (s_ins o) _ M _ a' HI3) as [HI4 [Hm4 [Hin4 _]]]; [|exact Hal|].
    { intros v Hv. destruct (Hins v Hv) as [H|H]; [left | right; exact H]. split; [exact H|].
      intros Hc. apply in_rev in Hc.
      apply (proj1 (of_use c FR o s F v (in_or_app _ _ v (or_introl Hv)))). apply in_or_app. left. exact Hc. }
    split; [|split; [intros w q Hq; apply Hm4; rewrite Hty3; exact Hq | exact Hin4]].
    apply (Inv_weaken c t0 FR _ _ (Eo o) _ _ a' HI4); [|tauto].
    intros v [[Hv Hn]|Hv]; [left; split; [exact Hv | rewrite <- in_rev; exact Hn] | right; exact Hv].
  Qed.

  Theorem op_step : forall o s a a',
    op_facts c FR o s ->
    Inv (live s) Enone (ment s) a ->
    (forall v, live s v -> exists r, ty a v = Some r) ->
    allocate_sop c o a = Ok a' ->
    Inv (live (o :: s)) Enone (ment (o :: s)) a'
    /\ (forall v, live (o :: s) v -> exists r, ty a' v = Some r)
    /\ mono a a'
    /\ (forall d, In d (defs o) -> exists r, ty a' d = Some r)
    /\ (forall d v r, In d (defs o) -> live s v -> d <> v -> ty a' d = Some r -> ty a' v = Some r ->
          Pset r \/ (zero_rule c = true /\ r = 0))
    /\ (forall x y, In (x, y) (s_io o) -> ty a' x = ty a' y)
    /\ (forall d r, In d (defs o) -> ty a' d = Some r -> Pset r -> FR d r).
  Proof.
    intros o s a a' F HI0 Hall0 Hal.
    unfold allocate_sop in Hal.
    destruct (fold_res _ (s_io o) a) as [a1|e] eqn:E1; simpl in Hal; [|discriminate].
    destruct (fold_res (allocate_value c) (s_outs o) a1) as [a2|e] eqn:E2; simpl in Hal; [|discriminate].
    pose proof (live_or_untouched s) as Hlive.
    destruct (sop_defs_phase o s (live s) (ment s) a a1 a2 F) as [HI2 [Hm2 [Hio2 Hdefs2]]];
      [| | | exact E1 | exact E2 |].
    { apply (Inv_E_weaken c t0 FR _ Enone); [exact HI0 | intros x y []]. }
    { intros d Hd. exact (Hlive d (of_def c FR o s F d Hd)). }
    { intros x Hx [Hu|Hd]; [exact (of_io_dead c FR o s F x Hx Hu)|].
      exact (proj2 (of_use c FR o s F x (in_or_app _ _ x (or_intror Hx))) Hd). }
    set (pv := pairvals (s_io o)) in *.
    set (L2 := setof (setof (live s) pv) (s_outs o)) in *.
    set (M2 := setof (setof (ment s) pv) (s_outs o)) in *.
    assert (HL2_live : forall v, live s v -> L2 v) by (intros v Hv; left; left; exact Hv).
    assert (HL2_defs : forall d, In d (defs o) -> L2 d).
    { intros d Hd. apply in_app_or in Hd. destruct Hd as [Hd|Hd]; [right; exact Hd | left; right].
      destruct (in_map_snd (s_io o) d Hd) as [x Hin]. exact (proj2 (pairvals_in _ _ _ Hin)). }
    destruct (sop_uses_phase o s L2 M2 a2 a' F HI2) as [HI4 [Hm4 Hin4]]; [| |exact Hal|].
    { intros d Hd. assert (Hd' : In d (defs o)) by (apply in_or_app; left; exact Hd).
      split; [exact (HL2_defs d Hd') | exact (Hdefs2 d Hd')]. }
    { intros v Hv. do 2 apply setof_pre.
      exact (Hlive v (proj2 (of_use c FR o s F v (in_or_app _ _ v (or_introl Hv))))). }
    assert (Hm_all : mono a a') by (intros w q Hq; exact (Hm4 w q (Hm2 w q Hq))).
    split; [|split; [|split; [exact Hm_all | split; [|split; [|split]]]]].
    - (* the invariant at the point before o: no pair of values live there is tied by o *)
      apply (Inv_E_restrict c t0 FR _ (Eo o)).
      + apply (Inv_weaken c t0 FR _ _ (Eo o) _ _ a' HI4).
        * intros v [Hu Hnd]. apply used_in_cons in Hu.
          assert (Hno : ~ In v (s_outs o)).
          { intro Hc. apply Hnd. apply defined_in_cons. left. apply in_or_app. left. exact Hc. }
          destruct Hu as [Hu|Hu]; [apply in_app_or in Hu; destruct Hu as [Hu|Hu]|].
          -- right. exact Hu.
          -- left. split; [|exact Hno]. left. right.
             destruct (in_map_fst (s_io o) v Hu) as [y Hin]. exact (proj1 (pairvals_in _ _ _ Hin)).
          -- left. split; [|exact Hno]. apply HL2_live. split; [exact Hu|].
             intro Hc. apply Hnd. apply defined_in_cons. right. exact Hc.
        * intros v [[[[Hu|Hd]|Hv]|Hv]|Hv].
          -- left. apply used_in_cons. right. exact Hu.
          -- right. apply defined_in_cons. right. exact Hd.
          -- destruct (pairvals_inv _ _ Hv) as [H|H];
               [left; apply used_in_cons | right; apply defined_in_cons]; left; apply in_or_app; right; exact H.
          -- right. apply defined_in_cons. left. apply in_or_app. left. exact Hv.
          -- left. apply used_in_cons. left. apply in_or_app. left. exact Hv.
      + intros x y [_ Hx] [_ Hy] [H|H]; [destruct Hy | destruct Hx];
          apply defined_in_cons; left; exact (io_snd_def o _ _ H).
    - intros v [Hu Hnd]. apply used_in_cons in Hu. destruct Hu as [Hu|Hu].
      + apply in_app_or in Hu. destruct Hu as [Hu|Hu]; [exact (Hin4 v Hu)|].
        destruct (in_map_fst (s_io o) v Hu) as [y Hin]. destruct (Hio2 v y Hin) as [r [Hr _]].
        exists r. exact (Hm4 v r Hr).
      + destruct (Hall0 v) as [r Hr]; [|exists r; exact (Hm_all v r Hr)].
        split; [exact Hu|]. intro Hc. apply Hnd. apply defined_in_cons. right. exact Hc.
    - intros d Hd. destruct (Hdefs2 d Hd) as [r Hr]. exists r. exact (Hm4 d r Hr).
    - (* a definition of o never shares with a value live after o: both were protected at a2 *)
      intros d v r Hd Hv Hne Hrd Hrv.
      apply (mono_back a2 a' d r Hm4 (Hdefs2 d Hd)) in Hrd.
      assert (Hv2 : exists q, ty a2 v = Some q) by (destruct (Hall0 v Hv) as [q Hq]; exists q; exact (Hm2 v q Hq)).
      apply (mono_back a2 a' v r Hm4 Hv2) in Hrv.
      destruct HI2 as [_ [_ [HG2 _]]].
      destruct (HG2 d v r (HL2_defs d Hd) (HL2_live v Hv) Hne Hrd Hrv) as [H|[H|[H|H]]];
        [left; exact H | right; exact H | destruct (io_fst_not_def o s d v F H Hd)
        | destruct (of_io_dead c FR o s F v (in_map fst _ _ H) (proj1 Hv))].
    - intros x y Hin. destruct (Hio2 x y Hin) as [r [Hx Hy]]. rewrite (Hm4 x r Hx), (Hm4 y r Hy). reflexivity.
    - intros d r Hd Hr HP. apply (mono_back a2 a' d r Hm4 (Hdefs2 d Hd)) in Hr.
      destruct HI2 as [_ [_ [_ [_ H52]]]]. exact (H52 d r (HL2_defs d Hd) Hr HP).
  Qed.
End Step.
