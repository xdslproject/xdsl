(* C15/ProofsOps.v -- theorems about the GENERATED definitions (coq/Gen/C15_*.v) that hold at
   full strength on the current tree: the helpers of xdsl.utils.comparisons and the operations
   whose interpreter implementation normalises operands and result.  One lemma per operation,
   so that a source change that breaks one operation names it. *)
From Coq Require Import ZArith Bool Lia ZifyBool.
From XV Require Import C15.Py C15.Spec Gen.C15_comparisons Gen.C15_arith C15.ProofsBase.
Local Open Scope Z_scope.

Lemma to_unsigned_range : forall w x, 0 <= w ->
  exists r, to_unsigned x w = Some r /\ 0 <= r < 2 ^ w /\ r = wrap w x.
Proof. intros. rewrite to_unsigned_eval by lia. eexists; split; [reflexivity|]. split; [apply wrap_range; lia | reflexivity]. Qed.

Lemma to_signed_range : forall w x, 1 <= w ->
  exists r, to_signed x w = Some r /\ canon w r /\ wrap w r = wrap w x.
Proof.
  intros. rewrite to_signed_eval by lia. eexists; split; [reflexivity|]. split.
  - apply sgn_wrap_canon; lia.
  - rewrite wrap_sgn, wrap_wrap by lia. reflexivity.
Qed.

Lemma signed_unsigned_inverse : forall w x, 1 <= w ->
  (canon w x -> exists u, to_unsigned x w = Some u /\ to_signed u w = Some x) /\
  (0 <= x < 2 ^ w -> exists s, to_signed x w = Some s /\ to_unsigned s w = Some x).
Proof.
  intros w x Hw. split; intros Hx.
  - rewrite to_unsigned_eval by lia. eexists; split; [reflexivity|].
    rewrite to_signed_eval, wrap_wrap by lia. f_equal. apply canon_sgn_wrap; assumption.
  - rewrite to_signed_eval by lia. eexists; split; [reflexivity|].
    rewrite to_unsigned_eval by lia. f_equal. rewrite wrap_sgn, wrap_wrap by lia. apply wrap_small; lia.
Qed.

(* both normalisations are the identity on every representative already in their range *)
Lemma normalisation_idempotent : forall w x, 1 <= w ->
  (canon w x -> to_signed x w = Some x) /\ (0 <= x < 2 ^ w -> to_unsigned x w = Some x).
Proof.
  intros w x Hw; split; intros Hx.
  - rewrite to_signed_eval by lia. f_equal. apply canon_sgn_wrap; assumption.
  - rewrite to_unsigned_eval by lia. f_equal. apply wrap_small; lia.
Qed.

Lemma value_ranges : forall w, 1 <= w ->
  unsigned_upper_bound w = Some (2 ^ w) /\
  signed_lower_bound w = Some (- 2 ^ (w - 1)) /\
  signed_upper_bound w = Some (2 ^ (w - 1)) /\
  unsigned_value_range w = Some (0, 2 ^ w) /\
  signed_value_range w = Some (- 2 ^ (w - 1), 2 ^ (w - 1)) /\
  signless_value_range w = Some (- 2 ^ (w - 1), 2 ^ w).
Proof.
  intros w Hw. unfold unsigned_value_range, signed_value_range, signless_value_range.
  rewrite unsigned_upper_bound_eval, signed_lower_bound_eval, signed_upper_bound_eval by lia.
  repeat split; reflexivity.
Qed.

(* a negative width makes every helper raise (ValueError: negative shift count) *)
Lemma negative_width_raises : forall w x, w < 0 -> to_unsigned x w = None /\ to_signed x w = None.
Proof.
  intros w x Hw. unfold to_unsigned, to_signed, unsigned_upper_bound, py_lshift.
  destruct (w <? 0) eqn:E; [split; reflexivity | lia].
Qed.

(* Operands and result are normalised by to_signed, so what matters of `op` is that it is a
   congruence modulo 2^w whose action on bit patterns is `spec`.  The body below is what run_addi ...
   run_xori unfold to (their `let`s reduce), so each of the six is closed by conversion: that
   conversion is the tie to the generated code. *)
Lemma signed_binop_ok (op : Z -> Z -> Z) (spec : Z -> Z -> Z -> Z) :
  (forall w x y, 0 <= w -> wrap w (op x y) = spec w (wrap w x) (wrap w y)) ->
  binop_ok anyrep canon
    (fun w a b => bind (to_signed a w) (fun lhs => bind (to_signed b w) (fun rhs => to_signed (op lhs rhs) w)))
    spec always.
Proof.
  intros Hop w a b Hw _ _ _. rewrite !to_signed_eval by assumption. cbn [bind]. rewrite to_signed_eval by assumption.
  eexists; split; [reflexivity|]. split; [apply sgn_wrap_canon; assumption|].
  rewrite wrap_sgn, wrap_wrap, Hop, !wrap_sgn, !wrap_wrap by lia. reflexivity.
Qed.

Lemma addi_ok : binop_ok anyrep canon run_addi spec_addi always.
Proof. exact (signed_binop_ok Z.add spec_addi wrap_add). Qed.

Lemma subi_ok : binop_ok anyrep canon run_subi spec_subi always.
Proof. exact (signed_binop_ok Z.sub spec_subi wrap_sub). Qed.

Lemma muli_ok : binop_ok anyrep canon run_muli spec_muli always.
Proof. exact (signed_binop_ok Z.mul spec_muli wrap_mul). Qed.

Lemma andi_ok : binop_ok anyrep canon run_andi spec_andi always.
Proof. exact (signed_binop_ok Z.land spec_andi wrap_land). Qed.

Lemma ori_ok : binop_ok anyrep canon run_ori spec_ori always.
Proof. exact (signed_binop_ok Z.lor spec_ori wrap_lor). Qed.

Lemma xori_ok : binop_ok anyrep canon run_xori spec_xori always.
Proof. exact (signed_binop_ok Z.lxor spec_xori wrap_lxor). Qed.

(* narrowing truncates, widening sign-extends, equal widths pass the value through; the
   result is canonical whenever the widths differ (any representative accepted), so the
   statement holds for every class P of representatives that contains the canonical ones *)
Lemma index_cast_ok (P : Z -> Z -> Prop) :
  (forall w x, 1 <= w -> canon w x -> P w x) -> cast_ok P P run_index_cast spec_index_cast.
Proof.
  intros HP w_in w_out a Hi Ho Ha. unfold run_index_cast, spec_index_cast. cbv zeta.
  destruct (w_out <? w_in) eqn:E1; [|destruct (w_in <? w_out) eqn:E2].
  - py_eval. eexists; split; [reflexivity|]. split; [apply HP, sgn_wrap_canon; assumption|].
    rewrite wrap_sgn, wrap_wrap by lia. symmetry; apply wrap_trunc; lia.
  - py_eval. eexists; split; [reflexivity|]. split; [|reflexivity].
    apply HP; [assumption|]. apply (canon_widen w_in w_out); [lia|]. apply sgn_wrap_canon; assumption.
  - assert (w_in = w_out) as -> by lia. eexists; split; [reflexivity|]. split; [assumption | reflexivity].
Qed.

Lemma index_cast_ok_signless : cast_ok signless signless run_index_cast spec_index_cast.
Proof. exact (index_cast_ok signless canon_signless). Qed.

Lemma index_cast_ok_canon : cast_ok canon canon run_index_cast spec_index_cast.
Proof. exact (index_cast_ok canon (fun w x _ H => H)). Qed.

Lemma shr_canon w a b : 1 <= w -> canon w a -> 0 <= b -> canon w (a / 2 ^ b).
Proof.
  intros Hw Ha Hb. pose proof (pow2_pos b Hb) as Hd. unfold canon in *.
  pose proof (Z.div_mod a (2 ^ b) ltac:(lia)). pose proof (Z.mod_pos_bound a (2 ^ b) Hd). nia.
Qed.

(* the sign-and-magnitude computation of run_divsi / run_remsi is truncated division *)
Lemma signed_div_quot a b : b <> 0 ->
  (if negb (Bool.eqb (0 <? a) (0 <? b)) then - (Z.abs a / Z.abs b) else Z.abs a / Z.abs b) = Z.quot a b.
Proof.
  intros Hb. rewrite (Z.quot_div a b Hb).
  destruct a, b; try contradiction; cbn [Z.ltb Z.compare Bool.eqb negb Z.sgn Z.abs]; rewrite ?Zdiv_0_l; lia.
Qed.

(* a quotient q of a by b under any rounding convention (|remainder| < |b|) has |q| <= |a|, with
   equality only for b = +-1: the one way out of the range is MIN / -1 *)
Lemma euclid_canon w a b q r : canon w a -> canon w b -> a = b * q + r -> Z.abs r < Z.abs b ->
  ~ (a = - 2 ^ (w - 1) /\ b = -1) -> canon w q.
Proof.
  unfold canon. intros Ha Hb E Hr Hov. destruct (Z.eq_dec (Z.abs b) 1) as [Hb1|Hb1].
  - assert (r = 0) by lia. subst r. assert (b = 1 \/ b = -1) as [->| ->] by lia; lia.
  - assert (2 <= Z.abs b) by lia. nia.
Qed.

Lemma quot_canon w a b : 1 <= w -> canon w a -> canon w b -> b <> 0 ->
  ~ (a = - 2 ^ (w - 1) /\ b = -1) -> canon w (Z.quot a b).
Proof. intros _ Ha Hb Hb0. exact (euclid_canon w a b _ _ Ha Hb (Z.quot_rem' a b) (Z.rem_bound_abs a b Hb0)). Qed.

Lemma sdiv_defined_canon w a b : 1 <= w -> canon w a -> canon w b ->
  sdiv_defined w (wrap w a) (wrap w b) -> b <> 0 /\ ~ (a = - 2 ^ (w - 1) /\ b = -1).
Proof. intros Hw Ha Hb [H1 H2]. rewrite !canon_sgn_wrap in * by assumption. split; assumption. Qed.

Lemma rem_canon w x y : 1 <= w -> canon w x -> canon w y -> y <> 0 -> canon w (Z.rem x y).
Proof. intros Hw Hx Hy Hy0. pose proof (Z.rem_bound_abs x y Hy0). unfold canon in *. lia. Qed.

Lemma floordiv_canon w a b : 1 <= w -> canon w a -> canon w b -> b <> 0 ->
  ~ (a = - 2 ^ (w - 1) /\ b = -1) -> canon w (a / b).
Proof. intros _ Ha Hb Hb0. exact (euclid_canon w a b _ _ Ha Hb (Z.div_mod a b Hb0) (Z.mod_bound_abs a b Hb0)). Qed.

(* divsi, remsi and floordivsi normalise both operands, raise on a zero divisor and otherwise return
   some f of the normalised operands that stays in range away from MIN / -1 *)
Lemma sdiv_binop_ok (run : Z -> Z -> Z -> option Z) (f : Z -> Z -> Z) :
  (forall w a b x y, to_signed a w = Some x -> to_signed b w = Some y -> y <> 0 -> run w a b = Some (f x y)) ->
  (forall w x y, 1 <= w -> canon w x -> canon w y -> y <> 0 -> ~ (x = - 2 ^ (w - 1) /\ y = -1) -> canon w (f x y)) ->
  binop_ok signless canon run (fun w ua ub => wrap w (f (sgn w ua) (sgn w ub))) sdiv_defined.
Proof.
  intros Hrun Hcanon w a b Hw _ _ [Hb0 Hov]. eexists. split; [|split; [|reflexivity]].
  - apply Hrun; [apply to_signed_eval; assumption.. | exact Hb0].
  - apply Hcanon; auto using sgn_wrap_canon.
Qed.

(* division by zero raises instead of returning a value (MLIR: undefined behaviour) *)
Lemma division_by_zero_raises : forall w a, 1 <= w ->
  run_divsi w a 0 = None /\ run_remsi w a 0 = None /\ run_floordivsi w a 0 = None.
Proof.
  intros w a Hw. unfold run_divsi, run_remsi, run_floordivsi. cbv zeta.
  rewrite !to_signed_eval by assumption. cbn [bind]. rewrite sgn_wrap_0 by assumption. repeat split; reflexivity.
Qed.

Lemma canon_eqb w a b : 1 <= w -> canon w a -> canon w b -> (wrap w a =? wrap w b) = (a =? b).
Proof.
  intros Hw Ha Hb. destruct (Z.eqb_spec a b) as [->|Hne]; [apply Z.eqb_refl|].
  apply Z.eqb_neq. intros E. apply Hne.
  rewrite <- (canon_sgn_wrap w a), <- (canon_sgn_wrap w b) by assumption. rewrite E. reflexivity.
Qed.

(* a Python bool is a representative of its own i1 pattern *)
Lemma cmpi_i1 c : exists r t, Some (Z.b2z c) = Some r /\ Some c = Some t /\ signless 1 r /\ wrap 1 r = Z.b2z t.
Proof. exists (Z.b2z c), c. destruct c; vm_compute; intuition discriminate. Qed.

Lemma cmpi_unknown_predicate_raises : forall p w a b, (p < 0 \/ 9 < p) -> run_cmpi p w a b = None.
Proof.
  intros p w a b Hp. unfold run_cmpi.
  repeat match goal with |- bind ?o _ = None => destruct o; cbn [bind]; [|reflexivity] end.
  destruct p as [|p|p]; [lia| |reflexivity].
  do 4 (destruct p as [p|p|]; try reflexivity; try lia).
Qed.

(* The operations that commits 4351108 6674019 2cae97b e4f2eb2 of /repo repaired: every representative
   of the signless range in, canonical result out.  One BEGIN/END block per operation. *)
(* ================================================================== BEGIN shli (fixed by C15-1) *)
Lemma shli_ok : binop_ok signless canon run_shli spec_shli shift_defined.
Proof.
  intros w a b Hw _ Hb Hd. unfold shift_defined in Hd.
  destruct (small_pattern_nonneg w b Hw Hb Hd) as [Hb0 Hbw].
  unfold run_shli. cbv zeta. destruct (0 <=? b) eqn:E; [|lia]. py_eval.
  eexists; split; [reflexivity|]. split; [apply sgn_wrap_canon; lia|].
  rewrite wrap_sgn, wrap_wrap by lia. unfold spec_shli. rewrite Hbw.
  rewrite (wrap_mul w a (2 ^ b)), (wrap_mul w (wrap w a) (2 ^ b)), wrap_wrap by lia. reflexivity.
Qed.
(* ================================================================== END shli *)

(* ================================================================== BEGIN shrsi (fixed by C15-2) *)
Lemma shrsi_ok : binop_ok signless canon run_shrsi spec_shrsi shift_defined.
Proof.
  intros w a b Hw _ Hb Hd. unfold shift_defined in Hd.
  destruct (small_pattern_nonneg w b Hw Hb Hd) as [Hb0 Hbw].
  unfold run_shrsi. cbv zeta. destruct (0 <=? b) eqn:E; [|lia]. py_eval.
  eexists; split; [reflexivity|]. unfold spec_shrsi. rewrite Hbw.
  split; [|reflexivity]. apply shr_canon; [lia | apply sgn_wrap_canon; lia | lia].
Qed.
(* ================================================================== END shrsi *)

(* ================================================================== BEGIN divsi (fixed by C15-3) *)
Lemma divsi_ok : binop_ok signless canon run_divsi spec_divsi sdiv_defined.
Proof.
  apply (sdiv_binop_ok run_divsi Z.quot); [|exact quot_canon].
  intros w a b x y Hx Hy Hy0. unfold run_divsi. cbv zeta. rewrite Hx, Hy. cbn [bind].
  destruct (y =? 0) eqn:E; [lia|]. rewrite py_floordiv_eval by lia. cbn [negb bind].
  rewrite <- (signed_div_quot x y Hy0). destruct (negb _); reflexivity.
Qed.
(* ================================================================== END divsi *)

(* ================================================================== BEGIN remsi (fixed by C15-3) *)
Lemma remsi_ok : binop_ok signless canon run_remsi spec_remsi sdiv_defined.
Proof.
  apply (sdiv_binop_ok run_remsi Z.rem); [|exact (fun w x y Hw Hx Hy Hy0 _ => rem_canon w x y Hw Hx Hy Hy0)].
  intros w a b x y Hx Hy Hy0. unfold run_remsi. cbv zeta. rewrite Hx, Hy. cbn [bind].
  destruct (y =? 0) eqn:E; [lia|]. rewrite py_floordiv_eval by lia. cbn [negb bind].
  pose proof (signed_div_quot x y Hy0) as Hq. pose proof (Z.quot_rem' x y).
  destruct (negb _); f_equal; rewrite Hq; lia.
Qed.
(* ================================================================== END remsi *)

(* ================================================================== BEGIN floordivsi (fixed by C15-3) *)
Lemma floordivsi_ok : binop_ok signless canon run_floordivsi spec_floordivsi sdiv_defined.
Proof.
  apply (sdiv_binop_ok run_floordivsi Z.div); [|exact floordiv_canon].
  intros w a b x y Hx Hy Hy0. unfold run_floordivsi. cbv zeta. rewrite Hx, Hy. cbn [bind].
  destruct (y =? 0) eqn:E; [lia|]. apply py_floordiv_eval; assumption.
Qed.
(* ================================================================== END floordivsi *)

(* ================================================================== BEGIN cmpi-signless (fixed by C15-4) *)
Lemma sgn_wrap_eqb w x y : 1 <= w -> (sgn w (wrap w x) =? sgn w (wrap w y)) = (wrap w x =? wrap w y).
Proof.
  intros Hw. destruct (Z.eqb_spec (wrap w x) (wrap w y)) as [->|Hne]; [apply Z.eqb_refl|].
  apply Z.eqb_neq; intros E; apply Hne. apply (f_equal (wrap w)) in E.
  rewrite !wrap_sgn, !wrap_wrap in E by lia. exact E.
Qed.

(* evaluate the normalisations, pick the arm of the predicate; what run_cmpi and spec_cmpi compare then
   differs at most by sgn under an equality test *)
Ltac cmpi_full :=
  intros w a b Hw _ _; unfold run_cmpi, spec_cmpi;
  rewrite ?to_signed_eval, ?to_unsigned_eval by lia; cbn [bind];
  rewrite ?sgn_wrap_eqb by assumption; apply cmpi_i1.

Lemma cmpi_eq_ok : cmpi_ok signless signless run_cmpi 0.  Proof. cmpi_full. Qed.
Lemma cmpi_ne_ok : cmpi_ok signless signless run_cmpi 1.  Proof. cmpi_full. Qed.
Lemma cmpi_slt_ok : cmpi_ok signless signless run_cmpi 2. Proof. cmpi_full. Qed.
Lemma cmpi_sle_ok : cmpi_ok signless signless run_cmpi 3. Proof. cmpi_full. Qed.
Lemma cmpi_sgt_ok : cmpi_ok signless signless run_cmpi 4. Proof. cmpi_full. Qed.
Lemma cmpi_sge_ok : cmpi_ok signless signless run_cmpi 5. Proof. cmpi_full. Qed.
(* Theorem C15_cmpi_eq_ne_signed (Props/C15.v) is the conjunction of the six. *)
(* ================================================================== END cmpi-signless *)
