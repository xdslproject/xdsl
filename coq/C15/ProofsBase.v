(* C15/ProofsBase.v -- arithmetic of wrap/sgn (Spec.v) and evaluation lemmas for the
   GENERATED helper functions of xdsl.utils.comparisons and xdsl.interpreters.arith
   (coq/Gen/C15_comparisons.v, coq/Gen/C15_arith.v).  The per-operation proofs of ProofsOps.v
   evaluate the helpers through the lemmas `*_eval` (value_ranges and negative_width_raises, which
   are about the helpers themselves, unfold them directly). *)
From Coq Require Import ZArith Bool Lia ZifyBool.
From XV Require Import C15.Py C15.Spec Gen.C15_comparisons Gen.C15_arith.
Local Open Scope Z_scope.

Lemma pow2_pos w : 0 <= w -> 0 < 2 ^ w.
Proof. intros; apply Z.pow_pos_nonneg; lia. Qed.

Lemma pow2_half w : 1 <= w -> 2 ^ w = 2 * 2 ^ (w - 1).
Proof. intros. replace w with (Z.succ (w - 1)) at 1 by lia. rewrite Z.pow_succ_r; lia. Qed.

Lemma pow2_ge w : 1 <= w -> w <= 2 ^ (w - 1).
Proof.
  intros H. assert (w - 1 < 2 ^ (w - 1)) by (apply Z.pow_gt_lin_r; lia). lia.
Qed.

Lemma pow2_mono a b : 0 <= a <= b -> 2 ^ a <= 2 ^ b.
Proof. intros; apply Z.pow_le_mono_r; lia. Qed.

Lemma wrap_range w x : 0 <= w -> 0 <= wrap w x < 2 ^ w.
Proof. intros; unfold wrap; apply Z.mod_pos_bound, pow2_pos; lia. Qed.

Lemma wrap_small w x : 0 <= x < 2 ^ w -> wrap w x = x.
Proof. intros; unfold wrap; apply Z.mod_small; lia. Qed.

Lemma wrap_wrap w x : 0 <= w -> wrap w (wrap w x) = wrap w x.
Proof. intros; unfold wrap; apply Z.mod_mod. pose proof (pow2_pos w); lia. Qed.

Lemma wrap_shift w x k : 0 <= w -> wrap w (x + k * 2 ^ w) = wrap w x.
Proof. intros; unfold wrap; apply Z_mod_plus_full. Qed.

Lemma wrap_eq_shift w x y k : 0 <= w -> x = y + k * 2 ^ w -> wrap w x = wrap w y.
Proof. intros ? ->; apply wrap_shift; lia. Qed.

Lemma wrap_decomp w x : 0 <= w -> exists k, x = wrap w x + k * 2 ^ w.
Proof.
  intros. exists (x / 2 ^ w). unfold wrap.
  pose proof (Z.div_mod x (2 ^ w)). pose proof (pow2_pos w). lia.
Qed.

Lemma sgn_shift w u : exists k, sgn w u = u + k * 2 ^ w.
Proof. unfold sgn; destruct (u <? 2 ^ (w - 1)); [exists 0 | exists (-1)]; lia. Qed.

Lemma wrap_sgn w u : 0 <= w -> wrap w (sgn w u) = wrap w u.
Proof. intros; destruct (sgn_shift w u) as [k ->]; apply wrap_shift; lia. Qed.

Lemma sgn_canon w u : 1 <= w -> 0 <= u < 2 ^ w -> canon w (sgn w u).
Proof. intros Hw Hu. pose proof (pow2_half w Hw). unfold sgn, canon. destruct (u <? 2 ^ (w - 1)) eqn:E; lia. Qed.

Lemma sgn_wrap_canon w x : 1 <= w -> canon w (sgn w (wrap w x)).
Proof. intros; apply sgn_canon; [lia | apply wrap_range; lia]. Qed.

Lemma wrap_neg w x : - 2 ^ w <= x < 0 -> wrap w x = x + 2 ^ w.
Proof. intros; unfold wrap; symmetry; apply (Z.mod_unique x (2 ^ w) (-1)); lia. Qed.

Lemma canon_sgn_wrap w x : 1 <= w -> canon w x -> sgn w (wrap w x) = x.
Proof.
  intros Hw [Hlo Hhi]. pose proof (pow2_half w Hw). pose proof (pow2_pos (w - 1)).
  unfold sgn. destruct (Z_lt_dec x 0); [rewrite wrap_neg by lia | rewrite wrap_small by lia];
    destruct (_ <? _) eqn:F; lia.
Qed.

Lemma sgn_wrap_0 w : 1 <= w -> sgn w (wrap w 0) = 0.
Proof. intros Hw. apply canon_sgn_wrap; [assumption|]. pose proof (pow2_pos (w - 1)). unfold canon; lia. Qed.

Lemma canon_signless w x : 1 <= w -> canon w x -> signless w x.
Proof. intros Hw [? ?]. pose proof (pow2_half w Hw). pose proof (pow2_pos (w - 1)). unfold signless; lia. Qed.

Lemma wrap_add w x y : 0 <= w -> wrap w (x + y) = wrap w (wrap w x + wrap w y).
Proof. intros; unfold wrap; apply Z.add_mod. pose proof (pow2_pos w); lia. Qed.

Lemma wrap_sub w x y : 0 <= w -> wrap w (x - y) = wrap w (wrap w x - wrap w y).
Proof. intros; unfold wrap; apply Zminus_mod. Qed.

Lemma wrap_mul w x y : 0 <= w -> wrap w (x * y) = wrap w (wrap w x * wrap w y).
Proof. intros; unfold wrap; apply Z.mul_mod. pose proof (pow2_pos w); lia. Qed.

Lemma wrap_land_ones w x : 0 <= w -> wrap w x = Z.land x (Z.ones w).
Proof. intros; unfold wrap; symmetry; apply Z.land_ones; lia. Qed.

(* a bitwise operation that maps two clear bits to a clear bit commutes with taking the low w bits *)
Lemma wrap_bitwise (f : bool -> bool -> bool) (op : Z -> Z -> Z) :
  (forall x y n, Z.testbit (op x y) n = f (Z.testbit x n) (Z.testbit y n)) -> f false false = false ->
  forall w x y, 0 <= w -> wrap w (op x y) = op (wrap w x) (wrap w y).
Proof.
  intros Hop Hf w x y Hw. rewrite !wrap_land_ones by assumption. apply Z.bits_inj'; intros n _.
  rewrite Hop, !Z.land_spec, Hop.
  destruct (Z.testbit (Z.ones w) n); [rewrite !andb_true_r | rewrite !andb_false_r, Hf]; reflexivity.
Qed.

Definition wrap_land := wrap_bitwise andb Z.land Z.land_spec eq_refl.
Definition wrap_lor := wrap_bitwise orb Z.lor Z.lor_spec eq_refl.
Definition wrap_lxor := wrap_bitwise xorb Z.lxor Z.lxor_spec eq_refl.

Lemma wrap_trunc w1 w2 x : 0 <= w2 <= w1 -> wrap w2 (wrap w1 x) = wrap w2 x.
Proof.
  intros. destruct (wrap_decomp w1 x) as [k Hk]; [lia|].
  symmetry. apply (wrap_eq_shift w2 x (wrap w1 x) (k * 2 ^ (w1 - w2))); [lia|].
  rewrite <- Z.mul_assoc, <- Z.pow_add_r by lia. replace (w1 - w2 + w2) with w1 by lia. exact Hk.
Qed.

Lemma canon_widen w1 w2 x : 1 <= w1 <= w2 -> canon w1 x -> canon w2 x.
Proof. intros H [? ?]. pose proof (pow2_mono (w1 - 1) (w2 - 1)). unfold canon. lia. Qed.

(* a negative canonical shift amount denotes a pattern >= width *)
Lemma small_pattern_nonneg w b : 1 <= w -> signless w b -> wrap w b < w -> 0 <= b < w /\ wrap w b = b.
Proof.
  intros Hw [Hlo Hhi] Hb. pose proof (pow2_half w Hw). pose proof (pow2_ge w Hw).
  destruct (Z_lt_dec b 0); [rewrite wrap_neg in * by lia | rewrite wrap_small in * by lia]; lia.
Qed.

Lemma land_pow2 t k : 0 <= k -> Z.land t (2 ^ k) = if Z.testbit t k then 2 ^ k else 0.
Proof.
  intros Hk. apply Z.bits_inj'; intros n Hn. rewrite Z.land_spec, Z.pow2_bits_eqb by lia.
  destruct (Z.eqb_spec k n) as [->|Hne].
  - destruct (Z.testbit t n) eqn:E; [rewrite Z.pow2_bits_true by lia | rewrite Z.bits_0]; reflexivity.
  - rewrite andb_false_r. destruct (Z.testbit t k); [rewrite Z.pow2_bits_false by lia | rewrite Z.bits_0]; reflexivity.
Qed.

(* the top bit of the w-bit pattern is bit w-1 of any representative *)
Lemma wrap_split w x : 1 <= w ->
  wrap w x = wrap (w - 1) x + (if Z.testbit x (w - 1) then 2 ^ (w - 1) else 0).
Proof.
  intros Hw. pose proof (pow2_half w Hw). pose proof (wrap_range (w - 1) x ltac:(lia)).
  pose proof (Z.testbit_spec' x (w - 1) ltac:(lia)) as Hb.
  pose proof (Z.div_mod x (2 ^ (w - 1)) ltac:(lia)) as Hx.
  pose proof (Z.div_mod (x / 2 ^ (w - 1)) 2 ltac:(lia)) as Hq. rewrite <- Hb in Hq.
  unfold wrap in *. symmetry.
  destruct (Z.testbit x (w - 1)); cbn [Z.b2z] in Hq; apply (Z.mod_unique x (2 ^ w) (x / 2 ^ (w - 1) / 2)); lia.
Qed.

Lemma sgn_wrap_bits w x : 1 <= w ->
  sgn w (wrap w x) = wrap (w - 1) x - (if Z.testbit x (w - 1) then 2 ^ (w - 1) else 0).
Proof.
  intros Hw. rewrite (wrap_split w x Hw). pose proof (pow2_half w Hw). pose proof (wrap_range (w - 1) x ltac:(lia)).
  unfold sgn. destruct (Z.testbit x (w - 1)); destruct (_ <? _) eqn:E; lia.
Qed.

Lemma bind_some {A B} (a : A) (f : A -> option B) : bind (Some a) f = f a.
Proof. reflexivity. Qed.

Lemma py_lshift_eval a n : 0 <= n -> py_lshift a n = Some (a * 2 ^ n).
Proof. intros; unfold py_lshift. destruct (n <? 0) eqn:E; [lia|]. rewrite Z.shiftl_mul_pow2 by lia. reflexivity. Qed.

Lemma py_rshift_eval a n : 0 <= n -> py_rshift a n = Some (a / 2 ^ n).
Proof. intros; unfold py_rshift. destruct (n <? 0) eqn:E; [lia|]. rewrite Z.shiftr_div_pow2 by lia. reflexivity. Qed.

Lemma py_mod_eval a b : b <> 0 -> py_mod a b = Some (a mod b).
Proof. intros; unfold py_mod. destruct (b =? 0) eqn:E; [lia|reflexivity]. Qed.

Lemma py_floordiv_eval a b : b <> 0 -> py_floordiv a b = Some (a / b).
Proof. intros; unfold py_floordiv. destruct (b =? 0) eqn:E; [lia|reflexivity]. Qed.

Lemma unsigned_upper_bound_eval w : 0 <= w -> unsigned_upper_bound w = Some (2 ^ w).
Proof. intros; unfold unsigned_upper_bound. rewrite py_lshift_eval by lia. f_equal; lia. Qed.

Lemma signed_lower_bound_eval w : 1 <= w -> signed_lower_bound w = Some (- 2 ^ (w - 1)).
Proof.
  intros; unfold signed_lower_bound. rewrite py_lshift_eval, bind_some by lia.
  rewrite Z.shiftr_div_pow2 by lia. rewrite (pow2_half w) by lia. f_equal. f_equal.
  replace (1 * (2 * 2 ^ (w - 1))) with (2 ^ (w - 1) * 2 ^ 1) by lia. apply Z.div_mul. lia.
Qed.

Lemma signed_upper_bound_eval w : 1 <= w -> signed_upper_bound w = Some (2 ^ (w - 1)).
Proof.
  intros; unfold signed_upper_bound. rewrite Z.max_l by lia. rewrite py_lshift_eval by lia. f_equal; lia.
Qed.

Lemma to_unsigned_eval x w : 0 <= w -> to_unsigned x w = Some (wrap w x).
Proof.
  intros; unfold to_unsigned. rewrite unsigned_upper_bound_eval, bind_some by lia.
  pose proof (pow2_pos w). rewrite py_mod_eval by lia. f_equal.
  unfold wrap. rewrite <- (Z_mod_plus_full x 1 (2 ^ w)). f_equal; lia.
Qed.

Lemma to_signed_eval x w : 1 <= w -> to_signed x w = Some (sgn w (wrap w x)).
Proof.
  intros Hw; unfold to_signed. rewrite unsigned_upper_bound_eval, bind_some by lia.
  pose proof (pow2_pos w). pose proof (pow2_half w Hw) as Hh2. pose proof (pow2_pos (w - 1)).
  cbv zeta. rewrite py_mod_eval, bind_some by lia. f_equal.
  rewrite Z.shiftr_div_pow2 by lia.
  assert (Hh : 2 ^ w / 2 ^ 1 = 2 ^ (w - 1)).
  { rewrite Hh2. replace (2 * 2 ^ (w - 1)) with (2 ^ (w - 1) * 2 ^ 1) by lia. apply Z.div_mul; lia. }
  rewrite Hh. pose proof (wrap_range w x).
  destruct (wrap_decomp w x) as [k Hk]; [lia|]. set (u := wrap w x) in *.
  unfold sgn. destruct (u <? 2 ^ (w - 1)) eqn:E.
  - assert ((x + 2 ^ (w - 1)) mod 2 ^ w = u + 2 ^ (w - 1)); [|lia].
    symmetry. apply (Z.mod_unique _ _ k); lia.
  - assert ((x + 2 ^ (w - 1)) mod 2 ^ w = u + 2 ^ (w - 1) - 2 ^ w); [|lia].
    symmetry. apply (Z.mod_unique _ _ (k + 1)); lia.
Qed.

Lemma truncate_eval x w : 1 <= w -> truncate x w = Some (sgn w (wrap w x)).
Proof.
  intros Hw. unfold truncate. rewrite !py_lshift_eval by lia. cbn [bind]. rewrite !Z.mul_1_l.
  replace (2 ^ w - 1) with (Z.ones w) by (rewrite Z.ones_equiv; lia).
  rewrite <- wrap_land_ones, land_pow2 by lia.
  replace (Z.testbit (wrap w x) (w - 1)) with (Z.testbit x (w - 1)) by (unfold wrap; rewrite Z.mod_pow2_bits_low by lia; reflexivity).
  rewrite (sgn_wrap_bits w x Hw), (wrap_split w x Hw). pose proof (pow2_half w Hw). pose proof (pow2_pos (w - 1)).
  destruct (Z.testbit x (w - 1)); [destruct (_ =? 0) eqn:E; [lia|] | rewrite Z.eqb_refl]; cbn [negb]; f_equal; lia.
Qed.

Lemma sign_extend_eval x w : 1 <= w -> sign_extend x w = Some (sgn w (wrap w x)).
Proof.
  intros Hw. unfold sign_extend. rewrite py_lshift_eval by lia. cbn [bind]. rewrite Z.mul_1_l.
  replace (2 ^ (w - 1) - 1) with (Z.ones (w - 1)) by (rewrite Z.ones_equiv; lia).
  rewrite <- wrap_land_ones, land_pow2, sgn_wrap_bits by lia. reflexivity.
Qed.

(* evaluation tactic for the straight-line generated bodies *)
Ltac py_eval :=
  repeat first
    [ rewrite bind_some
    | rewrite to_signed_eval by lia
    | rewrite to_unsigned_eval by lia
    | rewrite truncate_eval by lia
    | rewrite sign_extend_eval by lia
    | rewrite py_lshift_eval by lia
    | rewrite py_rshift_eval by lia
    | rewrite py_floordiv_eval by lia
    | rewrite py_mod_eval by lia
    | progress cbv zeta ].
