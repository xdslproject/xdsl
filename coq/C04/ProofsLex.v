(* C04/ProofsLex.v -- M2: names the IR API accepts vs names the lexer reads as one token.
   The regular expressions are the ones re-translated from the source on every run
   (Gen/C04_current.v); the statements are about CPython's backtracking matcher as modelled in
   C07/Regex.v (bt_fullmatch = Pattern.fullmatch, bt_match = Pattern.match at the current position). *)
From Coq Require Import ZArith List Bool Arith Lia.
From XV Require Import C07.Regex C07.RegexProofs C04.Model C04.ProofsStr.
Import ListNotations.

Section Lex.
Variable U : named -> Z -> bool.
Notation mem := (Regex.mem U).

Definition outc (x : Regex.res) : mres := snd x.

(* outcomes only: the step counts play no part here *)
Lemma outc_chr : forall c s k,
  outc (Regex.bt U (Chr c) s k) =
  match s with x :: s' => if mem c x then outc (k s') else MNone | [] => MNone end.
Proof.
  intros c [|x s'] k; [reflexivity|]. cbn [Regex.bt]. destruct (mem c x); [|reflexivity].
  destruct (k s'); reflexivity.
Qed.
Lemma outc_alt : forall a b s k,
  outc (Regex.bt U (Alt a b) s k) =
  match outc (Regex.bt U a s k) with MNone => outc (Regex.bt U b s k) | o => o end.
Proof.
  intros a b s k. cbn [Regex.bt]. destruct (Regex.bt U a s k) as [da [r| |]]; try reflexivity.
  destruct (Regex.bt U b s k); reflexivity.
Qed.
Lemma outc_loop : forall a k f s,
  outc (star_loop U a k (S f) s) =
  match outc (Regex.bt U a s (cont_of U a k f s)) with MNone => outc (k s) | o => o end.
Proof.
  intros a k f s. destruct (Regex.bt U a s (cont_of U a k f s)) as [d [r| |]] eqn:E; cbn [outc snd].
  - rewrite (loop_succ U a k f s d _ E); [reflexivity|discriminate].
  - rewrite (loop_fail U a k f s d _ _ E (pair_eta _)). reflexivity.
  - rewrite (loop_succ U a k f s d _ E); [reflexivity|discriminate].
Qed.
(* one iteration of a class star that consumes x goes on with the loop *)
Lemma outc_loop_chr : forall c k f x s,
  outc (star_loop U (Chr c) k (S f) (x :: s)) =
  if mem c x then match outc (star_loop U (Chr c) k f s) with MNone => outc (k (x :: s)) | o => o end
  else outc (k (x :: s)).
Proof.
  intros c k f x s. rewrite outc_loop, outc_chr. destruct (mem c x); [|reflexivity].
  unfold cont_of. cbn [length]. rewrite (proj2 (Nat.ltb_lt _ _) (Nat.lt_succ_diag_r _)). reflexivity.
Qed.

Definition sep (c : cset) (rest : list Z) : Prop := rest = [] \/ exists y r', rest = y :: r' /\ mem c y = false.

(* a greedy class star followed by a continuation that succeeds where the class stops *)
Lemma star_greedy : forall c k t rest fuel,
  forallb (mem c) t = true -> sep c rest -> outc (k rest) <> MNone -> length (t ++ rest) < fuel ->
  outc (star_loop U (Chr c) k fuel (t ++ rest)) = outc (k rest).
Proof.
  intros c k. induction t as [|x t IH]; intros rest fuel Ht Hr Hk Hf; (destruct fuel as [|f]; [inversion Hf|]).
  - cbn [app]. rewrite outc_loop, outc_chr.
    destruct Hr as [->|[y [r' [-> Hm]]]]; [|rewrite Hm]; reflexivity.
  - cbn [app forallb] in *. apply andb_true_iff in Ht. destruct Ht as [Hx Ht].
    rewrite outc_loop_chr, Hx. rewrite IH by (assumption || (cbn in Hf; lia)).
    destruct (outc (k rest)); [reflexivity|contradiction|reflexivity].
Qed.

(* a class star that has to reach the end of the text: every character is in the class *)
Lemma star_full : forall c s fuel s',
  outc (star_loop U (Chr c) (at_end) fuel s) = MSome s' -> forallb (mem c) s = true /\ s' = [].
Proof.
  intros c. induction s as [|x s IH]; intros fuel s' H; (destruct fuel as [|f]; [discriminate|]).
  - rewrite outc_loop, outc_chr in H. inversion H. split; reflexivity.
  - rewrite outc_loop_chr in H. cbn [forallb]. destruct (mem c x); [|discriminate].
    destruct (outc (star_loop U (Chr c) at_end f s)) eqn:E; [|discriminate|discriminate].
    inversion H; subst. apply (IH f s' E).
Qed.

(* the shape  c0 c1*  of _VALUE_NAME_PATTERN and of both alternatives of mlir_lexer._suffix_id *)
Lemma outc_chr_star : forall c0 c1 s k,
  outc (Regex.bt U (Cat (Chr c0) (Star (Chr c1))) s k) =
  match s with
  | x :: t => if mem c0 x then outc (star_loop U (Chr c1) k (S (length t)) t) else MNone
  | [] => MNone
  end.
Proof. intros c0 c1 s k. exact (outc_chr c0 s (fun s' => Regex.bt U (Star (Chr c1)) s' k)). Qed.

Lemma fullmatch_class_star : forall c0 c1 s,
  outc (bt_fullmatch U (Cat (Chr c0) (Star (Chr c1))) s) = MSome [] ->
  exists x t, s = x :: t /\ mem c0 x = true /\ forallb (mem c1) t = true.
Proof.
  intros c0 c1 s H. unfold bt_fullmatch in H. rewrite outc_chr_star in H.
  destruct s as [|x t]; [discriminate|]. destruct (mem c0 x) eqn:Hx; [|discriminate].
  exists x, t. split; [reflexivity|]. split; [exact Hx|]. apply (star_full c1 t _ [] H).
Qed.

Lemma match_class_star : forall c0 c1 x t rest,
  mem c0 x = true -> forallb (mem c1) t = true -> sep c1 rest ->
  outc (bt_match U (Cat (Chr c0) (Star (Chr c1))) ((x :: t) ++ rest)) = MSome rest.
Proof.
  intros c0 c1 x t rest Hx Ht Hs. unfold bt_match. cbn [app]. rewrite outc_chr_star, Hx.
  apply (star_greedy c1 accept); [exact Ht|exact Hs|discriminate|apply Nat.lt_succ_diag_r].
Qed.

(* d d'* | e0 e1* : a text that starts in d is a number, one that does not is an identifier *)
Lemma lexer_number : forall d d' e x t rest,
  mem d x = true -> forallb (mem d') t = true -> sep d' rest ->
  outc (bt_match U (Alt (Cat (Chr d) (Star (Chr d'))) e) ((x :: t) ++ rest)) = MSome rest.
Proof.
  intros d d' e x t rest Hd Ht Hs. unfold bt_match. rewrite outc_alt.
  rewrite (match_class_star d d' x t rest Hd Ht Hs : outc (Regex.bt U _ _ accept) = _). reflexivity.
Qed.
Lemma lexer_ident : forall d d' e0 e1 x t rest,
  mem d x = false -> mem e0 x = true -> forallb (mem e1) t = true -> sep e1 rest ->
  outc (bt_match U (Alt (Cat (Chr d) (Star (Chr d'))) (Cat (Chr e0) (Star (Chr e1)))) ((x :: t) ++ rest)) = MSome rest.
Proof.
  intros d d' e0 e1 x t rest Hd He0 He1 Hs. unfold bt_match. rewrite outc_alt.
  cbn [app]. rewrite (outc_chr_star d d'), Hd. apply (match_class_star e0 e1 x t rest He0 He1 Hs).
Qed.

(* the same with one digit class, as mlir_lexer._suffix_id is written:  d d* | e0 e1*  *)
Lemma suffix_id_ident : forall d e0 e1 x t rest,
  mem d x = false -> mem e0 x = true -> forallb (mem e1) t = true -> sep e1 rest ->
  outc (bt_match U (Alt (Cat (Chr d) (Star (Chr d))) (Cat (Chr e0) (Star (Chr e1)))) ((x :: t) ++ rest)) = MSome rest.
Proof. intros d. apply lexer_ident. Qed.
Lemma suffix_id_number : forall d e0 e1 x t rest,
  mem d x = true -> forallb (mem d) t = true -> sep d rest ->
  outc (bt_match U (Alt (Cat (Chr d) (Star (Chr d))) (Cat (Chr e0) (Star (Chr e1)))) ((x :: t) ++ rest)) = MSome rest.
Proof. intros d e0 e1. apply lexer_number. Qed.

Definition plain_ascii (c : cset) : bool :=
  negb (cs_neg c) && match cs_named c with [] => true | _ => false end &&
  forallb (fun r => (0 <=? fst r)%Z && (snd r <=? 127)%Z) (cs_ranges c).
Definition agree_upto (c : cset) (p : Z -> bool) : bool :=
  forallb (fun n => Bool.eqb (existsb (in_range (Z.of_nat n)) (cs_ranges c)) (p (Z.of_nat n))) (seq 0 128).
Definition class_is (c : cset) (p : Z -> bool) : bool := plain_ascii c && agree_upto c p.

(* the same table walked over binary numbers: `agree_upto` converts every index from unary, which is slow
   to evaluate; the checks on the regenerated patterns go through this form *)
Fixpoint zrange (n : nat) (x : Z) : list Z := match n with O => [] | S n' => x :: zrange n' (x + 1)%Z end.
Lemma zrange_seq : forall n k, map Z.of_nat (seq k n) = zrange n (Z.of_nat k).
Proof.
  induction n as [|n IH]; intro k; [reflexivity|]. cbn [seq map zrange]. rewrite IH, Nat2Z.inj_succ. reflexivity.
Qed.
Definition class_fast (c : cset) (p : Z -> bool) : bool :=
  plain_ascii c && forallb (fun x => Bool.eqb (existsb (in_range x) (cs_ranges c)) (p x)) (zrange 128 0).
Lemma class_is_fast : forall c p, class_is c p = class_fast c p.
Proof.
  intros c p.
  assert (E : agree_upto c p = forallb (fun x => Bool.eqb (existsb (in_range x) (cs_ranges c)) (p x)) (zrange 128 0)).
  { unfold agree_upto. change (zrange 128 0) with (zrange 128 (Z.of_nat 0)). rewrite <- zrange_seq. generalize (seq 0 128).
    induction l as [|n l IH]; [reflexivity|]. cbn [map forallb]. rewrite IH. reflexivity. }
  unfold class_is, class_fast. rewrite E. reflexivity.
Qed.

Lemma class_is_sound : forall c p, (forall x, p x = true -> (0 <= x <= 127)%Z) ->
  class_is c p = true -> forall x, mem c x = p x.
Proof.
  intros c p Hp H x. unfold class_is, plain_ascii in H.
  apply andb_true_iff in H. destruct H as [H H2]. apply andb_true_iff in H. destruct H as [H H3].
  apply andb_true_iff in H. destruct H as [H0 H1]. apply negb_true_iff in H0.
  unfold Regex.mem. rewrite H0. destruct (cs_named c); [|discriminate]. cbn [existsb xorb]. rewrite orb_false_r.
  assert (D : (0 <= x <= 127)%Z \/ ~ (0 <= x <= 127)%Z) by lia. destruct D as [D|D].
  - unfold agree_upto in H2. rewrite forallb_forall in H2.
    assert (Hx : In (Z.to_nat x) (seq 0 128)) by (apply in_seq; lia).
    apply H2 in Hx. rewrite Z2Nat.id in Hx by apply D. apply eqb_prop in Hx. rewrite <- Hx.
    destruct (existsb (in_range x) (cs_ranges c)); reflexivity.
  - (* no range reaches x, and p is false there *)
    destruct (p x) eqn:Ep; [apply Hp in Ep; contradiction|].
    destruct (existsb (in_range x) (cs_ranges c)) eqn:E; [exfalso|reflexivity].
    apply existsb_exists in E. destruct E as [r [Hr Hi]]. rewrite forallb_forall in H3. specialize (H3 r Hr).
    unfold in_range in Hi. apply andb_true_iff in H3, Hi. destruct H3 as [A1 A2], Hi as [B1 B2].
    apply Z.leb_le in A1, A2, B1, B2. lia.
Qed.

Lemma id_cont_ascii : forall x, id_cont x = true -> (0 <= x <= 127)%Z.
Proof. intros x H. apply id_cont_range in H. lia. Qed.
Lemma id_start_ascii : forall x, id_start x = true -> (0 <= x <= 127)%Z.
Proof. intros x H. apply id_cont_ascii. apply id_start_cont. exact H. Qed.
Lemma is_digit_ascii : forall x, is_digit x = true -> (0 <= x <= 127)%Z.
Proof. intros x H. apply id_cont_ascii. apply is_digit_cont. exact H. Qed.

Lemma forallb_agree : forall (f g : Z -> bool), (forall x, f x = g x) -> forall l, forallb f l = forallb g l.
Proof. intros f g E. induction l as [|y l IH]; [reflexivity|]. cbn. rewrite E, IH. reflexivity. Qed.

(* the checks evaluated on the regenerated regexes *)
Definition name_check (r : regex) : bool :=
  match r with
  | Cat (Chr c0) (Star (Chr c1)) => class_is c0 id_start && class_is c1 id_cont
  | _ => false
  end.
Definition lexer_check (r : regex) : bool :=
  match r with
  | Alt (Cat (Chr d) (Star (Chr d'))) (Cat (Chr e0) (Star (Chr e1))) =>
      class_is d is_digit && class_is d' is_digit && class_is e0 id_start && class_is e1 id_cont
  | _ => false
  end.

Lemma name_check_fast : forall c0 c1,
  name_check (Cat (Chr c0) (Star (Chr c1))) = class_fast c0 id_start && class_fast c1 id_cont.
Proof. intros. cbn [name_check]. rewrite (class_is_fast c0 id_start), (class_is_fast c1 id_cont). reflexivity. Qed.
Lemma lexer_check_fast : forall d d' e0 e1,
  lexer_check (Alt (Cat (Chr d) (Star (Chr d'))) (Cat (Chr e0) (Star (Chr e1)))) =
  class_fast d is_digit && class_fast d' is_digit && class_fast e0 id_start && class_fast e1 id_cont.
Proof.
  intros. cbn [lexer_check]. rewrite (class_is_fast d is_digit), (class_is_fast d' is_digit), (class_is_fast e0 id_start), (class_is_fast e1 id_cont).
  reflexivity.
Qed.

(* is_valid_name (fullmatch of a checked name pattern) implies the hand model's valid_name *)
Theorem name_pattern_valid : forall r s, name_check r = true ->
  outc (bt_fullmatch U r s) = MSome [] -> valid_name s = true.
Proof.
  intros r s Hc H. destruct r as [| |a b| | |]; try discriminate. destruct a as [|c0| | | |]; try discriminate.
  destruct b as [| | | |b|]; try discriminate. destruct b as [|c1| | | |]; try discriminate.
  cbn in Hc. apply andb_true_iff in Hc. destruct Hc as [H0 H1].
  destruct (fullmatch_class_star c0 c1 s H) as [x [t [E [Hx Ht]]]]. subst s. cbn.
  rewrite <- (class_is_sound c0 id_start id_start_ascii H0 x), Hx.
  rewrite <- (forallb_agree _ _ (class_is_sound c1 id_cont id_cont_ascii H1)). exact Ht.
Qed.

(* a name the hand model calls lexable is consumed as one token by a checked lexer pattern *)
Theorem lexable_lexed : forall r s rest, lexer_check r = true -> lexable s = true ->
  (rest = [] \/ exists y r', rest = y :: r' /\ id_cont y = false) ->
  outc (bt_match U r (s ++ rest)) = MSome rest.
Proof.
  intros r s rest Hc Hl Hs.
  destruct r as [| | |a b| |]; try discriminate.
  destruct a as [| |a1 a2| | |]; try discriminate. destruct a1 as [|d| | | |]; try discriminate.
  destruct a2 as [| | | |a2|]; try discriminate. destruct a2 as [|d'| | | |]; try discriminate.
  destruct b as [| |b1 b2| | |]; try discriminate. destruct b1 as [|e0| | | |]; try discriminate.
  destruct b2 as [| | | |b2|]; try discriminate. destruct b2 as [|e1| | | |]; try discriminate.
  cbn in Hc. apply andb_true_iff in Hc. destruct Hc as [Hc H4]. apply andb_true_iff in Hc. destruct Hc as [Hc H3].
  apply andb_true_iff in Hc. destruct Hc as [H1 H2].
  pose proof (class_is_sound d is_digit is_digit_ascii H1) as Md.
  pose proof (class_is_sound d' is_digit is_digit_ascii H2) as Md'.
  pose proof (class_is_sound e0 id_start id_start_ascii H3) as Me0.
  pose proof (class_is_sound e1 id_cont id_cont_ascii H4) as Me1.
  destruct s as [|x t]; [discriminate|]. cbn [lexable] in Hl.
  destruct (is_digit x) eqn:Dx.
  - (* a digit is not an identifier start: a number, matched by the first alternative *)
    rewrite (is_digit_not_start x Dx), orb_false_r in Hl. cbn in Hl.
    apply lexer_number; [rewrite Md; exact Dx|rewrite (forallb_agree _ _ Md'); exact Hl|].
    destruct Hs as [Hs|[y [r' [Hs Hy]]]]; [now left|right]. exists y, r'. split; [exact Hs|].
    rewrite Md'. destruct (is_digit y) eqn:Dy; [|reflexivity]. rewrite (is_digit_cont y Dy) in Hy. discriminate.
  - cbn in Hl. apply andb_true_iff in Hl. destruct Hl as [Hx Ht].
    apply lexer_ident; [rewrite Md; exact Dx|rewrite Me0; exact Hx|rewrite (forallb_agree _ _ Me1); exact Ht|].
    destruct Hs as [Hs|[y [r' [Hs Hy]]]]; [now left|right]. exists y, r'. rewrite Me1. tauto.
Qed.

End Lex.
