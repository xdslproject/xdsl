(* C06/ProofsWit.v -- corollaries (partial statements, repaired-lexer statements) and the
   refutation witnesses of C06, checked by vm_compute on table-backed oracles holding the
   CPython values of the few points involved (the same witnesses are replayed on the real
   code by harness/props/c06.py through known_findings.d/C06.json). *)
From Coq Require Import ZArith List Bool Lia String Ascii.
From XV Require Import Base.Show C06.Model C06.Enc C06.ProofsText C06.ProofsNum.
Import ListNotations.
Local Open Scope Z_scope.

Lemma ascii_scalar : forall s, is_ascii_list s = true -> forallb (fun c => 0 <=? c) s = true ->
  forallb is_scalar s = true.
Proof.
  induction s as [|c s IH]; cbn; intros Ha Hn; [reflexivity|].
  apply andb_true_iff in Ha as [Hc Ha]. apply andb_true_iff in Hn as [Hc0 Hn].
  rewrite (IH Ha Hn), andb_true_r. apply is_scalar_iff. lia.
Qed.

Lemma string_rt_partial : forall s, forallb is_scalar s = true -> is_ascii_list s = true ->
  string_attr_roundtrip false s = Ok (AString s).
Proof.
  intros s Hs Ha. destruct (string_attr_roundtrip_char false s Hs) as (bs & _ & H).
  rewrite H, Ha. reflexivity.
Qed.

Lemma string_rt_refuted_class : forall s, forallb is_scalar s = true -> is_ascii_list s = false ->
  exists bs, utf8_enc s = Some bs /\ string_attr_roundtrip false s = Ok (ABytes bs).
Proof.
  intros s Hs Ha. destruct (string_attr_roundtrip_char false s Hs) as (bs & He & H).
  exists bs. split; [assumption|]. rewrite H, Ha. reflexivity.
Qed.

Lemma string_rt_refuted : exists s, forallb is_scalar s = true /\ string_attr_roundtrip false s <> Ok (AString s).
Proof. exists [233]. split; [reflexivity|]. vm_compute. discriminate. Qed.

Lemma string_rt_fixed : forall s, forallb is_scalar s = true -> string_attr_roundtrip true s = Ok (AString s).
Proof.
  intros s Hs. destruct (string_attr_roundtrip_char true s Hs) as (bs & _ & H). rewrite H. reflexivity.
Qed.

Lemma bytes_attr_rt_partial : forall bs, Forall is_byte bs -> is_ascii_list bs = false ->
  bytes_attr_roundtrip false bs = Ok (ABytes bs).
Proof. intros bs H Ha. rewrite bytes_attr_roundtrip_char by assumption. rewrite Ha. reflexivity. Qed.

Lemma bytes_attr_rt_refuted : exists bs, Forall is_byte bs /\ bytes_attr_roundtrip false bs <> Ok (ABytes bs).
Proof.
  exists [97; 98; 99]. split; [repeat constructor; unfold is_byte; lia|]. vm_compute. discriminate.
Qed.

Lemma dict_key_rt_partial : forall k rest, forallb is_scalar k = true -> ends_id rest ->
  is_bare_id k = true \/ is_ascii_list k = true -> dict_key_roundtrip false k rest = Ok k.
Proof.
  intros k rest Hk Hr H. rewrite dict_key_roundtrip_char by assumption.
  destruct H as [-> | ->]; [reflexivity|]. rewrite orb_true_r. reflexivity.
Qed.

Lemma dict_key_rt_fixed : forall k rest, forallb is_scalar k = true -> ends_id rest ->
  dict_key_roundtrip true k rest = Ok k.
Proof.
  intros k rest Hk Hr. rewrite dict_key_roundtrip_char by assumption. rewrite orb_true_r. reflexivity.
Qed.

Lemma dict_key_rt_refuted : exists k rest, forallb is_scalar k = true /\ ends_id rest /\
  dict_key_roundtrip false k rest = Raise E_PARSE.
Proof. exists [233], (str " = 1 : i32}"). repeat split. Qed.

(* witness oracle: CPython's values at the binary32 points NaN (0x7fc00000), 1.0, +0.0, -0.0 *)

Definition nan64 := 9221120237041090560.
Definition one64 := 4607182418800017408.
Definition negz64 := 9223372036854775808.
Definition wit : otab := {|
  o_pack := [(0, 0); (one64, 1065353216); (nan64, 2143289344); (negz64, 2147483648);
             (4746776415062458368, 1325367296)];         (* float(2143289344) packs to 0x4EFF8000 *)
  o_unpack := [(0, 0); (1065353216, one64); (2143289344, nan64); (2147483648, negz64)];
  o_5e := [(nan64, str "nan"); (one64, str "1.00000e+00"); (0, str "0.00000e+00"); (negz64, str "-0.00000e+00")];
  o_9g := []; o_17g := []; o_repr := [];
  o_scan := [(str "1.000000e+00", one64); (str "0.000000e+00", 0); (str "-0.000000e+00", negz64)];
  o_ofint := [(2143289344, 4746776415062458368)] |}.
Definition f32ty : fty := mk_fty 32 0 4 (str "f32").

Definition w_pack := t_pack wit.
Definition w_unpack := t_unpack wit.
Definition w_5e := zlookup_t (o_5e wit).
Definition w_9g := zlookup_t (o_9g wit).
Definition w_17g := zlookup_t (o_17g wit).
Definition w_repr := zlookup_t (o_repr wit).
Definition w_scan := t_scan wit.
Definition w_ofint := t_ofint wit.

Definition w_hyps (p : Z) : bool :=
  (w_pack f32ty (w_unpack f32ty p) =? p) &&
  float_hyps w_pack w_unpack w_5e w_9g w_17g w_repr w_scan f32ty (w_unpack f32ty p).

(* what the refutations say of each element: it satisfies every hypothesis of C06_float_rt and round-trips
   as a FloatAttr.  It holds of the four witness payloads NaN, 1.0, +0.0, -0.0 (binary32 bits). *)
Definition wit_ok (p : Z) : Prop :=
  w_pack f32ty (w_unpack f32ty p) = p /\
  float_hyps w_pack w_unpack w_5e w_9g w_17g w_repr w_scan f32ty (w_unpack f32ty p) = true /\
  float_attr_roundtrip w_pack w_unpack w_5e w_9g w_17g w_repr w_scan w_ofint f32ty (w_unpack f32ty p)
    = Ok (w_unpack f32ty p).

Lemma wit_elems_ok : forall ps, incl ps [2143289344; 1065353216; 0; 2147483648] -> Forall wit_ok ps.
Proof.
  intros ps H. apply Forall_forall. intros p Hp. apply H in Hp.
  repeat (destruct Hp as [<-|Hp]; [vm_compute; repeat split; reflexivity|]). destruct Hp.
Qed.

(* a float dense attribute whose elements individually satisfy every hypothesis of C06_float_rt
   (so each of them round-trips as a FloatAttr) does not round-trip: the NaN element is printed as
   0x7fc00000 and read back as float(2143289344) *)
Lemma dense_rt_refuted : exists pack unpack f5 f9 f17 fr scan ofint ty shape ps,
  prod shape = Z.of_nat (List.length ps) /\ Forall (fun d => 0 <= d) shape /\
  Forall (fun p => pack ty (unpack ty p) = p /\
                   float_hyps pack unpack f5 f9 f17 fr scan ty (unpack ty p) = true /\
                   float_attr_roundtrip pack unpack f5 f9 f17 fr scan ofint ty (unpack ty p) = Ok (unpack ty p)) ps /\
  dense_roundtrip pack unpack f5 f9 f17 fr scan ofint false false (EF ty) shape ps = Ok [1325367296; 1065353216] /\
  ps = [2143289344; 1065353216].
Proof.
  exists w_pack, w_unpack, w_5e, w_9g, w_17g, w_repr, w_scan, w_ofint, f32ty, [2], [2143289344; 1065353216].
  split; [reflexivity|]. split; [repeat constructor; lia|].
  split; [apply wit_elems_ok; intros p Hp; cbn in *; tauto|].
  split; [vm_compute; reflexivity|reflexivity].
Qed.

(* +0.0 and -0.0 compare equal: the tensor is printed as a splat of the first element *)
Lemma dense_splat_refuted : exists pack unpack f5 f9 f17 fr scan ofint ty shape ps,
  prod shape = Z.of_nat (List.length ps) /\ Forall (fun d => 0 <= d) shape /\
  Forall (fun p => pack ty (unpack ty p) = p /\
                   float_hyps pack unpack f5 f9 f17 fr scan ty (unpack ty p) = true /\
                   float_attr_roundtrip pack unpack f5 f9 f17 fr scan ofint ty (unpack ty p) = Ok (unpack ty p)) ps /\
  print_dense pack unpack f5 f9 f17 fr scan false (EF ty) shape ps = Ok (DSplat (str "0.000000e+00")) /\
  dense_roundtrip pack unpack f5 f9 f17 fr scan ofint false false (EF ty) shape ps = Ok [0; 0] /\
  ps = [0; 2147483648].
Proof.
  exists w_pack, w_unpack, w_5e, w_9g, w_17g, w_repr, w_scan, w_ofint, f32ty, [2], [0; 2147483648].
  split; [reflexivity|]. split; [repeat constructor; lia|].
  split; [apply wit_elems_ok; intros p Hp; cbn in *; tauto|].
  split; [vm_compute; reflexivity|]. split; [vm_compute; reflexivity|reflexivity].
Qed.

(* array<f32: 0x7fc00000, 1.000000e+00> is rejected by the dense-array parser *)
Lemma densearray_rt_refuted : exists pack unpack f5 f9 f17 fr scan ofint ty ps,
  Forall (fun p => pack ty (unpack ty p) = p /\
                   float_hyps pack unpack f5 f9 f17 fr scan ty (unpack ty p) = true /\
                   float_attr_roundtrip pack unpack f5 f9 f17 fr scan ofint ty (unpack ty p) = Ok (unpack ty p)) ps /\
  densearray_roundtrip pack unpack f5 f9 f17 fr scan false (EF ty) ps = Raise E_PARSE /\
  ps = [2143289344; 1065353216].
Proof.
  exists w_pack, w_unpack, w_5e, w_9g, w_17g, w_repr, w_scan, w_ofint, f32ty, [2143289344; 1065353216].
  split; [apply wit_elems_ok; intros p Hp; cbn in *; tauto|].
  split; [vm_compute; reflexivity|reflexivity].
Qed.

Lemma dense_float_nonvacuous :
  dense_roundtrip w_pack w_unpack w_5e w_9g w_17g w_repr w_scan w_ofint false false (EF f32ty) [2] [1065353216; 2147483648]
  = Ok [1065353216; 2147483648].
Proof. vm_compute. reflexivity. Qed.

Lemma witnesses_fixed :
  dense_roundtrip w_pack w_unpack w_5e w_9g w_17g w_repr w_scan w_ofint true true (EF f32ty) [2] [2143289344; 1065353216]
    = Ok [2143289344; 1065353216] /\
  dense_roundtrip w_pack w_unpack w_5e w_9g w_17g w_repr w_scan w_ofint true true (EF f32ty) [2] [0; 2147483648]
    = Ok [0; 2147483648] /\
  dense_roundtrip w_pack w_unpack w_5e w_9g w_17g w_repr w_scan w_ofint true true (EF f32ty) [2] [2143289344; 2143289344]
    = Ok [2143289344; 2143289344] /\
  densearray_roundtrip w_pack w_unpack w_5e w_9g w_17g w_repr w_scan true (EF f32ty) [2143289344; 1065353216]
    = Ok [2143289344; 1065353216].
Proof. vm_compute. repeat split; reflexivity. Qed.
