(* C27/Proofs.v -- the match theorem of Props/C27.v assembled from ProofsChain (machine = sequential predicate
   evaluation), ProofsOrder (the ordering keeps the predicate set) and ProofsMatch (direct matcher = predicate
   set); the outcome comparison the refutation witnesses are stated with. *)
From Coq Require Import ZArith List Bool Lia.
From XV Require Import C27.Model C27.ProofsChain C27.ProofsOrder C27.ProofsMatch.
Import ListNotations.
Local Open Scope Z_scope.

(* ------------------------------------------------------------------ positions handed to the rewriter are recorded inputs *)
Definition used_ok (inp : inputs) (st : rg) : Prop :=
  forall p, In p (rg_used st) -> exists k, klookup inp k = Some p.

Lemma rtmp_used : forall inp st k mk st' c r, used_ok inp st -> rtmp st k mk = (st', c, r) -> used_ok inp st'.
Proof. intros inp st k mk st' c r H E. unfold rtmp in E. inversion E; subst. exact H. Qed.

Definition grows (inp : inputs) (st st' : rg) : Prop :=
  exists s, rg_used st' = rg_used st ++ s /\ forall p, In p s -> exists k, klookup inp k = Some p.
Lemma grows_same : forall inp st st', rg_used st' = rg_used st -> grows inp st st'.
Proof. intros inp st st' H. exists []. split; [rewrite app_nil_r; exact H | intros p []]. Qed.
Lemma grows_trans : forall inp a b c, grows inp a b -> grows inp b c -> grows inp a c.
Proof.
  intros inp a b c (s1 & E1 & H1) (s2 & E2 & H2). exists (s1 ++ s2). split; [rewrite E2, E1, app_assoc; reflexivity |].
  intros p Hp. apply in_app_iff in Hp. destruct Hp; auto.
Qed.
Lemma grows_used : forall inp st st', grows inp st st' -> used_ok inp st -> used_ok inp st'.
Proof. intros inp st st' (s & E & H) Hu p Hp. rewrite E in Hp. apply in_app_iff in Hp. destruct Hp; auto. Qed.

Lemma map_value_grows : forall fx P inp st k st' c r, map_value fx P inp st k = Some (st', c, r) -> grows inp st st'.
Proof.
  intros fx P inp st k st' c r E. unfold map_value in E.
  destruct (klookup (rg_vals st) k); [injection E as <- _ _; apply grows_same; reflexivity |].
  match type of E with match ?cst with _ => _ end = _ => destruct cst as [mk|] end.
  - injection E as <- _ _. apply grows_same. reflexivity.
  - destruct (klookup inp k) as [p|] eqn:Ei; [| discriminate]. injection E as <- _ _.
    destruct (mem_pos p (rg_used st)); [apply grows_same; reflexivity |].
    exists [p]. split; [reflexivity | intros q [<- | []]; eauto].
Qed.
Lemma map_values_grows : forall fx P inp ks st st' c rs, map_values fx P inp st ks = Some (st', c, rs) -> grows inp st st'.
Proof.
  induction ks as [|k ks IH]; intros st st' c rs E; simpl in E; [injection E as <- _ _; apply grows_same; reflexivity |].
  destruct (map_value fx P inp st k) as [[[st1 c1] v]|] eqn:E1; [| discriminate].
  destruct (map_values fx P inp st1 ks) as [[[st2 c2] vs]|] eqn:E2; [| discriminate].
  injection E as <- _ _. eapply grows_trans; [eapply map_value_grows; exact E1 | eapply IH; exact E2].
Qed.

(* the next map_value(s) call in the generator equation E succeeded: record how the state grew *)
Ltac gen_step E :=
  match type of E with
  | context [map_values ?fx ?P ?inp ?st ?ks] =>
      let G := fresh "G" in
      destruct (map_values fx P inp st ks) as [[[? ?] ?]|] eqn:G; [apply map_values_grows in G | discriminate E]
  | context [map_value ?fx ?P ?inp ?st ?k] =>
      let G := fresh "G" in
      destruct (map_value fx P inp st k) as [[[? ?] ?]|] eqn:G; [apply map_value_grows in G | discriminate E]
  end.
(* ... and the new state has the positions of the last *)
Ltac gen_done E :=
  unfold rtmp in E; injection E as <- _;
  repeat (eapply grows_trans; [eassumption |]); apply grows_same; reflexivity.

Lemma gen_stmt_grows : forall fx P inp root st s later st' c,
  gen_stmt fx P inp root st s later = Some (st', c) -> grows inp st st'.
Proof.
  intros fx P inp root st s later st' c E. destruct s; cbn [gen_stmt] in E.
  - gen_done E.
  - gen_done E.
  - repeat gen_step E. destruct tys as [|t tys]; [destruct (existsb (is_replace_with l) later) |].
    + repeat gen_step E. unfold rtmp in E. gen_done E.
    + gen_done E.
    + repeat gen_step E. gen_done E.
  - repeat gen_step E. gen_done E.
  - repeat gen_step E. gen_done E.
  - destruct (op_rtys root); repeat gen_step E.
    + gen_done E.
    + unfold rtmp in E. repeat gen_step E. gen_done E.
  - repeat gen_step E. gen_done E.
Qed.
Lemma gen_stmts_grows : forall fx P inp root l st st' c,
  gen_stmts fx P inp root st l = Some (st', c) -> grows inp st st'.
Proof.
  induction l as [|s l IH]; intros st st' c E; simpl in E; [injection E as <- _; apply grows_same; reflexivity |].
  destruct (gen_stmt fx P inp root st s l) as [[st1 c1]|] eqn:E1; [| discriminate].
  destruct (gen_stmts fx P inp root st1 l) as [[st2 c2]|] eqn:E2; [| discriminate].
  injection E as <- _. eapply grows_trans; [eapply gen_stmt_grows; exact E1 | eapply IH; exact E2].
Qed.

Lemma all_some_map_some : forall A B (f : A -> option B) l,
  (forall x, In x l -> f x <> None) -> exists vs, all_some (map f l) = Some vs.
Proof.
  intros A B f. induction l as [|x l IH]; intros H; simpl; [eexists; reflexivity |].
  destruct (f x) as [b|] eqn:E.
  - destruct IH as [vs Hvs]; [intros y Hy; apply H; right; exact Hy |]. rewrite Hvs. eexists; reflexivity.
  - exfalso. apply (H x); [left; reflexivity | exact E].
Qed.

(* the static class of patterns / payloads the match theorem speaks about, per repair flag *)
Definition match_side_conditions (fx : fixes) (P : pattern) (pl : payload) : Prop :=
  (fx_falsy fx = true \/ (forall a c, p_aconst P a = Some c -> truthy c = true)) /\
  (fx_attrorder fx = true \/
   (forall pid x n, find_op pl pid = Some x -> get_attr_or_prop x n = get_attr_then_prop x n)) /\
  (fx_resindex fx = true \/ payload_wf pl) /\
  (exists seen', lin_op (p_root P) [] = Some seen') /\
  idx_op (negb (fx_resindex fx)) (p_root P).

Lemma R_nil : forall fx pl root, R fx pl root [] [] [].
Proof.
  intros. constructor; simpl; try tauto; try discriminate; try (intros; contradiction).
Qed.

(* same success / failure, and on success every bound pattern value is the denotation of the position the
   conversion recorded for it, which is what record_match hands to the rewriter *)
Theorem match_equiv : forall fx P pl x c,
  match_side_conditions fx P pl ->
  find_op pl (o_id x) = Some x ->
  compile fx P = Some c ->
  match pdl_match fx P pl x with
  | MOk e => (exists args, interp_match fx c pl x = IMatch args) /\
             (forall k v p, klookup e k = Some v -> klookup (snd (extract fx P)) k = Some p ->
                            eval_pos fx pl (o_id x) p = Some v)
  | MFail => forall args, interp_match fx c pl x <> IMatch args
  | MErr => False
  end.
Proof.
  intros fx P pl x c (Hf & Ha & Hr & (seen' & Hlin) & Hidx) Hx Hc.
  unfold compile in Hc. unfold extract in *.
  pose proof (sim_op fx P pl (o_id x) Hf Ha Hr (p_root P) [] [] [] seen' PRoot x
                (R_nil _ _ _) eq_refl Hx Hlin Hidx) as Hsim.
  destruct (extract_op fx P [] (p_root P) PRoot) as [preds inp] eqn:Eext. cbn [fst snd] in *.
  destruct (gen_stmts fx P inp (p_root P) rg_init (p_rw P)) as [[st code]|] eqn:Eg; [| discriminate].
  inversion Hc; subst c; clear Hc.
  assert (Hused : used_ok inp st) by (apply (grows_used _ _ _ (gen_stmts_grows _ _ _ _ _ _ _ _ Eg)); intros p []).
  unfold pdl_match, interp_match. cbn [c_matcher].
  rewrite chain_sound.
  destruct (match_op fx P pl [] (p_root P) x) as [| |e]; cbn [agree] in Hsim.
  - intros args H. apply (proj1 (ordered_match _ _ _ _ _ _)) in H. apply (proj1 (seq_eval_match _ _ _ _ _ _)) in H. destruct H as [H _].
    apply Hsim. apply Forall_forall. exact H.
  - exact Hsim.
  - destruct Hsim as [Hall HR]. split.
    + destruct (all_some_map_some _ _ (eval_pos fx pl (o_id x)) (rg_used st)) as [vs Hvs].
      { intros p Hp. destruct (Hused p Hp) as [k Hk]. eapply (R_ev _ _ _ _ _ _ HR); exact Hk. }
      exists vs. apply (proj2 (ordered_match _ _ _ _ _ _)). apply (proj2 (seq_eval_match _ _ _ _ _ _)). split; [| exact Hvs].
      rewrite Forall_forall in Hall. exact Hall.
    + intros k v p H1 H2. eapply (R_val _ _ _ _ _ _ HR); eassumption.
Qed.

(* outcome class of one application: 0 = no match, 1 = rewritten, 2 = raised *)
Definition rres_kind (r : rres) : Z := match r with RNoMatch => 0 | ROk _ => 1 | RErr => 2 end.
(* both paths at operation pid of the payload, for the refutation witnesses and examples *)
Definition outcome_pair (fx : fixes) (P : pattern) (pl : payload) (pid : Z) : option (Z * Z) :=
  match compile fx P with
  | Some c => Some (rres_kind (pdl_apply fx P pl pid), rres_kind (interp_apply fx c pl pid))
  | None => None
  end.
Definition same_result (fx : fixes) (P : pattern) (pl : payload) (pid : Z) : Prop :=
  match compile fx P with
  | Some c => pdl_apply fx P pl pid = interp_apply fx c pl pid
  | None => False
  end.

(* with every proposed repair present only the static shape of the pattern remains as side condition *)
Corollary match_equiv_repaired : forall P pl x c seen',
  lin_op (p_root P) [] = Some seen' -> idx_op false (p_root P) ->
  find_op pl (o_id x) = Some x ->
  compile repaired P = Some c ->
  match pdl_match repaired P pl x with
  | MOk e => (exists args, interp_match repaired c pl x = IMatch args) /\
             (forall k v p, klookup e k = Some v -> klookup (snd (extract repaired P)) k = Some p ->
                            eval_pos repaired pl (o_id x) p = Some v)
  | MFail => forall args, interp_match repaired c pl x <> IMatch args
  | MErr => False
  end.
Proof.
  intros P pl x c seen' Hlin Hidx Hx Hc. apply match_equiv; try assumption.
  repeat split; try (left; reflexivity); [exists seen'; exact Hlin | exact Hidx].
Qed.
