(* C05/ProofsElem.v -- one element: parsing its own printed tokens (followed by a tail whose first
   token does not trigger it) consumes exactly them, keeps `agree`, and makes the element `done`. *)
From Coq Require Import ZArith String Bool Arith List Lia.
From XV Require Import C05.Model C05.Check C05.ProofsBase C05.ProofsTok C05.ProofsState C05.ProofsSplit.
Import ListNotations.
Local Open Scope string_scope.
Local Open Scope list_scope.

Definition untrig (gs : list atrig) (tail : list tok) : Prop :=
  forall t, hd_error tail = Some t -> forall g, In g gs -> tok_matches g t = false.

Lemma untrig_incl : forall gs gs' tail, incl gs' gs -> untrig gs tail -> untrig gs' tail.
Proof. intros gs gs' tail Hi Hu t Ht g Hg; exact (Hu t Ht g (Hi g Hg)). Qed.
Lemma untrig_comma : forall gs tail, In GComma gs -> untrig gs tail -> not_comma_hd tail.
Proof. intros gs tail Hin Hu t Ht; exact (Hu t Ht GComma Hin). Qed.

Definition types_done (s : src) (st : pst) : Prop :=
  match s with
  | SOperand k => isset (p_otys st) k
  | SResult k => isset (p_rtys st) k
  | SOperands => all_set (p_otys st)
  | SResults => all_set (p_rtys st)
  end.
Definition attr_done (i : inst) (n : string) (p : bool) (dflt : option av) (st : pst) : Prop :=
  forall a, attr_of i n p = Some a ->
    is_default a dflt = true \/ lookup n (if p then p_props st else p_attrs st) = Some a.
Definition elem_done (d : opdef) (i : inst) (e : elem) (st : pst) : Prop :=
  match e with
  | ELit _ _ => True
  | EVals (SOperand k) => isset (p_vals st) k
  | EVals SOperands => all_set (p_vals st)
  | EVals _ => True
  | ETypes s => types_done s st
  | EFunTy a b => types_done a st /\ types_done b st
  | EAttr n p _ _ dflt => attr_done i n p dflt st
  | EAttrDict _ reserved expected =>
      (forall n a, lookup n (i_attrs i) = Some a -> ~ In n reserved ->
         lookup n (p_attrs st) = Some a \/ dict_default_eq d expected n a = true) /\
      (forall n a, lookup n (i_props i) = Some a -> In n expected -> ~ In n reserved ->
         lookup n (p_props st) = Some a \/ dict_default_eq d expected n a = true)
  end.

Lemma all_set_mono : forall A (l l' : list (option A)),
  length l = length l' -> (forall k, isset l k -> isset l' k) -> all_set l -> all_set l'.
Proof. intros A l l' Hl Hm Ha k Hk. apply Hm, Ha. lia. Qed.

Lemma types_done_mono : forall d i s st st',
  agree d i st -> agree d i st' -> extends st st' -> types_done s st -> types_done s st'.
Proof.
  intros d i s st st' Ha Ha' He Hd. destruct s; simpl in *.
  - apply (ex_o _ _ He); exact Hd.
  - apply (ex_r _ _ He); exact Hd.
  - eapply all_set_mono; [| exact (ex_o _ _ He) | exact Hd].
    rewrite (ag_len_o _ _ _ Ha), (ag_len_o _ _ _ Ha'); reflexivity.
  - eapply all_set_mono; [| exact (ex_r _ _ He) | exact Hd].
    rewrite (ag_len_r _ _ _ Ha), (ag_len_r _ _ _ Ha'); reflexivity.
Qed.

Lemma lookup_keep : forall d i st st' (p : bool) n a,
  agree d i st -> agree d i st' -> extends st st' ->
  lookup n (if p then p_props st else p_attrs st) = Some a ->
  lookup n (if p then p_props st' else p_attrs st') = Some a.
Proof.
  intros d i st st' p n a Ha Ha' He H.
  assert (lookup n (if p then p_props st' else p_attrs st') <> None) as Hn
    by (destruct p; [apply (ex_p _ _ He) | apply (ex_a _ _ He)]; rewrite H; discriminate).
  destruct (lookup n (if p then p_props st' else p_attrs st')) as [b|] eqn:E; [|congruence].
  destruct p; [apply (ag_p _ _ _ Ha') in E; apply (ag_p _ _ _ Ha) in H | apply (ag_a _ _ _ Ha') in E; apply (ag_a _ _ _ Ha) in H];
    congruence.
Qed.

Lemma elem_done_mono : forall d i e st st',
  agree d i st -> agree d i st' -> extends st st' -> elem_done d i e st -> elem_done d i e st'.
Proof.
  intros d i e st st' Ha Ha' He Hd. destruct e as [s l|kw rs ex|s|s|a b|n p k o dflt]; simpl in *.
  - exact I.
  - destruct Hd as [H1 H2]. split.
    + intros n a Hl Hr. destruct (H1 n a Hl Hr) as [H|H]; [left|right; exact H].
      exact (lookup_keep d i st st' false n a Ha Ha' He H).
    + intros n a Hl Hr Hnr. destruct (H2 n a Hl Hr Hnr) as [H|H]; [left|right; exact H].
      exact (lookup_keep d i st st' true n a Ha Ha' He H).
  - destruct s; try exact I.
    + apply (ex_v _ _ He); exact Hd.
    + eapply all_set_mono; [| exact (ex_v _ _ He) | exact Hd].
      rewrite (ag_len_v _ _ _ Ha), (ag_len_v _ _ _ Ha'); reflexivity.
  - eapply (types_done_mono d i _ st st'); eassumption.
  - destruct Hd; split; eapply (types_done_mono d i _ st st'); eassumption.
  - intros a Hat. destruct (Hd a Hat) as [H|H]; [left; exact H|right].
    exact (lookup_keep d i st st' p n a Ha Ha' He H).
Qed.

Lemma types_done_sets : forall d i s st, agree d i st -> types_done s st ->
  (forall k, k < length (od_operands d) ->
     match s with SOperand j => Nat.eqb j k | SOperands => true | _ => false end = true -> isset (p_otys st) k) /\
  (forall k, k < length (od_results d) ->
     match s with SResult j => Nat.eqb j k | SResults => true | _ => false end = true -> isset (p_rtys st) k).
Proof.
  intros d i s st Ha Hd. split; intros k Hk Hs; destruct s as [j|j| |]; try discriminate; simpl in Hd;
    try (apply Nat.eqb_eq in Hs; subst j; exact Hd); apply Hd.
  - rewrite (ag_len_o _ _ _ Ha); exact Hk.
  - rewrite (ag_len_r _ _ _ Ha); exact Hk.
Qed.

Lemma done_sets : forall d i e st, agree d i st -> elem_done d i e st ->
  (forall k, k < length (od_operands d) -> sets_vals k e = true -> isset (p_vals st) k) /\
  (forall k, k < length (od_operands d) -> sets_otys k e = true -> isset (p_otys st) k) /\
  (forall k, k < length (od_results d) -> sets_rtys k e = true -> isset (p_rtys st) k).
Proof.
  intros d i e st Ha Hd.
  destruct e as [l ld|kw rs ex|s|s|a b|n p k' o dflt]; cbn [sets_vals sets_otys sets_rtys elem_done] in *;
    try (repeat split; intros; discriminate).
  - repeat split; try (intros; discriminate). intros k Hk Hs. destruct s as [j|j| |]; try discriminate.
    + apply Nat.eqb_eq in Hs. subst j. exact Hd.
    + apply Hd. rewrite (ag_len_v _ _ _ Ha). exact Hk.
  - split; [intros; discriminate|]. exact (types_done_sets d i s st Ha Hd).
  - destruct Hd as [Hda Hdb]. split; [intros; discriminate|]. split.
    + exact (proj1 (types_done_sets d i a st Ha Hda)).
    + exact (proj2 (types_done_sets d i b st Ha Hdb)).
Qed.

Definition all_done (d : opdef) (i : inst) (es : list elem) (st : pst) : Prop :=
  forall e, In e es -> elem_done d i e st.

Lemma reach_app : forall d i st st1 st2 es1 es2,
  reach d i st st1 (all_done d i es1) -> reach d i st1 st2 (all_done d i es2) ->
  reach d i st st2 (all_done d i (es1 ++ es2)).
Proof.
  intros d i st st1 st2 es1 es2 [Ha1 [He1 Hd1]] [Ha2 [He2 Hd2]].
  split; [exact Ha2|]. split; [exact (extends_trans _ _ _ He1 He2)|].
  intros e Hin. apply in_app_or in Hin. destruct Hin as [Hin|Hin]; [|exact (Hd2 e Hin)].
  exact (elem_done_mono d i e st1 st2 Ha1 Ha2 He2 (Hd1 e Hin)).
Qed.

Lemma reach_one : forall d i st st1 e,
  reach d i st st1 (elem_done d i e) -> reach d i st st1 (all_done d i [e]).
Proof.
  intros d i st st1 e [Ha1 [He1 Hd1]]. split; [exact Ha1|]. split; [exact He1|]. intros e' [<-|[]]. exact Hd1.
Qed.

Lemma reach_cons : forall d i st st1 st2 e es,
  reach d i st st1 (elem_done d i e) -> reach d i st1 st2 (all_done d i es) ->
  reach d i st st2 (all_done d i (e :: es)).
Proof. intros d i st st1 st2 e es H1 H2. exact (reach_app d i st st1 st2 [e] es (reach_one _ _ _ _ _ H1) H2). Qed.

Lemma nonempty_false_nil : forall A (l : list A), nonempty l = false -> l = [].
Proof. destruct l; simpl; [reflexivity | discriminate]. Qed.

Lemma concat_map_map : forall A B (g : A -> B) (l : list (list A)), concat (map (map g) l) = map g (concat l).
Proof. intros; symmetry; apply concat_map. Qed.

(* the value list of any source, in any context: what must not follow is a comma after a variadic list
   and a value after an empty list (which a Single definition never has).
   Emptiness is stated on src_types i s, which is as long as the value list (vals_types_length). *)
Lemma vals_step : forall d i s gs st tail,
  IOK d i -> agree d i st -> vals_src s = true -> src_in_range d s = true ->
  (kind_of_src d s = KVar -> In GComma gs) ->
  (src_types i s = [] -> kind_of_src d s <> KSingle -> In GVal gs) ->
  untrig gs tail ->
  exists vs st', src_vals i s = Some vs /\
    parse_elem d (EVals s) st (sep (map TVal vs) ++ tail)
      = Some (match kind_of_src d s with KSingle => true | _ => nonempty vs end, st', tail) /\
    reach d i st st' (elem_done d i (EVals s)).
Proof.
  intros d i s gs st tail Hio Ha Hv Hr Hc Hg Hu. destruct s as [j|j| |]; try discriminate.
  - simpl in Hr. apply Nat.ltb_lt in Hr.
    destruct (nth_error (od_operands d) j) as [vd|] eqn:En; [|apply nth_error_None in En; lia].
    unfold kind_of_src in *. cbn [src_kind src_types] in *. rewrite En in *. cbn [option_map] in *.
    pose proof (build_sizes_nth _ _ _ _ _ (io_osz _ _ Hio) En) as Hl.
    exists (vals_of i j), (set_vals j (vals_of i j) st).
    split; [reflexivity|]. split; [|apply agree_set_vals; assumption].
    cbn [parse_elem]. rewrite En.
    rewrite (parse_kind_sep val_item TVal (vd_kind vd) (vals_of i j) tail).
    + reflexivity.
    + intros; reflexivity.
    + unfold vals_of. rewrite map_length. exact Hl.
    + intro Hk. exact (untrig_comma gs tail (Hc Hk) Hu).
    + intros Hnil t Ht. apply val_item_NoItem. unfold vals_of in Hnil. apply map_eq_nil in Hnil.
      apply (Hu t Ht GVal), Hg; [rewrite Hnil; reflexivity|]. intro Hk. rewrite Hk, Hnil in Hl. discriminate Hl.
  - simpl in Hr. apply Nat.leb_le in Hr.
    eexists; exists (set_all_vals (map (map fst) (i_operands i)) st). split; [reflexivity|].
    split; [|apply agree_set_all_vals; [assumption | apply build_sizes_length, (io_osz _ _ Hio)]].
    cbn [parse_elem]. rewrite (parse_opt_list_sep val_item TVal).
    + rewrite (split_segs_concat _ (od_operands d) (map (map fst) (i_operands i)));
        [reflexivity | apply build_sizes_map, (io_osz _ _ Hio) | exact Hr].
    + intros; reflexivity.
    + exact (untrig_comma gs tail (Hc eq_refl) Hu).
    + intros Hnil t Ht. apply val_item_NoItem, (Hu t Ht GVal), Hg; [|discriminate].
      cbn [src_types]. rewrite concat_map_map in *. apply map_eq_nil in Hnil. rewrite Hnil. reflexivity.
Qed.

Lemma in_concat_map : forall A B (g : A -> B) (l : list (list A)) x,
  In x (concat (map (map g) l)) -> exists seg y, In seg l /\ In y seg /\ x = g y.
Proof.
  intros A B g l x H. apply in_concat in H. destruct H as [s [Hs Hx]].
  apply in_map_iff in Hs. destruct Hs as [seg [<- Hseg]].
  apply in_map_iff in Hx. destruct Hx as [y [<- Hy]].
  exists seg, y; auto.
Qed.

Lemma src_types_start : forall d i s t, IOK d i -> In t (src_types i s) -> starts_type (av_full t) = true.
Proof.
  intros d i s t Hio Hin. destruct s as [k|k| |]; simpl in Hin.
  - apply in_map_iff in Hin. destruct Hin as [vt [<- Hvt]].
    destruct (nth_in_or_default k (i_operands i) []) as [Hs|Hs].
    + eapply (io_oty _ _ Hio); eassumption.
    + rewrite Hs in Hvt; destruct Hvt.
  - destruct (nth_in_or_default k (i_results i) []) as [Hs|Hs].
    + eapply (io_rty _ _ Hio); eassumption.
    + rewrite Hs in Hin; destruct Hin.
  - apply in_concat_map in Hin. destruct Hin as [seg [vt [Hs [Hv ->]]]].
    eapply (io_oty _ _ Hio); eassumption.
  - apply in_concat in Hin. destruct Hin as [seg [Hs Hv]].
    eapply (io_rty _ _ Hio); eassumption.
Qed.

Lemma src_kind_len : forall d i s k, IOK d i -> src_kind d s = Some k -> kind_len k (length (src_types i s)).
Proof.
  intros d i s k Hio Hk. destruct s as [j|j| |]; simpl in *.
  - destruct (nth_error (od_operands d) j) as [vd|] eqn:E; simpl in Hk; [|discriminate].
    inversion Hk; subst. rewrite map_length.
    pose proof (build_sizes_nth _ _ _ _ _ (io_osz _ _ Hio) E) as Hl. exact Hl.
  - destruct (nth_error (od_results d) j) as [vd|] eqn:E; simpl in Hk; [|discriminate].
    inversion Hk; subst.
    pose proof (build_sizes_nth _ _ _ _ _ (io_rsz _ _ Hio) E) as Hl. exact Hl.
  - inversion Hk; exact I.
  - inversion Hk; exact I.
Qed.

(* TypeableDirective.set_types with the instance's own types *)
Lemma set_types_own : forall d i st s,
  IOK d i -> agree d i st -> src_in_range d s = true ->
  exists st', set_types d s (src_types i s) st = Some st'
    /\ reach d i st st' (types_done s).
Proof.
  intros d i st s Hio Ha Hr. destruct s as [k|k| |]; simpl in *.
  - apply Nat.ltb_lt in Hr. eexists; split; [reflexivity|].
    apply (agree_set_otys d i st k Ha Hr).
  - apply Nat.ltb_lt in Hr. eexists; split; [reflexivity|].
    apply (agree_set_rtys d i st k Ha Hr).
  - apply Nat.leb_le in Hr.
    rewrite (split_segs_concat _ (od_operands d) (map (map snd) (i_operands i))).
    + simpl. eexists; split; [reflexivity|].
      apply agree_set_all_otys; [assumption | apply build_sizes_length, (io_osz _ _ Hio)].
    + apply build_sizes_map, (io_osz _ _ Hio).
    + exact Hr.
  - apply Nat.leb_le in Hr.
    rewrite (split_segs_concat _ (od_results d) (i_results i)).
    + simpl. eexists; split; [reflexivity|].
      apply agree_set_all_rtys; [assumption | apply build_sizes_length, (io_rsz _ _ Hio)].
    + apply (io_rsz _ _ Hio).
    + exact Hr.
Qed.

Lemma parse_types_ok : forall d i st s k tail,
  IOK d i -> agree d i st -> src_in_range d s = true -> src_kind d s = Some k ->
  (k = KVar -> not_comma_hd tail) ->
  (src_types i s = [] -> forall t, hd_error tail = Some t -> tok_matches GType t = false) ->
  exists st',
    parse_types d s st (sep (map TAttr (src_types i s)) ++ tail) = Some (types_flag s k (src_types i s), st', tail)
    /\ reach d i st st' (types_done s).
Proof.
  intros d i st s k tail Hio Ha Hr Hk Hc He.
  destruct (set_types_own d i st s Hio Ha Hr) as [st' [Hs Hrest]].
  exists st'. split; [|exact Hrest].
  unfold parse_types. rewrite Hk.
  rewrite (parse_kind_sep type_item TAttr k (src_types i s) tail).
  - rewrite Hs. reflexivity.
  - intros x Hx. apply type_item_TAttr. eapply src_types_start; eassumption.
  - eapply src_kind_len; eassumption.
  - exact Hc.
  - intros Hnil t Ht. apply type_item_NoItem. exact (He Hnil t Ht).
Qed.

Lemma src_kind_some : forall d s, src_in_range d s = true -> exists k, src_kind d s = Some k.
Proof.
  intros d s H. destruct s as [j|j| |]; simpl in *.
  - apply Nat.ltb_lt in H. destruct (nth_error (od_operands d) j) eqn:E.
    + eexists; reflexivity.
    + apply nth_error_None in E; lia.
  - apply Nat.ltb_lt in H. destruct (nth_error (od_results d) j) eqn:E.
    + eexists; reflexivity.
    + apply nth_error_None in E; lia.
  - eexists; reflexivity.
  - eexists; reflexivity.
Qed.

Lemma types_step : forall d i s gs st tail,
  IOK d i -> agree d i st -> src_in_range d s = true ->
  (kind_of_src d s = KVar -> In GComma gs) ->
  (src_types i s = [] -> kind_of_src d s <> KSingle -> In GType gs) ->
  untrig gs tail ->
  exists flag st',
    parse_elem d (ETypes s) st (sep (map TAttr (src_types i s)) ++ tail) = Some (flag, st', tail) /\
    reach d i st st' (elem_done d i (ETypes s)).
Proof.
  intros d i s gs st tail Hio Ha Hr Hc Hg Hu.
  destruct (src_kind_some d s Hr) as [k Hk]. unfold kind_of_src in *. rewrite Hk in *.
  destruct (parse_types_ok d i st s k tail Hio Ha Hr Hk) as [st' [Hp Hst']].
  - intro Hkv. exact (untrig_comma gs tail (Hc Hkv) Hu).
  - intros Hnil t Ht. apply (Hu t Ht GType), Hg; [exact Hnil|]. intros ->.
    pose proof (src_kind_len d i s KSingle Hio Hk) as Hl. rewrite Hnil in Hl. discriminate Hl.
  - eexists; exists st'. split; [exact Hp | exact Hst'].
Qed.

Lemma parse_single_type_ok : forall d i st s t tail,
  IOK d i -> agree d i st -> src_in_range d s = true -> src_types i s = [t] ->
  exists st',
    parse_single_type d s st (TAttr t :: tail) = Some (st', tail)
    /\ reach d i st st' (types_done s).
Proof.
  intros d i st s t tail Hio Ha Hr Hs.
  destruct (set_types_own d i st s Hio Ha Hr) as [st' [Hset Hrest]].
  exists st'. split; [|exact Hrest].
  unfold parse_single_type. cbn [parse_one].
  rewrite type_item_TAttr.
  - rewrite <- Hs. rewrite Hset. reflexivity.
  - eapply src_types_start; [eassumption|]. rewrite Hs; left; reflexivity.
Qed.

Lemma rparen_not_comma : forall tail, not_comma_hd (rparen :: tail).
Proof. intros tail t H; inversion H; reflexivity. Qed.
Lemma rparen_not_type : forall tail t, hd_error (rparen :: tail) = Some t -> tok_matches GType t = false.
Proof. intros tail t H; inversion H; reflexivity. Qed.

Lemma app_assoc_cons : forall A (l : list A) x m, (l ++ [x]) ++ m = l ++ x :: m.
Proof. intros; rewrite <- app_assoc; reflexivity. Qed.

Lemma funty_tokens_assoc : forall (A R tail : list tok),
  (lparen :: A ++ [rparen; arrow] ++ R) ++ tail = lparen :: A ++ rparen :: arrow :: R ++ tail.
Proof. intros; simpl; rewrite <- app_assoc; reflexivity. Qed.

Lemma funty_core : forall d a b st A Rt st1 flag,
  parse_types d a st (A ++ rparen :: arrow :: Rt) = Some (flag, st1, rparen :: arrow :: Rt) ->
  parse_elem d (EFunTy a b) st (lparen :: A ++ rparen :: arrow :: Rt) =
    match Rt with
    | t3 :: r3 =>
        if is_lit "(" t3 then
          match parse_types d b st1 r3 with
          | None => None
          | Some (_, st2, r4) =>
              match r4 with
              | t4 :: r5 => if is_lit ")" t4 then Some (true, st2, r5) else None
              | [] => None
              end
          end
        else if lead_eqb (tok_lead t3) LParen then None
        else match parse_single_type d b st1 Rt with
             | Some (st2, r4) => Some (true, st2, r4)
             | None => None
             end
    | [] => None
    end.
Proof.
  intros d a b st A Rt st1 flag H. cbn [parse_elem].
  change (is_lit "(" lparen) with true. cbv iota. rewrite H.
  change (is_lit ")" rparen && is_lit "->" arrow) with true. cbv iota. reflexivity.
Qed.

Lemma reach_funty : forall d i a b st st1 st2,
  reach d i st st1 (types_done a) -> reach d i st1 st2 (types_done b) ->
  reach d i st st2 (elem_done d i (EFunTy a b)).
Proof.
  intros d i a b st st1 st2 [Ha1 [He1 Hd1]] [Ha2 [He2 Hd2]].
  split; [exact Ha2|]. split; [exact (extends_trans _ _ _ He1 He2)|].
  split; [exact (types_done_mono d i a st1 st2 Ha1 Ha2 He2 Hd1) | exact Hd2].
Qed.

Lemma parse_funty_ok : forall fx d i st a b tail,
  IOK d i -> agree d i st ->
  src_in_range d a = true -> src_in_range d b = true ->
  (fx = true \/ elem_funty_ok i (EFunTy a b) = true) ->
  exists ts st',
    print_elem fx d i (EFunTy a b) = Some ts /\
    parse_elem d (EFunTy a b) st (ts ++ tail) = Some (true, st', tail)
    /\ reach d i st st' (elem_done d i (EFunTy a b)).
Proof.
  intros fx d i st a b tail Hio Ha Hra Hrb Hfx.
  destruct (src_kind_some d a Hra) as [ka Hka].
  destruct (src_kind_some d b Hrb) as [kb Hkb].
  assert (forall rest, exists st1,
            parse_types d a st (sep (map TAttr (src_types i a)) ++ rparen :: rest)
              = Some (types_flag a ka (src_types i a), st1, rparen :: rest)
            /\ reach d i st st1 (types_done a)) as Hopnd.
  { intro rest. apply parse_types_ok; auto.
    - intros _; apply rparen_not_comma.
    - intros _; apply rparen_not_type. }
  assert (forall st1, agree d i st1 -> exists st2,
            parse_types d b st1 (sep (map TAttr (src_types i b)) ++ rparen :: tail)
              = Some (types_flag b kb (src_types i b), st2, rparen :: tail)
            /\ reach d i st1 st2 (types_done b)) as Hres.
  { intros st1 Ha1. apply parse_types_ok; auto.
    - intros _; apply rparen_not_comma.
    - intros _; apply rparen_not_type. }
  cbn [print_elem].
  assert (forall R, R = lparen :: sep (map TAttr (src_types i b)) ++ [rparen] ->
            exists st', parse_elem d (EFunTy a b) st ((lparen :: sep (map TAttr (src_types i a)) ++ [rparen; arrow] ++ R) ++ tail)
                          = Some (true, st', tail)
            /\ reach d i st st' (elem_done d i (EFunTy a b))) as Hparen.
  { intros R ->. rewrite funty_tokens_assoc.
    destruct (Hopnd (arrow :: (lparen :: sep (map TAttr (src_types i b)) ++ [rparen]) ++ tail)) as [st1 [Hp1 H1]].
    destruct (Hres st1 (proj1 H1)) as [st2 [Hp2 H2]].
    exists st2. rewrite (funty_core _ _ _ _ _ _ _ _ Hp1).
    simpl app. change (is_lit "(" lparen) with true. cbv iota.
    rewrite <- app_assoc. simpl app. rewrite Hp2.
    change (is_lit ")" rparen) with true. cbv iota.
    split; [reflexivity | exact (reach_funty _ _ _ _ _ _ _ H1 H2)]. }
  destruct (src_types i b) as [|t [|t2 r2]] eqn:Eb.
  2: destruct (fx && lead_eqb (av_full t) LParen) eqn:Efx.
  1,2,4: destruct (Hparen _ eq_refl) as [st' Hst']; eexists; exists st'; split; [reflexivity | exact Hst'].
  (* a lone result type that does not start with `(` stands without parentheses *)
  assert (lead_eqb (av_full t) LParen = false) as Hnp.
  { destruct Hfx as [->|Hf].
    - simpl in Efx; exact Efx.
    - simpl in Hf. rewrite Eb in Hf. apply negb_true_iff in Hf; exact Hf. }
  destruct (Hopnd (arrow :: [TAttr t] ++ tail)) as [st1 [Hp1 H1]].
  destruct (parse_single_type_ok d i st1 b t tail Hio (proj1 H1) Hrb Eb) as [st2 [Hp2 H2]].
  eexists; exists st2. split; [reflexivity|].
  rewrite funty_tokens_assoc. rewrite (funty_core _ _ _ _ _ _ _ _ Hp1).
  simpl app. change (is_lit "(" (TAttr t)) with false. cbv iota.
  cbn [tok_lead]. rewrite Hnp. rewrite Hp2.
  split; [reflexivity | exact (reach_funty _ _ _ _ _ _ _ H1 H2)].
Qed.

Lemma find_adef_In : forall n l a, find_adef n l = Some a -> In a l /\ ad_name a = n.
Proof.
  intros n l a H. unfold find_adef in H. apply find_some in H. destruct H as [Hin He].
  apply String.eqb_eq in He. auto.
Qed.

Lemma attr_value_starts : forall d i n p a, IOK d i -> attr_of i n p = Some a -> starts_attr (av_full a) = true.
Proof.
  intros d i n p a Hio H. unfold attr_of in H. apply lookup_In in H. destruct p.
  - apply (io_pv _ _ Hio) in H; tauto.
  - apply (io_av _ _ Hio) in H; tauto.
Qed.

Lemma decl_required : forall d i n p k opt dflt,
  IOK d i -> attr_decl_ok d n p k opt dflt = true -> opt = false -> attr_of i n p <> None.
Proof.
  intros d i n p k opt dflt Hio Hd Ho Hnone. unfold attr_decl_ok, the_adef in Hd.
  destruct (find_adef n (if p then od_props d else od_attrs d)) as [a|] eqn:E; [|discriminate].
  apply find_adef_In in E. destruct E as [Hin Hname].
  apply andb_true_iff in Hd; destruct Hd as [Hd _]. apply andb_true_iff in Hd; destruct Hd as [Hopt _].
  apply eqb_prop in Hopt. subst opt.
  assert (adef_inst_ok (if p then i_props i else i_attrs i) a = true) as Hok.
  { destruct p; [apply (io_pdef _ _ Hio) | apply (io_adef _ _ Hio)]; exact Hin. }
  unfold adef_inst_ok in Hok. rewrite Hname in Hok. unfold attr_of in Hnone. rewrite Hnone in Hok.
  congruence.
Qed.
Lemma decl_unit : forall d i n p u opt dflt a,
  IOK d i -> attr_decl_ok d n p (AKUnit u) opt dflt = true -> attr_of i n p = Some a -> a = u.
Proof.
  intros d i n p u opt dflt a Hio Hd Hat. unfold attr_decl_ok, the_adef in Hd.
  destruct (find_adef n (if p then od_props d else od_attrs d)) as [df|] eqn:E; [|discriminate].
  apply find_adef_In in E. destruct E as [Hin Hname].
  apply andb_true_iff in Hd; destruct Hd as [_ Hu].
  destruct (ad_unit df) as [u'|] eqn:Eu; [|discriminate]. apply av_eqb_eq in Hu. subst u'.
  assert (adef_inst_ok (if p then i_props i else i_attrs i) df = true) as Hok.
  { destruct p; [apply (io_pdef _ _ Hio) | apply (io_adef _ _ Hio)]; exact Hin. }
  unfold adef_inst_ok in Hok. rewrite Hname in Hok. unfold attr_of in Hat. rewrite Hat, Eu in Hok.
  apply av_eqb_eq in Hok. exact Hok.
Qed.

Lemma parse_attr_present : forall fx d i st n p k opt dflt a tail,
  IOK d i -> agree d i st ->
  attr_decl_ok d n p k opt dflt = true ->
  attr_of i n p = Some a -> is_default a dflt = false ->
  (forall l, k = AKShort (Some l) -> opt = true -> short_item (Some l) (TShort a) = Item a) ->
  exists ts st',
    print_elem fx d i (EAttr n p k opt dflt) = Some ts /\
    parse_elem d (EAttr n p k opt dflt) st (ts ++ tail) = Some (true, st', tail)
    /\ reach d i st st' (attr_done i n p dflt).
Proof.
  intros fx d i st n p k opt dflt a tail Hio Ha Hd Hat Hnd Hsh.
  destruct (agree_set_attr d i st p n a Ha Hat) as [Ha' [He' Hl']].
  assert (reach d i st (set_attr p n a st) (attr_done i n p dflt)) as Hst.
  { split; [exact Ha'|]. split; [exact He'|]. intros a' Hat'. rewrite Hat in Hat'. injection Hat' as <-. right. exact Hl'. }
  cbn [print_elem]. rewrite Hat, Hnd.
  destruct k as [|trig|u].
  - exists [TAttr a], (set_attr p n a st). split; [reflexivity|].
    split; [|exact Hst]. cbn [parse_elem app].
    pose proof (attr_value_starts d i n p a Hio Hat) as Hs.
    destruct opt; cbn [parse_opt_one parse_one]; rewrite (attr_item_TAttr a Hs); reflexivity.
  - exists [TShort a], (set_attr p n a st). split; [reflexivity|].
    split; [|exact Hst]. cbn [parse_elem app].
    destruct opt; [destruct trig as [l|]|].
    + cbn [parse_opt_one]. rewrite (Hsh l eq_refl eq_refl). reflexivity.
    + reflexivity.
    + reflexivity.
  - pose proof (decl_unit d i n p u opt dflt a Hio Hd Hat) as ->.
    exists [], (set_attr p n u st). split; [reflexivity|].
    split; [reflexivity | exact Hst].
Qed.

Lemma parse_attr_silent : forall fx d i st n p k dflt tail,
  agree d i st ->
  (attr_of i n p = None \/ exists a, attr_of i n p = Some a /\ is_default a dflt = true) ->
  (match k with
   | AKGeneric => forall t, hd_error tail = Some t -> tok_matches GAttr t = false
   | AKShort (Some l) => forall t, hd_error tail = Some t -> short_item (Some l) t = NoItem
   | _ => False
   end) ->
  print_elem fx d i (EAttr n p k true dflt) = Some [] /\
  parse_elem d (EAttr n p k true dflt) st tail = Some (false, st, tail)
  /\ attr_done i n p dflt st.
Proof.
  intros fx d i st n p k dflt tail Ha Hv Hk. split; [|split].
  - cbn [print_elem]. destruct Hv as [->|[a [-> ->]]]; reflexivity.
  - cbn [parse_elem]. destruct k as [|[l|]|u]; try contradiction.
    + destruct tail as [|t r]; [reflexivity|]. cbn [parse_opt_one].
      rewrite (attr_item_NoItem t (Hk t eq_refl)). reflexivity.
    + destruct tail as [|t r]; [reflexivity|]. cbn [parse_opt_one].
      rewrite (Hk t eq_refl). reflexivity.
  - intros a Hat. destruct Hv as [Hn|[a' [Ha' Hd']]].
    + rewrite Hn in Hat; discriminate.
    + rewrite Ha' in Hat; inversion Hat; subst; left; exact Hd'.
Qed.

Lemma split_dict_ok : forall d i E dct st,
  agree d i st ->
  (forall n a, In (n, a) dct -> attr_of i n (mem n E) = Some a) ->
  agree d i (split_dict E dct st) /\ extends st (split_dict E dct st) /\
  (forall n a, In (n, a) dct ->
     lookup n (if mem n E then p_props (split_dict E dct st) else p_attrs (split_dict E dct st)) = Some a).
Proof.
  intros d i E dct. unfold split_dict.
  induction dct as [|[n a] r IH]; intros st Ha Hin; simpl.
  - split; [exact Ha|]. split; [apply extends_refl|]. intros n a [].
  - destruct (agree_set_attr d i st (mem n E) n a Ha (Hin n a (or_introl eq_refl))) as [Ha1 [He1 Hl1]].
    destruct (IH (set_attr (mem n E) n a st) Ha1 (fun n' a' H => Hin n' a' (or_intror H))) as [Ha2 [He2 Hl2]].
    split; [exact Ha2|]. split; [eapply extends_trans; eassumption|].
    intros n' a' [Heq|Hr].
    + injection Heq as <- <-. exact (lookup_keep d i _ _ (mem n E) n a Ha1 Ha2 He2 Hl1).
    + apply Hl2; exact Hr.
Qed.

Lemma filter_nil_forall : forall A (g : A -> bool) l, filter g l = [] -> forall x, In x l -> g x = false.
Proof.
  induction l as [|y r IH]; simpl; intros H x Hin; [destruct Hin|].
  destruct (g y) eqn:E; [discriminate|]. destruct Hin as [->|Hin]; auto.
Qed.

Lemma existsb_false_forall : forall A (g : A -> bool) l, (forall x, In x l -> g x = false) -> existsb g l = false.
Proof.
  induction l as [|y r IH]; simpl; intro H; [reflexivity|].
  rewrite (H y (or_introl eq_refl)). apply IH. intros x Hx; apply H; right; exact Hx.
Qed.

Lemma dict_declines : forall d kw rs ex st tail,
  untrig (trig_of d (EAttrDict kw rs ex)) tail ->
  parse_elem d (EAttrDict kw rs ex) st tail = Some (false, st, tail).
Proof.
  intros d kw rs ex st tail Hu. cbn [parse_elem]. destruct tail as [|t r]; [reflexivity|].
  pose proof (fun g => Hu t eq_refl g) as Ht.
  destruct kw; cbn [trig_of] in Ht; specialize (Ht _ (or_introl eq_refl));
    destruct t as [s l|v|a|a|[|] dct]; cbn in Ht |- *; try reflexivity; try discriminate; rewrite Ht; reflexivity.
Qed.

Definition clash_free (expected : list string) (i : inst) : Prop :=
  forall n a, In (n, a) (i_attrs i) -> ~ In n expected.

Lemma parse_dict_ok : forall fx d i st kw reserved expected tail,
  IOK d i -> agree d i st -> clash_free expected i ->
  untrig (trig_of d (EAttrDict kw reserved expected)) tail ->
  exists ts flag st',
    print_elem fx d i (EAttrDict kw reserved expected) = Some ts /\
    parse_elem d (EAttrDict kw reserved expected) st (ts ++ tail) = Some (flag, st', tail)
    /\ reach d i st st' (elem_done d i (EAttrDict kw reserved expected)).
Proof.
  intros fx d i st kw reserved expected tail Hio Ha Hcf Hu.
  cbn [print_elem].
  assert (forall n a, In (n, a) (i_attrs i) -> mem n expected = false) as Hmf.
  { intros n a Hin. destruct (mem n expected) eqn:E; [|reflexivity].
    apply mem_In in E. exfalso; exact (Hcf n a Hin E). }
  rewrite (existsb_false_forall _ (fun na => mem (fst na) expected) (i_attrs i))
    by (intros [n a] Hin; exact (Hmf n a Hin)).
  (* where every shown entry comes from *)
  assert (forall n a, In (n, a) (dict_shown d i reserved expected) ->
            attr_of i n (mem n expected) = Some a /\ mem n reserved = false) as Hshown.
  { intros n a Hin. unfold dict_shown in Hin. apply filter_In in Hin. destruct Hin as [Hin Hf].
    simpl in Hf. apply andb_true_iff in Hf. destruct Hf as [Hr _]. apply negb_true_iff in Hr.
    split; [|exact Hr]. apply in_app_or in Hin. destruct Hin as [Hin|Hin].
    - rewrite (Hmf n a Hin). unfold attr_of. apply nodup_keys_lookup; [apply (io_and _ _ Hio) | exact Hin].
    - apply filter_In in Hin. destruct Hin as [Hin Hm]. simpl in Hm. rewrite Hm.
      unfold attr_of. apply nodup_keys_lookup; [apply (io_pnd _ _ Hio) | exact Hin]. }
  (* what is not shown is reserved or equal to its default *)
  assert (forall n a, (lookup n (i_attrs i) = Some a \/ (lookup n (i_props i) = Some a /\ In n expected)) ->
            ~ In n reserved -> In (n, a) (dict_shown d i reserved expected) \/ dict_default_eq d expected n a = true) as Hcover.
  { intros n a Hsrc Hnr.
    destruct (dict_default_eq d expected n a) eqn:Ed; [right; reflexivity|left].
    unfold dict_shown. apply filter_In. split.
    - apply in_or_app. destruct Hsrc as [H|[H He]].
      + left; apply lookup_In; exact H.
      + right. apply filter_In. split; [apply lookup_In; exact H|]. simpl. apply mem_In; exact He.
    - simpl. rewrite Ed. destruct (mem n reserved) eqn:Er; [|reflexivity].
      apply mem_In in Er; contradiction. }
  destruct (dict_shown d i reserved expected) as [|e0 sh] eqn:Esh.
  - (* nothing to print: the parser must decline on the tail *)
    exists [], false, st. split; [reflexivity|]. split; [exact (dict_declines d kw reserved expected st tail Hu)|].
    apply reach_refl; [exact Ha|]. simpl. split.
    + intros n a Hl Hnr. right. destruct (Hcover n a (or_introl Hl) Hnr) as [[]|H]; exact H.
    + intros n a Hl He Hnr. right.
      destruct (Hcover n a (or_intror (conj Hl He)) Hnr) as [[]|H]; exact H.
  - (* the dictionary is printed as one token and read back entry by entry *)
    destruct (split_dict_ok d i expected (e0 :: sh) st Ha (fun n a H => proj1 (Hshown n a H))) as [Ha' [He' Hl']].
    exists [TDict kw (e0 :: sh)], true, (split_dict expected (e0 :: sh) st).
    split; [reflexivity|]. split.
    { cbn [parse_elem app]. rewrite Bool.eqb_reflx.
      rewrite (existsb_false_forall _ (fun na => mem (fst na) reserved) (e0 :: sh)).
      - reflexivity.
      - intros [n a] Hin. simpl. exact (proj2 (Hshown n a Hin)). }
    split; [exact Ha'|]. split; [exact He'|].
    simpl. split.
    + intros n a Hl Hnr. destruct (Hcover n a (or_introl Hl) Hnr) as [Hin|H]; [left|right; exact H].
      specialize (Hl' n a Hin). rewrite (Hmf n a (lookup_In _ _ _ Hl)) in Hl'. exact Hl'.
    + intros n a Hl He Hnr. destruct (Hcover n a (or_intror (conj Hl He)) Hnr) as [Hin|H]; [left|right; exact H].
      specialize (Hl' n a Hin). rewrite (proj2 (mem_In n expected) He) in Hl'. exact Hl'.
Qed.

(* One element in a context:
   its own tokens are printed whatever the state, and from any state that agrees, followed by any
   tail that does not trigger gs, exactly they are parsed *)
Definition estep (fx : bool) (d : opdef) (i : inst) (e : elem) (gs : list atrig) (needflag : bool) : Prop :=
  exists ts, print_elem fx d i e = Some ts /\
    forall st tail, agree d i st -> untrig gs tail ->
    exists flag st',
      parse_elem d e st (ts ++ tail) = Some (flag, st', tail) /\
      (needflag = true -> flag = true) /\ reach d i st st' (elem_done d i e).

(* the initial state agrees and an empty tail triggers nothing: what is printed can be read off there *)
Lemma estep_intro : forall fx d i e gs needflag,
  (forall st tail, agree d i st -> untrig gs tail ->
   exists ts flag st',
     print_elem fx d i e = Some ts /\ parse_elem d e st (ts ++ tail) = Some (flag, st', tail) /\
     (needflag = true -> flag = true) /\ reach d i st st' (elem_done d i e)) ->
  estep fx d i e gs needflag.
Proof.
  intros fx d i e gs needflag H.
  destruct (H (init_pst d) [] (agree_init d i)) as [ts [_ [_ [Hp _]]]]; [intros t Ht; discriminate Ht|].
  exists ts. split; [exact Hp|]. intros st tail Ha Hu.
  destruct (H st tail Ha Hu) as [ts' [flag [st' [Hp' Hrest]]]].
  rewrite Hp in Hp'. injection Hp' as <-. exists flag, st'. exact Hrest.
Qed.

Lemma estep_any_flag : forall fx d i e gs b, estep fx d i e gs b -> estep fx d i e gs false.
Proof.
  intros fx d i e gs b [ts [Hp H]]. exists ts. split; [exact Hp|]. intros st tail Ha Hu.
  destruct (H st tail Ha Hu) as [flag [st' [Hpa [_ Hr]]]]. exists flag, st'. split; [exact Hpa|]. split; [discriminate | exact Hr].
Qed.
