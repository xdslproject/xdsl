(* C22/ProofsFrame.v -- PrologueEpilogueInsertion on a byte-level stack machine (Model.v: mstate, exec_instr).

   Spec.  `prologue`/`epilogue` are the op lists the pass inserts for the ordered set `used` of written callee-saved
   registers.  For ANY function body (an arbitrary state transformer) that leaves sp and the frame bytes
   [sp', sp' + stack_size) as it found them, running prologue; body; epilogue restores sp and every register of
   `used`; the epilogue touches no other register.  Addresses wrap at 2^32; the only size condition is that the
   frame is not larger than the address space. *)
From Coq Require Import ZArith List Bool Lia.
From XV Require Import C22.Model C22.ProofsArith.
Import ListNotations.
Local Open Scope Z_scope.

Lemma wrap_offset_inj B o1 o2 : 0 <= o1 < M32 -> 0 <= o2 < M32 -> wrap (B + o1) = wrap (B + o2) -> o1 = o2.
Proof.
  intros H1 H2 E. unfold wrap in E.
  assert (D : (o1 - o2) mod M32 = 0).
  { replace (o1 - o2) with ((B + o1) - (B + o2)) by ring. rewrite Zminus_mod, E, Z.sub_diag. reflexivity. }
  apply Z.mod_divide in D; [| unfold M32; lia]. destruct D as [q D].
  assert (q = 0) by (unfold M32 in *; nia). subst q. lia.
Qed.

Lemma store_bytes_other k : forall m a v x,
  (forall t, 0 <= t < Z.of_nat k -> wrap (a + t) <> x) -> store_bytes m a v k x = m x.
Proof.
  induction k as [| k IH]; intros m a v x H; cbn [store_bytes]; [reflexivity |].
  rewrite IH.
  - destruct (Z.eqb_spec x (wrap a)) as [E | _]; [| reflexivity].
    exfalso. apply (H 0); [lia |]. rewrite Z.add_0_r. auto.
  - intros t Ht. replace (a + 1 + t) with (a + (t + 1)) by ring. apply H. lia.
Qed.

Lemma load_bytes_ext k : forall m1 m2 a,
  (forall t, 0 <= t < Z.of_nat k -> m1 (wrap (a + t)) = m2 (wrap (a + t))) ->
  load_bytes m1 a k = load_bytes m2 a k.
Proof.
  induction k as [| k IH]; intros m1 m2 a H; cbn [load_bytes]; [reflexivity |].
  rewrite (IH m1 m2 (a + 1)).
  - f_equal. specialize (H 0 ltac:(lia)). rewrite Z.add_0_r in H. exact H.
  - intros t Ht. replace (a + 1 + t) with (a + (t + 1)) by ring. apply H. lia.
Qed.

Lemma load_store_same k : forall m a v, Z.of_nat k <= M32 ->
  load_bytes (store_bytes m a v k) a k = v mod 256 ^ Z.of_nat k.
Proof.
  induction k as [| k IH]; intros m a v Hk.
  - cbn. symmetry. apply Z.mod_1_r.
  - cbn [store_bytes load_bytes]. rewrite IH by lia.
    rewrite store_bytes_other.
    + rewrite Z.eqb_refl. rewrite Nat2Z.inj_succ, Z.pow_succ_r by lia.
      symmetry. apply Z.rem_mul_r; [lia |]. apply Z.pow_pos_nonneg; lia.
    + intros t Ht E. replace (a + 1 + t) with (a + (1 + t)) in E by ring.
      replace (wrap a) with (wrap (a + 0)) in E by (f_equal; ring).
      apply wrap_offset_inj in E; unfold M32 in *; lia.
Qed.

Lemma reg_eq_dec (a b : reg) : {a = b} + {a <> b}.
Proof. decide equality; [apply Z.eq_dec | apply Bool.bool_dec]. Qed.

Lemma getr_setr_same s r v : getr (setr s r v) r = v.
Proof. destruct r as [[|] i]; unfold getr, setr; cbn; rewrite Z.eqb_refl; reflexivity. Qed.
Lemma getr_setr_other s r r' v : r <> r' -> getr (setr s r v) r' = getr s r'.
Proof.
  intros H. destruct r as [b i], r' as [b' i']. unfold getr, setr. destruct b, b'; cbn; try reflexivity.
  - destruct (Z.eqb_spec i' i); [subst; contradiction H; reflexivity | reflexivity].
  - destruct (Z.eqb_spec i' i); [subst; contradiction H; reflexivity | reflexivity].
Qed.
Lemma mem_setr s r v : mem (setr s r v) = mem s.
Proof. destruct r as [[|] i]; reflexivity. Qed.
Lemma xr_setr_other s r v j : r <> (false, j) -> xr (setr s r v) j = xr s j.
Proof. intros H. exact (getr_setr_other s r (false, j) v H). Qed.

Section Frame.
Variables xlen flen : Z.
Hypothesis Hx : 0 <= xlen.
Hypothesis Hf : 0 <= flen.
Notation size := (reg_size xlen flen).
Notation total := (stack_size xlen flen).
Notation slots := (slots xlen flen).
Notation run := (exec_instrs xlen flen).

Lemma size_nonneg r : 0 <= size r.
Proof. unfold reg_size. destruct (fst r); assumption. Qed.
Lemma total_cons r u : total (r :: u) = size r + total u.
Proof. reflexivity. Qed.
Lemma total_nonneg used : 0 <= total used.
Proof.
  induction used as [| r u IH]; [cbn; lia |]. rewrite total_cons. pose proof (size_nonneg r). lia.
Qed.

Definition saves (sl : list (reg * Z)) : list instr := map (fun s => ISave (fst s) (snd s)) sl.
Definition restores (sl : list (reg * Z)) : list instr := map (fun s => IRestore (fst s) (snd s)) sl.

Lemma saves_spec : forall used off s,
  0 <= off -> off + total used <= M32 ->
  let s' := run (saves (slots used off)) s in
  xr s' = xr s /\ fr s' = fr s /\
  (forall x, (forall o, off <= o < off + total used -> wrap (xr s SP + o) <> x) -> mem s' x = mem s x) /\
  (forall r o, In (r, o) (slots used off) ->
     load_bytes (mem s') (xr s SP + o) (Z.to_nat (size r)) = getr s r mod 256 ^ size r).
Proof.
  induction used as [| r u IH]; intros off s Hoff Htot.
  - cbn. repeat split; auto. intros r o [].
  - cbn [Model.slots saves map exec_instrs fold_left fst snd]. rewrite total_cons in Htot.
    pose proof (size_nonneg r) as Hs. pose proof (total_nonneg u) as Hu.
    set (s1 := exec_instr xlen flen s (ISave r off)).
    assert (X1 : xr s1 = xr s) by reflexivity. assert (F1 : fr s1 = fr s) by reflexivity.
    assert (G1 : forall q, getr s1 q = getr s q) by (intros q; reflexivity).
    specialize (IH (off + size r) s1 ltac:(lia) ltac:(lia)).
    cbn zeta in IH. fold (saves (slots u (off + size r))) in *.
    change (fold_left (exec_instr xlen flen) (saves (slots u (off + size r))) s1)
      with (run (saves (slots u (off + size r))) s1).
    destruct IH as (IX & IF & IM & IL). rewrite X1 in IM, IL.
    assert (M1 : forall x, (forall t, 0 <= t < size r -> wrap (xr s SP + off + t) <> x) -> mem s1 x = mem s x).
    { intros x H. unfold s1. cbn [exec_instr mem]. apply store_bytes_other.
      intros t Ht. rewrite Z2Nat.id in Ht by assumption. apply H. lia. }
    split; [rewrite IX; exact X1 |]. split; [rewrite IF; exact F1 |]. split.
    + intros x H. rewrite IM.
      * apply M1. intros t Ht. replace (xr s SP + off + t) with (xr s SP + (off + t)) by ring.
        apply H. rewrite total_cons. lia.
      * intros o Ho. apply H. rewrite total_cons. lia.
    + intros r' o [E | Hin].
      * inversion E; subst r' o.
        rewrite (load_bytes_ext _ _ (mem s1)).
        -- unfold s1. cbn [exec_instr mem]. rewrite load_store_same.
           ++ rewrite Z2Nat.id by assumption. reflexivity.
           ++ rewrite Z2Nat.id by assumption. lia.
        -- intros t Ht. rewrite Z2Nat.id in Ht by assumption. apply IM.
           intros o Ho E'. replace (xr s SP + off + t) with (xr s SP + (off + t)) in E' by ring.
           apply wrap_offset_inj in E'; lia.
      * rewrite (IL _ _ Hin). rewrite G1. reflexivity.
Qed.

Lemma restores_spec : forall used off s,
  Forall (fun r => r <> (false, SP)) used -> NoDup used ->
  let s' := run (restores (slots used off)) s in
  mem s' = mem s /\ xr s' SP = xr s SP /\
  (forall r, ~ In r used -> getr s' r = getr s r) /\
  (forall r o, In (r, o) (slots used off) ->
     getr s' r = load_bytes (mem s) (xr s SP + o) (Z.to_nat (size r))).
Proof.
  induction used as [| r u IH]; intros off s Hsp Hnd.
  - cbn. repeat split; auto. intros r o [].
  - cbn [Model.slots restores map exec_instrs fold_left fst snd].
    inversion Hsp as [| ? ? Hr Hsp']; subst. inversion Hnd as [| ? ? Hnin Hnd']; subst.
    set (s1 := exec_instr xlen flen s (IRestore r off)).
    assert (M1 : mem s1 = mem s) by (unfold s1; cbn [exec_instr]; apply mem_setr).
    assert (P1 : xr s1 SP = xr s SP) by (unfold s1; cbn [exec_instr]; apply xr_setr_other; exact Hr).
    specialize (IH (off + size r) s1 Hsp' Hnd'). cbn zeta in IH.
    fold (restores (slots u (off + size r))) in *.
    change (fold_left (exec_instr xlen flen) (restores (slots u (off + size r))) s1)
      with (run (restores (slots u (off + size r))) s1).
    destruct IH as (IM & IP & IO & IL).
    split; [rewrite IM; exact M1 |]. split; [rewrite IP; exact P1 |]. split.
    + intros q Hq. rewrite IO by (intros C; apply Hq; right; exact C).
      unfold s1. cbn [exec_instr]. apply getr_setr_other. intros C. apply Hq. left. exact C.
    + intros r' o [E | Hin].
      * inversion E; subst r' o. rewrite IO by exact Hnin. unfold s1. cbn [exec_instr]. apply getr_setr_same.
      * rewrite (IL _ _ Hin). rewrite M1, P1. reflexivity.
Qed.

Lemma slots_regs used : forall off r, In r used -> exists o, In (r, o) (slots used off).
Proof.
  induction used as [| q u IH]; intros off r []; cbn [Model.slots].
  - subst. eexists. left. reflexivity.
  - destruct (IH (off + size q) r H) as [o Ho]. exists o. right. exact Ho.
Qed.
Lemma slots_range used : forall off r o, In (r, o) (slots used off) ->
  off <= o /\ o + size r <= off + total used.
Proof.
  induction used as [| q u IH]; intros off r o []; rewrite total_cons.
  - inversion H; subst. pose proof (total_nonneg u). lia.
  - apply IH in H. pose proof (size_nonneg q). lia.
Qed.

(* a body: any state transformer that hands back sp and the frame bytes unchanged *)
Definition body_ok (body : mstate -> mstate) (used : list reg) : Prop :=
  forall s, xr (body s) SP = xr s SP /\
            (forall o, 0 <= o < total used -> mem (body s) (wrap (xr s SP + o)) = mem s (wrap (xr s SP + o))).

Definition regs_in_range (s : mstate) (used : list reg) : Prop :=
  (0 <= xr s SP < M32) /\ forall r, In r used -> 0 <= getr s r < 256 ^ size r.

Theorem frame_restores used body s0 :
  Forall (fun r => is_callee_saved r = true) used -> NoDup used -> total used <= M32 ->
  body_ok body used -> regs_in_range s0 used ->
  let s1 := run (prologue xlen flen used) s0 in
  let s2 := body s1 in
  let s3 := run (epilogue xlen flen used) s2 in
  xr s3 SP = xr s0 SP /\
  (forall r, In r used -> getr s3 r = getr s0 r) /\
  (forall r, ~ In r used -> r <> (false, SP) -> getr s3 r = getr s2 r) /\
  (forall r, r <> (false, SP) -> getr s1 r = getr s0 r).
Proof.
  intros Hcs Hnd Htot Hbody (Hsp0 & Hrange). cbn zeta.
  assert (Hnsp : Forall (fun r => r <> (false, SP)) used).
  { rewrite Forall_forall in *. intros r Hin E. specialize (Hcs r Hin). subst r. discriminate. }
  unfold prologue, epilogue. cbn [exec_instrs fold_left].
  set (sA := exec_instr xlen flen s0 (IAddiSp (- total used))).
  set (B := xr sA SP).
  assert (GA : forall r, r <> (false, SP) -> getr sA r = getr s0 r).
  { intros r Hr. unfold sA. cbn [exec_instr]. apply getr_setr_other. intros C. apply Hr. symmetry. exact C. }
  fold (saves (slots used 0)). fold (restores (slots used 0)).
  change (fold_left (exec_instr xlen flen) (saves (slots used 0)) sA) with (run (saves (slots used 0)) sA).
  destruct (saves_spec used 0 sA ltac:(lia) ltac:(lia)) as (SX & SF & SM & SL).
  set (s1 := run (saves (slots used 0)) sA) in *.
  destruct (Hbody s1) as (BP & BM).
  assert (P1 : xr s1 SP = B) by (rewrite SX; reflexivity).
  unfold exec_instrs. rewrite fold_left_app. cbn [fold_left].
  change (fold_left (exec_instr xlen flen) (restores (slots used 0)) (body s1))
    with (run (restores (slots used 0)) (body s1)).
  destruct (restores_spec used 0 (body s1) Hnsp Hnd) as (RM & RP & RO & RL).
  set (sR := run (restores (slots used 0)) (body s1)) in *.
  assert (G1 : forall r, r <> (false, SP) -> getr s1 r = getr s0 r).
  { intros r Hr. rewrite <- (GA r Hr). unfold getr. rewrite SX, SF. reflexivity. }
  split; [| split; [| split]].
  - cbn [exec_instr]. change (xr (setr sR (false, SP) (wrap (xr sR SP + wrap (total used)))) SP)
      with (getr (setr sR (false, SP) (wrap (xr sR SP + wrap (total used)))) (false, SP)).
    rewrite getr_setr_same. rewrite RP, BP, P1. unfold B, sA. cbn [exec_instr].
    change (xr (setr s0 (false, SP) (wrap (xr s0 SP + wrap (- total used)))) SP)
      with (getr (setr s0 (false, SP) (wrap (xr s0 SP + wrap (- total used)))) (false, SP)).
    rewrite getr_setr_same. rewrite wrap_add_l, wrap_add_r.
    replace (xr s0 SP + wrap (- total used) + total used) with (xr s0 SP + total used + wrap (- total used)) by ring.
    rewrite wrap_add_r. replace (xr s0 SP + total used + - total used) with (xr s0 SP) by ring.
    apply wrap_small. exact Hsp0.
  - intros r Hin. pose proof (proj1 (Forall_forall _ _) Hnsp r Hin) as Hr.
    cbn [exec_instr]. rewrite getr_setr_other by (intros C; apply Hr; symmetry; exact C).
    destruct (slots_regs used 0 r Hin) as [o Ho]. rewrite (RL _ _ Ho). rewrite BP, P1.
    pose proof (slots_range _ _ _ _ Ho) as [Ho1 Ho2]. pose proof (size_nonneg r) as Hs.
    rewrite (load_bytes_ext _ _ (mem s1)).
    + fold B in SL. rewrite (SL _ _ Ho). rewrite (GA r Hr). apply Z.mod_small. apply Hrange. exact Hin.
    + intros t Ht. rewrite Z2Nat.id in Ht by assumption.
      replace (B + o + t) with (xr s1 SP + (o + t)) by (rewrite P1; ring). apply BM. lia.
  - intros r Hnin Hr. cbn [exec_instr]. rewrite getr_setr_other by (intros C; apply Hr; symmetry; exact C).
    apply RO. exact Hnin.
  - exact G1.
Qed.

End Frame.

Lemma dedup_NoDup l : forall seen, NoDup (dedup l seen) /\ forall r, In r (dedup l seen) -> In r l /\ ~ In r seen.
Proof.
  induction l as [| r l IH]; intros seen; cbn [dedup].
  - split; [constructor | intros r []].
  - destruct (existsb (reg_eqb r) seen) eqn:E.
    + destruct (IH seen) as [N S]. split; [exact N |]. intros q Hq. destruct (S q Hq). split; [right |]; assumption.
    + destruct (IH (r :: seen)) as [N S]. split.
      * constructor; [| exact N]. intros C. destruct (S r C) as [_ C']. apply C'. left. reflexivity.
      * intros q [-> | Hq].
        -- split; [left; reflexivity |]. intros C.
           assert (existsb (reg_eqb q) seen = true).
           { apply existsb_exists. exists q. split; [exact C |]. unfold reg_eqb. destruct q as [[|] i]; cbn; apply Z.eqb_refl. }
           congruence.
        -- destruct (S q Hq) as [A B]. split; [right; exact A |]. intros C. apply B. right. exact C.
Qed.

Theorem used_callee_saved_spec written :
  NoDup (used_callee_saved written) /\
  Forall (fun r => is_callee_saved r = true) (used_callee_saved written) /\
  (forall r, In r written -> is_callee_saved r = true -> In r (used_callee_saved written)).
Proof.
  unfold used_callee_saved. destruct (dedup_NoDup (filter is_callee_saved written) []) as [N S].
  split; [exact N |]. split.
  - apply Forall_forall. intros r Hr. destruct (S r Hr) as [A _]. apply filter_In in A. apply A.
  - intros r Hin Hcs.
    assert (G : forall l seen, In r l -> ~ In r seen -> In r (dedup l seen)).
    { induction l as [| q l IH]; intros seen H1 H2; [destruct H1 |]. cbn [dedup].
      destruct (existsb (reg_eqb q) seen) eqn:E.
      - destruct H1 as [-> | H1]; [| apply IH; assumption].
        exfalso. apply existsb_exists in E. destruct E as [x [Hx Ex]]. unfold reg_eqb in Ex.
        apply andb_true_iff in Ex. destruct Ex as [E1 E2]. apply Bool.eqb_prop in E1. apply Z.eqb_eq in E2.
        destruct r, x; cbn in *; subst. contradiction.
      - destruct H1 as [-> | H1]; [left; reflexivity |].
        destruct (reg_eq_dec q r) as [-> | Hne]; [left; reflexivity |]. right. apply IH; [exact H1 |].
        intros [C | C]; [contradiction | contradiction]. }
    apply G; [apply filter_In; auto | intros []].
Qed.

Lemma total_app xlen flen l1 l2 :
  stack_size xlen flen (l1 ++ l2) = stack_size xlen flen l1 + stack_size xlen flen l2.
Proof.
  induction l1 as [| r l IH]; [reflexivity |]. cbn [app]. rewrite !total_cons, IH. ring.
Qed.

Lemma total_incl xlen flen : 0 <= xlen -> 0 <= flen -> forall l l', NoDup l -> incl l l' ->
  stack_size xlen flen l <= stack_size xlen flen l'.
Proof.
  intros Hx Hf. induction l as [| r u IH]; intros l' Hnd Hinc.
  - cbn. apply total_nonneg; assumption.
  - inversion Hnd as [| ? ? Hnin Hnd']; subst.
    destruct (in_split r l' (Hinc r (or_introl eq_refl))) as (l1 & l2 & ->).
    rewrite total_cons, total_app, total_cons.
    assert (I : incl u (l1 ++ l2)).
    { intros x Hx'. specialize (Hinc x (or_intror Hx')). apply in_app_or in Hinc. apply in_or_app.
      destruct Hinc as [A | [A | A]]; [left; exact A | subst; contradiction | right; exact A]. }
    specialize (IH _ Hnd' I). rewrite total_app in IH. lia.
Qed.

Definition all_callee_saved : list reg :=
  flat_map (fun i => [(false, i); (true, i)]) [8; 9; 18; 19; 20; 21; 22; 23; 24; 25; 26; 27].

Lemma callee_saved_in r : is_callee_saved r = true -> In r all_callee_saved.
Proof.
  destruct r as [b i]. unfold is_callee_saved. cbn [snd]. intros H.
  apply in_flat_map. exists i. split; [| destruct b; cbn; auto].
  apply orb_true_iff in H. destruct H as [H | H].
  - apply orb_true_iff in H. destruct H as [H | H]; apply Z.eqb_eq in H; cbn; lia.
  - apply andb_true_iff in H. destruct H as [A B]. apply Z.leb_le in A. apply Z.leb_le in B. cbn. lia.
Qed.

Theorem frame_size_le xlen flen written : 0 <= xlen -> 0 <= flen ->
  0 <= stack_size xlen flen (used_callee_saved written) <= 12 * (xlen + flen).
Proof.
  intros Hx Hf. destruct (used_callee_saved_spec written) as (N & C & _).
  split; [apply total_nonneg; assumption |].
  replace (12 * (xlen + flen)) with (stack_size xlen flen all_callee_saved)
    by (unfold all_callee_saved, stack_size, reg_size; cbn [flat_map app fold_right fst]; lia).
  apply total_incl; [assumption | assumption | exact N |].
  intros r Hr. apply callee_saved_in. rewrite Forall_forall in C. auto.
Qed.

(* xlen = 4, flen = 8 (the pass defaults): the sp adjustment is at most 144 and fits the 12-bit immediate *)
Theorem frame_size_bound written :
  0 <= stack_size 4 8 (used_callee_saved written) <= 144.
Proof. apply (frame_size_le 4 8); lia. Qed.

Section Claims.
Variables xlen flen : Z.
Hypothesis Hx : 0 <= xlen.
Hypothesis Hf : 0 <= flen.
Variable written : list reg.            (* result registers of the ops of the function, in walk order *)
Let used := used_callee_saved written.
Hypothesis Hfit : stack_size xlen flen used <= M32.
Variable body : mstate -> mstate.
Hypothesis Hbody : body_ok xlen flen body used.
(* the body writes no callee-saved register other than those the pass saw being written *)
Hypothesis Hwrites : forall s r, is_callee_saved r = true -> ~ In r used -> getr (body s) r = getr s r.
Variable s0 : mstate.
Hypothesis Hrange : regs_in_range xlen flen s0 used.

Let s3 := exec_instrs xlen flen (epilogue xlen flen used)
            (body (exec_instrs xlen flen (prologue xlen flen used) s0)).

Theorem sp_restored : xr s3 SP = xr s0 SP.
Proof.
  destruct (used_callee_saved_spec written) as (N & C & _).
  exact (proj1 (frame_restores xlen flen Hx Hf used body s0 C N Hfit Hbody Hrange)).
Qed.

Theorem callee_saved_preserved : forall r, is_callee_saved r = true -> getr s3 r = getr s0 r.
Proof.
  intros r Hr. destruct (used_callee_saved_spec written) as (N & C & _).
  destruct (frame_restores xlen flen Hx Hf used body s0 C N Hfit Hbody Hrange) as (_ & A & B & D).
  assert (Hsp : r <> (false, SP)) by (intros ->; discriminate).
  destruct (in_dec reg_eq_dec r used) as [Hin | Hnin].
  - apply A. exact Hin.
  - unfold s3. rewrite (B r Hnin Hsp). rewrite (Hwrites _ r Hr Hnin). apply D. exact Hsp.
Qed.
End Claims.
