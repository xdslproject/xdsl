(* C06/ProofsText.v -- proofs about the text kernels of C06/Model.v:
   digits (decimal / hex) round trip, UTF-8 round trip, escape / unescape / literal regex,
   STRING_LIT vs BYTES_LIT classification, the token-level lexer lemmas used by the other files. *)
From Coq Require Import ZArith List Bool Lia String Ascii.
From XV Require Import C06.Model.
Import ListNotations.
Local Open Scope Z_scope.

Lemma text_eqb_refl : forall a, text_eqb a a = true.
Proof. induction a as [|x a IH]; cbn; [reflexivity|]. rewrite Z.eqb_refl, IH. reflexivity. Qed.

Lemma text_eqb_eq : forall a b, text_eqb a b = true -> a = b.
Proof.
  induction a as [|x a IH]; destruct b as [|y b]; cbn; intros H; try discriminate; [reflexivity|].
  apply andb_true_iff in H as [H1 H2]. apply Z.eqb_eq in H1. subst. f_equal. auto.
Qed.

Lemma span_while_app : forall p a rest,
  forallb p a = true -> (match rest with [] => True | c :: _ => p c = false end) ->
  span_while p (a ++ rest) = (a, rest).
Proof.
  induction a as [|x a IH]; cbn; intros rest Ha Hr.
  - destruct rest as [|c r]; [reflexivity|]. cbn. rewrite Hr. reflexivity.
  - apply andb_true_iff in Ha as [Hx Ha]. rewrite Hx, (IH rest Ha Hr). reflexivity.
Qed.

(* `in_rng`, `is_digit`, `is_cont`, the arms of `digit_val` and the lead-byte cascade of `utf8_dec` are
   all tests of this form *)
Lemma range_in : forall lo hi c, lo <= c <= hi -> (lo <=? c) && (c <=? hi) = true.
Proof. intros lo hi c H. lia. Qed.

Lemma range_out : forall lo hi c, c < lo \/ hi < c -> (lo <=? c) && (c <=? hi) = false.
Proof. intros lo hi c H. lia. Qed.

(* `injection` normalises both sides; on lists of Z expressions this is much cheaper *)
Lemma some_inj : forall {A} (x y : A), Some x = Some y -> x = y.
Proof. intros A x y H. injection H as H. exact H. Qed.

Lemma digit_val_char : forall up d, 0 <= d < 16 -> digit_val (digit_char up d) = Some d.
Proof.
  intros up d Hd. unfold digit_char, digit_val. destruct (Z.ltb_spec d 10).
  - rewrite range_in by lia. f_equal. lia.
  - destruct up.
    + rewrite (range_out 48 57), (range_in 65 70) by lia. f_equal. lia.
    + rewrite (range_out 48 57), (range_out 65 70), (range_in 97 102) by lia. f_equal. lia.
Qed.

Lemma is_hexdigit_char : forall up d, 0 <= d < 16 -> is_hexdigit (digit_char up d) = true.
Proof. intros. unfold is_hexdigit. rewrite digit_val_char; auto. Qed.

Lemma is_digit_char : forall up d, 0 <= d < 10 -> is_digit (digit_char up d) = true.
Proof.
  intros up d Hd. unfold is_digit, digit_char. destruct (Z.ltb_spec d 10); [|lia]. apply range_in. lia.
Qed.

Lemma is_digit_hexdigit : forall c, is_digit c = true -> is_hexdigit c = true.
Proof. intros c H. unfold is_digit in H. unfold is_hexdigit, digit_val. rewrite H. reflexivity. Qed.

Lemma horner_app : forall base a b acc,
  horner base (a ++ b) acc =
  match horner base a acc with Some v => horner base b v | None => None end.
Proof.
  induction a as [|c a IH]; cbn; intros b acc; [reflexivity|].
  destruct (digit_val c); [|reflexivity]. destruct (z <? base); [|reflexivity]. apply IH.
Qed.

Lemma digits_fuel_spec : forall fuel base up n acc,
  2 <= base <= 16 -> (0 < fuel)%nat -> 0 <= n < 2 ^ Z.of_nat fuel ->
  exists ds, digits_fuel fuel base up n acc = ds ++ acc /\ ds <> [] /\
    Forall (fun c => exists d, 0 <= d < base /\ c = digit_char up d) ds /\
    forall a, horner base ds a = Some (a * base ^ Z.of_nat (List.length ds) + n).
Proof.
  induction fuel as [|f IH]; intros base up n acc Hb Hf Hn; [lia|].
  assert (Hm : 0 <= n mod base < base) by (apply Z.mod_pos_bound; lia).
  assert (Hlast : forall a, horner base [digit_char up (n mod base)] a = Some (a * base + n mod base)).
  { intros a. cbn [horner]. rewrite digit_val_char, (proj2 (Z.ltb_lt _ _)) by lia. reflexivity. }
  assert (Hdig : Forall (fun c => exists d, 0 <= d < base /\ c = digit_char up d) [digit_char up (n mod base)]).
  { repeat constructor. exists (n mod base). auto. }
  cbn [digits_fuel]. destruct (Z.ltb_spec n base) as [E|E].
  - exists [digit_char up (n mod base)]. repeat split; [discriminate|exact Hdig|].
    intros a. rewrite Hlast, Z.mod_small by lia. f_equal. cbn [List.length]. lia.
  - rewrite Nat2Z.inj_succ, Z.pow_succ_r in Hn by lia.
    (* n >= base >= 2, so one unit of fuel is left for the quotient *)
    assert (Hf' : (0 < f)%nat) by (destruct f; [cbn in Hn|]; lia).
    assert (Hq : 0 <= n / base < 2 ^ Z.of_nat f).
    { split; [apply Z.div_pos; lia|]. apply Z.div_lt_upper_bound; nia. }
    destruct (IH base up (n / base) (digit_char up (n mod base) :: acc) Hb Hf' Hq) as (ds & Heq & Hne & Hall & Hh).
    exists (ds ++ [digit_char up (n mod base)]). repeat split.
    + rewrite Heq, <- app_assoc. reflexivity.
    + destruct ds; discriminate.
    + apply Forall_app. split; assumption.
    + intros a. rewrite horner_app, Hh, Hlast. f_equal.
      rewrite app_length, Nat2Z.inj_add, Z.pow_add_r by lia. cbn [List.length].
      pose proof (Z.div_mod n base ltac:(lia)). nia.
Qed.

Lemma log2_fuel : forall n, 0 <= n -> n < 2 ^ Z.of_nat (S (Z.to_nat (Z.log2 n))).
Proof.
  intros n Hn. rewrite Nat2Z.inj_succ, Z2Nat.id by apply Z.log2_nonneg.
  destruct (Z.eq_dec n 0) as [->|Hz]; [cbn; lia|].
  apply Z.log2_spec. lia.
Qed.

Lemma nat_digits_spec : forall base up n,
  2 <= base <= 16 -> 0 <= n ->
  nat_digits base up n <> [] /\
  Forall (fun c => exists d, 0 <= d < base /\ c = digit_char up d) (nat_digits base up n) /\
  int_of_digits base (nat_digits base up n) = Some n.
Proof.
  intros base up n Hb Hn. unfold nat_digits.
  destruct (digits_fuel_spec (S (Z.to_nat (Z.log2 n))) base up n [] Hb ltac:(lia) (conj Hn (log2_fuel n Hn)))
    as (ds & Heq & Hne & Hall & Hh).
  rewrite Heq, app_nil_r. repeat split; auto.
  unfold int_of_digits. destruct ds; [contradiction|]. rewrite Hh. f_equal; lia.
Qed.

Lemma nat_digits_all : forall (p : Z -> bool) base up n, 2 <= base <= 16 -> 0 <= n ->
  (forall d, 0 <= d < base -> p (digit_char up d) = true) -> forallb p (nat_digits base up n) = true.
Proof.
  intros p base up n Hb Hn Hp. destruct (nat_digits_spec base up n Hb Hn) as (_ & Hall & _).
  apply forallb_forall. intros c Hc. rewrite Forall_forall in Hall.
  destruct (Hall c Hc) as (d & Hd & ->). apply Hp. exact Hd.
Qed.

Lemma nat_digits10_all_digit : forall up n, 0 <= n -> forallb is_digit (nat_digits 10 up n) = true.
Proof. intros up n Hn. apply nat_digits_all; [lia|exact Hn|apply is_digit_char]. Qed.

Lemma nat_digits16_all_hex : forall up n, 0 <= n -> forallb is_hexdigit (nat_digits 16 up n) = true.
Proof. intros up n Hn. apply nat_digits_all; [lia|exact Hn|apply is_hexdigit_char]. Qed.

Lemma hex_fixed_spec : forall up k v a,
  0 <= v ->
  horner 16 (hex_fixed up k v) a = Some (a * 16 ^ Z.of_nat k + v mod 16 ^ Z.of_nat k)
  /\ forallb is_hexdigit (hex_fixed up k v) = true /\ List.length (hex_fixed up k v) = k.
Proof.
  induction k as [|k IH]; intros v a Hv.
  - cbn. rewrite Z.mod_1_r. repeat split. f_equal. lia.
  - cbn [hex_fixed]. assert (Hq : 0 <= v / 16) by (apply Z.div_pos; lia).
    assert (Hm : 0 <= v mod 16 < 16) by (apply Z.mod_pos_bound; lia).
    destruct (IH (v / 16) a Hq) as (Hh & Hall & Hlen). repeat split.
    + rewrite horner_app, Hh. cbn [horner]. rewrite digit_val_char by lia.
      destruct (Z.ltb_spec (v mod 16) 16); [|lia].
      f_equal. rewrite Nat2Z.inj_succ, Z.pow_succ_r by lia.
      assert (Hp : 0 < 16 ^ Z.of_nat k) by (apply Z.pow_pos_nonneg; lia).
      rewrite Z.rem_mul_r by lia. lia.
    + rewrite forallb_app, Hall. cbn. rewrite is_hexdigit_char by lia. reflexivity.
    + rewrite app_length, Hlen. cbn. lia.
Qed.

(* a non-empty string of hexadecimal digits whose value is v: what follows "0x" in a printed literal *)
Definition hex_lit (hs : text) (v : Z) : Prop :=
  hs <> [] /\ forallb is_hexdigit hs = true /\ int_of_digits 16 hs = Some v.

Lemma nat_digits16_lit : forall up v, 0 <= v -> hex_lit (nat_digits 16 up v) v.
Proof.
  intros up v Hv. destruct (nat_digits_spec 16 up v ltac:(lia) Hv) as (Hne & _ & Hval).
  repeat split; [exact Hne|apply nat_digits16_all_hex; exact Hv|exact Hval].
Qed.

Lemma hex_fixed_lit : forall up k v, (0 < k)%nat -> 0 <= v < 16 ^ Z.of_nat k -> hex_lit (hex_fixed up k v) v.
Proof.
  intros up k v Hk Hv. destruct (hex_fixed_spec up k v 0 ltac:(lia)) as (Hh & Hall & Hlen).
  assert (Hne : hex_fixed up k v <> []) by (intros E; rewrite E in Hlen; cbn in Hlen; lia).
  repeat split; [exact Hne|exact Hall|]. unfold int_of_digits. destruct (hex_fixed up k v); [contradiction|].
  rewrite Hh, Z.mod_small by lia. reflexivity.
Qed.

Lemma is_scalar_iff : forall c, is_scalar c = true <-> 0 <= c < 1114112 /\ ~ 55296 <= c < 57344.
Proof.
  intros c. unfold is_scalar. lia.
Qed.

(* the encoder, by the length of the encoding; q, r2, r1, r0 are the base-64 digits of c *)
Lemma utf8_enc1_cases : forall c b, utf8_enc1 c = Some b ->
  (0 <= c < 128 /\ b = [c]) \/
  (exists q r0, 128 <= c < 2048 /\ c = q * 64 + r0 /\ 0 <= r0 < 64 /\ b = [192 + q; 128 + r0]) \/
  (exists q r1 r0, 2048 <= c < 65536 /\ ~ 55296 <= c < 57344 /\
     c = (q * 64 + r1) * 64 + r0 /\ 0 <= r1 < 64 /\ 0 <= r0 < 64 /\ b = [224 + q; 128 + r1; 128 + r0]) \/
  (exists q r2 r1 r0, 65536 <= c < 1114112 /\ c = ((q * 64 + r2) * 64 + r1) * 64 + r0 /\
     0 <= r2 < 64 /\ 0 <= r1 < 64 /\ 0 <= r0 < 64 /\ b = [240 + q; 128 + r2; 128 + r1; 128 + r0]).
Proof.
  intros c b H. unfold utf8_enc1 in H. destruct (is_scalar c) eqn:Hs; [|discriminate].
  apply is_scalar_iff in Hs. cbn [negb] in H.
  destruct (Z.ltb_spec c 128);
    [left|right; destruct (Z.ltb_spec c 2048); [left|right; destruct (Z.ltb_spec c 65536); [left|right]]];
    apply some_inj in H as <-.
  - split; [lia|reflexivity].
  - exists (c / 64), (c mod 64). Z.div_mod_to_equations. repeat split; try reflexivity; lia.
  - (* with the quotients as iterated divisions by 64 the digit equations form a linear chain *)
    replace (c / 4096) with (c / 64 / 64) by (rewrite Z.div_div by lia; reflexivity).
    exists (c / 64 / 64), ((c / 64) mod 64), (c mod 64).
    Z.div_mod_to_equations. repeat split; try reflexivity; lia.
  - replace (c / 4096) with (c / 64 / 64) by (rewrite Z.div_div by lia; reflexivity).
    replace (c / 262144) with (c / 64 / 64 / 64) by (rewrite !Z.div_div by lia; reflexivity).
    exists (c / 64 / 64 / 64), ((c / 64 / 64) mod 64), ((c / 64) mod 64), (c mod 64).
    Z.div_mod_to_equations. repeat split; try reflexivity; lia.
Qed.

Lemma utf8_enc1_scalar : forall c, is_scalar c = true -> exists b, utf8_enc1 c = Some b.
Proof.
  intros c H. unfold utf8_enc1. rewrite H. cbn [negb].
  destruct (c <? 128); [|destruct (c <? 2048); [|destruct (c <? 65536)]]; eexists; reflexivity.
Qed.

Lemma utf8_enc1_ascii : forall c, 0 <= c < 128 -> utf8_enc1 c = Some [c].
Proof.
  intros c H. unfold utf8_enc1. rewrite (proj2 (is_scalar_iff c)) by lia.
  destruct (Z.ltb_spec c 128); [reflexivity|lia].
Qed.

(* the decoder on one well-formed sequence of each length, c being the code point it denotes.  The tail
   is hidden behind r0 while the lead byte is classified, so that the recursive calls of the arms not
   taken are not unfolded. *)
Lemma utf8_dec_1 : forall b r, 0 <= b <= 127 -> utf8_dec (b :: r) = option_map (cons b) (utf8_dec r).
Proof. intros b r H. cbn [utf8_dec]. unfold in_rng. rewrite range_in by assumption. reflexivity. Qed.

Lemma utf8_dec_2 : forall b0 b1 r c, 194 <= b0 <= 223 -> 128 <= b1 <= 191 ->
  c = (b0 - 192) * 64 + (b1 - 128) -> utf8_dec (b0 :: b1 :: r) = option_map (cons c) (utf8_dec r).
Proof.
  intros b0 b1 r c H0 H1 ->. remember (b1 :: r) as r0 eqn:E. cbn [utf8_dec]. unfold in_rng.
  rewrite (range_out 0 127), (range_in 194 223) by lia. subst r0.
  unfold is_cont. rewrite range_in by assumption. reflexivity.
Qed.

(* second byte: E0 is followed by A0..BF (no overlong form), ED by 80..9F (no surrogate) *)
Lemma utf8_dec_3 : forall b0 b1 b2 r c, 224 <= b0 <= 239 -> 128 <= b1 <= 191 ->
  (b0 = 224 -> 160 <= b1) -> (b0 = 237 -> b1 <= 159) -> 128 <= b2 <= 191 ->
  c = (b0 - 224) * 4096 + (b1 - 128) * 64 + (b2 - 128) ->
  utf8_dec (b0 :: b1 :: b2 :: r) = option_map (cons c) (utf8_dec r).
Proof.
  intros b0 b1 b2 r c H0 H1 Hlo Hhi H2 ->. remember (b1 :: b2 :: r) as r0 eqn:E. cbn [utf8_dec]. unfold in_rng.
  rewrite (range_out 0 127), (range_out 194 223), (range_in 224 239) by lia. subst r0.
  unfold is_cont. cbv zeta. rewrite (range_in _ _ b1), (range_in _ _ b2); [reflexivity|assumption|].
  destruct (Z.eqb_spec b0 224), (Z.eqb_spec b0 237); lia.
Qed.

(* second byte: F0 is followed by 90..BF (no overlong form), F4 by 80..8F (at most U+10FFFF) *)
Lemma utf8_dec_4 : forall b0 b1 b2 b3 r c, 240 <= b0 <= 244 -> 128 <= b1 <= 191 ->
  (b0 = 240 -> 144 <= b1) -> (b0 = 244 -> b1 <= 143) -> 128 <= b2 <= 191 -> 128 <= b3 <= 191 ->
  c = (b0 - 240) * 262144 + (b1 - 128) * 4096 + (b2 - 128) * 64 + (b3 - 128) ->
  utf8_dec (b0 :: b1 :: b2 :: b3 :: r) = option_map (cons c) (utf8_dec r).
Proof.
  intros b0 b1 b2 b3 r c H0 H1 Hlo Hhi H2 H3 ->. remember (b1 :: b2 :: b3 :: r) as r0 eqn:E.
  cbn [utf8_dec]. unfold in_rng.
  rewrite (range_out 0 127), (range_out 194 223), (range_out 224 239), (range_in 240 244) by lia. subst r0.
  unfold is_cont. cbv zeta.
  rewrite (range_in _ _ b1), (range_in _ _ b2), (range_in _ _ b3); [reflexivity|assumption|assumption|].
  destruct (Z.eqb_spec b0 240), (Z.eqb_spec b0 244); lia.
Qed.

Lemma utf8_dec_enc1 : forall c b rest,
  utf8_enc1 c = Some b -> utf8_dec (b ++ rest) = option_map (cons c) (utf8_dec rest).
Proof.
  intros c b rest H.
  destruct (utf8_enc1_cases c b H) as [[Hc ->]|[(q & r0 & Hc & E & H0 & ->)|
    [(q & r1 & r0 & Hc & Hsur & E & H1 & H0 & ->)|(q & r2 & r1 & r0 & Hc & E & H2 & H1 & H0 & ->)]]];
    cbn [app].
  - apply utf8_dec_1. lia.
  - apply utf8_dec_2; lia.
  - apply utf8_dec_3; lia.
  - apply utf8_dec_4; lia.
Qed.

Lemma utf8_roundtrip : forall s bs, utf8_enc s = Some bs -> utf8_dec bs = Some s.
Proof.
  induction s as [|c s IH]; cbn; intros bs H.
  - apply some_inj in H as <-. reflexivity.
  - destruct (utf8_enc1 c) as [b|] eqn:E1; [|discriminate].
    destruct (utf8_enc s) as [br|] eqn:E2; [|discriminate]. apply some_inj in H as <-.
    rewrite (utf8_dec_enc1 c b br E1), (IH br eq_refl). reflexivity.
Qed.

Lemma utf8_enc_total : forall s, forallb is_scalar s = true -> exists bs, utf8_enc s = Some bs.
Proof.
  induction s as [|c s IH]; cbn [forallb utf8_enc]; intros H; [eexists; reflexivity|].
  apply andb_true_iff in H as [Hc Hs]. destruct (IH Hs) as [br ->].
  destruct (utf8_enc1_scalar c Hc) as [b ->]. eexists; reflexivity.
Qed.

Definition is_byte (b : Z) : Prop := 0 <= b < 256.

Lemma utf8_enc1_bytes : forall c b, utf8_enc1 c = Some b ->
  Forall is_byte b /\ (is_ascii_list b = (c <? 128)).
Proof.
  intros c b H.
  destruct (utf8_enc1_cases c b H) as [[Hc ->]|[(q & r0 & Hc & E & H0 & ->)|
    [(q & r1 & r0 & Hc & _ & E & H1 & H0 & ->)|(q & r2 & r1 & r0 & Hc & E & H2 & H1 & H0 & ->)]]];
    (split; [repeat constructor; unfold is_byte; lia|]);
    (* the lead byte of a longer encoding is at least 192 *)
    unfold is_ascii_list; cbn [forallb]; lia.
Qed.

Lemma is_ascii_list_app : forall a b, is_ascii_list (a ++ b) = is_ascii_list a && is_ascii_list b.
Proof. intros. unfold is_ascii_list. apply forallb_app. Qed.

Lemma utf8_enc_bytes : forall s bs, utf8_enc s = Some bs ->
  Forall is_byte bs /\ is_ascii_list bs = is_ascii_list s.
Proof.
  induction s as [|c s IH]; cbn; intros bs H.
  - apply some_inj in H as <-. split; [constructor|reflexivity].
  - destruct (utf8_enc1 c) as [b|] eqn:E1; [|discriminate].
    destruct (utf8_enc s) as [br|] eqn:E2; [|discriminate]. apply some_inj in H as <-.
    destruct (utf8_enc1_bytes c b E1) as [Hb Ha]. destruct (IH br eq_refl) as [Hbr Har].
    split; [apply Forall_app; auto|].
    rewrite is_ascii_list_app, Ha, Har. reflexivity.
Qed.

Lemma utf8_enc_ascii : forall s, Forall is_byte s -> is_ascii_list s = true -> utf8_enc s = Some s.
Proof.
  induction 1 as [|c s Hc _ IH]; cbn; intros Ha; [reflexivity|].
  apply andb_true_iff in Ha as [Hc' Ha]. apply Z.ltb_lt in Hc'. unfold is_byte in Hc.
  rewrite utf8_enc1_ascii, (IH Ha) by lia. reflexivity.
Qed.

Lemma utf8_dec_ascii : forall s, Forall is_byte s -> is_ascii_list s = true -> utf8_dec s = Some s.
Proof. intros s Hb Ha. apply utf8_roundtrip, utf8_enc_ascii; assumption. Qed.

Lemma escape_byte_cases : forall b, is_byte b ->
  (b = 92 /\ escape_byte b = [92; 92]) \/
  (exists h l, 0 <= h < 16 /\ 0 <= l < 16 /\ b = h * 16 + l /\
               escape_byte b = [92; digit_char true h; digit_char true l]) \/
  (32 <= b <= 126 /\ b <> 34 /\ b <> 92 /\ escape_byte b = [b]).
Proof.
  intros b Hb. unfold is_byte in Hb. unfold escape_byte.
  destruct (Z.eqb_spec b 92) as [E92|E92]; [left; split; [exact E92|reflexivity]|right].
  destruct ((b <? 32) || (126 <? b) || (b =? 34)) eqn:Esc; [left|right].
  - exists (b / 16), (b mod 16). repeat split; try reflexivity; Z.div_mod_to_equations; lia.
  - rewrite !orb_false_iff, !Z.ltb_ge, Z.eqb_neq in Esc. repeat split; try reflexivity; lia.
Qed.

Lemma escape_byte_length : forall b, (1 <= List.length (escape_byte b))%nat.
Proof.
  intros b. unfold escape_byte. destruct (b =? 92); [cbn; lia|].
  destruct ((b <? 32) || (126 <? b) || (b =? 34)); cbn; lia.
Qed.

Lemma known_escape_hex : forall d, 0 <= d < 16 -> known_escape (digit_char true d) = None.
Proof.
  intros d Hd. unfold known_escape, digit_char.
  rewrite !(proj2 (Z.eqb_neq _ _)) by (destruct (d <? 10); lia). reflexivity.
Qed.

Lemma unescape_escape_byte : forall b rest, is_byte b ->
  unescape (escape_byte b ++ rest) = match unescape rest with Ok bs => Ok (b :: bs) | x => x end.
Proof.
  intros b rest Hb.
  destruct (escape_byte_cases b Hb) as [[-> ->]|[(h & l & Hh & Hl & -> & ->)|(Hr & _ & H92 & ->)]];
    cbn [app unescape].
  - cbn. destruct (unescape rest); reflexivity.
  - rewrite Z.eqb_refl, known_escape_hex, !digit_val_char by assumption. reflexivity.
  - destruct (Z.eqb_spec b 92); [contradiction|]. rewrite utf8_enc1_ascii by lia.
    destruct (unescape rest); reflexivity.
Qed.

Lemma unescape_escape : forall bs, Forall is_byte bs -> unescape (flat_map escape_byte bs) = Ok bs.
Proof.
  induction 1 as [|b bs Hb _ IH]; [reflexivity|].
  cbn [flat_map]. rewrite unescape_escape_byte, IH by assumption. reflexivity.
Qed.

Lemma scan_body_escape_byte : forall b rest, is_byte b ->
  scan_body (escape_byte b ++ rest) =
  match scan_body rest with Some (body, r) => Some (escape_byte b ++ body, r) | None => None end.
Proof.
  intros b rest Hb.
  destruct (escape_byte_cases b Hb) as [[-> E]|[(h & l & Hh & Hl & -> & E)|(Hr & H34 & H92 & E)]];
    rewrite E; cbn [app scan_body].
  - cbn. destruct (scan_body rest) as [[? ?]|]; reflexivity.
  - change (92 =? 34) with false. rewrite Z.eqb_refl, known_escape_hex, !is_hexdigit_char by assumption.
    cbn [andb]. destruct (scan_body rest) as [[? ?]|]; reflexivity.
  - rewrite !(proj2 (Z.eqb_neq _ _)) by lia. cbn [orb]. destruct (scan_body rest) as [[? ?]|]; reflexivity.
Qed.

Lemma scan_body_escape : forall bs rest, Forall is_byte bs ->
  scan_body (flat_map escape_byte bs ++ 34 :: rest) = Some (flat_map escape_byte bs, rest).
Proof.
  intros bs rest. induction 1 as [|b bs Hb _ IH]; [reflexivity|].
  cbn [flat_map]. rewrite <- app_assoc, scan_body_escape_byte, IH by assumption. reflexivity.
Qed.

(* a backslash appears in the escaped text iff some byte needs an escape; then all other bytes are
   printable ASCII.  What the classification needs: no backslash -> the payload is ASCII. *)
Lemma no_backslash_ascii : forall bs, Forall is_byte bs ->
  has_backslash (flat_map escape_byte bs) = false -> is_ascii_list bs = true.
Proof.
  induction 1 as [|b bs Hb _ IH]; intros H; [reflexivity|].
  cbn [flat_map] in H. unfold has_backslash in *. rewrite existsb_app in H. apply orb_false_iff in H as [H1 H2].
  unfold is_ascii_list in *. cbn [forallb]. rewrite (IH H2), andb_true_r.
  destruct (escape_byte_cases b Hb) as [[_ E]|[(h & l & _ & _ & _ & E)|(Hr & _)]];
    [rewrite E in H1; discriminate..|apply Z.ltb_lt; lia].
Qed.

Lemma flat_map_escape_nil : forall bs, flat_map escape_byte bs = [] -> bs = [].
Proof.
  intros [|b bs] H; [reflexivity|]. apply (f_equal (@List.length Z)) in H.
  cbn [flat_map] in H. rewrite app_length in H. pose proof (escape_byte_length b). cbn in H. lia.
Qed.

(* the lexer's STRING_LIT / BYTES_LIT decision on the unescaped payload, and the token it yields *)
Definition stringy (fixed : bool) (bs : list Z) : bool :=
  if fixed then (match utf8_dec bs with Some _ => true | None => false end) else is_ascii_list bs.
Definition lit_tok (fixed : bool) (bs : list Z) : tok :=
  if stringy fixed bs then TStr (flat_map escape_byte bs) else TBytes (flat_map escape_byte bs).

Lemma stringy_ascii : forall fixed bs, Forall is_byte bs -> is_ascii_list bs = true -> stringy fixed bs = true.
Proof.
  intros [|] bs Hb Ha; unfold stringy; [rewrite utf8_dec_ascii by assumption; reflexivity|exact Ha].
Qed.

Lemma stringy_enc : forall fixed s bs, utf8_enc s = Some bs -> stringy fixed bs = fixed || is_ascii_list s.
Proof.
  intros [|] s bs H; unfold stringy; [rewrite (utf8_roundtrip s bs H); reflexivity|apply (utf8_enc_bytes s bs H)].
Qed.

Lemma lex_printed_literal : forall fixed bs rest, Forall is_byte bs ->
  lex_string_literal fixed (flat_map escape_byte bs ++ 34 :: rest) = Ok (lit_tok fixed bs, rest).
Proof.
  intros fixed bs rest H. unfold lex_string_literal, lit_tok. rewrite scan_body_escape by assumption.
  destruct (flat_map escape_byte bs) as [|c body] eqn:Eb.
  - apply flat_map_escape_nil in Eb. subst. rewrite stringy_ascii by (constructor || reflexivity). reflexivity.
  - rewrite <- Eb. destruct (has_backslash (flat_map escape_byte bs)) eqn:Hbs; cbn [negb].
    + rewrite unescape_escape by assumption. fold (stringy fixed bs).
      destruct (stringy fixed bs); reflexivity.
    + rewrite stringy_ascii by (try apply no_backslash_ascii; assumption). reflexivity.
Qed.

Lemma string_contents_escape : forall bs, Forall is_byte bs ->
  string_contents (flat_map escape_byte bs) =
  match utf8_dec bs with Some s => Ok s | None => Raise E_DECODE end.
Proof. intros bs H. unfold string_contents. rewrite unescape_escape by assumption. reflexivity. Qed.

Lemma parse_lit_tok : forall fixed bs, Forall is_byte bs ->
  parse_strlit_attr (lit_tok fixed bs) =
  if stringy fixed bs then match utf8_dec bs with Some s => Ok (AString s) | None => NoTok end
  else Ok (ABytes bs).
Proof.
  intros fixed bs H. unfold lit_tok. destruct (stringy fixed bs); cbn [parse_strlit_attr].
  - rewrite string_contents_escape by assumption. destruct (utf8_dec bs); reflexivity.
  - rewrite unescape_escape by assumption. reflexivity.
Qed.

Lemma bytes_attr_roundtrip_char : forall bs, Forall is_byte bs ->
  bytes_attr_roundtrip false bs = Ok (if is_ascii_list bs then AString bs else ABytes bs).
Proof.
  intros bs H. unfold bytes_attr_roundtrip, print_bytes_literal.
  rewrite lex_printed_literal, parse_lit_tok by assumption. cbn [stringy].
  destruct (is_ascii_list bs) eqn:Ha; [rewrite utf8_dec_ascii by assumption|]; reflexivity.
Qed.

Lemma string_attr_roundtrip_char : forall fixed s, forallb is_scalar s = true ->
  exists bs, utf8_enc s = Some bs /\
  string_attr_roundtrip fixed s = Ok (if fixed || is_ascii_list s then AString s else ABytes bs).
Proof.
  intros fixed s Hs. destruct (utf8_enc_total s Hs) as [bs Hbs]. exists bs. split; [assumption|].
  assert (Hbytes : Forall is_byte bs) by apply (utf8_enc_bytes s bs Hbs).
  unfold string_attr_roundtrip, print_string_literal. rewrite Hbs. unfold print_bytes_literal.
  rewrite lex_printed_literal, parse_lit_tok by assumption.
  rewrite (utf8_roundtrip s bs Hbs), (stringy_enc fixed s bs Hbs).
  destruct (fixed || is_ascii_list s); reflexivity.
Qed.

Inductive lexes (fixed : bool) : text -> list tok -> Prop :=
| lexes_nil : forall s, lex1 fixed s = NoTok -> lexes fixed s []
| lexes_cons : forall s t rest ts,
    lex1 fixed s = Ok (t, rest) -> lexes fixed rest ts -> lexes fixed s (t :: ts).

Lemma lex_all_of_lexes : forall fixed s ts, lexes fixed s ts ->
  forall fuel, (List.length ts < fuel)%nat -> lex_all fixed fuel s = Ok ts.
Proof.
  induction 1 as [s H|s t rest ts H1 H2 IH]; intros fuel Hf.
  - destruct fuel; [inversion Hf|]. cbn. rewrite H. reflexivity.
  - destruct fuel; [inversion Hf|]. cbn [lex_all]. rewrite H1.
    rewrite (IH fuel) by (cbn in Hf; lia). reflexivity.
Qed.

Lemma lexes_of_lex_all : forall fixed fuel s ts, lex_all fixed fuel s = Ok ts -> lexes fixed s ts.
Proof.
  induction fuel as [|f IH]; intros s ts H; [discriminate|].
  cbn [lex_all] in H. destruct (lex1 fixed s) as [[t rest]| |e] eqn:E.
  - destruct (lex_all fixed f rest) as [ts'| |e'] eqn:E2; try discriminate.
    injection H as <-. eapply lexes_cons; eauto.
  - injection H as <-. apply lexes_nil. assumption.
  - discriminate.
Qed.

Lemma lex_of_lexes : forall fixed s ts, lexes fixed s ts -> (List.length ts <= List.length s)%nat ->
  lex fixed s = Ok ts.
Proof. intros. unfold lex. apply lex_all_of_lexes; [assumption|lia]. Qed.

Lemma lexes_of_lex : forall fixed s ts, lex fixed s = Ok ts -> lexes fixed s ts.
Proof. intros fixed s ts H. eapply lexes_of_lex_all. exact H. Qed.

Lemma lex1_space : forall fixed s, lex1 fixed (32 :: s) = lex1 fixed s.
Proof. intros. unfold lex1. cbn [span_while]. cbn. destruct (span_while _ s); reflexivity. Qed.

Definition not_blank (c : Z) : Prop := c <> 32 /\ c <> 10.

Lemma skip_blank_nonblank : forall c r, not_blank c ->
  snd (span_while (fun c => (c =? 32) || (c =? 10)) (c :: r)) = c :: r.
Proof.
  intros c r [H1 H2]. cbn.
  replace (c =? 32) with false by lia.
  replace (c =? 10) with false by lia. reflexivity.
Qed.

Lemma lex1_colon : forall fixed r, lex1 fixed (58 :: r) = Ok (TColon, r).
Proof. intros. reflexivity. Qed.

Definition ends_id (rest : text) : Prop := match rest with [] => True | c :: _ => is_id_char c = false end.
Definition ends_digits (rest : text) : Prop :=
  match rest with [] => True | c :: _ => is_hexdigit c = false /\ c <> 46 /\ c <> 120 end.

Lemma is_alpha_us_not_special : forall c, is_alpha_us c = true ->
  c <> 32 /\ c <> 10 /\ c <> 34 /\ c <> 58 /\ c <> 45 /\ c <> 46 /\ c <> 64 /\ c <> 44 /\ c <> 61.
Proof. intros c H. unfold is_alpha_us, in_rng in H. lia. Qed.

Lemma lex1_bare : forall fixed s rest, is_bare_id s = true -> ends_id rest ->
  lex1 fixed (s ++ rest) = Ok (TBare s, rest).
Proof.
  intros fixed s rest Hs Hr. destruct s as [|c r]; [discriminate|].
  cbn in Hs. apply andb_true_iff in Hs as [Hc Hr'].
  destruct (is_alpha_us_not_special c Hc) as (N1 & N2 & _).
  unfold lex1. cbn [app]. rewrite (skip_blank_nonblank c (r ++ rest) (conj N1 N2)).
  rewrite Hc, (span_while_app is_id_char r rest Hr' Hr). reflexivity.
Qed.

Lemma lex1_at_bare : forall fixed s rest, is_bare_id s = true -> ends_id rest ->
  lex1 fixed (64 :: s ++ rest) = Ok (TAt s, rest).
Proof.
  intros fixed s rest Hs Hr. destruct s as [|c r]; [discriminate|].
  cbn in Hs. apply andb_true_iff in Hs as [Hc Hr'].
  unfold lex1. cbn [app span_while]. cbn. rewrite Hc, (span_while_app is_id_char r rest Hr' Hr). reflexivity.
Qed.

Lemma lex1_at_quoted : forall fixed bs rest, Forall is_byte bs ->
  lex1 fixed (64 :: 34 :: flat_map escape_byte bs ++ 34 :: rest) =
  Ok (TAt (34 :: flat_map escape_byte bs ++ [34]), rest).
Proof.
  intros fixed bs rest H. unfold lex1. cbn [span_while]. cbn.
  rewrite lex_printed_literal by assumption. unfold lit_tok. destruct (stringy fixed bs); reflexivity.
Qed.

Definition enc_of (n : text) : list Z := match utf8_enc n with Some bs => bs | None => [] end.
(* what follows the '@' / stands for a key: the name itself iff it is a bare identifier, else the quoted literal *)
Definition id_or_str_text (n : text) : text :=
  if is_bare_id n then n else 34 :: flat_map escape_byte (enc_of n) ++ [34].

Lemma enc_of_spec : forall n, forallb is_scalar n = true ->
  utf8_enc n = Some (enc_of n) /\ Forall is_byte (enc_of n) /\ utf8_dec (enc_of n) = Some n.
Proof.
  intros n Hn. destruct (utf8_enc_total n Hn) as [bs Hbs]. unfold enc_of. rewrite Hbs.
  split; [reflexivity|]. split; [apply (utf8_enc_bytes n bs Hbs)|apply utf8_roundtrip; assumption].
Qed.

Lemma print_id_or_str_ok : forall n, forallb is_scalar n = true ->
  print_id_or_str n = Ok (id_or_str_text n).
Proof.
  intros n Hn. unfold print_id_or_str, id_or_str_text. destruct (is_bare_id n); [reflexivity|].
  unfold print_string_literal. destruct (enc_of_spec n Hn) as (-> & _ & _). reflexivity.
Qed.

Lemma print_symbol_name_ok : forall n, forallb is_scalar n = true ->
  print_symbol_name n = Ok (64 :: id_or_str_text n).
Proof. intros n Hn. unfold print_symbol_name. rewrite print_id_or_str_ok by assumption. reflexivity. Qed.

Lemma string_contents_enc : forall n, forallb is_scalar n = true ->
  string_contents (flat_map escape_byte (enc_of n)) = Ok n.
Proof.
  intros n Hn. destruct (enc_of_spec n Hn) as (_ & Hb & Hd).
  rewrite string_contents_escape, Hd by assumption. reflexivity.
Qed.

Lemma lex1_symbol : forall fixed n rest, forallb is_scalar n = true -> ends_id rest ->
  lex1 fixed (64 :: id_or_str_text n ++ rest) = Ok (TAt (id_or_str_text n), rest).
Proof.
  intros fixed n rest Hn Hr. unfold id_or_str_text. destruct (is_bare_id n) eqn:Hb.
  - apply lex1_at_bare; assumption.
  - destruct (enc_of_spec n Hn) as (_ & Hbytes & _).
    cbn [app]. rewrite <- app_assoc. cbn [app]. apply lex1_at_quoted. assumption.
Qed.

Lemma parse_symbol_tok : forall n, forallb is_scalar n = true ->
  parse_symbol_name (TAt (id_or_str_text n)) = Ok n.
Proof.
  intros n Hn. unfold id_or_str_text. destruct (is_bare_id n) eqn:Hb.
  - destruct n as [|c r]; [discriminate|]. cbn in Hb. apply andb_true_iff in Hb as [Hc _].
    destruct (is_alpha_us_not_special c Hc) as (_ & _ & N34 & _).
    cbn. replace (c =? 34) with false by lia. reflexivity.
  - cbn [parse_symbol_name]. rewrite Z.eqb_refl. rewrite removelast_last.
    apply string_contents_enc. assumption.
Qed.

Fixpoint symref_tail_text (ns : list text) : text :=
  match ns with [] => [] | n :: r => 58 :: 58 :: 64 :: id_or_str_text n ++ symref_tail_text r end.
Fixpoint symref_tail_toks (ns : list text) : list tok :=
  match ns with [] => [] | n :: r => TColon :: TColon :: TAt (id_or_str_text n) :: symref_tail_toks r end.

Lemma print_symref_tail_ok : forall ns, forallb (forallb is_scalar) ns = true ->
  print_symref_tail ns = Ok (symref_tail_text ns).
Proof.
  induction ns as [|n r IH]; cbn [print_symref_tail forallb]; intros H; [reflexivity|].
  apply andb_true_iff in H as [Hn Hr]. rewrite print_symbol_name_ok by assumption.
  rewrite IH by assumption. cbn [symref_tail_text app]. reflexivity.
Qed.

Lemma ends_id_tail : forall ns, ends_id (symref_tail_text ns).
Proof. destruct ns; cbn; [exact I|reflexivity]. Qed.

Lemma lexes_symref_tail : forall fixed ns, forallb (forallb is_scalar) ns = true ->
  lexes fixed (symref_tail_text ns) (symref_tail_toks ns).
Proof.
  induction ns as [|n r IH]; cbn [forallb symref_tail_text symref_tail_toks]; intros H.
  - apply lexes_nil. reflexivity.
  - apply andb_true_iff in H as [Hn Hr].
    eapply lexes_cons; [apply lex1_colon|]. eapply lexes_cons; [apply lex1_colon|].
    eapply lexes_cons; [apply lex1_symbol; [assumption|apply ends_id_tail]|]. auto.
Qed.

Lemma symref_toks_le_text : forall ns,
  (List.length (symref_tail_toks ns) <= List.length (symref_tail_text ns))%nat.
Proof.
  induction ns as [|n r IH]; cbn [symref_tail_text symref_tail_toks List.length]; [lia|].
  rewrite app_length. lia.
Qed.

Lemma parse_symref_tail_ok : forall ns fuel, forallb (forallb is_scalar) ns = true ->
  (List.length ns < fuel)%nat -> parse_symref_tail fuel (symref_tail_toks ns) = Ok ns.
Proof.
  induction ns as [|n r IH]; intros fuel H Hf.
  - destruct fuel; [inversion Hf|]. reflexivity.
  - destruct fuel; [inversion Hf|]. cbn [forallb] in H. apply andb_true_iff in H as [Hn Hr].
    cbn [symref_tail_toks parse_symref_tail]. rewrite parse_symbol_tok by assumption.
    rewrite IH by (cbn in Hf; auto; lia). reflexivity.
Qed.

Lemma symref_names_le_toks : forall ns, (List.length ns <= List.length (symref_tail_toks ns))%nat.
Proof. induction ns; cbn; lia. Qed.

Theorem symref_roundtrip_ok : forall fixed root ns,
  forallb is_scalar root = true -> forallb (forallb is_scalar) ns = true ->
  symref_roundtrip fixed root ns = Ok (root, ns).
Proof.
  intros fixed root ns Hr Hns. unfold symref_roundtrip, print_symref.
  rewrite print_symbol_name_ok by assumption. rewrite print_symref_tail_ok by assumption.
  assert (Hlex : lex fixed ((64 :: id_or_str_text root) ++ symref_tail_text ns)
                 = Ok (TAt (id_or_str_text root) :: symref_tail_toks ns)).
  { apply lex_of_lexes.
    - eapply lexes_cons; [apply lex1_symbol; [assumption|apply ends_id_tail]|].
      apply lexes_symref_tail. assumption.
    - cbn [List.length app]. rewrite app_length. pose proof (symref_toks_le_text ns). lia. }
  rewrite Hlex. unfold parse_symref. rewrite parse_symbol_tok by assumption.
  rewrite parse_symref_tail_ok; [reflexivity|assumption|]. apply Nat.lt_succ_r. apply symref_names_le_toks.
Qed.

Lemma escape_enc_length : forall s bs, utf8_enc s = Some bs ->
  (List.length s <= List.length (flat_map escape_byte bs))%nat.
Proof.
  induction s as [|x s IH]; cbn; intros bs E; [lia|].
  destruct (utf8_enc1 x) as [b|] eqn:E1; [|discriminate].
  destruct (utf8_enc s) as [br|] eqn:E2; [|discriminate]. apply some_inj in E as <-.
  rewrite flat_map_app, app_length. specialize (IH br eq_refl).
  (* an encoding is not empty: decoding it yields a code point *)
  destruct b as [|b0 b']; [discriminate (utf8_dec_enc1 x [] [] E1)|].
  cbn [flat_map]. rewrite app_length. pose proof (escape_byte_length b0). lia.
Qed.

Theorem print_id_or_str_bare_iff : forall n, forallb is_scalar n = true ->
  (print_id_or_str n = Ok n <-> is_bare_id n = true).
Proof.
  intros n Hn. rewrite print_id_or_str_ok by assumption. unfold id_or_str_text.
  destruct (is_bare_id n) eqn:Hb; split; intros H; try reflexivity; try discriminate.
  (* the quoted literal is at least two characters longer than the name *)
  exfalso. injection H as H. apply (f_equal (@List.length Z)) in H.
  cbn [List.length] in H. rewrite app_length in H. cbn [List.length] in H.
  destruct (enc_of_spec n Hn) as (He & _ & _). pose proof (escape_enc_length _ _ He). lia.
Qed.

Lemma lex1_quoted : forall fixed bs rest, Forall is_byte bs ->
  lex1 fixed (34 :: flat_map escape_byte bs ++ 34 :: rest) = Ok (lit_tok fixed bs, rest).
Proof.
  intros fixed bs rest H. unfold lex1. cbn [span_while]. cbn. apply lex_printed_literal. assumption.
Qed.

Theorem dict_key_roundtrip_char : forall fixed k rest, forallb is_scalar k = true -> ends_id rest ->
  dict_key_roundtrip fixed k rest =
  if is_bare_id k || fixed || is_ascii_list k then Ok k else Raise E_PARSE.
Proof.
  intros fixed k rest Hk Hr. unfold dict_key_roundtrip. rewrite print_id_or_str_ok by assumption.
  unfold id_or_str_text. destruct (is_bare_id k) eqn:Hb; cbn [orb].
  - rewrite lex1_bare by assumption. reflexivity.
  - destruct (enc_of_spec k Hk) as (He & Hbytes & _).
    cbn [app]. rewrite <- app_assoc. cbn [app]. rewrite lex1_quoted by assumption.
    unfold lit_tok. rewrite (stringy_enc fixed k _ He).
    destruct (fixed || is_ascii_list k); cbn [parse_id_or_str]; [|reflexivity].
    rewrite string_contents_enc by assumption. reflexivity.
Qed.
