(* C05/ProofsSplit.v -- split_segs (the `operands` / `results` directives) inverts concat on
   segment lists accepted by build_sizes_ok, and conversely every successful split is a
   partition of the flat list with one segment per definition. *)
From Coq Require Import ZArith String Bool Arith List Lia.
From XV Require Import C05.Model.
Import ListNotations.
Local Open Scope list_scope.

Lemma count_before_lt : forall ks : list kind,
  1 <= length (filter is_varlike ks) -> count_before ks < length ks.
Proof.
  induction ks as [|k t IH]; simpl; intros H.
  - lia.
  - destruct (is_varlike k) eqn:E; simpl in *.
    + lia.
    + specialize (IH H). lia.
Qed.

Lemma count_before_app : forall (kb : list kind) (k : kind) (ka : list kind),
  filter is_varlike kb = [] -> is_varlike k = true ->
  count_before (kb ++ k :: ka) = length kb.
Proof.
  induction kb as [|x t IH]; intros k ka Hf Hk; simpl.
  - rewrite Hk. reflexivity.
  - simpl in Hf. destruct (is_varlike x) eqn:E; [discriminate Hf|].
    rewrite (IH _ _ Hf Hk). reflexivity.
Qed.

Section Split.
Variable A : Type.

Lemma split_fixed_sound : forall (n : nat) (l : list A) (ss : list (list A)) (r : list A),
  split_fixed n l = Some (ss, r) -> concat ss ++ r = l /\ length ss = n.
Proof.
  induction n as [|m IH]; intros l ss r H; simpl in H.
  - injection H as <- <-. split; reflexivity.
  - destruct l as [|x t]; [discriminate H|].
    destruct (split_fixed m t) as [[ss' r']|] eqn:E; [|discriminate H].
    injection H as <- <-. destruct (IH _ _ _ E) as [<- <-]. split; reflexivity.
Qed.

(* what split_segs does after its arithmetic: nb singletons, one segment of nv elements, na singletons *)
Definition split_at (nb na nv : nat) (l : list A) : option (list (list A)) :=
  match split_fixed nb l with
  | Some (a, r) => match split_fixed na (skipn nv r) with
                   | Some (b, []) => Some (a ++ [firstn nv r] ++ b)
                   | _ => None
                   end
  | None => None
  end.

Lemma split_core_sound : forall (nb na nv : nat) (l : list A) (segs : list (list A)),
  split_at nb na nv l = Some segs -> concat segs = l /\ length segs = nb + 1 + na.
Proof.
  intros nb na nv l segs H. unfold split_at in H.
  destruct (split_fixed nb l) as [[a r]|] eqn:Ea; [|discriminate H].
  destruct (split_fixed na (skipn nv r)) as [[b [|y r']]|] eqn:Eb; try discriminate H.
  injection H as <-.
  destruct (split_fixed_sound _ _ _ _ Ea) as [<- <-].
  destruct (split_fixed_sound _ _ _ _ Eb) as [Hb1 <-].
  rewrite app_nil_r in Hb1.
  split.
  - rewrite concat_app. simpl. rewrite Hb1, firstn_skipn. reflexivity.
  - rewrite app_length. simpl. lia.
Qed.

Lemma split_fixed_singles : forall (vds : list vdef) (segs : list (list A)) (r : list A),
  build_sizes_ok vds segs = true ->
  filter is_varlike (map vd_kind vds) = [] ->
  split_fixed (length vds) (concat segs ++ r) = Some (segs, r)
  /\ length (concat segs) = length vds.
Proof.
  induction vds as [|v t IH]; intros segs r Hb Hf; destruct segs as [|s ss];
    simpl in Hb; try discriminate Hb.
  - simpl. split; reflexivity.
  - apply andb_prop in Hb. destruct Hb as [Hs Hb].
    simpl in Hf.
    destruct (vd_kind v) eqn:Ek; simpl in Hf; try discriminate Hf.
    apply Nat.eqb_eq in Hs.
    destruct s as [|x [|y s']]; simpl in Hs; try lia.
    destruct (IH ss r Hb Hf) as [H1 H2].
    simpl. rewrite H1. split; [reflexivity | lia].
Qed.

Lemma one_varlike_decomp : forall (vds : list vdef) (segs : list (list A)),
  build_sizes_ok vds segs = true ->
  length (filter is_varlike (map vd_kind vds)) = 1 ->
  exists vb v va sb s sa,
    vds = vb ++ v :: va /\ segs = sb ++ s :: sa /\
    build_sizes_ok vb sb = true /\ build_sizes_ok va sa = true /\
    filter is_varlike (map vd_kind vb) = [] /\ filter is_varlike (map vd_kind va) = [] /\
    is_varlike (vd_kind v) = true /\ (vd_kind v = KOpt -> length s <= 1).
Proof.
  induction vds as [|v t IH]; intros [|s ss] Hb Hl; try discriminate.
  simpl in Hb, Hl. apply andb_prop in Hb. destruct Hb as [Hs Hb].
  destruct (is_varlike (vd_kind v)) eqn:Ev.
  - exists [], v, t, [], s, ss. repeat split; auto.
    + apply length_zero_iff_nil. simpl in Hl. lia.
    + intro Ek. rewrite Ek in Hs. apply Nat.leb_le, Hs.
  - destruct (IH ss Hb Hl) as (vb & v' & va & sb & s' & sa & -> & -> & B1 & B2 & F1 & F2 & V & O).
    exists (v :: vb), v', va, (s :: sb), s', sa. repeat split; auto; simpl.
    + rewrite Hs, B1. reflexivity.
    + rewrite Ev. exact F1.
Qed.

Lemma split_segs_one_var : forall (ks : list kind) (l : list A) nb na,
  length (filter is_varlike ks) = 1 -> count_before ks = nb -> length ks - nb - 1 = na ->
  nb + na <= length l -> (nth nb ks KSingle = KOpt -> length l - nb - na <= 1) ->
  split_segs ks l = split_at nb na (length l - nb - na) l.
Proof.
  intros ks l nb na H1 <- <- Hl Ho. unfold split_segs. rewrite H1. cbv zeta.
  destruct (Nat.ltb_spec (length l) (count_before ks + (length ks - count_before ks - 1))); [lia|].
  destruct (nth (count_before ks) ks KSingle); try reflexivity.
  destruct (Nat.ltb_spec 1 (length l - count_before ks - (length ks - count_before ks - 1))); [|reflexivity].
  specialize (Ho eq_refl). lia.
Qed.

Lemma split_at_concat : forall nb na (sb sa : list (list A)) (s : list A),
  (forall r, split_fixed nb (concat sb ++ r) = Some (sb, r)) ->
  split_fixed na (concat sa) = Some (sa, []) ->
  split_at nb na (length s) (concat sb ++ s ++ concat sa) = Some (sb ++ s :: sa).
Proof.
  intros nb na sb sa s Hb Ha. unfold split_at.
  rewrite Hb, skipn_app, firstn_app, Nat.sub_diag, skipn_all, firstn_all. simpl.
  rewrite Ha, app_nil_r. reflexivity.
Qed.

Lemma split_segs_one : forall (kb ka : list kind) (k : kind) (sb sa : list (list A)) (s : list A),
  filter is_varlike kb = [] -> filter is_varlike ka = [] -> is_varlike k = true ->
  (k = KOpt -> length s <= 1) ->
  (forall r, split_fixed (length kb) (concat sb ++ r) = Some (sb, r)) ->
  length (concat sb) = length kb ->
  split_fixed (length ka) (concat sa) = Some (sa, []) ->
  length (concat sa) = length ka ->
  split_segs (kb ++ k :: ka) (concat (sb ++ s :: sa)) = Some (sb ++ s :: sa).
Proof.
  intros kb ka k sb sa s Hfb Hfa Hk Hopt Hsb Hlb Hsa Hla. rewrite concat_app. cbn [concat].
  rewrite (split_segs_one_var _ _ (length kb) (length ka)).
  - replace (length (concat sb ++ s ++ concat sa) - length kb - length ka) with (length s)
      by (rewrite !app_length; lia).
    apply split_at_concat; assumption.
  - rewrite filter_app. cbn [filter]. rewrite Hk, Hfb, Hfa. reflexivity.
  - apply count_before_app; assumption.
  - rewrite app_length. cbn [length]. lia.
  - rewrite !app_length. lia.
  - rewrite app_nth2, Nat.sub_diag by lia. intro Ek. rewrite !app_length. specialize (Hopt Ek). lia.
Qed.

End Split.

Lemma split_segs_concat : forall (A : Type) (vds : list vdef) (segs : list (list A)),
  build_sizes_ok vds segs = true ->
  length (filter is_varlike (kinds vds)) <= 1 ->
  split_segs (kinds vds) (concat segs) = Some segs.
Proof.
  intros A vds segs Hb Hl. unfold kinds in *.
  assert (Hn : length (filter is_varlike (map vd_kind vds)) = 0
               \/ length (filter is_varlike (map vd_kind vds)) = 1) by lia.
  destruct Hn as [Hn0|Hn1].
  - assert (Hn : filter is_varlike (map vd_kind vds) = []).
    { apply length_zero_iff_nil. exact Hn0. }
    destruct (split_fixed_singles A vds segs [] Hb Hn) as [H1 H2].
    rewrite app_nil_r in H1.
    unfold split_segs. rewrite Hn0. rewrite map_length. rewrite H1. reflexivity.
  - destruct (one_varlike_decomp A vds segs Hb Hn1)
      as (vb & v & va & sb & s & sa & E1 & E2 & B1 & B2 & F1 & F2 & V & O).
    rewrite E1, E2. rewrite map_app.
    change (map vd_kind (v :: va)) with (vd_kind v :: map vd_kind va).
    apply split_segs_one; try assumption.
    + intro r. rewrite map_length. apply (split_fixed_singles A vb sb r B1 F1).
    + rewrite map_length. apply (split_fixed_singles A vb sb [] B1 F1).
    + rewrite map_length. destruct (split_fixed_singles A va sa [] B2 F2) as [H _]. rewrite app_nil_r in H. exact H.
    + rewrite map_length. apply (split_fixed_singles A va sa [] B2 F2).
Qed.

Lemma split_segs_nil : forall (A : Type) (vds : list vdef),
  forallb is_varlike (kinds vds) = true ->
  length (filter is_varlike (kinds vds)) <= 1 ->
  split_segs (A := A) (kinds vds) [] = Some (map (fun _ => []) vds).
Proof.
  intros A vds Hall Hl. unfold kinds in *.
  destruct vds as [|v [|v' t]].
  - reflexivity.
  - simpl in Hall. change (map vd_kind [v]) with [vd_kind v].
    destruct (vd_kind v) eqn:Ek; simpl in Hall; try discriminate Hall; reflexivity.
  - simpl in Hall.
    apply andb_prop in Hall. destruct Hall as [Hv Hall].
    apply andb_prop in Hall. destruct Hall as [Hv' Hall].
    simpl in Hl. rewrite Hv in Hl. simpl in Hl. rewrite Hv' in Hl. simpl in Hl. lia.
Qed.

Lemma split_segs_sound : forall (A : Type) (ks : list kind) (l : list A) segs,
  split_segs ks l = Some segs -> concat segs = l /\ length segs = length ks.
Proof.
  intros A ks l segs H. unfold split_segs in H.
  destruct (length (filter is_varlike ks)) as [|[|n]] eqn:Hn; [| |discriminate H].
  - destruct (split_fixed (length ks) l) as [[ss r]|] eqn:E; [|discriminate H].
    destruct r as [|y r]; [|discriminate H].
    inversion H; subst ss.
    destruct (split_fixed_sound A _ _ _ _ E) as [H1 H2].
    rewrite app_nil_r in H1. split; assumption.
  - assert (Hlt : count_before ks < length ks) by (apply count_before_lt; lia).
    cbv zeta in H.
    destruct (length l <? count_before ks + (length ks - count_before ks - 1)) eqn:Hl;
      [discriminate H|].
    assert (Hgoal : concat segs = l
                    /\ length segs = count_before ks + 1 + (length ks - count_before ks - 1)).
    { destruct (nth (count_before ks) ks KSingle) eqn:Ek.
      - apply split_core_sound in H. exact H.
      - destruct (1 <? length l - count_before ks - (length ks - count_before ks - 1)) eqn:H1;
          [discriminate H|].
        apply split_core_sound in H. exact H.
      - apply split_core_sound in H. exact H. }
    destruct Hgoal as [G1 G2]. split; [exact G1 | lia].
Qed.

Print Assumptions split_segs_concat.
Print Assumptions split_segs_nil.
Print Assumptions split_segs_sound.
