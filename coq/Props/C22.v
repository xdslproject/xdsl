(* Props/C22.v -- property C22: RISC-V canonicalization never changes results; prologue/epilogue keeps callee state.
   The theorem statements closed by `exact`, and Examples by evaluation.
   Specs: C22/Proofs.v (`valid_node`, `env_ok`, `sound_outcome`, `miscompiles`), C22/ProofsMore.v
   (`canon_sound_statement`, `all_fixed`), C22/ProofsFrame.v (`body_ok`, `regs_in_range`); semantics in C22/Model.v.
   `ver0` = the code without the five repairs C22-1..5 (build/proposed_fixes/C22-1..5.diff), called the unchanged tree below;
   a version with all five flags set = the code with them (what the harness compares with: harness/props/c22.py MODEL_VERSION). *)
From Coq Require Import ZArith List Bool.
From XV Require Import C22.Model C22.Proofs C22.ProofsPat C22.ProofsMore C22.ProofsFrame.
Import ListNotations.
Local Open Scope Z_scope.


(* The statement of the property for a code version (ProofsMore.v): for EVERY modelled pattern, matched op,
   preceding definitions, register values and memory: the pattern does not raise, and if it rewrites then the
   replacement defines the same 32-bit value / does the same store, leaves the memory equal, defines only fresh
   values and consists of encodable ops.  Full strength for the repaired code: *)
Theorem C22_canon_sound_repaired : forall vr, all_fixed vr -> canon_sound_statement vr.
Proof. exact canon_sound_fixed. Qed.
Print Assumptions C22_canon_sound_repaired.

(* ... and it is FALSE for the unchanged tree: *)
Theorem C22_canon_sound_refuted : ~ canon_sound_statement ver0.
Proof. exact canon_sound_refuted. Qed.
Print Assumptions C22_canon_sound_refuted.

(* Strongest statement that holds for ANY version, in particular the unchanged tree: whenever a pattern rewrites,
   and the rewrite is not one of the two value-changing ones singled out by `miscompiles` (ShiftbyZero on
   bclri/bexti/binvi/bseti; float load/store *WithKnownOffset with a combined offset outside si12), the result is
   preserved and the new ops are encodable.  (A raising pattern is `Raise`, for which sound_outcome says nothing.) *)
Theorem C22_canon_sound_partial :
  forall (memT : Type) (ld : memT -> memkind -> Z -> Z) (st : memT -> memkind -> Z -> Z -> memT)
         (vr : ver) (rpre : list node) (uses : Z -> Z) (e : env) (m : memT) (nx : Z),
    env_ok rpre e -> Forall valid_node rpre -> Forall (ids_below nx) rpre ->
    forall (p : pat) (n : node), valid_node n -> ids_below nx n ->
    miscompiles vr p rpre n = false ->
    sound_outcome memT ld st e m n nx (apply_pat vr rpre uses n nx p).
Proof. exact pat_sound. Qed.
Print Assumptions C22_canon_sound_partial.

(* the hypothesis is satisfiable on a rewriting case of the unchanged tree: add %x, (li 5) ==> addi %x, 5 *)
Example C22_partial_nonvacuous :
  miscompiles ver0 AddImmediates [mkN 1 (-1) (OLi 5); mkN 0 (-1) (OArg false)] (mkN 2 (-1) (OBin Add 0 1)) = false
  /\ apply_pat ver0 [mkN 1 (-1) (OLi 5); mkN 0 (-1) (OArg false)] (fun _ => 1) (mkN 2 (-1) (OBin Add 0 1)) 3
       AddImmediates = Rew [mkN 3 (-1) (OImm Addi 0 5)] (Some 3) None.
Proof. vm_compute. split; reflexivity. Qed.

(* with the repairs no modelled pattern raises on verified input *)
Theorem C22_canon_no_raise_repaired : forall vr rpre uses n nx p c,
  all_fixed vr -> Forall valid_node rpre -> valid_node n -> apply_pat vr rpre uses n nx p <> Raise c.
Proof. exact no_raise_fixed. Qed.
Print Assumptions C22_canon_no_raise_repaired.

(* the same for what the greedy applier does at an op (first acting pattern of the op's trait tuple) *)
Theorem C22_canon_op_sound_repaired : forall vr, all_fixed vr ->
  forall (memT : Type) (ld : memT -> memkind -> Z -> Z) (st : memT -> memkind -> Z -> Z -> memT)
         (rpre : list node) (uses : Z -> Z) (e : env) (m : memT) (nx : Z) (n : node),
    env_ok rpre e -> Forall valid_node rpre -> Forall (ids_below nx) rpre ->
    valid_node n -> ids_below nx n ->
    (forall c, canon_op vr rpre uses n nx <> Raise c) /\
    sound_outcome memT ld st e m n nx (canon_op vr rpre uses n nx).
Proof. exact canon_op_sound_fixed. Qed.
Print Assumptions C22_canon_op_sound_repaired.

(* one refutation per defect class of the unchanged tree (witnesses = known_findings.d/C22.json) *)
(* kf-1  add %x, (li 5000): AddImmediates builds addi with a 13-bit immediate -> VerifyException (code 2) *)
Theorem C22_addi_range_refuted :
  apply_pat ver0 [mkN 1 (-1) (OLi 5000); mkN 0 (-1) (OArg false)] (fun _ => 1) (mkN 2 (-1) (OBin Add 0 1)) 3
    AddImmediates = Raise 2
  /\ apply_pat ver0 [mkN 1 (-1) (OLi (-2048)); mkN 0 (-1) (OArg false)] (fun _ => 1) (mkN 2 (-1) (OBin Sub 0 1)) 3
       SubImmediates = Raise 2.
Proof. exact (conj w1_raises w1b_raises). Qed.
Print Assumptions C22_addi_range_refuted.

(* kf-2  folded constants are not truncated to 32 bits: 65536*65536, 2<<31, -1 & ~(1<<31), -2^31 + -1 *)
Theorem C22_li_fold_refuted :
  apply_pat ver0 [mkN 1 (-1) (OLi 65536); mkN 0 (-1) (OArg false)] (fun _ => 1) (mkN 2 (-1) (OBin Mul 1 1)) 3
    MultiplyImmediates = Raise 2
  /\ apply_pat ver0 [mkN 1 (-1) (OLi 2); mkN 0 (-1) (OArg false)] (fun _ => 1) (mkN 2 (-1) (OSh Slli 1 31)) 3
       ShiftConstantFolding = Raise 2
  /\ apply_pat ver0 [mkN 1 (-1) (OLi (-1)); mkN 0 (-1) (OArg false)] (fun _ => 1) (mkN 2 (-1) (OSh Bclri 1 31)) 3
       ShiftConstantFolding = Raise 2
  /\ apply_pat ver0 [mkN 1 (-1) (OLi (-2147483648)); mkN 0 (-1) (OArg false)] (fun _ => 1)
       (mkN 2 (-1) (OImm Addi 1 (-1))) 3 AddImmediateConstant = Raise 2.
Proof. exact (conj w2_raises (conj w2b_raises (conj w2c_raises w2d_raises))). Qed.
Print Assumptions C22_li_fold_refuted.

(* kf-3  bexti %x, 0 ==> mv %x: for x = 2 the op computes 0, the replacement 2 *)
Theorem C22_shift_by_zero_refuted :
  ~ sound_outcome unit ld0 st0 (fun _ => 2) tt (mkN 2 (-1) (OSh Bexti 0 0)) 3
      (apply_pat ver0 [mkN 0 (-1) (OArg false)] (fun _ => 1) (mkN 2 (-1) (OSh Bexti 0 0)) 3 ShiftbyZero).
Proof. exact w3_unsound. Qed.
Print Assumptions C22_shift_by_zero_refuted.

(* kf-4  flw (addi %x, 2047), 2047 ==> flw %x, -2 (address x-2 instead of x+4094); lw (addi %x,2047), 1 raises *)
Theorem C22_mem_offset_refuted :
  ~ sound_outcome unit ld0 st0 w4_env tt w4_n 3
      (apply_pat ver0 w4_rpre (fun _ => 1) w4_n 3 LoadFloatWordWithKnownOffset)
  /\ apply_pat ver0 w4_rpre (fun _ => 1) (mkN 2 (-1) (OLoad MW 1 1)) 3 LoadWordWithKnownOffset = Raise 2.
Proof. exact (conj w4_unsound w4b_raises). Qed.
Print Assumptions C22_mem_offset_refuted.

(* kf-5  and/xor of two distinct constant zeros: the second rewriter.replace hits the erased op -> ValueError (3) *)
Theorem C22_double_replace_refuted :
  apply_pat ver0 w5_rpre (fun _ => 1) (mkN 3 (-1) (OBin And 1 2)) 4 BitwiseAndByZero = Raise 3
  /\ apply_pat ver0 w5_rpre (fun _ => 1) (mkN 3 (-1) (OBin Xor 1 2)) 4 BitwiseXorByZero = Raise 3.
Proof. exact (conj w5_raises w5b_raises). Qed.
Print Assumptions C22_double_replace_refuted.

(* whole-pass witnesses on the model of the unchanged tree: canonicalize aborts / changes a value *)
Example C22_pass_aborts_on_li_5000 :
  canonicalize ver0 (mkP [mkN 0 (-1) (OArg false); mkN 1 (-1) (OLi 5000); mkN 2 (-1) (OBin Add 0 1)] [2])
  = Raised 2 (pat_code AddImmediates).
Proof. vm_compute. reflexivity. Qed.
Example C22_pass_repaired_keeps_add :
  canonicalize ver_fixed (mkP [mkN 0 (-1) (OArg false); mkN 1 (-1) (OLi 5000); mkN 2 (-1) (OBin Add 0 1)] [2])
  = Done (mkP [mkN 0 (-1) (OArg false); mkN 1 (-1) (OLi 5000); mkN 2 (-1) (OBin Add 0 1)] [2]).
Proof. vm_compute. reflexivity. Qed.


(* For every list `written` of result registers, any xlen, flen >= 0 with a frame that fits the address space,
   every body that hands back sp and the frame bytes unchanged and writes no callee-saved register the pass did
   not see, and every entry state with sp in [0,2^32) and the saved registers within their slot width:
   after  prologue; body; epilogue  sp and every callee-saved register (s0-s11, fs0-fs11) have their entry values. *)
Theorem C22_sp_restored :
  forall xlen flen, 0 <= xlen -> 0 <= flen -> forall written,
    stack_size xlen flen (used_callee_saved written) <= M32 ->
    forall body, body_ok xlen flen body (used_callee_saved written) ->
    forall s0, regs_in_range xlen flen s0 (used_callee_saved written) ->
    xr (exec_instrs xlen flen (epilogue xlen flen (used_callee_saved written))
          (body (exec_instrs xlen flen (prologue xlen flen (used_callee_saved written)) s0))) SP = xr s0 SP.
Proof. exact sp_restored. Qed.
Print Assumptions C22_sp_restored.

Theorem C22_callee_saved :
  forall xlen flen, 0 <= xlen -> 0 <= flen -> forall written,
    stack_size xlen flen (used_callee_saved written) <= M32 ->
    forall body, body_ok xlen flen body (used_callee_saved written) ->
    (forall s r, is_callee_saved r = true -> ~ In r (used_callee_saved written) -> getr (body s) r = getr s r) ->
    forall s0, regs_in_range xlen flen s0 (used_callee_saved written) ->
    forall r, is_callee_saved r = true ->
    getr (exec_instrs xlen flen (epilogue xlen flen (used_callee_saved written))
            (body (exec_instrs xlen flen (prologue xlen flen (used_callee_saved written)) s0))) r = getr s0 r.
Proof. exact callee_saved_preserved. Qed.
Print Assumptions C22_callee_saved.

(* the pass' register set: duplicate-free, only callee-saved registers, and every written callee-saved one *)
Theorem C22_used_callee_saved_spec : forall written,
  NoDup (used_callee_saved written) /\
  Forall (fun r => is_callee_saved r = true) (used_callee_saved written) /\
  (forall r, In r written -> is_callee_saved r = true -> In r (used_callee_saved written)).
Proof. exact used_callee_saved_spec. Qed.
Print Assumptions C22_used_callee_saved_spec.

(* with the pass defaults xlen = 4, flen = 8 the sp adjustment is at most 144: encodable as a 12-bit immediate,
   and the frame-size hypothesis of the two theorems above always holds *)
Theorem C22_frame_size_bound : forall written, 0 <= stack_size 4 8 (used_callee_saved written) <= 144.
Proof. exact frame_size_bound. Qed.
Print Assumptions C22_frame_size_bound.

(* non-vacuity: s1 (x9) written twice, fs0, a0 (not callee-saved): frame = addi sp,-12; sw s1,0; fsd fs0,4 *)
Example C22_frame_example :
  frame_code 4 8 (used_callee_saved [(false, 9); (false, 10); (true, 8); (false, 9)])
  = ([IAddiSp (-12); ISave (false, 9) 0; ISave (true, 8) 4],
     [IRestore (false, 9) 0; IRestore (true, 8) 4; IAddiSp 12]).
Proof. vm_compute. reflexivity. Qed.
