(* C10/ProofsAcc.v -- the generated accessors return exactly the declared segments; the
   generated constructor produces operations whose sizes verify and whose accessors give back
   the constructor's arguments.  (One construct; whole operations are in ProofsVerify.v.) *)
From Coq Require Import ZArith List Bool Lia.
From XV Require Import C10.Model C10.Proofs.
Import ListNotations.
Local Open Scope Z_scope.

Lemma to_nat_len : forall T (l : list T), Z.to_nat (len l) = length l.
Proof. intros. unfold len. apply Nat2Z.id. Qed.

Lemma skipn_plus : forall T n m (l : list T), skipn m (skipn n l) = skipn (n + m) l.
Proof.
  induction n as [|n IH]; intros m l; [reflexivity|]. destruct l; cbn [skipn Nat.add].
  - apply skipn_nil.
  - apply IH.
Qed.
Lemma skipn_add : forall T a b (l : list T), 0 <= a -> 0 <= b ->
  skipn (Z.to_nat b) (skipn (Z.to_nat a) l) = skipn (Z.to_nat (a + b)) l.
Proof. intros. rewrite skipn_plus, Z2Nat.inj_add by lia. reflexivity. Qed.

Definition seg_at {T} (start s : Z) (args : list T) : list T :=
  firstn (Z.to_nat s) (skipn (Z.to_nat start) args).

Lemma split_step : forall T (args : list T) start s r, 0 <= start -> 0 <= s ->
  split_sizes (s :: r) (skipn (Z.to_nat start) args)
  = seg_at start s args :: split_sizes r (skipn (Z.to_nat (start + s)) args).
Proof. intros. cbn [split_sizes]. rewrite skipn_add by lia. reflexivity. Qed.

Lemma py_slice_seg : forall T (args : list T) start s,
  0 <= start -> 0 <= s -> start + s <= len args ->
  py_slice args start (start + s) = seg_at start s args.
Proof.
  intros T args start s H1 H2 H3. unfold py_slice, py_clamp, seg_at.
  destruct (Z.ltb_spec start 0); [lia|]. destruct (Z.ltb_spec (start + s) 0); [lia|].
  rewrite !Z.min_l by lia. replace (start + s - start) with s by lia. reflexivity.
Qed.

Lemma seg_at_one : forall T (args : list T) start,
  seg_at start 1 args = match nth_error args (Z.to_nat start) with Some x => [x] | None => [] end.
Proof.
  intros T args start. unfold seg_at. change (Z.to_nat 1) with 1%nat. revert args.
  induction (Z.to_nat start) as [|n IH]; intros [|y r]; simpl; try reflexivity. apply IH.
Qed.

(* indexing, from the front or from the back, returns the one-element segment at that place *)
Lemma index_at : forall T (args : list T) i j k, j = (if i <? 0 then i + len args else i) ->
  k <> Variadic -> 0 <= j < len args ->
  (do x <- py_index args i; Ok (AOne x)) = Ok (shape k (seg_at j 1 args)).
Proof.
  intros T args i j k Hj Hk [H0 H1]. unfold py_index. rewrite <- Hj, seg_at_one.
  destruct (Z.ltb_spec j 0); [lia|]. destruct (Z.leb_spec (len args) j); [lia|]. cbn [orb].
  destruct (nth_error args (Z.to_nat j)) as [x|] eqn:E.
  - destruct k; [reflexivity|reflexivity|congruence].
  - apply nth_error_None in E. unfold len in H1. lia.
Qed.
Lemma index_one : forall T (args : list T) start k, k <> Variadic -> 0 <= start -> start + 1 <= len args ->
  (do x <- py_index args start; Ok (AOne x)) = Ok (shape k (seg_at start 1 args)).
Proof.
  intros T args start k Hk H0 H1. apply index_at; [|exact Hk|lia]. destruct (Z.ltb_spec start 0); lia.
Qed.
Lemma index_one_neg : forall T (args : list T) i, i < 0 -> 0 <= i + len args ->
  (do x <- py_index args i; Ok (AOne x)) = Ok (shape Single (seg_at (i + len args) 1 args)).
Proof.
  intros T args i H0 H1. apply index_at; [|discriminate|lia]. destruct (Z.ltb_spec i 0); lia.
Qed.

Definition run {T} (accs : list accessor) (attr : seg_attr) (args : list T) : list (res (accres T)) :=
  map (fun a => acc_index a attr args) accs.
Definition expected {T} (defs : list kind) (segs : list (list T)) : list (res (accres T)) :=
  map (fun p => Ok (shape (fst p) (snd p))) (combine defs segs).

Lemma run_cons : forall T a accs attr (args : list T),
  run (a :: accs) attr args = acc_index a attr args :: run accs attr args.
Proof. reflexivity. Qed.
Lemma expected_cons : forall T d ds seg (segs : list (list T)),
  expected (d :: ds) (seg :: segs) = Ok (shape d seg) :: expected ds segs.
Proof. reflexivity. Qed.

Lemma all_single_sizes : forall ds ss, Forall (fun d => d = Single) ds -> Forall2 size_ok ds ss ->
  ss = map (fun _ => 1) ds.
Proof.
  intros ds ss Hs H. induction H as [|d s ds ss Hd _ IH]; [reflexivity|].
  inversion Hs; subst. cbn in Hd. subst. cbn. f_equal; auto.
Qed.
Lemma zsum_ones : forall T (ds : list T), zsum (map (fun _ => 1) ds) = len ds.
Proof. induction ds; [reflexivity|]. cbn [map zsum]. rewrite IHds, len_cons. reflexivity. Qed.

Lemma attr_prefix : forall pre l, prefix_sum (pre ++ l) (len pre) = zsum pre.
Proof.
  intros. unfold prefix_sum. rewrite to_nat_len, firstn_app, Nat.sub_diag, firstn_all. cbn [firstn].
  rewrite app_nil_r. reflexivity.
Qed.
Lemma attr_index : forall pre s (l : list Z), py_index (pre ++ s :: l) (len pre) = Ok s.
Proof.
  intros. unfold py_index. pose proof (len_nonneg _ pre).
  destruct (Z.ltb_spec (len pre) 0); [lia|]. rewrite len_app, len_cons. pose proof (len_nonneg _ l).
  destruct (Z.ltb_spec (len pre) 0); [lia|].
  destruct (Z.leb_spec (len pre + (1 + len l)) (len pre)); [lia|]. cbn [orb].
  rewrite to_nat_len, nth_error_app2, Nat.sub_diag by lia. reflexivity.
Qed.

Lemma attr_accessors_spec : forall T (args : list T) b values ds ss,
  Forall2 size_ok ds ss -> forall pre,
  values = pre ++ ss -> Forall (fun s => 0 <= s) pre ->
  zsum pre + zsum ss = len args ->
  run (attr_accessors ds (len pre)) (Dense b values) args
  = expected ds (split_sizes ss (skipn (Z.to_nat (zsum pre)) args)).
Proof.
  intros T args b values ds ss H. induction H as [|d s ds ss Hd Hr IH]; intros pre Hv Hp Hsum.
  - reflexivity.
  - pose proof (zsum_nonneg _ Hp) as Hstart.
    pose proof (zsum_nonneg _ (sizes_nonneg _ _ Hr)) as Hrest.
    pose proof (size_ok_nonneg _ _ Hd) as Hs0.
    cbn [zsum] in Hsum.
    rewrite split_step by lia. cbn [attr_accessors]. rewrite run_cons, expected_cons. f_equal.
    + subst values. destruct d; cbn [is_optional is_variadic acc_index attr_values bind].
      * cbn in Hd. subst s. rewrite attr_prefix. apply index_one; [discriminate|lia|lia].
      * rewrite attr_index. cbn [bind]. cbn in Hd. destruct Hd; subst s; cbn [Z.eqb negb].
        -- reflexivity.
        -- rewrite attr_prefix. apply index_one; [discriminate|lia|lia].
      * rewrite attr_index, attr_prefix. cbn [bind].
        rewrite py_slice_seg by lia. reflexivity.
    + specialize (IH (pre ++ [s])). rewrite len_app, zsum_app in IH. cbn [zsum] in IH.
      change (len [s]) with 1 in IH. rewrite Z.add_0_r in IH. apply IH.
      * subst values. rewrite <- app_assoc. reflexivity.
      * apply Forall_app. split; auto.
      * lia.
Qed.

Lemma floordiv_same : forall n nd nv k, 0 < nv -> n = nd - nv + nv * k ->
  py_floordiv (n - nd) nv = Ok (k - 1).
Proof.
  intros n nd nv k Hnv Hn. unfold py_floordiv. destruct (Z.eqb_spec nv 0); [lia|].
  replace (n - nd) with ((k - 1) * nv) by lia. rewrite Z.div_mul by lia. reflexivity.
Qed.

Lemma same_accessors_spec : forall T (args : list T) attr k nd nv,
  0 < nv -> 0 <= k -> len args = nd - nv + nv * k ->
  forall ds idx ve, 0 <= ve -> ve <= idx ->
  Forall2 size_ok ds (const_sizes k ds) ->
  idx + ve * (k - 1) + zsum (const_sizes k ds) = len args ->
  run (same_accessors ds idx ve nd nv) attr args
  = expected ds (split_sizes (const_sizes k ds) (skipn (Z.to_nat (idx + ve * (k - 1))) args)).
Proof.
  intros T args attr k nd nv Hnv Hk Hlen. induction ds as [|d ds IH]; intros idx ve Hve Hidx Hok Hsum.
  - reflexivity.
  - cbn [const_sizes map] in *. fold (const_sizes k ds) in *. inversion Hok as [|? ? ? ? Hd Hr]; subst.
    pose proof (zsum_nonneg _ (sizes_nonneg _ _ Hr)) as Hrest.
    cbn [zsum] in Hsum. set (start := idx + ve * (k - 1)) in *.
    assert (Hstart : 0 <= start) by (unfold start; nia).
    pose proof (floordiv_same _ _ _ _ Hnv Hlen) as Hdiv.
    destruct d; cbn [is_variadic is_optional] in *.
    + rewrite split_step by lia. cbn [same_accessors is_variadic]. rewrite run_cons, expected_cons. f_equal.
      * cbn [acc_index]. rewrite Hdiv. cbn [bind]. fold start. apply index_one; [discriminate|lia|lia].
      * replace (start + 1) with ((idx + 1) + ve * (k - 1)) by (unfold start; lia).
        apply IH; auto; try (unfold start in *; lia).
    + rewrite split_step by lia. cbn [same_accessors is_variadic is_optional].
      rewrite run_cons, expected_cons. f_equal.
      * cbn [acc_index]. cbn in Hd. destruct Hd as [Hd|Hd]; subst k.
        -- destruct (Z.eqb_spec (len args) nd); [lia|]. reflexivity.
        -- destruct (Z.eqb_spec (len args) nd); [|lia].
           replace start with idx by (unfold start; lia). apply index_one; [discriminate|lia|lia].
      * replace (start + k) with ((idx + 1) + (ve + 1) * (k - 1)) by (unfold start; lia).
        apply IH; auto; try (unfold start in *; lia).
    + rewrite split_step by lia. cbn [same_accessors is_variadic is_optional].
      rewrite run_cons, expected_cons. f_equal.
      * cbn [acc_index]. rewrite Hdiv. cbn [bind]. fold start.
        replace (start + 1 + (k - 1)) with (start + k) by lia.
        rewrite py_slice_seg by lia. reflexivity.
      * replace (start + k) with ((idx + 1) + (ve + 1) * (k - 1)) by (unfold start; lia).
        apply IH; auto; try (unfold start in *; lia).
Qed.

Lemma default_after_spec : forall T (args : list T) attr nd ds idx accs,
  default_accessors ds idx nd false = Ok accs ->
  0 <= idx -> idx + len ds = nd -> 0 <= len args - nd + idx ->
  run accs attr args
  = expected ds (split_sizes (map (fun _ => 1) ds) (skipn (Z.to_nat (len args - nd + idx)) args)).
Proof.
  intros T args attr nd. induction ds as [|d ds IH]; intros idx accs Hacc Hidx Hnd Hst.
  - cbn in Hacc. injection Hacc as <-. reflexivity.
  - cbn [default_accessors] in Hacc. destruct d; cbn [is_variadic] in Hacc; try discriminate.
    destruct (default_accessors ds (idx + 1) nd false) as [rest|] eqn:E; [|discriminate].
    cbn [bind] in Hacc. injection Hacc as <-.
    rewrite len_cons in Hnd. pose proof (len_nonneg _ ds).
    cbn [map]. rewrite split_step by lia. rewrite run_cons, expected_cons. f_equal.
    + cbn [acc_index]. replace (len args - nd + idx) with (- nd + idx + len args) by lia.
      apply index_one_neg; lia.
    + replace (len args - nd + idx + 1) with (len args - nd + (idx + 1)) by lia.
      apply IH; auto; lia.
Qed.

Lemma default_before_spec : forall T (args : list T) attr nd ds ss,
  Forall2 size_ok ds ss -> forall idx accs,
  default_accessors ds idx nd true = Ok accs ->
  0 <= idx -> idx + len ds = nd -> idx + zsum ss = len args ->
  run accs attr args = expected ds (split_sizes ss (skipn (Z.to_nat idx) args)).
Proof.
  intros T args attr nd ds ss H. induction H as [|d s ds ss Hd Hr IH]; intros idx accs Hacc Hidx Hnd Hsum.
  - cbn in Hacc. injection Hacc as <-. reflexivity.
  - pose proof (zsum_nonneg _ (sizes_nonneg _ _ Hr)) as Hrest.
    pose proof (size_ok_nonneg _ _ Hd) as Hs0. pose proof (len_nonneg _ ds).
    cbn [zsum] in Hsum. rewrite len_cons in Hnd.
    cbn [default_accessors] in Hacc. rewrite split_step by lia.
    destruct (is_variadic d) eqn:Ev.
    + destruct (default_accessors ds (idx + 1) nd false) as [rest|] eqn:E; [|discriminate].
      cbn [bind] in Hacc. injection Hacc as <-.
      pose proof (default_after_all_single _ _ _ _ E) as Hall.
      pose proof (all_single_sizes _ _ Hall Hr) as Hss. subst ss. rewrite zsum_ones in *.
      rewrite run_cons, expected_cons. f_equal.
      * destruct d; cbn [is_variadic is_optional] in *; try discriminate; cbn [acc_index].
        -- cbn in Hd. destruct Hd; subst s.
           ++ destruct (Z.eqb_spec (len args) nd); [lia|]. reflexivity.
           ++ destruct (Z.eqb_spec (len args) nd); [|lia]. apply index_one; [discriminate|lia|lia].
        -- replace (idx + len args - nd + 1) with (idx + s) by lia.
           rewrite py_slice_seg by lia. reflexivity.
      * replace (idx + s) with (len args - nd + (idx + 1)) by lia.
        eapply default_after_spec; eauto; lia.
    + destruct (default_accessors ds (idx + 1) nd true) as [rest|] eqn:E; [|discriminate].
      cbn [bind] in Hacc. injection Hacc as <-.
      destruct d; cbn [is_variadic] in Ev; try discriminate. cbn in Hd. subst s.
      rewrite run_cons, expected_cons. f_equal.
      * cbn [acc_index]. apply index_one; [discriminate|lia|lia].
      * apply IH; auto; lia.
Qed.

Lemma existsb_variadic_nv : forall defs,
  (existsb is_variadic defs = true -> 0 < num_variadics defs) /\
  (existsb is_variadic defs = false -> num_variadics defs = 0).
Proof.
  induction defs as [|d r [IH1 IH2]]; [split; [discriminate|reflexivity]|].
  cbn [existsb]. rewrite nv_cons. pose proof (nv_nonneg r) as Hr.
  destruct (is_variadic d); cbn [orb]; split; intros Hx; try discriminate; try lia.
  - specialize (IH1 Hx). lia.
  - rewrite (IH2 Hx). reflexivity.
Qed.

(* the side condition on SameVariadic*Size is needed for the unrepaired code only (it says: a same-size option comes with a variadic definition) *)
Definition same_nonvacuous (v : version) (opt : sizeopt) (kinds : list kind) : Prop :=
  opt = SameSize -> fix_same_novar v = false -> 0 < num_variadics kinds.

Theorem accessors_spec : forall T v opt defs accs attr (args : list T) sizes,
  irdl_op_arg_definition v opt defs = Ok accs ->
  segmentation opt defs (len args) sizes ->
  (opt = AttrSized -> exists b, attr = Dense b sizes) ->
  same_nonvacuous v opt defs ->
  run accs attr args = expected defs (split_sizes sizes args).
Proof.
  intros T v opt defs accs attr args sizes Hacc (Hok & Hsum & Hsame) Hattr Hnv.
  destruct opt; cbn [irdl_op_arg_definition] in Hacc.
  - change args with (skipn (Z.to_nat 0) args) at 2.
    eapply default_before_spec; eauto; try lia.
  - destruct (fix_same_novar v && negb (existsb is_variadic defs)) eqn:Eg.
    { (* repaired code, no variadic definition: the plain accessors *)
      change args with (skipn (Z.to_nat 0) args) at 2.
      eapply default_before_spec; eauto; try lia. }
    assert (Hnv' : 0 < num_variadics defs).
    { destruct (fix_same_novar v) eqn:Ef; [|apply Hnv; auto].
      cbn [andb] in Eg. apply negb_false_iff in Eg. apply existsb_variadic_nv. exact Eg. }
    clear Hnv. rename Hnv' into Hnv.
    injection Hacc as <-. destruct (Hsame eq_refl) as [k Hk].
    pose proof (canon _ _ _ Hok Hk) as ->. rewrite zsum_const in Hsum.
    assert (Hk0 : 0 <= k) by (eapply variadic_common; eauto).
    change args with (skipn (Z.to_nat (0 + 0 * (k - 1))) args) at 2.
    apply same_accessors_spec with (k := k); auto; try lia.
    rewrite zsum_const. lia.
  - injection Hacc as <-. destruct (Hattr eq_refl) as [b ->].
    change 0 with (len (@nil Z)). change args with (skipn (Z.to_nat (zsum [])) args) at 2.
    apply attr_accessors_spec; auto; cbn [zsum]; lia.
Qed.

Lemma split_concat : forall T sizes (args : list T),
  Forall (fun s => 0 <= s) sizes -> zsum sizes = len args -> concat (split_sizes sizes args) = args.
Proof.
  intros T sizes. induction sizes as [|s r IH]; intros args Hn Hs.
  - cbn in *. destruct args; [reflexivity|]. rewrite len_cons in Hs. pose proof (len_nonneg _ args). lia.
  - inversion Hn; subst. cbn [split_sizes concat zsum] in *.
    pose proof (zsum_nonneg _ H2). rewrite IH; auto.
    + apply firstn_skipn.
    + unfold len in *. rewrite skipn_length. lia.
Qed.
Lemma split_lengths : forall T sizes (args : list T),
  Forall (fun s => 0 <= s) sizes -> zsum sizes = len args -> map len (split_sizes sizes args) = sizes.
Proof.
  intros T sizes. induction sizes as [|s r IH]; intros args Hn Hs; [reflexivity|].
  inversion Hn; subst. cbn [split_sizes map zsum] in *. pose proof (zsum_nonneg _ H2). f_equal.
  - unfold len in *. rewrite firstn_length_le by lia. lia.
  - apply IH; auto. unfold len in *. rewrite skipn_length. lia.
Qed.
Lemma accres_list_shape : forall T k (seg : list T), accres_list (shape k seg) = seg.
Proof. intros T k seg. destruct k; cbn; auto; destruct seg as [|x [|y r]]; reflexivity. Qed.

Theorem accessors_partition : forall T opt defs (args : list T) sizes,
  segmentation opt defs (len args) sizes ->
  concat (split_sizes sizes args) = args /\ map len (split_sizes sizes args) = sizes.
Proof.
  intros T opt defs args sizes (Hok & Hsum & _). pose proof (sizes_nonneg _ _ Hok).
  split; [apply split_concat|apply split_lengths]; auto.
Qed.

(* the two defects, on the accessors: *)
(* (1) an attr-sized operation that VERIFIES but whose accessors overlap / drop arguments *)
Theorem attr_accessors_refuted : forall v, fix_attr_sum v = false ->
  exists defs sizes accs (args : list Z),
  irdl_op_arg_definition v AttrSized defs = Ok accs /\
  verify_variadic_size v AttrSized defs (len args) (Dense true sizes) = Ok tt /\
  concat (map (fun r => match r with Ok a => accres_list a | Raise _ => [] end)
              (run accs (Dense true sizes) args)) <> args.
Proof.
  intros v Hv.
  exists [Variadic; Single], [1; 1], (attr_accessors [Variadic; Single] 0), [10; 20; 30].
  split; [reflexivity|]. split; [cbn [verify_variadic_size]; rewrite Hv; reflexivity|].
  vm_compute. discriminate.
Qed.
(* (2) SameVariadic*Size without any variadic definition: every accessor divides by zero *)
Theorem same_size_no_variadic_refuted : forall v, fix_same_novar v = false ->
  exists defs accs (args : list Z) sizes,
  irdl_op_arg_definition v SameSize defs = Ok accs /\
  segmentation SameSize defs (len args) sizes /\
  run accs Missing args = [Raise ZeroDivisionError; Raise ZeroDivisionError].
Proof.
  intros v Hv.
  exists [Single; Single], (same_accessors [Single; Single] 0 0 2 0), [10; 20], [1; 1].
  split; [cbn [irdl_op_arg_definition]; rewrite Hv; reflexivity|]. split; [|reflexivity].
  split; [repeat constructor|]. split; [reflexivity|]. intros _. exists 0. repeat constructor; discriminate.
Qed.
(* repaired code: a same-size definition without variadics is definable and uses the plain accessors *)
Lemma default_all_single : forall defs idx nd, Forall (fun d => d = Single) defs ->
  exists accs, default_accessors defs idx nd true = Ok accs.
Proof.
  induction defs as [|d r IH]; intros idx nd H; [eexists; reflexivity|].
  inversion H; subst. cbn [default_accessors is_variadic].
  destruct (IH (idx + 1) nd H3) as [accs ->]. eexists; reflexivity.
Qed.
Theorem same_size_well_defined : forall v defs, well_defined v SameSize defs.
Proof.
  intros v defs. unfold well_defined. cbn [irdl_op_arg_definition].
  destruct (fix_same_novar v && negb (existsb is_variadic defs)) eqn:E; [|eexists; reflexivity].
  apply andb_true_iff in E. destruct E as [_ E]. apply negb_true_iff in E.
  apply default_all_single. apply nv0_all_single. apply existsb_variadic_nv. exact E.
Qed.

(* the checks irdl_build_arg_list makes on one argument: its length fits the kind of the definition *)
Definition arg_fits {T} (d : kind) (a : barg T) : bool :=
  match a with
  | BNone => is_optional d
  | BOne _ => true
  | BSeq l => negb (negb (is_variadic d) && negb (len l =? 1)) && negb (is_optional d && (1 <? len l))
  end.

Lemma build_loop_cons : forall T d ds (a : barg T) r,
  build_loop (d :: ds) (a :: r) =
  if arg_fits d a then do rest <- build_loop ds r; Ok (norm a ++ fst rest, len (norm a) :: snd rest)
  else Raise ValueError.
Proof.
  intros T d ds a r. destruct a as [|x|l]; cbn [build_loop arg_fits norm].
  - destruct (is_optional d); reflexivity.
  - reflexivity.
  - destruct (negb (is_variadic d) && negb (len l =? 1)); [reflexivity|].
    destruct (is_optional d && (1 <? len l)); reflexivity.
Qed.

Lemma arg_fits_size : forall T d (a : barg T), arg_fits d a = true -> size_ok d (len (norm a)).
Proof.
  intros T d a H. destruct a as [|x|l]; cbn [arg_fits norm] in *.
  - destruct d; try discriminate. left. reflexivity.
  - destruct d; cbn; unfold len; cbn; lia.
  - pose proof (len_nonneg _ l). destruct d; cbn [is_variadic is_optional negb andb] in H; cbn.
    + destruct (Z.eqb_spec (len l) 1); [assumption|discriminate].
    + destruct (Z.ltb_spec 1 (len l)); [discriminate|lia].
    + assumption.
Qed.

Lemma build_loop_spec : forall T defs (args : list (barg T)) flat sizes,
  length args = length defs ->
  build_loop defs args = Ok (flat, sizes) ->
  Forall2 size_ok defs sizes /\ zsum sizes = len flat /\ split_sizes sizes flat = map norm args.
Proof.
  intros T defs. induction defs as [|d ds IH]; intros args flat sizes Hl Hb; destruct args as [|a r]; try discriminate.
  - cbn in Hb. injection Hb as <- <-. repeat split; constructor.
  - injection Hl as Hl. rewrite build_loop_cons in Hb. destruct (arg_fits d a) eqn:Ea; [|discriminate].
    destruct (build_loop ds r) as [[f s]|] eqn:E; [|discriminate]. cbn [bind fst snd] in Hb.
    injection Hb as <- <-. destruct (IH _ _ _ Hl E) as (A & B & C).
    split; [|split].
    + constructor; [apply arg_fits_size, Ea | exact A].
    + cbn [zsum]. rewrite len_app. lia.
    + cbn [split_sizes map]. rewrite to_nat_len.
      rewrite firstn_app, Nat.sub_diag, firstn_all. cbn [firstn]. rewrite app_nil_r.
      rewrite skipn_app, Nat.sub_diag, skipn_all. cbn [skipn app]. f_equal; auto.
Qed.

Theorem build_arg_list_spec : forall T defs (args : list (barg T)) flat sizes,
  irdl_build_arg_list defs args = Ok (flat, sizes) ->
  length args = length defs /\
  Forall2 size_ok defs sizes /\ zsum sizes = len flat /\ split_sizes sizes flat = map norm args.
Proof.
  intros T defs args flat sizes H. unfold irdl_build_arg_list in H.
  destruct (Z.eqb_spec (len args) (len defs)) as [E|E]; cbn [negb] in H; [|discriminate].
  assert (length args = length defs) by (unfold len in E; lia).
  split; auto. eapply build_loop_spec; eauto.
Qed.

Lemma all_same_spec : forall l, all_same l = true -> exists k, Forall (fun s => s = k) l.
Proof.
  intros [|x r] H; [exists 0; constructor|]. exists x. constructor; auto.
  cbn in H. rewrite forallb_forall in H. apply Forall_forall. intros y Hy. specialize (H _ Hy).
  apply Z.eqb_eq in H. auto.
Qed.
Lemma variadic_sizes_same : forall k defs sizes, length sizes = length defs ->
  Forall (fun s => s = k) (variadic_sizes sizes defs) ->
  Forall2 (fun d s => is_variadic d = true -> s = k) defs sizes.
Proof.
  intros k defs. induction defs as [|d ds IH]; intros sizes Hl H; destruct sizes as [|s ss]; try discriminate; constructor.
  - cbn [variadic_sizes] in H. intros Hv. rewrite Hv in H. inversion H; auto.
  - injection Hl as Hl. apply IH; auto. cbn [variadic_sizes] in H.
    destruct (is_variadic d); [inversion H|]; auto.
Qed.

Theorem built_construct_verifies :
  forall T v opt defs (args : list (barg T)) flat sizes given attr accs,
  irdl_build_arg_list defs args = Ok (flat, sizes) ->
  init_option opt defs sizes given = Ok attr ->
  irdl_op_arg_definition v opt defs = Ok accs ->
  same_nonvacuous v opt defs ->
  segmentation opt defs (len flat) sizes /\
  (opt = AttrSized -> attr = Dense true sizes) /\
  verify_variadic_size v opt defs (len flat) attr = Ok tt /\
  run accs attr flat = expected defs (map norm args).
Proof.
  intros T v opt defs args flat sizes given attr accs Hb Hi Hacc Hnv.
  destruct (build_arg_list_spec _ _ _ _ _ Hb) as (Hl & Hok & Hsum & Hsplit).
  assert (Hseg : segmentation opt defs (len flat) sizes).
  { split; [|split]; auto. intros ->. cbn in Hi.
    destruct (all_same (variadic_sizes sizes defs)) eqn:E; [|discriminate].
    destruct (all_same_spec _ E) as [k Hk]. exists k. apply variadic_sizes_same; auto.
    apply F2_length in Hok. auto. }
  assert (Hat : opt = AttrSized -> attr = Dense true sizes).
  { intros ->. cbn in Hi. congruence. }
  split; [auto|]. split; [auto|]. split.
  - destruct opt.
    + apply (verify_sizes_iff v NoOption); [discriminate|eexists; eauto|eauto].
    + apply (verify_sizes_iff v SameSize); [discriminate|eexists; eauto|eauto].
    + rewrite (Hat eq_refl). apply attr_size_complete. auto.
  - rewrite <- Hsplit. eapply accessors_spec; eauto; intros E; rewrite (Hat E); eauto.
Qed.
