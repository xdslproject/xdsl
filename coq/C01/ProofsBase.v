(* C01/ProofsBase.v -- inversion lemmas for the state monad of Model.v; tables, the option tests
   (`opt_eqb`, `is_some`), the boolean list functions of the checker, chains and chain segments. *)
From Coq Require Import ZArith List Bool PArith FMapPositive Lia.
From XV Require Import C01.Model C01.Spec.
Import ListNotations.
Local Open Scope Z_scope.

Lemma bind_ok : forall {A B} (m : M A) (f : A -> M B) s s' b,
  bind m f s = (s', Ok b) -> exists s1 a, m s = (s1, Ok a) /\ f a s1 = (s', Ok b).
Proof.
  intros A B m f s s' b H. unfold bind in H.
  destruct (m s) as [s1 [a|e]] eqn:E.
  - exists s1, a. split; [reflexivity|exact H].
  - discriminate.
Qed.

Lemma ret_ok : forall {A} (a b : A) s s', ret a s = (s', Ok b) -> s' = s /\ b = a.
Proof. intros A a b s s' H. unfold ret in H. inversion H. auto. Qed.

Lemma raise_ok : forall {A} e s s' (b : A), raise e s = (s', Ok b) -> False.
Proof. intros A e s s' b H. unfold raise in H. discriminate. Qed.

Lemma gets_ok : forall {A} (f : state -> A) s s' b, gets f s = (s', Ok b) -> s' = s /\ b = f s.
Proof. intros A f s s' b H. unfold gets in H. inversion H. auto. Qed.

Lemma assert_ok : forall c s s' u, assert_ c s = (s', Ok u) -> s' = s /\ c = true.
Proof. intros c s s' u H. unfold assert_ in H. destruct c; [apply ret_ok in H; tauto|discriminate]. Qed.

Lemma when_true_ok : forall c m s s' u, when c m s = (s', Ok u) ->
  (c = true /\ m s = (s', Ok u)) \/ (c = false /\ s' = s).
Proof.
  intros c m s s' u H. unfold when in H. destruct c.
  - left. destruct u. auto.
  - right. apply ret_ok in H. tauto.
Qed.

(* the five tables are read and written by five copies of the same two functions *)
Lemma get_ok : forall {Rec} (tbl : state -> PM.t Rec) k s s' x,
  match PM.find k (tbl s) with Some r => (s, Ok r) | None => (s, Raise BadCall) end = (s', Ok x) ->
  s' = s /\ PM.find k (tbl s) = Some x.
Proof. intros Rec tbl k s s' x H. destruct (PM.find k (tbl s)); inversion H; auto. Qed.

Lemma upd_ok : forall {Rec} (tbl : state -> PM.t Rec) (wth : PM.t Rec -> state -> state) k f s s' (u : unit),
  match PM.find k (tbl s) with
  | Some r => (wth (PM.add k (f r) (tbl s)) s, Ok tt)
  | None => (s, Raise BadCall) end = (s', Ok u) ->
  exists x, PM.find k (tbl s) = Some x /\ s' = wth (PM.add k (f x) (tbl s)) s.
Proof. intros Rec tbl wth k f s s' u H. destruct (PM.find k (tbl s)) as [x|]; inversion H. eauto. Qed.

Lemma getO_ok : forall o s s' x, getO o s = (s', Ok x) -> s' = s /\ PM.find o (s_ops s) = Some x.
Proof. exact (get_ok s_ops). Qed.
Lemma getB_ok : forall o s s' x, getB o s = (s', Ok x) -> s' = s /\ PM.find o (s_blocks s) = Some x.
Proof. exact (get_ok s_blocks). Qed.
Lemma getR_ok : forall o s s' x, getR o s = (s', Ok x) -> s' = s /\ PM.find o (s_regions s) = Some x.
Proof. exact (get_ok s_regions). Qed.
Lemma getV_ok : forall o s s' x, getV o s = (s', Ok x) -> s' = s /\ PM.find o (s_values s) = Some x.
Proof. exact (get_ok s_values). Qed.
Lemma getU_ok : forall o s s' x, getU o s = (s', Ok x) -> s' = s /\ PM.find o (s_uses s) = Some x.
Proof. exact (get_ok s_uses). Qed.

Lemma updO_ok : forall o f s s' u, updO o f s = (s', Ok u) ->
  exists x, PM.find o (s_ops s) = Some x /\ s' = with_ops (PM.add o (f x) (s_ops s)) s.
Proof. exact (upd_ok s_ops with_ops). Qed.
Lemma updB_ok : forall o f s s' u, updB o f s = (s', Ok u) ->
  exists x, PM.find o (s_blocks s) = Some x /\ s' = with_blocks (PM.add o (f x) (s_blocks s)) s.
Proof. exact (upd_ok s_blocks with_blocks). Qed.
Lemma updR_ok : forall o f s s' u, updR o f s = (s', Ok u) ->
  exists x, PM.find o (s_regions s) = Some x /\ s' = with_regions (PM.add o (f x) (s_regions s)) s.
Proof. exact (upd_ok s_regions with_regions). Qed.
Lemma updV_ok : forall o f s s' u, updV o f s = (s', Ok u) ->
  exists x, PM.find o (s_values s) = Some x /\ s' = with_values (PM.add o (f x) (s_values s)) s.
Proof. exact (upd_ok s_values with_values). Qed.
Lemma updU_ok : forall o f s s' u, updU o f s = (s', Ok u) ->
  exists x, PM.find o (s_uses s) = Some x /\ s' = with_uses (PM.add o (f x) (s_uses s)) s.
Proof. exact (upd_ok s_uses with_uses). Qed.

Lemma find_add : forall {R} (m : PM.t R) i j x,
  PM.find i (PM.add j x m) = if Pos.eqb i j then Some x else PM.find i m.
Proof.
  intros R m i j x. destruct (Pos.eqb_spec i j) as [->|N].
  - apply PM.gss.
  - apply PM.gso. exact N.
Qed.

Lemma find_add_same : forall {R} (m : PM.t R) i x, PM.find i (PM.add i x m) = Some x.
Proof. intros. apply PM.gss. Qed.
Lemma find_add_other : forall {R} (m : PM.t R) i j x, i <> j -> PM.find i (PM.add j x m) = PM.find i m.
Proof. intros. apply PM.gso. assumption. Qed.

Lemma opt_eqb_eq : forall a b, opt_eqb a b = true <-> a = b.
Proof.
  intros [a|] [b|]; simpl; split; intro H; try discriminate; try reflexivity.
  - apply Pos.eqb_eq in H. congruence.
  - inversion H. apply Pos.eqb_refl.
Qed.
Lemma iff_false : forall (b : bool) (P : Prop), (b = true <-> P) -> (b = false <-> ~ P).
Proof. intros [] P [H1 H2]; split; intro H; try discriminate; try reflexivity; [destruct H; auto|intro Q; apply H2 in Q; discriminate]. Qed.

Lemma opt_eqb_neq : forall a b, opt_eqb a b = false <-> a <> b.
Proof. intros a b. apply iff_false, opt_eqb_eq. Qed.

Lemma is_some_false : forall {A} (o : option A), is_some o = false <-> o = None.
Proof. intros A [a|]; simpl; split; intro; congruence. Qed.

(* state projections after the `with_*` updates *)
Lemma s_ops_with_ops : forall x s, s_ops (with_ops x s) = x. Proof. reflexivity. Qed.
Lemma s_blocks_with_ops : forall x s, s_blocks (with_ops x s) = s_blocks s. Proof. reflexivity. Qed.

Lemma mem_In : forall x l, mem x l = true <-> In x l.
Proof.
  intros x l. induction l as [|y r IH]; simpl.
  - split; [discriminate|tauto].
  - rewrite orb_true_iff, IH, Pos.eqb_eq. split; intros [H|H]; auto.
Qed.
Lemma mem_false : forall x l, mem x l = false <-> ~ In x l.
Proof. intros x l. apply iff_false, mem_In. Qed.

Lemma nodup_b_NoDup : forall l, nodup_b l = true <-> NoDup l.
Proof.
  induction l as [|x r IH]; simpl.
  - split; [constructor|reflexivity].
  - rewrite andb_true_iff, negb_true_iff, mem_false, IH. split.
    + intros [H1 H2]. constructor; assumption.
    + intro H. inversion H. auto.
Qed.

Lemma list_eqb_eq : forall l l', list_eqb l l' = true <-> l = l'.
Proof.
  induction l as [|x r IH]; destruct l' as [|y r']; simpl; split; intro H; try discriminate; try reflexivity.
  - apply andb_true_iff in H. destruct H as [H1 H2]. apply Pos.eqb_eq in H1. apply IH in H2. congruence.
  - inversion H. subst. rewrite Pos.eqb_refl. simpl. apply IH. reflexivity.
Qed.

Lemma forallb_elements : forall {R} (f : positive * R -> bool) (m : PM.t R),
  forallb f (PM.elements m) = true -> forall k v, PM.find k m = Some v -> f (k, v) = true.
Proof.
  intros R f m H k v F. rewrite forallb_forall in H. apply H. apply PM.elements_correct. exact F.
Qed.

Lemma chain_b_sound : forall nxt fl cur l, chain_b nxt fl cur = Some l -> chain nxt cur l.
Proof.
  intros nxt fl. induction fl as [|f IH]; intros cur l H.
  - destruct cur; simpl in H; [discriminate|]. inversion H. constructor.
  - destruct cur as [x|]; simpl in H.
    + destruct (nxt x) as [n|] eqn:E; [|discriminate].
      destruct (chain_b nxt f n) as [l0|] eqn:E2; [|discriminate].
      inversion H. subst. econstructor; eauto.
    + inversion H. constructor.
Qed.

Lemma chain_fun : forall nxt cur l l', chain nxt cur l -> chain nxt cur l' -> l = l'.
Proof.
  intros nxt cur l l' H. revert l'. induction H; intros l' H'; inversion H'; subst.
  - reflexivity.
  - f_equal. apply IHchain. congruence.
Qed.

(* segments: following nxt from `cur` visits l and then reaches `stop` *)
Inductive seg (nxt : positive -> option (option positive)) : option positive -> list positive -> option positive -> Prop :=
| seg_nil : forall c, seg nxt c [] c
| seg_cons : forall x n l stop, nxt x = Some n -> seg nxt n l stop -> seg nxt (Some x) (x :: l) stop.

Lemma chain_seg : forall nxt cur l, chain nxt cur l <-> seg nxt cur l None.
Proof.
  intros nxt cur l. split; intro H.
  - induction H; econstructor; eauto.
  - remember None as stop. induction H; subst.
    + constructor.
    + econstructor; eauto.
Qed.

Lemma seg_app : forall nxt a l1 b l2 c, seg nxt a l1 b -> seg nxt b l2 c -> seg nxt a (l1 ++ l2) c.
Proof.
  intros nxt a l1 b l2 c H. induction H; intro H2; simpl.
  - exact H2.
  - econstructor; eauto.
Qed.

Lemma seg_split : forall nxt a l1 l2 c, seg nxt a (l1 ++ l2) c -> exists b, seg nxt a l1 b /\ seg nxt b l2 c.
Proof.
  intros nxt a l1. revert a. induction l1 as [|x r IH]; intros a l2 c H; simpl in H.
  - exists a. split; [constructor|exact H].
  - inversion H; subst. destruct (IH _ _ _ H5) as (b & S1 & S2).
    exists b. split; [econstructor; eauto|exact S2].
Qed.

Lemma seg_ext : forall nxt nxt' a l c,
  (forall x, In x l -> nxt' x = nxt x) -> seg nxt a l c -> seg nxt' a l c.
Proof.
  intros nxt nxt' a l c E H. induction H.
  - constructor.
  - econstructor.
    + rewrite E; [eassumption|left; reflexivity].
    + apply IHseg. intros y Iy. apply E. right. exact Iy.
Qed.

Lemma chain_ext : forall nxt nxt' cur l,
  (forall x, In x l -> nxt' x = nxt x) -> chain nxt cur l -> chain nxt' cur l.
Proof. intros nxt nxt' cur l E H. apply chain_seg. apply (seg_ext nxt); [exact E|apply chain_seg; exact H]. Qed.

Lemma seg_cons_inv : forall nxt x l a c, seg nxt a (x :: l) c -> a = Some x /\ exists n, nxt x = Some n /\ seg nxt n l c.
Proof. intros nxt x l a c H. inversion H; subst. split; [reflexivity|eauto]. Qed.

Lemma seg_head : forall nxt a x l c, seg nxt a (x :: l) c -> a = Some x.
Proof. intros. inversion H. reflexivity. Qed.
