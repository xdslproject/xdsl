(* C04/ProofsPrint.v -- the printer's name allocation: the names of the values first printed in the
   active scopes are pairwise distinct at every moment (C04_names_unique), the blocks of a region get pairwise
   distinct names when the region begins (`pb_all_spec`), names never change once given (`keeps`), and a name is
   its hint plus a counter suffix (`shape`). *)
From Coq Require Import ZArith List Bool Arith Lia.
From XV Require Import C04.Model C04.ProofsStr C04.ProofsGhost.
Import ListNotations.

Lemma cnt_cons_same : forall h k l, cnt h ((h, k) :: l) = k.
Proof. intros. unfold cnt. cbn. rewrite str_eqb_refl. reflexivity. Qed.
Lemma cnt_cons_other : forall h h' k l, h <> h' -> cnt h ((h', k) :: l) = cnt h l.
Proof. intros h h' k l N. unfold cnt. cbn. apply str_eqb_neq in N. rewrite N. reflexivity. Qed.
Lemma cnt_cons_le : forall h hs l, cnt h l <= cnt h ((hs, S (cnt hs l)) :: l).
Proof.
  intros h hs l. destruct (list_eq_dec Z.eq_dec h hs) as [->|X]; [rewrite cnt_cons_same; lia|].
  rewrite cnt_cons_other by exact X. lia.
Qed.

(* a name is "below" the counters of a frame: it has been handed out while that frame, or a frame
   it was copied from, was the top of the stack *)
Definition below (f : frame) (n : str) : Prop :=
  (exists h k, n = render h k /\ good_hint h /\ k < cnt h (f_vn f)) \/
  (exists k, n = dec k /\ k < f_nv f).

(* every frame's counters bound the names of the values of its own scope AND of all enclosing scopes
   (`concat (al :: als')`, not `al`): enter_scope copies the counters, so an inner scope never reuses an outer name *)
Fixpoint FrInv (nm : Z -> str) (frs : list frame) (als : list (list Z)) : Prop :=
  match frs, als with
  | fr :: frs', al :: als' =>
      (forall v, In v (concat (al :: als')) -> below fr (nm v)) /\ FrInv nm frs' als'
  | [], [] => True
  | _, _ => False
  end.

Lemma FrInv_ext : forall nm nm' frs als,
  (forall v, In v (concat als) -> nm' v = nm v) -> FrInv nm frs als -> FrInv nm' frs als.
Proof.
  induction frs as [|fr frs IH]; destruct als as [|al als]; cbn; auto.
  intros E [H1 H2]. split.
  - intros v Hv. rewrite E by exact Hv. apply H1. exact Hv.
  - apply IH; [|exact H2]. intros v Hv. apply E. apply in_or_app. now right.
Qed.

Record PInv (p : pst) (hints : list (Z * option str)) (frames : list (list Z)) : Prop := {
  pi_dom : forall v, lookupZ v (p_vals p) <> None <-> lookupZ v hints <> None;
  pi_frames : FrInv (name_of p) (p_top p :: p_rest p) frames;
  pi_nodup : NoDup (map (name_of p) (concat frames));
  pi_shape : forall v, match lookupZ v hints with
                       | Some (Some hs) => good_hint hs /\ exists k, name_of p v = render hs k
                       | Some None => exists k, name_of p v = dec k
                       | None => True
                       end
}.

(* a printed name is its hint plus a counter suffix, or a number *)
Definition shape (eh : option str) (n : str) : Prop :=
  match eh with
  | Some hs => good_hint hs /\ exists k, n = render hs k
  | None => exists k, n = dec k
  end.
Lemma PInv_shape : forall p hints frames v eh, PInv p hints frames -> lookupZ v hints = Some eh -> shape eh (name_of p v).
Proof. intros p hints frames v eh I E. pose proof (pi_shape _ _ _ I v) as S. rewrite E in S. exact S. Qed.
Lemma shape_val_hint : forall c eh n, shape eh n -> val_hint c n = eh.
Proof.
  intros c [hs|] n; [intros [G [k ->]]; apply val_hint_render; exact G|intros [k ->]; apply val_hint_dec].
Qed.
Lemma shape_lexable : forall eh n, shape eh n -> lexable n = true.
Proof.
  intros [hs|] n; [intros [G [k ->]]; apply good_lexable_render; exact G|intros [k ->]; apply lexable_dec].
Qed.

Lemma PInv_0 : PInv pst0 [] [[]].
Proof.
  constructor; cbn.
  - tauto.
  - split; [intros v []|exact I].
  - constructor.
  - exact (fun _ => I).
Qed.

Lemma below_mono_hint : forall f hs n,
  below f n ->
  below (Frame ((hs, S (cnt hs (f_vn f))) :: f_vn f) (f_bn f) (f_nv f) (f_nb f)) n.
Proof.
  intros f hs n [[h [k [E [G L]]]]|[k [E L]]].
  - left. exists h, k. split; [exact E|]. split; [exact G|]. cbn. pose proof (cnt_cons_le h hs (f_vn f)). lia.
  - right. exists k. cbn. tauto.
Qed.
Lemma below_mono_num : forall f n,
  below f n -> below (Frame (f_vn f) (f_bn f) (S (f_nv f)) (f_nb f)) n.
Proof.
  intros f n [[h [k [E [G L]]]]|[k [E L]]].
  - left. exists h, k. cbn. tauto.
  - right. exists k. cbn. split; [exact E|lia].
Qed.

Lemma name_of_cons_other : forall p v w n bl top rest,
  w <> v -> name_of (Pst ((v, n) :: p_vals p) bl top rest) w = name_of p w.
Proof. intros. unfold name_of. cbn. destruct (Z.eqb_spec w v); [contradiction|reflexivity]. Qed.
Lemma name_of_cons_same : forall vals v n bl top rest,
  name_of (Pst ((v, n) :: vals) bl top rest) v = n.
Proof. intros. unfold name_of. cbn. rewrite Z.eqb_refl. reflexivity. Qed.

(* a value not yet printed gets a name that no name below the top frame equals *)
Lemma PInv_new : forall p hints f fs v n fr' eh,
  PInv p hints (f :: fs) -> ~ In v (concat (f :: fs)) ->
  (forall m, below (p_top p) m -> m <> n) -> (forall m, below (p_top p) m -> below fr' m) ->
  below fr' n -> shape eh n ->
  PInv (Pst ((v, n) :: p_vals p) (p_blks p) fr' (p_rest p)) ((v, eh) :: hints) ((v :: f) :: fs).
Proof.
  intros p hints f fs v n fr' eh [D F N SH] Nv Fresh Mono Bn Sn.
  cbn [FrInv] in F. destruct F as [F1 F2].
  set (p' := Pst ((v, n) :: p_vals p) (p_blks p) fr' (p_rest p)).
  assert (Eo : forall w, w <> v -> name_of p' w = name_of p w) by (intros w Hw; apply name_of_cons_other; exact Hw).
  assert (Es : name_of p' v = n) by apply name_of_cons_same.
  assert (Ea : forall w, In w (concat (f :: fs)) -> name_of p' w = name_of p w).
  { intros w Hw. apply Eo. intros ->. exact (Nv Hw). }
  constructor.
  - intro w. cbn. destruct (Z.eqb_spec w v); [split; discriminate|apply D].
  - cbn [FrInv]. split.
    + intros w [Hw|Hw].
      * subst w. rewrite Es. exact Bn.
      * rewrite Ea by exact Hw. apply Mono. apply F1. exact Hw.
    + apply (FrInv_ext (name_of p)); [|exact F2]. intros w Hw. apply Ea. cbn. apply in_or_app. now right.
  - change (concat ((v :: f) :: fs)) with (v :: concat (f :: fs)). cbn [map].
    rewrite Es. rewrite (map_ext_in _ _ _ Ea). constructor; [|exact N].
    intro X. apply in_map_iff in X. destruct X as [w [X1 X2]]. exact (Fresh _ (F1 w X2) X1).
  - intro w. cbn. destruct (Z.eqb_spec w v) as [->|E].
    + rewrite Es. exact Sn.
    + rewrite Eo by exact E. apply SH.
Qed.

Lemma pv_new : forall p hints f fs v h,
  PInv p hints (f :: fs) ->
  (forall w, In w (concat (f :: fs)) -> lookupZ w hints <> None) ->
  lookupZ v hints = None ->
  vhint_ok h ->
  PInv (pv v h p) ((v, eff_hint h) :: hints) ((v :: f) :: fs).
Proof.
  intros p hints f fs v h PI AP Hv Hh.
  assert (Hp : lookupZ v (p_vals p) = None).
  { destruct (lookupZ v (p_vals p)) eqn:E; [|reflexivity]. exfalso.
    apply (proj1 (pi_dom _ _ _ PI v)); [congruence|exact Hv]. }
  assert (Nv : ~ In v (concat (f :: fs))).
  { intro X. apply AP in X. congruence. }
  unfold pv. rewrite Hp. destruct (eff_hint h) as [hs|] eqn:Eh.
  - (* hinted: the counter of hs has not been reached by any name below the frame *)
    pose proof (Hh hs Eh) as Gh. apply PInv_new; try assumption.
    + intros m [[h' [k' [E [G L]]]]|[k' [E L]]] X; subst m.
      * apply render_inj in X; [|apply G|apply Gh]. destruct X; subst. lia.
      * exact (dec_neq_render _ _ _ (proj1 Gh) X).
    + intro m. apply below_mono_hint.
    + left. exists hs, (cnt hs (f_vn (p_top p))). cbn. rewrite cnt_cons_same. split; [reflexivity|]. split; [exact Gh|lia].
    + split; [exact Gh|]. eexists. reflexivity.
  - apply PInv_new; try assumption.
    + intros m [[h' [k' [E [G L]]]]|[k' [E L]]] X; subst m.
      * symmetry in X. exact (dec_neq_render _ _ _ (proj1 G) X).
      * apply dec_inj in X. lia.
    + intro m. apply below_mono_num.
    + right. exists (f_nv (p_top p)). cbn. split; [reflexivity|lia].
    + eexists. reflexivity.
Qed.

Lemma pv_old : forall p hints frames v h, PInv p hints frames -> lookupZ v hints <> None -> pv v h p = p.
Proof.
  intros p hints frames v h I H. apply (pi_dom _ _ _ I) in H. unfold pv.
  destruct (lookupZ v (p_vals p)); [reflexivity|congruence].
Qed.

Lemma mention_PInv : forall v h p g g1,
  GInv g -> PInv p (g_hints g) (g_frames g) -> vhint_ok h -> g_mention v h g = Some g1 ->
  PInv (pv v h p) (g_hints g1) (g_frames g1).
Proof.
  intros v h p g g1 GI PI Hh H. destruct (g_mention_some _ _ _ _ H) as [[E ->]|[E (f & fs & Ef & ->)]].
  - rewrite (pv_old p _ _ v h PI); [exact PI|congruence].
  - rewrite Ef in PI. apply pv_new; try assumption.
    intros w Hw. apply (gi_active_printed g GI). unfold active. rewrite Ef. exact Hw.
Qed.

(* block naming leaves the value names and the value counters alone *)
Definition veq (p p' : pst) : Prop :=
  p_vals p' = p_vals p /\ f_vn (p_top p') = f_vn (p_top p) /\ f_nv (p_top p') = f_nv (p_top p) /\
  p_rest p' = p_rest p.
Lemma veq_refl : forall p, veq p p. Proof. intro p. repeat split. Qed.
Lemma veq_trans : forall a b c, veq a b -> veq b c -> veq a c.
Proof. intros a b c [A1 [A2 [A3 A4]]] [B1 [B2 [B3 B4]]]. repeat split; congruence. Qed.
Lemma pb_veq : forall c b h idx u p, veq p (pb c b h idx u p).
Proof.
  intros. unfold pb. destruct (eff_bhint c u h); [repeat split|]. destruct idx; repeat split.
Qed.
Lemma pb_if_new_veq : forall c b h idx u p, veq p (pb_if_new c b h idx u p).
Proof. intros. unfold pb_if_new. destruct (lookupZ b (p_blks p)); [apply veq_refl|apply pb_veq]. Qed.
Lemma pb_all_veq : forall c ls i ep p, veq p (pb_all c ls i ep p).
Proof.
  induction ls as [|[b h] ls IH]; intros i ep p; cbn; [apply veq_refl|].
  eapply veq_trans; [apply pb_if_new_veq|apply IH].
Qed.

(* the invariant looks at the value names and the value counters only *)
Lemma PInv_veq : forall p p' hints frames, veq p p' -> PInv p hints frames -> PInv p' hints frames.
Proof.
  intros [v b [vn bn nv nb] r] [v' b' [vn' bn' nv' nb'] r'] hints frames H I. unfold veq in H. cbn in H.
  destruct H as (-> & -> & -> & ->). destruct I. constructor; assumption.
Qed.

Lemma stepP_PInv : forall c a p g g1,
  act_hints_ok c a -> GInv g -> PInv p (g_hints g) (g_frames g) -> ws_step c a g = Some g1 ->
  PInv (stepP c a p) (g_hints g1) (g_frames g1).
Proof.
  intros c a p g g1 Hh GI PI H.
  destruct a as [[v h]|[v h]| |[v h]|b|ls ep|[b h] pr|[v h]| | |[v h]|[v h]]; cbn [stepP].
  - exact (mention_PInv v h p g g1 GI PI Hh H).
  - cbn in H. destruct (fx_iso_operands c); [exact (mention_PInv v h p g g1 GI PI Hh H)|inversion H; subst; exact PI].
  - (* the new scope starts with the counters of the enclosing one *)
    cbn in H. inversion H; subst; clear H. destruct PI as [D F N SH]. constructor; cbn; try assumption.
    destruct (g_frames g) as [|f fs]; cbn [FrInv] in *; [contradiction|]. split; [|exact F].
    cbn [concat app]. apply F.
  - exact (mention_PInv v h p g g1 GI PI Hh H).
  - destruct (ws_succ_some _ _ _ _ H) as [-> _]. eapply PInv_veq; [apply pb_if_new_veq|exact PI].
  - destruct (ws_rbegin_some _ _ _ _ _ H) as (_ & _ & ->). eapply PInv_veq; [apply pb_all_veq|exact PI].
  - destruct (ws_label_some _ _ _ _ _ _ H) as (ls & ep & rem & bs & _ & _ & ->).
    destruct pr; [eapply PInv_veq; [apply pb_if_new_veq|exact PI]|exact PI].
  - cbn in H. destruct (g_mention v h g) as [g2|] eqn:E; [|discriminate].
    destruct (g_define_some _ _ _ H) as (_ & _ & _ & o & os & _ & ->). exact (mention_PInv v h p g g2 GI PI Hh E).
  - destruct (ws_rend_some _ _ _ H) as (o & o2 & os & ls & ep & bs & _ & _ & ->). exact PI.
  - (* the names of the closed scope are forgotten together with its counters *)
    destruct (ws_exit_some _ _ _ H) as (f & f2 & fs & Ef & _ & ->). rewrite Ef in PI.
    destruct PI as [D F N SH]. cbn [FrInv] in F. destruct F as [F1 F2].
    destruct (p_rest p) as [|r rs] eqn:Er; [contradiction|].
    unfold p_exit. rewrite Er. constructor; cbn; try assumption.
    cbn [concat] in N. rewrite map_app in N. apply NoDup_app_remove_l in N. exact N.
  - destruct (g_use_some _ _ _ H) as (_ & _ & [[_ ->]|(_ & _ & ->)]); exact PI.
  - destruct (g_define_some _ _ _ H) as (_ & _ & _ & o & os & _ & ->). exact PI.
Qed.

Lemma runP_cons : forall c a l p, runP c (a :: l) p = runP c l (stepP c a p).
Proof. reflexivity. Qed.
Lemma runP_app : forall c l1 l2 p, runP c (l1 ++ l2) p = runP c l2 (runP c l1 p).
Proof. intros. unfold runP. apply fold_left_app. Qed.

Lemma runP_PInv : forall c l p g g1,
  hints_ok c l -> GInv g -> PInv p (g_hints g) (g_frames g) -> ws_run c l g = Some g1 ->
  PInv (runP c l p) (g_hints g1) (g_frames g1).
Proof.
  induction l as [|a l IH]; intros p g g1 Hh GI PI H; cbn in H.
  - inversion H; subst. exact PI.
  - destruct (ws_step c a g) as [g2|] eqn:E; [|discriminate]. inversion Hh; subst.
    rewrite runP_cons. apply (IH (stepP c a p) g2 g1); [assumption| | |exact H].
    + eapply ws_step_inv; eauto.
    + eapply stepP_PInv; eauto.
Qed.

(* p' has every name of p: values and blocks keep the names they have been given *)
Definition keeps (p p' : pst) : Prop :=
  (forall w, lookupZ w (p_vals p) <> None -> lookupZ w (p_vals p') <> None /\ name_of p' w = name_of p w) /\
  (forall w, lookupZ w (p_blks p) <> None -> lookupZ w (p_blks p') = lookupZ w (p_blks p)).

Lemma keeps_refl : forall p, keeps p p.
Proof. intro p. split; [tauto|reflexivity]. Qed.
Lemma keeps_trans : forall p1 p2 p3, keeps p1 p2 -> keeps p2 p3 -> keeps p1 p3.
Proof.
  intros p1 p2 p3 [S1 S2] [I1 I2]. split.
  - intros w H. destruct (S1 w H) as [A B]. destruct (I1 w A) as [C D]. split; [exact C|congruence].
  - intros w H. rewrite I2; [apply S2; exact H|]. rewrite S2; exact H.
Qed.
Lemma keeps_bname : forall p p' b, keeps p p' -> lookupZ b (p_blks p) <> None -> bname_of p' b = bname_of p b.
Proof. intros p p' b [_ S] H. unfold bname_of. rewrite S by exact H. reflexivity. Qed.

Lemma pv_blks : forall v h p, p_blks (pv v h p) = p_blks p.
Proof. intros. unfold pv. destruct (lookupZ v (p_vals p)); [reflexivity|]. destruct (eff_hint h); reflexivity. Qed.
Lemma pv_keeps : forall v h p, keeps p (pv v h p).
Proof.
  intros v h p. split; [|intros; rewrite pv_blks; reflexivity].
  intros w H. unfold pv. destruct (lookupZ v (p_vals p)) eqn:E; [tauto|].
  assert (w <> v) by (intro; subst; congruence).
  destruct (eff_hint h); (split; [cbn; destruct (Z.eqb_spec w v); congruence|apply name_of_cons_other; assumption]).
Qed.

Lemma pb_bstable : forall c b h idx u p w, lookupZ w (p_blks p) <> None ->
  lookupZ w (p_blks (pb_if_new c b h idx u p)) = lookupZ w (p_blks p).
Proof.
  intros. unfold pb_if_new. destruct (lookupZ b (p_blks p)) eqn:E; [reflexivity|].
  assert (w <> b) by (intro; subst; congruence).
  unfold pb. destruct (eff_bhint c u h); [|destruct idx]; cbn; destruct (Z.eqb_spec w b); congruence.
Qed.
Lemma pb_all_bstable : forall c ls i ep p w, lookupZ w (p_blks p) <> None ->
  lookupZ w (p_blks (pb_all c ls i ep p)) = lookupZ w (p_blks p).
Proof.
  induction ls as [|[b h] ls IH]; intros i ep p w H; cbn; [reflexivity|].
  rewrite IH; [apply pb_bstable; exact H|]. rewrite pb_bstable; exact H.
Qed.
(* naming blocks leaves the value names alone *)
Lemma veq_keeps : forall p p', veq p p' ->
  (forall w, lookupZ w (p_blks p) <> None -> lookupZ w (p_blks p') = lookupZ w (p_blks p)) -> keeps p p'.
Proof. intros p p' [E _] S. split; [|exact S]. intros w H. unfold name_of. rewrite E. tauto. Qed.

Lemma stepP_keeps : forall c a p, keeps p (stepP c a p).
Proof.
  intros c a p.
  destruct a as [[v h]|[v h]| |[v h]|b|ls ep|[b h] pr|[v h]| | |[v h]|[v h]]; cbn [stepP];
    try apply pv_keeps; try apply keeps_refl.
  - destruct (fx_iso_operands c); [apply pv_keeps|apply keeps_refl].
  - split; [intros w H; split; [exact H|reflexivity]|reflexivity].
  - apply veq_keeps; [apply pb_if_new_veq|intros; apply pb_bstable; assumption].
  - apply veq_keeps; [apply pb_all_veq|intros; apply pb_all_bstable; assumption].
  - destruct pr; [|apply keeps_refl]. apply veq_keeps; [apply pb_if_new_veq|intros; apply pb_bstable; assumption].
  - unfold p_exit. destruct (p_rest p); split; try (intros w H; split; [exact H|]); reflexivity.
Qed.

Lemma runP_keeps : forall c l p, keeps p (runP c l p).
Proof.
  induction l as [|a l IH]; intro p; [apply keeps_refl|].
  rewrite runP_cons. exact (keeps_trans _ _ _ (stepP_keeps c a p) (IH _)).
Qed.

Theorem names_unique_values : forall c l pre post g1,
  hints_ok c l -> l = pre ++ post -> ws_run c pre g0 = Some g1 ->
  NoDup (map (name_of (runP c l pst0)) (active g1)).
Proof.
  intros c l pre post g1 Hh El Hw. subst l.
  assert (H1 : PInv (runP c pre pst0) (g_hints g1) (g_frames g1)).
  { eapply runP_PInv; [|apply GInv_g0|apply PInv_0|exact Hw].
    unfold hints_ok in *. apply Forall_app in Hh. tauto. }
  rewrite runP_app.
  erewrite map_ext_in; [exact (pi_nodup _ _ _ H1)|].
  intros v Hv. apply runP_keeps.
  apply (pi_dom _ _ _ H1). apply (gi_active_printed g1); [|exact Hv].
  eapply ws_run_inv; [apply GInv_g0|exact Hw].
Qed.

Definition use_hint_at (c : cfg) (i : nat) (ep : bool) : bool := negb (fx_entry_hint c && (i =? 0) && negb ep).

Definition bfresh (bn : list (str * nat)) (i : nat) (n : str) : Prop :=
  (exists hs k, n = render hs k /\ good_hint hs /\ is_default hs = false /\ cnt hs bn <= k) \/
  (exists j, n = bb_name j /\ i <= j).

(* a name still to come differs from the names given so far *)
Lemma bfresh_weaken : forall bn bn' i n, (forall hs, cnt hs bn <= cnt hs bn') -> bfresh bn' (S i) n -> bfresh bn i n.
Proof.
  intros bn bn' i n M [[hs [k [E [G [D L]]]]]|[j [E L]]].
  - left. exists hs, k. specialize (M hs). split; [exact E|]. split; [exact G|]. split; [exact D|]. lia.
  - right. exists j. split; [exact E|lia].
Qed.
Lemma bfresh_render_neq : forall bn i n hs k, bfresh bn i n -> good_hint hs -> is_default hs = false -> k < cnt hs bn ->
  n <> render hs k.
Proof.
  intros bn i n hs k [[hs' [k' [E [G' [D' L]]]]]|[j [E L]]] G D Hk X; rewrite E in X.
  - apply render_inj in X; [|apply G'|apply G]. destruct X; subst. lia.
  - exact (bb_neq_render _ _ _ D X).
Qed.
Lemma bfresh_bb_neq : forall bn i n j, bfresh bn i n -> j < i -> n <> bb_name j.
Proof.
  intros bn i n j [[hs' [k' [E [G' [D' L]]]]]|[j' [E L]]] Hj X; rewrite E in X.
  - symmetry in X. exact (bb_neq_render _ _ _ D' X).
  - apply bb_name_inj in X. lia.
Qed.

Lemma eff_bhint_ok : forall c u h hs, bhint_ok c h -> eff_bhint c u h = Some hs ->
  good_hint hs /\ is_default hs = false.
Proof.
  intros c u h hs B H. unfold eff_bhint in H. destruct u; [|discriminate].
  destruct (eff_hint h) as [hs'|] eqn:E; [|discriminate].
  destruct (B hs' E) as [G D].
  destruct (fx_block_default c) eqn:Ec; cbn in H.
  - destruct (is_default hs') eqn:Ed; inversion H; subst. tauto.
  - inversion H; subst. split; [exact G|apply D; reflexivity].
Qed.

Lemma bname_cons_same : forall vals b n bl top rest, bname_of (Pst vals ((b, n) :: bl) top rest) b = n.
Proof. intros. unfold bname_of. cbn. rewrite Z.eqb_refl. reflexivity. Qed.

Lemma pb_all_spec : forall c ep ls i p,
  NoDup (map fst ls) ->
  (forall b, In b (map fst ls) -> lookupZ b (p_blks p) = None) ->
  Forall (fun l => bhint_ok c (snd l)) ls ->
  let p' := pb_all c ls i ep p in
  (forall b, In b (map fst ls) -> bfresh (f_bn (p_top p)) i (bname_of p' b)) /\
  NoDup (map (bname_of p') (map fst ls)) /\
  (forall j b h, nth_error ls j = Some (b, h) ->
     match eff_bhint c (use_hint_at c (i + j) ep) h with
     | Some hs => good_hint hs /\ is_default hs = false /\ exists k, bname_of p' b = render hs k
     | None => bname_of p' b = bb_name (i + j)
     end) /\
  (forall b, In b (map fst ls) -> lookupZ b (p_blks p') <> None).
Proof.
  intros c ep. induction ls as [|[b h] ls IH]; intros i p ND New Hh; cbn zeta.
  - cbn. repeat split; try tauto; try constructor. intros j b h H. destruct j; discriminate.
  - cbn [map fst] in ND, New. inversion ND as [|? ? Nb ND']; subst. inversion Hh as [|? ? Hb Hh']; subst.
    cbn [pb_all]. fold (use_hint_at c i ep).
    assert (Eb : lookupZ b (p_blks p) = None) by (apply New; now left).
    unfold pb_if_new. rewrite Eb.
    set (p1 := pb c b h (Some i) (use_hint_at c i ep) p).
    assert (New1 : forall b', In b' (map fst ls) -> lookupZ b' (p_blks p1) = None).
    { intros b' Hb'. assert (b' <> b) by (intro; subst; contradiction).
      unfold p1, pb. destruct (eff_bhint c (use_hint_at c i ep) h); cbn;
        destruct (Z.eqb_spec b' b); try contradiction; apply New; now right. }
    destruct (IH (S i) p1 ND' New1 Hh') as [I1 [I2 [I3 I4]]].
    set (p' := pb_all c ls (S i) ep p1) in *.
    assert (Eb1 : lookupZ b (p_blks p1) <> None).
    { unfold p1, pb. destruct (eff_bhint c (use_hint_at c i ep) h); cbn; rewrite Z.eqb_refl; discriminate. }
    assert (Stb : bname_of p' b = bname_of p1 b).
    { unfold bname_of, p'. rewrite pb_all_bstable by exact Eb1. reflexivity. }
    (* the name of the head block and the freshness of everything after it *)
    assert (Head : bfresh (f_bn (p_top p)) i (bname_of p1 b) /\
                   (forall n, bfresh (f_bn (p_top p1)) (S i) n -> n <> bname_of p1 b /\ bfresh (f_bn (p_top p)) i n) /\
                   match eff_bhint c (use_hint_at c i ep) h with
                   | Some hs => good_hint hs /\ is_default hs = false /\ exists k, bname_of p1 b = render hs k
                   | None => bname_of p1 b = bb_name i
                   end).
    { unfold p1, pb. destruct (eff_bhint c (use_hint_at c i ep) h) as [hs|] eqn:Eh.
      - destruct (eff_bhint_ok _ _ _ _ Hb Eh) as [G D].
        rewrite bname_cons_same. cbn [p_top f_bn]. split; [|split].
        + left. exists hs, (cnt hs (f_bn (p_top p))). split; [reflexivity|]. split; [exact G|]. split; [exact D|]. lia.
        + intros n F. split.
          * apply (bfresh_render_neq _ _ _ _ _ F G D). rewrite cnt_cons_same. lia.
          * apply (bfresh_weaken _ _ _ _ (fun h' => cnt_cons_le h' hs _) F).
        + split; [exact G|]. split; [exact D|]. eexists; reflexivity.
      - rewrite bname_cons_same. cbn [p_top]. split; [|split].
        + right. exists i. split; [reflexivity|lia].
        + intros n F. split; [apply (bfresh_bb_neq _ _ _ _ F); lia|apply (bfresh_weaken _ _ _ _ (fun _ => le_n _) F)].
        + reflexivity. }
    destruct Head as [H1 [H2 H3]]. cbn [map fst].
    split; [|split; [|split]].
    + intros b' [Hb'|Hb'].
      * subst b'. rewrite Stb. exact H1.
      * apply H2. apply I1. exact Hb'.
    + cbn [map]. constructor.
      * intro X. apply in_map_iff in X. destruct X as [b' [X1 X2]].
        destruct (H2 _ (I1 b' X2)) as [X3 _]. rewrite Stb in X1. contradiction.
      * exact I2.
    + intros j b' h' Hn. destruct j as [|j]; cbn in Hn.
      * inversion Hn; subst. rewrite Nat.add_0_r. rewrite Stb. exact H3.
      * replace (i + S j) with (S i + j) by lia. apply I3. exact Hn.
    + intros b' [Hb'|Hb'].
      * subst. unfold p'. rewrite pb_all_bstable by exact Eb1. exact Eb1.
      * apply I4. exact Hb'.
Qed.
