(* C21/ProofsLower.v -- the lowering kernels compute the source semantics.
   A. dead source ops do not influence the result (neutralize);
   B. SSA-level semantics of the x86 IR; lowering (LowerFuncOp, ArithConstantToX86, ArithBinaryToX86 with
      RS_Add_Zero) maps every source value to an IR value holding it; dce keeps the live values.
   The simulation after register allocation is in ProofsSim.v. *)
From Coq Require Import ZArith List Bool Lia Arith.
From XV Require Import Gen.C21_tables C21.Model C21.Spec C21.ProofsMachine.
Import ListNotations.
Local Open Scope Z_scope.


Lemma memb_In : forall v l, memb v l = true <-> In v l.
Proof.
  intros v l. induction l as [|a l IH]; cbn [memb In]; [split; [discriminate | tauto]|].
  rewrite orb_true_iff, IH, Nat.eqb_eq. tauto.
Qed.

Lemma memb_false : forall v l, memb v l = false <-> ~ In v l.
Proof. intros v l. rewrite <- memb_In. destruct (memb v l); split; congruence. Qed.

Lemma memz_In : forall x l, memz x l = true <-> In x l.
Proof.
  intros x l. induction l as [|a l IH]; cbn [memz In]; [split; [discriminate | tauto]|].
  rewrite orb_true_iff, IH, Z.eqb_eq. tauto.
Qed.

Lemma nth_error_snoc_same : forall (l l' : list Z) x i,
  length l = length l' -> nth_error l i = nth_error l' i ->
  nth_error (l ++ [x]) i = nth_error (l' ++ [x]) i.
Proof.
  intros l l' x i Hlen H. destruct (lt_dec i (length l)) as [Hlt|Hge].
  - rewrite !nth_error_app1 by lia. exact H.
  - rewrite !nth_error_app2 by lia. rewrite Hlen. reflexivity.
Qed.

Lemma nth_error_snoc_other : forall (l l' : list Z) x y i,
  length l = length l' -> i <> length l -> nth_error l i = nth_error l' i ->
  nth_error (l ++ [x]) i = nth_error (l' ++ [y]) i.
Proof.
  intros l l' x y i Hlen Hne H. destruct (lt_dec i (length l)) as [Hlt|Hge].
  - rewrite !nth_error_app1 by lia. exact H.
  - assert (H1 : nth_error (l ++ [x]) i = None) by (apply nth_error_None; rewrite app_length; cbn [length]; lia).
    assert (H2 : nth_error (l' ++ [y]) i = None) by (apply nth_error_None; rewrite app_length; cbn [length]; lia).
    congruence.
Qed.

Lemma nth_error_snoc_last : forall (l : list Z) x, nth_error (l ++ [x]) (length l) = Some x.
Proof. intros l x. rewrite nth_error_app2 by lia. rewrite Nat.sub_diag. reflexivity. Qed.

Lemma Forall2_weaken_In : forall A B (P Q : A -> B -> Prop) l l',
  (forall a b, In a l -> P a b -> Q a b) -> Forall2 P l l' -> Forall2 Q l l'.
Proof.
  intros A B P Q l l' H F. induction F as [|a b l l' Hab F IH]; constructor.
  - apply H; [left; reflexivity | exact Hab].
  - apply IH. intros a' b' Hin. apply H. right. exact Hin.
Qed.

Lemma Forall2_nth_error : forall A B (P : A -> B -> Prop) l l' i a,
  Forall2 P l l' -> nth_error l i = Some a -> forall b, nth_error l' i = Some b -> P a b.
Proof.
  intros A B P l l' i a F. revert i. induction F as [|x y l l' Hxy F IH]; intros i Ha b Hb.
  - destruct i; discriminate.
  - destruct i as [|i]; cbn [nth_error] in *.
    + inversion Ha; inversion Hb; subst. exact Hxy.
    + eapply IH; eassumption.
Qed.

Lemma Forall2_seq : forall (P : nat -> Z -> Prop) (l : list Z) k,
  (forall i x, nth_error l i = Some x -> P (k + i)%nat x) -> Forall2 P (seq k (length l)) l.
Proof.
  intros P l. induction l as [|a l IH]; intros k H; cbn [length seq]; constructor.
  - replace k with (k + 0)%nat by lia. apply H. reflexivity.
  - apply IH. intros i x Hi. replace (S k + i)%nat with (k + S i)%nat by lia. apply H. exact Hi.
Qed.

Lemma Forall2_length' : forall A B (P : A -> B -> Prop) l l', Forall2 P l l' -> length l = length l'.
Proof. intros A B P l l' F. induction F; cbn [length]; congruence. Qed.


Section Source.
Variable w : width.

Definition src_step (o : sop) (vals : list Z) : option (list Z) :=
  match o with
  | SConst k => Some (vals ++ [low w k])
  | SBin b x y =>
      match nth_error vals x, nth_error vals y with
      | Some vx, Some vy => Some (vals ++ [low w (bop_eval b vx vy)])
      | _, _ => None
      end
  end.

Lemma src_run_cons : forall o r vals,
  src_run w (o :: r) vals = match src_step o vals with Some v' => src_run w r v' | None => None end.
Proof.
  intros o r vals. destruct o as [k | b x y]; cbn [src_run src_step]; [reflexivity|].
  destruct (nth_error vals x); [|reflexivity]. destruct (nth_error vals y); reflexivity.
Qed.

Lemma src_step_length : forall o vals vals', src_step o vals = Some vals' -> length vals' = S (length vals).
Proof.
  intros o vals vals' H. destruct o as [k | b x y]; cbn [src_step] in H.
  - inversion H; subst. rewrite app_length. cbn [length]. lia.
  - destruct (nth_error vals x); [|discriminate]. destruct (nth_error vals y); [|discriminate].
    inversion H; subst. rewrite app_length. cbn [length]. lia.
Qed.

Definition neut (x : sop * bool) : sop := if snd x then fst x else SConst 0.

Lemma src_run_neutral : forall ops v0 ret vals vals' out,
  length vals = v0 -> length vals' = v0 ->
  (forall i, In i (live_before v0 ops ret) -> nth_error vals i = nth_error vals' i) ->
  src_run w ops vals = Some out ->
  exists out', src_run w (map neut (combine ops (live_flags_from v0 ops ret))) vals' = Some out'
    /\ forall i, In i ret -> nth_error out i = nth_error out' i.
Proof.
  induction ops as [|o r IH]; intros v0 ret vals vals' out Hl Hl' Hag Hrun.
  - cbn [src_run] in Hrun. inversion Hrun; subst. exists vals'. split; [reflexivity|]. exact Hag.
  - cbn [live_flags_from combine map]. cbn [live_before] in Hag.
    set (L := live_before (S v0) r ret) in *.
    rewrite src_run_cons in Hrun. rewrite src_run_cons.
    destruct (src_step o vals) as [vals1|] eqn:Hs; [|discriminate].
    destruct (memb v0 L) eqn:Hm; unfold neut at 1; cbn [fst snd].
    + (* live op: same step on both sides *)
      assert (Hs' : exists x, vals1 = vals ++ [x] /\ src_step o vals' = Some (vals' ++ [x])).
      { destruct o as [k | b x y]; cbn [src_step] in *.
        - inversion Hs; subst. eexists. split; reflexivity.
        - destruct (nth_error vals x) as [vx|] eqn:Hx; [|discriminate].
          destruct (nth_error vals y) as [vy|] eqn:Hy; [|discriminate].
          inversion Hs; subst.
          rewrite <- (Hag x) by (cbn [sop_uses app In]; auto). rewrite Hx.
          rewrite <- (Hag y) by (cbn [sop_uses app In]; auto). rewrite Hy.
          eexists. split; reflexivity. }
      destruct Hs' as [x [-> Hs']]. rewrite Hs'.
      apply (IH (S v0) ret (vals ++ [x]) (vals' ++ [x]) out); [| | | exact Hrun].
      * rewrite app_length. cbn [length]. lia.
      * rewrite app_length. cbn [length]. lia.
      * intros i Hi. apply nth_error_snoc_same; [lia|]. apply Hag. apply in_or_app. right. exact Hi.
    + (* dead op: replaced by a constant *)
      cbn [src_step].
      assert (Hx : exists x, vals1 = vals ++ [x]).
      { destruct o as [k | b x y]; cbn [src_step] in Hs.
        - inversion Hs. eexists; reflexivity.
        - destruct (nth_error vals x); [|discriminate]. destruct (nth_error vals y); [|discriminate].
          inversion Hs. eexists; reflexivity. }
      destruct Hx as [x ->].
      apply (IH (S v0) ret (vals ++ [x]) (vals' ++ [low w 0]) out); [| | | exact Hrun].
      * rewrite app_length. cbn [length]. lia.
      * rewrite app_length. cbn [length]. lia.
      * intros i Hi. apply nth_error_snoc_other; [lia | | apply Hag; exact Hi].
        intro Heq. apply memb_false in Hm. apply Hm. rewrite <- Hl, <- Heq. exact Hi.
Qed.

End Source.

Lemma src_sem_neutralize : forall p raw, src_sem p raw <> None -> src_sem (neutralize p) raw = src_sem p raw.
Proof.
  intros p raw Hne. unfold src_sem in *. cbn [neutralize sp_nargs sp_w sp_ops sp_ret].
  destruct (negb (Nat.eqb (length raw) (sp_nargs p))) eqn:Hn; [reflexivity|].
  apply negb_false_iff, Nat.eqb_eq in Hn.
  destruct (src_run (sp_w p) (sp_ops p) (map (low (sp_w p)) raw)) as [out|] eqn:Hrun; [|congruence].
  destruct (src_run_neutral (sp_w p) (sp_ops p) (sp_nargs p) (sret_uses (sp_ret p))
              (map (low (sp_w p)) raw) (map (low (sp_w p)) raw) out) as [out' [Hrun' Hag]].
  - rewrite map_length. exact Hn.
  - rewrite map_length. exact Hn.
  - reflexivity.
  - exact Hrun.
  - unfold live_flags. fold neut. rewrite Hrun'.
    destruct (sp_ret p) as [r|]; [|reflexivity].
    rewrite <- (Hag r) by (left; reflexivity). reflexivity.
Qed.


Definition venv := vreg -> Z.
Definition vupd (e : venv) (v : vreg) (x : Z) : venv := fun y => if Nat.eqb y v then x else e y.
Definition xop_eval (o : xop) (x y : Z) : Z :=
  match o with XAdd => x + y | XImul => x * y | XSub => x - y end.

Lemma vupd_same : forall e v x, vupd e v x v = x.
Proof. intros. unfold vupd. rewrite Nat.eqb_refl. reflexivity. Qed.
Lemma vupd_other : forall e v x y, y <> v -> vupd e v x y = e y.
Proof. intros e v x y H. unfold vupd. destruct (Nat.eqb y v) eqn:E; [apply Nat.eqb_eq in E; contradiction | reflexivity]. Qed.

Section VSem.
Variable w : width.
Variable raw : list Z.      (* raw contents of the argument registers / stack slots *)

Definition vdef_val (e : venv) (d : vdef) : Z :=
  match d with
  | VArg _ i => low w (nth i raw 0)
  | VStk _ j => low w (nth (max_reg_args + j) raw 0)
  | VImm _ k => low w k
  | VMov _ s => e s
  | VOp o _ t s => low w (xop_eval o (e t) (e s))
  end.

Fixpoint veval (l : list vdef) (e : venv) : venv :=
  match l with
  | [] => e
  | d :: r => veval r (vupd e (def_id d) (vdef_val e d))
  end.

Lemma veval_app : forall l1 l2 e, veval (l1 ++ l2) e = veval l2 (veval l1 e).
Proof. induction l1 as [|d l1 IH]; intros l2 e; cbn [app veval]; [reflexivity | apply IH]. Qed.

Lemma veval_snoc : forall l d e,
  veval (l ++ [d]) e = vupd (veval l e) (def_id d) (vdef_val (veval l e) d).
Proof. intros. rewrite veval_app. reflexivity. Qed.

Lemma vdef_val_ext : forall e1 e2 d,
  (forall u, In u (def_uses d) -> e1 u = e2 u) -> vdef_val e1 d = vdef_val e2 d.
Proof.
  intros e1 e2 d H. destruct d; cbn [vdef_val def_uses] in *; try reflexivity.
  - apply H. left. reflexivity.
  - rewrite (H t), (H s); cbn [In]; auto.
Qed.

Lemma dce_sound : forall rl live e v, In v live ->
  veval (rev (dce_rev rl live)) e v = veval (rev rl) e v.
Proof.
  induction rl as [|d r IH]; intros live e v Hv; cbn [dce_rev rev]; [reflexivity|].
  rewrite (veval_snoc (rev r)).
  destruct (memb (def_id d) live) eqn:Hm.
  - cbn [rev]. rewrite veval_snoc.
    destruct (Nat.eq_dec v (def_id d)) as [->|Hne].
    + rewrite !vupd_same. apply vdef_val_ext. intros u Hu. apply IH. apply in_or_app. left. exact Hu.
    + rewrite !vupd_other by exact Hne. apply IH. apply in_or_app. right. exact Hv.
  - rewrite vupd_other.
    + apply IH. exact Hv.
    + intro Heq. subst v. apply memb_false in Hm. contradiction.
Qed.

Lemma dce_rev_subset : forall rl live d, In d (dce_rev rl live) -> In d rl.
Proof.
  induction rl as [|x r IH]; intros live d H; cbn [dce_rev] in H; [contradiction|].
  destruct (memb (def_id x) live).
  - destruct H as [->|H]; [left; reflexivity | right; eapply IH; exact H].
  - right. eapply IH. exact H.
Qed.

(* --- LowerFuncOp --- *)
Lemma lower_args_head : forall i0 e,
  let d := if Nat.ltb i0 max_reg_args then VArg i0 i0 else VStk i0 (i0 - max_reg_args) in
  def_id d = i0 /\ vdef_val e d = low w (nth i0 raw 0).
Proof.
  intros i0 e. cbv zeta. destruct (Nat.ltb i0 max_reg_args) eqn:E; cbn [def_id vdef_val]; split; try reflexivity.
  apply Nat.ltb_ge in E. f_equal. f_equal. lia.
Qed.

Lemma veval_lower_args_out : forall n i0 e i, ~ (i0 <= i < i0 + n)%nat -> veval (lower_args n i0) e i = e i.
Proof.
  induction n as [|n IH]; intros i0 e i H; cbn [lower_args veval]; [reflexivity|].
  destruct (lower_args_head i0 e) as [Hid Hval]. rewrite Hid, Hval.
  rewrite IH by lia. apply vupd_other. lia.
Qed.

Lemma veval_lower_args_in : forall n i0 e i, (i0 <= i < i0 + n)%nat ->
  veval (lower_args n i0) e i = low w (nth i raw 0).
Proof.
  induction n as [|n IH]; intros i0 e i H; [lia|]. cbn [lower_args veval].
  destruct (lower_args_head i0 e) as [Hid Hval]. rewrite Hid, Hval.
  destruct (Nat.eq_dec i i0) as [->|Hne].
  - rewrite veval_lower_args_out by lia. apply vupd_same.
  - apply IH. lia.
Qed.

(* --- the table lookups used by ArithBinaryToX86 --- *)
Lemma lookup_binop_commutes : forall b xo, lookup_binop b = Some xo ->
  forall x y, xop_eval xo y x = bop_eval b x y.
Proof.
  intros b xo H x y. destruct b; vm_compute in H; inversion H; subst; cbn [xop_eval bop_eval]; lia.
Qed.

Lemma lookup_binop_add : forall b, lookup_binop b = Some XAdd -> b = BAdd.
Proof. intros b H. destruct b; vm_compute in H; congruence. Qed.

Lemma is_add_zero_spec : forall xo c, is_add_zero xo c = true -> xo = XAdd /\ c = Some 0.
Proof.
  intros xo c H. destruct xo; cbn [is_add_zero] in H; try discriminate.
  destruct c as [[| |]|]; try discriminate. auto.
Qed.

Variable e0 : venv.
Definition e_of (st : lstate) : venv := veval (rev (l_out st)) e0.
Definition canon (x : Z) : Prop := low w x = x.

Record linv (st : lstate) (vals : list Z) : Prop := mkLinv {
  li_vals : Forall2 (fun v x => e_of st v = x) (l_vmap st) vals;
  li_canon : Forall canon vals;
  li_const : forall v k, const_of (l_cmap st) v = Some k -> e_of st v = low w k /\ (v < l_next st)%nat;
  li_fresh : forall v, In v (l_vmap st) -> (v < l_next st)%nat }.

Lemma canon_low : forall x, canon (low w x).
Proof. intro x. unfold canon. apply low_low. Qed.

(* one more source value: the walk prepends operations that leave the vregs below l_next alone and
   define the new source value, reduced mod 2^w, in a fresh vreg d *)
Lemma linv_extend : forall st vals n' d cm' out' x,
  linv st vals -> (l_next st <= d < n')%nat ->
  let e' := veval (rev out') e0 in
  (forall v, (v < l_next st)%nat -> e' v = e_of st v) -> e' d = low w x ->
  (forall v k, const_of cm' v = Some k -> e' v = low w k /\ (v < n')%nat) ->
  linv (mkL n' (l_vmap st ++ [d]) cm' out') (vals ++ [low w x]).
Proof.
  intros st vals n' d cm' out' x [Hv Hc Hk Hf] Hd e' Hold Hnew Hcm.
  constructor; cbn [l_vmap l_cmap l_next]; [| |exact Hcm|].
  - apply Forall2_app; [|constructor; [exact Hnew|constructor]].
    eapply Forall2_weaken_In; [|exact Hv]. intros a b Hin <-. apply Hold, Hf, Hin.
  - apply Forall_app. split; [exact Hc|]. constructor; [apply canon_low | constructor].
  - intros v Hin. apply in_app_or in Hin. destruct Hin as [Hin | [<- | []]]; [apply Hf in Hin|]; lia.
Qed.

Lemma lower_op_inv : forall st o st' vals vals',
  linv st vals -> lower_op st o = Some st' -> src_step w o vals = Some vals' -> linv st' vals'.
Proof.
  intros st o st' vals vals' Hi Hl Hs. pose proof Hi as [Hv Hc Hk Hf].
  destruct o as [k | b x y]; cbn [lower_op src_step] in *.
  - destruct (in_si32 k); [|discriminate]. inversion Hl; subst st'; clear Hl. inversion Hs; subst vals'; clear Hs.
    apply (linv_extend st vals (S (l_next st)) (l_next st) _ _ k Hi); [lia|..];
      cbv zeta; cbn [rev]; rewrite veval_snoc; fold (e_of st); cbn [def_id vdef_val].
    + intros v Hlt. apply vupd_other. lia.
    + apply vupd_same.
    + intros v k' H. cbn [const_of] in H. destruct (Nat.eqb (l_next st) v) eqn:E.
      * apply Nat.eqb_eq in E. subst v. inversion H; subst k'. rewrite vupd_same. split; [reflexivity | lia].
      * apply Nat.eqb_neq in E. destruct (Hk v k' H) as [H1 H2]. rewrite vupd_other by congruence.
        split; [exact H1 | lia].
  - destruct (lookup_binop b) as [xo|] eqn:Hb; [|discriminate].
    destruct (nth_error (l_vmap st) x) as [lx|] eqn:Hx; [|discriminate].
    destruct (nth_error (l_vmap st) y) as [ly|] eqn:Hy; [|discriminate].
    destruct (nth_error vals x) as [vx|] eqn:Hvx; [|discriminate].
    destruct (nth_error vals y) as [vy|] eqn:Hvy; [|discriminate].
    inversion Hs; subst vals'; clear Hs.
    assert (Hex : e_of st lx = vx) by (eapply (Forall2_nth_error _ _ _ _ _ x lx Hv Hx); exact Hvx).
    assert (Hey : e_of st ly = vy) by (eapply (Forall2_nth_error _ _ _ _ _ y ly Hv Hy); exact Hvy).
    assert (Hlx : (lx < l_next st)%nat) by (apply Hf; eapply nth_error_In; exact Hx).
    assert (Hcy : canon vy).
    { rewrite Forall_forall in Hc. apply Hc. eapply nth_error_In. exact Hvy. }
    set (t := l_next st) in *.
    set (cm := match const_of (l_cmap st) ly with Some k => (t, k) :: l_cmap st | None => l_cmap st end) in *.
    (* facts about the copy t = ds.mov ly *)
    assert (Hcm : forall e', e' t = vy -> (forall v, (v < t)%nat -> e' v = e_of st v) ->
                  forall v k, const_of cm v = Some k -> e' v = low w k /\ (v < S t)%nat).
    { intros e' Ht Hold v k H. subst cm. destruct (const_of (l_cmap st) ly) as [ky|] eqn:Hky.
      - cbn [const_of] in H. destruct (Nat.eqb t v) eqn:E.
        + apply Nat.eqb_eq in E. subst v. inversion H; subst k. rewrite Ht.
          destruct (Hk ly ky Hky) as [H1 _]. rewrite <- Hey. split; [exact H1 | lia].
        + destruct (Hk v k H) as [H1 H2]. fold t in H2. rewrite Hold by exact H2. split; [exact H1 | lia].
      - destruct (Hk v k H) as [H1 H2]. fold t in H2. rewrite Hold by exact H2. split; [exact H1 | lia]. }
    destruct (is_add_zero xo (const_of (l_cmap st) lx)) eqn:Haz; inversion Hl; subst st'; clear Hl.
    + (* RS_Add_Zero: lhs is the constant 0, the copy of rhs is the sum *)
      apply is_add_zero_spec in Haz. destruct Haz as [-> Hc0].
      apply lookup_binop_add in Hb. subst b.
      destruct (Hk lx 0 Hc0) as [Hz _]. rewrite low_zero in Hz.
      apply (linv_extend st vals (S t) t _ _ _ Hi); [unfold t; lia|..]; cbv zeta; cbn [rev]; rewrite veval_snoc; fold (e_of st);
        cbn [def_id vdef_val].
      * intros v Hlt. apply vupd_other. lia.
      * rewrite vupd_same. cbn [bop_eval]. rewrite Hey, <- Hex, Hz. symmetry. exact Hcy.
      * apply Hcm; [rewrite vupd_same; exact Hey | intros v Hlt; apply vupd_other; lia].
    + apply (linv_extend st vals (S (S t)) (S t) _ _ _ Hi); [unfold t; lia|..]; cbv zeta; cbn [rev];
        rewrite <- app_assoc, veval_app; fold (e_of st); cbn [app veval def_id vdef_val].
      * intros v Hlt. rewrite !vupd_other by lia. reflexivity.
      * rewrite !vupd_same, (vupd_other _ t _ lx) by lia.
        rewrite Hex, Hey. rewrite (lookup_binop_commutes b xo Hb). reflexivity.
      * intros v k H.
        destruct (Hcm (vupd (e_of st) t (e_of st ly)) ltac:(rewrite vupd_same; exact Hey)
                      ltac:(intros v' Hlt; apply vupd_other; lia) v k H) as [H1 H2].
        rewrite vupd_other by lia. split; [exact H1 | lia].
Qed.

Lemma lower_ops_inv : forall ops st st' vals out,
  linv st vals -> lower_ops st ops = Some st' -> src_run w ops vals = Some out -> linv st' out.
Proof.
  induction ops as [|o r IH]; intros st st' vals out Hi Hl Hs.
  - cbn [lower_ops src_run] in *. inversion Hl; inversion Hs; subst. exact Hi.
  - cbn [lower_ops] in Hl. rewrite src_run_cons in Hs.
    destruct (lower_op st o) as [st1|] eqn:H1; [|discriminate].
    destruct (src_step w o vals) as [vals1|] eqn:H2; [|discriminate].
    eapply IH; [eapply lower_op_inv; eassumption | exact Hl | exact Hs].
Qed.

(* argument moves / stack loads come only from LowerFuncOp *)
Definition arg_def (d : vdef) : bool := match d with VArg _ _ | VStk _ _ => true | _ => false end.

Lemma lower_op_args : forall st o st' d, lower_op st o = Some st' -> In d (l_out st') -> arg_def d = true -> In d (l_out st).
Proof.
  intros st o st' d Hl Hin Ha. destruct o as [k | b x y]; cbn [lower_op] in Hl.
  - destruct (in_si32 k); [|discriminate]. inversion Hl; subst st'. cbn [l_out In] in Hin.
    destruct Hin as [<-|Hin]; [discriminate | exact Hin].
  - destruct (lookup_binop b); [|discriminate]. destruct (nth_error (l_vmap st) x); [|discriminate].
    destruct (nth_error (l_vmap st) y); [|discriminate].
    destruct (is_add_zero _ _); inversion Hl; subst st'; cbn [l_out In] in Hin.
    + destruct Hin as [<-|Hin]; [discriminate | exact Hin].
    + destruct Hin as [<-|[<-|Hin]]; [discriminate | discriminate | exact Hin].
Qed.

Lemma lower_ops_args : forall ops st st' d, lower_ops st ops = Some st' -> In d (l_out st') -> arg_def d = true -> In d (l_out st).
Proof.
  induction ops as [|o r IH]; intros st st' d Hl Hin Ha; cbn [lower_ops] in Hl.
  - inversion Hl; subst. exact Hin.
  - destruct (lower_op st o) as [st1|] eqn:H1; [|discriminate].
    eapply lower_op_args; [exact H1 | | exact Ha]. eapply IH; eassumption.
Qed.

Lemma lower_args_shape : forall n i0 d, In d (lower_args n i0) ->
  exists i, (i0 <= i < i0 + n)%nat /\
    ((i < max_reg_args)%nat /\ d = VArg i i \/ (max_reg_args <= i)%nat /\ d = VStk i (i - max_reg_args)).
Proof.
  induction n as [|n IH]; intros i0 d H; cbn [lower_args In] in H; [contradiction|].
  destruct H as [<-|H].
  - exists i0. split; [lia|]. destruct (Nat.ltb i0 max_reg_args) eqn:E.
    + apply Nat.ltb_lt in E. left. auto.
    + apply Nat.ltb_ge in E. right. auto.
  - destruct (IH _ _ H) as [i [Hr Hd]]. exists i. split; [lia | exact Hd].
Qed.

End VSem.

(* value computed by the IR function, whatever the initial environment *)
Definition vsem (w : width) (raw : list Z) (e0 : venv) (f : vfunc) : option Z :=
  match vf_ret f with Some v => Some (veval w raw (vf_defs f) e0 v) | None => None end.

Theorem lower_strict_sound : forall q f raw e0 res,
  lower_strict q = Some f -> src_sem q raw = Some res -> vsem (sp_w q) raw e0 f = res.
Proof.
  intros q f raw e0 res Hl Hs. unfold lower_strict in Hl. unfold src_sem in Hs.
  destruct (negb (Nat.eqb (length raw) (sp_nargs q))) eqn:Hn; [discriminate|].
  apply negb_false_iff, Nat.eqb_eq in Hn.
  set (n := sp_nargs q) in *. set (w := sp_w q) in *.
  destruct (lower_ops (mkL n (seq 0 n) [] (rev (lower_args n 0))) (sp_ops q)) as [st|] eqn:Hlo; [|discriminate].
  destruct (src_run w (sp_ops q) (map (low w) raw)) as [out|] eqn:Hrun; [|discriminate].
  assert (Hinv : linv w raw e0 st out).
  { eapply lower_ops_inv; [| exact Hlo | exact Hrun]. constructor; cbn [l_vmap l_cmap l_next].
    - unfold e_of. cbn [l_out]. rewrite rev_involutive.
      rewrite <- Hn. rewrite <- (map_length (low w) raw). apply Forall2_seq.
      intros i x Hi. cbn [Nat.add]. rewrite nth_error_map in Hi.
      destruct (nth_error raw i) as [r0|] eqn:Hr0; [|discriminate]. inversion Hi; subst x.
      rewrite veval_lower_args_in.
      + f_equal. apply nth_error_nth. exact Hr0.
      + rewrite ?map_length. assert (i < length raw)%nat by (apply nth_error_Some; congruence). lia.
    - rewrite Forall_forall. intros x Hin. apply in_map_iff in Hin. destruct Hin as [y [<- _]]. apply canon_low.
    - intros v k H. discriminate.
    - intros v Hin. apply in_seq in Hin. lia. }
  destruct Hinv as [Hv _ _ _].
  destruct (sp_ret q) as [r|].
  - destruct (nth_error (l_vmap st) r) as [v|] eqn:Hr; [|discriminate].
    inversion Hl; subst f; clear Hl.
    destruct (nth_error out r) as [x|] eqn:Hx; [|discriminate]. inversion Hs; subst res; clear Hs.
    unfold vsem. cbn [vf_ret vf_defs]. f_equal.
    rewrite dce_sound by (left; reflexivity).
    eapply (Forall2_nth_error _ _ _ _ _ r v Hv Hr). exact Hx.
  - inversion Hl; subst f. inversion Hs; subst res. reflexivity.
Qed.
