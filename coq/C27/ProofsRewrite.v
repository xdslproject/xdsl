(* C27/ProofsRewrite.v -- the generated rewriter function against the direct rewrite (PDLRewriteFunctions): the
   invariant `Inv` between the direct bindings, the generator state and the registers, and each rewriter instruction
   read through registers that agree with the direct bindings.
   Stated for the configurations in which pdl_interp.erase exists and type ranges are handled (C27-4, C27-5). *)
From Coq Require Import ZArith List Bool Lia.
From XV Require Import C27.Model C27.ProofsChain C27.ProofsMatch C27.Proofs.
Import ListNotations.
Local Open Scope Z_scope.

Definition localk (k : key) : Prop := match k with KLocal _ => True | _ => False end.
Definition pre {A} (a b : list A) : Prop := exists s, b = a ++ s.

Lemma pre_refl : forall A (a : list A), pre a a.
Proof. intros. exists []. rewrite app_nil_r. reflexivity. Qed.
Lemma pre_trans : forall A (a b c : list A), pre a b -> pre b c -> pre a c.
Proof. intros A a b c [s1 ->] [s2 ->]. exists (s1 ++ s2). rewrite app_assoc. reflexivity. Qed.
Lemma pre_app : forall A (a s : list A), pre a (a ++ s).
Proof. intros. exists s. reflexivity. Qed.

Lemma znth_app_l : forall A (a s : list A) j x, znth a j = Some x -> znth (a ++ s) j = Some x.
Proof.
  intros A a s j x H. unfold znth in *. destruct (j <? 0); [discriminate |].
  rewrite nth_error_app1; [exact H |]. apply nth_error_Some. congruence.
Qed.
Lemma znth_last : forall A (a : list A) x, znth (a ++ [x]) (zlen a) = Some x.
Proof.
  intros A a x. unfold znth, zlen. destruct (Z.of_nat (length a) <? 0) eqn:E; [apply Z.ltb_lt in E; lia |].
  rewrite Nat2Z.id. rewrite nth_error_app2 by lia. rewrite Nat.sub_diag. reflexivity.
Qed.
Lemma mem_pos_In : forall p l, mem_pos p l = true <-> In p l.
Proof.
  intros p l. induction l as [|q l IH]; simpl; [split; [discriminate | tauto] |].
  rewrite orb_true_iff, IH, pos_eqb_eq. split; intros [H|H]; auto.
Qed.

Lemma rreg_eqb_eq : forall a b, rreg_eqb a b = true <-> a = b.
Proof.
  destruct a, b; simpl; try (split; [discriminate | intro H; discriminate H]);
    rewrite Z.eqb_eq; split; [intros ->; reflexivity | intro H; inversion H; reflexivity
                              | intros ->; reflexivity | intro H; inversion H; reflexivity].
Qed.
Lemma rrlookup_cons_eq : forall l r v, rrlookup ((r, v) :: l) r = Some v.
Proof. intros. simpl. rewrite (proj2 (rreg_eqb_eq r r) eq_refl). reflexivity. Qed.
Lemma rrlookup_cons_neq : forall l r r' v, r <> r' -> rrlookup ((r, v) :: l) r' = rrlookup l r'.
Proof.
  intros l r r' v H. simpl. destruct (rreg_eqb r r') eqn:E; [apply rreg_eqb_eq in E; contradiction | reflexivity].
Qed.

Lemma grows_pre : forall inp a b (u : list pos), grows inp a b -> pre (rg_used b) u -> pre (rg_used a) u.
Proof. intros inp a b u (s & E & _) H. rewrite E in H. exact (pre_trans _ _ _ _ (pre_app _ _ _) H). Qed.

Lemma find_filter_none : forall l p, find_op_in (filter (fun x => negb (o_id x =? p)) l) p = None.
Proof.
  induction l as [|y l IH]; intro p; [reflexivity |]. simpl. destruct (o_id y =? p) eqn:E; simpl; [apply IH |].
  rewrite E. apply IH.
Qed.
Lemma find_after_erase : forall pl p pl', erase_op pl p = Some pl' -> find_op pl' p = None.
Proof.
  intros pl p pl' H. unfold erase_op in H. destruct (existsb (has_use_of p) (pl_ops pl)); [discriminate |].
  inversion H; subst. unfold find_op. simpl. apply find_filter_none.
Qed.
Lemma find_after_replace : forall pl p news pl', replace_op pl p news = Some pl' -> find_op pl' p = None.
Proof.
  intros pl p news pl' H. unfold replace_op in H. destruct (find_op pl p); [| discriminate].
  destruct (negb (zlen (o_rtys p0) =? zlen news)); [discriminate |]. eapply find_after_erase. exact H.
Qed.
Lemma insert_before_le : forall l root n l', insert_before l root n = Some l' -> root <= maxid l.
Proof.
  induction l as [|y l IH]; intros root n l' H; simpl in H; [discriminate |].
  destruct (o_id y =? root) eqn:E; [apply Z.eqb_eq in E; simpl; lia |].
  destruct (insert_before l root n) eqn:E2; [| discriminate]. specialize (IH _ _ _ E2). simpl. lia.
Qed.
Lemma insert_before_find : forall l root n l' p, insert_before l root n = Some l' -> o_id n <> p ->
  find_op_in l' p = find_op_in l p.
Proof.
  induction l as [|y l IH]; intros root n l' p H Hn; simpl in H; [discriminate |].
  destruct (o_id y =? root) eqn:E.
  - inversion H; subst. simpl. destruct (o_id n =? p) eqn:E2; [apply Z.eqb_eq in E2; contradiction | reflexivity].
  - destruct (insert_before l root n) eqn:E2; [| discriminate]. inversion H; subst. simpl.
    destruct (o_id y =? p); [reflexivity | eapply IH; eassumption].
Qed.
Lemma create_op_find : forall pl root name vs ats ts pl' id,
  create_op pl root name vs ats ts = Some (pl', id) -> find_op pl' root = find_op pl root.
Proof.
  intros pl root name vs ats ts pl' id H. unfold create_op in H. destruct (split_attrs ats) as [as_ ps].
  match type of H with match ?ib with _ => _ end = _ => destruct ib as [l|] eqn:E end; [| discriminate].
  inversion H; subst. unfold find_op. simpl. eapply insert_before_find; [exact E |]. simpl.
  pose proof (insert_before_le _ _ _ _ E). unfold fresh. lia.
Qed.
Lemma subst_nil_map : forall p (l : list pop),
  map (fun y => set_operands y (map (subst_val p []) (o_operands y))) l = l.
Proof.
  intros p. induction l as [|y l IH]; [reflexivity |]. simpl. rewrite IH. f_equal.
  assert (H : map (subst_val p []) (o_operands y) = o_operands y).
  { induction (o_operands y) as [|v vs IHv]; [reflexivity |]. simpl. rewrite IHv. f_equal.
    destruct v; simpl; [reflexivity |]. destruct (pid =? p); [rewrite znth_nil |]; reflexivity. }
  rewrite H. destruct y; reflexivity.
Qed.
Lemma replace_nil_erase : forall pl p x, find_op pl p = Some x -> o_rtys x = [] -> replace_op pl p [] = erase_op pl p.
Proof.
  intros pl p x Hx Hr. unfold replace_op. rewrite Hx, Hr. simpl. rewrite subst_nil_map. destruct pl; reflexivity.
Qed.

Lemma all_some_length : forall A B (f : A -> option B) l vs, all_some (map f l) = Some vs -> length vs = length l.
Proof.
  intros A B f. induction l as [|a l IH]; intros vs H; simpl in H; [inversion H; reflexivity |].
  destruct (f a); [| discriminate]. destruct (all_some (map f l)) eqn:E; [| discriminate]. inversion H; subst.
  simpl. rewrite (IH _ eq_refl). reflexivity.
Qed.

Section Sim.
Variable fx : fixes.
Variable P : pattern.
Variable inp : inputs.
Variable rootpat : op_pat.
Variable pid : Z.            (* payload id of the matched root operation *)
Variable e0 : env.           (* bindings of the direct matcher *)
Variable regs0 : list (rreg * obj).   (* arguments of the rewriter function *)
Variable usedF : list pos.   (* positions handed over by record_match, in argument order *)

Hypothesis Herase : fx_erase fx = true.
Hypothesis Hrange : fx_range fx = true.
Hypothesis Hinfer : fx_infer fx = true.
Hypothesis Hnoloc : forall l, klookup inp (KLocal l) = None.
Hypothesis Hinj : forall k1 k2 p, klookup inp k1 = Some p -> klookup inp k2 = Some p -> k1 = k2.
(* argument j is the value the direct matcher bound to the pattern value recorded at the j-th used position *)
Hypothesis HArg : forall k p j, klookup inp k = Some p -> znth usedF j = Some p ->
                                exists v, klookup e0 k = Some v /\ rrlookup regs0 (RA j) = Some v.
(* a constant pdl.attribute / pdl.type is bound to its constant *)
Hypothesis HCa : forall a c v, p_aconst P a = Some c -> klookup e0 (KAttr a) = Some v -> v = OAttr c.
Hypothesis HCt : forall t c v, p_tconst P t = Some c -> klookup e0 (KType t) = Some v -> v = OType c.
Hypothesis Hroot : klookup e0 (KOp (op_id rootpat)) = Some (OOp pid).

Record Inv (e : env) (st : rg) (regs : list (rreg * obj)) : Prop := {
  I_vals : forall k r, klookup (rg_vals st) k = Some r -> exists v, klookup e k = Some v /\ rrlookup regs r = Some v;
  I_tmp : forall j v, rrlookup regs (RT j) = Some v -> j < rg_ntmp st;
  I_arg : forall j, rrlookup regs (RA j) = rrlookup regs0 (RA j);
  I_env : forall k, ~ localk k -> klookup e k = klookup e0 k;
  I_sync : rg_nargs st = zlen (rg_used st);
  I_used : forall p, In p (rg_used st) -> exists k j, klookup (rg_vals st) k = Some (RA j) /\ klookup inp k = Some p
}.

(* o = None: the fragment c raises, whatever code follows *)
Definition runs (c : list rinstr) (regs : list (rreg * obj)) (pl : payload) (o : option (list (rreg * obj) * payload)) : Prop :=
  forall rest, run_rewriter fx pid (c ++ rest) regs pl =
               match o with Some (regs', pl') => run_rewriter fx pid rest regs' pl' | None => RErr end.
Lemma runs_nil : forall regs pl, runs [] regs pl (Some (regs, pl)).
Proof. intros regs pl rest. reflexivity. Qed.
Lemma runs_app : forall c1 c2 regs pl regs1 pl1 o,
  runs c1 regs pl (Some (regs1, pl1)) -> runs c2 regs1 pl1 o -> runs (c1 ++ c2) regs pl o.
Proof. intros c1 c2 regs pl regs1 pl1 o H1 H2 rest. rewrite <- app_assoc, H1. apply H2. Qed.
Lemma runs_fail : forall c1 c2 regs pl, runs c1 regs pl None -> runs (c1 ++ c2) regs pl None.
Proof. intros c1 c2 regs pl H rest. rewrite <- app_assoc. apply H. Qed.

(* a new operation of the rewriter function (register RT ntmp) whose result translates key k *)
Lemma Inv_cons : forall e e' st regs k w,
  Inv e st regs -> klookup e' k = Some w ->
  (forall k', k' <> k -> klookup e' k' = klookup e k') ->
  (forall k', ~ localk k' -> klookup e' k' = klookup e0 k') ->
  (klookup inp k = None \/ klookup (rg_vals st) k = None) ->
  Inv e' {| rg_vals := (k, RT (rg_ntmp st)) :: rg_vals st; rg_used := rg_used st; rg_nargs := rg_nargs st;
            rg_ntmp := rg_ntmp st + 1 |} ((RT (rg_ntmp st), w) :: regs).
Proof.
  intros e e' st regs k w [Hv Ht Ha He Hs Hu] Hk Hold Henv Hfr. constructor; cbn [rg_vals rg_used rg_nargs rg_ntmp].
  - intros k' r H. simpl in H. destruct (key_eqb k k') eqn:E.
    + apply key_eqb_eq in E. subst k'. inversion H; subst r. exists w. split; [exact Hk | apply rrlookup_cons_eq].
    + assert (Hne : k' <> k) by (intro X; subst; rewrite key_eqb_refl in E; discriminate).
      destruct (Hv _ _ H) as (v & H1 & H2). exists v. split; [rewrite Hold by exact Hne; exact H1 |].
      rewrite rrlookup_cons_neq; [exact H2 |]. intro Heq. subst r. apply Ht in H2. lia.
  - intros j v H. simpl in H. destruct (rg_ntmp st =? j) eqn:E; [apply Z.eqb_eq in E; lia | apply Ht in H; lia].
  - intros j. simpl. apply Ha.
  - exact Henv.
  - exact Hs.
  - intros p Hp. destruct (Hu p Hp) as (k' & j & H1 & H2). exists k', j. split; [| exact H2].
    simpl. destruct (key_eqb k k') eqn:E; [| exact H1].
    apply key_eqb_eq in E. subst k'. destruct Hfr as [Hfr | Hfr]; congruence.
Qed.
(* ... or translates nothing *)
Lemma Inv_tmp_none : forall e st regs w,
  Inv e st regs ->
  Inv e {| rg_vals := rg_vals st; rg_used := rg_used st; rg_nargs := rg_nargs st; rg_ntmp := rg_ntmp st + 1 |}
      ((RT (rg_ntmp st), w) :: regs).
Proof.
  intros e st regs w [Hv Ht Ha He Hs Hu]. constructor; cbn [rg_vals rg_used rg_nargs rg_ntmp]; auto.
  - intros k r H. destruct (Hv _ _ H) as (v & H1 & H2). exists v. split; [exact H1 |].
    rewrite rrlookup_cons_neq; [exact H2 |]. intro Heq. subst r. apply Ht in H2. lia.
  - intros j v H. simpl in H. destruct (rg_ntmp st =? j) eqn:E; [apply Z.eqb_eq in E; lia | apply Ht in H; lia].
Qed.

Definition ext (regs regs' : list (rreg * obj)) : Prop :=
  forall r v, rrlookup regs r = Some v -> rrlookup regs' r = Some v.
Lemma ext_refl : forall regs, ext regs regs.
Proof. intros regs r v H. exact H. Qed.
Lemma ext_trans : forall a b c, ext a b -> ext b c -> ext a c.
Proof. intros a b c H1 H2 r v H. apply H2, H1, H. Qed.
Lemma ext_tmp : forall e st regs w, Inv e st regs -> ext regs ((RT (rg_ntmp st), w) :: regs).
Proof.
  intros e st regs w HI r v H. rewrite rrlookup_cons_neq; [exact H |]. intro Heq. subst r.
  apply (I_tmp _ _ _ HI) in H. lia.
Qed.

(* the pattern values the matcher must have bound for the generated code to mean what the direct rewrite does *)
Definition bound0 (k : key) : Prop := ~ localk k -> klookup e0 k <> None.
Definition agree_kr (e : env) (regs : list (rreg * obj)) (k : key) (r : rreg) : Prop :=
  exists v, klookup e k = Some v /\ rrlookup regs r = Some v.

(* map_rewrite_value *)
Lemma map_value_sim : forall e st regs k st1 c r,
  Inv e st regs -> bound0 k ->
  map_value fx P inp st k = Some (st1, c, r) -> pre (rg_used st1) usedF ->
  exists regs1, (forall pl, runs c regs pl (Some (regs1, pl))) /\ Inv e st1 regs1 /\ agree_kr e regs1 k r /\ ext regs regs1.
Proof.
  intros e st regs k st1 c r HI Hb E Hpre. unfold map_value in E.
  destruct (klookup (rg_vals st) k) as [r0|] eqn:Ev.
  { injection E as <- <- <-. exists regs.
    split; [intro pl; apply runs_nil | split; [exact HI | split; [exact (I_vals _ _ _ HI _ _ Ev) | apply ext_refl]]]. }
  match type of E with match ?cst with _ => _ end = _ => destruct cst as [mk|] eqn:Ec end.
  - (* constant: materialised in the rewriter *)
    unfold rtmp in E. injection E as <- <- <-.
    assert (Hmk : exists w, klookup e k = Some w /\
                   forall d regs' pl, runs [mk d] regs' pl (Some ((d, w) :: regs', pl))).
    { assert (Hk : klookup e k = klookup e0 k /\ klookup e0 k <> None).
      { destruct k; try discriminate Ec; (split; [apply (I_env _ _ _ HI) | apply Hb]; intros []). }
      destruct Hk as [Hk Hb0]. rewrite Hk. destruct (klookup e0 k) as [v|] eqn:E0; [clear Hb0 | congruence].
      destruct k; try discriminate Ec.
      - destruct (p_tconst P i) as [c0|] eqn:Et; [| discriminate]. injection Ec as <-.
        rewrite (HCt _ _ _ Et E0). eexists. split; [reflexivity | intros d regs' pl rest; reflexivity].
      - destruct (p_aconst P i) as [c0|] eqn:Ea; [| discriminate]. destruct (truthy c0 || fx_falsy fx); [| discriminate].
        injection Ec as <-. rewrite (HCa _ _ _ Ea E0). eexists. split; [reflexivity | intros d regs' pl rest; reflexivity]. }
    destruct Hmk as (w & Hk & Hrun). exists ((RT (rg_ntmp st), w) :: regs).
    split; [intro pl; apply Hrun |]. split; [| split; [| eapply ext_tmp; exact HI]].
    + eapply Inv_cons; [exact HI | exact Hk | reflexivity | apply (I_env _ _ _ HI) | right; exact Ev].
    + exists w. split; [exact Hk | apply rrlookup_cons_eq].
  - (* an input from the matcher: a new function argument *)
    destruct (klookup inp k) as [p|] eqn:Ei; [| discriminate]. injection E as <- <- <-.
    assert (Hnl : ~ localk k) by (intro H; destruct k; try contradiction; rewrite Hnoloc in Ei; discriminate).
    assert (Hnew : mem_pos p (rg_used st) = false).
    { destruct (mem_pos p (rg_used st)) eqn:Em; [| reflexivity]. apply mem_pos_In in Em.
      destruct (I_used _ _ _ HI _ Em) as (k' & j & H1 & H2). rewrite (Hinj _ _ _ H2 Ei) in H1. congruence. }
    cbn [rg_used] in Hpre. rewrite Hnew in Hpre.
    assert (Hz : znth usedF (rg_nargs st) = Some p).
    { destruct Hpre as [s ->]. apply znth_app_l. rewrite (I_sync _ _ _ HI). apply znth_last. }
    destruct (HArg _ _ _ Ei Hz) as (v & H1 & H2). rewrite <- (I_env _ _ _ HI k Hnl) in H1.
    exists regs. split; [intro pl; apply runs_nil |].
    split; [| split; [exists v; split; [exact H1 | rewrite (I_arg _ _ _ HI); exact H2] | apply ext_refl]].
    destruct HI as [Hv Ht Ha He Hs Hu]. constructor; cbn [rg_vals rg_used rg_nargs rg_ntmp].
    + intros k' r H. simpl in H. destruct (key_eqb k k') eqn:E; [| apply Hv; exact H].
      apply key_eqb_eq in E. subst k'. injection H as <-. exists v. split; [exact H1 | rewrite Ha; exact H2].
    + exact Ht.
    + exact Ha.
    + exact He.
    + rewrite Hnew. unfold zlen in *. rewrite app_length. simpl. lia.
    + rewrite Hnew. intros q Hq. apply in_app_iff in Hq. destruct Hq as [Hq | [<- | []]].
      * destruct (Hu q Hq) as (k' & j & H3 & H4). exists k', j. split; [| exact H4].
        simpl. destruct (key_eqb k k') eqn:E; [apply key_eqb_eq in E; subst; congruence | exact H3].
      * exists k, (rg_nargs st). split; [simpl; rewrite key_eqb_refl; reflexivity | exact Ei].
Qed.

Lemma agree_ext : forall e regs regs' ks rs, ext regs regs' ->
  Forall2 (agree_kr e regs) ks rs -> Forall2 (agree_kr e regs') ks rs.
Proof.
  intros e regs regs' ks rs Hx H. induction H as [| k r ks rs (v & H1 & H2) _ IH]; constructor; [| exact IH].
  exists v. split; [exact H1 | apply Hx; exact H2].
Qed.

Lemma map_values_sim : forall ks e st regs st1 c rs,
  Inv e st regs -> Forall bound0 ks ->
  map_values fx P inp st ks = Some (st1, c, rs) -> pre (rg_used st1) usedF ->
  exists regs1, (forall pl, runs c regs pl (Some (regs1, pl))) /\ Inv e st1 regs1 /\ Forall2 (agree_kr e regs1) ks rs /\ ext regs regs1.
Proof.
  induction ks as [|k ks IH]; intros e st regs st1 c rs HI HF E Hpre; simpl in E.
  - injection E as <- <- <-. exists regs.
    split; [intro pl; apply runs_nil | split; [exact HI | split; [constructor | apply ext_refl]]].
  - destruct (map_value fx P inp st k) as [[[st2 c2] v]|] eqn:E1; [| discriminate].
    destruct (map_values fx P inp st2 ks) as [[[st3 c3] vs]|] eqn:E2; [| discriminate].
    injection E as <- <- <-. inversion HF as [| ? ? Hk HF']; subst.
    assert (Hpre2 : pre (rg_used st2) usedF) by exact (grows_pre _ _ _ _ (map_values_grows _ _ _ _ _ _ _ _ E2) Hpre).
    destruct (map_value_sim _ _ _ _ _ _ _ HI Hk E1 Hpre2) as (regs2 & Hs2 & HI2 & Hr2 & Hx2).
    destruct (IH _ _ _ _ _ _ HI2 HF' E2 Hpre) as (regs3 & Hs3 & HI3 & HF3 & Hx3).
    exists regs3. split; [intro pl; eapply runs_app; [apply Hs2 | apply Hs3] |]. split; [exact HI3 |].
    split; [| eapply ext_trans; eassumption].
    constructor; [| exact HF3]. destruct Hr2 as (w & Hw & Hr2). exists w. split; [exact Hw | apply Hx3; exact Hr2].
Qed.

Lemma rr_val_agree : forall e regs A (f : A -> key) l rs, Forall2 (agree_kr e regs) (map f l) rs ->
  map (rr_val regs) rs = map (fun a => get_val e (f a)) l.
Proof.
  intros e regs A f. induction l as [|a l IH]; intros rs H; inversion H as [| ? r ? rs' (v & H1 & H2) HF]; subst; [reflexivity |].
  simpl. rewrite (IH _ HF). unfold get_val, rr_val. rewrite H1, H2. reflexivity.
Qed.
Lemma rr_attr_agree : forall e regs (attrs : list (Z * aref)) ra,
  Forall2 (agree_kr e regs) (map (fun na => aref_key (snd na)) attrs) ra ->
  map (fun na : Z * rreg => match rr_attr regs (snd na) with Some a => Some (fst na, a) | None => None end)
      (combine (map fst attrs) ra) =
  map (fun na : Z * aref => match get_attr e (aref_key (snd na)) with Some a => Some (fst na, a) | None => None end) attrs.
Proof.
  intros e regs attrs. induction attrs as [|[n a] attrs IH]; intros ra H; [reflexivity |].
  simpl in H. inversion H as [| ? r ? ra' (v & H1 & H2) HF]; subst. simpl. rewrite (IH _ HF).
  unfold rr_attr, get_attr. simpl. rewrite H1, H2. reflexivity.
Qed.
(* declared result types: when the direct rewrite finds them all, so does the rewriter function (it may find more:
   it flattens a range where the direct rewrite raises) *)
Lemma rr_types_agree : forall e regs (tys : list tref) rs ts, Forall2 (agree_kr e regs) (map tref_key tys) rs ->
  all_some (map (fun t => get_type e (tref_key t)) tys) = Some ts -> rr_types fx regs rs = Some ts.
Proof.
  intros e regs. induction tys as [|t tys IH]; intros rs ts H Ha; inversion H as [| ? r ? rs' (v & H1 & H2) HF]; subst.
  - exact Ha.
  - simpl in Ha. unfold get_type in Ha at 1. rewrite H1 in Ha. destruct v; try discriminate.
    destruct (all_some (map (fun t0 => get_type e (tref_key t0)) tys)) as [ts'|] eqn:E; [| discriminate].
    injection Ha as <-. simpl. rewrite H2, (IH _ _ HF eq_refl). reflexivity.
Qed.
Lemma rr_op_agree : forall e regs pl k r, agree_kr e regs k r ->
  rr_op pl regs r = match get_opid e k with Some p => find_op pl p | None => None end.
Proof. intros e regs pl k r (v & H1 & H2). unfold rr_op, get_opid. rewrite H1, H2. destruct v; reflexivity. Qed.
Lemma root_key : forall e st regs, Inv e st regs -> klookup e (KOp (op_id rootpat)) = Some (OOp pid).
Proof. intros e st regs HI. rewrite (I_env _ _ _ HI) by (intros []). exact Hroot. Qed.
Lemma local_bound0 : forall l, bound0 (KLocal l).
Proof. intros l H. destruct (H I). Qed.
Lemma root_bound0 : bound0 (KOp (op_id rootpat)).
Proof. intros _. rewrite Hroot. discriminate. Qed.
Lemma root_reg : forall e st regs r, Inv e st regs -> agree_kr e regs (KOp (op_id rootpat)) r -> rrlookup regs r = Some (OOp pid).
Proof. intros e st regs r HI (v & H1 & H2). rewrite (root_key _ _ _ HI) in H1. congruence. Qed.

Lemma all_some_bound : forall (e : env) A B (f : A -> key) (g : A -> option B) l x,
  (forall a, g a <> None -> klookup e (f a) <> None) ->
  all_some (map g l) = Some x -> Forall (fun k => klookup e k <> None) (map f l).
Proof.
  intros e A B f g l x Hg. revert x. induction l as [|a l IH]; intros x H; [constructor |]. simpl in H.
  destruct (g a) eqn:E; [| discriminate]. destruct (all_some (map g l)) eqn:E2; [| discriminate].
  constructor; [apply Hg; congruence | eapply IH; reflexivity].
Qed.

Lemma vtype_results_gen : forall pl x l k,
  find_op pl (o_id x) = Some x -> 0 <= k ->
  (forall j, 0 <= j -> znth l j = znth (o_rtys x) (k + j)) ->
  map (vtype pl) (results_of (o_id x) (length l) k) = l.
Proof.
  intros pl x. induction l as [|y l IH]; intros k Hx Hk Hl; [reflexivity |].
  simpl. rewrite Hx. rewrite <- (Z.add_0_r k), <- Hl by lia. simpl. f_equal.
  apply IH; [exact Hx | lia |]. intros j Hj. rewrite <- (znth_cons_S _ y l j Hj), Hl by lia. f_equal. lia.
Qed.
Lemma vtype_results : forall pl x, find_op pl (o_id x) = Some x -> map (vtype pl) (op_results x) = o_rtys x.
Proof. intros pl x Hx. unfold op_results. apply vtype_results_gen; [exact Hx | lia | intros j Hj; reflexivity]. Qed.
Lemma Inv_local : forall e st regs l w,
  Inv e st regs ->
  Inv ((KLocal l, w) :: e)
      {| rg_vals := (KLocal l, RT (rg_ntmp st)) :: rg_vals st; rg_used := rg_used st; rg_nargs := rg_nargs st;
         rg_ntmp := rg_ntmp st + 1 |} ((RT (rg_ntmp st), w) :: regs).
Proof.
  intros e st regs l w HI. eapply Inv_cons; [exact HI | apply klookup_cons_eq | | | left; apply Hnoloc].
  - intros k' Hk'. apply klookup_cons_neq. congruence.
  - intros k' Hk'. rewrite klookup_cons_neq; [apply (I_env _ _ _ HI); exact Hk' |]. intro X; subst. apply Hk'. exact I.
Qed.

(* a root that declares no result types has no results in the payload (until it is replaced / erased) *)
Definition RI (pl : payload) : Prop :=
  op_rtys rootpat = [] -> forall x, find_op pl pid = Some x -> o_rtys x = [].
Lemma RI_gone : forall pl, find_op pl pid = None -> RI pl.
Proof. intros pl H _ x Hx. congruence. Qed.
Lemma RI_create : forall pl name vs ats ts pl' id, create_op pl pid name vs ats ts = Some (pl', id) -> RI pl -> RI pl'.
Proof. intros pl name vs ats ts pl' id H HR Hn x Hx. rewrite (create_op_find _ _ _ _ _ _ _ _ H) in Hx. eapply HR; eassumption. Qed.

Lemma replace_resultless : forall pl news, RI pl -> op_rtys rootpat = [] ->
  replace_op pl pid news =
  match news with
  | [] => match find_op pl pid with Some _ => erase_op pl pid | None => None end
  | _ :: _ => None
  end.
Proof.
  intros pl news HR Ert. destruct (find_op pl pid) as [x|] eqn:Dx.
  - destruct news as [|v news]; [exact (replace_nil_erase _ _ _ Dx (HR Ert _ Dx)) |].
    unfold replace_op. rewrite Dx, (HR Ert _ Dx). reflexivity.
  - unfold replace_op. rewrite Dx. destruct news; reflexivity.
Qed.

(* one instruction of the rewriter function, its outcome written with the lookups of the direct rewrite *)
Lemma run_create_op : forall e regs pl d name (operands : list vref) (attrs : list (Z * aref)) ro ra rt,
  Forall2 (agree_kr e regs) (map vref_key operands) ro ->
  Forall2 (agree_kr e regs) (map (fun na => aref_key (snd na)) attrs) ra ->
  runs [RCreateOp d name ro (combine (map fst attrs) ra) rt] regs pl
    (match all_some (map (fun v => get_val e (vref_key v)) operands),
           all_some (map (fun na : Z * aref => match get_attr e (aref_key (snd na)) with
                                               | Some a => Some (fst na, a) | None => None end) attrs),
           rr_types fx regs rt with
     | Some vs, Some ats, Some ts =>
         match create_op pl pid name vs ats ts with Some (pl', id) => Some ((d, OOp id) :: regs, pl') | None => None end
     | _, _, _ => None
     end).
Proof.
  intros e regs pl d name operands attrs ro ra rt Fo Fa rest. cbn [app run_rewriter].
  rewrite (rr_val_agree _ _ _ _ _ _ Fo), (rr_attr_agree _ _ _ _ Fa).
  destruct (all_some (map (fun v => get_val e (vref_key v)) operands)); [| reflexivity].
  destruct (all_some (map _ attrs)); [| reflexivity]. destruct (rr_types fx regs rt); [| reflexivity].
  destruct (create_op pl pid name l l0 l1) as [[pl' id]|]; reflexivity.
Qed.
Lemma run_get_result : forall e regs pl d r k idx, agree_kr e regs k r ->
  runs [RGetResult d r idx] regs pl
    (match get_opid e k with
     | Some p => match find_op pl p with
                 | Some x => Some ((d, if (0 <=? idx) && (idx <? zlen (o_rtys x)) then OVal (VRes p idx) else ONull) :: regs, pl)
                 | None => None
                 end
     | None => None
     end).
Proof.
  intros e regs pl d r k idx H rest. cbn [app run_rewriter]. rewrite (rr_op_agree _ _ pl _ _ H).
  destruct (get_opid e k) as [p|]; [| reflexivity]. destruct (find_op pl p) as [x|] eqn:Df; [| reflexivity].
  rewrite (find_op_id _ _ _ Df). reflexivity.
Qed.
Lemma run_get_results : forall e regs pl d r k, agree_kr e regs k r ->
  runs [RGetResults d r] regs pl
    (match get_opid e k with
     | Some p => match find_op pl p with Some x => Some ((d, OVals (op_results x)) :: regs, pl) | None => None end
     | None => None
     end).
Proof.
  intros e regs pl d r k H rest. cbn [app run_rewriter]. rewrite (rr_op_agree _ _ pl _ _ H).
  destruct (get_opid e k) as [p|]; [| reflexivity]. destruct (find_op pl p); reflexivity.
Qed.
(* Strategy 3 of the conversion: the result types of a replacement operation are those of the root's results *)
Lemma run_root_types : forall regs pl d1 d2 rroot, rrlookup regs rroot = Some (OOp pid) -> d1 <> d2 ->
  runs [RGetResults d1 rroot; RGetValueType d2 d1] regs pl
    (match find_op pl pid with
     | Some x => Some ((d2, OTypes (o_rtys x)) :: (d1, OVals (op_results x)) :: regs, pl)
     | None => None
     end).
Proof.
  intros regs pl d1 d2 rroot H Hd rest. cbn [app run_rewriter]. unfold rr_op. rewrite H.
  destruct (find_op pl pid) as [x|] eqn:Df; [| reflexivity]. cbn [run_rewriter]. rewrite rrlookup_cons_eq, Hrange.
  rewrite vtype_results by (rewrite (find_op_id _ _ _ Df); exact Df). reflexivity.
Qed.
Lemma run_replace : forall regs pl o items, rrlookup regs o = Some (OOp pid) ->
  runs [RReplace o items] regs pl
    (match repl_values regs items with
     | Some news => match replace_op pl pid news with Some pl' => Some (regs, pl') | None => None end
     | None => None
     end).
Proof.
  intros regs pl o items H rest. cbn [app run_rewriter]. unfold rr_op. rewrite H.
  destruct (find_op pl pid) as [x|] eqn:Df.
  - rewrite (find_op_id _ _ _ Df). destruct (repl_values regs items) as [news|]; [| reflexivity].
    destruct (replace_op pl pid news); reflexivity.
  - destruct (repl_values regs items) as [news|]; [| reflexivity]. unfold replace_op. rewrite Df. reflexivity.
Qed.
Lemma run_erase : forall regs pl o, rrlookup regs o = Some (OOp pid) ->
  runs [RErase o] regs pl
    (match find_op pl pid with
     | Some _ => match erase_op pl pid with Some pl' => Some (regs, pl') | None => None end
     | None => None
     end).
Proof.
  intros regs pl o H rest. cbn [app run_rewriter]. rewrite Herase. unfold rr_op. rewrite H.
  destruct (find_op pl pid) as [x|] eqn:Df; [| reflexivity]. rewrite (find_op_id _ _ _ Df).
  destruct (erase_op pl pid); reflexivity.
Qed.

Lemma repl_values_false : forall regs rs,
  repl_values regs (map (fun r => (false, r)) rs) = all_some (map (rr_val regs) rs).
Proof.
  intros regs. induction rs as [|r rs IH]; [reflexivity |]. simpl. rewrite IH.
  destruct (rr_val regs r); [| reflexivity]. destruct (all_some (map (rr_val regs) rs)); reflexivity.
Qed.

Definition step_rw (s : stmt) (rest : list stmt) (e : env) (pl : payload) : option (env * payload) :=
  match s with
  | SAttr l c => Some ((KLocal l, OAttr c) :: e, pl)
  | SType l c => Some ((KLocal l, OType c) :: e, pl)
  | SOp l name operands attrs tys =>
      match all_some (map (fun v => get_val e (vref_key v)) operands),
            all_some (map (fun na : Z * aref => match get_attr e (aref_key (snd na)) with
                                     | Some a => Some (fst na, a) | None => None end) attrs),
            (match tys with
             | [] => if fx_infer fx && existsb (is_replace_with l) rest
                     then match find_op pl pid with Some x => Some (o_rtys x) | None => None end
                     else Some []
             | _ => all_some (map (fun t => get_type e (tref_key t)) tys)
             end) with
      | Some vs, Some ats, Some ts =>
          match create_op pl pid name vs ats ts with
          | Some (pl', id) => Some ((KLocal l, OOp id) :: e, pl')
          | None => None
          end
      | _, _, _ => None
      end
  | SResult l lop idx =>
      match get_opid e (KLocal lop) with
      | Some p => match find_op pl p with
                  | Some x => if (0 <=? idx) && (idx <? zlen (o_rtys x))
                              then Some ((KLocal l, OVal (VRes p idx)) :: e, pl) else None
                  | None => None
                  end
      | None => None
      end
  | SReplaceVals vs =>
      match vs with
      | [] => None
      | _ => match all_some (map (fun v => get_val e (vref_key v)) vs) with
             | Some news => match replace_op pl pid news with Some pl' => Some (e, pl') | None => None end
             | None => None
             end
      end
  | SReplaceOp l =>
      match get_opid e (KLocal l) with
      | Some p => match find_op pl p with
                  | Some x => match replace_op pl pid (op_results x) with Some pl' => Some (e, pl') | None => None end
                  | None => None
                  end
      | None => None
      end
  | SErase => match find_op pl pid with
              | Some _ => match erase_op pl pid with Some pl' => Some (e, pl') | None => None end
              | None => None
              end
  end.

Lemma run_rw_step : forall s rest e pl,
  run_rw fx pid (s :: rest) e pl =
  match step_rw s rest e pl with Some (e', pl') => run_rw fx pid rest e' pl' | None => RErr end.
Proof.
  intros s rest e pl. destruct s; cbn [run_rw step_rw]; try reflexivity;
    repeat match goal with
           | |- context [match ?x with _ => _ end] =>
               match x with
               | run_rw _ _ _ _ _ => fail 1
               | _ => destruct x
               end
           end; reflexivity.
Qed.
End Sim.
