(* C27/ProofsOrder.v -- the ordering step (dedupe + OrderedPredicate sort) keeps exactly the same set of
   predicates; hence a successful run of the chain does not depend on the order. *)
From Coq Require Import ZArith List Bool Lia.
From XV Require Import C27.Model C27.ProofsChain.
Import ListNotations.
Local Open Scope Z_scope.

Lemma quest_eqb_eq : forall a b, quest_eqb a b = true <-> a = b.
Proof.
  destruct a, b; simpl; try (split; [discriminate | intro H; discriminate H]); try tauto;
    try (rewrite Z.eqb_eq; split; [intros ->; reflexivity | intro H; inversion H; reflexivity]).
  rewrite pos_eqb_eq. split; [intros ->; reflexivity | intro H; inversion H; reflexivity].
Qed.
Lemma pred_eqb_eq : forall a b, pred_eqb a b = true <-> a = b.
Proof.
  intros [p q] [p' q']. unfold pred_eqb. simpl. rewrite andb_true_iff, pos_eqb_eq, quest_eqb_eq.
  split; [intros [-> ->]; reflexivity | intro H; inversion H; auto].
Qed.

Lemma mem_pred_In : forall x l, mem_pred x l = true <-> In x l.
Proof.
  intros x l. induction l as [|y l IH]; simpl; [split; [discriminate | tauto] |].
  rewrite orb_true_iff, IH, pred_eqb_eq. split; intros [H|H]; auto.
Qed.

Lemma uniq_acc_In : forall l seen x, In x (uniq_acc seen l) <-> (In x l /\ ~ In x seen).
Proof.
  induction l as [|y l IH]; intros seen x; simpl; [tauto |].
  destruct (mem_pred y seen) eqn:E.
  - apply mem_pred_In in E. rewrite IH. split.
    + intros [H1 H2]. auto.
    + intros [[H1|H1] H2]; [subst; contradiction | auto].
  - assert (Hn : ~ In y seen) by (intro H; apply mem_pred_In in H; congruence).
    simpl. rewrite IH. simpl. split.
    + intros [H | [H1 H2]]; [subst; auto | split; [auto | intro H3; apply H2; auto]].
    + intros [[H1|H1] H2]; [auto |].
      destruct (pred_eqb y x) eqn:E2; [apply pred_eqb_eq in E2; auto |].
      right. split; [exact H1 |]. intros [H3|H3]; [subst; rewrite (proj2 (pred_eqb_eq x x) eq_refl) in E2; discriminate | auto].
Qed.

Lemma number_map : forall all l i, map op_pred (number all i l) = l.
Proof. intros all l. induction l as [|x l IH]; intro i; simpl; [reflexivity | rewrite IH; reflexivity]. Qed.

Lemma insert_sorted_In : forall x l y, In y (insert_sorted x l) <-> (y = x \/ In y l).
Proof.
  intros x l. induction l as [|z l IH]; intro y; simpl; [split; intros [H|H]; auto; contradiction |].
  destruct (before z x); simpl; [rewrite IH |]; split; intros H; intuition auto.
Qed.
Lemma sort_preds_In : forall l y, In y (sort_preds l) <-> In y l.
Proof.
  induction l as [|x l IH]; intro y; simpl; [tauto |]. rewrite insert_sorted_In, IH. split; intros [H|H]; auto.
Qed.

Theorem ordered_In : forall preds x, In x (ordered preds) <-> In x preds.
Proof.
  intros preds x. unfold ordered. rewrite in_map_iff. split.
  - intros (o & <- & Ho). apply (proj1 (sort_preds_In _ _)) in Ho.
    assert (H : In (op_pred o) (map op_pred (number preds 0 (uniq_acc [] preds)))) by (apply in_map; exact Ho).
    rewrite number_map in H. apply (proj1 (uniq_acc_In _ _ _)) in H. tauto.
  - intro H. assert (H2 : In x (map op_pred (number preds 0 (uniq_acc [] preds)))).
    { rewrite number_map. apply (proj2 (uniq_acc_In _ _ _)). split; [exact H | tauto]. }
    apply (proj1 (in_map_iff _ _ _)) in H2. destruct H2 as (o & Ho1 & Ho2). exists o. split; [exact Ho1 |].
    apply (proj2 (sort_preds_In _ _)). exact Ho2.
Qed.

Section Sem.
Variable fx : fixes.
Variable pl : payload.
Variable root : Z.

Lemma seq_eval_match : forall preds used vs,
  seq_eval fx pl root preds used = IMatch vs <->
  ((forall x, In x preds -> eval_pred fx pl root x = Some true) /\
   all_some (map (eval_pos fx pl root) used) = Some vs).
Proof.
  induction preds as [|pq preds IH]; intros used vs; cbn [seq_eval].
  - destruct (all_some (map (eval_pos fx pl root) used)) as [l|]; split.
    + intro H. inversion H; subst. split; [intros x []| reflexivity].
    + intros [_ H]. inversion H; reflexivity.
    + discriminate.
    + intros [_ H]. discriminate.
  - destruct (eval_pred fx pl root pq) as [[|]|] eqn:E.
    + rewrite IH. split; intros [H1 H2]; split; auto.
      * intros x [<-|Hx]; auto.
      * intros x Hx. apply H1. right. exact Hx.
    + split; [discriminate | intros [H _]; specialize (H pq (or_introl eq_refl)); congruence].
    + split; [discriminate | intros [H _]; specialize (H pq (or_introl eq_refl)); congruence].
Qed.

(* success of the chain is insensitive to the ordering step *)
Theorem ordered_match : forall preds used vs,
  seq_eval fx pl root (ordered preds) used = IMatch vs <-> seq_eval fx pl root preds used = IMatch vs.
Proof.
  intros preds used vs. rewrite !seq_eval_match. split; intros [H1 H2]; split; auto; intros x Hx; apply H1, ordered_In, Hx.
Qed.

(* evaluating the list left to right never raises (ProofsGuard has the static check that guarantees it for a
   compiled chain) *)
Fixpoint no_raise (preds : list pred) : bool :=
  match preds with
  | [] => true
  | pq :: r => match eval_pred fx pl root pq with
               | Some true => no_raise r
               | Some false => true
               | None => false
               end
  end.
Lemma seq_eval_no_raise : forall preds used,
  no_raise preds = true ->
  seq_eval fx pl root preds used = IErr -> 
  (forall x, In x preds -> eval_pred fx pl root x = Some true) /\ all_some (map (eval_pos fx pl root) used) = None.
Proof.
  induction preds as [|pq preds IH]; intros used Hn He; cbn [seq_eval no_raise] in *.
  - destruct (all_some (map (eval_pos fx pl root) used)); [discriminate | split; [intros x [] | reflexivity]].
  - destruct (eval_pred fx pl root pq) as [[|]|] eqn:E; try discriminate.
    destruct (IH used Hn He) as [H1 H2]. split; [| exact H2]. intros x [<-|Hx]; auto.
Qed.
End Sem.
