(* C16/ProofsLicm.v -- loop-invariant code motion kernel, the speculatability table, the worklist,
   and the lower-affine expression kernel. *)
From Coq Require Import ZArith List Bool Lia.
From XV Require Import C16.Model.
Import ListNotations.
Local Open Scope Z_scope.

Section Licm.
Variable st : Type.
Variable body_v : Z -> Z -> st -> st.

Lemma licm_orig_some : forall n v iv step s,
  licm_orig st body_v n (Some v) iv step s = Some (iter_from st (body_v v) n iv step s).
Proof.
  induction n as [|n IH]; intros v iv step s; [reflexivity|].
  cbn [licm_orig iter_from]. apply IH.
Qed.

(* a speculatable op (never traps: its value is `Some v`) can be hoisted out of ANY loop, including
   a zero-trip one (n = 0) *)
Theorem licm_commutes : forall n v iv step s,
  licm_hoisted st body_v n (Some v) iv step s = licm_orig st body_v n (Some v) iv step s.
Proof. intros. rewrite licm_orig_some. reflexivity. Qed.

(* hoisting is correct if the op cannot trap or the loop runs at least once (licm_zero_trip_refuted is
   the converse; the kernel's body has no effect that precedes the op inside an iteration) *)
Theorem licm_partial : forall n opv iv step s, (opv <> None \/ (0 < n)%nat) ->
  licm_hoisted st body_v n opv iv step s = licm_orig st body_v n opv iv step s.
Proof.
  intros n opv iv step s H. destruct opv as [v|].
  - apply licm_commutes.
  - destruct H as [H|H]; [contradiction|]. destruct n; [lia|]. reflexivity.
Qed.

(* a trapping op hoisted out of a zero-trip loop: the original returns, the hoisted program traps *)
Theorem licm_zero_trip_refuted : forall iv step s,
  licm_orig st body_v 0 None iv step s = Some s /\ licm_hoisted st body_v 0 None iv step s = None.
Proof. intros. split; reflexivity. Qed.
End Licm.

(* what xDSL declares hoistable includes ops that trap: arith.remsi / floordivsi / ceildivsi are
   declared Pure although division by zero is undefined *)
Theorem hoistable_refuted : exists k rc a b,
  hoistable_kind k rc = true /\ (forall c, rc = Some c -> b = c) /\ op_eval k a b = None.
Proof. exists KRemsi, None, 3, 0. repeat split. intros c H. discriminate. Qed.

Definition declared_pure_division (k : opkind) : bool :=
  match k with KRemsi | KFloordivsi | KCeildivsi => true | _ => false end.

Theorem hoistable_partial : forall k rc a b,
  declared_pure_division k = false ->
  hoistable_kind k rc = true -> (forall c, rc = Some c -> b = c) -> op_eval k a b <> None.
Proof.
  intros k rc a b Hk Hh Hrc. destruct k; cbn in *; try discriminate.
  destruct rc as [c|]; [|discriminate]. rewrite (Hrc c eq_refl).
  destruct (c =? 0); [discriminate|]. discriminate.
Qed.

Lemma filter_len_le : forall (f : nat -> bool) l, (length (filter f l) <= length l)%nat.
Proof.
  intros f. induction l as [|a l IH]; [cbn; lia|]. cbn. destruct (f a); cbn; lia.
Qed.

Lemma users_length : forall ops i, (length (users ops i) <= length ops)%nat.
Proof.
  intros. unfold users. etransitivity; [apply filter_len_le|]. rewrite seq_length. lia.
Qed.

Lemma existsb_eqb_In : forall i l, existsb (Nat.eqb i) l = true <-> In i l.
Proof.
  intros i l. rewrite existsb_exists. split.
  - intros [x [Hin He]]. apply Nat.eqb_eq in He. subst. assumption.
  - intros H. exists i. split; [assumption|apply Nat.eqb_refl].
Qed.

Lemma can_hoist_lt : forall ops moved i, can_hoist ops moved i = true -> (i < length ops)%nat.
Proof.
  intros ops moved i H. unfold can_hoist in H.
  destruct (nth_error ops i) eqn:E; [|discriminate].
  apply nth_error_Some. congruence.
Qed.

(* every op is hoisted only when the table allows it and all its operands are already outside the
   loop (defined outside, or hoisted earlier) *)
Inductive sound_seq (ops : list bop) : list nat -> Prop :=
  | sound_nil : sound_seq ops []
  | sound_snoc : forall moved i, sound_seq ops moved -> ~ In i moved ->
      can_hoist ops moved i = true -> sound_seq ops (moved ++ [i]).

Lemma sound_hoist : forall ops moved i, sound_seq ops moved ->
  existsb (Nat.eqb i) moved = false -> can_hoist ops moved i = true -> sound_seq ops (moved ++ [i]).
Proof.
  intros ops moved i Hs Em Eh. apply sound_snoc; [assumption| |assumption].
  intro Hin. apply existsb_eqb_In in Hin. congruence.
Qed.

Lemma licm_loop_sound : forall fuel ops wl moved r,
  sound_seq ops moved -> licm_loop fuel ops wl moved = Some r -> sound_seq ops r.
Proof.
  induction fuel as [|f IH]; intros ops wl moved r Hs Hr; [discriminate|].
  cbn [licm_loop] in Hr. destruct wl as [|i rest]; [inversion Hr; subst; assumption|].
  destruct (existsb (Nat.eqb i) moved) eqn:Em; [eapply IH; eassumption|].
  destruct (can_hoist ops moved i) eqn:Eh; [|eapply IH; eassumption].
  eapply IH; [|eassumption]. apply sound_hoist; assumption.
Qed.

Theorem licm_pass_sound : forall ops r, licm_pass ops = Some r -> sound_seq ops r.
Proof. intros ops r H. eapply licm_loop_sound; [apply sound_nil|exact H]. Qed.

Lemma sound_seq_length : forall ops moved, sound_seq ops moved -> (length moved <= length ops)%nat.
Proof.
  intros ops moved H.
  assert (Hb : NoDup moved /\ incl moved (seq 0 (length ops))).
  { induction H as [|moved i _ [Hnd Hlt] Hnin Hh]; [split; [constructor|intros i []]|]. split.
    - apply (NoDup_Add (Add_app i moved [])). rewrite app_nil_r. split; assumption.
    - apply incl_app; [assumption|]. intros j [<-|[]]. apply in_seq.
      apply can_hoist_lt in Hh. lia. }
  rewrite <- (seq_length (length ops) 0). apply NoDup_incl_length; apply Hb.
Qed.

(* each step shortens the worklist or hoists one of the k ops not yet hoisted, and a hoist adds at
   most |ops| users *)
Lemma licm_loop_terminates : forall fuel ops wl moved k, sound_seq ops moved ->
  (length moved + k = length ops)%nat -> (length wl + length ops * k < fuel)%nat ->
  exists r, licm_loop fuel ops wl moved = Some r.
Proof.
  induction fuel as [|f IH]; intros ops wl moved k Hs Hk Hf; [lia|].
  cbn [licm_loop]. destruct wl as [|i rest]; [eexists; reflexivity|].
  cbn [length] in Hf.
  destruct (existsb (Nat.eqb i) moved) eqn:Em; [apply (IH _ _ _ k); [assumption|assumption|lia]|].
  destruct (can_hoist ops moved i) eqn:Eh; [|apply (IH _ _ _ k); [assumption|assumption|lia]].
  pose proof (sound_hoist _ _ _ Hs Em Eh) as Hs'.
  pose proof (sound_seq_length _ _ Hs') as Hlen. rewrite app_length in Hlen. cbn [length] in Hlen.
  destruct k as [|k]; [lia|]. rewrite Nat.mul_succ_r in Hf. pose proof (users_length ops i).
  apply (IH _ _ _ k); [assumption| |]; rewrite app_length; cbn [length]; lia.
Qed.

Theorem licm_pass_terminates : forall ops, exists r, licm_pass ops = Some r.
Proof.
  intros ops. unfold licm_pass. apply (licm_loop_terminates _ _ _ _ (length ops)); [apply sound_nil|reflexivity|].
  rewrite seq_length. lia.
Qed.

(* affine `mod` is the floor remainder (result in [0, rhs) for rhs > 0); the lowering emits
   arith.remsi, whose result has the sign of the dividend *)
Theorem affine_mod_refuted : exists e dims,
  aff_eval e dims [] = Some 3 /\ lower_eval e dims [] = Some (-1).
Proof. exists (AMod (ADim 0) (AConst 4)), [-1]. split; reflexivity. Qed.

Fixpoint mods_nonneg (e : aexpr) (dims syms : list Z) : Prop :=
  match e with
  | AConst _ | ADim _ | ASym _ => True
  | AAdd a b | AMul a b | AFloorDiv a b | ACeilDiv a b =>
      mods_nonneg a dims syms /\ mods_nonneg b dims syms
  | AMod a b =>
      mods_nonneg a dims syms /\ mods_nonneg b dims syms /\
      (forall x y, aff_eval a dims syms = Some x -> aff_eval b dims syms = Some y -> 0 <= x /\ 0 < y)
  end.

Theorem affine_lowering_partial : forall e dims syms, mods_nonneg e dims syms ->
  lower_eval e dims syms = aff_eval e dims syms.
Proof.
  induction e as [c|i|i|a IHa b IHb|a IHa b IHb|a IHa b IHb|a IHa b IHb|a IHa b IHb];
    intros dims syms H; cbn [lower_eval aff_eval].
  1-3: reflexivity.
  3: { destruct H as [Ha [Hb Hpos]]. rewrite (IHa _ _ Ha), (IHb _ _ Hb).
       destruct (aff_eval a dims syms) as [x|], (aff_eval b dims syms) as [y|]; try reflexivity.
       destruct (Hpos x y eq_refl eq_refl) as [Hx Hy]. cbn [op_eval].
       destruct (y =? 0); [reflexivity|]. f_equal. apply Z.rem_mod_nonneg; assumption. }
  (* the other arith ops compute the affine operation itself *)
  all: destruct H as [Ha Hb]; rewrite (IHa _ _ Ha), (IHb _ _ Hb); reflexivity.
Qed.
