(* C05/ProofsFinish.v -- the end of the parse: `finish` rebuilds an instance equivalent to the
   printed one from any final state that agrees with it and covers the format.
   The idea: let sg be the final context of the instance's own verify_defs (inst_ok).  The state holds
   a subset of the instance's types, so its verify_defs succeeds with a context below sg (ctx_le) that
   binds every constraint variable met at a non-empty slot (binds_at); the types that were not printed
   are then read off that context (infer_pos) and agree with the instance's because both lie below sg.
   pos3 P relates definitions, slots and data position by position; part_pos / o_pos / r_pos are the P
   for verification, operand resolution and result resolution. *)
From Coq Require Import ZArith String Bool Arith List Lia.
From XV Require Import C05.Model C05.Check C05.ProofsBase C05.ProofsState.
Import ListNotations.
Local Open Scope string_scope.
Local Open Scope list_scope.

Definition ctx_le (sg : Z -> option av) (ctx : ctxt) : Prop :=
  forall v t, ctx_get v ctx = Some t -> sg v = Some t.
Definition tys_ok (sg : Z -> option av) (c : tyc) (ts : list av) : Prop :=
  match c with
  | TCConst t0 => forall t, In t ts -> t = t0
  | TCVar v => forall t, In t ts -> sg v = Some t
  | _ => True
  end.

Lemma verify_tys_mono : forall c ts ctx ctx', verify_tys c ts ctx = Some ctx' ->
  forall v t, ctx_get v ctx = Some t -> ctx_get v ctx' = Some t.
Proof.
  intros c ts; induction ts as [|x r IH]; intros ctx ctx' H v t Hg; simpl in H.
  - inversion H; subst; exact Hg.
  - destruct c as [|t0|w|].
    + eapply IH; eassumption.
    + destruct (av_eqb x t0) eqn:E; [|discriminate]. eapply IH; eassumption.
    + destruct (ctx_get w ctx) as [t0|] eqn:Eg.
      * destruct (av_eqb x t0) eqn:E; [|discriminate]. eapply IH; eassumption.
      * eapply IH; [exact H|]. simpl. destruct (Z.eqb w v) eqn:Ew.
        -- apply Z.eqb_eq in Ew; subst. rewrite Eg in Hg; discriminate.
        -- exact Hg.
    + eapply IH; eassumption.
Qed.

Lemma verify_tys_sound : forall c ts ctx ctx', verify_tys c ts ctx = Some ctx' ->
  tys_ok (fun v => ctx_get v ctx') c ts.
Proof.
  intros c ts; induction ts as [|x r IH]; intros ctx ctx' H.
  - destruct c; simpl; try exact I; intros y [].
  - simpl in H. destruct c as [|t0|w|]; simpl; try exact I.
    + destruct (av_eqb x t0) eqn:E; [|discriminate]. apply av_eqb_eq in E; subst.
      intros t [Ht|Ht]; [auto|]. exact (IH _ _ H t Ht).
    + destruct (ctx_get w ctx) as [t0|] eqn:Eg.
      * destruct (av_eqb x t0) eqn:E; [|discriminate]. apply av_eqb_eq in E; subst.
        intros t [Ht|Ht]; [subst; eapply verify_tys_mono; eassumption | exact (IH _ _ H t Ht)].
      * intros t [Ht|Ht]; [subst | exact (IH _ _ H t Ht)].
        eapply verify_tys_mono; [exact H|]. simpl. rewrite Z.eqb_refl. reflexivity.
Qed.

Lemma verify_tys_complete : forall sg c ts ctx, ctx_le sg ctx -> tys_ok sg c ts ->
  exists ctx', verify_tys c ts ctx = Some ctx' /\ ctx_le sg ctx' /\
    (forall v, c = TCVar v -> ts <> [] -> exists t, ctx_get v ctx' = Some t).
Proof.
  intros sg c ts; induction ts as [|x r IH]; intros ctx Hle Hok.
  - exists ctx; simpl; repeat split; auto. intros v _ Hn; congruence.
  - simpl. destruct c as [|t0|w|].
    + destruct (IH ctx Hle I) as [c' [H1 [H2 _]]]. exists c'; repeat split; auto. intros; discriminate.
    + assert (x = t0) as -> by (apply Hok; left; reflexivity). rewrite av_eqb_refl.
      destruct (IH ctx Hle) as [c' [H1 [H2 _]]]. { intros t Ht; apply Hok; right; exact Ht. }
      exists c'; repeat split; auto. intros; discriminate.
    + assert (sg w = Some x) as Hx by (apply Hok; left; reflexivity).
      assert (tys_ok sg (TCVar w) r) as Hr by (intros t Ht; apply Hok; right; exact Ht).
      destruct (ctx_get w ctx) as [t0|] eqn:Eg.
      * pose proof (Hle _ _ Eg) as Hs. rewrite Hx in Hs; inversion Hs; subst t0. rewrite av_eqb_refl.
        destruct (IH ctx Hle Hr) as [c' [H1 [H2 _]]]. exists c'; repeat split; auto.
        intros v Hv _. inversion Hv; subst v. exists x. eapply verify_tys_mono; eassumption.
      * assert (ctx_le sg ((w, x) :: ctx)) as Hle'.
        { intros v t; simpl. destruct (Z.eqb w v) eqn:Ew.
          - apply Z.eqb_eq in Ew; subst. intro Hi; inversion Hi; subst; exact Hx.
          - apply Hle. }
        destruct (IH _ Hle' Hr) as [c' [H1 [H2 _]]]. exists c'; repeat split; auto.
        intros v Hv _. inversion Hv; subst v. exists x.
        eapply verify_tys_mono; [exact H1|]. simpl; rewrite Z.eqb_refl; reflexivity.
    + destruct (IH ctx Hle I) as [c' [H1 [H2 _]]]. exists c'; repeat split; auto. intros; discriminate.
Qed.

Inductive pos3 {A} (P : vdef -> option (list av) -> A -> Prop)
  : list vdef -> list (option (list av)) -> list A -> Prop :=
| pos3_nil : pos3 P [] [] []
| pos3_cons : forall vd o x vds os xs, P vd o x -> pos3 P vds os xs -> pos3 P (vd :: vds) (o :: os) (x :: xs).

Lemma pos3_intro : forall A (dflt : A) (P : vdef -> option (list av) -> A -> Prop) vds os xs,
  length os = length vds -> length xs = length vds ->
  (forall k vd o, nth_error vds k = Some vd -> nth_error os k = Some o -> P vd o (nth k xs dflt)) ->
  pos3 P vds os xs.
Proof.
  intros A dflt P; induction vds as [|vd r IH]; intros [|o os] [|x xs] Ho Hx H; simpl in *; try discriminate.
  - constructor.
  - constructor.
    + exact (H 0 vd o eq_refl eq_refl).
    + apply IH; [lia | lia |]. intros k vd' o' H1 H2. exact (H (S k) vd' o' H1 H2).
Qed.

Lemma verify_def_tys : forall vd ts ctx c1, verify_def vd (Some ts) ctx = Some c1 ->
  verify_tys (vd_tyc vd) ts ctx = Some c1.
Proof.
  intros vd ts ctx c1 E. unfold verify_def in E.
  destruct (vd_kind vd); [destruct ts as [|a [|b l]]; cbv iota in E; try discriminate|..]; exact E.
Qed.
Lemma verify_def_mono : forall vd o ctx ctx', verify_def vd o ctx = Some ctx' ->
  forall v t, ctx_get v ctx = Some t -> ctx_get v ctx' = Some t.
Proof.
  intros vd [ts|] ctx ctx' H v t Hg.
  - apply verify_def_tys in H. eapply verify_tys_mono; eassumption.
  - inversion H; subst; exact Hg.
Qed.
Lemma verify_defs_mono : forall vds os ctx ctx', verify_defs vds os ctx = Some ctx' ->
  forall v t, ctx_get v ctx = Some t -> ctx_get v ctx' = Some t.
Proof.
  induction vds as [|vd r IH]; intros [|o os] ctx ctx' H v t Hg; cbn [verify_defs] in H; try discriminate.
  - inversion H; subst; exact Hg.
  - destruct (verify_def vd o ctx) as [c1|] eqn:E; [|discriminate].
    eapply IH; [exact H|]. eapply verify_def_mono; eassumption.
Qed.

Lemma verify_defs_sound : forall sg vds full ctx ctxF,
  verify_defs vds (map Some full) ctx = Some ctxF -> ctx_le sg ctxF ->
  Forall2 (fun vd ts => tys_ok sg (vd_tyc vd) ts) vds full.
Proof.
  intros sg; induction vds as [|vd r IH]; intros [|ts full] ctx ctxF H Hle; cbn [verify_defs map] in H; try discriminate.
  - constructor.
  - destruct (verify_def vd (Some ts) ctx) as [c1|] eqn:E; [|discriminate].
    constructor; [|eapply IH; eassumption].
    apply verify_def_tys in E.
    pose proof (verify_tys_sound _ _ _ _ E) as Hs.
    assert (forall v t, ctx_get v c1 = Some t -> sg v = Some t) as Hc.
    { intros v t Hg. apply Hle. eapply verify_defs_mono; eassumption. }
    unfold tys_ok in *; destruct (vd_tyc vd); cbv beta iota in *; auto.
Qed.

Definition part_pos (sg : Z -> option av) (vd : vdef) (o : option (list av)) (ts : list av) : Prop :=
  (o = None \/ o = Some ts) /\ tys_ok sg (vd_tyc vd) ts /\ kind_len (vd_kind vd) (length ts).

Lemma verify_defs_partial : forall sg vds os full, pos3 (part_pos sg) vds os full ->
  forall ctx, ctx_le sg ctx ->
  exists ctx', verify_defs vds os ctx = Some ctx' /\ ctx_le sg ctx' /\
    (forall k vd ts v, nth_error vds k = Some vd -> nth_error os k = Some (Some ts) -> ts <> [] ->
       vd_tyc vd = TCVar v -> exists t, ctx_get v ctx' = Some t).
Proof.
  intros sg vds os full Hp; induction Hp as [|vd o ts vds os full [Ho [Hok Hk]] Hp IH]; intros ctx Hle.
  - exists ctx; simpl; repeat split; auto. intros [|k] ? ? ? Hn; discriminate.
  - assert (exists c1, verify_def vd o ctx = Some c1 /\ ctx_le sg c1 /\
             (forall ts' v, o = Some ts' -> ts' <> [] -> vd_tyc vd = TCVar v -> exists t, ctx_get v c1 = Some t))
      as [c1 [E [Hle1 Hb]]].
    { destruct Ho as [->| ->].
      - exists ctx; simpl; repeat split; auto. intros; discriminate.
      - destruct (verify_tys_complete sg _ ts ctx Hle Hok) as [c1 [H1 [H2 H3]]].
        exists c1; repeat split; auto.
        + unfold verify_def. destruct (vd_kind vd); simpl in Hk; [|exact H1..].
          destruct ts as [|a [|b l]]; simpl in Hk; try lia. exact H1.
        + intros ts' v Hs Hn Hv. inversion Hs; subst ts'. exact (H3 v Hv Hn). }
    destruct (IH c1 Hle1) as [c2 [E2 [Hle2 Hb2]]].
    exists c2. cbn [verify_defs]. rewrite E. repeat split; auto.
    intros [|k] vd' ts' v Hn Ho' Hne Hv; simpl in Hn, Ho'.
    + inversion Hn; subst vd'. inversion Ho'; subst o.
      destruct (Hb ts' v eq_refl Hne Hv) as [t Ht]. exists t. eapply verify_defs_mono; eassumption.
    + eapply Hb2; eassumption.
Qed.

Lemma all_eq_repeat : forall (t : av) l, (forall x, In x l -> x = t) -> l = repeat t (length l).
Proof.
  induction l as [|a r IH]; intro H; simpl; [reflexivity|].
  f_equal; [apply H; left; reflexivity | apply IH; intros x Hx; apply H; right; exact Hx].
Qed.

Definition o_pos (ctx : ctxt) (vd : vdef) (o : option (list av)) (seg : list (Z * av)) : Prop :=
  o = Some (map snd seg) \/
  (o = None /\ kind_len (vd_kind vd) (length seg) /\
   exists t, infer_one (vd_tyc vd) ctx = Some t /\ forall x, In x (map snd seg) -> x = t).

Lemma resolve_otys_ok : forall ctx vds os ops, pos3 (o_pos ctx) vds os ops ->
  resolve_otys vds (map (map fst) ops) os ctx = Some (map (map snd) ops).
Proof.
  intros ctx vds os ops Hp; induction Hp as [|vd o seg vds os ops Hpos Hp IH]; [reflexivity|].
  cbn [resolve_otys map]. rewrite IH.
  destruct Hpos as [->|[-> [Hk [t [Hi Hall]]]]]; [reflexivity|].
  assert (infer_tys vd (Some (length (map fst seg))) ctx = Some (map snd seg)) as ->; [|reflexivity].
  unfold infer_tys. rewrite Hi, map_length. apply all_eq_repeat in Hall. rewrite map_length in Hall.
  destruct (vd_kind vd); simpl in *; rewrite Hall; [rewrite Hk|..]; reflexivity.
Qed.

Definition r_pos (ctx : ctxt) (vd : vdef) (o : option (list av)) (ts : list av) : Prop :=
  o = Some ts \/
  (o = None /\ vd_kind vd = KSingle /\ exists t, infer_one (vd_tyc vd) ctx = Some t /\ ts = [t]).
Lemma resolve_rtys_ok : forall ctx vds os tss, pos3 (r_pos ctx) vds os tss -> resolve_rtys vds os ctx = Some tss.
Proof.
  intros ctx vds os tss Hp; induction Hp as [|vd o ts vds os tss Hpos Hp IH]; [reflexivity|].
  cbn [resolve_rtys]. rewrite IH.
  destruct Hpos as [->|[-> [Hk [t [Hi ->]]]]]; [reflexivity|].
  unfold infer_tys. rewrite Hk, Hi. reflexivity.
Qed.

Lemma all_some_ok : forall A (dflt : A) (l : list (option A)) full, length l = length full ->
  (forall k, k < length l -> exists x, nth_error l k = Some (Some x)) ->
  (forall k x, nth_error l k = Some (Some x) -> x = nth k full dflt) -> all_some l = Some full.
Proof.
  intros A dflt; induction l as [|o r IH]; intros [|y full] Hl Hs Ha; simpl in *; try discriminate; [reflexivity|].
  destruct (Hs 0 ltac:(lia)) as [x Hx]. simpl in Hx. inversion Hx; subst o.
  rewrite (IH full); [|lia| |].
  - simpl. f_equal. f_equal. exact (Ha 0 x eq_refl).
  - intros k Hk. destruct (Hs (S k) ltac:(lia)) as [z Hz]. exists z; exact Hz.
  - intros k z Hz. exact (Ha (S k) z Hz).
Qed.

Lemma verify_lengths_ok : forall vds (ops : list (list (Z * av))), build_sizes_ok vds ops = true ->
  verify_lengths vds (map (map fst) ops) = true.
Proof.
  induction vds as [|vd r IH]; intros [|s rs] H; simpl in *; try discriminate; auto.
  apply andb_true_iff in H; destruct H as [H1 H2]. rewrite (IH _ H2), andb_true_r, map_length.
  destruct (vd_kind vd); auto.
Qed.

Lemma combine_fst_snd : forall A B (l : list (A * B)), combine (map fst l) (map snd l) = l.
Proof. induction l as [|[a b] r IH]; simpl; [reflexivity | rewrite IH; reflexivity]. Qed.
Lemma zip_operands_ok : forall (ops : list (list (Z * av))),
  zip_operands (map (map fst) ops) (map (map snd) ops) = Some ops.
Proof.
  induction ops as [|s r IH]; simpl; [reflexivity|].
  rewrite !map_length, Nat.eqb_refl, IH, combine_fst_snd. reflexivity.
Qed.

Lemma Forall2_nth_ok : forall A B (R : A -> B -> Prop) (dflt : B) l1 l2, Forall2 R l1 l2 ->
  forall k a, nth_error l1 k = Some a -> R a (nth k l2 dflt).
Proof.
  intros A B R dflt l1 l2 H; induction H as [|a b l1 l2 Hr H IH]; intros [|k] x Hn; simpl in *; try discriminate.
  - inversion Hn; subst; exact Hr.
  - apply IH; exact Hn.
Qed.

Lemma seq0_In : forall n k, In k (seq0 n) <-> k < n.
Proof.
  induction n as [|n IH]; intro k; simpl; [split; [tauto | lia]|].
  rewrite in_app_iff, IH; simpl. lia.
Qed.

Lemma top_all : forall f e, In e (top_elems f) -> In e (all_elems f).
Proof.
  intros f e H. unfold top_elems in H; unfold all_elems. apply in_flat_map in H. apply in_flat_map.
  destruct H as [x [Hx He]]. exists x; split; [exact Hx|]. destruct x; [exact He | destruct He].
Qed.

Lemma fill_lookup_some : forall defs dct n a,
  lookup n dct = Some a -> lookup n (fill_defaults defs dct) = Some a.
Proof.
  induction defs as [|x r IH]; intros dct n a H; simpl; [exact H|].
  pose proof (IH dct n a H) as H'.
  destruct (lookup (ad_name x) (fill_defaults r dct)) eqn:E; [exact H'|].
  destruct (ad_optional x); [exact H'|]. destruct (ad_default x) as [v|]; [|exact H'].
  simpl. destruct (String.eqb (ad_name x) n) eqn:En; [|exact H'].
  apply String.eqb_eq in En; subst. rewrite E in H'; discriminate.
Qed.

Lemma fill_lookup_new : forall defs dct n v,
  lookup n dct = None -> lookup n (fill_defaults defs dct) = Some v ->
  exists a, In a defs /\ ad_name a = n /\ ad_optional a = false /\ ad_default a = Some v.
Proof.
  induction defs as [|x r IH]; intros dct n v Hn H; simpl in H; [rewrite Hn in H; discriminate|].
  assert (lookup n (fill_defaults r dct) = Some v ->
          exists a, In a (x :: r) /\ ad_name a = n /\ ad_optional a = false /\ ad_default a = Some v) as Hrec.
  { intro H'. destruct (IH dct n v Hn H') as [a [Hin Ha]]. exists a; split; [right; exact Hin | exact Ha]. }
  destruct (lookup (ad_name x) (fill_defaults r dct)) eqn:E; [exact (Hrec H)|].
  destruct (ad_optional x) eqn:Eo; [exact (Hrec H)|].
  destruct (ad_default x) as [w|] eqn:Ed; [|exact (Hrec H)].
  simpl in H. destruct (String.eqb (ad_name x) n) eqn:En; [|exact (Hrec H)].
  apply String.eqb_eq in En. inversion H; subst w. exists x; repeat split; auto. left; reflexivity.
Qed.

Lemma nodup_name_inj : forall (l : list adef) a b,
  NoDup (map ad_name l) -> In a l -> In b l -> ad_name a = ad_name b -> a = b.
Proof.
  induction l as [|x r IH]; intros a b Hnd Ha Hb He; simpl in *; [tauto|].
  inversion Hnd as [|? ? Hnotin Hnd']; subst.
  destruct Ha as [Ha|Ha], Hb as [Hb|Hb]; subst; auto.
  - exfalso; apply Hnotin. rewrite He. apply in_map; exact Hb.
  - exfalso; apply Hnotin. rewrite <- He. apply in_map; exact Ha.
Qed.

Lemma dict_equiv : forall defs pd idct,
  NoDup (map ad_name defs) ->
  (forall a, In a defs -> adef_inst_ok idct a = true) ->
  (forall n a, lookup n pd = Some a -> lookup n idct = Some a) ->
  (forall n a, lookup n idct = Some a ->
     lookup n pd = Some a \/ is_default a (adef_default defs n) = true) ->
  forall n, lookup_def defs (fill_defaults defs pd) n = lookup_def defs idct n.
Proof.
  intros defs pd idct Hnd Hreq Hag Hcov n. unfold lookup_def.
  destruct (lookup n pd) as [a|] eqn:Ep.
  - rewrite (fill_lookup_some defs pd n a Ep), (Hag n a Ep). reflexivity.
  - destruct (lookup n (fill_defaults defs pd)) as [v|] eqn:Ef.
    + destruct (fill_lookup_new defs pd n v Ep Ef) as [x [Hin [Hname [Hopt Hdef]]]].
      destruct (lookup n idct) as [a|] eqn:Ei.
      * destruct (Hcov n a Ei) as [Hc|Hc]; [rewrite Ep in Hc; discriminate|].
        apply is_default_eq in Hc. unfold adef_default in Hc.
        destruct (find_adef n defs) as [y|] eqn:Efd; [|discriminate].
        unfold find_adef in Efd. apply find_some in Efd. destruct Efd as [Hy Hyn].
        apply String.eqb_eq in Hyn.
        assert (x = y) as -> by (apply (nodup_name_inj defs); auto; congruence).
        congruence.
      * pose proof (Hreq x Hin) as Hr. unfold adef_inst_ok in Hr.
        rewrite Hname, Ei, Hopt in Hr. discriminate.
    + destruct (lookup n idct) as [a|] eqn:Ei; [|reflexivity].
      destruct (Hcov n a Ei) as [Hc|Hc]; [rewrite Ep in Hc; discriminate|].
      apply is_default_eq in Hc. exact Hc.
Qed.

Lemma inst_ok_verify : forall d i, IOK d i ->
  exists ctx1 ctxF,
    verify_defs (od_operands d) (map Some (map (map snd) (i_operands i))) [] = Some ctx1 /\
    verify_defs (od_results d) (map Some (i_results i)) ctx1 = Some ctxF.
Proof.
  intros d i Hio. pose proof (io_ver d i Hio) as H. rewrite map_map.
  destruct (verify_defs (od_operands d) _ []) as [c1|]; [|discriminate].
  destruct (verify_defs (od_results d) _ c1) as [cF|] eqn:E; [|discriminate].
  exists c1, cF; split; [reflexivity | exact E].
Qed.

Definition res_src (s : src) : bool := match s with SResult _ | SResults => true | _ => false end.
(* functional-type(a, b) at top level takes operands on the left and results on the right *)
Definition funty_shape (f : format) : Prop :=
  forall a b, In (EFunTy a b) (top_elems f) -> vals_src a = true /\ res_src b = true.

Lemma dirs_ok_funty_shape : forall d f, dirs_ok d f = true -> funty_shape f.
Proof.
  intros d f H a b Hin. unfold dirs_ok in H. rewrite forallb_forall in H.
  unfold top_elems in Hin. apply in_flat_map in Hin. destruct Hin as [x [Hx He]].
  specialize (H x Hx). destruct x as [e|an fe ts]; [|destruct He].
  destruct He as [He|[]]; subst e. simpl in H.
  repeat (apply andb_true_iff in H; destruct H as [H ?]).
  split; assumption.
Qed.

Lemma bind_pos_inv : forall (vds : list vdef) j v,
  match nth_error vds j with
  | Some (mkVdef KSingle (TCVar v')) => Z.eqb v v'
  | _ => false
  end = true -> nth_error vds j = Some (mkVdef KSingle (TCVar v)).
Proof.
  intros vds j v H. destruct (nth_error vds j) as [[k c]|]; [|discriminate].
  destruct k; try discriminate. destruct c; try discriminate.
  apply Z.eqb_eq in H; subst; reflexivity.
Qed.

Lemma binds_var_cases : forall d v e,
  (forall a b, e = EFunTy a b -> vals_src a = true /\ res_src b = true) ->
  binds_var d v e = true ->
  (exists j, nth_error (od_operands d) j = Some (mkVdef KSingle (TCVar v)) /\ sets_otys j e = true) \/
  (exists j, nth_error (od_results d) j = Some (mkVdef KSingle (TCVar v)) /\ sets_rtys j e = true).
Proof.
  intros d v e Hsh H. destruct e as [| |s|s|a b|]; simpl in H; try discriminate.
  - destruct s as [j|j| |]; try discriminate; [left|right]; exists j;
      (split; [apply bind_pos_inv; exact H | simpl; apply Nat.eqb_refl]).
  - destruct (Hsh a b eq_refl) as [Ha Hb]. apply orb_true_iff in H. destruct H as [H|H].
    + destruct a as [j|j| |]; try discriminate. left; exists j.
      split; [apply bind_pos_inv; exact H | simpl; apply Nat.eqb_refl].
    + destruct b as [j|j| |]; try discriminate. right; exists j.
      split; [apply bind_pos_inv; exact H|]. simpl. destruct a; apply Nat.eqb_refl.
Qed.

Lemma coverage_parts : forall d f, coverage_ok d f = true ->
  (forall k, k < length (od_operands d) -> existsb (sets_vals k) (all_elems f) = true) /\
  (forall k, k < length (od_operands d) ->
     existsb (sets_otys k) (all_elems f) = true \/
     inferable d f (nth k (od_operands d) (mkVdef KSingle TCAny)) = true) /\
  (forall k, k < length (od_results d) ->
     existsb (sets_rtys k) (all_elems f) = true \/
     (vd_kind (nth k (od_results d) (mkVdef KVar TCAny)) = KSingle /\
      inferable d f (nth k (od_results d) (mkVdef KVar TCAny)) = true)).
Proof.
  intros d f H. unfold coverage_ok in H.
  apply andb_true_iff in H; destruct H as [H H3]. apply andb_true_iff in H; destruct H as [H1 H2].
  rewrite forallb_forall in H1, H2, H3. repeat split.
  - intros k Hk. apply H1. apply seq0_In; exact Hk.
  - intros k Hk. apply orb_true_iff. apply H2. apply seq0_In; exact Hk.
  - intros k Hk. specialize (H3 k (proj2 (seq0_In _ _) Hk)). apply orb_true_iff in H3.
    destruct H3 as [H3|H3]; [left; exact H3|right].
    apply andb_true_iff in H3; destruct H3 as [Hs Hi]. split; [|exact Hi].
    destruct (vd_kind (nth k (od_results d) (mkVdef KVar TCAny))); try discriminate; reflexivity.
Qed.

Definition binds_at (vds : list vdef) (os : list (option (list av))) (c : ctxt) : Prop :=
  forall k vd ts v, nth_error vds k = Some vd -> nth_error os k = Some (Some ts) -> ts <> [] ->
    vd_tyc vd = TCVar v -> exists t, ctx_get v c = Some t.

Lemma part_pos_intro : forall sg vds os (full : list (list av)),
  length os = length vds -> build_sizes_ok vds full = true ->
  (forall k ts, nth_error os k = Some (Some ts) -> ts = nth k full []) ->
  Forall2 (fun vd ts => tys_ok sg (vd_tyc vd) ts) vds full ->
  pos3 (part_pos sg) vds os full.
Proof.
  intros sg vds os full Hl Hb Hag Hty.
  apply (pos3_intro _ []); [exact Hl | exact (build_sizes_length _ _ _ Hb) |].
  intros k vd o Hn Ho. split; [|split].
  - destruct o as [ts|]; [right|left; reflexivity]. f_equal. exact (Hag k ts Ho).
  - exact (Forall2_nth_ok _ _ _ [] _ _ Hty k vd Hn).
  - exact (build_sizes_nth _ _ _ k vd Hb Hn).
Qed.

Lemma finish_verify : forall d i st, IOK d i -> agree d i st ->
  exists sg c1 c2,
    verify_defs (od_operands d) (p_otys st) [] = Some c1 /\
    verify_defs (od_results d) (p_rtys st) c1 = Some c2 /\
    ctx_le sg c2 /\
    Forall2 (fun vd ts => tys_ok sg (vd_tyc vd) ts) (od_operands d) (map (map snd) (i_operands i)) /\
    Forall2 (fun vd ts => tys_ok sg (vd_tyc vd) ts) (od_results d) (i_results i) /\
    binds_at (od_operands d) (p_otys st) c2 /\
    binds_at (od_results d) (p_rtys st) c2.
Proof.
  intros d i st IO Hag.
  destruct (inst_ok_verify d i IO) as [x1 [xF [V1 V2]]].
  set (sg := fun v => ctx_get v xF).
  assert (ctx_le sg xF) as LF by (intros v t Hg; exact Hg).
  assert (ctx_le sg x1) as L1 by (intros v t Hg; unfold sg; eapply verify_defs_mono; eassumption).
  pose proof (verify_defs_sound sg _ _ _ _ V1 L1) as SO.
  pose proof (verify_defs_sound sg _ _ _ _ V2 LF) as SR.
  assert (pos3 (part_pos sg) (od_operands d) (p_otys st) (map (map snd) (i_operands i))) as PO.
  { apply part_pos_intro; [exact (ag_len_o d i st Hag) | exact (build_sizes_map _ _ _ _ _ (io_osz d i IO)) | | exact SO].
    intros k ts Ho. rewrite nth_map_nil. exact (ag_o d i st Hag k ts Ho). }
  assert (pos3 (part_pos sg) (od_results d) (p_rtys st) (i_results i)) as PR
    by (apply part_pos_intro; [exact (ag_len_r d i st Hag) | exact (io_rsz d i IO) | exact (ag_r d i st Hag) | exact SR]).
  assert (ctx_le sg []) as L0 by (intros v t Hg; discriminate).
  destruct (verify_defs_partial sg _ _ _ PO [] L0) as [c1 [E1 [Le1 B1]]].
  destruct (verify_defs_partial sg _ _ _ PR c1 Le1) as [c2 [E2 [Le2 B2]]].
  exists sg, c1, c2. split; [exact E1|]. split; [exact E2|]. split; [exact Le2|].
  split; [exact SO|]. split; [exact SR|]. split; [|exact B2].
  intros k vd ts v Hn Ho Hne Hv. destruct (B1 k vd ts v Hn Ho Hne Hv) as [t Ht].
  exists t. eapply verify_defs_mono; eassumption.
Qed.

Lemma bound_var : forall d f i st c2,
  IOK d i -> agree d i st -> final_cov d f i st -> funty_shape f ->
  binds_at (od_operands d) (p_otys st) c2 -> binds_at (od_results d) (p_rtys st) c2 ->
  forall v e, In e (top_elems f) -> binds_var d v e = true -> exists t, ctx_get v c2 = Some t.
Proof.
  intros d f i st c2 IO Hag Hcov Hsh B1 B2 v e Hin Hb.
  destruct Hcov as [_ [F2 [F3 _]]].
  assert (forall a b, e = EFunTy a b -> vals_src a = true /\ res_src b = true) as Hshe.
  { intros a b ->. exact (Hsh a b Hin). }
  assert (forall g, g e = true -> existsb g (all_elems f) = true) as Hex.
  { intros g Hg. apply existsb_exists. exists e; split; [apply top_all; exact Hin | exact Hg]. }
  destruct (binds_var_cases d v e Hshe Hb) as [[j [Hn Hs]]|[j [Hn Hs]]].
  - assert (j < length (od_operands d)) as Hj by (apply nth_error_Some; rewrite Hn; discriminate).
    destruct (F2 j Hj (Hex _ Hs)) as [ts Hts].
    apply (B1 j _ ts v Hn Hts); [|reflexivity].
    rewrite (ag_o d i st Hag j ts Hts). unfold otys_of.
    pose proof (build_sizes_nth _ _ _ j _ (io_osz d i IO) Hn) as Hk. simpl in Hk.
    destruct (nth j (i_operands i) []); simpl in *; [lia|discriminate].
  - assert (j < length (od_results d)) as Hj by (apply nth_error_Some; rewrite Hn; discriminate).
    destruct (F3 j Hj (Hex _ Hs)) as [ts Hts].
    apply (B2 j _ ts v Hn Hts); [|reflexivity].
    rewrite (ag_r d i st Hag j ts Hts). unfold rtys_of.
    pose proof (build_sizes_nth _ _ _ j _ (io_rsz d i IO) Hn) as Hk. simpl in Hk.
    destruct (nth j (i_results i) []); simpl in *; [lia|discriminate].
Qed.

Lemma infer_pos : forall d f i st sg c2 vd (ts : list av),
  IOK d i -> agree d i st -> final_cov d f i st -> funty_shape f ->
  binds_at (od_operands d) (p_otys st) c2 -> binds_at (od_results d) (p_rtys st) c2 -> ctx_le sg c2 ->
  inferable d f vd = true -> tys_ok sg (vd_tyc vd) ts ->
  exists t, infer_one (vd_tyc vd) c2 = Some t /\ forall x, In x ts -> x = t.
Proof.
  intros d f i st sg c2 vd ts Hok Hag Hcov Hsh B1 B2 Hle Hinf Hty.
  unfold inferable in Hinf. unfold tys_ok in Hty. destruct (vd_tyc vd) as [|t0|v|]; try discriminate.
  - exists t0; split; [reflexivity | exact Hty].
  - apply existsb_exists in Hinf. destruct Hinf as [e [Hin Hb]].
    destruct (bound_var d f i st c2 Hok Hag Hcov Hsh B1 B2 v e Hin Hb) as [t Ht].
    exists t; split; [exact Ht|]. intros x Hx.
    pose proof (Hty x Hx) as H1. pose proof (Hle v t Ht) as H2. congruence.
Qed.

Lemma finish_ok : forall d f i st,
  NoDup (map ad_name (od_props d)) -> NoDup (map ad_name (od_attrs d)) -> funty_shape f ->
  IOK d i -> coverage_ok d f = true -> agree d i st -> final_cov d f i st ->
  exists i', finish d st = Some i' /\ inst_equiv d i' i.
Proof.
  intros d f i st Np Na Hsh IO Hcv Hag Hcov.
  destruct (coverage_parts d f Hcv) as [C1 [C2 C3]].
  destruct (finish_verify d i st IO Hag) as [sg [c1 [c2 [E1 [E2 [Le [SO [SR [B1 B2]]]]]]]]].
  pose proof (build_sizes_length _ _ _ (io_osz d i IO)) as Lo.
  pose proof (build_sizes_length _ _ _ (io_rsz d i IO)) as Lr.
  pose proof Hcov as [F1 [F2 [F3 [F4 F5]]]].
  assert (all_some (p_vals st) = Some (map (map fst) (i_operands i))) as HV.
  { apply (all_some_ok _ []).
    - rewrite map_length, Lo. apply (ag_len_v d i st Hag).
    - intros k Hk. rewrite (ag_len_v d i st Hag) in Hk. exact (F1 k Hk (C1 k Hk)).
    - intros k x Hx. rewrite nth_map_nil. exact (ag_v d i st Hag k x Hx). }
  assert (pos3 (o_pos c2) (od_operands d) (p_otys st) (i_operands i)) as PO.
  { apply (pos3_intro _ []); [apply (ag_len_o d i st Hag) | exact Lo |].
    intros k vd o Hn Ho. unfold o_pos. destruct o as [ts|].
    - left. f_equal. exact (ag_o d i st Hag k ts Ho).
    - right. split; [reflexivity|]. split; [exact (build_sizes_nth _ _ _ k vd (io_osz d i IO) Hn)|].
      assert (k < length (od_operands d)) as Hk by (apply nth_error_Some; rewrite Hn; discriminate).
      assert (inferable d f vd = true) as Hi.
      { destruct (C2 k Hk) as [Hs|Hi].
        - destruct (F2 k Hk Hs) as [ts Hts]. rewrite Ho in Hts; discriminate.
        - erewrite nth_error_nth in Hi; [|exact Hn]. exact Hi. }
      assert (tys_ok sg (vd_tyc vd) (map snd (nth k (i_operands i) []))) as Hty.
      { rewrite <- nth_map_nil. exact (Forall2_nth_ok _ _ _ [] _ _ SO k vd Hn). }
      exact (infer_pos d f i st sg c2 vd _ IO Hag Hcov Hsh B1 B2 Le Hi Hty). }
  assert (pos3 (r_pos c2) (od_results d) (p_rtys st) (i_results i)) as PR.
  { apply (pos3_intro _ []); [apply (ag_len_r d i st Hag) | exact Lr |].
    intros k vd o Hn Ho. unfold r_pos. destruct o as [ts|].
    - left. f_equal. exact (ag_r d i st Hag k ts Ho).
    - right. split; [reflexivity|].
      assert (k < length (od_results d)) as Hk by (apply nth_error_Some; rewrite Hn; discriminate).
      destruct (C3 k Hk) as [Hs|[Hki Hi]].
      { destruct (F3 k Hk Hs) as [ts Hts]. rewrite Ho in Hts; discriminate. }
      erewrite nth_error_nth in Hki; [|exact Hn]. erewrite nth_error_nth in Hi; [|exact Hn].
      split; [exact Hki|].
      assert (tys_ok sg (vd_tyc vd) (nth k (i_results i) [])) as Hty
        by exact (Forall2_nth_ok _ _ _ [] _ _ SR k vd Hn).
      destruct (infer_pos d f i st sg c2 vd _ IO Hag Hcov Hsh B1 B2 Le Hi Hty) as [t [Ht Hall]].
      exists t; split; [exact Ht|].
      pose proof (build_sizes_nth _ _ _ k vd (io_rsz d i IO) Hn) as Hl. rewrite Hki in Hl. simpl in Hl.
      destruct (nth k (i_results i) []) as [|a [|b l]]; simpl in Hl; try lia.
      f_equal. apply Hall. left; reflexivity. }
  exists (mkInst (i_operands i) (i_results i) (fill_defaults (od_props d) (p_props st))
                 (fill_defaults (od_attrs d) (p_attrs st))).
  split.
  - unfold finish. rewrite HV. cbv beta iota.
    rewrite (verify_lengths_ok _ _ (io_osz d i IO)). cbn [negb]. cbv beta iota.
    rewrite E1. cbv beta iota. rewrite E2. cbv beta iota.
    rewrite (resolve_otys_ok _ _ _ _ PO), (resolve_rtys_ok _ _ _ _ PR). cbv beta iota.
    rewrite zip_operands_ok. cbv beta iota.
    rewrite (io_osz d i IO), (io_rsz d i IO). reflexivity.
  - unfold inst_equiv; cbn [i_operands i_results i_props i_attrs].
    split; [reflexivity|]. split; [reflexivity|]. split.
    + apply dict_equiv; [exact Np | exact (io_pdef d i IO) | exact (ag_p d i st Hag) | exact F4].
    + apply dict_equiv; [exact Na | exact (io_adef d i IO) | exact (ag_a d i st Hag) | exact F5].
Qed.

Print Assumptions finish_ok.
