(* C11/ProofsInv.v -- use-def consistency of the heap model: the invariant
     U  every use names a live user,   K  a use (s,i) of v means operand i of s is v,   N  use lists have no duplicates
   is preserved by the primitives of C11/IR.v (the users half of Proofs.InvLaws). *)
From Coq Require Import List Arith Bool ZArith Lia.
From XV Require Import C11.Model C11.IR C11.Proofs C11.ProofsEv C11.ProofsLive.
Import ListNotations.

Record UInv (c : cir) : Prop := {
  ui_U : forall v u, In u (g_uses c v) -> In (fst u) (g_alive c);
  ui_K : forall v s i, In (s, i) (g_uses c v) -> nth_error (g_operands c s) i = Some (OVal v);
  ui_N : forall v, NoDup (g_uses c v)
}.

Definition uses_shrink (c c' : cir) : Prop :=
  forall v, (forall u, In u (g_uses c' v) -> In u (g_uses c v)) /\ (NoDup (g_uses c v) -> NoDup (g_uses c' v)).

(* the K and N clauses alone: they survive where U does not, half-way through erase *)
Definition KN (c : cir) : Prop :=
  (forall v s i, In (s, i) (g_uses c v) -> nth_error (g_operands c s) i = Some (OVal v)) /\
  (forall v, NoDup (g_uses c v)).

Lemma kn_shrink c c' :
  (forall o, g_operands c' o = g_operands c o) -> uses_shrink c c' -> KN c -> KN c'.
Proof.
  intros Ho Hs [K N]. split.
  - intros v s i H. rewrite Ho. apply K. apply (Hs v). exact H.
  - intros v. apply (Hs v). apply N.
Qed.

Lemma uinv_shrink c c' :
  (forall o, g_operands c' o = g_operands c o) -> nokill c c' -> uses_shrink c c' -> UInv c -> UInv c'.
Proof.
  intros Ho Hk Hs [U K N]. destruct (kn_shrink c c' Ho Hs (conj K N)) as [K' N'].
  split; [|exact K' | exact N']. intros v u Hu. apply Hk. apply (U v). apply (Hs v). exact Hu.
Qed.

Lemma operands_ops_eq c c' : c_ops c' = c_ops c -> forall o, g_operands c' o = g_operands c o.
Proof. intros E o. unfold g_operands. rewrite E. reflexivity. Qed.
Lemma uses_vals_eq c c' : c_vals c' = c_vals c -> uses_shrink c c'.
Proof. intros E v. unfold g_uses. rewrite E. split; auto. Qed.

Lemma vals_upd_blk c b f : c_vals (upd_blk c b f) = c_vals c.
Proof. unfold upd_blk. destruct (aget (c_blks c) b); reflexivity. Qed.
Lemma vals_upd_reg c g f : c_vals (upd_reg c g f) = c_vals c.
Proof. unfold upd_reg. destruct (aget (c_regs c) g); reflexivity. Qed.
Lemma vals_upd_op c o f : c_vals (upd_op c o f) = c_vals c.
Proof. unfold upd_op. destruct (aget (c_ops c) o); reflexivity. Qed.
Lemma vals_fold {A} (step : cir -> A -> cir) (l : list A) :
  (forall c x, c_vals (step c x) = c_vals c) -> forall c, c_vals (fold_left step l c) = c_vals c.
Proof. induction l as [|x l IH]; simpl; intros H c; auto. rewrite IH; auto. Qed.
Lemma vals_place_blocks c bs tgt : c_vals (place_blocks c bs tgt) = c_vals c.
Proof.
  unfold place_blocks. destruct tgt as [g before].
  rewrite vals_fold; [apply vals_upd_reg|]. intros; apply vals_upd_blk.
Qed.

Lemma uses_shrink_refl c : uses_shrink c c.
Proof. intros v; split; auto. Qed.
Lemma uses_shrink_trans c c1 c2 : uses_shrink c c1 -> uses_shrink c1 c2 -> uses_shrink c c2.
Proof.
  intros H1 H2 v. destruct (H1 v) as [A1 B1]. destruct (H2 v) as [A2 B2]. split; auto.
Qed.

(* allocating values: a (possibly overwritten) value record starts with no uses *)
Lemma uses_alloc_vals tys : forall c ow, uses_shrink c (fst (alloc_vals c ow tys)).
Proof.
  induction tys as [|t r IH]; simpl; intros c ow; [apply uses_shrink_refl|].
  set (c1 := with_next (with_vals c (aset (c_vals c) (c_next c) {| v_type := t; v_owner := ow; v_uses := [] |})) (S (c_next c))).
  specialize (IH c1 ow). destruct (alloc_vals c1 ow r) as [c2 vs]. simpl in *.
  eapply uses_shrink_trans; [|exact IH].
  intros v. unfold g_uses, c1. simpl. rewrite aget_aset.
  destruct (Nat.eqb v (c_next c)); simpl; split; auto; try (intros u []); intros; constructor.
Qed.

Lemma uinv_move_region o k c : UInv c -> UInv (cp_move_region o k c).
Proof.
  apply uinv_shrink.
  - apply operands_ops_eq, ops_move_region.
  - apply nokill_ops_eq, ops_move_region.
  - apply uses_vals_eq. unfold cp_move_region. destruct (nth_error (g_regions c o) k); auto.
    simpl. rewrite vals_fold; [|intros; apply vals_upd_blk]. rewrite !vals_upd_reg. reflexivity.
Qed.
Lemma uinv_inline_region o k bp c : UInv c -> UInv (cp_inline_region o k bp c).
Proof.
  apply uinv_shrink.
  - apply operands_ops_eq, ops_inline_region.
  - apply nokill_ops_eq, ops_inline_region.
  - apply uses_vals_eq. unfold cp_inline_region. destruct (nth_error (g_regions c o) k); auto.
    destruct (bp_target c bp); auto. rewrite vals_place_blocks, vals_upd_reg. reflexivity.
Qed.
Lemma uses_mk_block c id tys : uses_shrink c (mk_block c id tys).
Proof.
  unfold mk_block. pose proof (uses_alloc_vals tys c (VOBlock id)) as H.
  destruct (alloc_vals c (VOBlock id) tys) as [c1 vs]. simpl in H.
  eapply uses_shrink_trans; [exact H|]. apply uses_vals_eq. reflexivity.
Qed.
Lemma uinv_create_block id bp tys c : UInv c -> UInv (cp_create_block id bp tys c).
Proof.
  apply uinv_shrink.
  - apply operands_ops_eq, ops_create_block.
  - apply nokill_ops_eq, ops_create_block.
  - unfold cp_create_block. destruct (bp_target c bp); [|apply uses_shrink_refl].
    eapply uses_shrink_trans; [apply uses_mk_block|]. apply uses_vals_eq, vals_place_blocks.
Qed.
Lemma uinv_insert_arg b idx ty c : UInv c -> UInv (cp_insert_arg b idx ty c).
Proof.
  apply uinv_shrink.
  - apply operands_ops_eq, ops_insert_arg.
  - apply nokill_ops_eq, ops_insert_arg.
  - unfold cp_insert_arg. pose proof (uses_alloc_vals [ty] c (VOBlock b)) as H.
    destruct (alloc_vals c (VOBlock b) [ty]) as [c1 vs]. simpl in H.
    eapply uses_shrink_trans; [exact H|]. apply uses_vals_eq, vals_upd_blk.
Qed.
Lemma operands_upd_op_pres c k f :
  (forall r, o_operands (f r) = o_operands r) -> forall o, g_operands (upd_op c k f) o = g_operands c o.
Proof.
  intros Hf o. unfold g_operands. rewrite table_upd_op, aget_aupd.
  destruct (Nat.eqb o k) eqn:E; [|reflexivity]. apply Nat.eqb_eq in E. subst o.
  destruct (aget (c_ops c) k); simpl; [apply Hf | reflexivity].
Qed.
Lemma uinv_bump o c : UInv c -> UInv (cp_bump o c).
Proof.
  apply uinv_shrink.
  - intros x. unfold cp_bump. destruct (aget (c_ops c) o) as [r|]; auto. destruct (o_dead r); auto.
    apply operands_upd_op_pres. reflexivity.
  - apply (proj2 (frame_bump o c)).
  - apply uses_vals_eq. unfold cp_bump. destruct (aget (c_ops c) o) as [r|]; auto. destruct (o_dead r); auto.
    apply vals_upd_op.
Qed.
Lemma uinv_retype v ty c : UInv c -> UInv (cp_retype v ty c).
Proof.
  apply uinv_shrink.
  - apply operands_ops_eq, ops_upd_val.
  - apply nokill_ops_eq, ops_upd_val.
  - intros w. unfold cp_retype. rewrite uses_upd_val. destruct (Nat.eqb w v) eqn:Ew; [|split; auto].
    apply Nat.eqb_eq in Ew. subst w. unfold g_uses. destruct (aget (c_vals c) v); simpl; [|split; auto].
    split; [intros u Hu; apply in_rev; exact Hu | apply NoDup_rev].
Qed.

Lemma use_eqb_eq a b : use_eqb a b = true <-> a = b.
Proof.
  unfold use_eqb. rewrite andb_true_iff, !Nat.eqb_eq. destruct a, b; simpl. split.
  - intros [-> ->]. reflexivity.
  - intros H. inversion H. auto.
Qed.
Lemma remove_use_l_in u l x : In x (remove_use_l u l) -> In x l.
Proof.
  induction l as [|y l IH]; simpl; auto. destruct (use_eqb u y); simpl; auto.
  intros [H|H]; auto.
Qed.
Lemma remove_use_l_keep u l x : In x l -> x <> u -> In x (remove_use_l u l).
Proof.
  induction l as [|y l IH]; simpl; auto. intros [->|H] Hne.
  - destruct (use_eqb u x) eqn:E; [apply use_eqb_eq in E; congruence | left; reflexivity].
  - destruct (use_eqb u y); [exact H | right; auto].
Qed.
Lemma remove_use_l_nodup u l : NoDup l -> NoDup (remove_use_l u l) /\ ~ In u (remove_use_l u l).
Proof.
  induction l as [|y l IH]; simpl; intros H; [split; [constructor | intros []]|].
  inversion H; subst. destruct (IH H3) as [A B].
  destruct (use_eqb u y) eqn:E.
  - apply use_eqb_eq in E. subst. auto.
  - split.
    + constructor; auto. intro Hy. apply H2. eapply remove_use_l_in; eauto.
    + intros [Hy|Hy]; [subst; rewrite (proj2 (use_eqb_eq u u) eq_refl) in E; discriminate | auto].
Qed.

Lemma uses_add_use_in c t u w x :
  In x (g_uses (add_use c t u) w) -> (w = t /\ x = u) \/ In x (g_uses c w).
Proof.
  unfold add_use. rewrite uses_upd_val. destruct (Nat.eqb w t) eqn:E; auto.
  apply Nat.eqb_eq in E. subst. unfold g_uses. destruct (aget (c_vals c) t); simpl; [|intros []].
  intros [<-|H]; auto.
Qed.
Lemma uses_add_use_nodup c t u w :
  NoDup (g_uses c w) -> (w = t -> ~ In u (g_uses c t)) -> NoDup (g_uses (add_use c t u) w).
Proof.
  intros Hn Hu. unfold add_use. rewrite uses_upd_val. destruct (Nat.eqb w t) eqn:E; auto.
  apply Nat.eqb_eq in E. subst. unfold g_uses in *. destruct (aget (c_vals c) t); simpl; [|constructor].
  constructor; auto.
Qed.
Lemma uses_set_operand' c u x w : g_uses (set_operand c u x) w = g_uses c w.
Proof. apply uses_set_operand. Qed.

Lemma operands_set_operand c u x o :
  g_operands (set_operand c u x) o =
  if Nat.eqb o (fst u) then set_nth (snd u) x (g_operands c (fst u)) else g_operands c o.
Proof.
  unfold set_operand, g_operands. rewrite table_upd_op, aget_aupd.
  destruct (Nat.eqb o (fst u)); [|reflexivity].
  destruct (aget (c_ops c) (fst u)); [reflexivity | destruct (snd u); reflexivity].
Qed.
Lemma nth_error_set_nth {A} (l : list A) : forall i x j,
  nth_error (set_nth i x l) j =
  if Nat.eqb j i then (match nth_error l i with Some _ => Some x | None => None end) else nth_error l j.
Proof.
  induction l as [|y l IH]; intros i x j.
  - simpl. destruct i, j; simpl; auto; try (destruct (Nat.eqb j i); reflexivity).
  - destruct i, j; simpl; auto.
Qed.
Lemma operands_remove_use c v u o : g_operands (remove_use c v u) o = g_operands c o.
Proof. apply operands_ops_eq, ops_remove_use. Qed.
Lemma operands_add_use c v u o : g_operands (add_use c v u) o = g_operands c o.
Proof. apply operands_ops_eq, ops_add_use. Qed.

(* The use u of v is redirected to x: the operand is overwritten, u leaves the use list of v and,
   when x is a value t, joins the list of t (OpOperands.__setitem__); x = ErasedSSAValue is one step
   of SSAValue.erase. *)
Definition detach (v : value) (x : operand) (c : cir) (u : op * nat) : cir :=
  remove_use (set_operand c u x) v u.
Definition redirect (v : value) (x : operand) (c : cir) (u : op * nat) : cir :=
  match x with OVal t => add_use (detach v x c u) t u | OErased => detach v x c u end.

Lemma uses_detach v x c u w :
  g_uses (detach v x c u) w = if Nat.eqb w v then remove_use_l u (g_uses c v) else g_uses c w.
Proof. unfold detach. rewrite uses_remove_use, !uses_set_operand. reflexivity. Qed.

Lemma detach_others v x c u w y :
  In u (g_uses c v) -> UInv c -> In y (g_uses (detach v x c u) w) -> In y (g_uses c w) /\ y <> u.
Proof.
  intros Hu [U K N] Hy. rewrite uses_detach in Hy. destruct (Nat.eqb w v) eqn:E.
  - apply Nat.eqb_eq in E. subst w. split; [eapply remove_use_l_in; eauto|].
    intros ->. exact (proj2 (remove_use_l_nodup u _ (N v)) Hy).
  - split; [exact Hy|]. intros ->. destruct u as [s i]. apply Nat.eqb_neq in E.
    pose proof (K v s i Hu) as Kv. rewrite (K w s i Hy) in Kv. congruence.
Qed.

Lemma uinv_redirect v x c u :
  x <> OVal v -> In u (g_uses c v) -> UInv c ->
  UInv (redirect v x c u) /\ g_uses (redirect v x c u) v = remove_use_l u (g_uses c v).
Proof.
  intros Hx Hu Hi. pose proof Hi as [U K N]. destruct u as [s0 i0]. pose proof (K v s0 i0 Hu) as Ku.
  assert (Hn1 : forall w, NoDup (g_uses (detach v x c (s0, i0)) w)).
  { intros w. rewrite uses_detach. destruct (Nat.eqb w v); [apply remove_use_l_nodup|]; apply N. }
  assert (Huses : forall w y, In y (g_uses (redirect v x c (s0, i0)) w) ->
                  (x = OVal w /\ y = (s0, i0)) \/ (In y (g_uses c w) /\ y <> (s0, i0))).
  { intros w y Hy. unfold redirect in Hy. destruct x as [t|]; [|right; exact (detach_others _ _ _ _ _ _ Hu Hi Hy)].
    apply uses_add_use_in in Hy.
    destruct Hy as [[-> ->]|Hy]; [left; auto | right; exact (detach_others _ _ _ _ _ _ Hu Hi Hy)]. }
  assert (Hops : forall s i, nth_error (g_operands (redirect v x c (s0, i0)) s) i =
                             if Nat.eqb s s0 && Nat.eqb i i0 then Some x else nth_error (g_operands c s) i).
  { intros s i.
    assert (E : g_operands (redirect v x c (s0, i0)) s = g_operands (set_operand c (s0, i0) x) s).
    { unfold redirect, detach. destruct x; [rewrite operands_add_use|]; apply operands_remove_use. }
    rewrite E, operands_set_operand. simpl. destruct (Nat.eqb s s0) eqn:Es; [|reflexivity].
    apply Nat.eqb_eq in Es. subst s. rewrite nth_error_set_nth. simpl.
    destruct (Nat.eqb i i0); [rewrite Ku|]; reflexivity. }
  assert (Hk : frame [s0] c (redirect v x c (s0, i0))).
  { unfold redirect, detach.
    eapply frame_trans; [apply (frame_set_operand [s0] c (s0, i0) x); left; reflexivity|].
    destruct x; [eapply frame_trans; [|apply frame_ops_eq, ops_add_use]|]; apply frame_ops_eq, ops_remove_use. }
  split; [split|].
  - intros w y Hy. apply (proj2 Hk). destruct (Huses w y Hy) as [[_ ->]|[H _]]; [exact (U v _ Hu) | exact (U w y H)].
  - intros w s i Hy. rewrite Hops. destruct (Huses w (s, i) Hy) as [[-> E]|[H Hne]].
    + inversion E. rewrite !Nat.eqb_refl. reflexivity.
    + destruct (Nat.eqb s s0 && Nat.eqb i i0) eqn:Eb; [|exact (K w s i H)].
      apply andb_true_iff in Eb. destruct Eb as [Es Ei]. apply Nat.eqb_eq in Es, Ei. subst. congruence.
  - intros w. unfold redirect. destruct x as [t|]; [|apply Hn1].
    apply uses_add_use_nodup; [apply Hn1|].
    intros _ Hin. exact (proj2 (detach_others _ _ _ _ _ _ Hu Hi Hin) eq_refl).
  - unfold redirect. destruct x as [t|]; [|rewrite uses_detach, Nat.eqb_refl; reflexivity].
    unfold add_use. rewrite uses_upd_val. destruct (Nat.eqb v t) eqn:E; [apply Nat.eqb_eq in E; congruence|].
    rewrite uses_detach, Nat.eqb_refl. reflexivity.
Qed.

Lemma uinv_redirect_fold v x (sel : op * nat -> bool) : x <> OVal v -> forall l c,
  NoDup l -> (forall u, In u l -> In u (g_uses c v)) -> UInv c ->
  UInv (fold_left (fun c u => if sel u then redirect v x c u else c) l c).
Proof.
  intros Hx. induction l as [|u l IH]; simpl; intros c Hn Hl Hi; auto.
  inversion Hn; subst. destruct (sel u); [|apply IH; auto].
  destruct (uinv_redirect v x c u Hx (Hl u (or_introl eq_refl)) Hi) as [Hi' Hu'].
  apply IH; auto. intros y Hy. rewrite Hu'. apply remove_use_l_keep; auto. intros ->. contradiction.
Qed.

(* The loop bodies of IR.v are `redirect` by unfolding: move_use v t c u is redirect v (OVal t) c u, and
   remove_use (set_operand c u OErased) v u is redirect v OErased c u; `apply` below checks just that. *)
Lemma uinv_rauw v t c : UInv c -> UInv (cp_rauw v t c).
Proof.
  intros Hi. unfold cp_rauw. destruct (Nat.eqb v t) eqn:E; auto. apply Nat.eqb_neq in E.
  apply (uinv_redirect_fold v (OVal t) (fun _ => true)); auto; [congruence | apply (ui_N c Hi)].
Qed.
Lemma uinv_rauw_if v t p c : v <> t -> UInv c -> UInv (cp_rauw_if v t p c).
Proof.
  intros E Hi. unfold cp_rauw_if.
  apply (uinv_redirect_fold v (OVal t) (eval_upred p)); auto; [congruence | apply (ui_N c Hi)].
Qed.
Lemma uinv_erase_value v c : UInv c -> UInv (cp_erase_value v c).
Proof.
  intros Hi. unfold cp_erase_value.
  apply (uinv_redirect_fold v OErased (fun _ => true)); auto; [discriminate | apply (ui_N c Hi)].
Qed.

Lemma uinv_neutral c c' :
  (forall o, g_operands c' o = g_operands c o) -> nokill c c' -> c_vals c' = c_vals c -> UInv c -> UInv c'.
Proof. intros Ho Hk Hv. apply uinv_shrink; auto. apply uses_vals_eq. exact Hv. Qed.

Lemma uinv_upd_blk c b f : UInv c -> UInv (upd_blk c b f).
Proof.
  apply uinv_neutral; [apply operands_ops_eq, ops_upd_blk | apply nokill_ops_eq, ops_upd_blk | apply vals_upd_blk].
Qed.
Lemma uinv_upd_reg c g f : UInv c -> UInv (upd_reg c g f).
Proof.
  apply uinv_neutral; [apply operands_ops_eq, ops_upd_reg | apply nokill_ops_eq, ops_upd_reg | apply vals_upd_reg].
Qed.
Lemma uinv_upd_op_pres c k f :
  (forall r, o_operands (f r) = o_operands r) -> (forall r, o_dead (f r) = o_dead r) -> UInv c -> UInv (upd_op c k f).
Proof.
  intros H1 H2. apply uinv_neutral; [apply operands_upd_op_pres; auto | apply nokill_upd_op; auto | apply vals_upd_op].
Qed.
Lemma uinv_fold {A} (step : cir -> A -> cir) (l : list A) :
  (forall c x, UInv c -> UInv (step c x)) -> forall c, UInv c -> UInv (fold_left step l c).
Proof. induction l as [|x l IH]; simpl; intros H c Hc; auto. Qed.
Lemma uinv_place_ops c os tgt : UInv c -> UInv (place_ops c os tgt).
Proof.
  intros Hi. unfold place_ops. destruct tgt as [b before].
  apply uinv_fold; [|apply uinv_upd_blk; exact Hi].
  intros c0 x H0. apply uinv_upd_op_pres; auto.
Qed.

Lemma uinv_erase_arg v c : UInv c -> UInv (cp_erase_arg v c).
Proof.
  intros Hi. unfold cp_erase_arg. destruct (aget (c_vals c) v) as [r|]; auto.
  destruct (v_owner r) as [o|b]; auto. apply uinv_erase_value. apply uinv_upd_blk. exact Hi.
Qed.

Lemma uinv_inline_block b ip args c : UInv c -> UInv (cp_inline_block b ip args c).
Proof.
  intros Hi. unfold cp_inline_block. destruct (ip_target c ip) as [tgt|]; auto.
  set (c1 := fold_left (fun c av => cp_rauw (fst av) (snd av) c) (combine (g_bargs c b) args) c).
  assert (H1 : UInv c1) by (apply uinv_fold; auto; intros; apply uinv_rauw; auto).
  set (c3 := place_ops (upd_blk c1 b (set_bops [])) (g_bops c1 b) tgt).
  assert (H3 : UInv c3) by (apply uinv_place_ops, uinv_upd_blk; exact H1).
  destruct (g_bparent c3 b); auto. apply uinv_upd_blk, uinv_upd_reg. exact H3.
Qed.

Lemma uses_shrink_remove_use c v u : uses_shrink c (remove_use c v u).
Proof.
  intros w. rewrite uses_remove_use. destruct (Nat.eqb w v) eqn:E; [|split; auto].
  apply Nat.eqb_eq in E. subst. split.
  - intros x. apply remove_use_l_in.
  - intros H. apply remove_use_l_nodup. exact H.
Qed.

(* the inner loop over the operands of s, starting at index k *)
Definition drop_from (s : op) (l : list operand) (k : nat) (c : cir) : cir :=
  fst (fold_left (fun (acc : cir * nat) (x : operand) =>
                    let '(c, i) := acc in
                    (match x with OVal v => remove_use c v (s, i) | OErased => c end, S i)) l (c, k)).

Lemma drop_from_cons s x l k c :
  drop_from s (x :: l) k c =
  drop_from s l (S k) (match x with OVal v => remove_use c v (s, k) | OErased => c end).
Proof. reflexivity. Qed.

Lemma drop_from_shrink s l : forall k c,
  uses_shrink c (drop_from s l k c) /\ c_ops (drop_from s l k c) = c_ops c.
Proof.
  induction l as [|x l IH]; intros k c.
  - split; [apply uses_shrink_refl | reflexivity].
  - rewrite drop_from_cons. destruct (IH (S k) (match x with OVal v => remove_use c v (s, k) | OErased => c end)) as [A B].
    split.
    + eapply uses_shrink_trans; [|exact A]. destruct x; [apply uses_shrink_remove_use | apply uses_shrink_refl].
    + rewrite B. destruct x; [apply ops_remove_use | reflexivity].
Qed.

Lemma drop_from_removes s l : forall k c j w,
  (forall v, NoDup (g_uses c v)) -> nth_error l j = Some (OVal w) ->
  ~ In (s, k + j) (g_uses (drop_from s l k c) w).
Proof.
  induction l as [|x l IH]; intros k c j w Hn Hj; [destruct j; discriminate|].
  rewrite drop_from_cons. destruct j as [|j]; simpl in Hj.
  - inversion Hj; subst. rewrite Nat.add_0_r. intros H.
    apply (proj1 (proj1 (drop_from_shrink s l (S k) (remove_use c w (s, k))) w)) in H.
    rewrite uses_remove_use, Nat.eqb_refl in H.
    apply (proj2 (remove_use_l_nodup (s, k) _ (Hn w))). exact H.
  - replace (k + S j) with (S k + j) by lia. apply IH; auto.
    intros v. destruct x; [|apply Hn]. apply (uses_shrink_remove_use c v0 (s, k) v). apply Hn.
Qed.

Lemma drop_operand_uses_eq c s : drop_operand_uses c s = drop_from s (g_operands c s) 0 c.
Proof. reflexivity. Qed.

Lemma drop_fold subs : forall c, KN c ->
  let cf := fold_left drop_operand_uses subs c in
  uses_shrink c cf /\ c_ops cf = c_ops c /\
  forall s w i, In s subs -> ~ In (s, i) (g_uses cf w).
Proof.
  induction subs as [|s subs IH]; simpl; intros c Hkn.
  - split; [apply uses_shrink_refl|]. split; [reflexivity|]. intros s w i [].
  - rewrite drop_operand_uses_eq.
    destruct (drop_from_shrink s (g_operands c s) 0 c) as [A B].
    assert (Hkn' : KN (drop_from s (g_operands c s) 0 c)).
    { eapply kn_shrink; [apply operands_ops_eq; exact B | exact A | exact Hkn]. }
    destruct (IH _ Hkn') as (A' & B' & C').
    split; [eapply uses_shrink_trans; eauto|]. split; [congruence|].
    intros s' w i [<-|Hs'] Hin; [|eapply C'; eauto].
    apply (proj1 (A' w)) in Hin.
    pose proof (proj1 (A w) _ Hin) as Hc. apply (proj1 Hkn) in Hc.
    apply (drop_from_removes s (g_operands c s) 0 c i w (proj2 Hkn) Hc). exact Hin.
Qed.

Lemma operands_fold_set_dead l : forall c o,
  g_operands (fold_left (fun c s => upd_op c s set_dead) l c) o = g_operands c o.
Proof.
  induction l as [|s l IH]; simpl; intros c o; auto.
  rewrite IH. apply operands_upd_op_pres. intros r; reflexivity.
Qed.

Lemma uinv_erase o1 c : UInv c -> UInv (cp_erase o1 c).
Proof.
  intros [U K N]. unfold cp_erase. set (subs := g_subops c o1).
  set (c1 := match g_parent c o1 with
             | Some b => upd_blk c b (fun r => set_bops (remove1 o1 (b_ops r)) r)
             | None => c end).
  assert (Hc1 : c_ops c1 = c_ops c /\ c_vals c1 = c_vals c).
  { unfold c1. destruct (g_parent c o1); [split; [apply ops_upd_blk | apply vals_upd_blk] | auto]. }
  destruct Hc1 as [Ho1 Hv1].
  assert (Hkn1 : KN c1).
  { eapply kn_shrink; [apply operands_ops_eq; exact Ho1 | apply uses_vals_eq; exact Hv1 | split; assumption]. }
  destruct (drop_fold subs c1 Hkn1) as (A & B & Cc). simpl in A, B, Cc.
  set (c2 := fold_left drop_operand_uses subs c1) in *.
  set (c3 := fold_left (fun c s => upd_op c s set_dead) subs c2).
  assert (Hv3 : c_vals c3 = c_vals c2) by (apply vals_fold; intros; apply vals_upd_op).
  assert (Ho3 : forall o, g_operands c3 o = g_operands c2 o) by (intros o; apply operands_fold_set_dead).
  assert (Huses : forall w x, In x (g_uses c3 w) -> In x (g_uses c w) /\ ~ In (fst x) subs).
  { intros w x Hx. unfold g_uses in Hx. rewrite Hv3 in Hx. fold (g_uses c2 w) in Hx. split.
    - apply (proj1 (A w)) in Hx. unfold g_uses in *. rewrite Hv1 in Hx. exact Hx.
    - destruct x as [s i]. simpl. intros Hs. exact (Cc s w i Hs Hx). }
  split.
  - intros w x Hx. destruct (Huses w x Hx) as [Hold Hns].
    apply (erase_survive o1 c); [apply (U w); exact Hold | exact Hns].
  - intros w s i Hx. destruct (Huses w (s, i) Hx) as [Hold _].
    rewrite Ho3. rewrite (operands_ops_eq c1 c2 B), (operands_ops_eq c c1 Ho1). apply K. exact Hold.
  - intros w. unfold g_uses. rewrite Hv3. fold (g_uses c2 w). apply (proj2 (A w)).
    unfold g_uses. rewrite Hv1. apply N.
Qed.

Definition unmentioned (c : cir) (id : op) : Prop := forall v u, In u (g_uses c v) -> fst u <> id.
(* UF c ids: the invariant holds and the identifiers still to be created are unmentioned *)
Definition UF (c : cir) (ids : list op) : Prop := UInv c /\ forall id, In id ids -> unmentioned c id.

Lemma uf_shrink c c' ids :
  (forall o, g_operands c' o = g_operands c o) -> nokill c c' -> uses_shrink c c' -> UF c ids -> UF c' ids.
Proof.
  intros Ho Hk Hs [Hi Hf]. split; [eapply uinv_shrink; eauto|].
  intros id Hid v u Hu. apply (Hf id Hid v). apply (Hs v). exact Hu.
Qed.

Lemma uses_add_uses_from vs : forall c id k w u,
  In u (g_uses (add_uses_from c id k vs) w) ->
  In u (g_uses c w) \/ exists j, u = (id, k + j) /\ nth_error vs j = Some w.
Proof.
  induction vs as [|v r IH]; simpl; intros c id k w u H; auto.
  apply IH in H. destruct H as [H|(j & -> & Hj)].
  - apply uses_add_use_in in H. destruct H as [[-> ->]|H]; auto.
    right. exists 0. rewrite Nat.add_0_r. auto.
  - right. exists (S j). split; [f_equal; lia | exact Hj].
Qed.

Lemma nodup_add_uses_from vs : forall c id k,
  (forall w, NoDup (g_uses c w)) -> (forall w u, In u (g_uses c w) -> fst u = id -> snd u < k) ->
  forall w, NoDup (g_uses (add_uses_from c id k vs) w).
Proof.
  induction vs as [|v r IH]; simpl; intros c id k Hn Hlt; auto.
  apply IH.
  - intros w. apply uses_add_use_nodup; auto. intros -> Hin. apply Hlt in Hin; simpl in *; auto. lia.
  - intros w u Hu Hfu. apply uses_add_use_in in Hu. destruct Hu as [[_ ->]|Hu]; simpl; [lia|].
    specialize (Hlt w u Hu Hfu). lia.
Qed.

Lemma operands_mk_op c id pure st opers restys o :
  g_operands (mk_op c id pure st opers restys) o = if Nat.eqb o id then map OVal opers else g_operands c o.
Proof.
  rewrite !operands_info, info_mk_op. destruct (Nat.eqb o id); reflexivity.
Qed.

Lemma uses_mk_op c id pure st opers restys w u :
  In u (g_uses (mk_op c id pure st opers restys) w) -> In u (g_uses (add_uses_from c id 0 opers) w).
Proof.
  unfold mk_op. pose proof (uses_alloc_vals restys (add_uses_from c id 0 opers) (VOOp id)) as H.
  destruct (alloc_vals (add_uses_from c id 0 opers) (VOOp id) restys) as [c2 rs]. simpl in H.
  intros Hu. apply (proj1 (H w)). exact Hu.
Qed.
Lemma nodup_mk_op c id pure st opers restys w :
  NoDup (g_uses (add_uses_from c id 0 opers) w) -> NoDup (g_uses (mk_op c id pure st opers restys) w).
Proof.
  unfold mk_op. pose proof (uses_alloc_vals restys (add_uses_from c id 0 opers) (VOOp id)) as H.
  destruct (alloc_vals (add_uses_from c id 0 opers) (VOOp id) restys) as [c2 rs]. simpl in H.
  intros Hn. apply (proj2 (H w)). exact Hn.
Qed.

Lemma uf_mk_op c id pure st opers restys rest :
  ~ In id rest -> UF c (id :: rest) -> UF (mk_op c id pure st opers restys) rest.
Proof.
  intros Hnin [[U K N] Hf].
  assert (Hid : unmentioned c id) by (apply Hf; left; reflexivity).
  assert (Huses : forall w u, In u (g_uses (mk_op c id pure st opers restys) w) ->
                  In u (g_uses c w) \/ exists j, u = (id, j) /\ nth_error opers j = Some w).
  { intros w u Hu. apply uses_mk_op, uses_add_uses_from in Hu. exact Hu. }
  split; [split|].
  - intros w u Hu. destruct (Huses w u Hu) as [H|(j & -> & _)].
    + apply (proj2 (proj1 (frame_mk_op [id] c id pure st opers restys (or_introl eq_refl)))). apply (U w). exact H.
    + apply (frame_mk_op [id]). left; reflexivity.
  - intros w s i Hu. rewrite operands_mk_op. destruct (Huses w (s, i) Hu) as [H|(j & E & Hj)].
    + destruct (Nat.eqb s id) eqn:Es; [|apply K; exact H].
      apply Nat.eqb_eq in Es. subst. exfalso. exact (Hid w (id, i) H eq_refl).
    + inversion E; subst. rewrite Nat.eqb_refl. rewrite nth_error_map, Hj. reflexivity.
  - intros w. apply nodup_mk_op. apply nodup_add_uses_from; auto.
    intros w' u Hu Hfu. exfalso. exact (Hid w' u Hu Hfu).
  - intros id' Hid' w u Hu. destruct (Huses w u Hu) as [H|(j & -> & _)].
    + apply (Hf id' (or_intror Hid') w). exact H.
    + simpl. intros ->. contradiction.
Qed.

Lemma uf_upd_blk c b f ids : UF c ids -> UF (upd_blk c b f) ids.
Proof.
  apply uf_shrink; [apply operands_ops_eq, ops_upd_blk | apply nokill_ops_eq, ops_upd_blk |
                     apply uses_vals_eq, vals_upd_blk].
Qed.
Lemma uf_upd_reg c g f ids : UF c ids -> UF (upd_reg c g f) ids.
Proof.
  apply uf_shrink; [apply operands_ops_eq, ops_upd_reg | apply nokill_ops_eq, ops_upd_reg |
                     apply uses_vals_eq, vals_upd_reg].
Qed.
Lemma uf_upd_op_pres c k f ids :
  (forall r, o_operands (f r) = o_operands r) -> (forall r, o_dead (f r) = o_dead r) -> UF c ids -> UF (upd_op c k f) ids.
Proof.
  intros H1 H2. apply uf_shrink; [apply operands_upd_op_pres; auto | apply nokill_upd_op; auto |
                                   apply uses_vals_eq, vals_upd_op].
Qed.
Lemma uf_fold {A} ids (step : cir -> A -> cir) (l : list A) :
  (forall c x, UF c ids -> UF (step c x) ids) -> forall c, UF c ids -> UF (fold_left step l c) ids.
Proof. induction l as [|x l IH]; simpl; intros H c Hc; auto. Qed.

Lemma uf_create_leaf c b l rest :
  ~ In (lf_id l) rest -> UF c (lf_id l :: rest) -> UF (create_leaf c b l) rest.
Proof.
  intros Hn H. unfold create_leaf, append_op.
  apply uf_upd_op_pres; auto. apply uf_upd_blk. apply uf_mk_op; auto.
Qed.

Lemma uf_leaves b body : forall c rest,
  NoDup (map lf_id body ++ rest) -> UF c (map lf_id body ++ rest) ->
  UF (fold_left (fun c l => create_leaf c b l) body c) rest.
Proof.
  induction body as [|l body IH]; simpl; intros c rest Hn H; auto.
  inversion Hn; subst. apply IH; auto. apply uf_create_leaf; auto.
Qed.

Lemma nodup_app_r {A} (a b : list A) : NoDup (a ++ b) -> NoDup b.
Proof. induction a as [|x a IH]; simpl; auto. intros H. inversion H; auto. Qed.

Definition blk_ids (nb : newblk) : list op := map lf_id (nb_body nb).
Lemma uf_create_blk c g nb rest :
  NoDup (blk_ids nb ++ rest) -> UF c (blk_ids nb ++ rest) -> UF (create_blk c g nb) rest.
Proof.
  intros Hn H. unfold create_blk, append_block.
  apply uf_upd_blk, uf_upd_reg. apply uf_leaves; auto.
  revert H. apply uf_shrink; [apply operands_ops_eq, ops_mk_block | apply nokill_ops_eq, ops_mk_block |
                               apply uses_mk_block].
Qed.
Lemma uf_blks g bs : forall c rest,
  NoDup (flat_map blk_ids bs ++ rest) -> UF c (flat_map blk_ids bs ++ rest) ->
  UF (fold_left (fun c nb => create_blk c g nb) bs c) rest.
Proof.
  induction bs as [|nb bs IH]; simpl; intros c rest Hn H; auto.
  rewrite <- app_assoc in Hn, H. apply IH.
  - apply nodup_app_r in Hn. exact Hn.
  - apply uf_create_blk; auto.
Qed.

Definition reg_ids (nr : newreg) : list op :=
  match nr with NRFresh bs => flat_map blk_ids bs | NRLimbo _ => [] end.
(* creation order: the ops of the new regions first, the op itself last *)
Definition create_ids (n : newop) : list op := flat_map reg_ids (no_regions n) ++ [no_id n].

Lemma uf_create_new limbo0 c n rest :
  NoDup (create_ids n ++ rest) -> UF c (create_ids n ++ rest) -> UF (create_new limbo0 c n) rest.
Proof.
  rewrite create_new_eq. unfold create_ids. set (step := new_region_step limbo0).
  assert (G : forall rs acc rest', NoDup (flat_map reg_ids rs ++ rest') ->
                UF (fst acc) (flat_map reg_ids rs ++ rest') -> UF (fst (fold_left step rs acc)) rest').
  { induction rs as [|nr rs IH]; simpl; intros acc rest' Hn H; auto.
    rewrite <- app_assoc in Hn, H. apply IH; [apply nodup_app_r in Hn; exact Hn|].
    destruct acc as [c0 gs]. simpl in *. destruct nr as [bs|k]; simpl in *; auto.
    apply uf_blks; auto. revert H. apply uf_shrink; auto.
    - apply nokill_ops_eq. reflexivity.
    - apply uses_vals_eq. reflexivity. }
  intros Hn H. rewrite <- app_assoc in Hn, H. simpl in Hn, H.
  specialize (G (no_regions n) (c, []) (no_id n :: rest) Hn H).
  destruct (fold_left step (no_regions n) (c, [])) as [c1 gs]. simpl in G.
  unfold attach_regions. apply uf_fold; [intros; apply uf_upd_reg; auto|].
  apply uf_upd_op_pres; auto. apply uf_mk_op; auto.
  apply nodup_app_r in Hn. inversion Hn; auto.
Qed.

(* precondition of insert as far as use lists are concerned: the identifiers of the operations to be
   created are pairwise distinct and no use list mentions them (they are new) *)
Definition cir_ins_ok (c : cir) (news : list newop) : Prop :=
  NoDup (flat_map create_ids news) /\ forall id, In id (flat_map create_ids news) -> unmentioned c id.

Lemma uinv_insert news ip c : cir_ins_ok c news -> UInv c -> UInv (cp_insert news ip c).
Proof.
  intros [Hn Hf] Hi. unfold cp_insert. destruct (ip_target c ip) as [tgt|]; auto.
  set (limbo0 := c_limbo c).
  assert (G : forall l c0 rest, NoDup (flat_map create_ids l ++ rest) ->
                UF c0 (flat_map create_ids l ++ rest) -> UF (fold_left (create_new limbo0) l c0) rest).
  { induction l as [|n l IH]; simpl; intros c0 rest Hn0 H0; auto.
    rewrite <- app_assoc in Hn0, H0. apply IH; [apply nodup_app_r in Hn0; exact Hn0|].
    apply uf_create_new; auto. }
  assert (H0 : UF (fold_left (create_new limbo0) news c) []).
  { apply G; rewrite app_nil_r; [exact Hn | split; assumption]. }
  apply uinv_place_ops. destruct H0 as [H0 _]. revert H0.
  apply uinv_neutral; auto. apply nokill_ops_eq. reflexivity.
Qed.

Lemma uinv_prim okp erase_ok p c :
  UInv c -> prim_side cir_sem cir_ins_ok okp erase_ok p c -> UInv (run_prim cir_sem p c).
Proof.
  intros Hi [_ Hs]. destruct p; simpl in *.
  - apply uinv_insert; assumption.
  - apply uinv_erase; assumption.
  - apply uinv_rauw; assumption.
  - apply uinv_erase_value; assumption.
  - apply uinv_rauw_if; assumption.
  - apply uinv_retype; assumption.
  - apply uinv_insert_arg; assumption.
  - apply uinv_erase_arg; assumption.
  - apply uinv_inline_block; assumption.
  - apply uinv_move_region; assumption.
  - apply uinv_inline_region; assumption.
  - apply uinv_create_block; assumption.
  - apply uinv_bump; assumption.
Qed.

(* InvLaws for the heap model, given any invariant `wfW` that takes care of the tree half
   (the region walk yields only live ops) for the primitives allowed by `okp` *)
Theorem cir_inv_laws okp erase_ok (wfW : cir -> Prop) :
  (forall p c, wfW c -> prim_side cir_sem cir_ins_ok okp erase_ok p c -> wfW (run_prim cir_sem p c)) ->
  (forall c rev rf o, wfW c -> In o (g_walk rev rf c) -> In o (g_alive c)) ->
  InvLaws cir_sem (fun c => UInv c /\ wfW c) cir_ins_ok okp erase_ok.
Proof.
  intros Hp Hw. split.
  - intros p c [Hi Hc] Hs. split; [eapply uinv_prim; eassumption | apply Hp; assumption].
  - intros c v u [Hi _] Hu. apply (ui_U c Hi v). exact Hu.
  - intros c rev rf o [_ Hc] Ho. apply (Hw c rev rf o Hc Ho).
Qed.
