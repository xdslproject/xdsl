(* C09/ProofsGet.v -- AnyOf.get / `|` / relax_constraint / ParamAttrConstraint.get preserve the
   denotation, never run out of fuel and keep constructibility; hint-derived constraints agree
   with isa. *)
From Coq Require Import List Arith ZArith Bool Lia.
From XV Require Import C09.Model C09.Proofs.
Import ListNotations.

Lemma existsP_app {A} (P : A -> Prop) l l' : existsP P (l ++ l') <-> existsP P l \/ existsP P l'.
Proof.
  induction l as [|x r IH]; simpl; [|rewrite IH; symmetry; apply or_assoc].
  split; [auto | intros [[]|H]; exact H].
Qed.

Lemma forall2b_existsP {A} (f : A -> A -> bool) (P Q : A -> Prop) l :
  Forall (fun x => forall y, f x y = true -> (P x <-> Q y)) l ->
  forall l', forall2b f l l' = true -> (existsP P l <-> existsP Q l').
Proof.
  induction 1 as [|x r Hx Hr IH]; intros [|y r']; simpl; intros H; try discriminate.
  - reflexivity.
  - apply andb_true_iff in H as [H1 H2]. rewrite (Hx y H1), (IH r' H2). reflexivity.
Qed.
Lemma forall2b_forallP {A} (f : A -> A -> bool) (P Q : A -> Prop) l :
  Forall (fun x => forall y, f x y = true -> (P x <-> Q y)) l ->
  forall l', forall2b f l l' = true -> (forallP P l <-> forallP Q l').
Proof.
  induction 1 as [|x r Hx Hr IH]; intros [|y r']; simpl; intros H; try discriminate.
  - reflexivity.
  - apply andb_true_iff in H as [H1 H2]. rewrite (Hx y H1), (IH r' H2). reflexivity.
Qed.
Lemma forall2b_forall2P {A B} (f : A -> A -> bool) (P Q : A -> B -> Prop) l :
  Forall (fun x => forall y, f x y = true -> forall p, (P x p <-> Q y p)) l ->
  forall l', forall2b f l l' = true -> forall ps, (forall2P P l ps <-> forall2P Q l' ps).
Proof.
  induction 1 as [|x r Hx Hr IH]; intros [|y r']; simpl; intros H ps; try discriminate.
  - reflexivity.
  - apply andb_true_iff in H as [H1 H2]. destruct ps as [|p q]; [reflexivity|].
    rewrite (Hx y H1 p), (IH r' H2 q). reflexivity.
Qed.

Lemma prod_union_l (A B C D R : Prop) : (A <-> B) -> (C <-> D \/ R) -> (A /\ C <-> A /\ D \/ B /\ R).
Proof.
  intros [H1 H1'] [H2 H3]. split.
  - intros [a c]. destruct (H2 c) as [d|r]; [left | right]; split; auto.
  - intros [[a d]|[b r]]; split; auto.
Qed.
Lemma prod_union_r (V A B C D : Prop) : (V <-> A \/ B) -> (C <-> D) -> (V /\ C <-> A /\ C \/ B /\ D).
Proof.
  intros [H1 H2] [H3 H4]. split.
  - intros [v c]. destruct (H1 v) as [a|b]; [left | right]; split; auto.
  - intros [[a c]|[b d]]; split; auto.
Qed.
Lemma union_head (V A C R : Prop) : (V <-> A \/ C) -> (V \/ R <-> (A \/ R) \/ C).
Proof. intros [H1 H2]. split; [intros [v|r]; [destruct (H1 v)|] | intros [[a|r]|c]]; auto. Qed.
Lemma union_tail (A C D R : Prop) : (D <-> R \/ C) -> (A \/ D <-> (A \/ R) \/ C).
Proof. intros [H1 H2]. split; [intros [a|d]; [|destruct (H1 d)] | intros [[a|r]|c]]; auto. Qed.
Lemma union_same_l (A B : Prop) : (A <-> B) -> (A <-> A \/ B).
Proof. intros [_ H]. split; [auto | intros [a|b]; auto]. Qed.
Lemma union_same_r (A B : Prop) : (A <-> B) -> (B <-> A \/ B).
Proof. intros [H _]. split; [auto | intros [a|b]; auto]. Qed.
Lemma union_nil_end (A : Prop) : A <-> A \/ False.
Proof. split; [auto | intros [a|[]]; exact a]. Qed.
Lemma union_nil_l (A : Prop) : False \/ A <-> A.
Proof. split; [intros [[]|a]; exact a | auto]. Qed.
Lemma union_nil_r (A B : Prop) : A \/ B \/ False <-> A \/ B.
Proof. split; [intros [a|[b|[]]]; auto | intros [a|b]; auto]. Qed.

Section Get.
Variable T : ctable.

Definition sem_eq (c1 c2 : constr) : Prop := forall s a, sat T s c1 a <-> sat T s c2 a.

Lemma ceqb_sem : forall c1 c2, ceqb c1 c2 = true -> sem_eq c1 c2.
Proof.
  induction c1 as [| k | e0 | vs | cs H | cs H | k cs H | n c IHc | m0 c IHc | i c IHc] using constr_ind2;
    intros c2 He; destruct c2; simpl in He; try discriminate; intros s x0; simpl.
  - reflexivity.
  - apply Nat.eqb_eq in He. subst. reflexivity.
  - apply attr_eqb_eq in He. subst. reflexivity.
  - apply andb_true_iff in He as [H1 H2]. rewrite forallb_forall in H1, H2.
    split; intros Hi; apply mem_attr_In; auto.
  - apply (forall2b_existsP (fun x y => ceqb x y)); [|exact He].
    eapply Forall_impl; [|exact H]. intros x Hx y Hy. apply Hx. assumption.
  - apply (forall2b_forallP (fun x y => ceqb x y)); [|exact He].
    eapply Forall_impl; [|exact H]. intros x Hx y Hy. apply Hx. assumption.
  - apply andb_true_iff in He as [H1 H2]. apply Nat.eqb_eq in H1. subst.
    destruct x0 as [|k' ps]; [reflexivity|].
    assert (Hp : forall2P (fun c p => sat T s c p) cs ps <-> forall2P (fun c p => sat T s c p) cs0 ps).
    { apply (forall2b_forall2P (fun x y => ceqb x y)); [|exact H2].
      eapply Forall_impl; [|exact H]. intros x Hx y Hy p. apply Hx. assumption. }
    rewrite Hp. reflexivity.
  - apply andb_true_iff in He as [H1 H2]. apply Nat.eqb_eq in H1. subst.
    rewrite (IHc _ H2 s x0). reflexivity.
  - apply andb_true_iff in He as [H1 H2]. apply (IHc _ H2 s x0).
  - apply andb_true_iff in He as [H1 H2]. apply (IHc _ H2 s x0).
Qed.

Lemma dedup_In a vs : In a (dedup_attr vs) <-> In a vs.
Proof.
  induction vs as [|v r IH]; simpl; [tauto|].
  destruct (mem_attr v r) eqn:E.
  - apply mem_attr_In in E. rewrite IH. split; [auto | intros [<-|Hi]; auto].
  - simpl. rewrite IH. tauto.
Qed.

Lemma attrset_get_sem vs s a : sat T s (attrset_get vs) a <-> In a vs.
Proof.
  unfold attrset_get. destruct vs as [|v0 r]; [simpl; tauto|].
  destruct (length (dedup_attr (v0 :: r)) =? 1) eqn:E; [|simpl; tauto].
  apply Nat.eqb_eq in E.
  destruct (dedup_attr (v0 :: r)) as [|w [|w' l]] eqn:Ed; simpl in E; try discriminate.
  assert (Hd : forall b, In b [w] <-> In b (v0 :: r)) by (intros b; rewrite <- Ed; apply dedup_In).
  assert (Hv0 : v0 = w) by (destruct (proj2 (Hd v0) (or_introl eq_refl)) as [<-|[]]; reflexivity).
  subst w. simpl. split.
  - intros ->. left. reflexivity.
  - intros Hi. destruct (proj2 (Hd a) Hi) as [<-|[]]. reflexivity.
Qed.

Lemma mk_anyof_inv cs r : mk_anyof T cs = Ok r -> r = CAnyOf cs /\ anyof_init T cs = Ok tt.
Proof.
  unfold mk_anyof. destruct (anyof_init T cs) as [[]|] eqn:E; simpl; intros H; inversion H. auto.
Qed.

Lemma is_any_true c : is_any c = true -> c = CAny.
Proof. destruct c; simpl; congruence. Qed.

(* EqAttrConstraint and AttrSetConstraint relax against each other by joining their values *)
Definition values (c : constr) : option (list attr) :=
  match c with CEq a => Some [a] | CSet vs => Some vs | _ => None end.

Lemma values_sem c vs : values c = Some vs -> forall s a, sat T s c a <-> In a vs.
Proof.
  intros H s b. destruct c; inversion H; subst; simpl; [|tauto].
  split; [intros ->; auto | intros [->|[]]; reflexivity].
Qed.

(* what the double dispatch of relax_constraint can amount to *)
Inductive relax_view (orf : constr -> constr -> res constr) (c2 c : constr) : res (option constr) -> Prop :=
| RV_values vs ws : values c2 = Some vs -> values c = Some ws ->
    relax_view orf c2 c (Ok (Some (attrset_get (vs ++ ws))))
| RV_none : relax_view orf c2 c (Ok None)
| RV_default : relax_view orf c2 c (relax_default c2 c)
| RV_default_sym : relax_view orf c2 c (relax_default c c2)
| RV_param k xs : c2 = CParam k xs -> relax_view orf c2 c (relax_param orf k xs c)
| RV_param_sym k ys : c = CParam k ys -> relax_view orf c2 c (relax_param orf k ys c2).

Lemma relax_cases orf c2 c : relax_view orf c2 c (relax orf c2 c).
Proof.
  destruct c2, c; cbv beta iota delta [relax];
    first [ apply RV_default | apply RV_default_sym | apply RV_none
          | eapply RV_param; reflexivity | eapply RV_param_sym; reflexivity | idtac ].
  - apply (RV_values _ _ _ [a] [a0]); reflexivity.
  - apply (RV_values _ _ _ [a] vs); reflexivity.
  - apply (RV_values _ _ _ vs [a]); reflexivity.
  - apply (RV_values _ _ _ vs vs0); reflexivity.
Qed.

Definition alts (c : constr) : option (list constr) :=
  match c with CAnyOf cs => Some cs | _ => None end.

Lemma alts_some c cs : alts c = Some cs -> c = CAnyOf cs.
Proof. destruct c; simpl; congruence. Qed.

Lemma get_loop_cons orf lf done c rest :
  get_loop T orf (S lf) done (c :: rest) =
  if is_any c then Ok CAny
  else match alts c with
       | Some cs => get_loop T orf lf done (cs ++ rest)
       | None => bind (merge_into orf done c) (fun o =>
                   get_loop T orf lf (match o with Some done' => done' | None => done ++ [c] end) rest)
       end.
Proof.
  destruct c; try reflexivity; simpl; destruct (merge_into orf done _) as [[d|]|]; reflexivity.
Qed.

Section RelaxSem.
Variable orf : constr -> constr -> res constr.
Hypothesis Horf : forall x y v, orf x y = Ok v ->
  forall s a, sat T s v a <-> sat T s x a \/ sat T s y a.

Notation F s l ps := (forall2P (fun c p => sat T s c p) l ps).

Lemma ceqb_params_sem xs ys : forall2b (fun x y => ceqb x y) xs ys = true ->
  forall s ps, F s xs ps <-> F s ys ps.
Proof.
  intros H s. apply (forall2b_forall2P (fun x y => ceqb x y)); [|exact H].
  apply Forall_forall. intros x _ y Hy p. apply (ceqb_sem x y Hy).
Qed.

Lemma relax_params_seen : forall xs ys acc r,
  relax_params orf xs ys true acc = Ok (Some r) ->
  r = rev acc ++ xs /\ forall2b (fun x y => ceqb x y) xs ys = true.
Proof.
  induction xs as [|x xr IH]; intros [|y yr] acc r H; simpl in H; try discriminate.
  - inversion H. rewrite app_nil_r. auto.
  - simpl. destruct (ceqb x y); [|discriminate].
    apply IH in H as [-> H]. simpl. rewrite <- app_assoc. auto.
Qed.

(* the one-differing-parameter merge is a product-of-unions argument *)
Lemma relax_params_sem : forall xs ys acc r,
  relax_params orf xs ys false acc = Ok (Some r) ->
  exists zs, r = rev acc ++ zs /\ forall s ps, F s zs ps <-> F s xs ps \/ F s ys ps.
Proof.
  induction xs as [|x xr IH]; intros [|y yr] acc r H; simpl in H; try discriminate.
  - inversion H. exists []. rewrite app_nil_r. split; [reflexivity | tauto].
  - destruct (ceqb x y) eqn:E.
    + apply IH in H as [zs [-> Hz]]. exists (x :: zs). simpl. rewrite <- app_assoc.
      split; [reflexivity|]. intros s [|p q]; [simpl; tauto|].
      apply prod_union_l; [apply (ceqb_sem x y E) | apply Hz].
    + destruct (orf x y) as [v|] eqn:Eo; simpl in H; [|discriminate].
      apply relax_params_seen in H as [-> Hr]. exists (v :: xr). simpl. rewrite <- app_assoc.
      split; [reflexivity|]. intros s [|p q]; [simpl; tauto|].
      apply prod_union_r; [apply (Horf x y v Eo) | apply (ceqb_params_sem _ _ Hr)].
Qed.

Lemma relax_param_sem k xs c v : relax_param orf k xs c = Ok (Some v) ->
  forall s a, sat T s v a <-> sat T s (CParam k xs) a \/ sat T s c a.
Proof.
  intros H. destruct c; simpl in H; try discriminate.
  - destruct (k =? k0) eqn:E; inversion H; subst. apply Nat.eqb_eq in E. subst.
    intros s a. simpl. split; [auto | intros [[Hi _]|Hi]; exact Hi].
  - destruct (negb (k =? k0)) eqn:E; [discriminate|].
    apply negb_false_iff in E. apply Nat.eqb_eq in E. subst k0.
    destruct (relax_params orf xs cs false []) as [[ps|]|] eqn:Er; simpl in H; try discriminate.
    inversion H; subst. apply relax_params_sem in Er as [zs [-> Hz]].
    intros s [|k0 ps0]; [simpl; tauto|]. apply prod_union_l; [reflexivity | apply Hz].
Qed.

Lemma relax_default_sem c2 c v : relax_default c2 c = Ok (Some v) ->
  forall s a, sat T s v a <-> sat T s c2 a \/ sat T s c a.
Proof.
  unfold relax_default. destruct (ceqb c2 c) eqn:E; intros H; inversion H; subst.
  intros s a. apply union_same_l, (ceqb_sem _ _ E).
Qed.

Lemma relax_sem c2 c v : relax orf c2 c = Ok (Some v) ->
  forall s a, sat T s v a <-> sat T s c2 a \/ sat T s c a.
Proof.
  destruct (relax_cases orf c2 c) as [vs ws H2 H1| | | |k xs ->|k ys ->]; intros H s a.
  - inversion H. rewrite attrset_get_sem, in_app_iff, (values_sem _ _ H2), (values_sem _ _ H1).
    reflexivity.
  - discriminate.
  - apply (relax_default_sem _ _ _ H).
  - rewrite or_comm. apply (relax_default_sem _ _ _ H).
  - apply (relax_param_sem _ _ _ _ H).
  - rewrite or_comm. apply (relax_param_sem _ _ _ _ H).
Qed.

Lemma merge_into_sem : forall done c done', merge_into orf done c = Ok (Some done') ->
  forall s a, existsP (fun c => sat T s c a) done' <->
              existsP (fun c => sat T s c a) done \/ sat T s c a.
Proof.
  induction done as [|c2 r IH]; simpl; intros c done' H s a; [discriminate|].
  destruct (relax orf c2 c) as [[v|]|] eqn:Er; simpl in H; try discriminate.
  - inversion H; subst. apply union_head, (relax_sem _ _ _ Er).
  - destruct (merge_into orf r c) as [[r'|]|] eqn:Em; simpl in H; try discriminate.
    inversion H; subst. apply union_tail, (IH _ _ Em).
Qed.

Lemma get_loop_sem : forall lf done todo r, get_loop T orf lf done todo = Ok r ->
  forall s a, sat T s r a <->
              existsP (fun c => sat T s c a) done \/ existsP (fun c => sat T s c a) todo.
Proof.
  induction lf as [|lf IH]; intros done todo r H s a; [discriminate|].
  destruct todo as [|c rest].
  - simpl in H. clear IH. destruct done as [|c0 [|c1 dr]];
      [apply mk_anyof_inv in H as [-> _] | inversion H; subst | apply mk_anyof_inv in H as [-> _]];
      simpl; rewrite <- !union_nil_end; reflexivity.
  - rewrite get_loop_cons in H. destruct (is_any c) eqn:Ea.
    + apply is_any_true in Ea as ->. inversion H. simpl. split; auto.
    + destruct (alts c) as [cs|] eqn:Ec.
      * apply alts_some in Ec as ->. rewrite (IH _ _ _ H s a), existsP_app. reflexivity.
      * destruct (merge_into orf done c) as [[d'|]|] eqn:Em; simpl in H; [| |discriminate];
          rewrite (IH _ _ _ H s a).
        -- rewrite (merge_into_sem _ _ _ Em s a). apply or_assoc.
        -- rewrite existsP_app. simpl. rewrite <- (union_nil_end (sat T s c a)). apply or_assoc.
Qed.
End RelaxSem.

Lemma or_with_sem getf :
  (forall cs r, getf cs = Ok r -> forall s a, sat T s r a <-> existsP (fun c => sat T s c a) cs) ->
  forall x y v, or_with getf x y = Ok v -> forall s a, sat T s v a <-> sat T s x a \/ sat T s y a.
Proof.
  intros Hg x y v H s a. unfold or_with in H.
  destruct (is_any y || ceqb x y) eqn:E.
  - inversion H; subst. apply orb_true_iff in E as [E|E].
    + apply is_any_true in E as ->. simpl. split; auto.
    + apply union_same_r, (ceqb_sem _ _ E).
  - rewrite (Hg _ _ H s a). apply union_nil_r.
Qed.

Lemma anyof_get_d_sem : forall d cs r, anyof_get_d T d cs = Ok r ->
  forall s a, sat T s r a <-> existsP (fun c => sat T s c a) cs.
Proof.
  induction d as [|d IH]; cbn [anyof_get_d]; intros cs r H s a; [discriminate|].
  rewrite (get_loop_sem _ (or_with_sem _ IH) _ _ _ _ H s a). apply union_nil_l.
Qed.

Theorem anyof_get_sem cs r : anyof_get T cs = Ok r ->
  forall s a, sat T s r a <-> existsP (fun c => sat T s c a) cs.
Proof. apply anyof_get_d_sem. Qed.

Theorem c_or_sem x y v : c_or T x y = Ok v ->
  forall s a, sat T s v a <-> sat T s x a \/ sat T s y a.
Proof. apply or_with_sem. intros cs r. apply anyof_get_sem. Qed.

(* [fine P r]: r is not the out-of-fuel error, and the value it returns, if any, satisfies P *)
Definition fine {A} (P : A -> Prop) (r : res A) : Prop :=
  match r with Ok a => P a | Err e => e <> EFuel end.
Definition opt {A} (P : A -> Prop) (o : option A) : Prop :=
  match o with Some a => P a | None => True end.

Lemma fine_bind {A B} (P : B -> Prop) (r : res A) (f : A -> res B) :
  fine (fun a => fine P (f a)) r -> fine P (bind r f).
Proof. destruct r; simpl; auto. Qed.
Lemma fine_impl {A} (P Q : A -> Prop) (r : res A) : (forall a, P a -> Q a) -> fine P r -> fine Q r.
Proof. destruct r; simpl; auto. Qed.
Lemma fine_fuel {A} (P : A -> Prop) (r : res A) : fine P r -> r <> Err EFuel.
Proof. intros H E. rewrite E in H. exact (H eq_refl). Qed.

Lemma lpdepth_le l m : lpdepth l <= m <-> Forall (fun c => pdepth c <= m) l.
Proof.
  induction l as [|c r IH]; [split; [constructor | intros _; apply Nat.le_0_l]|].
  change (lpdepth (c :: r)) with (Nat.max (pdepth c) (lpdepth r)). rewrite Forall_cons_iff, <- IH. lia.
Qed.
Lemma pdepth_attrset vs : pdepth (attrset_get vs) = 0.
Proof. unfold attrset_get. destruct vs; [reflexivity|]. destruct (_ =? 1); reflexivity. Qed.

Lemma lsize_cons c l : lsize (c :: l) = csize c + lsize l.
Proof. reflexivity. Qed.
Lemma lsize_app l l' : lsize (l ++ l') = lsize l + lsize l'.
Proof. induction l as [|x r IH]; [reflexivity|]. simpl app. rewrite !lsize_cons, IH. lia. Qed.
Lemma csize_pos c : 1 <= csize c.
Proof. destruct c; simpl; lia. Qed.

Lemma scan_err : forall cs keys ab e, anyof_scan T cs keys ab = Err e -> e = EPyRDL.
Proof.
  induction cs as [|c r IH]; simpl; intros keys ab e H; [discriminate|].
  destruct (bases T c) as [b|].
  - destruct (existsb (fun k => memn k keys) b); [congruence | eauto].
  - destruct ab; [congruence|]. destruct (is_abstract_base T c); [eauto | congruence].
Qed.
Lemma mk_anyof_fine (P : constr -> Prop) cs :
  (anyof_init T cs = Ok tt -> P (CAnyOf cs)) -> fine P (mk_anyof T cs).
Proof.
  intros HP. unfold mk_anyof. destruct (anyof_init T cs) as [[]|e] eqn:E; simpl; [apply HP; reflexivity|].
  unfold anyof_init in E. destruct (anyof_scan T cs [] None) as [[keys ab]|e'] eqn:Es.
  - destruct ab as [[]|]; try discriminate E. destruct (existsb _ keys); inversion E. discriminate.
  - inversion E; subst. apply scan_err in Es. subst. discriminate.
Qed.

(* Any property Q of constraint trees that is compositional in the sense of the eight hypotheses is
   preserved by AnyOf.get (used for `constructible` and for `constructible and variable-free`), together
   with the bound on the nesting depth of ParamAttrConstraint that keeps the nested `x | y` within their
   fuel: one invariant, indexed by the depth allowed. *)
Section Preserve.
Variable Q : constr -> Prop.
Hypothesis Q_any : Q CAny.
Hypothesis Q_base : forall k, Q (CBase k).
Hypothesis Q_eq : forall a, Q (CEq a).
Hypothesis Q_set : forall vs, Q (CSet vs).
Hypothesis Q_param_mk : forall k ps, (forall p, In p ps -> Q p) -> Q (CParam k ps).
Hypothesis Q_param_inv : forall k ps, Q (CParam k ps) -> forall p, In p ps -> Q p.
Hypothesis Q_anyof_inv : forall cs, Q (CAnyOf cs) -> forall c, In c cs -> Q c.
Hypothesis Q_anyof_mk : forall cs, (forall c, In c cs -> Q c) -> anyof_init T cs = Ok tt -> Q (CAnyOf cs).

Definition inv (m : nat) (c : constr) : Prop := Q c /\ pdepth c <= m.

Lemma inv_list l m : Forall (inv m) l <-> (forall c, In c l -> Q c) /\ lpdepth l <= m.
Proof.
  rewrite lpdepth_le, !Forall_forall. unfold inv. split.
  - intros H. split; intros c Hc; apply (H c Hc).
  - intros [H1 H2] c Hc. split; auto.
Qed.
Lemma inv_param k ps m : inv (S m) (CParam k ps) <-> Forall (inv m) ps.
Proof.
  rewrite inv_list. unfold inv. change (pdepth (CParam k ps)) with (S (lpdepth ps)). split.
  - intros [Hq Hd]. split; [apply (Q_param_inv _ _ Hq) | lia].
  - intros [Hq Hd]. split; [apply Q_param_mk, Hq | lia].
Qed.
Lemma inv_anyof cs m : inv m (CAnyOf cs) -> Forall (inv m) cs.
Proof. intros [Hq Hd]. apply inv_list. split; [apply (Q_anyof_inv _ Hq) | exact Hd]. Qed.
Lemma inv_anyof_mk cs m : Forall (inv m) cs -> anyof_init T cs = Ok tt -> inv m (CAnyOf cs).
Proof. intros H Hi. apply inv_list in H as [Hq Hd]. split; [apply Q_anyof_mk; assumption | exact Hd]. Qed.
Lemma inv_attrset vs m : inv m (attrset_get vs).
Proof.
  split; [|rewrite pdepth_attrset; apply Nat.le_0_l].
  unfold attrset_get. destruct vs; [apply Q_set|]. destruct (_ =? 1); auto.
Qed.

Definition orf_ok (n : nat) (orf : constr -> constr -> res constr) : Prop :=
  forall m x y, m < n -> inv m x -> inv m y -> fine (inv m) (orf x y).

Lemma relax_params_ok orf n m : orf_ok n orf -> m < n -> forall xs ys seen acc,
  Forall (inv m) xs -> Forall (inv m) ys -> Forall (inv m) acc ->
  fine (opt (Forall (inv m))) (relax_params orf xs ys seen acc).
Proof.
  intros Hok Hm. induction xs as [|x xr IH]; intros [|y yr] seen acc Hx Hy Ha; simpl; try discriminate.
  - apply Forall_rev, Ha.
  - inversion Hx as [|? ? Hx1 Hx2]; inversion Hy as [|? ? Hy1 Hy2]; subst. destruct (ceqb x y).
    + apply IH; auto.
    + destruct seen; [exact I|]. apply fine_bind.
      eapply fine_impl; [|apply (Hok m x y Hm Hx1 Hy1)]. intros v Hv. apply IH; auto.
Qed.

Lemma relax_param_ok orf n m k xs c : orf_ok n orf -> m < n ->
  inv (S m) (CParam k xs) -> inv (S m) c -> fine (opt (inv (S m))) (relax_param orf k xs c).
Proof.
  intros Hok Hm H1 H2. destruct c; try exact I.
  - cbn [relax_param]. destruct (k =? k0); simpl; [exact H2 | exact I].
  - cbn [relax_param]. destruct (negb (k =? k0)); [exact I|]. apply inv_param in H1, H2.
    apply fine_bind. eapply fine_impl; [|apply (relax_params_ok orf n m Hok Hm); auto].
    intros [ps|] Hps; [|exact I]. apply inv_param, Hps.
Qed.

Lemma relax_default_ok m c2 c : inv m c2 -> fine (opt (inv m)) (relax_default c2 c).
Proof. intros H. unfold relax_default. destruct (ceqb c2 c); simpl; [exact H | exact I]. Qed.

Lemma relax_ok orf n m c2 c : orf_ok n orf -> m <= n ->
  inv m c2 -> inv m c -> fine (opt (inv m)) (relax orf c2 c).
Proof.
  intros Hok Hm H1 H2.
  assert (Hp : forall k xs c', inv m (CParam k xs) -> inv m c' -> fine (opt (inv m)) (relax_param orf k xs c')).
  { intros k xs c' Hk Hc'. destruct m as [|m]; [destruct Hk as [_ Hk]; inversion Hk|].
    apply (relax_param_ok orf n); auto. }
  destruct (relax_cases orf c2 c) as [vs ws _ _| | | |k xs ->|k ys ->].
  - apply inv_attrset.
  - exact I.
  - apply relax_default_ok, H1.
  - apply relax_default_ok, H2.
  - apply Hp; assumption.
  - apply Hp; assumption.
Qed.

Lemma merge_ok orf n : orf_ok n orf -> forall done c, Forall (inv n) done -> inv n c ->
  fine (opt (Forall (inv n))) (merge_into orf done c).
Proof.
  intros Hok. induction done as [|c2 r IH]; intros c Hd Hc; [exact I|].
  inversion Hd as [|? ? H2 Hr]; subst. cbn [merge_into]. apply fine_bind.
  eapply fine_impl; [|apply (relax_ok orf n n c2 c Hok (le_n _) H2 Hc)].
  intros [v|] Hv; cbn [opt] in Hv.
  - constructor; assumption.
  - apply fine_bind. eapply fine_impl; [|apply (IH c Hr Hc)].
    intros [r'|] Hr'; [|exact I]. constructor; assumption.
Qed.

Lemma loop_ok orf n : orf_ok n orf -> forall lf done todo,
  Forall (inv n) done -> Forall (inv n) todo -> lsize todo < lf ->
  fine (inv n) (get_loop T orf lf done todo).
Proof.
  intros Hok. induction lf as [|lf IH]; intros done todo Hd Ht Hl; [lia|].
  destruct todo as [|c rest].
  - simpl. destruct done as [|c0 [|c1 dr]]; try (apply mk_anyof_fine, inv_anyof_mk, Hd).
    inversion Hd; assumption.
  - rewrite get_loop_cons. inversion Ht as [|? ? Hc Hrest]; subst. rewrite lsize_cons in Hl.
    pose proof (csize_pos c). destruct (is_any c) eqn:Ea; [apply is_any_true in Ea as ->; exact Hc|].
    destruct (alts c) as [cs|] eqn:Ec.
    + apply alts_some in Ec as ->. change (csize (CAnyOf cs)) with (S (lsize cs)) in Hl.
      apply IH; [assumption | apply Forall_app; split; [apply inv_anyof, Hc | exact Hrest] |].
      rewrite lsize_app. lia.
    + apply fine_bind. eapply fine_impl; [|apply (merge_ok orf n Hok done c Hd Hc)].
      intros [d'|] Hd'; apply IH; try assumption; try lia.
      apply Forall_app; split; [exact Hd | constructor; [exact Hc | constructor]].
Qed.

Lemma get_d_ok : forall d cs m, m < d -> Forall (inv m) cs -> fine (inv m) (anyof_get_d T d cs).
Proof.
  induction d as [|d IH]; intros cs m Hd Hcs; [lia|]. cbn [anyof_get_d].
  apply (loop_ok (or_with (anyof_get_d T d)) m); [|constructor|exact Hcs|lia].
  intros m' x y Hm' Hx Hy. unfold or_with. destruct (is_any y || ceqb x y); [exact Hy|].
  apply IH; [lia | constructor; [exact Hx | constructor; [exact Hy | constructor]]].
Qed.

Lemma anyof_get_inv cs : (forall c, In c cs -> Q c) -> fine (inv (lpdepth cs)) (anyof_get T cs).
Proof.
  intros H. unfold anyof_get. apply get_d_ok; [lia | apply inv_list; split; [exact H | apply le_n]].
Qed.

Lemma anyof_get_Q cs r : (forall c, In c cs -> Q c) -> anyof_get T cs = Ok r -> Q r.
Proof. intros H E. pose proof (anyof_get_inv cs H) as F. rewrite E in F. apply F. Qed.

Lemma param_get_Q k cs r : (forall c, In c cs -> Q c) -> param_get T k cs = Ok r -> Q r.
Proof.
  intros Hcs H. unfold param_get in H. destruct (final T k && forallb is_eq cs).
  - destruct (new_attr T k (map eq_attr_of cs)); simpl in H; inversion H; subst. apply Q_eq.
  - destruct (forallb is_any cs); inversion H; subst; [apply Q_base | apply Q_param_mk; assumption].
Qed.
End Preserve.

Theorem anyof_get_fuel cs : anyof_get T cs <> Err EFuel.
Proof. eapply fine_fuel, (anyof_get_inv (fun _ => True)); auto. Qed.

Lemma constructible_get cs r :
  (forall c, In c cs -> constructible T c = true) -> anyof_get T cs = Ok r -> constructible T r = true.
Proof.
  apply (anyof_get_Q (fun c => constructible T c = true)); try reflexivity.
  - intros k ps H. simpl. apply forallb_forall. assumption.
  - intros k ps H. simpl in H. rewrite forallb_forall in H. assumption.
  - intros cs0 H. simpl in H. apply andb_true_iff in H as [H _]. rewrite forallb_forall in H. assumption.
  - intros cs0 H Hi. simpl. rewrite Hi. rewrite andb_true_r. apply forallb_forall. assumption.
Qed.

Fixpoint novar (c : constr) : bool :=
  match c with
  | CVar _ _ => false
  | CAnyOf cs => forallb (fun c => novar c) cs
  | CAllOf cs => forallb (fun c => novar c) cs
  | CParam _ cs => forallb (fun c => novar c) cs
  | CMsg _ c => novar c
  | CTypeVar _ c => novar c
  | _ => true
  end.
Definition good (c : constr) : Prop := constructible T c = true /\ novar c = true.

Lemma good_list_split cs :
  (forall c, In c cs -> good c) <->
  forallb (fun c => constructible T c) cs = true /\ forallb (fun c => novar c) cs = true.
Proof.
  rewrite !forallb_forall. unfold good. split.
  - intros H. split; intros c Hc; apply H; assumption.
  - intros [H1 H2] c Hc. split; auto.
Qed.

Lemma good_get cs r : (forall c, In c cs -> good c) -> anyof_get T cs = Ok r -> good r.
Proof.
  apply (anyof_get_Q good); try (split; reflexivity).
  - intros k ps H. apply good_list_split in H as [H1 H2]. split; simpl; assumption.
  - intros k ps [H1 H2]. simpl in H1, H2. apply good_list_split. split; assumption.
  - intros cs0 [H1 H2]. simpl in H1, H2. apply andb_true_iff in H1 as [H1 _].
    apply good_list_split. split; assumption.
  - intros cs0 H Hi. apply good_list_split in H as [H1 H2]. split; simpl; [|assumption].
    rewrite H1, Hi. reflexivity.
Qed.

Lemma good_param_get k cs r : (forall c, In c cs -> good c) -> param_get T k cs = Ok r -> good r.
Proof.
  apply (param_get_Q good); try (split; reflexivity).
  intros k0 ps H. apply good_list_split in H as [H1 H2]. split; simpl; assumption.
Qed.

Hypothesis Hfinal : forall k k', final T k = true -> sub T k' k = true -> k' = k.
Hypothesis Hrefl : forall k, sub T k k = true.

Lemma new_attr_ok k ps a : new_attr T k ps = Ok a -> a = Par k ps.
Proof.
  unfold new_attr. destruct (negb _); [discriminate|]. destruct (negb _); [discriminate|].
  destruct (negb _); [discriminate|]. congruence.
Qed.

Lemma all_eq_sat s cs : forallb is_eq cs = true ->
  forall ps, forall2P (fun c p => sat T s c p) cs ps <-> ps = map eq_attr_of cs.
Proof.
  induction cs as [|c r IH]; simpl; intros H ps.
  - destruct ps; split; intros; try tauto; discriminate.
  - apply andb_true_iff in H as [H1 H2]. destruct ps as [|p q]; [split; [tauto | discriminate]|].
    rewrite (IH H2 q). destruct c; try discriminate. simpl. split.
    + intros [-> ->]. reflexivity.
    + intros E. inversion E; subst. auto.
Qed.

Lemma all_any_sat s cs : forallb is_any cs = true ->
  forall ps, length ps = length cs -> forall2P (fun c p => sat T s c p) cs ps.
Proof.
  induction cs as [|c r IH]; simpl; intros H ps Hl.
  - destruct ps; [exact I | discriminate].
  - apply andb_true_iff in H as [H1 H2]. destruct ps as [|p q]; [discriminate|].
    split; [destruct c; try discriminate; exact I | apply IH; [assumption | simpl in Hl; lia]].
Qed.

(* ParamAttrConstraint.get: whenever it does not raise, same denotation on every attribute whose
   instances of class k are parametrized with as many parameters as there are constraints
   (true of every valid attribute when k is final and the constraint has the class's arity) *)
Theorem param_get_sem k cs r : param_get T k cs = Ok r ->
  forall s a,
  (inst T a k = true -> exists k' ps, a = Par k' ps /\ length ps = length cs) ->
  (sat T s r a <-> sat T s (CParam k cs) a).
Proof.
  intros H s a Hshape. unfold param_get in H.
  destruct (final T k && forallb is_eq cs) eqn:E1.
  - apply andb_true_iff in E1 as [Hf Heq].
    destruct (new_attr T k (map eq_attr_of cs)) as [a0|] eqn:En; simpl in H; [|discriminate].
    inversion H; subst. apply new_attr_ok in En. subst a0. simpl. split.
    + intros ->. split; [unfold inst; simpl; apply Hrefl|]. apply all_eq_sat; auto.
    + intros [Hi Hp]. assert (Hk : cls a = k) by (apply (Hfinal k (cls a)); assumption).
      destruct a as [|k' ps]; [destruct Hp|]. simpl in Hk. subst k'.
      apply all_eq_sat in Hp; [|assumption]. congruence.
  - destruct (forallb is_any cs) eqn:E2; inversion H; subst; [|tauto].
    simpl. split; [|tauto]. intros Hi. split; [assumption|].
    destruct (Hshape Hi) as [k' [ps [-> Hl]]]. apply all_any_sat; assumption.
Qed.

Lemma mapM_In {A B} (f : A -> res B) l : forall rs, mapM f l = Ok rs ->
  (forall x, In x l -> exists r, In r rs /\ f x = Ok r) /\
  (forall r, In r rs -> exists x, In x l /\ f x = Ok r).
Proof.
  induction l as [|y l IH]; simpl; intros rs H.
  - inversion H. split; intros ? [].
  - destruct (f y) as [b|] eqn:E; simpl in H; [|discriminate].
    destruct (mapM f l) as [bs|] eqn:E2; simpl in H; [|discriminate].
    inversion H; subst. destruct (IH bs eq_refl) as [Hl Hr]. split.
    + intros x [<-|Hx]; [exists b; split; [left; reflexivity | exact E]|].
      destruct (Hl x Hx) as [r [H1 H2]]. exists r. split; [right; exact H1 | exact H2].
    + intros r [<-|Hx]; [exists y; split; [left; reflexivity | exact E]|].
      destruct (Hr r Hx) as [x [H1 H2]]. exists x. split; [right; exact H1 | exact H2].
Qed.

Lemma novar_wn : forall c, novar c = true -> forall G, wn G c.
Proof.
  induction c as [| k | e0 | vs | cs H | cs H | k cs H | n c IHc | m0 c IHc | i c IHc] using constr_ind2;
    simpl; intros Hn G; auto; try discriminate;
    (apply forallP_In; rewrite forallb_forall in Hn; rewrite Forall_forall in H;
     intros c Hc; apply H; auto).
Qed.

Lemma closed_verifies c a : good c -> (verifies T c a = true <-> exists s, sat T s c a).
Proof.
  intros [Hc Hn]. apply (verifies_denotes T Hfinal (fun _ => CAny)); [exact Hc | apply novar_wn, Hn].
Qed.

Section HintInd.
Variable P : hint -> Prop.
Hypothesis PCls : forall k, P (HCls k).
Hypothesis PUnion : forall hs, Forall P hs -> P (HUnion hs).
Hypothesis PGen : forall k args, Forall P args -> P (HGen k args).
Hypothesis PAnnot : forall h cs, P h -> P (HAnnot h cs).
Fixpoint hint_ind2 (h : hint) : P h :=
  let go := fix go (l : list hint) : Forall P l :=
              match l with
              | [] => Forall_nil _
              | x :: r => Forall_cons _ (hint_ind2 x) (go r)
              end in
  match h with
  | HCls k => PCls k
  | HUnion hs => PUnion hs (go hs)
  | HGen k args => PGen k args (go args)
  | HAnnot h cs => PAnnot h cs (hint_ind2 h)
  end.
End HintInd.

(* what is assumed of a hint: the constraints a user puts into Annotated[...], and the parameter definitions of
   a generic class, are constructible and variable-free (at every level of a union or of type arguments) *)
Fixpoint hint_ok (h : hint) : Prop :=
  match h with
  | HCls _ => True
  | HUnion hs => forallP (fun h => hint_ok h) hs
  | HGen k args => forallP (fun h => hint_ok h) args /\ forallP good (cdef T k)
                   (* the generic class's parameter definitions use no constraint variables *)
  | HAnnot h cs => hint_ok h /\ forallP good cs
  end.

Hypothesis Hroot : forall k, sub T k 0 = true.          (* class 0 is `Attribute` *)

Lemma mapM_good {A} (f : A -> res constr) l rs :
  mapM f l = Ok rs -> (forall x r, In x l -> f x = Ok r -> good r) -> forall r, In r rs -> good r.
Proof.
  intros H Hg r Hr. destruct (proj2 (mapM_In _ _ _ H) r Hr) as [x [H1 H2]].
  eapply Hg; eauto.
Qed.

Lemma good_allof vs : (forall v, In v vs -> good v) -> good (CAllOf vs).
Proof. intros H. apply good_list_split in H as [H1 H2]. split; simpl; assumption. Qed.

Lemma map_tv_good m : (forall v, In v m -> good v) -> forall c r, good c -> map_tv T m c = Ok r -> good r.
Proof.
  intros Hm.
  induction c as [| k | e0 | vs | cs H | cs H | k cs H | n c IHc | m0 c IHc | i c IHc] using constr_ind2;
    intros r Hg Hr; simpl in Hr; try (inversion Hr; subst; assumption).
  - destruct (mapM (fun c => map_tv T m c) cs) as [vs0|] eqn:E; simpl in Hr; [|discriminate].
    eapply good_get; [|exact Hr]. eapply mapM_good; [exact E|].
    intros x r0 Hx Hx0. rewrite Forall_forall in H. apply (H x Hx r0); [|assumption].
    destruct Hg as [H1 H2]. simpl in H1, H2. apply andb_true_iff in H1 as [H1 _].
    rewrite forallb_forall in H1, H2. split; auto.
  - destruct (mapM (fun c => map_tv T m c) cs) as [vs0|] eqn:E; simpl in Hr; [|discriminate].
    inversion Hr; subst. apply good_allof. eapply mapM_good; [exact E|].
    intros x r0 Hx Hx0. rewrite Forall_forall in H. apply (H x Hx r0); [|assumption].
    destruct Hg as [H1 H2]. simpl in H1, H2. rewrite forallb_forall in H1, H2. split; auto.
  - destruct (mapM (fun c => map_tv T m c) cs) as [vs0|] eqn:E; simpl in Hr; [|discriminate].
    eapply good_param_get; [|exact Hr]. eapply mapM_good; [exact E|].
    intros x r0 Hx Hx0. rewrite Forall_forall in H. apply (H x Hx r0); [|assumption].
    destruct Hg as [H1 H2]. simpl in H1, H2. rewrite forallb_forall in H1, H2. split; auto.
  - destruct Hg as [_ H2]. simpl in H2. discriminate.
  - destruct (map_tv T m c) as [v|] eqn:E; simpl in Hr; [|discriminate]. inversion Hr; subst.
    destruct Hg as [H1 H2]. simpl in H1, H2. destruct (IHc v (conj H1 H2) eq_refl) as [G1 G2].
    split; simpl; assumption.
  - destruct (nth_error m i) as [v|] eqn:E; [|discriminate]. inversion Hr; subst.
    apply Hm. eapply nth_error_In; eauto.
Qed.

Lemma hint_good : forall h, hint_ok h -> forall c, hint_constr T h = Ok c -> good c.
Proof.
  induction h as [k | hs IH | k args IH | h cs IH] using hint_ind2; intros Hok c Hc; simpl in Hok, Hc.
  - inversion Hc; subst. destruct (k =? 0); split; reflexivity.
  - destruct (mapM (fun h => hint_constr T h) hs) as [cs|] eqn:E; simpl in Hc; [|discriminate].
    eapply good_get; [|exact Hc]. eapply mapM_good; [exact E|].
    intros x r Hx Hr. rewrite Forall_forall in IH. rewrite forallP_In in Hok. eapply IH; eauto.
  - destruct Hok as [Hok Hdef]. destruct (negb (length args =? ntv T k)); [discriminate|].
    destruct (mapM (fun h => hint_constr T h) args) as [m|] eqn:E; simpl in Hc; [|discriminate].
    change (map_tv T m (CParam k (cdef T k)) = Ok c) in Hc.
    eapply (map_tv_good m); [| |exact Hc].
    + eapply mapM_good; [exact E|].
      intros x r Hx Hr. rewrite Forall_forall in IH. rewrite forallP_In in Hok. eapply IH; eauto.
    + rewrite forallP_In in Hdef.
      apply good_list_split in Hdef as [H1 H2]. split; simpl; assumption.
  - destruct Hok as [Hok1 Hok2]. destruct (hint_constr T h) as [c0|] eqn:E; simpl in Hc; [|discriminate].
    specialize (IH Hok1 c0 eq_refl). destruct cs as [|c1 cr]; inversion Hc; subst; [assumption|].
    apply good_allof. rewrite forallP_In in Hok2. intros v [<-|Hv]; auto.
Qed.

Lemma any_res_spec {A} (f : A -> res bool) l b : any_res f l = Ok b ->
  (b = true -> exists h, In h l /\ f h = Ok true) /\ (b = false -> forall h, In h l -> f h = Ok false).
Proof.
  revert b. induction l as [|h r IH]; simpl; intros b H.
  - inversion H; subst. split; [discriminate | intros _ h []].
  - destruct (f h) as [b0|] eqn:E; simpl in H; [|discriminate]. destruct b0.
    + inversion H; subst. split; [intros _; exists h; auto | discriminate].
    + destruct (IH b H) as [H1 H2]. split.
      * intros Hb. destruct (H1 Hb) as [h0 [Hi Hf]]. exists h0. auto.
      * intros Hb h0 [<-|Hi]; auto.
Qed.

Theorem hint_agrees a : forall h, hint_ok h -> forall c b,
  hint_constr T h = Ok c -> isa T a h = Ok b -> verifies T c a = b.
Proof.
  induction h as [k | hs IH | k args IH | h cs IH] using hint_ind2; intros Hok c b Hc Hi.
  - simpl in Hc, Hi. inversion Hc; inversion Hi; subst. destruct (k =? 0) eqn:E.
    + apply Nat.eqb_eq in E. subst. unfold verifies, inst. simpl. symmetry. apply Hroot.
    + reflexivity.
  - pose proof (hint_good _ Hok _ Hc) as Hgood. simpl in Hc, Hi, Hok.
    destruct (mapM (fun h => hint_constr T h) hs) as [cs|] eqn:E; simpl in Hc; [|discriminate].
    destruct (mapM_In _ _ _ E) as [HFl HFr]. rewrite Forall_forall in IH. rewrite forallP_In in Hok.
    assert (Hcs : forall c0, In c0 cs -> good c0).
    { intros c0 Hc0. destruct (HFr c0 Hc0) as [h0 [H1 H2]]. eapply hint_good; eauto. }
    destruct (any_res_spec _ _ _ Hi) as [Ht Hf]. destruct b.
    + destruct (Ht eq_refl) as [h0 [Hh0 Hisa]]. destruct (HFl h0 Hh0) as [c0 [Hc0 Hhc]].
      pose proof (IH h0 Hh0 (Hok h0 Hh0) c0 true Hhc Hisa) as Hv.
      apply (closed_verifies c0 a (Hcs c0 Hc0)) in Hv as [s Hs].
      apply (closed_verifies c a Hgood). exists s. apply (anyof_get_sem _ _ Hc). apply existsP_In. eauto.
    + destruct (verifies T c a) eqn:Ev; [|reflexivity]. exfalso.
      apply (closed_verifies c a Hgood) in Ev as [s Hs]. apply (anyof_get_sem _ _ Hc) in Hs.
      apply existsP_In in Hs as [c0 [Hc0 Hs0]].
      destruct (HFr c0 Hc0) as [h0 [Hh0 Hhc]].
      assert (Hv : verifies T c0 a = true) by (apply (closed_verifies c0 a (Hcs c0 Hc0)); eauto).
      rewrite (IH h0 Hh0 (Hok h0 Hh0) c0 false Hhc (Hf eq_refl h0 Hh0)) in Hv. discriminate.
  - cbn [isa] in Hi. rewrite Hc in Hi. simpl in Hi. inversion Hi. reflexivity.
  - simpl in Hi. discriminate.
Qed.

End Get.
