(* C13/ProofsIter.v -- the pass as repaired in 12db68a (`while region_dce(op.body): pass`, model
   dce_pass_iter) terminates within its fuel: every run that reports a change removes something. *)
From Coq Require Import List Arith Bool Lia.
From XV Require Import C24.Model C13.Model C13.Proofs.
Import ListNotations.

Lemma msz_op_eq o : msz_op o = S (list_sum (map msz_region (o_regs o))).
Proof. destruct o; reflexivity. Qed.

Lemma msz_op_pos o : 0 < msz_op o.
Proof. rewrite msz_op_eq. lia. Qed.

Definition shrinks_op (L : nat -> bool) (o : op) : Prop :=
  msz_op (dd_op L o) <= msz_op o /\ (ddc_op L o = true -> msz_op (dd_op L o) < msz_op o).

Lemma shrinks_block L b : (forall y, In y (b_ops b) -> shrinks_op L y) ->
  msz_block (dd_block L b) <= msz_block b /\ (ddc_block L b = true -> msz_block (dd_block L b) < msz_block b).
Proof.
  intros Hop. unfold msz_block. rewrite dd_block_ops.
  assert (Hle : forall y, In y (b_ops b) -> msz_op (dd_op L y) <= msz_op y) by (intros y Hy; apply (Hop y Hy)).
  split.
  - apply le_n_S. apply (sum_cond_le (fun x => L (o_id x)) (dd_op L) msz_op). exact Hle.
  - intros Hd. apply -> Nat.succ_lt_mono. apply (sum_cond_lt (fun x => L (o_id x)) (dd_op L) msz_op); [exact Hle|].
    unfold ddc_block in Hd. apply existsb_exists in Hd. destruct Hd as (x & Hx & Hd). exists x. split; auto.
    destruct (L (o_id x)) eqn:El; simpl in Hd.
    + right. apply (Hop x Hx). exact Hd.
    + left. split; auto. apply msz_op_pos.
Qed.

Lemma msz_block_pos b : 0 < msz_block b.
Proof. unfold msz_block. lia. Qed.

Lemma msz_region_cons b r : msz_region (b :: r) = msz_block b + msz_region r.
Proof. reflexivity. Qed.

Lemma shrinks_region_aux L rg : (forall b y, In b rg -> In y (b_ops b) -> shrinks_op L y) ->
  msz_region (dd_region L rg) <= msz_region rg /\
  (ddc_region L rg = true -> msz_region (dd_region L rg) < msz_region rg).
Proof.
  intros Hop.
  assert (Hblk : forall b, In b rg -> msz_block (dd_block L b) <= msz_block b /\
                   (ddc_block L b = true -> msz_block (dd_block L b) < msz_block b)).
  { intros b Hb. apply shrinks_block. intros y Hy. apply (Hop b y Hb Hy). }
  destruct rg as [|first rest]; [simpl; split; [lia|discriminate]|].
  unfold dd_region. rewrite !msz_region_cons. unfold msz_region.
  destruct (Hblk first (or_introl eq_refl)) as [H1 H1s].
  assert (Hle : forall b, In b rest -> msz_block (dd_block L b) <= msz_block b)
    by (intros b Hb; apply (Hblk b (or_intror Hb))).
  assert (H2 := sum_cond_le (has_live L) (dd_block L) msz_block rest Hle).
  split; [lia|]. intros Hd. simpl in Hd. apply orb_true_iff in Hd. destruct Hd as [Hd|Hd]; [specialize (H1s Hd); lia|].
  assert (H2s : list_sum (map msz_block (flat_map (fun b => if has_live L b then [dd_block L b] else []) rest))
                < list_sum (map msz_block rest)).
  { apply (sum_cond_lt (has_live L) (dd_block L) msz_block); [exact Hle|].
    apply existsb_exists in Hd. destruct Hd as (b & Hb & Hd). exists b. split; auto.
    destruct (has_live L b) eqn:Eh; simpl in Hd.
    - right. apply (Hblk b (or_intror Hb)). exact Hd.
    - left. split; auto. apply msz_block_pos. }
  lia.
Qed.

Lemma shrinks_op_all L o : shrinks_op L o.
Proof.
  induction o as [o IH] using op_ind2. unfold shrinks_op.
  rewrite dd_op_eq, (msz_op_eq o), msz_op_eq.
  change (o_regs (set_regs o (map (dd_region L) (o_regs o)))) with (map (dd_region L) (o_regs o)).
  assert (Hreg : forall rg, In rg (o_regs o) -> msz_region (dd_region L rg) <= msz_region rg /\
                   (ddc_region L rg = true -> msz_region (dd_region L rg) < msz_region rg)).
  { intros rg Hrg. apply shrinks_region_aux. intros b y Hb Hy. apply (IH rg b y Hrg Hb Hy). }
  assert (Hle : forall rg, In rg (o_regs o) -> msz_region (dd_region L rg) <= msz_region rg)
    by (intros rg Hrg; apply (Hreg rg Hrg)).
  split.
  - apply le_n_S. apply (sum_map_le (dd_region L) msz_region). exact Hle.
  - intros Hd. apply -> Nat.succ_lt_mono. apply (sum_map_lt (dd_region L) msz_region); [exact Hle|].
    rewrite ddc_op_eq in Hd. apply existsb_exists in Hd. destruct Hd as (rg & Hrg & Hd).
    exists rg. split; auto. apply (Hreg rg Hrg). exact Hd.
Qed.

Lemma shrinks_region L rg :
  msz_region (dd_region L rg) <= msz_region rg /\
  (ddc_region L rg = true -> msz_region (dd_region L rg) < msz_region rg).
Proof. apply shrinks_region_aux. intros b y _ _. apply shrinks_op_all. Qed.

Lemma dce_iter_terminates fuel : forall r, msz_region r < fuel -> exists r'', dce_iter fuel r = Some r''.
Proof.
  induction fuel as [|f IH]; intros r Hf; [lia|]. simpl.
  destruct (region_dce_unfold r) as (st & _ & _ & E). rewrite E.
  destruct (ddc_region (Lof st) r) eqn:Ed; [|eauto].
  apply IH. destruct (shrinks_region (Lof st) r) as [_ Hlt]. specialize (Hlt Ed). lia.
Qed.

(* the repaired pass terminates and its result is complete *)
Theorem dce_pass_iter_total r : NoDup (ids (walk_region r)) ->
  exists r'', dce_pass_iter r = Some r'' /\ complete r''.
Proof.
  intros Hnd. unfold dce_pass_iter.
  destruct (dce_iter_terminates (S (msz_region r)) r (Nat.lt_succ_diag_r _)) as [r'' E].
  exists r''. split; [exact E|]. eapply dce_iter_complete; eauto.
Qed.
