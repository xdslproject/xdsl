(* Props/C25.v -- property C25: the liveness data-flow analysis computes its specified fixpoint
   under any schedule.  Theorem statements closed by `exact`, and one non-vacuity example (own program
   `ex_prog`) by evaluation.
   Spec: `Live P v` (top of C25/Proofs.v): v is an operand of an op that is not trivially dead
   (`removable = false`: side effects, terminators such as func.return of public and private
   functions, symbol ops), or an operand of an op one of whose results is Live.
   Model: C25/Model.v (`solve P ord choose`: both load orders `ord` of DeadCodeAnalysis and
   LivenessAnalysis; `choose k w` = which member of worklist w is popped at step k, arbitrary).
   C25_step_decreases speaks of the solver invariant and the potential of C25/Proofs.v: `good P all s` -- the block is
   executable, the dependency lists are well-formed, only Live values are marked, and every op with operands is on
   the worklist or settled (`all` = every op); `pot P s` = |worklist| + number of result slots still dead. *)
From Coq Require Import List Arith Bool.
From XV Require Import C25.Model C25.Proofs.
Import ListNotations.

(* the solver loop terminates within |ops| + |results| pops, for every program, load order and
   pop choice; it stops with an empty worklist *)
Theorem C25_terminates : forall (P : list op) ord choose,
  exists s, solve P ord choose = Some s /\ wl s = [].
Proof. exact solve_terminates. Qed.
Print Assumptions C25_terminates.

(* the final lattice is exactly backward reachability, whatever was popped when *)
Theorem C25_sound_complete : forall (P : list op) ord choose s,
  solve P ord choose = Some s -> forall v, live s v = true <-> Live P v.
Proof. exact solve_sound_complete. Qed.
Print Assumptions C25_sound_complete.

(* ... also when the loop is given any other amount of fuel and happens to finish *)
Theorem C25_sound_complete_any_fuel : forall (P : list op) ord choose fuel s,
  run P fuel choose 0 (initialize P ord) = Some s -> forall v, live s v = true <-> Live P v.
Proof. exact run_sound_complete. Qed.
Print Assumptions C25_sound_complete_any_fuel.

(* hence the result depends neither on the schedule nor on the load order of the two analyses *)
Theorem C25_schedule_independent : forall (P : list op) ord1 ord2 choose1 choose2 s1 s2,
  solve P ord1 choose1 = Some s1 -> solve P ord2 choose2 = Some s2 -> forall v, live s1 v = live s2 v.
Proof. exact solve_schedule_independent. Qed.
Print Assumptions C25_schedule_independent.

(* every step of the loop (any member popped) strictly decreases
   |worklist| + number of result slots whose lattice is still dead: a lattice flips at most once and
   each flip enqueues at most one item per result slot it occupies *)
Theorem C25_step_decreases : forall (P : list op) s j d,
  good P all s -> j < length (wl s) ->
  let s' := visit P (nth j (wl s) d) (set_wl (remove_nth j (wl s)) s) in
  good P all s' /\ S (pot P s') <= pot P s.
Proof. exact good_step. Qed.
Print Assumptions C25_step_decreases.

(* on termination the event log contains no value twice as flipped, and the flipped values are
   exactly the live ones: every lattice changes at most once, whatever the schedule *)
Theorem C25_flips_once : forall (P : list op) ord choose s, solve P ord choose = Some s ->
  NoDup (flips (log s)) /\ forall v, In v (flips (log s)) <-> live s v = true.
Proof. exact solve_flips_once. Qed.
Print Assumptions C25_flips_once.

(* non-vacuity: a private function  %2 = const; %3 = addi %1,%2; %4 = addi %3,%3 (dead chain, used only
   by the dead pure op producing %10); store %3 -> %0[%2]; %5 = load; %6 = call(%5); %7,%8 = pure(%6);
   %9 = read(%8); write(%9); %10 = pure(%4); return %7.   FIFO, LIFO and a mixed schedule, both load
   orders, give: everything live except %4 and %10. *)
Definition ex_prog : list op :=
  [ {| results := [2]; operands := []; removable := true |};
    {| results := [3]; operands := [1; 2]; removable := true |};
    {| results := [4]; operands := [3; 3]; removable := true |};
    {| results := []; operands := [3; 0; 2]; removable := false |};
    {| results := [5]; operands := [0; 2]; removable := true |};
    {| results := [6]; operands := [5]; removable := false |};
    {| results := [7; 8]; operands := [6]; removable := true |};
    {| results := [9]; operands := [8]; removable := true |};
    {| results := []; operands := [9]; removable := false |};
    {| results := [10]; operands := [4]; removable := true |};
    {| results := []; operands := [7]; removable := false |} ].
Definition final_live (ord : load_order) (choose : nat -> list item -> nat) : option (list bool) :=
  match solve ex_prog ord choose with Some s => Some (map (live s) (seq 0 11)) | None => None end.
Example C25_nonvacuous :
  let expect := Some [true; true; true; true; false; true; true; true; true; true; false] in
  final_live DcaFirst (fun _ _ => 0) = expect /\ final_live LivFirst (fun _ _ => 0) = expect
  /\ final_live DcaFirst (fun _ w => length w - 1) = expect
  /\ final_live LivFirst (fun _ w => length w - 1) = expect
  /\ final_live LivFirst (fun k w => 7 * k + length w) = expect.
Proof. vm_compute. repeat split; reflexivity. Qed.
Print Assumptions C25_nonvacuous.
