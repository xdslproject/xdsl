(* C19/ProofsOp.v -- HasRegisterConstraints.allocate_registers preserves the allocator invariant:
   the phases (in/out groups, a list of allocate_value calls, frees) as folds of the primitive steps
   of ProofsAlloc.v. *)
From Coq Require Import ZArith List Bool Arith Lia.
From XV Require Import C19.Model C19.ProofsSpec C19.ProofsStack C19.ProofsAlloc.
Import ListNotations.
Local Open Scope Z_scope.

Definition pairvals (ios : list (value * value)) : list value :=
  flat_map (fun p => [fst p; snd p]) ios.

Lemma pairvals_in : forall ios x y, In (x, y) ios -> In x (pairvals ios) /\ In y (pairvals ios).
Proof.
  intros ios x y H. split; apply in_flat_map; exists (x, y); simpl; auto.
Qed.

Lemma pairvals_inv : forall ios v, In v (pairvals ios) -> In v (map fst ios) \/ In v (map snd ios).
Proof.
  intros ios v H. apply in_flat_map in H. destruct H as [p [Hin [<-|[<-|[]]]]].
  - left. exact (in_map fst ios p Hin).
  - right. exact (in_map snd ios p Hin).
Qed.

Lemma in_map_fst : forall (ios : list (value * value)) x, In x (map fst ios) -> exists y, In (x, y) ios.
Proof. intros ios x H. apply in_map_iff in H. destruct H as [[a b] [<- H]]. exists b. exact H. Qed.
Lemma in_map_snd : forall (ios : list (value * value)) y, In y (map snd ios) -> exists x, In (x, y) ios.
Proof. intros ios y H. apply in_map_iff in H. destruct H as [[a b] [<- H]]. exists a. exact H. Qed.

Lemma nodup_map_inj : forall {A B} (f : A -> B) l a1 a2,
  NoDup (map f l) -> In a1 l -> In a2 l -> f a1 = f a2 -> a1 = a2.
Proof.
  intros A B f l a1 a2. induction l as [|a t IH]; intros Hnd H1 H2 Hf; [destruct H1|].
  simpl in Hnd. inversion Hnd as [|? ? Hn Hd]; subst. destruct H1 as [<-|H1]; destruct H2 as [<-|H2].
  - reflexivity.
  - destruct Hn. rewrite Hf. exact (in_map f t a2 H2).
  - destruct Hn. rewrite <- Hf. exact (in_map f t a1 H1).
  - exact (IH Hd H1 H2 Hf).
Qed.

Section Op.
  Variable c : cfg.
  Variable t0 : value -> option Z.
  Variable FR : value -> Z -> Prop.
  Hypothesis FR_pre : forall v r, t0 v = Some r -> FR v r.

  Notation Inv := (Inv c t0 FR).
  Notation Pset := (Pset t0).

  Definition setof (S : value -> Prop) (acc : list value) : value -> Prop := fun v => S v \/ In v acc.

  Lemma setof_nil : forall (S : value -> Prop) w, setof S [] w <-> S w.
  Proof. intros S w. split; [intros [H|[]]; exact H | intros H; left; exact H]. Qed.
  Lemma setof_cons : forall (S : value -> Prop) v t w, setof S (v :: t) w <-> setof (addv S v) t w.
  Proof.
    intros S v t w. split.
    - intros [H|[H|H]]; [left; left | left; right; symmetry | right]; exact H.
    - intros [[H|H]|H]; [left | right; left; symmetry | right; right]; exact H.
  Qed.
  Lemma setof_app : forall (S : value -> Prop) l1 l2 w, setof S (l1 ++ l2) w <-> setof (setof S l1) l2 w.
  Proof.
    intros S l1 l2 w. unfold setof. split.
    - intros [H|H]; [left; left; exact H|]. apply in_app_or in H. destruct H as [H|H]; [left; right | right]; exact H.
    - intros [[H|H]|H]; [left; exact H | right; apply in_or_app; left; exact H | right; apply in_or_app; right; exact H].
  Qed.

  Lemma setof_pre : forall (S M : value -> Prop) acc v, S v \/ ~ M v -> setof S acc v \/ ~ setof M acc v.
  Proof.
    intros S M acc v H. destruct (in_dec Nat.eq_dec v acc) as [Hacc|Hacc]; [left; right; exact Hacc|].
    destruct H as [H|H]; [left; left; exact H | right; intros [Hc|Hc]; contradiction].
  Qed.

  (* only exemptions between protected values matter *)
  Lemma Inv_E_restrict : forall (L : value -> Prop) (E E' : value -> value -> Prop) M a,
    Inv L E M a -> (forall x y, L x -> L y -> E x y -> E' x y) -> Inv L E' M a.
  Proof.
    intros L E E' M a [Hs [H1 [H2 Hf]]] HE. split; [exact Hs|]. split; [exact H1|]. split; [|exact Hf].
    intros v1 v2 r Hv1 Hv2 Hne Hq1 Hq2. destruct (H2 v1 v2 r Hv1 Hv2 Hne Hq1 Hq2) as [H|[H|H]]; auto.
  Qed.

  Lemma Inv_E_weaken : forall L (E E' : value -> value -> Prop) M a,
    Inv L E M a -> (forall x y, E x y -> E' x y) -> Inv L E' M a.
  Proof. intros L E E' M a HI HE. apply (Inv_E_restrict L E E' M a HI). intros x y _ _. apply HE. Qed.

  Lemma alloc_list : forall E vs (L M : value -> Prop) a a',
    Inv L E M a ->
    (forall v, In v vs -> L v \/ ~ M v) ->
    fold_res (allocate_value c) vs a = Ok a' ->
    Inv (setof L vs) E (setof M vs) a' /\ mono a a'
    /\ (forall v, In v vs -> exists r, ty a' v = Some r)
    /\ (forall w, ~ In w vs -> ty a' w = ty a w).
  Proof.
    intros E vs. induction vs as [|v t IH]; intros L M a a' HI Hpre Hfold; simpl in Hfold.
    - injection Hfold as <-. split; [|split; [intros w q H; exact H | split; [intros v [] | reflexivity]]].
      apply (Inv_weaken c t0 FR L _ E M _ a HI); intros w; apply setof_nil.
    - destruct (allocate_value c v a) as [a1|e] eqn:Eal; simpl in Hfold; [|discriminate].
      destruct (allocate_value_inv c t0 FR FR_pre L E M a v a1 HI (Hpre v (or_introl eq_refl)) Eal)
        as [HI1 [Hm1 [[r1 Hr1] Hoth1]]].
      destruct (IH (addv L v) (addv M v) a1 a' HI1) as [HI2 [Hm2 [Hex2 Hoth2]]]; [|exact Hfold|].
      { intros w Hw. destruct (Nat.eq_dec w v) as [->|Hne]; [left; right; reflexivity|].
        destruct (Hpre w (or_intror Hw)) as [H|H]; [left; left; exact H | right; intros [Hc|Hc]; contradiction]. }
      split; [apply (Inv_weaken c t0 FR _ _ E _ _ a' HI2); intros w; apply setof_cons|].
      split; [intros w q H; exact (Hm2 w q (Hm1 w q H))|]. split.
      + intros w [<-|Hw]; [exists r1; exact (Hm2 v r1 Hr1) | exact (Hex2 w Hw)].
      + intros w Hw. rewrite (Hoth2 w), (Hoth1 w); [reflexivity | intros -> | intro Hc]; apply Hw; simpl; auto.
  Qed.

  Lemma free_phase : forall E (M : value -> Prop) ds (L : value -> Prop) a,
    Inv L E M a ->
    (forall d, In d ds -> L d /\ (exists r, ty a d = Some r) /\ forall w, ~ E d w /\ ~ E w d) ->
    NoDup ds ->
    Inv (fun v => L v /\ ~ In v ds) E M (fold_left (fun a v => free_value v a) ds a)
    /\ ty (fold_left (fun a v => free_value v a) ds a) = ty a.
  Proof.
    intros E M ds. induction ds as [|d t IH]; intros L a HI Hpre Hnd; simpl.
    - split; [|reflexivity]. apply (Inv_weaken c t0 FR L _ E M M a HI); [intros v [Hv _]; exact Hv | intros v Hv; exact Hv].
    - inversion Hnd as [|? ? Hn Hd]; subst.
      destruct (Hpre d (or_introl eq_refl)) as [HLd [[r Hr] HE]].
      destruct (free_inv c t0 FR L E M a d r HI HLd Hr HE) as [HI1 Hty1].
      destruct (IH (delv L d) (free_value d a) HI1) as [HI2 Hty2]; [|exact Hd|].
      { intros d' Hd'. destruct (Hpre d' (or_intror Hd')) as [HL' [Hr' HE']]. rewrite Hty1.
        split; [split; [exact HL' | intros ->; exact (Hn Hd')] | split; assumption]. }
      split; [|rewrite Hty2; exact Hty1].
      apply (Inv_weaken c t0 FR _ _ E M M _ HI2); [|intros v Hv; exact Hv].
      intros v [Hv Hnin]. split; [split; [exact Hv | intros ->] | intro Hc]; apply Hnin; simpl; auto.
  Qed.

  Lemma io_phase : forall (E : value -> value -> Prop) ios (L M : value -> Prop) a a',
    Inv L E M a ->
    (forall x y, In (x, y) ios -> tie_ok c FR E x y /\ ~ M x /\ (L y \/ ~ M y)) ->
    NoDup (map fst ios) -> NoDup (map snd ios) ->
    (forall x y, In x (map fst ios) -> In y (map snd ios) -> x <> y) ->
    fold_res (fun p a => allocate_values_same_reg [fst p; snd p] a) ios a = Ok a' ->
    Inv (setof L (pairvals ios)) E (setof M (pairvals ios)) a' /\ mono a a'
    /\ (forall x y, In (x, y) ios -> exists r, ty a' x = Some r /\ ty a' y = Some r)
    /\ (forall w, ~ In w (pairvals ios) -> ty a' w = ty a w).
  Proof.
    intros E ios. induction ios as [|[x y] t IH]; intros L M a a' HI Hpre Hf Hs Hdis Hfold; simpl in Hfold.
    - injection Hfold as <-. split; [|split; [intros w q H; exact H | split; [intros ? ? [] | reflexivity]]].
      apply (Inv_weaken c t0 FR L _ E M _ a HI); intros w; apply setof_nil.
    - destruct (allocate_values_same_reg [x; y] a) as [a1|e] eqn:Eal; simpl in Hfold; [|discriminate].
      change (pairvals ((x, y) :: t)) with (x :: y :: pairvals t) in *.
      destruct (Hpre x y (or_introl eq_refl)) as [Htie [HMx HLy]].
      destruct (same_reg_pair_inv c t0 FR FR_pre L E M a x y a1 HI Htie HMx HLy Eal)
        as [HI1 [Hm1 [[r1 [Hr1x Hr1y]] Hoth1]]].
      simpl in Hf, Hs. inversion Hf as [|? ? Hfn Hfd]; subst. inversion Hs as [|? ? Hsn Hsd]; subst.
      destruct (IH (addv (addv L x) y) (addv (addv M x) y) a1 a' HI1) as [HI2 [Hm2 [Hex2 Hoth2]]];
        [|exact Hfd | exact Hsd | intros u w Hu Hw; apply Hdis; right; assumption | exact Hfold|].
      { (* a later pair shares no value with (x, y) *)
        intros x' y' Hin. destruct (Hpre x' y' (or_intror Hin)) as [Htie' [HMx' HLy']].
        pose proof (in_map fst t _ Hin) as Px. pose proof (in_map snd t _ Hin) as Py. simpl in Px, Py.
        assert (Nx1 : x' <> x) by (intros ->; exact (Hfn Px)).
        assert (Nx2 : x' <> y) by (apply Hdis; [right; exact Px | left; reflexivity]).
        assert (Ny1 : y' <> x) by (intros ->; exact (Hdis x x (or_introl eq_refl) (or_intror Py) eq_refl)).
        assert (Ny2 : y' <> y) by (intros ->; exact (Hsn Py)).
        split; [exact Htie'|]. split; [intros [[Hc|Hc]|Hc]; contradiction|].
        destruct HLy' as [H|H]; [left; left; left; exact H | right; intros [[Hc|Hc]|Hc]; contradiction]. }
      split.
      { apply (Inv_weaken c t0 FR _ _ E _ _ a' HI2); intros w Hw.
        - exact (proj1 (setof_cons _ y _ w) (proj1 (setof_cons L x _ w) Hw)).
        - exact (proj2 (setof_cons M x _ w) (proj2 (setof_cons _ y _ w) Hw)). }
      split; [intros w q H; exact (Hm2 w q (Hm1 w q H))|]. split.
      + intros x' y' [Hin|Hin]; [|exact (Hex2 x' y' Hin)].
        injection Hin as <- <-. exists r1. split; apply Hm2; assumption.
      + intros w Hw. rewrite (Hoth2 w), (Hoth1 w); [reflexivity | intros -> | intros -> | intro Hc];
          apply Hw; simpl; auto.
  Qed.
End Op.
