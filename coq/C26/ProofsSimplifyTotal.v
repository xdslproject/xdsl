(* C26/ProofsSimplifyTotal.v -- `simplify` returns
   (raises nothing) on every pure affine expression whose dimensions/symbols are in range,
   whose products have the constant on the right and whose divisors are positive constants. *)
From Coq Require Import ZArith List Bool Arith Lia.
From XV Require Import C26.Model C26.ProofsAlg C26.ProofsSimplify.
Import ListNotations.
Local Open Scope Z_scope.

Section Total.
  Variables (nd ns : nat).

  Fixpoint flattenable (e : expr) : Prop :=
    match e with
    | Dim p => (p < nd)%nat
    | Sym p => (p < ns)%nat
    | Const _ => True
    | Bin Add l r => flattenable l /\ flattenable r
    | Bin Mul l r => (exists c, r = Const c) /\ flattenable l
    | Bin _ l r => (exists c, r = Const c /\ 0 < c) /\ flattenable l
    end.

  Lemma flattenable_pure e : flattenable e -> is_pure_affine e = true.
  Proof.
    induction e as [p|p|v|k l IHl r IHr]; simpl; auto. intros H. destruct k.
    3-5: destruct H as [[c [-> _]] Hl]; exact (IHl Hl).
    - destruct H as [Hl Hr]. rewrite IHl, IHr; auto.
    - destruct H as [[c ->] Hl]. simpl. rewrite IHl; auto. rewrite orb_true_r. reflexivity.
  Qed.

  Lemma walk_spec d s : length d = nd -> length s = ns ->
    forall e, flattenable e -> forall st es lv,
    Inv nd ns d s st es lv -> returns_inv nd ns d s (walk nd ns e st) (e :: es).
  Proof.
    intros Hd Hs. induction e as [p|p|v|k l IHl r IHr]; intros He st es lv HI.
    - exact (proj2 (visit_dim_spec _ _ _ _ Hd Hs _ _ _ p HI) He).
    - exact (proj2 (visit_sym_spec _ _ _ _ Hd Hs _ _ _ p HI) He).
    - exact (visit_const_spec _ _ _ _ Hd Hs _ _ _ v HI).
    - assert (Hl : flattenable l) by (destruct k; simpl in He; tauto).
      destruct (IHl Hl _ _ _ HI) as [st1 [lv1 [E1 HI1]]]. cbn [walk]. rewrite E1. cbn [bind].
      destruct k; simpl in He.
      4-5: destruct He as [[c [-> Hc]] _]; exact (proj2 (visit_div_spec _ _ _ _ Hd Hs _ _ _ _ c _ HI1) Hc).
      + destruct He as [_ Hr]. destruct (IHr Hr _ _ _ HI1) as [st2 [lv2 [E2 HI2]]]. rewrite E2.
        exact (visit_add_spec _ _ _ _ Hd Hs _ _ _ _ _ HI2).
      + destruct He as [[c ->] _]. exact (visit_mul_spec _ _ _ _ Hd Hs _ _ _ _ c HI1).
      + destruct He as [[c [-> Hc]] _]. exact (proj2 (visit_mod_spec _ _ _ _ Hd Hs _ _ _ _ c HI1) Hc).
  Qed.

  Theorem simplify_total e : flattenable e -> exists e', simplify nd ns e = Ok e'.
  Proof.
    intros He. unfold simplify, flattener_simplify. rewrite (flattenable_pure e He). cbn [negb].
    (* only the row lengths recorded by the invariant matter here: any assignment will do *)
    pose proof (repeat_length 0 nd) as Hd. pose proof (repeat_length 0 ns) as Hs.
    destruct (walk_spec _ _ Hd Hs e He {| stack := []; locals := [] |} [] []) as [st [lv [E [Hl Hrows]]]];
      [split; constructor|].
    rewrite E. cbn [bind]. inversion Hrows as [|top e0 rest es0 [Ltop _] _ E1]; subst.
    destruct (from_flat_form_spec _ _ _ _ Hd Hs top _ lv Hl Ltop) as [e' [E' _]]. exists e'. exact E'.
  Qed.
End Total.
