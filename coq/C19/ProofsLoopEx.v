(* C19/ProofsLoopEx.v -- the hypotheses of the loop theorem are satisfiable: a concrete function with a
   riscv_scf.for carrying one value (iter_args), checked against every hypothesis, and the theorem applied. *)
From Coq Require Import ZArith List Bool Arith Lia.
From XV Require Import C19.Model C19.ProofsSpec C19.ProofsStack C19.ProofsStep C19.ProofsRefute C19.ProofsFunc C19.ProofsLoop2 C19.ProofsLoopSem.
Import ListNotations.
Local Open Scope Z_scope.

(* ---- a reflective check of "values in one tie class are never live together" ---- *)
Section TieCheck.
  Variable cls : value -> nat.          (* a colouring that is constant on tie-connected values *)

  Definition definedb (s : list sop) (v : value) : bool := existsb (fun o => memN v (defs o)) s.
  Lemma definedb_sound : forall s v, defined_in s v -> definedb s v = true.
  Proof.
    intros s v [o [Ho Hv]]. unfold definedb. apply existsb_exists. exists o. split; [exact Ho | apply memN_In; exact Hv].
  Qed.

  Lemma definedb_false : forall s v, ~ defined_in s v -> definedb s v = false.
  Proof.
    intros s v D. destruct (definedb s v) eqn:E; [|reflexivity]. exfalso. apply D.
    unfold definedb in E. apply existsb_exists in E. destruct E as [o [Ho Hv]]. exists o. split; [exact Ho | apply memN_In; exact Hv].
  Qed.
  Lemma used_in_flat : forall s v, used_in s v -> In v (flat_map uses s).
  Proof. intros s v [o [Ho Hv]]. apply in_flat_map. exists o. split; assumption. Qed.
  Lemma tconn_cls : forall pre f post, (forall a b, ltie pre f post a b -> cls a = cls b) ->
    forall u v, tconn pre f post u v -> cls u = cls v.
  Proof.
    intros pre f post Hcls u v Hc. induction Hc as [|u v w Hc IH [Hs|Hs]];
      [reflexivity | rewrite IH; apply Hcls; exact Hs | rewrite IH; symmetry; apply Hcls; exact Hs].
  Qed.

  Definition checkb (s : list sop) : bool :=
    let U := flat_map uses s in
    forallb (fun v1 => forallb (fun v2 =>
      implb (negb (definedb s v1) && negb (definedb s v2) && Nat.eqb (cls v1) (cls v2)) (Nat.eqb v1 v2)) U) U.

  Lemma checkb_sound : forall s, checkb s = true ->
    forall v1 v2, live s v1 -> live s v2 -> cls v1 = cls v2 -> v1 = v2.
  Proof.
    intros s Hc v1 v2 [U1 D1] [U2 D2] Hcls. unfold checkb in Hc. rewrite forallb_forall in Hc.
    specialize (Hc v1 (used_in_flat s v1 U1)). rewrite forallb_forall in Hc. specialize (Hc v2 (used_in_flat s v2 U2)).
    rewrite (definedb_false s v1 D1), (definedb_false s v2 D2), Hcls, Nat.eqb_refl in Hc. simpl in Hc.
    apply Nat.eqb_eq. exact Hc.
  Qed.

  Fixpoint tails (l : list sop) : list (list sop) :=
    l :: match l with [] => [] | _ :: t => tails t end.
  Lemma tails_in : forall p l s, l = p ++ s -> In s (tails l).
  Proof.
    induction p as [|o p IH]; intros l s Hl; simpl in Hl; subst l.
    - destruct s; simpl; left; reflexivity.
    - simpl. right. apply IH. reflexivity.
  Qed.

  Lemma tie_check : forall pre f post,
    (forall a b, ltie pre f post a b -> cls a = cls b) ->
    forallb checkb (tails (virt pre f post)) = true ->
    forall p s, virt pre f post = p ++ s -> forall v1 v2, live s v1 -> live s v2 -> v1 <> v2 ->
      tconn pre f post v1 v2 -> False.
  Proof.
    intros pre f post Hcls Hall p s Hl v1 v2 L1 L2 Hne Hc.
    exact (Hne (checkb_sound s (proj1 (forallb_forall _ _) Hall s (tails_in p _ s Hl)) v1 v2 L1 L2
                  (tconn_cls pre f post Hcls v1 v2 Hc))).
  Qed.
  (* ... and none is written while another one is live *)
  Definition checkdefb (l : list sop) : bool :=
    match l with
    | [] => true
    | o :: s => forallb (fun d => forallb (fun v =>
                  implb (negb (definedb s v) && Nat.eqb (cls d) (cls v)) (Nat.eqb d v)) (flat_map uses s)) (defs o)
    end.

  Lemma tie_check_def : forall pre f post,
    (forall a b, ltie pre f post a b -> cls a = cls b) ->
    forallb checkdefb (tails (virt pre f post)) = true ->
    forall p o s, virt pre f post = p ++ o :: s -> forall d v, In d (defs o) -> live s v -> d <> v ->
      tconn pre f post d v -> False.
  Proof.
    intros pre f post Hcls Hall p o s Hl d v Hd [U D] Hne Hc.
    pose proof (proj1 (forallb_forall _ _) Hall (o :: s) (tails_in p _ (o :: s) Hl)) as Hchk.
    simpl in Hchk. rewrite forallb_forall in Hchk. specialize (Hchk d Hd). rewrite forallb_forall in Hchk.
    specialize (Hchk v (used_in_flat s v U)).
    rewrite (definedb_false s v D), (tconn_cls pre f post Hcls d v Hc), Nat.eqb_refl in Hchk. simpl in Hchk.
    apply Nat.eqb_eq in Hchk. exact (Hne Hchk).
  Qed.
End TieCheck.

Lemma NoDup_by_nodup : forall l : list value, nodup Nat.eq_dec l = l -> NoDup l.
Proof. intros l H. rewrite <- H. apply NoDup_nodup. Qed.

(* ---- the example ----
     %0 = li ; %1 = li ; %2 = li ; %3 = mv %2
     %4 = riscv_scf.for %5 = %0 to %1 iter_args(%6 = %3) { %7 = add %6, %5 ; yield %7 }
     return %4                                                                                   *)
Definition ex_pre : list sop :=
  [mkSop [] [0%nat] [] KOther true; mkSop [] [1%nat] [] KOther true; mkSop [] [2%nat] [] KOther true;
   mkSop [2%nat] [3%nat] [] KMv true].
Definition ex_f : forop :=
  mkFor 0%nat 1%nat None [3%nat] [4%nat] [5%nat; 6%nat] [mkSop [6%nat; 5%nat] [7%nat] [] KOther true] [7%nat].
Definition ex_post : list sop := [mkSop [4%nat] [] [] KOther true].
Definition ex_types : list (option Z) := repeat None 8.
Definition ex_fn : func := mkFunc ex_types (map Simple ex_pre ++ For ex_f :: map Simple ex_post).
Definition ex_cls (v : value) : nat := if memN v [3; 6; 7; 4]%nat then 3%nat else v.

Lemma ex_virt : virt ex_pre ex_f ex_post =
  [mkSop [] [0%nat] [] KOther true; mkSop [] [1%nat] [] KOther true; mkSop [] [2%nat] [] KOther true;
   mkSop [2%nat] [3%nat] [] KMv true;
   mkSop [0%nat; 1%nat] [5%nat] [(3%nat, 6%nat)] KOther false;
   mkSop [6%nat; 5%nat] [7%nat] [] KOther true;
   mkSop [5%nat; 1%nat] [] [(7%nat, 4%nat)] KOther false;
   mkSop [4%nat] [] [] KOther true].
Proof. vm_compute. reflexivity. Qed.

Lemma ex_wf : wf_prog (virt ex_pre ex_f ex_post).
Proof.
  rewrite ex_virt. constructor.
  - apply NoDup_by_nodup. reflexivity.
  - wf_use_tac.
  - intros o H Hk. in_cases H; simpl in Hk; try congruence. split; [reflexivity | exists 3%nat; reflexivity].
Qed.

Lemma ex_io : io_ok (virt ex_pre ex_f ex_post).
Proof.
  rewrite ex_virt. intros p o s Hl.
  refine (splitsP_all (fun _ o' s' => NoDup (map fst (s_io o')) /\ forall x, In x (map fst (s_io o')) -> ~ used_in s' x) _ [] _ p o s Hl).
  simpl. repeat split; try (constructor; simpl; intuition; fail); try (repeat constructor; simpl; tauto);
    intros x Hx; simpl in Hx; try contradiction;
    destruct Hx as [Hx|[]]; subst x; intros [o' [Ho' Hu]]; in_cases Ho'; unfold uses, sop_operands in Hu; simpl in Hu;
    intuition discriminate.
Qed.

Lemma ex_ties : forall a b, ltie ex_pre ex_f ex_post a b -> ex_cls a = ex_cls b.
Proof.
  intros a b [[o [Ho Hin]]|Hin].
  - rewrite ex_virt in Ho. in_cases Ho; simpl in Hin; try contradiction;
      destruct Hin as [Hin|[]]; inversion Hin; subst; reflexivity.
  - simpl in Hin. destruct Hin as [Hin|[]]. inversion Hin; subst. reflexivity.
Qed.

Lemma ex_run : match allocate_func true [7; 6; 5] false ex_fn with
               | Ok af => map (ty af) (seq 0 8) = [Some 6; Some 7; Some 5; Some 5; Some 5; Some 6; Some 5; Some 5]
               | Err _ => False end.
Proof. vm_compute. reflexivity. Qed.

Lemma ex_zero : true = true -> ~ In 0 [7; 6; 5].
Proof. intros _. simpl. intuition lia. Qed.
Lemma ex_pool : forall r, In r [7; 6; 5] -> 0 <= r.
Proof. intros r Hr. simpl in Hr. intuition lia. Qed.
Lemma ex_none : forall v, ty0 ex_fn v = None.
Proof. intros v. unfold ty0. simpl. do 8 (destruct v as [|v]; [reflexivity|]). destruct v; reflexivity. Qed.
Lemma ex_nz : forall o x y, In o (virt ex_pre ex_f ex_post) -> In (x, y) (s_io o) -> ~ In y (zconsts (mk_cfg true ex_fn)).
Proof. intros o x y _ _ Hc. vm_compute in Hc. exact Hc. Qed.
Lemma ex_len : length (f_iters ex_f) = length [6%nat] /\ length (f_iters ex_f) = length (f_yield ex_f)
               /\ length (f_iters ex_f) = length (f_res ex_f).
Proof. repeat split; reflexivity. Qed.
Lemma ex_groups : NoDup (concat (groups ex_f)).
Proof. apply NoDup_by_nodup. reflexivity. Qed.
Lemma ex_scope : forall v, In v [5%nat; 6%nat] \/ defined_in (f_body ex_f) v -> ~ used_in ex_post v.
Proof.
  intros v Hv [o [Ho Hu]]. in_cases Ho. unfold uses, sop_operands in Hu. simpl in Hu.
  destruct Hu as [Hu|[]]. subst v. destruct Hv as [Hv|[o [Ho Hd]]].
  - simpl in Hv. intuition discriminate.
  - in_cases Ho. unfold defs, sop_results in Hd. simpl in Hd. intuition discriminate.
Qed.
Lemma ex_iv : ~ In 5%nat (concat (groups ex_f)).
Proof. vm_compute. intuition discriminate. Qed.
Lemma ex_li : forall v, In v (live_ins_body ex_f) -> ~ In v (concat (groups ex_f)) /\ v <> 5%nat.
Proof. intros v Hv. vm_compute in Hv. destruct Hv. Qed.
Lemma ex_bnd : forall v, In v (f_lb ex_f :: f_ub ex_f :: step_list ex_f) -> ~ In v (concat (groups ex_f)) /\ v <> 5%nat.
Proof.
  intros v Hv. simpl in Hv. destruct Hv as [Hv|[Hv|[]]]; subst v; (split; [vm_compute; intuition discriminate | discriminate]).
Qed.
Lemma ex_tie_ok : forall p s, virt ex_pre ex_f ex_post = p ++ s -> forall v1 v2, live s v1 -> live s v2 -> v1 <> v2 ->
  tconn ex_pre ex_f ex_post v1 v2 -> False.
Proof. apply (tie_check ex_cls ex_pre ex_f ex_post ex_ties). vm_compute. reflexivity. Qed.

Theorem loop_clobber_hypotheses_satisfiable :
  forall p o s, virt ex_pre ex_f ex_post = p ++ o :: s -> forall d v, In d (defs o) -> live s v -> d <> v ->
    tconn ex_pre ex_f ex_post d v -> False.
Proof. apply (tie_check_def ex_cls ex_pre ex_f ex_post ex_ties). vm_compute. reflexivity. Qed.

(* every hypothesis of C19_no_interference_loop holds for the example, allocation succeeds, and the theorem
   yields freedom from interference at every point of the function *)
Theorem loop_hypotheses_satisfiable :
  exists zr pool allow types pre f post af,
    allocate_func zr pool allow (mkFunc types (map Simple pre ++ For f :: map Simple post)) = Ok af
    /\ f_iters f <> []                                  (* a loop-carried value *)
    /\ ty af 3%nat = Some 5 /\ ty af 6%nat = Some 5 /\ ty af 7%nat = Some 5 /\ ty af 4%nat = Some 5   (* one register *)
    /\ ty af 5%nat = Some 6                            (* induction variable elsewhere *)
    /\ forall p s, virt pre f post = p ++ s ->
         (forall v, live s v -> exists r, ty af v = Some r)
         /\ (forall v1 v2 r, live s v1 -> live s v2 -> v1 <> v2 -> ty af v1 = Some r -> ty af v2 = Some r ->
               zr = true /\ r = 0).
Proof.
  pose proof ex_run as Hrun.
  destruct (allocate_func true [7; 6; 5] false ex_fn) as [af|e] eqn:E; [|contradiction].
  exists true, [7; 6; 5], false, ex_types, ex_pre, ex_f, ex_post, af.
  split; [exact E|]. split; [discriminate|].
  pose proof (f_equal (fun l => nth 3 l None) Hrun) as H3. pose proof (f_equal (fun l => nth 4 l None) Hrun) as H4.
  pose proof (f_equal (fun l => nth 5 l None) Hrun) as H5. pose proof (f_equal (fun l => nth 6 l None) Hrun) as H6.
  pose proof (f_equal (fun l => nth 7 l None) Hrun) as H7. simpl in H3, H4, H5, H6, H7.
  split; [exact H3|]. split; [exact H6|]. split; [exact H7|]. split; [exact H4|]. split; [exact H5|].
  exact (loop_no_interference true [7; 6; 5] false ex_types ex_pre ex_f ex_post 5%nat [6%nat] af ex_zero ex_pool ex_none
           eq_refl ex_wf ex_io ex_nz ex_len ex_groups ex_scope ex_iv ex_li ex_bnd ex_tie_ok E).
Qed.

(* the semantics theorem applies to the example: for every trip count the lowered loop and the SSA loop
   agree on the returned value %4 *)
Theorem loop_semantics_example :
  exists af, allocate_func true [7; 6; 5] false ex_fn = Ok af /\
  forall (data : Type) (dzero : data) (fop : nat -> nat -> list data -> data) (ivnext : data -> data -> data)
         (n : nat) (env : value -> data) (rf : Z -> data),
    (forall v, live (Hop ex_f :: f_body ex_f ++ Yop ex_f :: ex_post) v -> read_reg data dzero true (asg_of af) rf v = env v) ->
    (forall v, In v (zero_consts (ex_pre ++ [Hop ex_f])) -> env v = dzero) ->
    read_reg data dzero true (asg_of af) (regs_loop data dzero fop ivnext true (asg_of af) ex_pre ex_f 5%nat n rf) 4%nat
    = ssa_loop data dzero fop ivnext ex_pre ex_f 5%nat [6%nat] n env 4%nat.
Proof.
  pose proof ex_run as Hrun.
  destruct (allocate_func true [7; 6; 5] false ex_fn) as [af|e] eqn:E; [|contradiction].
  exists af. split; [reflexivity|].
  intros data dzero fop ivnext n env rf Hag Hzc.
  apply (func_loop_semantics true [7; 6; 5] false ex_types ex_pre ex_f ex_post 5%nat [6%nat] af ex_zero ex_pool ex_none
           eq_refl ex_wf ex_io ex_nz ex_len ex_groups ex_scope ex_iv ex_li ex_bnd ex_tie_ok
           loop_clobber_hypotheses_satisfiable E data dzero fop ivnext n env rf Hag Hzc).
  (* %4 is live after the loop *)
  apply live_b; reflexivity.
Qed.
