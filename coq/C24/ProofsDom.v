(* C24/ProofsDom.v -- correctness and termination of the iterative dominator
   computation modelled in C24/Model.v (DominanceInfo, xdsl/irdl/dominance.py). *)
From Coq Require Import List Arith Bool Lia.
From XV Require Import C24.Model.
Import ListNotations.

(* path g a l b: l lists the vertices from a to b inclusive *)
Inductive path (g : cfg) : nat -> list nat -> nat -> Prop :=
| path_nil a : a < length g -> path g a [a] a
| path_step a l b c : path g a l b -> In c (succs g b) -> path g a (l ++ [c]) c.
Definition reachable (g : cfg) (b : nat) : Prop := exists l, path g 0 l b.
Definition dom_spec (g : cfg) (a b : nat) : Prop := forall l, path g 0 l b -> In a l.

Lemma nth_repeat_lt {A} (x dft : A) m b : b < m -> nth b (repeat x m) dft = x.
Proof.
  revert b; induction m as [|m IH]; intros [|b] H; simpl; try lia; auto.
  apply IH; lia.
Qed.

Lemma bs_mem_all n a : a < n -> bs_mem (bs_all n) a = true.
Proof. intros H. unfold bs_mem, bs_all. apply nth_repeat_lt; auto. Qed.

Lemma bs_all_length n : length (bs_all n) = n.
Proof. apply repeat_length. Qed.

Lemma bs_inter_length s t : length (bs_inter s t) = Nat.min (length s) (length t).
Proof. unfold bs_inter. rewrite map_length, combine_length. reflexivity. Qed.

Lemma bs_mem_inter s t a : bs_mem (bs_inter s t) a = bs_mem s a && bs_mem t a.
Proof.
  unfold bs_mem, bs_inter. revert t a.
  induction s as [|x s IH]; intros [|y t] [|a]; simpl; auto;
    try (symmetry; apply andb_false_r).
Qed.

Lemma bs_add_length b s : length (bs_add b s) = length s.
Proof.
  unfold bs_add. rewrite map_length, combine_length, seq_length. apply Nat.min_id.
Qed.

Lemma bs_mem_add_gen b s : forall k a, a < length s ->
  nth a (map (fun p => orb (Nat.eqb (fst p) b) (snd p)) (combine (seq k (length s)) s)) false
  = ((k + a) =? b) || nth a s false.
Proof.
  induction s as [|x s IH]; intros k [|a] H; simpl in *; try lia.
  - rewrite Nat.add_0_r. reflexivity.
  - rewrite IH by lia. replace (S k + a) with (k + S a) by lia. reflexivity.
Qed.

Lemma bs_mem_add b s a : a < length s -> bs_mem (bs_add b s) a = (a =? b) || bs_mem s a.
Proof.
  intros H. unfold bs_mem, bs_add. rewrite bs_mem_add_gen by auto. reflexivity.
Qed.

Lemma bs_single_length n b : length (bs_single n b) = n.
Proof. unfold bs_single. rewrite map_length, seq_length. reflexivity. Qed.

Lemma bs_mem_single n b a : a < n -> bs_mem (bs_single n b) a = (b =? a).
Proof.
  intros H. unfold bs_mem, bs_single.
  rewrite nth_indep with (d' := Nat.eqb b 0) by (rewrite map_length, seq_length; auto).
  rewrite map_nth, seq_nth by auto. reflexivity.
Qed.

Lemma bs_eqb_eq s t : bs_eqb s t = true -> s = t.
Proof.
  revert t; induction s as [|x s IH]; intros [|y t] H; simpl in H; try discriminate; auto.
  apply andb_true_iff in H as [H1 H2]. apply eqb_prop in H1. f_equal; auto.
Qed.

Lemma fold_mem (d : dom_state) n ps a : a < n ->
  bs_mem (fold_right (fun p acc => bs_inter (dget d p) acc) (bs_all n) ps) a
  = forallb (fun p => bs_mem (dget d p) a) ps.
Proof.
  intros H. induction ps as [|p ps IH]; simpl.
  - apply bs_mem_all; auto.
  - rewrite bs_mem_inter, IH. reflexivity.
Qed.

Lemma fold_len (d : dom_state) n ps : (forall p, In p ps -> length (dget d p) = n) ->
  length (fold_right (fun p acc => bs_inter (dget d p) acc) (bs_all n) ps) = n.
Proof.
  intros H. induction ps as [|p ps IH]; simpl.
  - apply bs_all_length.
  - rewrite bs_inter_length, IH, H by (simpl in *; auto). apply Nat.min_id.
Qed.

Lemma forallb_false_ex {A} (f : A -> bool) l : forallb f l = false -> exists x, In x l /\ f x = false.
Proof.
  induction l as [|x l IH]; simpl; intros H; try discriminate.
  apply andb_false_iff in H as [H|H].
  - exists x; auto.
  - destruct (IH H) as [y [Hy1 Hy2]]. exists y; auto.
Qed.

Lemma lset_length {A} i (v : A) l : length (lset i v l) = length l.
Proof. revert i; induction l as [|x l IH]; intros [|i]; simpl; auto. Qed.

Lemma nth_lset_eq {A} i (v : A) l dft : i < length l -> nth i (lset i v l) dft = v.
Proof.
  revert i; induction l as [|x l IH]; intros [|i] H; simpl in *; try lia; auto.
  apply IH; lia.
Qed.

Lemma nth_lset_neq {A} i j (v : A) l dft : i <> j -> nth j (lset i v l) dft = nth j l dft.
Proof.
  revert i j; induction l as [|x l IH]; intros [|i] [|j] H; simpl; auto; try lia.
Qed.

Lemma lset_same {A} i l (dft : A) : lset i (nth i l dft) l = l.
Proof.
  revert i; induction l as [|x l IH]; intros [|i]; simpl; auto. f_equal; auto.
Qed.

(* number of true bits *)
Definition ones (s : bset) : nat := length (filter (fun x => x) s).
Definition weight (d : dom_state) : nat := list_sum (map ones d).

Lemma ones_le_length s : ones s <= length s.
Proof. unfold ones. induction s as [|[|] s IH]; simpl; lia. Qed.

Lemma ones_le s : forall t, length s = length t ->
  (forall a, a < length s -> nth a s false = true -> nth a t false = true) ->
  ones s <= ones t /\ (bs_eqb t s = false -> ones s < ones t).
Proof.
  induction s as [|x s IH]; intros [|y t] HL HP; simpl in HL; try discriminate.
  - simpl. split; [lia|discriminate].
  - assert (H0 : x = true -> y = true) by (apply (HP 0); simpl; lia).
    destruct (IH t) as [IH1 IH2]; [lia| |].
    + intros a Ha. apply (HP (S a)). simpl; lia.
    + unfold ones in *. destruct x, y; simpl in *;
        try (specialize (H0 eq_refl); discriminate);
        (split; [lia|intros H; try specialize (IH2 H); lia]).
Qed.

Lemma weight_lset i v d : i < length d ->
  weight (lset i v d) + ones (nth i d []) = weight d + ones v.
Proof.
  unfold weight. revert i; induction d as [|x d IH]; intros [|i] H; simpl in *; try lia.
  specialize (IH i). lia.
Qed.

Lemma preds_In g p b : In p (preds g b) <-> p < length g /\ In b (succs g p).
Proof.
  unfold preds. rewrite filter_In, in_seq, existsb_exists. split.
  - intros [H1 [x [Hx He]]]. apply Nat.eqb_eq in He; subst. split; [lia|auto].
  - intros [H1 H2]. split; [lia|]. exists b; split; auto. apply Nat.eqb_refl.
Qed.

Lemma path_in_start g a l b : path g a l b -> In a l.
Proof. induction 1; simpl; auto. apply in_or_app; auto. Qed.

Lemma path_lt g a l b : wf_cfg g -> path g a l b -> b < length g.
Proof. intros WF H. destruct H; auto. eapply WF; eauto. Qed.

(* dom_pass: the changed flag *)
Lemma dom_pass_false upd g : forall bs d ch d' ,
  dom_pass upd g bs d ch = (d', false) ->
  ch = false /\ d' = d /\ forall b, In b bs -> dget d b = upd g d b.
Proof.
  induction bs as [|b r IH]; intros d ch d' H; simpl in H.
  - inversion H; subst. split; [|split]; auto. intros b [].
  - apply IH in H. destruct H as [H1 [H2 H3]].
    apply orb_false_iff in H1 as [H1 H4].
    apply negb_false_iff in H4. apply bs_eqb_eq in H4.
    assert (E : lset b (upd g d b) d = d).
    { rewrite <- H4. unfold dget. apply lset_same. }
    rewrite E in *. split; [|split]; auto.
    intros b' [Hb|Hb]; subst; auto.
Qed.

Section Dom.
Variable g : cfg.
Hypothesis WF : wf_cfg g.
Local Notation n := (length g).

Lemma upd_len d b : (forall p, p < n -> length (dget d p) = n) -> length (dom_update g d b) = n.
Proof.
  intros H. unfold dom_update. rewrite bs_add_length. apply fold_len.
  intros p Hp. apply preds_In in Hp. apply H; tauto.
Qed.

Lemma upd_mem d b a : (forall p, p < n -> length (dget d p) = n) -> a < n ->
  bs_mem (dom_update g d b) a = (a =? b) || forallb (fun p => bs_mem (dget d p) a) (preds g b).
Proof.
  intros H Ha. unfold dom_update. rewrite bs_mem_add.
  - rewrite fold_mem by auto. reflexivity.
  - rewrite fold_len; auto. intros p Hp. apply preds_In in Hp. apply H; tauto.
Qed.

(* the loop invariant.  g_compl: a cleared bit is justified by a path avoiding a (so the sets never shrink below the
   dominators); g_post: every set is a post-fixpoint of dom_update (so an update only clears bits: the weight falls) *)
Record good (d : dom_state) : Prop := {
  g_len : length d = n;
  g_lens : forall b, b < n -> length (dget d b) = n;
  g_entry : forall a, a < n -> bs_mem (dget d 0) a = (a =? 0);
  g_compl : forall b a, b < n -> a < n -> bs_mem (dget d b) a = false ->
            exists l, path g 0 l b /\ ~ In a l;
  g_post : forall b a, 1 <= b < n -> a < n ->
           bs_mem (dom_update g d b) a = true -> bs_mem (dget d b) a = true }.

Lemma good_step d b0 : good d -> 1 <= b0 < n -> good (lset b0 (dom_update g d b0) d).
Proof.
  intros G Hb0.
  assert (Eeq : dget (lset b0 (dom_update g d b0) d) b0 = dom_update g d b0).
  { unfold dget. apply nth_lset_eq. rewrite (g_len d G). lia. }
  assert (Eneq : forall b, b <> b0 -> dget (lset b0 (dom_update g d b0) d) b = dget d b).
  { intros b Hb. unfold dget. apply nth_lset_neq. auto. }
  assert (Lens : forall b, b < n -> length (dget (lset b0 (dom_update g d b0) d) b) = n).
  { intros b Hb. destruct (Nat.eq_dec b b0) as [->|Hne].
    - rewrite Eeq. apply upd_len. apply (g_lens d G).
    - rewrite Eneq by auto. apply (g_lens d G); auto. }
  assert (Le : forall b a, b < n -> a < n ->
             bs_mem (dget (lset b0 (dom_update g d b0) d) b) a = true -> bs_mem (dget d b) a = true).
  { intros b a Hb Ha. destruct (Nat.eq_dec b b0) as [->|Hne].
    - rewrite Eeq. apply (g_post d G); auto.
    - rewrite Eneq by auto. auto. }
  assert (Mono : forall b a, a < n ->
             bs_mem (dom_update g (lset b0 (dom_update g d b0) d) b) a = true ->
             bs_mem (dom_update g d b) a = true).
  { intros b a Ha. rewrite !upd_mem by (auto; apply (g_lens d G)).
    intros H. apply orb_true_iff in H as [H|H]; apply orb_true_iff; [left; auto|right].
    rewrite forallb_forall in *. intros p Hp. specialize (H p Hp).
    apply preds_In in Hp. apply Le; tauto. }
  constructor.
  - rewrite lset_length. apply (g_len d G).
  - exact Lens.
  - intros a Ha. rewrite Eneq by lia. apply (g_entry d G); auto.
  - intros b a Hb Ha. destruct (Nat.eq_dec b b0) as [->|Hne].
    + rewrite Eeq. rewrite upd_mem by (auto; apply (g_lens d G)).
      intros H. apply orb_false_iff in H as [H1 H2].
      apply Nat.eqb_neq in H1.
      apply forallb_false_ex in H2 as [p [Hp1 Hp2]].
      apply preds_In in Hp1 as [Hp3 Hp4].
      destruct (g_compl d G p a Hp3 Ha Hp2) as [l [Hl1 Hl2]].
      exists (l ++ [b0]). split.
      * eapply path_step; eauto.
      * intros Hin. apply in_app_or in Hin as [Hin|Hin]; auto.
        simpl in Hin. destruct Hin as [Hin|[]]. congruence.
    + rewrite Eneq by auto. apply (g_compl d G); auto.
  - intros b a Hb Ha H. destruct (Nat.eq_dec b b0) as [->|Hne].
    + rewrite Eeq. apply Mono; auto.
    + rewrite Eneq by auto. apply (g_post d G); auto.
Qed.

Lemma step_weight d b0 : good d -> 1 <= b0 < n ->
  weight (lset b0 (dom_update g d b0) d) <= weight d /\
  (bs_eqb (dget d b0) (dom_update g d b0) = false -> weight (lset b0 (dom_update g d b0) d) < weight d).
Proof.
  intros G Hb0.
  pose proof (weight_lset b0 (dom_update g d b0) d) as HW.
  rewrite (g_len d G) in HW. specialize (HW (proj2 Hb0)).
  destruct (ones_le (dom_update g d b0) (dget d b0)) as [H1 H2].
  - rewrite upd_len by apply (g_lens d G). symmetry. apply (g_lens d G). lia.
  - rewrite upd_len by apply (g_lens d G). intros a Ha. apply (g_post d G); auto.
  - unfold dget in *. split; [lia|]. intros H. specialize (H2 H). lia.
Qed.

Lemma pass_good : forall bs d ch d' ch',
  (forall b, In b bs -> 1 <= b < n) -> good d ->
  dom_pass dom_update g bs d ch = (d', ch') ->
  good d' /\ weight d' <= weight d /\ (ch' = true -> ch = true \/ weight d' < weight d).
Proof.
  induction bs as [|b r IH]; intros d ch d' ch' Hbs G H; simpl in H.
  - inversion H; subst. auto.
  - assert (Hb : 1 <= b < n) by (apply Hbs; simpl; auto).
    apply IH in H.
    + destruct H as [G' [W1 W2]].
      destruct (step_weight d b G Hb) as [S1 S2].
      split; [auto|split; [lia|]].
      intros Hc. destruct (W2 Hc) as [Hc1|Hc1]; [|right; lia].
      apply orb_true_iff in Hc1 as [Hc1|Hc1]; [left; auto|right].
      apply negb_true_iff in Hc1. specialize (S2 Hc1). lia.
    + intros b' Hb'. apply Hbs; simpl; auto.
    + apply good_step; auto.
Qed.

Lemma weight_bound d : good d -> weight d <= n * n.
Proof.
  intros G.
  assert (H : forall s, In s d -> length s = n).
  { intros s Hs. destruct (In_nth d s [] Hs) as [b [Hb1 Hb2]].
    rewrite <- Hb2. apply (g_lens d G). rewrite <- (g_len d G); auto. }
  rewrite <- (g_len d G) at 1. clear G.
  unfold weight. induction d as [|s d IH]; simpl; [lia|].
  pose proof (ones_le_length s) as Ho. rewrite (H s) in Ho by (simpl; auto).
  assert (IH' : list_sum (map ones d) <= length d * n) by (apply IH; intros; apply H; simpl; auto).
  lia.
Qed.

Definition is_fix (d : dom_state) : Prop := forall b, 1 <= b < n -> dget d b = dom_update g d b.

Lemma iter_ok : forall fuel d, good d -> weight d < fuel ->
  exists d', dom_iter dom_update fuel g d = Some d' /\ good d' /\ is_fix d'.
Proof.
  induction fuel as [|f IH]; intros d G HW; [lia|].
  cbn [dom_iter].
  destruct (dom_pass dom_update g (seq 1 (n - 1)) d false) as [d1 ch] eqn:E.
  assert (Hbs : forall b, In b (seq 1 (n - 1)) -> 1 <= b < n).
  { intros b Hb. apply in_seq in Hb. lia. }
  destruct (pass_good _ _ _ _ _ Hbs G E) as [G1 [W1 W2]].
  destruct ch.
  - apply IH; auto. destruct (W2 eq_refl) as [H|H]; [discriminate|lia].
  - exists d1. split; [reflexivity|split; auto].
    apply dom_pass_false in E. destruct E as [_ [E1 E2]]. subst d1.
    intros b Hb. apply E2. apply in_seq. lia.
Qed.

Lemma init_len : length (dom_init g) = n.
Proof. unfold dom_init. destruct n; simpl; auto. rewrite repeat_length. reflexivity. Qed.

Lemma init_0 : 0 < n -> dget (dom_init g) 0 = bs_single n 0.
Proof. unfold dom_init, dget. destruct n; simpl; auto. Qed.

Lemma init_S b : 1 <= b < n -> dget (dom_init g) b = bs_all n.
Proof.
  unfold dom_init, dget. destruct n as [|m]; [lia|]. intros H.
  destruct b as [|b]; [lia|]. simpl. apply nth_repeat_lt. lia.
Qed.

Lemma good_init : good (dom_init g).
Proof.
  constructor.
  - apply init_len.
  - intros b Hb. destruct b as [|b].
    + rewrite init_0 by lia. apply bs_single_length.
    + rewrite init_S by lia. apply bs_all_length.
  - intros a Ha. rewrite init_0 by lia. rewrite bs_mem_single by auto. apply Nat.eqb_sym.
  - intros b a Hb Ha. destruct b as [|b].
    + rewrite init_0 by lia. rewrite bs_mem_single by auto. intros H.
      apply Nat.eqb_neq in H. exists [0]. split.
      * apply path_nil; lia.
      * simpl. intros [Hx|[]]. auto.
    + rewrite init_S by lia. rewrite bs_mem_all by auto. discriminate.
  - intros b a Hb Ha _. rewrite init_S by lia. apply bs_mem_all; auto.
Qed.

Lemma dominance_ok : exists d, dominance g = Some d /\ good d /\ is_fix d.
Proof.
  unfold dominance. apply iter_ok.
  - apply good_init.
  - pose proof (weight_bound _ good_init). unfold dom_fuel. lia.
Qed.

Lemma fix_sound d : good d -> is_fix d ->
  forall l b, path g 0 l b -> forall a, a < n -> bs_mem (dget d b) a = true -> In a l.
Proof.
  intros G F l b P. remember 0 as s eqn:Es. induction P as [s Hs|s l b c P IH Hc]; intros a Ha Hm; subst s.
  - rewrite (g_entry d G) in Hm by auto. apply Nat.eqb_eq in Hm. subst; simpl; auto.
  - destruct c as [|c].
    + rewrite (g_entry d G) in Hm by auto. apply Nat.eqb_eq in Hm. subst.
      apply in_or_app. left. eapply path_in_start; eauto.
    + assert (Hc' : S c < n) by (eapply WF; eauto).
      rewrite F in Hm by lia.
      rewrite upd_mem in Hm by (auto; apply (g_lens d G)).
      apply in_or_app.
      apply orb_true_iff in Hm as [Hm|Hm].
      * apply Nat.eqb_eq in Hm. right; simpl; auto.
      * left. apply IH; auto.
        rewrite forallb_forall in Hm. apply Hm.
        apply preds_In. split; auto. eapply path_lt; eauto.
Qed.

End Dom.

(* the fuel n*n+2 is never exhausted *)
Theorem dominance_terminates : forall g, wf_cfg g -> exists d, dominance g = Some d.
Proof.
  intros g WF. destruct (dominance_ok g) as [d [H _]]. exists d; auto.
Qed.

(* reachability of b is not needed, only b < length g (for an unreachable b both sides hold for every a) *)
Theorem dominates_iff_all : forall g d a b, wf_cfg g -> dominance g = Some d ->
   a < length g -> b < length g -> (dominates d a b = true <-> dom_spec g a b).
Proof.
  intros g d a b WF HD Ha Hb. destruct (dominance_ok g) as [d' [HD' [G F]]].
  rewrite HD in HD'. inversion HD'; subst d'. unfold dominates, dom_spec. split.
  - intros Hm l P. eapply fix_sound; eauto.
  - intros HS. destruct (bs_mem (dget d b) a) eqn:E; auto.
    destruct (g_compl g d G b a Hb Ha E) as [l [Hl1 Hl2]].
    exfalso. apply Hl2. apply HS; auto.
Qed.

Theorem dominates_iff : forall g d a b, wf_cfg g -> dominance g = Some d ->
   reachable g b -> a < length g -> (dominates d a b = true <-> dom_spec g a b).
Proof.
  intros g d a b WF HD [l P] Ha. apply dominates_iff_all; auto.
  eapply path_lt; eauto.
Qed.

Theorem dominates_refl : forall g d b, wf_cfg g -> dominance g = Some d -> b < length g -> dominates d b b = true.
Proof.
  intros g d b WF HD Hb. apply (dominates_iff_all g d b b WF HD Hb Hb).
  intros l P. remember 0 as s. destruct P; simpl; auto.
  apply in_or_app; right; simpl; auto.
Qed.

Theorem strictly_dominates_iff : forall g d a b, wf_cfg g -> dominance g = Some d ->
   reachable g b -> a < length g -> (strictly_dominates d a b = true <-> (a <> b /\ dom_spec g a b)).
Proof.
  intros g d a b WF HD HR Ha. unfold strictly_dominates.
  destruct (Nat.eqb a b) eqn:E.
  - apply Nat.eqb_eq in E. split; [discriminate|]. intros [H _]; contradiction.
  - apply Nat.eqb_neq in E. rewrite (dominates_iff g d a b WF HD HR Ha). tauto.
Qed.

(* recorded refutation of the code before the repair *)
Theorem dominance_old_refuted : exists g d a b, wf_cfg g /\ dominance_old g = Some d /\ reachable g b /\ dom_spec g a b /\ dominates d a b = false.
Proof.
  exists [[1];[];[1]]. eexists. exists 0, 1.
  split; [|split; [vm_compute; reflexivity|split; [|split]]].
  - intros b s H. destruct b as [|[|[|[|b]]]]; simpl in H; simpl; intuition lia.
  - exists ([0] ++ [1]). eapply path_step.
    + apply path_nil. simpl; lia.
    + simpl; auto.
  - intros l P. eapply path_in_start; eauto.
  - vm_compute. reflexivity.
Qed.

