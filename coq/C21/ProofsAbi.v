(* C21/ProofsAbi.v -- the whole modelled pipeline against the SysV ABI:
   body_correct      lowering + allocation + second canonicalize compute the source value in rax
   pipeline_correct  ... wrapped in the prologue/epilogue: rax, rsp, callee-saved registers
   stack-argument offsets (the defect of the unrepaired prologue pass); the witnesses against the unrepaired
   pass are in ProofsRefute.v. *)
From Coq Require Import ZArith List Bool Lia Arith.
From XV Require Import Gen.C21_tables C21.Model C21.Spec C21.ProofsMachine C21.ProofsLower C21.ProofsSim.
Import ListNotations.
Local Open Scope Z_scope.

(* the generated tables are the SysV facts *)

Lemma tables_match_sysv :
  c21_arg_regs = sysv_arg_regs /\ c21_ret_reg = sysv_ret_reg /\ c21_callee_saved = sysv_callee_saved
  /\ c21_stack_slot = 8 /\ c21_max_reg_args = 6 /\ c21_pop_reversed = true /\ c21_binop_copies_rhs = true.
Proof. repeat split; reflexivity. Qed.

Lemma max_reg_args_6 : max_reg_args = 6%nat.
Proof. reflexivity. Qed.

Lemma arg_reg_not_rsp : forall i, (i < 6)%nat -> arg_reg i <> RSP.
Proof.
  intros i H. do 6 (destruct i as [|i]; [vm_compute; discriminate|]). lia.
Qed.

Lemma callee_saved_not_rsp_rax : forall r, In r c21_callee_saved -> r <> RSP /\ r <> RAX.
Proof. intros r H. vm_compute in H. split; intros ->; intuition discriminate. Qed.

Lemma stack_arg_offset_eq : forall i, c21_stack_arg_offset i = 8 * (i + 1).
Proof. intro i. unfold c21_stack_arg_offset. lia. Qed.


(* rsp after k pushes, plus the offset the emitted load uses, against the SysV location *)
Definition load_addr (shift : bool) (entry_rsp : Z) (k : Z) (i : Z) : Z :=
  (entry_rsp - 8 * k) + (c21_stack_arg_offset i + (if shift then c21_stack_slot * k else 0)).

Theorem stack_args_offset : forall shift entry_rsp k i, 0 <= k ->
  (load_addr shift entry_rsp k i = sysv_stack_arg_addr entry_rsp i <-> shift = true \/ k = 0).
Proof.
  intros shift sp k i Hk. unfold load_addr, sysv_stack_arg_addr. rewrite stack_arg_offset_eq.
  change c21_stack_slot with 8. destruct shift; split; intro H; try lia;
    try (left; reflexivity); try (destruct H as [H|H]; [discriminate | lia]).
Qed.

(* without rebasing, k pushes make the load of argument i read the slot of argument i-k (or, for i < k,
   the return address / the save area) *)
Theorem stack_args_offset_unshifted : forall entry_rsp k i,
  load_addr false entry_rsp k i = sysv_stack_arg_addr entry_rsp (i - k).
Proof. intros. unfold load_addr, sysv_stack_arg_addr. rewrite stack_arg_offset_eq. lia. Qed.


Definition is64 (w : width) : bool := match w with W64 => true | _ => false end.

Lemma used_callee_spec : forall byi w rs acc,
  NoDup acc ->
  NoDup (used_callee byi w rs acc)
  /\ forall r, In r (used_callee byi w rs acc) <->
       In r acc \/ (In r rs /\ (byi || is64 w) = true /\ memz r c21_callee_saved = true).
Proof.
  intros byi w rs. induction rs as [|x rs IH]; intros acc Hnd; cbn [used_callee].
  - split; [apply NoDup_rev; exact Hnd|]. intro r. rewrite <- in_rev. cbn [In]. tauto.
  - fold (is64 w).
    destruct ((byi || is64 w) && memz x c21_callee_saved && negb (memz x acc)) eqn:E.
    + apply andb_true_iff in E. destruct E as [E E3]. apply andb_true_iff in E. destruct E as [E1 E2].
      apply negb_true_iff in E3.
      assert (Hnin : ~ In x acc) by (intro Hin; apply memz_In in Hin; congruence).
      destruct (IH (x :: acc) ltac:(constructor; assumption)) as [H1 H2]. split; [exact H1|].
      intro r. rewrite H2. cbn [In]. split.
      * intros [[Hx|H]|[H Hr]].
        -- subst r. right. split; [left; reflexivity | split; assumption].
        -- left. exact H.
        -- right. split; [right; exact H | exact Hr].
      * intros [H|[[Hx|H] Hr]].
        -- left. right. exact H.
        -- left. left. exact Hx.
        -- right. split; assumption.
    + destruct (IH acc Hnd) as [H1 H2]. split; [exact H1|].
      intro r. rewrite H2. cbn [In]. split.
      * intros [H|[H Hr]]; [left; exact H | right; split; [right; exact H | exact Hr]].
      * intros [H|[[Hx|H] Hr]].
        -- left. exact H.
        -- subst r. destruct Hr as [Hr1 Hr2]. rewrite Hr1, Hr2 in E. cbn [andb] in E. apply negb_false_iff in E.
           left. apply memz_In. exact E.
        -- right. split; assumption.
Qed.

Lemma used_callee_props : forall byi w rs,
  let u := used_callee byi w rs [] in
  NoDup u /\ ~ In RSP u /\ ~ In RAX u /\ (length u <= 6)%nat
  /\ (forall r, In r u -> In r rs)
  /\ (forall r, (byi || is64 w) = true -> In r c21_callee_saved -> In r rs -> In r u).
Proof.
  intros byi w rs u. destruct (used_callee_spec byi w rs [] (NoDup_nil _)) as [Hnd Hin]. fold u in Hnd, Hin.
  assert (Hsub : forall r, In r u -> In r c21_callee_saved).
  { intros r H. apply Hin in H. destruct H as [[]|[_ [_ H]]]. apply memz_In. exact H. }
  split; [exact Hnd|]. split; [|split; [|split; [|split]]].
  - intro H. now apply Hsub, callee_saved_not_rsp_rax in H.
  - intro H. now apply Hsub, callee_saved_not_rsp_rax in H.
  - change 6%nat with (length c21_callee_saved). apply NoDup_incl_length; [exact Hnd | exact Hsub].
  - intros r H. apply Hin in H. destruct H as [[]|[H _]]. exact H.
  - intros r Hb Hc Hr. apply Hin. right. split; [exact Hr|]. split; [exact Hb|]. apply memz_In. exact Hc.
Qed.


Lemma lower_strict_args : forall q f d, lower_strict q = Some f -> In d (vf_defs f) -> arg_def d = true ->
  exists i, (i < sp_nargs q)%nat /\
    ((i < max_reg_args)%nat /\ d = VArg i i \/ (max_reg_args <= i)%nat /\ d = VStk i (i - max_reg_args)).
Proof.
  intros q f d Hl Hin Ha. unfold lower_strict in Hl.
  destruct (lower_ops _ (sp_ops q)) as [st|] eqn:Hlo; [|discriminate].
  assert (Hsub : In d (l_out st)).
  { destruct (sp_ret q) as [r|].
    - destruct (nth_error (l_vmap st) r); [|discriminate]. inversion Hl; subst f. cbn [vf_defs] in Hin.
      apply in_rev in Hin. eapply dce_rev_subset. exact Hin.
    - inversion Hl; subst f. cbn [vf_defs] in Hin. apply in_rev in Hin. eapply dce_rev_subset. exact Hin. }
  pose proof (lower_ops_args _ _ _ d Hlo Hsub Ha) as H0. cbn [l_out] in H0. apply in_rev in H0.
  destruct (lower_args_shape _ _ _ H0) as [i [Hr Hd]]. exists i. split; [lia | exact Hd].
Qed.


Lemma body_ops_split : forall w alloc f,
  body_ops w alloc f = flat_map (emit2 w alloc) (vf_defs f)
                       ++ filter (fun x => negb (redundant (fst x))) (assign_ret w alloc (vf_ret f)).
Proof. intros. unfold body_ops. rewrite filter_app, filter_emit2. reflexivity. Qed.

Lemma body_correct : forall q f alloc raw s1 delta,
  lower_strict q = Some f ->
  alloc_ok alloc f = true ->
  (forall i, (i < sp_nargs q)%nat -> (i < max_reg_args)%nat -> regs s1 (arg_reg i) = nth i raw 0) ->
  (forall d j, In (VStk d j) (vf_defs f) -> stk_ok raw delta s1 j) ->
  let w := sp_w q in
  let e := fun v => low w (regs s1 (alloc v)) in
  exists sb, exec (map (shift_instr delta) (map fst (body_ops w alloc f))) s1 = Running sb
    /\ (forall rv, vf_ret f = Some rv -> low w (regs sb RAX) = veval w raw (vf_defs f) e rv)
    /\ mem sb = mem s1
    /\ regs sb RSP = regs s1 RSP
    /\ (forall r, ~ In r (map snd (body_ops w alloc f)) -> regs sb r = regs s1 r).
Proof.
  intros q f alloc raw s1 delta Hl Hok Hregs Hstk w e.
  unfold alloc_ok in Hok. rewrite body_ops_split.
  set (res := reserved_regs (vf_defs f)) in *.
  destruct (sim_defs w raw alloc delta (vf_defs f) s1 e (ret_uses (vf_ret f)) res) as [st' [He [Hag [Hm [Hfr Hrs]]]]].
  - left. reflexivity.
  - intros d i Hin. split.
    + subst res. unfold reserved_regs. right. apply in_flat_map. exists (VArg d i). split; [exact Hin | left; reflexivity].
    + destruct (lower_strict_args q f (VArg d i) Hl Hin eq_refl) as [i' [Hn [[Hlt Heq]|[_ Heq]]]]; [|discriminate].
      inversion Heq; subst. apply Hregs; assumption.
  - exact Hstk.
  - intros v _. reflexivity.
  - exact Hok.
  - rewrite !map_app. rewrite (exec_app_running _ _ _ _ He).
    assert (Hrsp' : regs st' RSP = regs s1 RSP) by (apply Hrs; left; reflexivity).
    destruct (vf_ret f) as [rv|] eqn:Hret; cbn [assign_ret filter].
    + assert (Hrv : low w (regs st' (alloc rv)) = veval w raw (vf_defs f) e rv) by (apply Hag; left; reflexivity).
      cbn [fst redundant]. destruct (c21_ret_reg =? alloc rv) eqn:Eq; cbn [negb map exec].
      * apply Z.eqb_eq in Eq. exists st'. split; [reflexivity|]. split; [|split; [exact Hm|split; [exact Hrsp'|]]].
        -- intros rv' Hrv'. inversion Hrv'; subst rv'. change RAX with c21_ret_reg. rewrite Eq. exact Hrv.
        -- intros r Hnin. apply Hfr. intro Hin. apply Hnin. rewrite app_nil_r. exact Hin.
      * cbn [shift_instr step]. eexists. split; [reflexivity|]. cbn [regs mem].
        split; [|split; [exact Hm|split]].
        -- intros rv' Hrv'. inversion Hrv'; subst rv'. change RAX with c21_ret_reg. rewrite write_reg_same. exact Hrv.
        -- rewrite write_reg_other by (vm_compute; discriminate). exact Hrsp'.
        -- intros r Hnin. cbn [map snd] in Hnin.
           rewrite write_reg_other.
           ++ apply Hfr. intro Hin. apply Hnin. apply in_or_app. left. exact Hin.
           ++ intro Heq. apply Hnin. apply in_or_app. right. left. congruence.
    + cbn [map exec]. exists st'. split; [reflexivity|]. split; [intros rv Hrv; discriminate|].
      split; [exact Hm|]. split; [exact Hrsp'|].
      intros r Hnin. apply Hfr. intro Hin. apply Hnin. rewrite app_nil_r. exact Hin.
Qed.

(* the entry state demanded by the SysV ABI *)

Record entry_ok (n : nat) (raw : list Z) (entry_rsp ra : Z) (s0 : state) : Prop := mkEntry {
  en_rsp : regs s0 RSP = entry_rsp;
  en_al : aligned entry_rsp = true;
  en_room : 48 <= entry_rsp;                                  (* room for the six callee-saved registers *)
  en_top : entry_rsp + 8 + 8 * Z.of_nat n < M64;
  en_ra : mem s0 entry_rsp = Some ra;                          (* return address *)
  en_regs : forall i, (i < n)%nat -> (i < 6)%nat -> regs s0 (nth i sysv_arg_regs (-1)) = nth i raw 0;
  en_stk : forall j, (6 + j < n)%nat ->
           mem s0 (sysv_stack_arg_addr entry_rsp (Z.of_nat j)) = Some (nth (6 + j) raw 0) }.

Definition has_stk (l : list vdef) : bool :=
  existsb (fun d => match d with VStk _ _ => true | _ => false end) l.

Definition pushed (ver : version) (w : width) (alloc : vreg -> reg) (f : vfunc) : list reg :=
  used_callee (v_by_index ver) w (map snd (body_ops w alloc f)) [].

(* the stack-passed arguments are read from the right slots *)
Definition stack_args_ok (ver : version) (w : width) (alloc : vreg -> reg) (f : vfunc) : Prop :=
  v_shift ver = true \/ has_stk (vf_defs f) = false \/ pushed ver w alloc f = [].

Theorem pipeline_correct : forall ver p f alloc raw entry_rsp ra s0 res,
  c21_lower p = Some f ->
  src_sem p raw = Some res ->
  alloc_ok alloc f = true ->
  entry_ok (sp_nargs p) raw entry_rsp ra s0 ->
  stack_args_ok ver (sp_w p) alloc f ->
  exists sf, exec (c21_finish ver (sp_w p) alloc f) s0 = Returned sf ra
    /\ regs sf RSP = entry_rsp + 8
    /\ (forall v, res = Some v -> low (sp_w p) (regs sf RAX) = v)
    /\ ((sp_w p = W64 \/ v_by_index ver = true) -> forall r, In r sysv_callee_saved -> regs sf r = regs s0 r).
Proof.
  intros ver p f alloc raw sp0 ra s0 res Hlow Hsem Hok [Hrsp Hal Hroom Htop Hra Hregs Hstk] Hsa.
  unfold c21_lower, c21_lower_v in Hlow. destruct (rejects_v c21_rejects_imul8 p); [discriminate|].
  assert (Hsem' : src_sem (neutralize p) raw = Some res) by (rewrite src_sem_neutralize; [exact Hsem | congruence]).
  set (q := neutralize p) in *.
  assert (Hw : sp_w q = sp_w p) by reflexivity. assert (Hn : sp_nargs q = sp_nargs p) by reflexivity.
  set (w := sp_w p) in *. set (n := sp_nargs p) in *.
  unfold c21_finish. unfold stack_args_ok, pushed in Hsa.
  set (ops := body_ops w alloc f) in *.
  set (used := used_callee (v_by_index ver) w (map snd ops) []) in *.
  destruct (used_callee_props (v_by_index ver) w (map snd ops)) as [Hnd [Hnrsp [Hnrax [Hlen [Hsub Hall]]]]].
  fold used in Hnd, Hnrsp, Hnrax, Hlen, Hsub, Hall.
  set (k := Z.of_nat (length used)) in *.
  set (delta := if v_shift ver then c21_stack_slot * k else 0).
  assert (Hbody : (if v_shift ver then map (shift_instr (c21_stack_slot * k)) (map fst ops) else map fst ops)
                  = map (shift_instr delta) (map fst ops)).
  { subst delta. destruct (v_shift ver); [reflexivity | symmetry; apply map_shift_0]. }
  rewrite Hbody. change c21_pop_reversed with true. cbv iota.
  destruct (wrap_correct used (map (shift_instr delta) (map fst ops)) s0 sp0 ra Hrsp Hal ltac:(lia) ltac:(lia) Hnd Hnrsp Hra)
    as [s1 [He1 [Hr1 [Hf1 [Hm1 Hcont]]]]].
  fold k in Hr1.
  (* the body, from the state after the pushes *)
  destruct (body_correct q f alloc raw s1 delta Hlow Hok) as [sb [Heb [Hval [Hmb [Hrb Hfb]]]]].
  - intros i Hi1 Hi2. rewrite max_reg_args_6 in Hi2. rewrite Hf1 by (apply arg_reg_not_rsp; exact Hi2).
    unfold arg_reg. change c21_arg_regs with sysv_arg_regs. apply Hregs; assumption.
  - intros d j Hin.
    destruct (lower_strict_args q f (VStk d j) Hlow Hin eq_refl) as [i [Hi [[_ Heq]|[Hge Heq]]]]; [discriminate|].
    inversion Heq; subst d j. rewrite max_reg_args_6 in *.
    assert (Hdk : delta = 8 * k \/ k = 0 /\ delta = 0).
    { subst delta. destruct Hsa as [Hs|[Hs|Hs]].
      - rewrite Hs. left. reflexivity.
      - exfalso. unfold has_stk in Hs. apply Bool.not_true_iff_false in Hs. apply Hs. apply existsb_exists.
        eexists. split; [exact Hin | reflexivity].
      - right. subst k. rewrite Hs. cbn [length]. split; [reflexivity|]. destruct (v_shift ver); reflexivity. }
    unfold stk_ok. cbv zeta. rewrite Hr1. rewrite stack_arg_offset_eq.
    assert (Haddr : sp0 - 8 * k + (8 * (Z.of_nat (i - 6) + 1) + delta) = sysv_stack_arg_addr sp0 (Z.of_nat (i - 6))).
    { unfold sysv_stack_arg_addr. lia. }
    rewrite Haddr. unfold sysv_stack_arg_addr. rewrite low64_small by lia. split.
    + replace (sp0 + 8 + 8 * Z.of_nat (i - 6)) with (sp0 + 8 * (1 + Z.of_nat (i - 6))) by lia.
      apply aligned_shift. exact Hal.
    + rewrite Hm1 by lia. rewrite max_reg_args_6.
      specialize (Hstk (i - 6)%nat ltac:(lia)). unfold sysv_stack_arg_addr in Hstk. exact Hstk.
  - (* the epilogue *)
    destruct (Hcont sb Heb Hrb) as [sf [Hef [Hrf [Hused [Hother Hmf]]]]].
    + intros a Ha. rewrite Hmb. reflexivity.
    + exists sf. split; [exact Hef|]. split; [exact Hrf|]. split.
      * intros v ->. rewrite Hother by (first [exact Hnrax | vm_compute; discriminate]).
        pose proof (lower_strict_sound q f raw (fun v0 => low (sp_w q) (regs s1 (alloc v0))) (Some v) Hlow Hsem') as Hv.
        unfold vsem in Hv. cbv zeta in Hval. change (sp_w q) with w in Hv, Hval. destruct (vf_ret f) as [rv|] eqn:Hret; [|discriminate].
        injection Hv as Hv'. rewrite (Hval rv eq_refl). exact Hv'.
      * intros Hcs r Hr. change sysv_callee_saved with c21_callee_saved in Hr.
        destruct (in_dec Z.eq_dec r used) as [Hin|Hnin]; [apply Hused; exact Hin|].
        assert (Hrr : r <> RSP) by (now apply callee_saved_not_rsp_rax).
        rewrite Hother by assumption.
        rewrite Hfb; [apply Hf1; exact Hrr|].
        intro Hin. apply Hnin. apply Hall; [| exact Hr | exact Hin].
        destruct Hcs as [Hw64|Hbi]; [rewrite Hw64; apply orb_true_r | rewrite Hbi; reflexivity].
Qed.

(* readable projections of wrap_correct and pipeline_correct (used by Props/C21.v) *)

Definition frame_hyps (ps : list reg) (s : state) (sp ra : Z) : Prop :=
  regs s RSP = sp /\ aligned sp = true /\ 8 * Z.of_nat (length ps) <= sp /\ sp + 8 < M64
  /\ NoDup ps /\ ~ In RSP ps /\ mem s sp = Some ra.

(* a body is well behaved from s1 when it runs to its end, is stack-balanced and leaves the save area and
   the return slot alone *)
Definition body_ok (body : list instr) (s1 sb : state) (sp : Z) : Prop :=
  exec body s1 = Running sb /\ regs sb RSP = regs s1 RSP
  /\ (forall a, regs s1 RSP <= a <= sp -> mem sb a = mem s1 a).

Theorem callee_saved_restored : forall ps body s sp ra, frame_hyps ps s sp ra ->
  exists s1, exec (map IPush ps) s = Running s1 /\
    forall sb, body_ok body s1 sb sp ->
      exists sf, exec (map IPush ps ++ body ++ map IPop (rev ps) ++ [IRet]) s = Returned sf ra
        /\ (forall r, In r ps -> regs sf r = regs s r)                       (* pushed: restored *)
        /\ (forall r, ~ In r ps -> r <> RSP -> regs sb r = regs s1 r -> regs sf r = regs s r).  (* untouched *)
Proof.
  intros ps body s sp ra [H1 [H2 [H3 [H4 [H5 [H6 H7]]]]]].
  destruct (wrap_correct ps body s sp ra H1 H2 H3 H4 H5 H6 H7) as [s1 [He [_ [Hf [_ Hc]]]]].
  exists s1. split; [exact He|]. intros sb [Hb1 [Hb2 Hb3]].
  destruct (Hc sb Hb1 Hb2 Hb3) as [sf [Hef [_ [Hu [Ho _]]]]].
  exists sf. split; [exact Hef|]. split; [exact Hu|].
  intros r Hn Hr Hsame. rewrite Ho by assumption. rewrite Hsame. apply Hf. exact Hr.
Qed.

Theorem rsp_restored : forall ps body s sp ra, frame_hyps ps s sp ra ->
  exists s1, exec (map IPush ps) s = Running s1 /\
    forall sb, body_ok body s1 sb sp ->
      exists sf, exec (map IPush ps ++ body ++ map IPop (rev ps) ++ [IRet]) s = Returned sf ra
        /\ regs sf RSP = sp + 8.
Proof.
  intros ps body s sp ra [H1 [H2 [H3 [H4 [H5 [H6 H7]]]]]].
  destruct (wrap_correct ps body s sp ra H1 H2 H3 H4 H5 H6 H7) as [s1 [He [_ [_ [_ Hc]]]]].
  exists s1. split; [exact He|]. intros sb [Hb1 [Hb2 Hb3]].
  destruct (Hc sb Hb1 Hb2 Hb3) as [sf [Hef [Hr _]]]. exists sf. split; assumption.
Qed.

(* the order matters: popping in push order (not reversed) swaps two saved registers *)
Example pop_order_matters :
  exists s sf, exec (map IPush [3; 12] ++ map IPop [3; 12] ++ [IRet]) s = Returned sf 77
               /\ regs sf 3 <> regs s 3.
Proof.
  exists (mkState (fun r => if r =? 4 then 4096 else r) (fun a => if a =? 4096 then Some 77 else None)).
  eexists. split; [vm_compute; reflexivity|]. vm_compute. discriminate.
Qed.
