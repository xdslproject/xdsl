(* C29/Proofs.v -- Spec (the property's resolution rule) and the proofs about the
   xdsl.utils.symbol_table functions (direct lookup).  Cached tables: ProofsCached.v;
   traits.SymbolTable.lookup_symbol: ProofsTraits.v. *)
From Coq Require Import List Arith Bool Lia.
From XV Require Import C29.Model.
Import ListNotations.

(* =================================================================== Spec *)
(* "the operation with that name": child number i of o carries the name, no earlier child does
   (with unique names per table -- every verified module -- it is the only one, see
   first_child_named_unique below). *)
Definition named (o : op) (n : name) : Prop := sym_name o = Some n.
Definition first_child_named (o : op) (n : name) (i : nat) : Prop :=
  (exists c, nth_error (children o) i = Some c /\ named c n) /\
  (forall j c, j < i -> nth_error (children o) j = Some c -> ~ named c n).

Definition is_prefix (q p : path) : Prop := exists s, p = q ++ s.
Definition table_at (t : op) (q : path) : Prop :=
  exists o, get t q = Some o /\ is_symbol_table o = true.
(* nearest enclosing symbol table of the op at p (the op itself counts): the longest prefix of p
   that denotes a symbol table *)
Definition nearest_table (t : op) (p q : path) : Prop :=
  table_at t q /\ is_prefix q p /\
  (forall q', is_prefix q' p -> table_at t q' -> length q' <= length q).

(* each further component is resolved inside the previous result, which must be a symbol table;
   a private symbol reached this way is refused *)
Inductive resolve_nested (t : op) : path -> list name -> path -> Prop :=
| RN_done : forall c, resolve_nested t c [] c
| RN_step : forall c o m ms i c' r,
    get t c = Some o -> is_symbol_table o = true ->
    first_child_named o m i ->
    get t (c ++ [i]) = Some c' -> visibility c' <> Private ->
    resolve_nested t (c ++ [i]) ms r ->
    resolve_nested t c (m :: ms) r.

(* resolution of root::nested inside the symbol table q *)
Definition resolve_in (t : op) (q : path) (root : name) (nested : list name) (r : path) : Prop :=
  exists o i, get t q = Some o /\ is_symbol_table o = true /\
              first_child_named o root i /\ resolve_nested t (q ++ [i]) nested r.

Definition sym_root (s : symarg) : name := match s with SFlat n => n | SRef n _ => n end.
Definition sym_nested (s : symarg) : list name := match s with SFlat _ => [] | SRef _ ms => ms end.

(* lookup of `sym` from the op at p designates the op at r *)
Definition resolve_from (t : op) (p : path) (sym : symarg) (r : path) : Prop :=
  exists q, nearest_table t p q /\ resolve_in t q (sym_root sym) (sym_nested sym) r.

(* unique symbol names per table (what traits.SymbolTable.verify enforces, restricted to symbols) *)
Definition sym_names (l : list op) : list name :=
  flat_map (fun o => match sym_name o with Some n => [n] | None => [] end) l.
Definition unique_names (t : op) : Prop :=
  forall q o, get t q = Some o -> is_symbol_table o = true -> NoDup (sym_names (children o)).

Lemma has_name_iff : forall o n, has_name o n = true <-> named o n.
Proof.
  intros o n. unfold has_name, named. destruct (sym_name o) as [m|].
  - rewrite Nat.eqb_eq. split; intro H; [subst; reflexivity | congruence].
  - split; intro H; discriminate.
Qed.

Lemma has_name_false : forall o n, has_name o n = false <-> ~ named o n.
Proof.
  intros o n. rewrite <- has_name_iff. destruct (has_name o n); split; intro H; congruence.
Qed.

Lemma first_named_iff : forall n l k i,
  first_named n l k = Some i <->
  exists j, i = k + j /\ (exists c, nth_error l j = Some c /\ named c n) /\
            (forall j' c, j' < j -> nth_error l j' = Some c -> ~ named c n).
Proof.
  intros n l. induction l as [|o r IH]; intros k i; cbn [first_named].
  - split; [discriminate | intros [j [_ [[c [Hc _]] _]]]; destruct j; discriminate].
  - destruct (has_name o n) eqn:E.
    + apply has_name_iff in E. split.
      * intro H. inversion H; subst. exists 0. split; [lia|]. split; [exists o; auto | intros; lia].
      * intros [[|j] [-> [_ Hmin]]]; [f_equal; lia|]. destruct (Hmin 0 o); [lia | reflexivity | exact E].
    + apply has_name_false in E. rewrite IH. split.
      * intros [j [-> [Hex Hmin]]]. exists (S j). split; [lia|]. split; [exact Hex|].
        intros [|j'] c Hlt Hc; cbn in Hc; [inversion Hc; subst; exact E | apply (Hmin j' c); [lia | exact Hc]].
      * intros [[|j] [-> [[c [Hc Hn]] Hmin]]]; cbn in Hc; [inversion Hc; subst; contradiction|].
        exists j. split; [lia|]. split; [exists c; auto|].
        intros j' c' Hlt Hc'. apply (Hmin (S j') c'); [lia | exact Hc'].
Qed.

Lemma first_named_spec : forall o n i,
  first_named n (children o) 0 = Some i <-> first_child_named o n i.
Proof.
  intros o n i. rewrite first_named_iff. split; [intros [j [-> H]]; exact H | intro H; exists i; auto].
Qed.

Lemma first_child_named_fun : forall o n i j,
  first_child_named o n i -> first_child_named o n j -> i = j.
Proof. intros o n i j Hi Hj. apply first_named_spec in Hi, Hj. congruence. Qed.

Lemma first_named_none_spec : forall o n,
  first_named n (children o) 0 = None <-> (forall i, ~ first_child_named o n i).
Proof.
  intros o n. split.
  - intros H i Hi. apply first_named_spec in Hi. congruence.
  - intro H. destruct (first_named n (children o) 0) as [i|] eqn:E; [|reflexivity].
    exfalso. apply (H i). apply first_named_spec. exact E.
Qed.

Lemma get_app : forall p t s, get t (p ++ s) = match get t p with Some o => get o s | None => None end.
Proof.
  induction p as [|i p IH]; intros t s; cbn; [reflexivity|].
  destruct (nth_error (children t) i); [apply IH | reflexivity].
Qed.

Lemma get_snoc : forall t p i o, get t p = Some o -> get t (p ++ [i]) = nth_error (children o) i.
Proof.
  intros t p i o H. rewrite get_app, H. cbn. destruct (nth_error (children o) i); reflexivity.
Qed.

Lemma get_prefix_some : forall t p s o, get t (p ++ s) = Some o -> exists o', get t p = Some o'.
Proof.
  intros t p s o H. rewrite get_app in H. destruct (get t p) as [o'|]; [eauto | discriminate].
Qed.

Lemma is_prefix_refl : forall p, is_prefix p p.
Proof. intro p. exists []. symmetry. apply app_nil_r. Qed.

Lemma is_prefix_snoc : forall q p a, is_prefix q (p ++ [a]) -> q = p ++ [a] \/ is_prefix q p.
Proof.
  intros q p a [s Hs]. destruct s as [|b s' _] using rev_ind.
  - rewrite app_nil_r in Hs. left. symmetry. exact Hs.
  - rewrite app_assoc in Hs. apply app_inj_tail in Hs. destruct Hs as [Hp _].
    right. exists s'. exact Hp.
Qed.

Lemma is_prefix_snoc_r : forall q p a, is_prefix q p -> is_prefix q (p ++ [a]).
Proof. intros q p a [s Hs]. exists (s ++ [a]). subst. rewrite app_assoc. reflexivity. Qed.

Lemma is_prefix_length : forall q p, is_prefix q p -> length q <= length p.
Proof. intros q p [s Hs]. subst. rewrite app_length. lia. Qed.

Lemma is_prefix_same_length : forall q q' p,
  is_prefix q p -> is_prefix q' p -> length q = length q' -> q = q'.
Proof.
  intros q q' p [s Hs] [s' Hs'] Hlen. subst p.
  assert (H : firstn (length q) (q ++ s) = firstn (length q) (q' ++ s')) by (rewrite Hs'; reflexivity).
  rewrite firstn_app, Nat.sub_diag, firstn_all, firstn_O, app_nil_r in H.
  rewrite Hlen, firstn_app, Nat.sub_diag, firstn_all, firstn_O, app_nil_r in H. exact H.
Qed.

Lemma nearest_table_fun : forall t p q q', nearest_table t p q -> nearest_table t p q' -> q = q'.
Proof.
  intros t p q q' [Ht [Hp Hmax]] [Ht' [Hp' Hmax']].
  apply (is_prefix_same_length q q' p Hp Hp').
  apply Nat.le_antisymm; [apply Hmax' | apply Hmax]; assumption.
Qed.

Lemma table_at_self_nearest : forall t p, table_at t p -> nearest_table t p p.
Proof.
  intros t p Ht. split; [exact Ht|]. split; [apply is_prefix_refl|].
  intros q' Hq' _. apply is_prefix_length. exact Hq'.
Qed.

Lemma not_table_at : forall t p o, get t p = Some o -> is_symbol_table o = false -> ~ table_at t p.
Proof. intros t p o Hg Hf [o' [Hg' Ht]]. congruence. Qed.

Lemma nearest_up_some : forall t rp q, nearest_up t rp = Some q -> nearest_table t (rev rp) q.
Proof.
  intros t rp. induction rp as [|a rp IH]; intros q H; cbn [nearest_up] in H.
  - destruct (get t (rev [])) as [o|] eqn:Hg; [|discriminate].
    destruct (is_symbol_table o) eqn:Et; [|discriminate].
    inversion H; subst. apply table_at_self_nearest. exists o. split; assumption.
  - destruct (get t (rev (a :: rp))) as [o|] eqn:Hg; [|discriminate].
    destruct (is_symbol_table o) eqn:Et.
    + inversion H; subst. apply table_at_self_nearest. exists o. split; assumption.
    + apply IH in H. destruct H as [Ht [Hp Hmax]]. cbn [rev] in *.
      split; [exact Ht|]. split; [apply is_prefix_snoc_r; exact Hp|].
      intros q' Hq' Htq'. apply is_prefix_snoc in Hq'. destruct Hq' as [Heq | Hq'].
      * subst q'. exfalso. apply (not_table_at _ _ _ Hg Et Htq').
      * apply Hmax; assumption.
Qed.

Lemma nearest_up_none : forall t rp o, get t (rev rp) = Some o -> nearest_up t rp = None ->
  forall q', is_prefix q' (rev rp) -> ~ table_at t q'.
Proof.
  intros t rp. induction rp as [|a rp IH]; intros o Hg H q' Hq'; cbn [nearest_up] in H; rewrite Hg in H.
  - destruct (is_symbol_table o) eqn:Et; [discriminate|].
    apply is_prefix_length in Hq'. cbn in Hq'. destruct q'; [|cbn in Hq'; lia].
    apply (not_table_at _ _ _ Hg Et).
  - destruct (is_symbol_table o) eqn:Et; [discriminate|]. cbn [rev] in *.
    apply is_prefix_snoc in Hq'. destruct Hq' as [Heq | Hq'].
    + subst q'. apply (not_table_at _ _ _ Hg Et).
    + destruct (get_prefix_some _ _ _ _ Hg) as [o' Ho']. apply (IH o' Ho' H q' Hq').
Qed.

Lemma get_nearest_spec : forall t p o q, get t p = Some o ->
  (get_nearest_symbol_table t p = Some q <-> nearest_table t p q).
Proof.
  intros t p o q Hg. unfold get_nearest_symbol_table. split.
  - intro H. apply nearest_up_some in H. rewrite rev_involutive in H. exact H.
  - intro H. destruct (nearest_up t (rev p)) as [q0|] eqn:E.
    + apply nearest_up_some in E. rewrite rev_involutive in E.
      f_equal. apply (nearest_table_fun t p); assumption.
    + exfalso. destruct H as [Ht [Hp _]].
      apply (nearest_up_none t (rev p) o) with (q' := q); rewrite ?rev_involutive; assumption.
Qed.

Lemma get_nearest_none : forall t p o, get t p = Some o ->
  (get_nearest_symbol_table t p = None <-> forall q, ~ nearest_table t p q).
Proof.
  intros t p o Hg. split.
  - intros H q Hq. apply (get_nearest_spec t p o q Hg) in Hq. congruence.
  - intro H. destruct (get_nearest_symbol_table t p) as [q|] eqn:E; [|reflexivity].
    exfalso. apply (H q). apply (get_nearest_spec t p o q Hg). exact E.
Qed.

Lemma traits_anchor_eq : forall t rp, traits_anchor t rp = nearest_up t rp.
Proof.
  intros t rp. induction rp as [|a rp IH]; cbn [traits_anchor nearest_up].
  - reflexivity.
  - rewrite IH. reflexivity.
Qed.

Lemma is_table_at_iff : forall t c, is_table_at t c = true <-> table_at t c.
Proof.
  intros t c. unfold is_table_at, table_at. destruct (get t c) as [o|].
  - split; [intro H; exists o; split; [reflexivity | exact H] | intros [o' [Ho' Ht]]; congruence].
  - split; [discriminate | intros [o' [Ho' _]]; discriminate].
Qed.

Lemma lookup_direct_some : forall t q n r,
  lookup_direct t q n = Some r <->
  exists o i, get t q = Some o /\ first_child_named o n i /\ r = q ++ [i].
Proof.
  intros t q n r. unfold lookup_direct. split.
  - intro H. destruct (get t q) as [o|]; [|discriminate].
    destruct (first_named n (children o) 0) as [i|] eqn:E; [|discriminate].
    inversion H; subst. exists o, i. split; [reflexivity|]. split; [|reflexivity].
    apply first_named_spec. exact E.
  - intros [o [i [Hg [Hf Hr]]]]. rewrite Hg. apply first_named_spec in Hf. rewrite Hf. subst. reflexivity.
Qed.

Lemma lookup_direct_none : forall t q n o, get t q = Some o ->
  (lookup_direct t q n = None <-> forall i, ~ first_child_named o n i).
Proof.
  intros t q n o Hg. unfold lookup_direct. rewrite Hg. rewrite <- first_named_none_spec.
  destruct (first_named n (children o) 0); split; intro H; congruence.
Qed.

Lemma first_child_get : forall t c o m i, get t c = Some o -> first_child_named o m i ->
  exists c', get t (c ++ [i]) = Some c' /\ named c' m.
Proof.
  intros t c o m i Hg [[c' [Hc' Hn]] _]. exists c'. split; [|exact Hn].
  rewrite (get_snoc _ _ _ _ Hg). exact Hc'.
Qed.

Lemma is_private_at_false : forall t p o, get t p = Some o ->
  (is_private_at t p = false <-> visibility o <> Private).
Proof.
  intros t p o Hg. unfold is_private_at. rewrite Hg.
  destruct (visibility o); cbn; split; intro H; congruence.
Qed.

Lemma nearest_is_table : forall t p q, get_nearest_symbol_table t p = Some q -> is_table_at t q = true.
Proof. intros t p q H. apply nearest_up_some in H. apply is_table_at_iff, H. Qed.

Lemma resolve_nested_cons : forall t c m ms r,
  resolve_nested t c (m :: ms) r <->
  is_table_at t c = true /\
  exists x, lookup_direct t c m = Some x /\ is_private_at t x = false /\ resolve_nested t x ms r.
Proof.
  intros t c m ms r. split.
  - intro H. inversion H as [| c0 o m0 ms0 i c' r0 Hg Ht Hf Hg' Hv Hrn]; subst.
    split; [apply is_table_at_iff; exists o; split; assumption|].
    exists (c ++ [i]). split; [apply lookup_direct_some; exists o, i; auto|].
    split; [apply (is_private_at_false t _ _ Hg'); exact Hv | exact Hrn].
  - intros [Et [x [El [Ep Hrn]]]]. apply is_table_at_iff in Et. destruct Et as [o [Hg Ht]].
    apply lookup_direct_some in El. destruct El as [o1 [i [Hg1 [Hf ->]]]].
    assert (o1 = o) by congruence. subst o1.
    destruct (first_child_get t c o m i Hg Hf) as [c' [Hg' _]].
    apply (is_private_at_false t _ _ Hg') in Ep. apply (RN_step t c o m ms i c' r); assumption.
Qed.

Lemma resolve_nested_nil_inv : forall t c r, resolve_nested t c [] r -> r = c.
Proof. intros t c r H. inversion H. reflexivity. Qed.

Lemma resolve_nested_fun : forall t ms c r r', resolve_nested t c ms r -> resolve_nested t c ms r' -> r = r'.
Proof.
  intros t ms. induction ms as [|m ms IH]; intros c r r' H H'.
  - apply resolve_nested_nil_inv in H, H'. congruence.
  - apply resolve_nested_cons in H, H'. destruct H as [_ [x [El [_ H]]]], H' as [_ [x' [El' [_ H']]]].
    assert (x' = x) by congruence. subst x'. apply (IH x); assumption.
Qed.

Lemma resolve_in_iff : forall t q root nested r,
  resolve_in t q root nested r <->
  is_table_at t q = true /\ exists x, lookup_direct t q root = Some x /\ resolve_nested t x nested r.
Proof.
  intros t q root nested r. split.
  - intros [o [i [Hg [Ht [Hf Hrn]]]]]. split; [apply is_table_at_iff; exists o; split; assumption|].
    exists (q ++ [i]). split; [apply lookup_direct_some; exists o, i; auto | exact Hrn].
  - intros [Et [x [El Hrn]]]. apply is_table_at_iff in Et. destruct Et as [o [Hg Ht]].
    apply lookup_direct_some in El. destruct El as [o1 [i [Hg1 [Hf ->]]]].
    assert (o1 = o) by congruence. subst o1. exists o, i. auto.
Qed.

Lemma resolve_in_found : forall t q root nested x r, is_table_at t q = true -> lookup_direct t q root = Some x ->
  (resolve_in t q root nested r <-> resolve_nested t x nested r).
Proof.
  intros t q root nested x r Et El. rewrite resolve_in_iff. split.
  - intros [_ [x' [El' H]]]. assert (x' = x) by congruence. subst x'. exact H.
  - intro H. split; [exact Et|]. exists x. split; assumption.
Qed.

Lemma resolve_in_missing : forall t q root nested r, lookup_direct t q root = None -> ~ resolve_in t q root nested r.
Proof. intros t q root nested r El H. apply resolve_in_iff in H. destruct H as [_ [x [El' _]]]. congruence. Qed.

Lemma resolve_in_fun : forall t q root nested r r',
  resolve_in t q root nested r -> resolve_in t q root nested r' -> r = r'.
Proof.
  intros t q root nested r r' H H'. apply resolve_in_iff in H. destruct H as [Et [x [El H]]].
  apply (resolve_in_found t q root nested x r' Et El) in H'. apply (resolve_nested_fun t nested x); assumption.
Qed.

Lemma resolve_from_iff : forall t p q sym r, nearest_table t p q ->
  (resolve_from t p sym r <-> resolve_in t q (sym_root sym) (sym_nested sym) r).
Proof.
  intros t p q sym r Hn. split.
  - intros [q' [Hn' H]]. rewrite (nearest_table_fun t p q q' Hn Hn'). exact H.
  - intro H. exists q. split; assumption.
Qed.

(* the list of ops resolved by the successive nested components *)
Inductive chain (t : op) : path -> list name -> list path -> Prop :=
| CH_done : forall c, chain t c [] []
| CH_step : forall c m ms x rs,
    is_table_at t c = true -> lookup_direct t c m = Some x -> is_private_at t x = false ->
    chain t x ms rs -> chain t c (m :: ms) (x :: rs).

Lemma last_cons_default : forall (rs : list path) (x y : path), last (x :: rs) y = last rs x.
Proof.
  induction rs as [|z rs IH]; intros x y; [reflexivity|].
  change (last (x :: z :: rs) y) with (last (z :: rs) y). rewrite (IH z y), (IH z x). reflexivity.
Qed.

Lemma chain_resolve : forall t c ms rs, chain t c ms rs -> resolve_nested t c ms (last rs c).
Proof.
  intros t c ms rs H. induction H as [c | c m ms x rs Et El Ep Hch IH].
  - apply RN_done.
  - rewrite last_cons_default. apply resolve_nested_cons. split; [exact Et|]. exists x. auto.
Qed.

Lemma ref_nested_direct : forall t nested c acc,
  (exists rs, chain t c nested rs /\
     ref_nested t (direct_cb t) tt c acc nested = (tt, Val (Some (acc ++ rs))))
  \/ ((forall r, ~ resolve_nested t c nested r) /\
     ref_nested t (direct_cb t) tt c acc nested = (tt, Val None)).
Proof.
  intros t nested. induction nested as [|m ms IH]; intros c acc.
  - left. exists []. split; [apply CH_done|]. cbn. rewrite app_nil_r. reflexivity.
  - cbn [ref_nested]. change (direct_cb t tt c m) with (tt, Val (lookup_direct t c m)).
    destruct (is_table_at t c) eqn:Et; cbn [negb];
      [destruct (lookup_direct t c m) as [x|] eqn:El; cbv beta iota;
         [destruct (is_private_at t x) eqn:Ep|]|].
    1,3,4: (right; split; [|reflexivity]; intros r Hr; apply resolve_nested_cons in Hr;
            destruct Hr as [Et' [x' [El' [Ep' _]]]]; congruence).
    destruct (IH x (acc ++ [x])) as [[rs [Hch Heq]] | [Hno Heq]].
    + left. exists (x :: rs). split; [apply CH_step; assumption|].
      rewrite Heq, <- app_assoc. reflexivity.
    + right. split; [|exact Heq]. intros r Hr. apply resolve_nested_cons in Hr.
      destruct Hr as [_ [x' [El' [_ Hr]]]]. assert (x' = x) by congruence. subst x'. apply (Hno r Hr).
Qed.

Lemma ref_in_direct : forall t q root nested,
  (exists x rs, lookup_direct t q root = Some x /\ chain t x nested rs /\
      lookup_symbol_ref_in t (direct_cb t) tt q root nested = (tt, Val (Some (x :: rs))))
  \/ ((forall r, ~ (exists x, lookup_direct t q root = Some x /\ resolve_nested t x nested r)) /\
      lookup_symbol_ref_in t (direct_cb t) tt q root nested = (tt, Val None)).
Proof.
  intros t q root nested. unfold lookup_symbol_ref_in. change (direct_cb t tt q root) with (tt, Val (lookup_direct t q root)).
  destruct (lookup_direct t q root) as [x|]; cbv beta iota.
  - destruct (ref_nested_direct t nested x [x]) as [[rs [Hch Heq]] | [Hno Heq]].
    + left. exists x, rs. auto.
    + right. split; [|exact Heq]. intros r [x' [E Hr]]. inversion E; subst x'. apply (Hno r Hr).
  - right. split; [|reflexivity]. intros r [x [E _]]. discriminate.
Qed.

Lemma last_symbol_cons : forall rs x, last_symbol (x :: rs) = Val (Some (last rs x)).
Proof.
  intros rs. induction rs as [|y rs' _] using rev_ind; intro x; [reflexivity|].
  unfold last_symbol. rewrite app_comm_cons, rev_app_distr. cbn [rev app].
  rewrite last_last. reflexivity.
Qed.

(* SymbolTable.lookup_symbol_in: AssertionError on a non-table, otherwise exactly the Spec *)
Theorem lookup_symbol_in_spec : forall t q o sym, get t q = Some o ->
  (is_symbol_table o = false -> lookup_symbol_in t q sym = Raise AssertionError) /\
  (is_symbol_table o = true -> exists x, lookup_symbol_in t q sym = Val x /\
      forall r, x = Some r <-> resolve_in t q (sym_root sym) (sym_nested sym) r).
Proof.
  intros t q o sym Hg. unfold lookup_symbol_in.
  assert (Et : is_table_at t q = is_symbol_table o) by (unfold is_table_at; rewrite Hg; reflexivity).
  rewrite Et. split; intro Ht; rewrite Ht in *; cbn [negb]; [reflexivity|].
  destruct sym as [n | root nested]; cbn [sym_root sym_nested].
  - exists (lookup_direct t q n). split; [reflexivity|]. intro r. rewrite resolve_in_iff. split.
    + intro H. split; [exact Et|]. exists r. split; [exact H | apply RN_done].
    + intros [_ [x [El Hrn]]]. apply resolve_nested_nil_inv in Hrn. congruence.
  - destruct (ref_in_direct t q root nested) as [[x [rs [El [Hch Heq]]]] | [Hno Heq]];
      rewrite Heq; cbn [snd].
    + rewrite last_symbol_cons. eexists. split; [reflexivity|].
      intro r. rewrite (resolve_in_found t q root nested x r Et El). apply chain_resolve in Hch. split.
      * intro H. inversion H; subst r. exact Hch.
      * intro H. f_equal. apply (resolve_nested_fun t nested x); assumption.
    + exists None. split; [reflexivity|]. intro r. split; [discriminate|]. intro H.
      apply resolve_in_iff in H. destruct (Hno r (proj2 H)).
Qed.

(* SymbolTable.lookup_nearest_symbol_from = the Spec, every tree, every start op, every reference *)
Theorem lookup_nearest_spec : forall t p o sym, get t p = Some o ->
  exists x, lookup_nearest_symbol_from t p sym = Val x /\
            forall r, x = Some r <-> resolve_from t p sym r.
Proof.
  intros t p o sym Hg. unfold lookup_nearest_symbol_from.
  destruct (get_nearest_symbol_table t p) as [q|] eqn:En.
  - apply (get_nearest_spec t p o q Hg) in En. destruct (proj1 En) as [oq [Hgq Htq]].
    destruct (lookup_symbol_in_spec t q oq sym Hgq) as [_ Hs]. destruct (Hs Htq) as [x [Hx Hr]].
    exists x. split; [exact Hx|]. intro r. rewrite Hr. symmetry. apply resolve_from_iff, En.
  - exists None. split; [reflexivity|]. intro r. split; [discriminate|].
    intros [q [Hn _]]. exfalso.
    destruct (get_nearest_none t p o Hg) as [Hnone _]. apply (Hnone En q Hn).
Qed.

Theorem resolve_from_fun : forall t p sym r r',
  resolve_from t p sym r -> resolve_from t p sym r' -> r = r'.
Proof.
  intros t p sym r r' [q [Hn H]] H'. apply (resolve_from_iff t p q sym r' Hn) in H'.
  apply (resolve_in_fun t q _ _ r r' H H').
Qed.

Lemma chain_prefixes : forall t c ms rs, chain t c ms rs ->
  length rs = length ms /\
  forall k r, nth_error rs k = Some r -> resolve_nested t c (firstn (S k) ms) r.
Proof.
  intros t c ms rs H. induction H as [c | c m ms x rs Et El Ep Hch [IHl IHn]].
  - split; [reflexivity|]. intros k r Hk. destruct k; discriminate.
  - split; [cbn; f_equal; exact IHl|]. intros k r Hk.
    change (firstn (S k) (m :: ms)) with (m :: firstn k ms).
    apply resolve_nested_cons. split; [exact Et|]. exists x. split; [exact El|]. split; [exact Ep|].
    destruct k as [|k]; cbn in Hk; [inversion Hk; subst; apply RN_done | apply IHn; exact Hk].
Qed.

Theorem lookup_symbol_in_all_spec : forall t q o sym, get t q = Some o -> is_symbol_table o = true ->
  exists x, lookup_symbol_in_all t q sym = Val x /\
    (x = None <-> lookup_symbol_in t q sym = Val None) /\
    (forall l, x = Some l ->
       length l = S (length (sym_nested sym)) /\
       (exists r, lookup_symbol_in t q sym = Val (Some r) /\ last l [] = r) /\
       forall k r, nth_error l k = Some r ->
                   resolve_in t q (sym_root sym) (firstn k (sym_nested sym)) r).
Proof.
  intros t q o sym Hg Ht. unfold lookup_symbol_in_all, lookup_symbol_in.
  assert (Et : is_table_at t q = true) by (unfold is_table_at; rewrite Hg; exact Ht).
  rewrite Et. cbn [negb]. destruct sym as [n | root nested]; cbn [sym_root sym_nested].
  - destruct (lookup_direct t q n) as [r|] eqn:El.
    + exists (Some [r]). split; [reflexivity|]. split; [split; discriminate|].
      intros l Hl. inversion Hl; subst. split; [reflexivity|].
      split; [exists r; split; reflexivity|].
      intros k r' Hk. destruct k as [|k]; [|destruct k; discriminate]. cbn in Hk. inversion Hk; subst.
      apply (resolve_in_found t q n [] r' r' Et El). apply RN_done.
    + exists None. split; [reflexivity|]. split; [split; reflexivity|]. intros l Hl. discriminate.
  - destruct (ref_in_direct t q root nested) as [[x [rs [El [Hch Heq]]]] | [Hno Heq]];
      rewrite Heq; cbn [snd].
    + exists (Some (x :: rs)). split; [reflexivity|].
      rewrite last_symbol_cons. split; [split; discriminate|].
      intros l Hl. inversion Hl; subst l. destruct (chain_prefixes _ _ _ _ Hch) as [Hlen Hpre].
      split; [cbn; f_equal; exact Hlen|].
      split; [exists (last rs x); split; [reflexivity | apply last_cons_default]|].
      intros k r Hk. apply (resolve_in_found t q root _ x r Et El).
      destruct k as [|k]; cbn in Hk; [inversion Hk; subst; apply RN_done | apply Hpre; exact Hk].
    + exists None. split; [reflexivity|]. split; [split; reflexivity|]. intros l Hl. discriminate.
Qed.

Lemma in_sym_names : forall l j b n, nth_error l j = Some b -> named b n -> In n (sym_names l).
Proof.
  induction l as [|x r IH]; intros j b n Hj Hn; [destruct j; discriminate|].
  unfold sym_names. cbn [flat_map]. apply in_or_app. destruct j as [|j]; cbn in Hj.
  - inversion Hj; subst. left. unfold named in Hn. rewrite Hn. left. reflexivity.
  - right. apply (IH j b n Hj Hn).
Qed.

Lemma nodup_names_cons : forall x r, NoDup (sym_names (x :: r)) ->
  NoDup (sym_names r) /\ forall n, named x n -> ~ In n (sym_names r).
Proof.
  intros x r H. unfold sym_names in H. cbn [flat_map] in H. unfold named.
  destruct (sym_name x) as [m|]; [|split; [exact H | discriminate]].
  inversion H; subst. split; [assumption|]. intros n E. inversion E; subst. assumption.
Qed.

Lemma nodup_names_inj : forall l i j a b n, NoDup (sym_names l) ->
  nth_error l i = Some a -> nth_error l j = Some b -> named a n -> named b n -> i = j.
Proof.
  induction l as [|x r IH]; intros i j a b n Hnd Hi Hj Ha Hb; [destruct i; discriminate|].
  destruct (nodup_names_cons x r Hnd) as [Hnd' Hx].
  destruct i as [|i], j as [|j]; cbn in Hi, Hj.
  - reflexivity.
  - exfalso. inversion Hi; subst. apply (Hx n Ha), (in_sym_names r j b n Hj Hb).
  - exfalso. inversion Hj; subst. apply (Hx n Hb), (in_sym_names r i a n Hi Ha).
  - f_equal. apply (IH i j a b n Hnd' Hi Hj Ha Hb).
Qed.

Theorem first_child_named_unique : forall o n i, NoDup (sym_names (children o)) ->
  (first_child_named o n i <-> exists c, nth_error (children o) i = Some c /\ named c n).
Proof.
  intros o n i Hnd. split; [intros [H _]; exact H|].
  intros [c [Hc Hn]]. split; [exists c; split; assumption|].
  intros j c' Hlt Hj Hn'.
  assert (j = i) by (apply (nodup_names_inj (children o) j i c' c n); assumption). lia.
Qed.
