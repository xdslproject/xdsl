(* C05/Proofs.v -- soundness of the checker: a format accepted by fmt_ok round-trips every
   well-formed instance (theorem c05_sound). *)
From Coq Require Import ZArith String Bool Arith List Lia.
From XV Require Import C05.Model C05.Check C05.ProofsBase C05.ProofsTok C05.ProofsState C05.ProofsSplit
  C05.ProofsElem C05.ProofsLook C05.ProofsGroup C05.ProofsFinish.
Import ListNotations.
Local Open Scope string_scope.
Local Open Scope list_scope.

Lemma untrig_nil : forall tail, untrig [] tail.
Proof. intros tail t _ g []. Qed.

Lemma the_dict_spec : forall f kw r x, the_dict f = Some (kw, r, x) ->
  filter (fun e => match e with EAttrDict _ _ _ => true | _ => false end) (all_elems f) = [EAttrDict kw r x].
Proof.
  intros f kw r x H. unfold the_dict in H.
  destruct (filter _ (all_elems f)) as [|e0 [|e1 rr]]; try discriminate; destruct e0; try discriminate.
  destruct (filter _ (top_elems f)) as [|t0 [|t1 tr]]; try discriminate.
  injection H as -> -> ->. reflexivity.
Qed.

Lemma the_dict_In : forall f kw r x, the_dict f = Some (kw, r, x) -> In (EAttrDict kw r x) (all_elems f).
Proof.
  intros f kw r x H. apply the_dict_spec in H.
  apply (filter_In (fun e => match e with EAttrDict _ _ _ => true | _ => false end)). rewrite H. left; reflexivity.
Qed.

Lemma the_dict_expected : forall f kw rs ex, In (EAttrDict kw rs ex) (all_elems f) ->
  the_dict f <> None -> expected_names f = ex.
Proof.
  intros f kw rs ex Hin Hd. unfold expected_names.
  destruct (the_dict f) as [[[kw' r'] x']|] eqn:E; [|congruence]. apply the_dict_spec in E.
  assert (In (EAttrDict kw rs ex) [EAttrDict kw' r' x']) as [[= _ _ ->]|[]]
    by (rewrite <- E; apply filter_In; split; [exact Hin | reflexivity]).
  reflexivity.
Qed.

Section Main.
  Variable fx : bool.
  Variable d : opdef.
  Variable f : format.
  Variable i : inst.
  Hypothesis Hio : IOK d i.
  Hypothesis Hfunty : fx = true \/ funty_ok i f = true.
  Hypothesis Hshort : forall e, In e (all_elems f) -> short_lead_ok i e = true.
  Hypothesis Hclash : forall n a, In (n, a) (i_attrs i) -> ~ In n (expected_names f).

  Lemma funty_elem : forall e, In e (all_elems f) -> fx = true \/ elem_funty_ok i e = true.
  Proof.
    intros e Hin. destruct Hfunty as [H|H]; [left; exact H|right].
    unfold funty_ok in H. rewrite forallb_forall in H.
    unfold all_elems in Hin. apply in_flat_map in Hin. destruct Hin as [x [Hx He]].
    specialize (H x Hx). destruct x as [e'|a fe ts].
    - destruct He as [<- | []]. exact H.
    - rewrite forallb_forall in H. apply H. exact He.
  Qed.

  Lemma top_elem_step : forall e,
    In e (all_elems f) -> the_dict f <> None -> elem_top_ok d e = true -> estep fx d i e (trig_of d e) false.
  Proof.
    intros e Hin Hdict Htop. apply estep_intro. intros st tail Ha Hu.
    destruct e as [l ld|kw rs ex|s|s|a b|n p k o dflt].
    - exists [TLit l ld], true, st. split; [reflexivity|]. split; [apply lit_accepts|].
      split; [discriminate|]. apply reach_refl; [exact Ha | exact I].
    - destruct (parse_dict_ok fx d i st kw rs ex tail Hio Ha) as [ts [flag [st' [Hp [Hpa Hst']]]]].
      + intros n a Hna. rewrite <- (the_dict_expected f kw rs ex Hin Hdict). exact (Hclash n a Hna).
      + exact Hu.
      + exists ts, flag, st'. split; [exact Hp|]. split; [exact Hpa|]. split; [discriminate | exact Hst'].
    - cbn [elem_top_ok] in Htop. apply andb_true_iff in Htop. destruct Htop as [Hv Hr].
      destruct (vals_step d i s (trig_of d (EVals s)) st tail Hio Ha Hv Hr) as [vs [st' [Hvs [Hp Hst']]]];
        [cbn [trig_of].. | exact Hu |].
      + intros ->. right; left; reflexivity.
      + intros _ Hk. destruct (kind_of_src d s); [congruence | left; reflexivity | left; reflexivity].
      + eexists; eexists; exists st'. split; [cbn [print_elem]; rewrite Hvs; reflexivity|].
        split; [exact Hp|]. split; [discriminate | exact Hst'].
    - cbn [elem_top_ok] in Htop.
      destruct (types_step d i s (trig_of d (ETypes s)) st tail Hio Ha Htop) as [flag [st' [Hp Hst']]];
        [cbn [trig_of].. | exact Hu |].
      + intros ->. right; left; reflexivity.
      + intros _ Hk. destruct (kind_of_src d s); [congruence | left; reflexivity | left; reflexivity].
      + eexists; exists flag, st'. split; [reflexivity|]. split; [exact Hp|]. split; [discriminate | exact Hst'].
    - cbn [elem_top_ok] in Htop.
      repeat (apply andb_true_iff in Htop; destruct Htop as [Htop ?]).
      destruct (parse_funty_ok fx d i st a b tail Hio Ha) as [ts [st' [Hp [Hpa Hst']]]]; auto.
      { apply funty_elem; exact Hin. }
      exists ts, true, st'. split; [exact Hp|]. split; [exact Hpa|]. split; [reflexivity | exact Hst'].
    - cbn [elem_top_ok] in Htop. apply andb_true_iff in Htop. destruct Htop as [Hdecl Hk].
      assert ((exists a0, attr_of i n p = Some a0 /\ is_default a0 dflt = false) \/
              (attr_of i n p = None \/ exists a0, attr_of i n p = Some a0 /\ is_default a0 dflt = true)) as [[a0 [Hat Hdf]]|Hv].
      { destruct (attr_of i n p) as [a0|]; [destruct (is_default a0 dflt) eqn:Hdf|]; eauto. }
      + destruct (parse_attr_present fx d i st n p k o dflt a0 tail Hio Ha Hdecl Hat Hdf) as [ts [st' [Hp [Hpa Hst']]]].
        { intros l -> ->. pose proof (Hshort _ Hin) as Hs. cbn [short_lead_ok] in Hs. rewrite Hat in Hs.
          unfold short_item. cbn [tok_lead]. rewrite Hs. reflexivity. }
        exists ts, true, st'. split; [exact Hp|]. split; [exact Hpa|]. split; [reflexivity | exact Hst'].
      + (* nothing is printed: a required variable is present, and one that elides its default is optional *)
        assert (o = true) as ->.
        { destruct o; [reflexivity|]. destruct Hv as [Hn|[a0 [_ Hdf]]].
          - exfalso. exact (decl_required d i n p k false dflt Hio Hdecl eq_refl Hn).
          - apply is_default_eq in Hdf. subst dflt. destruct k as [|[l|]|u]; discriminate. }
        destruct (parse_attr_silent fx d i st n p k dflt tail Ha Hv) as [Hp [Hpa Hd']].
        { destruct k as [|[l|]|u]; try discriminate.
          - intros t Ht. apply (Hu t Ht GAttr). simpl. left; reflexivity.
          - intros t Ht. unfold short_item.
            pose proof (Hu t Ht (GLead l)) as H. simpl in H. rewrite (H (or_introl eq_refl)). reflexivity. }
        exists [], false, st. split; [exact Hp|]. split; [exact Hpa|]. split; [discriminate|].
        apply reach_refl; [exact Ha | exact Hd'].
  Qed.

  (* only a literal trigger has anything to satisfy, and the one literal in the trigger lists of
     Check.v is the keyword of an attr-dict *)
  Definition only_attributes (gs : list atrig) : bool :=
    forallb (fun g => match g with GLit s => String.eqb s "attributes" | _ => true end) gs.

  Lemma only_attributes_wf : forall gs g, only_attributes gs = true -> In g gs -> trig_wf f g.
  Proof.
    intros gs g H Hin. unfold only_attributes in H. rewrite forallb_forall in H. specialize (H g Hin).
    destruct g; try exact I. apply String.eqb_eq in H. subst. left; reflexivity.
  Qed.

  Lemma trig_in_group_wf : forall e g, In g (trig_in_group d e) -> trig_wf f g.
  Proof.
    intros e g. apply only_attributes_wf.
    destruct e as [| |s|s| |]; try reflexivity; cbn [trig_in_group]; destruct (kind_of_src d s); reflexivity.
  Qed.

  Lemma trig_of_wf : forall e g, In g (trig_of d e) -> trig_wf f g.
  Proof.
    intros e g. apply only_attributes_wf.
    destruct e as [|kw| s|s| |n p k o dflt]; try reflexivity; cbn [trig_of].
    - destruct kw; reflexivity.
    - destruct (kind_of_src d s); reflexivity.
    - destruct (kind_of_src d s); reflexivity.
    - destruct k as [|[l|]|u], o; reflexivity.
  Qed.

  Lemma list_tail_untrig : forall gs (r : list elem) (k : list dir) tr tk rest,
    (forall g, In g gs -> trig_wf f g) -> groups_ok d k = true ->
    nf_all d gs (map DE r ++ k) = true ->
    print_elems fx d i r = Some tr -> print_fmt fx d i k = Some tk -> rest_ok d f rest = true ->
    untrig gs (tr ++ tk ++ rest).
  Proof.
    intros gs r k tr tk rest Hwf Hg Hnf Hpr Hpk Hr. rewrite app_assoc.
    apply (nf_all_untrig fx d f i gs (map DE r ++ k) (tr ++ tk) rest Hio Hwf); [|exact Hnf| |exact Hr].
    - unfold groups_ok. rewrite forallb_app. apply andb_true_iff. split; [|exact Hg].
      apply forallb_forall. intros x Hx. apply in_map_iff in Hx. destruct Hx as [e' [<- _]]. reflexivity.
    - rewrite print_fmt_app, print_fmt_DE, Hpr, Hpk. reflexivity.
  Qed.

  Lemma elems_steps : forall (es : list elem) (k : list dir) tk rest,
    groups_ok d k = true ->
    print_fmt fx d i k = Some tk -> rest_ok d f rest = true ->
    (forall e, In e es -> estep fx d i e (trig_in_group d e) false) ->
    look_elems d es k = true ->
    exists tes, print_elems fx d i es = Some tes /\
      forall st, agree d i st -> exists st',
        parse_elems d es st (tes ++ tk ++ rest) = Some (st', tk ++ rest) /\
        reach d i st st' (all_done d i es).
  Proof.
    induction es as [|e r IH]; intros k tk rest Hg Hpk Hr Hst Hlook.
    - exists []. split; [reflexivity|]. intros st Ha. exists st. split; [reflexivity|].
      apply reach_refl; [exact Ha | intros e []].
    - cbn [look_elems] in Hlook. apply andb_true_iff in Hlook. destruct Hlook as [Hl1 Hl2].
      destruct (IH k tk rest Hg Hpk Hr (fun e' H => Hst e' (or_intror H)) Hl2) as [tr [Hpr Hparse]].
      destruct (Hst e (or_introl eq_refl)) as [te [Hpe Hstep]].
      exists (te ++ tr). split; [cbn [print_elems]; rewrite Hpe, Hpr; reflexivity|].
      intros st Ha.
      destruct (Hstep st (tr ++ tk ++ rest) Ha) as [flag [st1 [Hpa [_ H1]]]].
      { apply (list_tail_untrig _ r k tr tk rest); auto. apply trig_in_group_wf. }
      destruct (Hparse st1 (proj1 H1)) as [st2 [Hpa2 H2]].
      exists st2. split; [|exact (reach_cons _ _ _ _ _ _ _ H1 H2)].
      cbn [parse_elems]. rewrite <- app_assoc, Hpa. exact Hpa2.
  Qed.

  Lemma src_group_esteps : forall a s fe ts,
    (a = AnVals s \/ a = AnTypes s) -> group_ok d a fe ts = true -> anchor_present i a = true ->
    estep fx d i fe (trig_in_group d fe) true /\
    (forall e, In e ts -> estep fx d i e (trig_in_group d e) false).
  Proof.
    intros a s fe ts Has Hg Hp.
    destruct (group_src_facts d a s fe ts Has Hg) as [Hr [_ [_ [Hv [Hfin [Hnt Htin]]]]]].
    assert (src_types i s <> []) as Hne by (apply (anchor_src_nonempty i a s); assumption).
    split.
    - pose proof (src_group_elem_present fx d i s fe Hio Hr Hne Hfin) as H.
      destruct fe; try contradiction; exact H.
    - intros e Hin. rewrite forallb_forall in Htin.
      exact (estep_any_flag _ _ _ _ _ _ (src_group_elem_present fx d i s e Hio Hr Hne (Htin e Hin))).
  Qed.

  Lemma group_present_step : forall a fe ts (k : list dir) tk rest,
    group_ok d a fe ts = true -> anchor_present i a = true ->
    (forall e, In e (fe :: ts) -> In e (all_elems f)) ->
    groups_ok d k = true -> print_fmt fx d i k = Some tk -> rest_ok d f rest = true ->
    look_elems d (fe :: ts) k = true ->
    exists tg, print_dir fx d i (DGroup a fe ts) = Some tg /\
      forall st, agree d i st -> exists st',
        parse_dir d (DGroup a fe ts) st (tg ++ tk ++ rest) = Some (st', tk ++ rest) /\
        reach d i st st' (all_done d i (fe :: ts)).
  Proof.
    intros a fe ts k tk rest Hg Hp Hall Hgk Hpk Hr Hlook.
    assert (estep fx d i fe (trig_in_group d fe) true /\
            (forall e, In e ts -> estep fx d i e (trig_in_group d e) false)) as [Hfe Hts].
    { destruct a as [s|s|n p dflt].
      - apply (src_group_esteps (AnVals s) s); auto.
      - apply (src_group_esteps (AnTypes s) s); auto.
      - simpl in Hp. destruct (attr_of i n p) as [a0|] eqn:Hat; [|discriminate].
        apply negb_true_iff in Hp.
        destruct (group_attr_facts d n p dflt fe ts Hg) as [Hfin [_ Hgt]].
        split.
        + apply (attr_group_elem_present fx d i n p dflt a0 fe _ Hio Hat Hp Hfin).
          apply Hshort, Hall. left; reflexivity.
        + intros e Hin. rewrite forallb_forall in Hgt. apply estep_any_flag with true.
          apply (attr_group_elem_present fx d i n p dflt a0 e _ Hio Hat Hp (Hgt e Hin)).
          apply Hshort, Hall. right; exact Hin. }
    cbn [look_elems] in Hlook. apply andb_true_iff in Hlook. destruct Hlook as [Hl1 Hl2].
    destruct (elems_steps ts k tk rest Hgk Hpk Hr Hts Hl2) as [tr [Hpr Hparse]].
    destruct Hfe as [te [Hpe Hstep]].
    exists (te ++ tr). split; [cbn [print_dir]; rewrite Hp; cbn [print_elems]; rewrite Hpe, Hpr; reflexivity|].
    intros st Ha.
    destruct (Hstep st (tr ++ tk ++ rest) Ha) as [flag [st1 [Hpa [Hfl H1]]]].
    { apply (list_tail_untrig _ ts k tr tk rest); auto. apply trig_in_group_wf. }
    rewrite (Hfl eq_refl) in Hpa.
    destruct (Hparse st1 (proj1 H1)) as [st2 [Hpa2 H2]].
    exists st2. split; [|exact (reach_cons _ _ _ _ _ _ _ H1 H2)].
    cbn [parse_dir]. rewrite <- app_assoc, Hpa. exact Hpa2.
  Qed.

  Lemma set_empty_all_src : forall s ts st,
    src_in_range d s = true -> src_varlike d s = true -> empty_ok d s = true -> src_types i s = [] ->
    forallb (elem_in_src_group d s) ts = true -> agree d i st ->
    exists st', set_empty_all d ts st = Some st' /\ reach d i st st' (all_done d i ts).
  Proof.
    intros s. induction ts as [|e r IH]; intros st Hr Hvl Hem Hnil Hin Ha.
    - exists st. split; [reflexivity|]. apply reach_refl; [exact Ha | intros e []].
    - simpl in Hin. apply andb_true_iff in Hin. destruct Hin as [He Hrest].
      destruct (src_group_elem_empty d i st s e Hio Ha Hr Hvl Hem Hnil He) as [st1 [Hs1 H1]].
      destruct (IH st1 Hr Hvl Hem Hnil Hrest (proj1 H1)) as [st2 [Hs2 H2]].
      exists st2. split; [cbn [set_empty_all]; rewrite Hs1; exact Hs2 | exact (reach_cons _ _ _ _ _ _ _ H1 H2)].
  Qed.

  Lemma set_empty_all_attr : forall n p dflt ts st,
    (attr_of i n p = None \/ exists a, attr_of i n p = Some a /\ is_default a dflt = true) ->
    forallb (elem_in_attr_group d n p dflt) ts = true ->
    set_empty_all d ts st = Some st /\ (forall e, In e ts -> elem_done d i e st).
  Proof.
    intros n p dflt. induction ts as [|e r IH]; intros st Hv Hin.
    - split; [reflexivity|]. intros e [].
    - simpl in Hin. apply andb_true_iff in Hin. destruct Hin as [He Hrest].
      destruct (IH st Hv Hrest) as [Hs Hd].
      assert (set_empty d e st = Some st /\ elem_done d i e st) as [Hse Hde].
      { destruct e as [l ld|kw rs ex|s'|s'|x y|n' p' k o dflt']; try discriminate.
        - split; [reflexivity|exact I].
        - destruct (in_attr_group_inv _ _ _ _ _ _ _ _ _ He) as [-> [-> [-> _]]].
          split; [reflexivity|]. intros a Hat.
          destruct Hv as [Hn|[a' [Ha' Hd']]].
          + rewrite Hn in Hat; discriminate.
          + rewrite Ha' in Hat; inversion Hat; subst; left; exact Hd'. }
      split.
      + cbn [set_empty_all]. rewrite Hse. exact Hs.
      + intros e' [<- | Hin']; [exact Hde | apply Hd; exact Hin'].
  Qed.

  Lemma group_absent_src : forall a s fe ts tail st,
    src_in_range d s = true -> src_varlike d s = true -> empty_ok d s = true ->
    elem_in_src_group d s fe = true -> (match fe with ETypes _ => False | _ => True end) ->
    forallb (elem_in_src_group d s) ts = true ->
    src_types i s = [] ->
    untrig (trig_first d fe) tail -> agree d i st ->
    exists st',
      parse_dir d (DGroup a fe ts) st tail = Some (st', tail) /\ reach d i st st' (all_done d i (fe :: ts)).
  Proof.
    intros a s fe ts tail st Hr Hvl Hem Hfin Hnt Htin Hnil Hu Ha.
    assert (exists st1, parse_elem d fe st tail = Some (false, st1, tail) /\ reach d i st st1 (elem_done d i fe))
      as [st1 [Hp1 H1]].
    { destruct (kind_of_src_varlike d s Hvl) as [k [Hk [Hkk Hns]]].
      destruct fe as [l ld|kw rs ex|s'|s'|x y|n p k' o dflt]; cbn [elem_in_src_group] in Hfin; try discriminate; try contradiction.
      - exists st. split; [apply lit_declines; exact Hu | apply reach_refl; [exact Ha | exact I]].
      - apply andb_true_iff in Hfin. destruct Hfin as [He Hv]. apply src_eqb_eq in He. subst s'.
        destruct (vals_step d i s (trig_first d (EVals s)) st tail Hio Ha Hv Hr) as [vs [st' [Hvs [Hp Hst']]]];
          [cbn [trig_first trig_of].. | exact Hu |].
        + intros ->. right; left; reflexivity.
        + intros _ _. destruct (kind_of_src d s); [congruence | left; reflexivity | left; reflexivity].
        + apply (src_vals_types_nil i s vs Hv Hvs) in Hnil. subst vs. rewrite Hkk in Hp.
          change (sep (map TVal []) ++ tail) with tail in Hp.
          exists st'. split; [|exact Hst']. rewrite Hp. destruct k; [congruence | reflexivity | reflexivity]. }
    destruct (set_empty_all_src s ts st1 Hr Hvl Hem Hnil Htin (proj1 H1)) as [st2 [Hs2 H2]].
    exists st2. split; [cbn [parse_dir]; rewrite Hp1, Hs2; reflexivity | exact (reach_cons _ _ _ _ _ _ _ H1 H2)].
  Qed.

  Lemma group_absent_step : forall a fe ts tail st,
    group_ok d a fe ts = true -> anchor_present i a = false ->
    untrig (trig_first d fe) tail -> agree d i st ->
    exists st',
      parse_dir d (DGroup a fe ts) st tail = Some (st', tail) /\ reach d i st st' (all_done d i (fe :: ts)).
  Proof.
    intros a fe ts tail st Hg Hp Hu Ha.
    destruct a as [s|s|n p dflt].
    - destruct (group_src_facts d (AnVals s) s fe ts (or_introl eq_refl) Hg) as [Hr [Hvl [Hem [Hv [Hfin [Hnt Htin]]]]]].
      specialize (Hv eq_refl).
      apply group_absent_src with (s := s); auto.
      simpl in Hp. destruct (src_vals_some i s Hv) as [vs Hvs]. rewrite Hvs in Hp.
      apply nonempty_false_nil in Hp. subst vs. apply (src_vals_types_nil i s [] Hv Hvs). reflexivity.
    - destruct (group_src_facts d (AnTypes s) s fe ts (or_intror eq_refl) Hg) as [Hr [Hvl [Hem [Hv [Hfin [Hnt Htin]]]]]].
      apply group_absent_src with (s := s); auto.
      simpl in Hp. apply nonempty_false_nil in Hp. exact Hp.
    - assert (attr_of i n p = None \/ exists a, attr_of i n p = Some a /\ is_default a dflt = true) as Hv.
      { simpl in Hp. destruct (attr_of i n p) as [a0|]; [|left; reflexivity].
        right. exists a0. split; [reflexivity|]. apply negb_false_iff in Hp. exact Hp. }
      destruct (group_attr_facts d n p dflt fe ts Hg) as [Hfin [Hsh Hgt]].
      destruct (set_empty_all_attr n p dflt ts st Hv Hgt) as [Hs Hd].
      assert (parse_elem d fe st tail = Some (false, st, tail) /\ elem_done d i fe st) as [Hp1 Hd1].
      { destruct fe as [l ld| | | | |n' p' k' o dflt']; try contradiction.
        - split; [apply lit_declines; exact Hu|exact I].
        - destruct (in_attr_group_inv _ _ _ _ _ _ _ _ _ Hfin) as [-> [-> [-> _]]].
          destruct k'; try contradiction. destruct o; try contradiction.
          destruct (parse_attr_silent fx d i st n p AKGeneric dflt tail Ha Hv) as [_ [Hpa Hdn]].
          { intros t Ht. apply (Hu t Ht GAttr). simpl. tauto. }
          split; [exact Hpa|exact Hdn]. }
      exists st. split; [cbn [parse_dir]; rewrite Hp1, Hs; reflexivity|].
      apply reach_refl; [exact Ha|]. intros e' [<- | Hin']; [exact Hd1 | apply Hd; exact Hin'].
  Qed.

  Lemma dirs_groups_ok : forall k, dirs_ok d k = true -> groups_ok d k = true.
  Proof.
    intros k H. unfold dirs_ok in H. unfold groups_ok. rewrite forallb_forall in *.
    intros x Hx. specialize (H x Hx). destruct x; [reflexivity|exact H].
  Qed.

  Lemma trig_first_wf : forall e g, In e (all_elems f) -> In g (trig_first d e) -> trig_wf f g.
  Proof.
    intros e g He Hin. destruct e as [l ld|kw rs ex|s|s|a b|n p k o dflt];
      try (eapply (trig_of_wf _ g); exact Hin).
    cbn [trig_first] in Hin. destruct Hin as [<- | []]. simpl. right.
    unfold fmt_lits. apply in_flat_map. exists (ELit l ld). split; [exact He|left; reflexivity].
  Qed.

  Lemma dirs_steps : forall k rest,
    (forall e, In e (all_elems k) -> In e (all_elems f)) ->
    the_dict f <> None ->
    dirs_ok d k = true -> look_dirs d k = true -> rest_ok d f rest = true ->
    exists tk, print_fmt fx d i k = Some tk /\
      forall st, agree d i st -> exists st',
        parse_dirs d k st (tk ++ rest) = Some (st', rest) /\
        reach d i st st' (all_done d i (all_elems k)).
  Proof.
    induction k as [|x r IH]; intros rest Hsub Hdict Hok Hlook Hr.
    - exists []. split; [reflexivity|]. intros st Ha. exists st. split; [reflexivity|].
      apply reach_refl; [exact Ha | intros e []].
    - set (ex := match x with DE e => [e] | DGroup _ fe ts => fe :: ts end).
      change (all_elems (x :: r)) with (ex ++ all_elems r) in *.
      unfold dirs_ok in Hok. cbn [forallb] in Hok. apply andb_true_iff in Hok. destruct Hok as [Hokx Hokr].
      assert (look_dirs d r = true) as Hlr
        by (destruct x; cbn [look_dirs] in Hlook; apply andb_true_iff in Hlook; apply Hlook).
      destruct (IH rest (fun e H => Hsub e (in_or_app _ _ _ (or_intror H))) Hdict Hokr Hlr Hr) as [tr [Hpr Hparse]].
      assert (exists tx, print_dir fx d i x = Some tx /\
                forall st, agree d i st -> exists st1,
                  parse_dir d x st (tx ++ tr ++ rest) = Some (st1, tr ++ rest) /\
                  reach d i st st1 (all_done d i ex)) as [tx [Hpx Hstepx]].
      { destruct x as [e|a fe ts]; subst ex; cbn [look_dirs] in Hlook.
        - apply andb_true_iff in Hlook. destruct Hlook as [Hl1 _].
          destruct (top_elem_step e (Hsub e (or_introl eq_refl)) Hdict Hokx) as [te [Hpe Hstep]].
          exists te. split; [exact Hpe|]. intros st Ha.
          destruct (Hstep st (tr ++ rest) Ha) as [flag [st1 [Hpa [_ H1]]]].
          { apply (nf_all_untrig fx d f i (trig_of d e) r tr rest Hio); auto using dirs_groups_ok.
            intros g Hg; eapply trig_of_wf; exact Hg. }
          exists st1. split; [cbn [parse_dir]; rewrite Hpa; reflexivity | exact (reach_one _ _ _ _ _ H1)].
        - apply andb_true_iff in Hlook. destruct Hlook as [Hlook _].
          apply andb_true_iff in Hlook. destruct Hlook as [Hl1 Hl2].
          assert (forall e, In e (fe :: ts) -> In e (all_elems f)) as Hgin
            by (intros e He; apply Hsub, in_or_app; left; exact He).
          destruct (anchor_present i a) eqn:Ean.
          + apply (group_present_step a fe ts r tr rest); auto using dirs_groups_ok.
          + exists []. split; [cbn [print_dir]; rewrite Ean; reflexivity|]. intros st Ha.
            apply (group_absent_step a fe ts (tr ++ rest) st Hokx Ean); [|exact Ha].
            apply (nf_all_untrig fx d f i (trig_first d fe) r tr rest Hio); auto using dirs_groups_ok.
            intros g Hg; eapply trig_first_wf; [|exact Hg]. apply Hgin; left; reflexivity. }
      exists (tx ++ tr). split; [cbn [print_fmt]; rewrite Hpx, Hpr; reflexivity|].
      intros st Ha. destruct (Hstepx st Ha) as [st1 [Hpa H1]].
      destruct (Hparse st1 (proj1 H1)) as [st2 [Hpa2 H2]].
      exists st2. split; [|exact (reach_app _ _ _ _ _ _ _ H1 H2)].
      cbn [parse_dirs]. rewrite <- app_assoc, Hpa. exact Hpa2.
  Qed.
End Main.

Lemma nodup_strs_NoDup : forall l, nodup_strs l = true -> NoDup l.
Proof.
  induction l as [|x r IH]; simpl; intro H; [constructor|].
  apply andb_true_iff in H. destruct H as [Hx Hr]. constructor; [|apply IH; exact Hr].
  intro Hin. apply mem_In in Hin. rewrite Hin in Hx. discriminate.
Qed.

Lemma existsb_In : forall A (g : A -> bool) l, existsb g l = true -> exists x, In x l /\ g x = true.
Proof. intros A g l H. apply existsb_exists in H. exact H. Qed.

Lemma all_set_isset : forall A (l : list (option A)) k, all_set l -> k < length l -> isset l k.
Proof. intros A l k H Hk. apply H; exact Hk. Qed.

Lemma attr_decl_default : forall d n p k o dflt,
  attr_decl_ok d n p k o dflt = true -> adef_default (if p then od_props d else od_attrs d) n = dflt.
Proof.
  intros d n p k o dflt H. unfold attr_decl_ok, the_adef in H. unfold adef_default.
  destruct (find_adef n (if p then od_props d else od_attrs d)) as [a|]; [|discriminate].
  apply andb_true_iff in H. destruct H as [H _]. apply andb_true_iff in H. destruct H as [_ H].
  apply opt_av_eqb_eq in H. exact H.
Qed.

Lemma elem_decl_ok : forall d f e n p k o dflt,
  dirs_ok d f = true -> In e (all_elems f) -> e = EAttr n p k o dflt -> attr_decl_ok d n p k o dflt = true.
Proof.
  intros d f e n p k o dflt Hok Hin ->. unfold dirs_ok in Hok. rewrite forallb_forall in Hok.
  unfold all_elems in Hin. apply in_flat_map in Hin. destruct Hin as [x [Hx He]].
  specialize (Hok x Hx). destruct x as [e'|a fe ts].
  - destruct He as [-> | []]. cbn [elem_top_ok] in Hok. apply andb_true_iff in Hok. tauto.
  - unfold group_ok in Hok. destruct a as [s|s|n' p' dflt'].
    + repeat (apply andb_true_iff in Hok; destruct Hok as [Hok ?]).
      destruct He as [-> | He]; [discriminate|].
      match goal with H : forallb (elem_in_src_group d s) ts = true |- _ => rewrite forallb_forall in H; specialize (H _ He); discriminate end.
    + repeat (apply andb_true_iff in Hok; destruct Hok as [Hok ?]).
      destruct He as [-> | He]; [discriminate|].
      match goal with H : forallb (elem_in_src_group d s) ts = true |- _ => rewrite forallb_forall in H; specialize (H _ He); discriminate end.
    + destruct (group_attr_facts d n' p' dflt' fe ts Hok) as [Hf [_ Ht]]. rewrite forallb_forall in Ht.
      assert (elem_in_attr_group d n' p' dflt' (EAttr n p k o dflt) = true) as Hin
        by (destruct He as [-> | He]; [exact Hf | exact (Ht _ He)]).
      destruct (in_attr_group_inv _ _ _ _ _ _ _ _ _ Hin) as [-> [-> [-> H]]]. exact H.
Qed.

Lemma find_adef_name : forall n l, In n (adef_names l) -> exists a, find_adef n l = Some a.
Proof.
  intros n l H. unfold adef_names in H. apply in_map_iff in H. destruct H as [a [Hn Hin]].
  unfold find_adef. destruct (find (fun a0 => String.eqb (ad_name a0) n) l) as [b|] eqn:E; [eexists; reflexivity|].
  exfalso. apply (find_none _ _ E a) in Hin. rewrite Hn, String.eqb_refl in Hin. discriminate.
Qed.

(* the clauses of attrs_ok that the proofs use; the second (expected names are unbound properties)
   and the third (attribute variables are reserved) are needed nowhere *)
Lemma attrs_ok_parts : forall d f, attrs_ok d f = true ->
  exists kw R E, the_dict f = Some (kw, R, E) /\
    forallb (fun a => existsb (binds_attr (ad_name a) true) (all_elems f) || mem (ad_name a) E) (od_props d) = true /\
    forallb (fun a => negb (mem (ad_name a) (adef_names (od_props d)))) (od_attrs d) = true /\
    forallb (fun n => negb (mem n R)) E = true /\
    NoDup (map ad_name (od_props d)) /\ NoDup (map ad_name (od_attrs d)).
Proof.
  intros d f H. unfold attrs_ok in H. destruct (the_dict f) as [[[kw R] E]|]; [|discriminate].
  apply andb_true_iff in H; destruct H as [H N2]. apply andb_true_iff in H; destruct H as [H N1].
  apply andb_true_iff in H; destruct H as [H HER]. apply andb_true_iff in H; destruct H as [H Hdisj].
  apply andb_true_iff in H; destruct H as [H _]. apply andb_true_iff in H; destruct H as [Hbound _].
  exists kw, R, E. auto 10 using nodup_strs_NoDup.
Qed.

Lemma final_cov_of_done : forall d f i st,
  IOK d i -> dirs_ok d f = true -> attrs_ok d f = true ->
  (forall n a, In (n, a) (i_attrs i) -> ~ In n (dropped_names f) /\ ~ In n (expected_names f)) ->
  agree d i st -> (forall e, In e (all_elems f) -> elem_done d i e st) ->
  final_cov d f i st.
Proof.
  intros d f i st Hio Hok Hat Hside Ha Hdone.
  destruct (attrs_ok_parts d f Hat) as (kw & R & E & Hd & Hbound & Hdisj & HER & _ & _).
  pose proof (the_dict_In f kw R E Hd) as Hdin.
  assert (expected_names f = E) as HEn by (unfold expected_names; rewrite Hd; reflexivity).
  assert (dropped_names f = filter (fun n => negb (existsb (binds_attr n false) (all_elems f))) R) as HDn
    by (unfold dropped_names; rewrite Hd; reflexivity).
  assert (forall n p a, existsb (binds_attr n p) (all_elems f) = true -> attr_of i n p = Some a ->
            is_default a (adef_default (if p then od_props d else od_attrs d) n) = true
            \/ lookup n (if p then p_props st else p_attrs st) = Some a) as Hb.
  { intros n p a Hex Hatt. apply existsb_exists in Hex. destruct Hex as [e [Hein Hbe]].
    destruct e as [l ld|kw' rs ex|s|s|x y|n' p' k o dflt]; cbn [binds_attr] in Hbe; try discriminate.
    apply andb_true_iff in Hbe. destruct Hbe as [Hn Hp]. apply String.eqb_eq in Hn. apply eqb_prop in Hp. subst n' p'.
    pose proof (Hdone _ Hein) as Hde. cbn [elem_done] in Hde.
    pose proof (elem_decl_ok d f _ n p k o dflt Hok Hein eq_refl) as Hdecl.
    rewrite (attr_decl_default d n p k o dflt Hdecl).
    exact (Hde a Hatt). }
  destruct (Hdone _ Hdin) as [Hdict1 Hdict2].
  unfold final_cov. split; [|split; [|split; [|split]]].
  - intros k Hk Hex. apply existsb_exists in Hex. destruct Hex as [e [Hein Hs]].
    exact (proj1 (done_sets d i e st Ha (Hdone e Hein)) k Hk Hs).
  - intros k Hk Hex. apply existsb_exists in Hex. destruct Hex as [e [Hein Hs]].
    exact (proj1 (proj2 (done_sets d i e st Ha (Hdone e Hein))) k Hk Hs).
  - intros k Hk Hex. apply existsb_exists in Hex. destruct Hex as [e [Hein Hs]].
    exact (proj2 (proj2 (done_sets d i e st Ha (Hdone e Hein))) k Hk Hs).
  - intros n a Hl.
    destruct (io_pv _ _ Hio n a (lookup_In _ _ _ Hl)) as [Hname _].
    destruct (find_adef_name n (od_props d) Hname) as [df Hdf].
    destruct (find_adef_In n _ _ Hdf) as [Hdfin Hdfn].
    rewrite forallb_forall in Hbound. specialize (Hbound df Hdfin). rewrite Hdfn in Hbound.
    apply orb_true_iff in Hbound. destruct Hbound as [Hbd | HinE].
    + destruct (Hb n true a Hbd Hl) as [H | H]; [right; exact H | left; exact H].
    + apply mem_In in HinE.
      assert (~ In n R) as HnR.
      { rewrite forallb_forall in HER. specialize (HER n HinE). apply negb_true_iff in HER.
        intro Hc. apply mem_In in Hc. rewrite Hc in HER. discriminate. }
      destruct (Hdict2 n a Hl HinE HnR) as [H | H]; [left; exact H | right].
      unfold dict_default_eq, dict_def in H.
      assert (find_adef n (od_attrs d) = None) as Hna.
      { destruct (find_adef n (od_attrs d)) as [da|] eqn:Eda; [|reflexivity].
        destruct (find_adef_In n _ _ Eda) as [Hdain Hdan].
        rewrite forallb_forall in Hdisj. specialize (Hdisj da Hdain). rewrite Hdan in Hdisj.
        apply negb_true_iff in Hdisj. apply mem_In in Hname. rewrite Hname in Hdisj. discriminate. }
      rewrite Hna in H. apply mem_In in HinE. rewrite HinE in H. rewrite Hdf in H.
      unfold adef_default. rewrite Hdf. exact H.
  - intros n a Hl.
    destruct (Hside n a (lookup_In _ _ _ Hl)) as [Hnd HnE].
    destruct (in_dec string_dec n R) as [HR | HnR].
    + assert (existsb (binds_attr n false) (all_elems f) = true) as Hbd.
      { destruct (existsb (binds_attr n false) (all_elems f)) eqn:Eb; [reflexivity|].
        exfalso. apply Hnd. rewrite HDn. apply filter_In. split; [exact HR|]. rewrite Eb. reflexivity. }
      destruct (Hb n false a Hbd Hl) as [H | H]; [right; exact H | left; exact H].
    + destruct (Hdict1 n a Hl HnR) as [H | H]; [left; exact H | right].
      unfold dict_default_eq, dict_def in H. unfold adef_default.
      destruct (find_adef n (od_attrs d)) as [da|]; [exact H|].
      rewrite HEn in HnE.
      destruct (mem n E) eqn:Em; [apply mem_In in Em; contradiction | discriminate].
Qed.

Theorem c05_sound : forall fx d f i rest,
  fmt_ok d f = true -> inst_ok d i = true -> side_ok fx f i = true -> rest_ok d f rest = true ->
  exists ts i',
    print_fmt fx d i f = Some ts /\
    parse_fmt d f (ts ++ rest) = Some (i', rest) /\
    inst_equiv d i' i.
Proof.
  intros fx d f i rest Hfmt Hinst Hside Hrest.
  unfold fmt_ok, fmt_code in Hfmt.
  destruct (dirs_ok d f) eqn:Hdirs; [|discriminate]. simpl in Hfmt.
  destruct (look_dirs d f) eqn:Hlook; [|discriminate]. simpl in Hfmt.
  destruct (coverage_ok d f) eqn:Hcov; [|discriminate]. simpl in Hfmt.
  destruct (attrs_ok d f) eqn:Hattrs; [|discriminate]. clear Hfmt.
  pose proof (inst_ok_IOK d i Hinst) as Hio.
  unfold side_ok in Hside.
  apply andb_true_iff in Hside. destruct Hside as [Hside Hsattrs].
  apply andb_true_iff in Hside. destruct Hside as [Hsfun Hsshort].
  assert (fx = true \/ funty_ok i f = true) as Hfunty by (apply orb_true_iff; exact Hsfun).
  assert (forall e, In e (all_elems f) -> short_lead_ok i e = true) as Hshort
    by (rewrite forallb_forall in Hsshort; exact Hsshort).
  assert (forall n a, In (n, a) (i_attrs i) -> ~ In n (dropped_names f) /\ ~ In n (expected_names f)) as Hsd.
  { intros n a Hin. rewrite forallb_forall in Hsattrs. specialize (Hsattrs (n, a) Hin). simpl in Hsattrs.
    apply andb_true_iff in Hsattrs. destruct Hsattrs as [H1 H2].
    apply negb_true_iff in H1. apply negb_true_iff in H2.
    split; intro Hc; apply mem_In in Hc; congruence. }
  destruct (attrs_ok_parts d f Hattrs) as (kw & R & E & Hd & _ & _ & _ & Np & Na).
  assert (the_dict f <> None) as Hdict by (rewrite Hd; discriminate).
  destruct (dirs_steps fx d f i Hio Hfunty Hshort (fun n a H => proj2 (Hsd n a H)) f rest
              (fun e H => H) Hdict Hdirs Hlook Hrest) as [ts [Hp Hparse]].
  destruct (Hparse (init_pst d) (agree_init d i)) as [st' [Hpa [Ha [_ Hdone]]]].
  pose proof (final_cov_of_done d f i st' Hio Hdirs Hattrs Hsd Ha Hdone) as Hfc.
  destruct (finish_ok d f i st' Np Na (dirs_ok_funty_shape d f Hdirs) Hio Hcov Ha Hfc) as [i' [Hfin Heq]].
  exists ts, i'. split; [exact Hp|]. split; [|exact Heq].
  unfold parse_fmt. rewrite Hpa, Hfin. reflexivity.
Qed.

Print Assumptions c05_sound.
