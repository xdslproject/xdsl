(* C01/ProofsReplaceOp.v -- WF is preserved by Rewriter.replace_op and PatternRewriter.replace
   for a replaced operation WITHOUT regions (compositions of proved steps). *)
From Coq Require Import ZArith List Bool PArith FMapPositive Lia.
From XV Require Import C01.Model C01.Spec C01.ProofsBase C01.ProofsFrame C01.ProofsUses C01.ProofsOperands
  C01.ProofsRauw C01.ProofsOps C01.ProofsBlocks C01.ProofsOpLists C01.ProofsArgs C01.ProofsErase
  C01.ProofsCreate C01.ProofsInv.
Import ListNotations.

Lemma blk_live_T2 : forall s s' b, same_T2 s s' -> blk_live s b -> blk_live s' b.
Proof.
  intros s s' b [Ab _] (x & F & E). destruct (agree_find_rev _ _ _ _ _ Ab F) as (x' & F' & P).
  unfold pT2_blk in P. injection P as _ _ _ P4. exists x'. split; [exact F'|congruence].
Qed.
Lemma op_live_T3 : forall s s' o, same_T3 s s' -> op_live s o -> op_live s' o.
Proof.
  intros s s' o [Ao _] (x & F & E). destruct (agree_find_rev _ _ _ _ _ Ao F) as (x' & F' & P).
  unfold pT3_op in P. injection P as _ P2. exists x'. split; [exact F'|congruence].
Qed.
Definition op_noreg (s : state) (o : oid) : Prop :=
  exists x, PM.find o (s_ops s) = Some x /\ o_erased x = false /\ o_regions x = [].
Lemma op_noreg_T3 : forall s s' o, same_T3 s s' -> op_noreg s o -> op_noreg s' o.
Proof.
  intros s s' o [Ao _] (x & F & E & R). destruct (agree_find_rev _ _ _ _ _ Ao F) as (x' & F' & P).
  unfold pT3_op in P. injection P as P1 P2. exists x'. split; [exact F'|]. split; congruence.
Qed.

Lemma insert_ops_after_pres : forall R, frame_rel R -> (forall b n e, preserves R (insert_op_after b n e)) ->
  forall ops b e, preserves R (insert_ops_after b ops e).
Proof.
  intros R FR H ops. induction ops as [|o r IH]; intros b e; simpl.
  - apply (pres_ret _ FR).
  - apply (pres_bind _ FR); [apply H|intros _; apply IH].
Qed.

(* what every step of the loop over (old result, replacement) pairs keeps: WF, the frames under which blocks
   and ops stay live, and all parent pointers *)
Definition keeps (m : M unit) : Prop :=
  (forall s s' r, WF s -> m s = (s', Ok r) -> WF s') /\
  preserves same_T2 m /\ preserves same_T3 m /\ preserves (par_rel nobody nobody nobody) m.

Lemma keeps_forM : forall {A} (body : A -> M unit) l, (forall p, keeps (body p)) -> keeps (forM l body).
Proof.
  intros A body l K. split; [|split; [|split]].
  - induction l as [|p t IH]; intros s s' r W H; simpl in H.
    + apply ret_ok in H as [-> _]. exact W.
    + apply bind_ok in H as (s1 & ? & Hb & H). eapply IH; [eapply (proj1 (K p)); eauto|exact H].
  - apply (pres_forM _ fr_T2). intro p. apply (K p).
  - apply (pres_forM _ fr_T3). intro p. apply (K p).
  - apply (pres_forM _ (fr_par nobody nobody nobody)). intro p. apply (K p).
Qed.

Lemma keeps_rauw : forall v w, keeps (replace_all_uses_with v w).
Proof.
  intros v w. split; [intros s s' r; apply replace_all_uses_with_WF|].
  split; [apply rauw_T2|]. split; [apply rauw_T3|apply replace_all_uses_with_par].
Qed.
Lemma keeps_value_erase : forall v safe, keeps (value_erase v safe).
Proof.
  intros v safe. split; [intros s s' r; apply value_erase_WF|].
  split; [apply value_erase_T2|]. split; [apply value_erase_T3|apply value_erase_par].
Qed.
Lemma keeps_pr_rauw : forall v w safe, keeps (pr_replace_all_uses_with v w safe).
Proof.
  intros v w safe. unfold pr_replace_all_uses_with. destruct w as [t|]; [|apply keeps_value_erase].
  destruct (Pos.eqb v t); [|apply keeps_rauw].
  split; [intros s s' r W H; apply ret_ok in H as [-> _]; exact W|].
  split; [apply (pres_ret _ fr_T2)|]. split; [apply (pres_ret _ fr_T3)|apply (pres_ret _ (fr_par nobody nobody nobody))].
Qed.

Lemma keeps_rw_body : forall safe (p : vid * option vid),
  keeps (match snd p with None => value_erase (fst p) safe | Some nr => replace_all_uses_with (fst p) nr end).
Proof. intros safe [v [nr|]]; simpl; [apply keeps_rauw|apply keeps_value_erase]. Qed.

Lemma new_results_pure : forall (new_ops : list oid) (new_results : option (list (option vid))) s s' l,
  match new_results with
  | Some l => ret l
  | None => match last_opt new_ops with
            | None => ret []
            | Some lo => lr <- getO lo ;; ret (map Some (o_results lr))
            end
  end s = (s', Ok l) -> s' = s.
Proof.
  intros new_ops new_results s s' l H. destruct new_results as [l0|].
  - apply ret_ok in H as [-> _]. reflexivity.
  - destruct (last_opt new_ops) as [lo|].
    + apply bind_ok in H as (s1 & lr & Hg & H). apply getO_ok in Hg as [-> _]. apply ret_ok in H as [-> _]. reflexivity.
    + apply ret_ok in H as [-> _]. reflexivity.
Qed.

(* Rewriter.replace_op *)
Theorem rw_replace_op_inv : forall s s' o new_ops new_results safe r,
  WF s -> parents_ok s -> op_noreg s o ->
  (forall x b, PM.find o (s_ops s) = Some x -> o_parent x = Some b -> blk_live s b) ->
  (forall n, In n new_ops -> op_live s n) ->
  rw_replace_op o new_ops new_results safe s = (s', Ok r) -> WF s' /\ parents_ok s'.
Proof.
  intros s s' o new_ops new_results safe r W PO NR BL NL H. unfold rw_replace_op in H.
  apply bind_ok in H as (s0 & orec & Hg & H). apply getO_ok in Hg as [-> Fo].
  destruct (o_parent orec) as [block|] eqn:Po; [|exfalso; eapply raise_ok; eauto].
  pose proof (BL orec block Fo Po) as BLb.
  apply bind_ok in H as (s0 & nres & Hn & H). apply new_results_pure in Hn. subst s0.
  destruct (negb (Nat.eqb (length (o_results orec)) (length nres))); [exfalso; eapply raise_ok; eauto|].
  apply bind_ok in H as (s1 & ? & Hl & H). apply bind_ok in H as (s2 & ? & Hi & He).
  destruct (keeps_forM _ (zip (o_results orec) nres) (keeps_rw_body safe)) as (KW & K2 & K3 & KP).
  pose proof (KW _ _ _ W Hl) as W1. pose proof (K2 _ _ _ Hl) as T2a. pose proof (K3 _ _ _ Hl) as T3a.
  pose proof (KP _ _ _ Hl) as PA.
  assert (OL : op_live s o) by (destruct NR as (xq & Fq & Eq & _); exists xq; auto).
  pose proof (par_rel_nobody_ok _ _ PA PO) as PO1.
  assert (W2 : WF s2).
  { eapply (insert_ops_after_WF new_ops s1 s2 block o _ W1); [eapply blk_live_T2; eauto|eapply op_live_T3; eauto| |exact Hi].
    intros n In. eapply op_live_T3; eauto. }
  assert (T2b : same_T2 s1 s2) by (eapply (insert_ops_after_pres _ fr_T2 insert_op_after_T2); exact Hi).
  assert (T3b : same_T3 s1 s2) by (eapply (insert_ops_after_pres _ fr_T3 insert_op_after_T3); exact Hi).
  destruct (op_noreg_T3 _ _ _ T3b (op_noreg_T3 _ _ _ T3a NR)) as (x2 & F2 & E2 & R2).
  assert (BL1 : blk_live s1 block) by (eapply blk_live_T2; eauto).
  pose proof (parents_ok_by_block _ block _ _ _ (insert_ops_after_par nobody nobody block new_ops o) W1 PO1 BL1 Hi) as PO2.
  split.
  - eapply (erase_op_noregions_WF s2 s' block o x2 safe _ W2); eauto. eapply blk_live_T2; eauto.
  - eapply parents_ok_by_nobody; [apply erase_op_par|exact PO2|exact He].
Qed.

(* PatternRewriter.replace *)
Theorem pr_replace_inv : forall s s' o new_ops new_results safe r,
  WF s -> parents_ok s -> op_noreg s o ->
  (forall x b, PM.find o (s_ops s) = Some x -> o_parent x = Some b -> blk_live s b) ->
  (forall n, In n new_ops -> op_live s n) ->
  pr_replace o new_ops new_results safe s = (s', Ok r) -> WF s' /\ parents_ok s'.
Proof.
  intros s s' o new_ops new_results safe r W PO NR BL NL H. unfold pr_replace in H.
  apply bind_ok in H as (s0 & orec & Hg & H). apply getO_ok in Hg as [-> Fo].
  destruct (o_parent orec) as [block|] eqn:Po; [|exfalso; eapply raise_ok; eauto].
  pose proof (BL orec block Fo Po) as BLb.
  assert (OL : op_live s o) by (destruct NR as (xq & Fq & Eq & _); exists xq; auto).
  apply bind_ok in H as (s1 & ? & Hi & H).
  assert (STEP1 : WF s1 /\ same_T2 s s1 /\ same_T3 s s1 /\ par_rel (eq block) nobody nobody s s1).
  { destruct new_ops as [|n0 t0].
    - apply ret_ok in Hi as [-> _]. split; [exact W|]. split; [apply fr_T2|]. split; [apply fr_T3|apply fr_par].
    - split; [eapply (insert_ops_before_WF (n0 :: t0) s s1 block o _ W BLb OL Hi)|].
      split; [eapply (pres_forM _ fr_T2); [|exact Hi]; intro; apply insert_op_before_T2|].
      split; [eapply (pres_forM _ fr_T3); [|exact Hi]; intro; apply insert_op_before_T3|].
      eapply (insert_ops_before_par nobody nobody block (n0 :: t0) o); exact Hi. }
  destruct STEP1 as (W1 & T2a & T3a & PA).
  apply bind_ok in H as (s1' & nres & Hn & H). apply new_results_pure in Hn. subst s1'.
  apply bind_ok in H as (s1' & orec' & Hg & H). apply getO_ok in Hg as [-> Fo1].
  destruct (negb (Nat.eqb (length (o_results orec')) (length nres))); [exfalso; eapply raise_ok; eauto|].
  apply bind_ok in H as (s2 & ? & Hl & He).
  destruct (keeps_forM (fun p => pr_replace_all_uses_with (fst p) (snd p) safe) (zip (o_results orec') nres)
              (fun p => keeps_pr_rauw _ _ _)) as (KW & K2 & K3 & KP).
  pose proof (KW _ _ _ W1 Hl) as W2. pose proof (K2 _ _ _ Hl) as T2b. pose proof (K3 _ _ _ Hl) as T3b.
  pose proof (KP _ _ _ Hl) as PB.
  destruct (op_noreg_T3 _ _ _ T3b (op_noreg_T3 _ _ _ T3a NR)) as (x2 & F2 & E2 & R2).
  assert (PO1 : parents_ok s1).
  { apply (par_rel_live_ok _ _ _ s s1 PA (wf_alloc s W) PO).
    - intros b0 <-. destruct BLb as (bx & Fb & _). eauto.
    - intros q [].
    - intros q []. }
  pose proof (par_rel_nobody_ok _ _ PB PO1) as PO2.
  split; [|eapply parents_ok_by_nobody; [apply rw_erase_op_par|exact PO2|exact He]].
  eapply (rw_erase_op_noregions_WF s2 s' o x2 safe _ W2 F2 E2 R2); [|exact He].
  (* the parent of o is still `block` (or None) *)
  intros b Pb.
  assert (BL2 : blk_live s2 block) by (eapply blk_live_T2; [exact T2b|]; eapply blk_live_T2; eauto).
  destruct PB as (_ & PBo & _). destruct (PBo o x2 F2 E2) as [N|[(p & _ & [])|(y1 & F1 & E1 & Q1)]]; [congruence|].
  destruct PA as (_ & PAo & _). destruct (PAo o y1 F1 E1) as [N|[(p & Qp & <-)|(y0 & F0 & E0 & Q0)]].
  - congruence.
  - assert (b = block) by congruence. subst b. exact BL2.
  - rewrite Fo in F0. injection F0 as <-. assert (b = block) by congruence. subst b. exact BL2.
Qed.
