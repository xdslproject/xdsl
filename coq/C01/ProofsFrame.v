(* C01/ProofsFrame.v -- frame reasoning.

   The clauses of WF fall into groups that read disjoint sets of fields:
     T1 (WF_block)   ops: parent next prev erased          blocks: first_op last_op erased
     T2 (WF_region)  blocks: next prev parent erased       regions: first last erased
     T3 (WF_opregs)  ops: regions erased                   regions: parent erased
     U  (use lists)  ops: operands operand_uses successors successor_uses erased
                     values: first_use   blocks: first_use   uses: everything
     I  (indices)    ops: results erased   blocks: args erased   values: kind dead
     A  (alloc)      domains of the five tables + counters
   (WF_detached reads the op fields of T1 and the block fields of T2.)
   `same_X s s'` = the two states agree on the fields of group X.  A monadic program that
   only writes fields outside X preserves `same_X` (`preserves`), whatever its outcome, and the
   clauses of group X transfer along `same_X`. *)
From Coq Require Import ZArith List Bool PArith FMapPositive Lia.
From XV Require Import C01.Model C01.Spec C01.ProofsBase.
Import ListNotations.
Local Open Scope Z_scope.

Definition pT1_op (x : op_rec) := (o_parent x, o_next x, o_prev x, o_erased x).
Definition pT1_blk (x : block_rec) := (b_first_op x, b_last_op x, b_erased x).
Definition pT2_blk (x : block_rec) := (b_next x, b_prev x, b_parent x, b_erased x).
Definition pT2_reg (x : region_rec) := (r_first x, r_last x, r_erased x).
Definition pT3_op (x : op_rec) := (o_regions x, o_erased x).
Definition pT3_reg (x : region_rec) := (r_parent x, r_erased x).
Definition pU_op (x : op_rec) := (o_operands x, o_operand_uses x, o_successors x, o_successor_uses x, o_erased x).
Definition pU_val (x : value_rec) := v_first_use x.
Definition pU_blk (x : block_rec) := b_first_use x.
Definition pI_op (x : op_rec) := (o_results x, o_erased x).
Definition pI_blk (x : block_rec) := (b_args x, b_erased x).
Definition pI_val (x : value_rec) := (v_kind x, v_dead x).

Definition agree {R P} (p : R -> P) (t t' : PM.t R) : Prop :=
  forall i, option_map p (PM.find i t') = option_map p (PM.find i t).

Definition same_T1 s s' := agree pT1_op (s_ops s) (s_ops s') /\ agree pT1_blk (s_blocks s) (s_blocks s').
Definition same_T2 s s' := agree pT2_blk (s_blocks s) (s_blocks s') /\ agree pT2_reg (s_regions s) (s_regions s').
Definition same_T3 s s' := agree pT3_op (s_ops s) (s_ops s') /\ agree pT3_reg (s_regions s) (s_regions s').
Definition same_U s s' :=
  agree pU_op (s_ops s) (s_ops s') /\ agree pU_val (s_values s) (s_values s') /\
  agree pU_blk (s_blocks s) (s_blocks s') /\ agree (fun x : use_rec => x) (s_uses s) (s_uses s').
Definition same_I s s' :=
  agree pI_op (s_ops s) (s_ops s') /\ agree pI_blk (s_blocks s) (s_blocks s') /\
  agree pI_val (s_values s) (s_values s').
Definition dom_eq {R} (t t' : PM.t R) : Prop := forall i, PM.find i t' = None <-> PM.find i t = None.
Definition same_A s s' :=
  dom_eq (s_ops s) (s_ops s') /\ dom_eq (s_blocks s) (s_blocks s') /\ dom_eq (s_regions s) (s_regions s') /\
  dom_eq (s_values s) (s_values s') /\ dom_eq (s_uses s) (s_uses s') /\
  n_op s' = n_op s /\ n_block s' = n_block s /\ n_region s' = n_region s /\
  n_value s' = n_value s /\ n_use s' = n_use s.

Lemma agree_refl : forall {R P} (p : R -> P) t, agree p t t.
Proof. intros. intro i. reflexivity. Qed.
Lemma agree_trans : forall {R P} (p : R -> P) t1 t2 t3, agree p t1 t2 -> agree p t2 t3 -> agree p t1 t3.
Proof. intros R P p t1 t2 t3 H1 H2 i. rewrite H2, H1. reflexivity. Qed.
Lemma dom_eq_refl : forall {R} (t : PM.t R), dom_eq t t.
Proof. intros. intro i. tauto. Qed.
Lemma dom_eq_trans : forall {R} (t1 t2 t3 : PM.t R), dom_eq t1 t2 -> dom_eq t2 t3 -> dom_eq t1 t3.
Proof. intros R t1 t2 t3 H1 H2 i. specialize (H1 i). specialize (H2 i). tauto. Qed.

Lemma agree_add : forall {R P} (p : R -> P) t i x y,
  PM.find i t = Some x -> p y = p x -> agree p t (PM.add i y t).
Proof.
  intros R P p t i x y F E j. rewrite find_add. destruct (Pos.eqb_spec j i) as [->|N].
  - rewrite F. simpl. f_equal. exact E.
  - reflexivity.
Qed.
Lemma dom_eq_add : forall {R} (t : PM.t R) i x y, PM.find i t = Some x -> dom_eq t (PM.add i y t).
Proof.
  intros R t i x y F j. rewrite find_add. destruct (Pos.eqb_spec j i) as [->|N].
  - rewrite F. split; discriminate.
  - tauto.
Qed.

(* a reflexive and transitive relation on states: what `preserves` needs to pass through bind *)
Record frame_rel (R : state -> state -> Prop) : Prop := {
  fr_refl : forall s, R s s;
  fr_trans : forall s1 s2 s3, R s1 s2 -> R s2 s3 -> R s1 s3 }.

Ltac split_ands := repeat match goal with |- _ /\ _ => split end.
(* reflexivity / transitivity of a conjunction of `agree`s, `dom_eq`s and equations *)
Ltac solve_refl := intro s; cbv beta; split_ands; first [apply agree_refl | apply dom_eq_refl | reflexivity].
Ltac solve_trans :=
  let H1 := fresh in let H2 := fresh in
  intros ? ? ? H1 H2; cbv beta in *; repeat match goal with H : _ /\ _ |- _ => destruct H end; split_ands;
  first [eapply agree_trans; eassumption | eapply dom_eq_trans; eassumption | congruence].

Lemma fr_T1 : frame_rel same_T1. Proof. unfold same_T1. split; [solve_refl|solve_trans]. Qed.
Lemma fr_T2 : frame_rel same_T2. Proof. unfold same_T2. split; [solve_refl|solve_trans]. Qed.
Lemma fr_T3 : frame_rel same_T3. Proof. unfold same_T3. split; [solve_refl|solve_trans]. Qed.
Lemma fr_U : frame_rel same_U. Proof. unfold same_U. split; [solve_refl|solve_trans]. Qed.
Lemma fr_I : frame_rel same_I. Proof. unfold same_I. split; [solve_refl|solve_trans]. Qed.
Lemma fr_A : frame_rel same_A. Proof. unfold same_A. split; [solve_refl|solve_trans]. Qed.

Definition preserves (R : state -> state -> Prop) {A} (m : M A) : Prop :=
  forall s s' r, m s = (s', r) -> R s s'.

Section Preserves.
  Variable R : state -> state -> Prop.
  Hypothesis FR : frame_rel R.

  Lemma pres_ret : forall {A} (a : A), preserves R (ret a).
  Proof. intros A a s s' r H. inversion H. apply FR. Qed.
  Lemma pres_raise : forall {A} e, preserves R (@raise A e).
  Proof. intros A e s s' r H. inversion H. apply FR. Qed.
  Lemma pres_gets : forall {A} (f : state -> A), preserves R (gets f).
  Proof. intros A f s s' r H. inversion H. apply FR. Qed.
  Lemma pres_bind : forall {A B} (m : M A) (f : A -> M B),
    preserves R m -> (forall a, preserves R (f a)) -> preserves R (bind m f).
  Proof.
    intros A B m f Hm Hf s s' r H. unfold bind in H.
    destruct (m s) as [s1 [a|e]] eqn:E.
    - eapply (fr_trans _ FR); [eapply Hm; eauto|eapply Hf; eauto].
    - inversion H; subst. eapply Hm; eauto.
  Qed.
  Lemma pres_get : forall {Rec} (tbl : state -> PM.t Rec) k,
    preserves R (fun s => match PM.find k (tbl s) with Some r => (s, Ok r) | None => (s, Raise BadCall) end).
  Proof. intros Rec tbl k s s' r H. destruct (PM.find k (tbl s)); inversion H; apply FR. Qed.
  Lemma pres_getO : forall o, preserves R (getO o). Proof. exact (pres_get s_ops). Qed.
  Lemma pres_getB : forall o, preserves R (getB o). Proof. exact (pres_get s_blocks). Qed.
  Lemma pres_getR : forall o, preserves R (getR o). Proof. exact (pres_get s_regions). Qed.
  Lemma pres_getV : forall o, preserves R (getV o). Proof. exact (pres_get s_values). Qed.
  Lemma pres_getU : forall o, preserves R (getU o). Proof. exact (pres_get s_uses). Qed.
  Lemma pres_assert : forall c, preserves R (assert_ c).
  Proof. intros c. unfold assert_. destruct c; [apply pres_ret|apply pres_raise]. Qed.
  Lemma pres_when : forall c m, preserves R m -> preserves R (when c m).
  Proof. intros c m H. unfold when. destruct c; [exact H|apply pres_ret]. Qed.
  Lemma pres_forM : forall {A} (l : list A) (f : A -> M unit),
    (forall a, preserves R (f a)) -> preserves R (forM l f).
  Proof.
    intros A l f Hf. induction l as [|x r IH]; simpl.
    - apply pres_ret.
    - apply pres_bind; [apply Hf|intros _; exact IH].
  Qed.
  Lemma pres_get_fuel : preserves R get_fuel.
  Proof. apply pres_gets. Qed.
  Lemma pres_if : forall {A} (c : bool) (m1 m2 : M A), preserves R m1 -> preserves R m2 -> preserves R (if c then m1 else m2).
  Proof. intros A c m1 m2 H1 H2. destruct c; assumption. Qed.
  Lemma pres_index_or_raise : forall {A} (l : list A) i, preserves R (index_or_raise l i).
  Proof. intros A l i. unfold index_or_raise. destruct (py_index l i); [apply pres_ret|apply pres_raise]. Qed.
End Preserves.

Lemma upd_preserves : forall {Rec} (tbl : state -> PM.t Rec) (wth : PM.t Rec -> state -> state)
    (Rel : state -> state -> Prop) k f,
  frame_rel Rel ->
  (forall s x, PM.find k (tbl s) = Some x -> Rel s (wth (PM.add k (f x) (tbl s)) s)) ->
  preserves Rel (fun s => match PM.find k (tbl s) with
                          | Some x => (wth (PM.add k (f x) (tbl s)) s, Ok tt)
                          | None => (s, Raise BadCall) end).
Proof.
  intros Rec tbl wth Rel k f FR W s s' r H.
  destruct (PM.find k (tbl s)) eqn:F; injection H as <- _; [exact (W s _ F)|apply FR].
Qed.

#[local] Hint Resolve agree_refl dom_eq_refl : core.
#[local] Hint Resolve agree_add dom_eq_add : frame.
(* the relation between s and s with one table updated at a present key, conjunct by conjunct:
   `agree_add`/`dom_eq_add` on the updated table, reflexivity on the others *)
Ltac write_same := intros ? ? ?; red; simpl; split_ands; eauto with frame.

Lemma updO_same_T1 : forall o f, (forall x, pT1_op (f x) = pT1_op x) -> preserves same_T1 (updO o f).
Proof. intros o f E. apply (upd_preserves s_ops with_ops same_T1 o f fr_T1). write_same. Qed.
Lemma updO_same_T2 : forall o f, preserves same_T2 (updO o f).
Proof. intros o f. apply (upd_preserves s_ops with_ops same_T2 o f fr_T2). write_same. Qed.
Lemma updO_same_T3 : forall o f, (forall x, pT3_op (f x) = pT3_op x) -> preserves same_T3 (updO o f).
Proof. intros o f E. apply (upd_preserves s_ops with_ops same_T3 o f fr_T3). write_same. Qed.
Lemma updO_same_U : forall o f, (forall x, pU_op (f x) = pU_op x) -> preserves same_U (updO o f).
Proof. intros o f E. apply (upd_preserves s_ops with_ops same_U o f fr_U). write_same. Qed.
Lemma updO_same_I : forall o f, (forall x, pI_op (f x) = pI_op x) -> preserves same_I (updO o f).
Proof. intros o f E. apply (upd_preserves s_ops with_ops same_I o f fr_I). write_same. Qed.
Lemma updO_same_A : forall o f, preserves same_A (updO o f).
Proof. intros o f. apply (upd_preserves s_ops with_ops same_A o f fr_A). write_same. Qed.

Lemma updB_same_T1 : forall o f, (forall x, pT1_blk (f x) = pT1_blk x) -> preserves same_T1 (updB o f).
Proof. intros o f E. apply (upd_preserves s_blocks with_blocks same_T1 o f fr_T1). write_same. Qed.
Lemma updB_same_T2 : forall o f, (forall x, pT2_blk (f x) = pT2_blk x) -> preserves same_T2 (updB o f).
Proof. intros o f E. apply (upd_preserves s_blocks with_blocks same_T2 o f fr_T2). write_same. Qed.
Lemma updB_same_T3 : forall o f, preserves same_T3 (updB o f).
Proof. intros o f. apply (upd_preserves s_blocks with_blocks same_T3 o f fr_T3). write_same. Qed.
Lemma updB_same_U : forall o f, (forall x, pU_blk (f x) = pU_blk x) -> preserves same_U (updB o f).
Proof. intros o f E. apply (upd_preserves s_blocks with_blocks same_U o f fr_U). write_same. Qed.
Lemma updB_same_I : forall o f, (forall x, pI_blk (f x) = pI_blk x) -> preserves same_I (updB o f).
Proof. intros o f E. apply (upd_preserves s_blocks with_blocks same_I o f fr_I). write_same. Qed.
Lemma updB_same_A : forall o f, preserves same_A (updB o f).
Proof. intros o f. apply (upd_preserves s_blocks with_blocks same_A o f fr_A). write_same. Qed.

Lemma updR_same_T1 : forall o f, preserves same_T1 (updR o f).
Proof. intros o f. apply (upd_preserves s_regions with_regions same_T1 o f fr_T1). write_same. Qed.
Lemma updR_same_T2 : forall o f, (forall x, pT2_reg (f x) = pT2_reg x) -> preserves same_T2 (updR o f).
Proof. intros o f E. apply (upd_preserves s_regions with_regions same_T2 o f fr_T2). write_same. Qed.
Lemma updR_same_T3 : forall o f, (forall x, pT3_reg (f x) = pT3_reg x) -> preserves same_T3 (updR o f).
Proof. intros o f E. apply (upd_preserves s_regions with_regions same_T3 o f fr_T3). write_same. Qed.
Lemma updR_same_U : forall o f, preserves same_U (updR o f).
Proof. intros o f. apply (upd_preserves s_regions with_regions same_U o f fr_U). write_same. Qed.
Lemma updR_same_I : forall o f, preserves same_I (updR o f).
Proof. intros o f. apply (upd_preserves s_regions with_regions same_I o f fr_I). write_same. Qed.
Lemma updR_same_A : forall o f, preserves same_A (updR o f).
Proof. intros o f. apply (upd_preserves s_regions with_regions same_A o f fr_A). write_same. Qed.

Lemma updV_same_T1 : forall o f, preserves same_T1 (updV o f).
Proof. intros o f. apply (upd_preserves s_values with_values same_T1 o f fr_T1). write_same. Qed.
Lemma updV_same_T2 : forall o f, preserves same_T2 (updV o f).
Proof. intros o f. apply (upd_preserves s_values with_values same_T2 o f fr_T2). write_same. Qed.
Lemma updV_same_T3 : forall o f, preserves same_T3 (updV o f).
Proof. intros o f. apply (upd_preserves s_values with_values same_T3 o f fr_T3). write_same. Qed.
Lemma updV_same_U : forall o f, (forall x, pU_val (f x) = pU_val x) -> preserves same_U (updV o f).
Proof. intros o f E. apply (upd_preserves s_values with_values same_U o f fr_U). write_same. Qed.
Lemma updV_same_I : forall o f, (forall x, pI_val (f x) = pI_val x) -> preserves same_I (updV o f).
Proof. intros o f E. apply (upd_preserves s_values with_values same_I o f fr_I). write_same. Qed.
Lemma updV_same_A : forall o f, preserves same_A (updV o f).
Proof. intros o f. apply (upd_preserves s_values with_values same_A o f fr_A). write_same. Qed.

Lemma updU_same_T1 : forall o f, preserves same_T1 (updU o f).
Proof. intros o f. apply (upd_preserves s_uses with_uses same_T1 o f fr_T1). write_same. Qed.
Lemma updU_same_T2 : forall o f, preserves same_T2 (updU o f).
Proof. intros o f. apply (upd_preserves s_uses with_uses same_T2 o f fr_T2). write_same. Qed.
Lemma updU_same_T3 : forall o f, preserves same_T3 (updU o f).
Proof. intros o f. apply (upd_preserves s_uses with_uses same_T3 o f fr_T3). write_same. Qed.
Lemma updU_same_I : forall o f, preserves same_I (updU o f).
Proof. intros o f. apply (upd_preserves s_uses with_uses same_I o f fr_I). write_same. Qed.
Lemma updU_same_A : forall o f, preserves same_A (updU o f).
Proof. intros o f. apply (upd_preserves s_uses with_uses same_A o f fr_A). write_same. Qed.

(* `pres R FR`: prove  preserves R m  for a monadic term built from the combinators; leaves the
   goals it cannot close (recursive calls, sub-programs with their own lemma in the hint db) *)
Create HintDb pres discriminated.

Ltac pres_step FR :=
  match goal with
  | |- preserves _ (bind _ _) => apply (pres_bind _ FR); [|intros ?]
  | |- preserves _ (ret _) => apply (pres_ret _ FR)
  | |- preserves _ (raise _) => apply (pres_raise _ FR)
  | |- preserves _ (gets _) => apply (pres_gets _ FR)
  | |- preserves _ get_fuel => apply (pres_get_fuel _ FR)
  | |- preserves _ (getO _) => apply (pres_getO _ FR)
  | |- preserves _ (getB _) => apply (pres_getB _ FR)
  | |- preserves _ (getR _) => apply (pres_getR _ FR)
  | |- preserves _ (getV _) => apply (pres_getV _ FR)
  | |- preserves _ (getU _) => apply (pres_getU _ FR)
  | |- preserves _ (assert_ _) => apply (pres_assert _ FR)
  | |- preserves _ (when _ _) => apply (pres_when _ FR)
  | |- preserves _ (forM _ _) => apply (pres_forM _ FR); intros ?
  | |- preserves _ (index_or_raise _ _) => apply (pres_index_or_raise _ FR)
  | |- preserves _ (if _ then _ else _) => apply (pres_if _)
  | |- preserves _ (match ?x with Some _ => _ | None => _ end) => destruct x
  | |- preserves _ (match ?x with [] => _ | _ :: _ => _ end) => destruct x
  | |- preserves _ (match ?x with HV _ => _ | HB _ => _ end) => destruct x
  | |- preserves same_T1 (updO _ _) => apply updO_same_T1; intros ?; reflexivity
  | |- preserves same_T2 (updO _ _) => apply updO_same_T2
  | |- preserves same_T3 (updO _ _) => apply updO_same_T3; intros ?; reflexivity
  | |- preserves same_U (updO _ _) => apply updO_same_U; intros ?; reflexivity
  | |- preserves same_I (updO _ _) => apply updO_same_I; intros ?; reflexivity
  | |- preserves same_A (updO _ _) => apply updO_same_A
  | |- preserves same_T1 (updB _ _) => apply updB_same_T1; intros ?; reflexivity
  | |- preserves same_T2 (updB _ _) => apply updB_same_T2; intros ?; reflexivity
  | |- preserves same_T3 (updB _ _) => apply updB_same_T3
  | |- preserves same_U (updB _ _) => apply updB_same_U; intros ?; reflexivity
  | |- preserves same_I (updB _ _) => apply updB_same_I; intros ?; reflexivity
  | |- preserves same_A (updB _ _) => apply updB_same_A
  | |- preserves same_T1 (updR _ _) => apply updR_same_T1
  | |- preserves same_T2 (updR _ _) => apply updR_same_T2; intros ?; reflexivity
  | |- preserves same_T3 (updR _ _) => apply updR_same_T3; intros ?; reflexivity
  | |- preserves same_U (updR _ _) => apply updR_same_U
  | |- preserves same_I (updR _ _) => apply updR_same_I
  | |- preserves same_A (updR _ _) => apply updR_same_A
  | |- preserves same_T1 (updV _ _) => apply updV_same_T1
  | |- preserves same_T2 (updV _ _) => apply updV_same_T2
  | |- preserves same_T3 (updV _ _) => apply updV_same_T3
  | |- preserves same_U (updV _ _) => apply updV_same_U; intros ?; reflexivity
  | |- preserves same_I (updV _ _) => apply updV_same_I; intros ?; reflexivity
  | |- preserves same_A (updV _ _) => apply updV_same_A
  | |- preserves same_T1 (updU _ _) => apply updU_same_T1
  | |- preserves same_T2 (updU _ _) => apply updU_same_T2
  | |- preserves same_T3 (updU _ _) => apply updU_same_T3
  | |- preserves same_I (updU _ _) => apply updU_same_I
  | |- preserves same_A (updU _ _) => apply updU_same_A
  | |- preserves _ _ => solve [eauto with pres]
  end.
Ltac pres FR := repeat (pres_step FR).

Lemma get_first_use_pres : forall R, frame_rel R -> forall h, preserves R (get_first_use h).
Proof. intros R FR h. unfold get_first_use. destruct h; pres FR. Qed.

Lemma set_first_use_T1 : forall h u, preserves same_T1 (set_first_use h u).
Proof. intros h u. unfold set_first_use. destruct h; pres fr_T1. Qed.
Lemma set_first_use_T2 : forall h u, preserves same_T2 (set_first_use h u).
Proof. intros h u. unfold set_first_use. destruct h; pres fr_T2. Qed.
Lemma set_first_use_T3 : forall h u, preserves same_T3 (set_first_use h u).
Proof. intros h u. unfold set_first_use. destruct h; pres fr_T3. Qed.
Lemma set_first_use_I : forall h u, preserves same_I (set_first_use h u).
Proof. intros h u. unfold set_first_use. destruct h; pres fr_I. Qed.
Lemma set_first_use_A : forall h u, preserves same_A (set_first_use h u).
Proof. intros h u. unfold set_first_use. destruct h; pres fr_A. Qed.
#[export] Hint Resolve set_first_use_T1 set_first_use_T2 set_first_use_T3 set_first_use_I set_first_use_A : pres.
#[export] Hint Resolve fr_T1 fr_T2 fr_T3 fr_U fr_I fr_A : pres.
#[export] Hint Extern 1 (preserves _ (get_first_use _)) => apply get_first_use_pres; eauto with pres : pres.

Lemma add_use_T1 : forall h u, preserves same_T1 (add_use h u).
Proof. intros. unfold add_use. pres fr_T1. Qed.
Lemma add_use_T2 : forall h u, preserves same_T2 (add_use h u).
Proof. intros. unfold add_use. pres fr_T2. Qed.
Lemma add_use_T3 : forall h u, preserves same_T3 (add_use h u).
Proof. intros. unfold add_use. pres fr_T3. Qed.
Lemma add_use_I : forall h u, preserves same_I (add_use h u).
Proof. intros. unfold add_use. pres fr_I. Qed.
Lemma add_use_A : forall h u, preserves same_A (add_use h u).
Proof. intros. unfold add_use. pres fr_A. Qed.
Lemma remove_use_T1 : forall h u, preserves same_T1 (remove_use h u).
Proof. intros. unfold remove_use. pres fr_T1. Qed.
Lemma remove_use_T2 : forall h u, preserves same_T2 (remove_use h u).
Proof. intros. unfold remove_use. pres fr_T2. Qed.
Lemma remove_use_T3 : forall h u, preserves same_T3 (remove_use h u).
Proof. intros. unfold remove_use. pres fr_T3. Qed.
Lemma remove_use_I : forall h u, preserves same_I (remove_use h u).
Proof. intros. unfold remove_use. pres fr_I. Qed.
Lemma remove_use_A : forall h u, preserves same_A (remove_use h u).
Proof. intros. unfold remove_use. pres fr_A. Qed.
#[export] Hint Resolve add_use_T1 add_use_T2 add_use_T3 add_use_I add_use_A
  remove_use_T1 remove_use_T2 remove_use_T3 remove_use_I remove_use_A : pres.

Lemma agree_find : forall {R P} (p : R -> P) t t' i x, agree p t t' -> PM.find i t' = Some x ->
  exists y, PM.find i t = Some y /\ p x = p y.
Proof.
  intros R P p t t' i x A F. specialize (A i). rewrite F in A. simpl in A.
  destruct (PM.find i t) as [y|]; [|discriminate]. exists y. split; [reflexivity|]. simpl in A. congruence.
Qed.
Lemma agree_find_rev : forall {R P} (p : R -> P) t t' i y, agree p t t' -> PM.find i t = Some y ->
  exists x, PM.find i t' = Some x /\ p x = p y.
Proof.
  intros R P p t t' i y A F. specialize (A i). rewrite F in A. simpl in A.
  destruct (PM.find i t') as [x|]; [|discriminate]. exists x. split; [reflexivity|]. simpl in A. congruence.
Qed.

Lemma container_same : forall {N P} (p : N -> P) (t t' : PM.t N) (nxt prv up : N -> option positive)
    (er : N -> bool) (c : positive) first last,
  agree p t t' ->
  (forall x y, p x = p y -> nxt x = nxt y /\ prv x = prv y /\ up x = up y /\ er x = er y) ->
  (exists l, chain (link t nxt) first l /\ chain (link t prv) last (rev l) /\ NoDup l /\
     (forall o, In o l -> exists x, PM.find o t = Some x /\ up x = Some c) /\
     (forall o x, PM.find o t = Some x -> er x = false -> up x = Some c -> In o l)) ->
  exists l, chain (link t' nxt) first l /\ chain (link t' prv) last (rev l) /\ NoDup l /\
     (forall o, In o l -> exists x, PM.find o t' = Some x /\ up x = Some c) /\
     (forall o x, PM.find o t' = Some x -> er x = false -> up x = Some c -> In o l).
Proof.
  intros N P p t t' nxt prv up er c first last A K (l & C1 & C2 & ND & M1 & M2).
  assert (L : forall g, (forall x y, p x = p y -> g x = g y) -> forall i, link t' g i = link t g i).
  { intros g G i. unfold link. specialize (A i).
    destruct (PM.find i t') as [x|], (PM.find i t) as [y|]; simpl in *; try discriminate; try reflexivity.
    injection A as A. f_equal. apply G. exact A. }
  exists l. split; [eapply chain_ext; [|exact C1]; intros; apply L; intros y z E; apply (K y z E)|].
  split; [eapply chain_ext; [|exact C2]; intros; apply L; intros y z E; apply (K y z E)|]. split; [exact ND|]. split.
  - intros o Io. destruct (M1 o Io) as (x & Fx & Px).
    destruct (agree_find_rev _ _ _ _ _ A Fx) as (x' & Fx' & Q). exists x'. split; [exact Fx'|].
    destruct (K _ _ Q) as (_ & _ & Kp & _). congruence.
  - intros o x' Fx' Ex' Px'. destruct (agree_find _ _ _ _ _ A Fx') as (x & Fx & Q).
    destruct (K _ _ Q) as (_ & _ & Kp & Ke). eapply M2; eauto; congruence.
Qed.

Lemma WF_block_same : forall s s', same_T1 s s' -> WF_block s -> WF_block s'.
Proof.
  intros s s' [Ao Ab] W b br' F' E'.
  destruct (agree_find _ _ _ _ _ Ab F') as (br & F & P). unfold pT1_blk in P. injection P as P1 P2 P3.
  rewrite P3 in E'. rewrite P1, P2.
  apply (container_same pT1_op (s_ops s) (s_ops s') o_next o_prev o_parent o_erased b _ _ Ao); [|exact (W b br F E')].
  intros x y E. injection E as E1 E2 E3 E4. auto.
Qed.

Lemma WF_region_same : forall s s', same_T2 s s' -> WF_region s -> WF_region s'.
Proof.
  intros s s' [Ab Ar] W r rr' F' E'.
  destruct (agree_find _ _ _ _ _ Ar F') as (rr & F & P). unfold pT2_reg in P. injection P as P1 P2 P3.
  rewrite P3 in E'. rewrite P1, P2.
  apply (container_same pT2_blk (s_blocks s) (s_blocks s') b_next b_prev b_parent b_erased r _ _ Ab); [|exact (W r rr F E')].
  intros x y E. injection E as E1 E2 E3 E4. auto.
Qed.

Lemma WF_opregs_same : forall s s', same_T3 s s' -> WF_opregs s -> WF_opregs s'.
Proof.
  intros s s' [Ao Ar] W o x' F' E'.
  destruct (agree_find _ _ _ _ _ Ao F') as (x & F & P). unfold pT3_op in P. inversion P as [[P1 P2]].
  rewrite P2 in E'. destruct (W o x F E') as (ND & M1 & M2). rewrite P1.
  split; [exact ND|]. split.
  - intros r Ir. destruct (M1 r Ir) as (rr & Fr & Pr).
    destruct (agree_find_rev _ _ _ _ _ Ar Fr) as (rr' & Fr' & Q). exists rr'. split; [exact Fr'|].
    unfold pT3_reg in Q. inversion Q. congruence.
  - intros r rr' Fr' Er' Pr'. destruct (agree_find _ _ _ _ _ Ar Fr') as (rr & Fr & Q).
    unfold pT3_reg in Q. inversion Q. eapply M2; eauto; congruence.
Qed.

Lemma WF_index_same : forall s s', same_I s s' ->
  WF_results s /\ WF_args s /\ WF_owner s -> WF_results s' /\ WF_args s' /\ WF_owner s'.
Proof.
  intros s s' (Ao & Ab & Av) (W1 & W2 & W3). split; [|split].
  - intros o x' F' E' i v Hi. destruct (agree_find _ _ _ _ _ Ao F') as (x & F & P).
    unfold pI_op in P. inversion P as [[P1 P2]]. rewrite P2 in E'. rewrite P1 in Hi.
    destruct (W1 o x F E' i v Hi) as (vr & Fv & K).
    destruct (agree_find_rev _ _ _ _ _ Av Fv) as (vr' & Fv' & Q). exists vr'. split; [exact Fv'|].
    unfold pI_val in Q. inversion Q. congruence.
  - intros b x' F' E' i v Hi. destruct (agree_find _ _ _ _ _ Ab F') as (x & F & P).
    unfold pI_blk in P. inversion P as [[P1 P2]]. rewrite P2 in E'. rewrite P1 in Hi.
    destruct (W2 b x F E' i v Hi) as (vr & Fv & K).
    destruct (agree_find_rev _ _ _ _ _ Av Fv) as (vr' & Fv' & Q). exists vr'. split; [exact Fv'|].
    unfold pI_val in Q. inversion Q. congruence.
  - intros v vr' F' D'. destruct (agree_find _ _ _ _ _ Av F') as (vr & F & P).
    unfold pI_val in P. inversion P as [[P1 P2]]. rewrite P2 in D'. specialize (W3 v vr F D').
    rewrite P1. destruct (v_kind vr) as [o i|b i|old].
    + destruct W3 as (x & Fx & Z). destruct (agree_find_rev _ _ _ _ _ Ao Fx) as (x' & Fx' & Q).
      exists x'. split; [exact Fx'|]. unfold pI_op in Q. inversion Q. congruence.
    + destruct W3 as (x & Fx & Z). destruct (agree_find_rev _ _ _ _ _ Ab Fx) as (x' & Fx' & Q).
      exists x'. split; [exact Fx'|]. unfold pI_blk in Q. inversion Q. congruence.
    + exact I.
Qed.

Lemma below_dom : forall {R} (t t' : PM.t R) n, dom_eq t t' -> below t n -> below t' n.
Proof.
  intros R t t' n D B i x F. destruct (PM.find i t) as [y|] eqn:G; [eapply B; eauto|].
  apply D in G. congruence.
Qed.

Lemma WF_alloc_same : forall s s', same_A s s' -> WF_alloc s -> WF_alloc s'.
Proof.
  intros s s' (D1 & D2 & D3 & D4 & D5 & N1 & N2 & N3 & N4 & N5) (B1 & B2 & B3 & B4 & B5).
  unfold WF_alloc. rewrite N1, N2, N3, N4, N5. repeat split; eapply below_dom; eassumption.
Qed.

(* the two halves of WF_detached *)
Definition detached_ops (s : state) : Prop :=
  forall o x, PM.find o (s_ops s) = Some x -> o_erased x = false -> o_parent x = None ->
              o_next x = None /\ o_prev x = None.
Definition detached_blocks (s : state) : Prop :=
  forall b x, PM.find b (s_blocks s) = Some x -> b_erased x = false -> b_parent x = None ->
              b_next x = None /\ b_prev x = None.

Lemma detached_ops_same : forall s s', same_T1 s s' -> detached_ops s -> detached_ops s'.
Proof.
  intros s s' [Ao _] W1 o x' F' E' P'. destruct (agree_find _ _ _ _ _ Ao F') as (x & F & P).
  unfold pT1_op in P. injection P as P1 P2 P3 P4. rewrite P4 in E'. rewrite P1 in P'.
  destruct (W1 o x F E' P') as [Q1 Q2]. split; congruence.
Qed.
Lemma detached_blocks_same : forall s s', same_T2 s s' -> detached_blocks s -> detached_blocks s'.
Proof.
  intros s s' [Ab _] W2 b x' F' E' P'. destruct (agree_find _ _ _ _ _ Ab F') as (x & F & P).
  unfold pT2_blk in P. injection P as P1 P2 P3 P4. rewrite P4 in E'. rewrite P3 in P'.
  destruct (W2 b x F E' P') as [Q1 Q2]. split; congruence.
Qed.
Lemma WF_detached_same : forall s s', same_T1 s s' -> same_T2 s s' -> WF_detached s -> WF_detached s'.
Proof.
  intros s s' T1 T2 [W1 W2]. split; [exact (detached_ops_same s s' T1 W1)|exact (detached_blocks_same s s' T2 W2)].
Qed.
