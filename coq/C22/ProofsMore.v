(* C22/ProofsMore.v -- (1) with the five repairs no modelled pattern raises; (2) the statement of the property for
   a code version and its refutation for the unchanged tree (one witness per defect class). *)
From Coq Require Import ZArith List Bool Lia.
From XV Require Import C22.Model C22.ProofsArith C22.Proofs C22.ProofsPat.
Import ListNotations.
Local Open Scope Z_scope.

Definition all_fixed (vr : ver) : Prop :=
  fix_addi vr = true /\ fix_li vr = true /\ fix_shz vr = true /\ fix_mem vr = true /\ fix_dbl vr = true.

(* case analysis on whatever the goal still matches on; a guard `negb b` is decided through b itself, so
   that the same b inside the guarded constructor is decided with it *)
Ltac split_cases :=
  repeat match goal with
         | |- context [?b && false] => rewrite (andb_false_r b)
         | |- context [negb ?b] => destruct b; cbn [negb]
         | |- context [match ?x with _ => _ end] => destruct x
         end.

Lemma find_def_valid rpre a d : Forall valid_node rpre -> find_def rpre a = Some d -> valid_node d.
Proof.
  intros Hv F. apply find_def_In in F. destruct F as [Hin _]. rewrite Forall_forall in Hv. auto.
Qed.

(* with C22-4 the combined offset is within si12 whenever the pattern acts, and then every offset type takes it *)
Lemma no_raise_mem vr rpre n nx mk store c :
  fix_mem vr = true -> p_mem_known_offset vr rpre n nx mk store <> Raise c.
Proof.
  intros Fm. unfold p_mem_known_offset. rewrite Fm. cbv zeta. cbn [andb].
  assert (G : forall v (rw : Z -> outcome), (forall k, rw k <> Raise c) ->
    (if negb (in_si12 v) then NoMatch
     else match mk_off mk v with Some k => rw k | None => Raise 2 end) <> Raise c).
  { intros v rw Hrw. destruct (in_si12 v) eqn:R; cbn [negb]; [| discriminate].
    rewrite (mk_off_si12 _ _ R). apply Hrw. }
  destruct (nop n) as [| | | | | | | m' a imm | m' a v imm]; try discriminate.
  all: destruct (_ && _); [| discriminate].
  all: destruct (find_def rpre a) as [[di drd dop] |]; [| discriminate].
  all: destruct dop as [| | | | | o x j | | |]; try discriminate; destruct o; try discriminate.
  all: apply G; discriminate.
Qed.

Theorem no_raise_fixed vr rpre uses n nx p c :
  all_fixed vr -> Forall valid_node rpre -> valid_node n ->
  apply_pat vr rpre uses n nx p <> Raise c.
Proof.
  intros (Fa & Fl & Fs & Fm & Fd) Hv Vn. destruct n as [i rd o]. unfold valid_node in Vn. cbn [nop] in Vn.
  destruct p; cbn [apply_pat];
    unfold p_remove_mv, p_multiply_immediates, p_divide_by_one, p_add_immediates, p_add_immediate_zero,
      p_add_immediate_constant, p_sub_immediates, p_sub_by_self, p_sub_addi, p_andi_immediate, p_andi_zero,
      p_ori_immediate, p_ori_zero, p_xori_zero, p_xori_self_inverse, p_xori_immediate, p_shift_by_zero,
      p_shift_constant_folding, p_add_same, p_and_by_zero, p_and_by_self, p_or_by_zero, p_or_by_self,
      p_xor_by_self, p_xor_by_zero, p_load_immediate_0, rew_li, mk_i32, rew_addi, mk_si12;
    cbn [nop nrd]; rewrite ?Fa, ?Fl, ?Fd, ?Fm; cbn [andb negb]; cbv beta iota;
    (* C22-2 makes mk_i32 total, C22-1 guards mk_si12 by the very test it makes, C22-5 takes the Raise 3
       branches away: every leaf left is a rewrite or NoMatch *)
    try solve [split_cases; discriminate].
  - (* XoriOfXori: the combined immediate is again a 12-bit signed value *)
    unfold p_xori_of_xori. cbn [nop nrd].
    destruct o as [| | | | | o a imm | | |]; try discriminate. destruct o; try discriminate.
    destruct (find_def rpre a) as [[di drd dop] |] eqn:F; [| discriminate].
    destruct dop as [| | | | | o x j | | |]; try discriminate. destruct o; try discriminate.
    pose proof (find_def_valid _ _ _ Hv F) as Vd. unfold valid_node in Vd. cbn in Vd, Vn.
    unfold mk_si12. rewrite (proj2 (in_si12_true _) (lxor_si12 j imm Vd Vn)). discriminate.
  - apply no_raise_mem, Fm.
  - apply no_raise_mem, Fm.
  - apply no_raise_mem, Fm.
  - apply no_raise_mem, Fm.
  - apply no_raise_mem, Fm.
  - apply no_raise_mem, Fm.
Qed.

Lemma miscompiles_fixed vr p rpre n : all_fixed vr -> miscompiles vr p rpre n = false.
Proof.
  intros (_ & _ & Fs & Fm & _). unfold miscompiles. rewrite Fs, Fm. cbn [negb andb].
  destruct p; try reflexivity; destruct (nop n); reflexivity.
Qed.

(* "for every modelled pattern: guard -> sem lhs = sem rhs for ALL register values, and rhs is encodable" *)
Definition canon_sound_statement (vr : ver) : Prop :=
  forall (memT : Type) (ld : memT -> memkind -> Z -> Z) (st : memT -> memkind -> Z -> Z -> memT)
         (rpre : list node) (uses : Z -> Z) (e : env) (m : memT) (nx : Z) (p : pat) (n : node),
    env_ok rpre e -> Forall valid_node rpre -> Forall (ids_below nx) rpre ->
    valid_node n -> ids_below nx n ->
    (forall c, apply_pat vr rpre uses n nx p <> Raise c) /\
    sound_outcome memT ld st e m n nx (apply_pat vr rpre uses n nx p).

Theorem canon_sound_fixed vr : all_fixed vr -> canon_sound_statement vr.
Proof.
  intros F memT ld st rpre uses e m nx p n Hok Hv Hb Vn Hi. split.
  - intros c. apply no_raise_fixed; assumption.
  - apply pat_sound; try assumption. apply miscompiles_fixed. exact F.
Qed.

Definition ld0 (_ : unit) (_ : memkind) (a : Z) : Z := a.        (* a memory whose cells hold their address *)
Definition st0 (m : unit) (_ : memkind) (_ _ : Z) : unit := m.
Definition arg0 : node := mkN 0 (-1) (OArg false).
Definition env_w (c : Z) : env := fun j => if j =? 1 then wrap c else if j =? 2 then wrap c else 7.

(* kf-1: add %x, (li 5000)  ->  AddiOp(%x, 5000) raises VerifyException *)
Definition w1_rpre : list node := [mkN 1 (-1) (OLi 5000); arg0].
Definition w1_n : node := mkN 2 (-1) (OBin Add 0 1).
Lemma w1_raises : apply_pat ver0 w1_rpre (fun _ => 1) w1_n 3 AddImmediates = Raise 2.
Proof. vm_compute. reflexivity. Qed.
(* sub %x, (li -2048) -> AddiOp(%x, 2048) *)
Lemma w1b_raises :
  apply_pat ver0 [mkN 1 (-1) (OLi (-2048)); arg0] (fun _ => 1) (mkN 2 (-1) (OBin Sub 0 1)) 3 SubImmediates = Raise 2.
Proof. vm_compute. reflexivity. Qed.

(* kf-2: mul (li 65536), (li 65536) -> LiOp(2^32) raises; slli (li 2), 31 -> LiOp(2^32); bclri (li -1), 31 *)
Definition w2_rpre : list node := [mkN 1 (-1) (OLi 65536); arg0].
Lemma w2_raises : apply_pat ver0 w2_rpre (fun _ => 1) (mkN 2 (-1) (OBin Mul 1 1)) 3 MultiplyImmediates = Raise 2.
Proof. vm_compute. reflexivity. Qed.
Lemma w2b_raises :
  apply_pat ver0 [mkN 1 (-1) (OLi 2); arg0] (fun _ => 1) (mkN 2 (-1) (OSh Slli 1 31)) 3 ShiftConstantFolding = Raise 2.
Proof. vm_compute. reflexivity. Qed.
Lemma w2c_raises :
  apply_pat ver0 [mkN 1 (-1) (OLi (-1)); arg0] (fun _ => 1) (mkN 2 (-1) (OSh Bclri 1 31)) 3 ShiftConstantFolding = Raise 2.
Proof. vm_compute. reflexivity. Qed.
Lemma w2d_raises :
  apply_pat ver0 [mkN 1 (-1) (OLi (-2147483648)); arg0] (fun _ => 1) (mkN 2 (-1) (OImm Addi 1 (-1))) 3
    AddImmediateConstant = Raise 2.
Proof. vm_compute. reflexivity. Qed.

(* kf-3: bexti %x, 0 -> mv %x ; with x = 2 the results are 0 and 2 *)
Definition w3_n : node := mkN 2 (-1) (OSh Bexti 0 0).
Lemma w3_rewrites : apply_pat ver0 [arg0] (fun _ => 1) w3_n 3 ShiftbyZero = Rew [mkN 3 (-1) (OMv MvI 0)] (Some 3) None.
Proof. vm_compute. reflexivity. Qed.
Lemma w3_unsound : ~ sound_outcome unit ld0 st0 (fun _ => 2) tt w3_n 3 (apply_pat ver0 [arg0] (fun _ => 1) w3_n 3 ShiftbyZero).
Proof.
  rewrite w3_rewrites. unfold sound_outcome. intros (_ & _ & _ & _ & H). vm_compute in H. discriminate.
Qed.

(* kf-4: flw (addi %x, 2047), 2047 -> flw %x, -2 (address x-2 instead of x+4094); lw ... , 1 -> raises *)
Definition w4_rpre : list node := [mkN 1 (-1) (OImm Addi 0 2047); arg0].
Definition w4_n : node := mkN 2 (-1) (OLoad MFW 1 2047).
Lemma w4_rewrites :
  apply_pat ver0 w4_rpre (fun _ => 1) w4_n 3 LoadFloatWordWithKnownOffset = Rew [mkN 3 (-1) (OLoad MFW 0 (-2))] (Some 3) None.
Proof. vm_compute. reflexivity. Qed.
Definition w4_env : env := fun j => if j =? 1 then 2047 + 100 else 100.
Lemma w4_unsound :
  ~ sound_outcome unit ld0 st0 w4_env tt w4_n 3 (apply_pat ver0 w4_rpre (fun _ => 1) w4_n 3 LoadFloatWordWithKnownOffset).
Proof.
  rewrite w4_rewrites. unfold sound_outcome. intros (_ & _ & _ & _ & H). vm_compute in H. discriminate.
Qed.
Lemma w4b_raises :
  apply_pat ver0 w4_rpre (fun _ => 1) (mkN 2 (-1) (OLoad MW 1 1)) 3 LoadWordWithKnownOffset = Raise 2.
Proof. vm_compute. reflexivity. Qed.

(* kf-5: and (li 0), (li 0) with two distinct constants -> second rewriter.replace on the erased op: ValueError *)
Definition w5_rpre : list node := [mkN 2 (-1) (OLi 0); mkN 1 (-1) (OLi 0); arg0].
Lemma w5_raises : apply_pat ver0 w5_rpre (fun _ => 1) (mkN 3 (-1) (OBin And 1 2)) 4 BitwiseAndByZero = Raise 3.
Proof. vm_compute. reflexivity. Qed.
Lemma w5b_raises : apply_pat ver0 w5_rpre (fun _ => 1) (mkN 3 (-1) (OBin Xor 1 2)) 4 BitwiseXorByZero = Raise 3.
Proof. vm_compute. reflexivity. Qed.

Lemma env_ok_w1 : env_ok w1_rpre (env_w 5000).
Proof.
  unfold env_ok, w1_rpre, arg0. constructor; [| constructor; [| constructor]]; unfold def_holds; cbn [nop nid is_int_op negb].
  - split; [intros _; change (0 <= 5000 < 4294967296); lia | reflexivity].
  - split; [intros _; change (0 <= 7 < 4294967296); lia | exact I].
Qed.

Theorem canon_sound_refuted : ~ canon_sound_statement ver0.
Proof.
  intros S.
  destruct (S unit ld0 st0 w1_rpre (fun _ => 1) (env_w 5000) tt 3 AddImmediates w1_n) as [NR _].
  - exact env_ok_w1.
  - repeat constructor; cbn; unfold H32; lia.
  - repeat constructor; cbn; lia.
  - exact I.
  - repeat constructor; cbn; lia.
  - apply (NR 2). exact w1_raises.
Qed.

(* what the driver applies to an op -- the first acting pattern of the op's trait tuple -- inherits both facts *)
Lemma first_match_cases vr rpre uses n nx ps :
  fst (first_match vr rpre uses n nx ps) = NoMatch \/
  exists p, In p ps /\ fst (first_match vr rpre uses n nx ps) = apply_pat vr rpre uses n nx p.
Proof.
  induction ps as [| p r IH]; cbn [first_match]; [left; reflexivity |].
  destruct (apply_pat vr rpre uses n nx p) eqn:E.
  - destruct IH as [IH | (q & Hq & IH)]; [left; exact IH | right; exists q; split; [right; exact Hq | exact IH]].
  - right. exists p. split; [left; reflexivity | cbn; symmetry; exact E].
  - right. exists p. split; [left; reflexivity | cbn; symmetry; exact E].
Qed.

Theorem canon_op_sound_fixed vr : all_fixed vr ->
  forall (memT : Type) (ld : memT -> memkind -> Z -> Z) (st : memT -> memkind -> Z -> Z -> memT)
         (rpre : list node) (uses : Z -> Z) (e : env) (m : memT) (nx : Z) (n : node),
    env_ok rpre e -> Forall valid_node rpre -> Forall (ids_below nx) rpre ->
    valid_node n -> ids_below nx n ->
    (forall c, canon_op vr rpre uses n nx <> Raise c) /\
    sound_outcome memT ld st e m n nx (canon_op vr rpre uses n nx).
Proof.
  intros F memT ld st rpre uses e m nx n Hok Hv Hb Vn Hi. unfold canon_op.
  destruct (first_match_cases vr rpre uses n nx (patterns_of (nop n))) as [E | (p & _ & E)]; rewrite E.
  - split; [discriminate | exact I].
  - exact (canon_sound_fixed vr F memT ld st rpre uses e m nx p n Hok Hv Hb Vn Hi).
Qed.
