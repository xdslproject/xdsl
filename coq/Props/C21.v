(* Props/C21.v -- property C21: x86 backend code computes the source results and honours the SysV ABI.
   The theorem statements closed by `exact` (+ Print Assumptions); one Example, C21_partial_nonvacuous, by evaluation.
   Specs (C21/Spec.v): src_sem (two's complement semantics of the source function), sysv_* (SysV AMD64 facts
   written down independently of the generated tables).  Machine: C21/Model.v part 1.
   entry_ok / stack_args_ok / frame_hyps / body_ok: C21/ProofsAbi.v.  alloc_ok (the C19 hypothesis): Model.v. *)
From Coq Require Import ZArith List Bool.
From XV Require Import Gen.C21_tables C21.Model C21.Spec C21.ProofsMachine C21.ProofsLower C21.ProofsSim
  C21.ProofsAbi C21.ProofsRefute.
Import ListNotations.
Local Open Scope Z_scope.

(* the tables extracted from the source on this run are the SysV facts *)
Theorem C21_tables_match_sysv :
  c21_arg_regs = sysv_arg_regs /\ c21_ret_reg = sysv_ret_reg /\ c21_callee_saved = sysv_callee_saved
  /\ c21_stack_slot = 8 /\ c21_max_reg_args = 6 /\ c21_pop_reversed = true /\ c21_binop_copies_rhs = true.
Proof. exact tables_match_sysv. Qed.
Print Assumptions C21_tables_match_sysv.

(* ArithBinaryToX86: for every entry of X86_OP_BY_ARITH_BINARY_OP, at every width, for all register contents,
   `mov t, rhs ; op t, lhs` leaves lhs op rhs (mod 2^w) in t and changes nothing else *)
Theorem C21_binop_lowering_sound : forall o xo, lookup_binop o = Some xo ->
  forall w s a b t, t <> a ->
    exists s', exec [IMovRR w t b; xinstr xo w t a] s = Running s'
      /\ low w (regs s' t) = low w (bop_eval o (low w (regs s a)) (low w (regs s b)))
      /\ (forall r, r <> t -> regs s' r = regs s r) /\ mem s' = mem s.
Proof. exact binop_table_sound. Qed.
Print Assumptions C21_binop_lowering_sound.

(* guard: the copy-rhs scheme is wrong for subtraction (an entry SubiOp -> RS_SubOp would break the proof above) *)
Theorem C21_sub_scheme_unsound : ~ binop_sound BSub XSub.
Proof. exact sub_scheme_unsound. Qed.
Print Assumptions C21_sub_scheme_unsound.

(* dead source operations never influence the result (they are what the rewrite drivers erase) *)
Theorem C21_dead_code_irrelevant : forall p raw, src_sem p raw <> None -> src_sem (neutralize p) raw = src_sem p raw.
Proof. exact src_sem_neutralize. Qed.
Print Assumptions C21_dead_code_irrelevant.

(* LowerFuncOp + ArithConstantToX86 + ArithBinaryToX86 + RS_Add_Zero + dce: the x86 IR computes the source value
   (SSA level, before allocation), from any initial environment *)
Theorem C21_lowering_computes_source : forall q f raw e0 res,
  lower_strict q = Some f -> src_sem q raw = Some res -> vsem (sp_w q) raw e0 f = res.
Proof. exact lower_strict_sound. Qed.
Print Assumptions C21_lowering_computes_source.

(* THE PIPELINE.  For every program the modelled pipeline accepts, every allocation satisfying alloc_ok, every
   SysV entry state and every raw argument vector: the emitted instruction list returns to the caller's return
   address with rsp = entry rsp + 8, the low w bits of rax are the source result, and (64-bit values, or a
   prologue pass that recognises narrow register names) every callee-saved register is restored -- PROVIDED
   stack_args_ok: the pass rebases rsp-relative offsets, or no stack-passed argument is read, or nothing is pushed *)
Theorem C21_returns_source_value_partial : forall ver p f alloc raw entry_rsp ra s0 res,
  c21_lower p = Some f -> src_sem p raw = Some res -> alloc_ok alloc f = true ->
  entry_ok (sp_nargs p) raw entry_rsp ra s0 ->
  stack_args_ok ver (sp_w p) alloc f ->
  exists sf, exec (c21_finish ver (sp_w p) alloc f) s0 = Returned sf ra
    /\ regs sf RSP = entry_rsp + 8
    /\ (forall v, res = Some v -> low (sp_w p) (regs sf RAX) = v)
    /\ ((sp_w p = W64 \/ v_by_index ver = true) -> forall r, In r sysv_callee_saved -> regs sf r = regs s0 r).
Proof. exact pipeline_correct. Qed.
Print Assumptions C21_returns_source_value_partial.

(* the extra hypothesis is satisfiable by a program that pushes rbx (three arguments, five live values) *)
Example C21_partial_nonvacuous :
  let p := Enc.zprog 64 3 [Enc.ZC 5; Enc.ZB 1 0 1; Enc.ZB 2 4 2; Enc.ZB 1 5 3; Enc.ZB 1 6 0] 7 in
  let f := the_func p in
  let alloc := Enc.alloc_of f [1; 9; 8; 3; 9; 9; 8; 8; 3; 3; 1; 1] in
  c21_lower p = Some f /\ alloc_ok alloc f = true /\ pushed unrepaired W64 alloc f = [3]
  /\ has_stk (vf_defs f) = false.
Proof. vm_compute. repeat split. Qed.
Print Assumptions C21_partial_nonvacuous.

(* full statement for a prologue pass that rebases the offsets (the proposed repair C21-1) *)
Theorem C21_returns_source_value_repaired : forall ver p f alloc raw entry_rsp ra s0 v,
  v_shift ver = true ->
  c21_lower p = Some f -> src_sem p raw = Some (Some v) -> alloc_ok alloc f = true ->
  entry_ok (sp_nargs p) raw entry_rsp ra s0 ->
  exists sf, exec (c21_finish ver (sp_w p) alloc f) s0 = Returned sf ra
    /\ low (sp_w p) (regs sf RAX) = v /\ regs sf RSP = entry_rsp + 8.
Proof. exact returns_source_value_repaired. Qed.
Print Assumptions C21_returns_source_value_repaired.

(* REFUTED for the unrepaired pass: f(a..h) = (g+g)*h with the real allocation returns garbage *)
Theorem C21_returns_source_value_refuted :
  exists p f alloc raw entry_rsp ra s0 v,
    c21_lower p = Some f /\ src_sem p raw = Some (Some v) /\ alloc_ok alloc f = true
    /\ entry_ok (sp_nargs p) raw entry_rsp ra s0
    /\ exists sf, exec (c21_finish unrepaired (sp_w p) alloc f) s0 = Returned sf ra
                  /\ low (sp_w p) (regs sf RAX) <> v.
Proof. exact stack_args_refuted. Qed.
Print Assumptions C21_returns_source_value_refuted.

(* where stack-passed argument i is read after k pushes vs. where SysV puts it *)
Theorem C21_stack_args_offset : forall shift entry_rsp k i, 0 <= k ->
  (load_addr shift entry_rsp k i = sysv_stack_arg_addr entry_rsp i <-> shift = true \/ k = 0).
Proof. exact stack_args_offset. Qed.
Print Assumptions C21_stack_args_offset.

Theorem C21_stack_args_offset_refuted : forall entry_rsp k i,
  load_addr false entry_rsp k i = sysv_stack_arg_addr entry_rsp (i - k).
Proof. exact stack_args_offset_unshifted. Qed.
Print Assumptions C21_stack_args_offset_refuted.

(* the verdict for the prologue pass found in /repo on this run *)
Theorem C21_stack_args_offset_current :
  if c21_prologue_shifts
  then (forall entry_rsp k i, 0 <= k -> load_addr c21_prologue_shifts entry_rsp k i = sysv_stack_arg_addr entry_rsp i)
  else (forall entry_rsp k i, 0 < k -> load_addr c21_prologue_shifts entry_rsp k i <> sysv_stack_arg_addr entry_rsp i).
Proof. exact current_stack_args. Qed.
Print Assumptions C21_stack_args_offset_current.

(* prologue/epilogue, for EVERY list of pushed registers and ANY stack-balanced body that leaves the save area
   and the return slot alone: pushed registers are restored, untouched ones keep their value *)
Theorem C21_callee_saved_restored : forall ps body s sp ra, frame_hyps ps s sp ra ->
  exists s1, exec (map IPush ps) s = Running s1 /\
    forall sb, body_ok body s1 sb sp ->
      exists sf, exec (map IPush ps ++ body ++ map IPop (rev ps) ++ [IRet]) s = Returned sf ra
        /\ (forall r, In r ps -> regs sf r = regs s r)
        /\ (forall r, ~ In r ps -> r <> RSP -> regs sb r = regs s1 r -> regs sf r = regs s r).
Proof. exact callee_saved_restored. Qed.
Print Assumptions C21_callee_saved_restored.

(* ... and the function returns through the caller's return address with rsp = entry rsp + 8 *)
Theorem C21_rsp_restored : forall ps body s sp ra, frame_hyps ps s sp ra ->
  exists s1, exec (map IPush ps) s = Running s1 /\
    forall sb, body_ok body s1 sb sp ->
      exists sf, exec (map IPush ps ++ body ++ map IPop (rev ps) ++ [IRet]) s = Returned sf ra
        /\ regs sf RSP = sp + 8.
Proof. exact rsp_restored. Qed.
Print Assumptions C21_rsp_restored.

(* guard: popping in push order would swap saved registers (c21_pop_reversed = true is needed) *)
Theorem C21_pop_order_matters :
  exists s sf, exec (map IPush [3; 12] ++ map IPop [3; 12] ++ [IRet]) s = Returned sf 77 /\ regs sf 3 <> regs s 3.
Proof. exact pop_order_matters. Qed.
Print Assumptions C21_pop_order_matters.

(* REFUTED for narrow types on the unrepaired pass: ebx is written, rbx is never saved *)
Theorem C21_callee_saved_narrow_refuted :
  exists p f alloc raw entry_rsp ra s0 v,
    c21_lower p = Some f /\ src_sem p raw = Some (Some v) /\ alloc_ok alloc f = true
    /\ entry_ok (sp_nargs p) raw entry_rsp ra s0 /\ stack_args_ok unrepaired (sp_w p) alloc f
    /\ exists sf r, exec (c21_finish unrepaired (sp_w p) alloc f) s0 = Returned sf ra
                    /\ low (sp_w p) (regs sf RAX) = v
                    /\ In r sysv_callee_saved /\ regs sf r <> regs s0 r.
Proof. exact callee_saved_narrow_refuted. Qed.
Print Assumptions C21_callee_saved_narrow_refuted.

(* `imul` on 8-bit registers is emitted for i8 multiplication (by the lowering that does not refuse it:
   c21_lower_v false) and is not an instruction; every other width only yields encodable instructions *)
Theorem C21_imul8_not_encodable :
  exists p f alloc ver, c21_lower_v false p = Some f /\ alloc_ok alloc f = true
    /\ forallb encodable (c21_finish ver (sp_w p) alloc f) = false.
Proof. exact imul8_not_encodable. Qed.
Print Assumptions C21_imul8_not_encodable.

Theorem C21_encodable_partial : forall ver w alloc f, w <> W8 -> forallb encodable (c21_finish ver w alloc f) = true.
Proof. exact encodable_partial. Qed.
Print Assumptions C21_encodable_partial.
