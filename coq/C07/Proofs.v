(* C07/Proofs.v -- theorems about the lexer model of C07/Model.v, for every configuration:
     lex_no_fuel          progress_ok cfg (a string match is not empty)  ->  the fuel of `lex` suffices
     lex_linear_general   rx_ok cfg  ->  lex_steps O cfg s <= Kof cfg * (length s + 1)
     lex_total_general    progress_ok cfg, fx_int_guard cfg  ->  no Internal / OutOfFuel outcome
   Spec side: `no_internal` below is the statement "fails only with diagnostics" on the model's
   outcome type; the step bound is a plain inequality on `lex_steps`. *)
From Coq Require Import ZArith List Bool Arith Lia.
From XV Require Import C07.Regex C07.RegexProofs C07.Model C07.Current.
Import ListNotations.

Definition no_internal (o : outcome) : Prop :=
  match o with Done | ParseErr _ _ => True | Internal _ | OutOfFuel => False end.

Lemma assoc_kind : forall c k, assoc c single_punct = Some k -> k <> K_INT /\ k <> K_FLOAT.
Proof.
  intros c k. unfold single_punct, K_INT, K_FLOAT. cbn [assoc].
  repeat (match goal with |- context [if ?x then _ else _] => destruct x end;
          [intro H; injection H as <-; split; discriminate|]).
  discriminate.
Qed.

Section Lex.
Variable O : oracle.
Variable cfg : config.
Notation U := (o_named O).

Lemma consume_spec : forall r pos rest d o, consume U r (pos, rest) = (d, o) ->
  match o with
  | CSome (pos', rest') => exists pre, rest = pre ++ rest' /\ pos' = pos + length pre
  | CNone => True
  | CFuel => False
  end.
Proof.
  intros r pos rest d o H. unfold consume in H.
  destruct (bt_match U r rest) as [d0 [sf| |]] eqn:E; injection H as _ <-; [|exact I|].
  - destruct (bt_match_suffix U r rest sf) as [pre ->]; [rewrite E; reflexivity|].
    exists pre. rewrite app_length, Nat.add_sub. split; reflexivity.
  - apply (bt_match_no_fuel U r rest). rewrite E. reflexivity.
Qed.

(* lex_dispatch by cases: what it returns is an error, a token of fixed length (c and the characters `more`),
   or what a sub-lexer returns for the rest of the input, one step later *)
Lemma lex_dispatch_elim : forall (Q : nat * tres -> Prop) p1 c rest2,
  (forall a b, Q (1, TErr a b)) ->
  (forall k more rest' p', rest2 = more ++ rest' -> p' = S p1 + length more -> k <> K_INT /\ k <> K_FLOAT ->
     Q (1, TOk k p1 p' (p', rest'))) ->
  (forall k more sub pos d t, rest2 = more ++ sub -> pos = S p1 + length more -> k <> K_INT /\ k <> K_FLOAT ->
     lex_bare U cfg k p1 (pos, sub) = (d, t) -> Q (S d, t)) ->
  (forall d t, lex_string U cfg p1 (c :: rest2) (S p1) = (d, t) -> Q (S d, t)) ->
  (forall d t, lex_string U cfg (S p1) rest2 (S (S p1)) = (d, t) ->
     Q (S d, match t with TOk _ _ stop st' => TOk K_AT p1 stop st' | other => other end)) ->
  (forall k d o, k <> K_INT /\ k <> K_FLOAT -> consume U (rx_suffix_id cfg) (S p1, rest2) = (d, o) ->
     Q (S d, match o with CFuel => TFuel | CNone => TErr p1 (S p1) | CSome st' => TOk k p1 (fst st') st' end)) ->
  ((if fx_ascii_digit cfg then is_ascii_digit c else o_numeric O c) = true ->
     forall d t, lex_number U cfg c p1 (S p1, rest2) = (d, t) -> Q (S d, t)) ->
  Q (lex_dispatch O cfg p1 (c :: rest2)).
Proof.
  intros Q p1 c rest2 Herr Hfix Hbare Hstr Hat Hpre Hnum. unfold lex_dispatch. cbv zeta.
  destruct (o_alpha O c || (c =? 95)%Z).
  { destruct (lex_bare U cfg K_BARE p1 (S p1, rest2)) as [d t] eqn:E.
    apply (Hbare K_BARE [] rest2 (S p1) d t eq_refl); [cbn; lia|split; discriminate|exact E]. }
  destruct (assoc c single_punct) as [k|] eqn:Ea.
  { apply (Hfix k [] rest2 _ eq_refl); [cbn; lia|]. exact (assoc_kind c k Ea). }
  destruct (c =? 46)%Z.
  { destruct rest2 as [|c2 [|c3 rest4]]; try apply Herr.
    destruct ((c2 =? 46) && (c3 =? 46))%Z; [|apply Herr].
    apply (Hfix K_ELLIPSIS [c2; c3] rest4 _ eq_refl); [cbn; lia|split; discriminate]. }
  destruct (c =? 45)%Z.
  { destruct rest2 as [|c2 rest3]; [apply (Hfix K_MINUS [] [] _ eq_refl); [cbn; lia|split; discriminate]|].
    destruct (c2 =? 62)%Z.
    - apply (Hfix K_ARROW [c2] rest3 _ eq_refl); [cbn; lia|split; discriminate].
    - apply (Hfix K_MINUS [] (c2 :: rest3) _ eq_refl); [cbn; lia|split; discriminate]. }
  destruct (c =? 123)%Z.
  { destruct rest2 as [|c2 [|c3 rest4]];
      try (apply (Hfix K_L_BRACE [] _ _ eq_refl); [cbn; lia|split; discriminate]).
    destruct ((c2 =? 45) && (c3 =? 35))%Z.
    - apply (Hfix K_FMB [c2; c3] rest4 _ eq_refl); [cbn; lia|split; discriminate].
    - apply (Hfix K_L_BRACE [] (c2 :: c3 :: rest4) _ eq_refl); [cbn; lia|split; discriminate]. }
  destruct ((c =? 35)%Z && match rest2 with c2 :: c3 :: _ => ((c2 =? 45) && (c3 =? 125))%Z | _ => false end) eqn:Em.
  { destruct rest2 as [|c2 [|c3 rest4]]; try (rewrite andb_false_r in Em; discriminate).
    apply (Hfix K_FME [c2; c3] rest4 _ eq_refl); [cbn; lia|split; discriminate]. }
  destruct (c =? 64)%Z.
  { destruct rest2 as [|c2 rest3]; [apply Herr|].
    destruct (o_alpha O c2 || (c2 =? 95)%Z).
    { destruct (lex_bare U cfg K_AT p1 (S (S p1), rest3)) as [d t] eqn:E.
      apply (Hbare K_AT [c2] rest3 (S (S p1)) d t eq_refl); [cbn; lia|split; discriminate|exact E]. }
    destruct (c2 =? 34)%Z; [|apply Herr].
    destruct (lex_string U cfg (S p1) (c2 :: rest3) (S (S p1))) as [d t].
    pose proof (Hat d t eq_refl) as H. destruct t; exact H. }
  destruct ((c =? 35) || (c =? 33) || (c =? 94) || (c =? 37))%Z.
  { destruct (consume U (rx_suffix_id cfg) (S p1, rest2)) as [d o].
    refine (eq_rect _ Q (Hpre _ d o _ eq_refl) _ _); [|destruct o; reflexivity].
    destruct (c =? 35)%Z; [split; discriminate|]. destruct (c =? 33)%Z; [split; discriminate|].
    destruct (c =? 94)%Z; split; discriminate. }
  destruct (c =? 34)%Z.
  { destruct (lex_string U cfg p1 (c :: rest2) (S p1)) as [d t]. exact (Hstr d t eq_refl). }
  destruct (if fx_ascii_digit cfg then is_ascii_digit c else o_numeric O c) eqn:Ed; [|apply Herr].
  destruct (lex_number U cfg c p1 (S p1, rest2)) as [d t]. exact (Hnum eq_refl d t eq_refl).
Qed.

Definition bounded (r : regex) (M : nat) (prompt : bool) : Prop :=
  exists k p, cost_bound r = Some (k, p) /\ k <= M /\ (prompt = true -> p = true).

Lemma cb_ok_bounded : forall r M, cb_ok r = true -> cb_k r <= M -> bounded r M false.
Proof.
  intros r M Hok Hk. unfold bounded, cb_ok, cb_k in *. destruct (cost_bound r) as [[k p]|]; [|discriminate].
  exists k, p. split; [reflexivity|]. split; [exact Hk|discriminate].
Qed.
Lemma cb_prompt_bounded : forall r M, cb_prompt r = true -> cb_k r <= M -> bounded r M true.
Proof.
  intros r M Hok Hk. unfold bounded, cb_prompt, cb_k in *. destruct (cost_bound r) as [[k p]|]; [|discriminate].
  exists k, p. split; [reflexivity|]. split; [exact Hk|intros _; exact Hok].
Qed.

Record ok_cfg (M : nat) : Prop := {
  ok_ws : bounded (rx_ws cfg) M true;
  ok_bare : bounded (rx_bare_suffix cfg) M true;
  ok_suffix : bounded (rx_suffix_id cfg) M false;
  ok_string : bounded (rx_string cfg) M false;
  ok_hex : bounded (rx_hex cfg) M true;
  ok_digits : bounded (rx_digits cfg) M true;
  ok_frac : bounded (rx_frac cfg) M true
}.

Lemma cb_k_le_kmax : forall r, In r (cost_regexes cfg) -> cb_k r <= kmax cfg.
Proof.
  intros r Hin. unfold kmax. induction (cost_regexes cfg) as [|x l IH]; [destruct Hin|].
  cbn [map fold_right]. destruct Hin as [->|Hin]; [lia|]. specialize (IH Hin). lia.
Qed.

Lemma rx_ok_unpack : rx_ok cfg = true -> ok_cfg (kmax cfg).
Proof.
  intro H. unfold rx_ok in H. apply andb_true_iff in H. destruct H as [H1 H2].
  apply andb_true_iff in H1. destruct H1 as [_ H1]. rewrite forallb_forall in H1, H2.
  pose proof cb_k_le_kmax as Hk.
  assert (Hp : forall r, In r [rx_ws cfg; rx_bare_suffix cfg; rx_hex cfg; rx_digits cfg; rx_frac cfg] ->
               In r (cost_regexes cfg) -> bounded r (kmax cfg) true).
  { intros r Hr Hin. apply cb_prompt_bounded; [exact (H2 r Hr)|exact (Hk r Hin)]. }
  assert (Ho : forall r, In r (cost_regexes cfg) -> bounded r (kmax cfg) false).
  { intros r Hin. apply cb_ok_bounded; [exact (H1 r Hin)|exact (Hk r Hin)]. }
  unfold cost_regexes in *.
  constructor; [apply Hp|apply Hp|apply Ho|apply Ho|apply Hp|apply Hp|apply Hp]; cbn; tauto.
Qed.

(* consume on a bounded regex, in potential form: the steps are paid for by the input consumed, plus M *)
Lemma consume_bounded : forall r M pr pos rest d o, bounded r M pr -> consume U r (pos, rest) = (d, o) ->
  match o with
  | CSome (_, rest') => d + M * length rest' <= M * length rest + M
  | CNone => d <= M * length rest + M /\ (pr = true -> d <= M)
  | CFuel => False
  end.
Proof.
  intros r M pr pos rest d o (k & p & Hc & Hk & Hp) H. unfold consume in H.
  destruct (bt_match U r rest) as [d0 o0] eqn:E.
  destruct (cost_bound_sound U r k p Hc rest d0 o0 E) as (Hnf & Hs & Hn).
  destruct o0 as [sf| |]; injection H as <- <-; [| |congruence].
  - destruct (Hs sf eq_refl) as [Hl Hd].
    assert (k * (length rest - length sf + 1) <= M * (length rest - length sf + 1))
      by (apply Nat.mul_le_mono_r; exact Hk).
    replace (M * length rest + M) with (M * (length rest - length sf + 1) + M * length sf); [lia|].
    rewrite <- Nat.mul_add_distr_l, <- Nat.mul_succ_r. f_equal. lia.
  - destruct (Hn eq_refl) as [Hd Hpk].
    assert (k * (length rest + 1) <= M * (length rest + 1)) by (apply Nat.mul_le_mono_r; exact Hk).
    split; [lia|]. intro Hpr. specialize (Hpk (Hp Hpr)). lia.
Qed.

(* cost of one token.  tcost M c e rest (d, t): d is paid for by the consumed input plus c*M + e *)

Definition tcost (M c e : nat) (rest : list Z) (x : nat * tres) : Prop :=
  match snd x with
  | TOk _ _ _ (_, rest') => fst x + M * length rest' <= M * length rest + c * M + e
  | TErr _ _ => fst x <= M * length rest + c * M + e
  | TFuel => False
  end.

Variable M : nat.
Hypothesis Hok : ok_cfg M.

Lemma lex_bare_cost : forall kind start pos rest, tcost M 1 0 rest (lex_bare U cfg kind start (pos, rest)).
Proof.
  intros kind start pos rest. unfold lex_bare.
  destruct (consume U (rx_bare_suffix cfg) (pos, rest)) as [d o] eqn:E.
  pose proof (consume_bounded _ M true pos rest d o (ok_bare M Hok) E) as H.
  destruct o as [[pos' rest']| |]; unfold tcost; cbn [fst snd].
  - lia.
  - destruct H as [_ H]. specialize (H eq_refl). lia.
  - exact H.
Qed.

Lemma lex_string_cost : forall start q cur, tcost M 1 0 q (lex_string U cfg start q cur).
Proof.
  intros start q cur. unfold lex_string.
  destruct (consume U (rx_string cfg) (start, q)) as [d o] eqn:E.
  pose proof (consume_bounded _ M false start q d o (ok_string M Hok) E) as H.
  destruct o as [[pos' rest']| |]; unfold tcost; cbn [fst snd].
  - destruct ((length (firstn (pos' - start) q) =? 2) && forallb (Z.eqb 34) (firstn (pos' - start) q));
      [cbn [fst snd]; lia|].
    destruct (negb (existsb (Z.eqb 92) (firstn (pos' - start) q))); [cbn [fst snd]; lia|].
    destruct (string_kind cfg (removelast (tl (firstn (pos' - start) q)))) as [k0|]; cbn [fst snd]; lia.
  - lia.
  - exact H.
Qed.

Lemma lex_decimal_cost : forall start pos rest, tcost M 2 0 rest (lex_decimal U cfg start (pos, rest)).
Proof.
  intros start pos rest. unfold lex_decimal.
  destruct (consume U (rx_digits cfg) (pos, rest)) as [d1 o1] eqn:E1.
  pose proof (consume_bounded _ M true pos rest d1 o1 (ok_digits M Hok) E1) as H1.
  destruct o1 as [[pos2 rest2]| |].
  - destruct (consume U (rx_frac cfg) (pos2, rest2)) as [d2 o2] eqn:E2.
    pose proof (consume_bounded _ M true pos2 rest2 d2 o2 (ok_frac M Hok) E2) as H2.
    destruct o2 as [[pos3 rest3]| |]; unfold tcost; cbn [fst snd].
    + lia.
    + destruct H2 as [_ H2]. specialize (H2 eq_refl). lia.
    + exact H2.
  - destruct H1 as [_ H1]. specialize (H1 eq_refl).
    destruct (consume U (rx_frac cfg) (pos, rest)) as [d2 o2] eqn:E2.
    pose proof (consume_bounded _ M true pos rest d2 o2 (ok_frac M Hok) E2) as H2.
    destruct o2 as [[pos3 rest3]| |]; unfold tcost; cbn [fst snd].
    + lia.
    + destruct H2 as [_ H2]. specialize (H2 eq_refl). lia.
    + exact H2.
  - destruct H1.
Qed.

Lemma lex_number_cost : forall c start pos rest, tcost M 2 0 rest (lex_number U cfg c start (pos, rest)).
Proof.
  intros c start pos rest. unfold lex_number.
  destruct rest as [|x [|h rest4]]; try apply lex_decimal_cost.
  destruct ((c =? 48)%Z && (x =? 120)%Z && is_hex h); [|apply lex_decimal_cost].
  destruct (consume U (rx_hex cfg) (pos + 2, rest4)) as [d o] eqn:E.
  pose proof (consume_bounded _ M true (pos + 2) rest4 d o (ok_hex M Hok) E) as H.
  destruct o as [[pos' rest']| |]; unfold tcost; cbn [fst snd length].
  - rewrite !Nat.mul_succ_r. lia.
  - destruct H as [_ H]. specialize (H eq_refl). rewrite !Nat.mul_succ_r. lia.
  - exact H.
Qed.

Lemma tcost_sub : forall c rest1 sub x,
  tcost M c 0 sub x -> M * length sub + c * M <= M * length rest1 + M -> tcost M 1 1 rest1 (S (fst x), snd x).
Proof.
  intros c rest1 sub [d t] Hx Hs. unfold tcost in *. cbn [fst snd] in *.
  destruct t as [kind a b [pos' rest']| |]; [lia|lia|exact Hx].
Qed.
Lemma tcost_const_ok : forall kind a b pos' rest' rest1,
  M * length rest' + M <= M * length rest1 + M -> tcost M 1 1 rest1 (1, TOk kind a b (pos', rest')).
Proof. intros. unfold tcost. cbn [fst snd]. lia. Qed.
Lemma tcost_const_err : forall a b rest1, tcost M 1 1 rest1 (1, TErr a b).
Proof. intros. unfold tcost. cbn [fst snd]. lia. Qed.

Lemma mul_cons : forall (x : Z) l, M * length (x :: l) = M * length l + M.
Proof. intros. cbn [length]. rewrite Nat.mul_succ_r. reflexivity. Qed.

Lemma lex_dispatch_cost : forall p1 rest1, tcost M 1 1 rest1 (lex_dispatch O cfg p1 rest1).
Proof.
  intros p1 [|c rest2]; [unfold lex_dispatch, tcost; cbn [fst snd length]; lia|].
  pose proof (mul_cons c rest2) as Hc. apply lex_dispatch_elim.
  - intros a b. apply tcost_const_err.
  - intros k more rest' p' -> _ _. apply tcost_const_ok. rewrite app_length, Nat.mul_add_distr_l in Hc. lia.
  - intros k more sub pos d t -> _ _ Eb. pose proof (lex_bare_cost k p1 pos sub) as H. rewrite Eb in H.
    apply (tcost_sub 1 _ sub (d, t) H). rewrite app_length, Nat.mul_add_distr_l in Hc. lia.
  - intros d t Es. pose proof (lex_string_cost p1 (c :: rest2) (S p1)) as H. rewrite Es in H.
    apply (tcost_sub 1 _ (c :: rest2) (d, t) H). lia.
  - intros d t Es. pose proof (lex_string_cost (S p1) rest2 (S (S p1))) as H. rewrite Es in H.
    destruct t as [k a b st'|a b|];
      [apply (tcost_sub 1 _ rest2 (d, TOk K_AT p1 b st') H)|apply (tcost_sub 1 _ rest2 (d, TErr a b) H)|exact H]; lia.
  - intros k d o _ Ec. pose proof (consume_bounded _ M false (S p1) rest2 d o (ok_suffix M Hok) Ec) as H.
    destruct o as [[pos' rest']| |]; unfold tcost; cbn [fst snd]; [lia|lia|exact H].
  - intros _ d t En. pose proof (lex_number_cost c p1 (S p1) rest2) as H. rewrite En in H.
    apply (tcost_sub 2 _ rest2 (d, t) H). lia.
Qed.

Lemma lex_token_cost : forall pos rest, tcost M 2 1 rest (lex_token O cfg (pos, rest)).
Proof.
  intros pos rest. unfold lex_token.
  assert (Hd : forall d0 p1 rest1, d0 + M * length rest1 <= M * length rest + M ->
            tcost M 2 1 rest (d0 + fst (lex_dispatch O cfg p1 rest1), snd (lex_dispatch O cfg p1 rest1))).
  { intros d0 p1 rest1 H0. pose proof (lex_dispatch_cost p1 rest1) as Hd.
    destruct (lex_dispatch O cfg p1 rest1) as [d t]. unfold tcost in *. cbn [fst snd] in *.
    destruct t as [kind a b [pos' rest']| |]; [lia|lia|exact Hd]. }
  destruct (consume U (rx_ws cfg) (pos, rest)) as [d0 ows] eqn:E0.
  pose proof (consume_bounded _ M true pos rest d0 ows (ok_ws M Hok) E0) as H0.
  destruct ows as [[p1 rest1]| |]; [apply Hd; exact H0| |destruct H0].
  destruct H0 as [_ H0]. specialize (H0 eq_refl). cbn [fst snd]. apply Hd. lia.
Qed.

End Lex.


Section Advance.
Variable O : oracle.
Variable cfg : config.
Notation U := (o_named O).

(* a sub-lexer consumes a prefix `pre` of what it is given and moves the position by its length; the span of
   its token ends there.  E is what follows should `pre` be empty. *)
Definition advances (E : Prop) (pos : nat) (rest : list Z) (x : nat * tres) : Prop :=
  match snd x with
  | TOk _ _ b (p', rest') => exists pre, rest = pre ++ rest' /\ p' = pos + length pre /\ b = p' /\ (pre = [] -> E)
  | TErr _ _ => True
  | TFuel => False
  end.

Lemma advances_intro : forall (E : Prop) pos pre rest' d k a p', p' = pos + length pre -> (pre = [] -> E) ->
  advances E pos (pre ++ rest') (d, TOk k a p' (p', rest')).
Proof. intros E pos pre rest' d k a p' Hp He. exists pre. repeat split; assumption. Qed.

Lemma lex_bare_advances : forall kind start pos rest,
  advances True pos rest (lex_bare U cfg kind start (pos, rest)).
Proof.
  intros. unfold lex_bare. destruct (consume U (rx_bare_suffix cfg) (pos, rest)) as [d o] eqn:E.
  pose proof (consume_spec O _ _ _ _ _ E) as H. destruct o as [[pos' rest']| |]; [|..|destruct H].
  - destruct H as (pre & -> & ->). apply advances_intro; [reflexivity|exact (fun _ => I)].
  - exact (advances_intro True pos [] rest d kind start pos (eq_sym (Nat.add_0_r pos)) (fun _ => I)).
Qed.

Lemma consume_starts_chr : forall r pos rest d pos' rest', starts_chr r = true ->
  consume U r (pos, rest) = (d, CSome (pos', rest')) -> length rest' < length rest.
Proof.
  intros r pos s d pos' rest' Hr H. unfold consume, bt_match in H.
  destruct (bt U r s accept) as [d0 [sf| |]] eqn:E; try discriminate. injection H as _ _ <-.
  destruct r as [|c|a b|a b|a|]; try discriminate.
  - destruct s as [|x t]; [rewrite chr_nil in E; discriminate|].
    destruct (Regex.mem U c x) eqn:Em.
    + rewrite (chr_hit U c x t accept 0 (MSome t) Em eq_refl) in E. injection E as _ <-. cbn. lia.
    + rewrite (chr_miss U c x t accept Em) in E. discriminate.
  - destruct a as [|c|a1 a2|a1 a2|a1|]; try discriminate.
    change (bt U (Cat (Chr c) b) s accept) with (bt U (Chr c) s (fun s' => bt U b s' accept)) in E.
    destruct s as [|x t]; [rewrite chr_nil in E; discriminate|].
    destruct (Regex.mem U c x) eqn:Em.
    + rewrite (chr_hit U c x t _ _ _ Em (pair_eta _)) in E. injection E as _ E.
      pose proof (bt_match_len U b t sf E). cbn. lia.
    + rewrite (chr_miss U c x t _ Em) in E. discriminate.
Qed.

Lemma lex_string_advances : forall start q cur,
  advances (progress_ok cfg <> true) start q (lex_string U cfg start q cur).
Proof.
  intros start q cur. unfold lex_string.
  destruct (consume U (rx_string cfg) (start, q)) as [d o] eqn:E. pose proof (consume_spec O _ _ _ _ _ E) as H.
  destruct o as [[stop sf]| |]; [|exact I|destruct H]. destruct H as (pre & -> & ->).
  assert (Ha : forall k, advances (progress_ok cfg <> true) start (pre ++ sf)
                           (d, TOk k start (start + length pre) (start + length pre, sf))).
  { intro k. apply advances_intro; [reflexivity|]. intros -> Hp.
    pose proof (consume_starts_chr _ _ _ _ _ _ Hp E) as Hl. cbn in Hl. lia. }
  destruct (_ && _); [apply Ha|]. destruct (negb _); [apply Ha|]. destruct (string_kind _ _); [apply Ha|exact I].
Qed.

Lemma lex_decimal_advances : forall start pos rest,
  advances True pos rest (lex_decimal U cfg start (pos, rest)).
Proof.
  intros. unfold lex_decimal.
  destruct (consume U (rx_digits cfg) (pos, rest)) as [d1 o1] eqn:E1. pose proof (consume_spec O _ _ _ _ _ E1) as H1.
  destruct o1 as [[pos2 rest2]| |]; [destruct H1 as (pre1 & -> & ->)| |destruct H1].
  - destruct (consume U (rx_frac cfg) (pos + length pre1, rest2)) as [d2 o2] eqn:E2.
    pose proof (consume_spec O _ _ _ _ _ E2) as H2.
    destruct o2 as [[pos3 rest3]| |]; [destruct H2 as (pre2 & -> & ->)| |destruct H2]; cbn [fst].
    + rewrite app_assoc. apply advances_intro; [rewrite app_length; lia|exact (fun _ => I)].
    + apply advances_intro; [reflexivity|exact (fun _ => I)].
  - destruct (consume U (rx_frac cfg) (pos, rest)) as [d2 o2] eqn:E2. pose proof (consume_spec O _ _ _ _ _ E2) as H2.
    destruct o2 as [[pos3 rest3]| |]; [destruct H2 as (pre2 & -> & ->)| |destruct H2]; cbn [fst].
    + apply advances_intro; [reflexivity|exact (fun _ => I)].
    + exact (advances_intro True pos [] rest _ K_INT start pos (eq_sym (Nat.add_0_r pos)) (fun _ => I)).
Qed.

Lemma lex_number_advances : forall c start pos rest,
  advances True pos rest (lex_number U cfg c start (pos, rest)).
Proof.
  intros c start pos rest. unfold lex_number.
  destruct rest as [|x [|h rest4]]; try apply lex_decimal_advances.
  destruct (_ && _ && _); [|apply lex_decimal_advances].
  destruct (consume U (rx_hex cfg) (pos + 2, rest4)) as [d o] eqn:E. pose proof (consume_spec O _ _ _ _ _ E) as H.
  destruct o as [[pos' rest']| |]; [destruct H as (pre & -> & ->)| |destruct H]; cbn [fst].
  - apply (advances_intro True pos (x :: h :: pre)); [cbn [length]; lia|exact (fun _ => I)].
  - apply (advances_intro True pos [x; h]); [cbn [length]; lia|exact (fun _ => I)].
Qed.

Lemma advances_after : forall (E E' : Prop) p1 c more sub pos x, pos = S p1 + length more ->
  advances E' pos sub x -> advances E p1 (c :: more ++ sub) (S (fst x), snd x).
Proof.
  intros E E' p1 c more sub pos [d t] -> H. unfold advances in *. cbn [fst snd] in *.
  destruct t as [k a b [p r]| |]; try exact H. destruct H as (pre & -> & -> & -> & _).
  exists (c :: more ++ pre). rewrite app_assoc. cbn [length]. rewrite app_length.
  repeat split; [lia|discriminate].
Qed.

Lemma lex_dispatch_advances : forall p1 c rest2,
  advances (progress_ok cfg <> true) p1 (c :: rest2) (lex_dispatch O cfg p1 (c :: rest2)).
Proof.
  intros p1 c rest2. set (E := progress_ok cfg <> true). apply lex_dispatch_elim.
  - intros a b. exact I.
  - intros k more rest' p' -> Hp _. apply (advances_intro E p1 (c :: more)); [cbn; lia|discriminate].
  - intros k more sub pos d t -> Hp _ Eb. pose proof (lex_bare_advances k p1 pos sub) as H. rewrite Eb in H.
    exact (advances_after E True p1 c more sub pos (d, t) Hp H).
  - intros d t Es. pose proof (lex_string_advances p1 (c :: rest2) (S p1)) as H. rewrite Es in H. exact H.
  - intros d t Es. pose proof (lex_string_advances (S p1) rest2 (S (S p1))) as H. rewrite Es in H.
    destruct t as [k a b st'|a b|]; [|exact I|exact H].
    exact (advances_after E _ p1 c [] rest2 (S p1) (d, TOk K_AT p1 b st') (eq_sym (Nat.add_0_r _)) H).
  - intros k d o _ Ec. pose proof (consume_spec O _ _ _ _ _ Ec) as H.
    destruct o as [[p0 r0]| |]; [destruct H as (pre & -> & ->)|exact I|exact H].
    apply (advances_intro E p1 (c :: pre)); [cbn; lia|discriminate].
  - intros _ d t En. pose proof (lex_number_advances c p1 (S p1) rest2) as H. rewrite En in H.
    exact (advances_after E True p1 c [] rest2 (S p1) (d, t) (eq_sym (Nat.add_0_r _)) H).
Qed.

Lemma lex_token_advances : forall pos rest,
  match snd (lex_token O cfg (pos, rest)) with
  | TOk k _ b (p', rest') =>
      exists pre, rest = pre ++ rest' /\
        (k = K_EOF \/ (p' = pos + length pre /\ b = p' /\ (progress_ok cfg = true -> pre <> [])))
  | TErr _ _ => True
  | TFuel => False
  end.
Proof.
  intros pos rest. unfold lex_token.
  assert (Hd : forall pre0 p1 rest1, p1 = pos + length pre0 ->
     match snd (lex_dispatch O cfg p1 rest1) with
     | TOk k _ b (p', rest') =>
         exists pre, pre0 ++ rest1 = pre ++ rest' /\
           (k = K_EOF \/ (p' = pos + length pre /\ b = p' /\ (progress_ok cfg = true -> pre <> [])))
     | TErr _ _ => True
     | TFuel => False
     end).
  { intros pre0 p1 [|c rest2] ->; [exists pre0; split; [reflexivity|left; reflexivity]|].
    pose proof (lex_dispatch_advances (pos + length pre0) c rest2) as Ha. unfold advances in Ha.
    destruct (snd (lex_dispatch O cfg (pos + length pre0) (c :: rest2))) as [k a b [p r]| |]; try exact Ha.
    destruct Ha as (pre & -> & -> & -> & He). exists (pre0 ++ pre).
    rewrite app_assoc, app_length, Nat.add_assoc. split; [reflexivity|right]. repeat split.
    intros Hp Hnil. apply app_eq_nil in Hnil. exact (He (proj2 Hnil) Hp). }
  destruct (consume U (rx_ws cfg) (pos, rest)) as [d0 ows] eqn:E0. pose proof (consume_spec O _ _ _ _ _ E0) as H0.
  destruct ows as [[p1 rest1]| |]; cbn [fst snd]; [|..|exact H0].
  - destruct H0 as (pre0 & -> & ->). apply Hd. reflexivity.
  - apply (Hd [] pos rest). apply eq_sym, Nat.add_0_r.
Qed.

Lemma lex_token_progress : progress_ok cfg = true -> forall pos rest,
  match snd (lex_token O cfg (pos, rest)) with
  | TOk kind _ _ (_, rest') => kind = K_EOF \/ length rest' < length rest
  | TErr _ _ => True
  | TFuel => False
  end.
Proof.
  intros Hp pos rest. pose proof (lex_token_advances pos rest) as H.
  destruct (snd (lex_token O cfg (pos, rest))) as [k a b [p r]| |]; try exact H.
  destruct H as (pre & -> & [->|(_ & _ & Hne)]); [left; reflexivity|right].
  specialize (Hne Hp). destruct pre; [contradiction|]. rewrite app_length. cbn. lia.
Qed.

End Advance.

Section Whole.
Variable O : oracle.
Variable cfg : config.

Lemma convert_guard : fx_int_guard cfg = true -> forall kind text k, convert O cfg kind text <> VInternal k.
Proof.
  intros Hg kind text k. unfold convert, fail_conv. rewrite Hg.
  destruct (kind =? K_INT)%Z.
  - destruct (if match text with a :: b :: _ => ((a =? 48) && ((b =? 120) || (b =? 88)))%Z | _ => false end
              then int16 text else int10 O text); discriminate.
  - destruct (kind =? K_FLOAT)%Z; [|discriminate].
    destruct text as [|c t]; [discriminate|]. destruct (o_decimal O c); discriminate.
Qed.

Lemma lex_all_outcome : progress_ok cfg = true -> forall input fuel pos rest, length rest < fuel ->
  snd (snd (lex_all O cfg input fuel (pos, rest))) <> OutOfFuel /\
  (fx_int_guard cfg = true -> forall k, snd (snd (lex_all O cfg input fuel (pos, rest))) <> Internal k).
Proof.
  intros Hp input. induction fuel as [|f IHf]; intros pos rest Hlt; [lia|].
  cbn [lex_all]. pose proof (lex_token_progress O cfg Hp pos rest) as Hpr.
  destruct (lex_token O cfg (pos, rest)) as [d t]. cbn [snd] in Hpr.
  destruct t as [kind a b [pos' rest']|a b|]; [|cbn; split; [discriminate|intros _ k; discriminate]|destruct Hpr].
  destruct (convert O cfg kind (firstn (b - a) (skipn a input))) as [v| |k0] eqn:Ec.
  - destruct (kind =? K_EOF)%Z eqn:Ek; [cbn; split; [discriminate|intros _ k; discriminate]|].
    destruct Hpr as [->|Hl]; [cbn in Ek; discriminate|].
    specialize (IHf pos' rest' ltac:(lia)).
    destruct (lex_all O cfg input f (pos', rest')) as [d' [l o]]. cbn [fst snd] in *. exact IHf.
  - cbn. split; [discriminate|intros _ k; discriminate].
  - cbn. split; [discriminate|]. intros Hg k. exfalso. exact (convert_guard Hg _ _ _ Ec).
Qed.

Lemma lex_all_cost : forall M, ok_cfg cfg M -> progress_ok cfg = true ->
  forall input fuel pos rest, length rest < fuel ->
  fst (lex_all O cfg input fuel (pos, rest)) <= M * length rest + (2 * M + 1) * (length rest + 1).
Proof.
  intros M Hok Hp input. induction fuel as [|f IHf]; intros pos rest Hlt; [lia|].
  cbn [lex_all]. pose proof (lex_token_progress O cfg Hp pos rest) as Hpr.
  pose proof (lex_token_cost O cfg M Hok pos rest) as Hc. unfold tcost in Hc.
  destruct (lex_token O cfg (pos, rest)) as [d t]. cbn [fst snd] in Hpr, Hc.
  assert (Hb : 2 * M + 1 <= (2 * M + 1) * (length rest + 1))
    by (rewrite <- (Nat.mul_1_r (2 * M + 1)) at 1; apply Nat.mul_le_mono_l; lia).
  destruct t as [kind a b [pos' rest']|a b|]; [|cbn [fst]; lia|destruct Hpr].
  destruct (convert O cfg kind (firstn (b - a) (skipn a input))) as [v| |k0]; try (cbn [fst]; lia).
  destruct (kind =? K_EOF)%Z eqn:Ek; [cbn [fst]; lia|].
  destruct Hpr as [->|Hl']; [cbn in Ek; discriminate|].
  specialize (IHf pos' rest' ltac:(lia)).
  destruct (lex_all O cfg input f (pos', rest')) as [d' [l o]]. cbn [fst snd] in *.
  assert ((2 * M + 1) * (length rest' + 1) + (2 * M + 1) <= (2 * M + 1) * (length rest + 1)).
  { rewrite <- Nat.mul_succ_r. apply Nat.mul_le_mono_l. lia. }
  lia.
Qed.

Fixpoint skip_tokens (n : nat) (st : state) : option state :=
  match n with
  | 0 => Some st
  | S m =>
      match snd (lex_token O cfg st) with
      | TOk k _ _ st' => if ((k =? K_INT) || (k =? K_FLOAT) || (k =? K_EOF))%Z then None else skip_tokens m st'
      | _ => None
      end
  end.

Lemma lex_all_internal_after : forall input n st st' d k a b st'' e fuel,
  skip_tokens n st = Some st' -> lex_token O cfg st' = (d, TOk k a b st'') ->
  convert O cfg k (firstn (b - a) (skipn a input)) = VInternal e -> n < fuel ->
  snd (snd (lex_all O cfg input fuel st)) = Internal e.
Proof.
  intros input. induction n as [|n IH]; intros st st' d k a b st'' e fuel Hs Ht Hc Hlt;
    (destruct fuel as [|f]; [lia|]); cbn [lex_all].
  - injection Hs as <-. rewrite Ht, Hc. reflexivity.
  - cbn [skip_tokens] in Hs. destruct (lex_token O cfg st) as [d0 t0]. cbn [snd] in Hs.
    destruct t0 as [k0 a0 b0 st0| |]; try discriminate.
    destruct ((k0 =? K_INT) || (k0 =? K_FLOAT) || (k0 =? K_EOF))%Z eqn:Ek; [discriminate|].
    apply orb_false_iff in Ek. destruct Ek as [Ek Eeof]. apply orb_false_iff in Ek. destruct Ek as [Eint Efl].
    unfold convert. rewrite Eint, Efl, Eeof.
    specialize (IH st0 st' d k a b st'' e f Hs Ht Hc ltac:(lia)).
    destruct (lex_all O cfg input f st0) as [d' [l o]]. exact IH.
Qed.

Lemma lex_string_steps : forall start q cur,
  fst (lex_string (o_named O) cfg start q cur) = fst (bt_match (o_named O) (rx_string cfg) q).
Proof.
  intros start q cur. unfold lex_string, consume.
  destruct (bt_match (o_named O) (rx_string cfg) q) as [d [sf| |]]; try reflexivity.
  destruct (_ && _); [reflexivity|]. destruct (negb _); [reflexivity|]. destruct (string_kind _ _); reflexivity.
Qed.

Lemma lex_all_steps_token : forall input f st, fst (lex_token O cfg st) <= fst (lex_all O cfg input (S f) st).
Proof.
  intros input f st. cbn [lex_all]. destruct (lex_token O cfg st) as [d [k a b st'| |]]; cbn [fst]; try lia.
  destruct (convert O cfg k (firstn (b - a) (skipn a input))); cbn [fst]; try lia.
  destruct (k =? K_EOF)%Z; [cbn [fst]; lia|].
  destruct (lex_all O cfg input f st') as [d' [l o]]. cbn [fst]. lia.
Qed.

(* C07_lex_linear for any configuration accepted by the analyser *)
Theorem lex_linear_general : rx_ok cfg = true ->
  forall s, lex_steps O cfg s <= Kof cfg * (length s + 1).
Proof.
  intros Hrx s. unfold lex_steps, lex.
  pose proof (rx_ok_unpack cfg Hrx) as Hok.
  assert (Hp : progress_ok cfg = true).
  { unfold rx_ok in Hrx. apply andb_true_iff in Hrx. destruct Hrx as [Hrx _].
    apply andb_true_iff in Hrx. tauto. }
  pose proof (lex_all_cost (kmax cfg) Hok Hp s (S (length s)) 0 s ltac:(lia)) as H.
  unfold Kof.
  assert (kmax cfg * length s <= kmax cfg * (length s + 1)) by (apply Nat.mul_le_mono_l; lia).
  replace ((4 * kmax cfg + 1) * (length s + 1))
    with (kmax cfg * (length s + 1) + (2 * kmax cfg + 1) * (length s + 1) + kmax cfg * (length s + 1)) by lia.
  lia.
Qed.

Theorem lex_no_fuel : progress_ok cfg = true -> forall s, lex_outcome O cfg s <> OutOfFuel.
Proof.
  intros Hp s. unfold lex_outcome, lex.
  apply (lex_all_outcome Hp s (S (length s)) 0 s ltac:(lia)).
Qed.

Lemma no_internal_of : progress_ok cfg = true -> forall s,
  (forall k, lex_outcome O cfg s <> Internal k) -> no_internal (lex_outcome O cfg s).
Proof.
  intros Hp s Hi. pose proof (lex_no_fuel Hp s) as Hf.
  destruct (lex_outcome O cfg s); cbn; try exact I; [exact (Hi k eq_refl)|exact (Hf eq_refl)].
Qed.

(* C07_lex_total for any configuration whose literal conversion is guarded *)
Theorem lex_total_general : progress_ok cfg = true -> fx_int_guard cfg = true ->
  forall s, no_internal (lex_outcome O cfg s).
Proof.
  intros Hp Hg s. apply (no_internal_of Hp).
  exact (proj2 (lex_all_outcome Hp s (S (length s)) 0 s ltac:(lia)) Hg).
Qed.

End Whole.

Section Restricted.
Variable O : oracle.
Variable cfg : config.
Notation U := (o_named O).

Lemma ws_suffix : forall pos rest d p1 rest1,
  consume U (rx_ws cfg) (pos, rest) = (d, CSome (p1, rest1)) -> is_suffix rest1 rest.
Proof. intros pos rest d p1 rest1 H. destruct (consume_spec O _ _ _ _ _ H) as (pre & -> & _). exists pre. reflexivity. Qed.

Definition set_string (r : regex) : config :=
  Config (rx_ws cfg) (rx_bare_suffix cfg) (rx_suffix_id cfg) r (rx_hex cfg) (rx_digits cfg) (rx_frac cfg)
         (rx_name cfg) (rx_name_suffix cfg)
         (fx_ascii_digit cfg) (fx_int_guard cfg) (fx_label_validate cfg) (fx_label_redef cfg) (fx_utf8_kind cfg).

Definition quote_free (l : list Z) : Prop := forall c, In c l -> c <> 34%Z.

Lemma lex_dispatch_nostring : forall r p1 rest1, quote_free rest1 ->
  lex_dispatch O (set_string r) p1 rest1 = lex_dispatch O cfg p1 rest1.
Proof.
  intros r p1 rest1 Hq. destruct rest1 as [|c rest2]; [reflexivity|].
  assert (Hc : (c =? 34)%Z = false) by (apply Z.eqb_neq; apply Hq; left; reflexivity).
  (* the sub-lexers other than lex_string do not look at rx_string: equal by conversion *)
  unfold lex_dispatch. rewrite Hc. destruct rest2 as [|c2 rest3]; [reflexivity|].
  assert (Hc2 : (c2 =? 34)%Z = false) by (apply Z.eqb_neq; apply Hq; right; left; reflexivity).
  rewrite Hc2. reflexivity.
Qed.

Lemma quote_free_app : forall pre l, quote_free (pre ++ l) -> quote_free l.
Proof. intros pre l Hq c Hin. apply Hq, in_or_app. right. exact Hin. Qed.

Lemma lex_token_nostring : forall r pos rest, quote_free rest ->
  lex_token O (set_string r) (pos, rest) = lex_token O cfg (pos, rest).
Proof.
  intros r pos rest Hq. unfold lex_token. cbn [set_string rx_ws].
  destruct (consume U (rx_ws cfg) (pos, rest)) as [d0 ows] eqn:E0. pose proof (consume_spec O _ _ _ _ _ E0) as H0.
  destruct ows as [[p1 rest1]| |]; [| |reflexivity].
  - destruct H0 as (pre & -> & _). rewrite lex_dispatch_nostring; [reflexivity|exact (quote_free_app _ _ Hq)].
  - cbn [fst snd]. rewrite lex_dispatch_nostring; [reflexivity|exact Hq].
Qed.

Lemma lex_all_nostring : forall r input fuel pos rest, quote_free rest ->
  lex_all O (set_string r) input fuel (pos, rest) = lex_all O cfg input fuel (pos, rest).
Proof.
  intros r input. induction fuel as [|f IHf]; intros pos rest Hq; [reflexivity|].
  cbn [lex_all]. rewrite (lex_token_nostring r pos rest Hq).
  pose proof (lex_token_advances O cfg pos rest) as Hs.
  destruct (lex_token O cfg (pos, rest)) as [d t]. cbn [snd] in Hs.
  destruct t as [kind a b [pos' rest']|a b|]; try reflexivity. destruct Hs as (pre & -> & _).
  change (convert O (set_string r) kind (firstn (b - a) (skipn a input)))
    with (convert O cfg kind (firstn (b - a) (skipn a input))).
  destruct (convert O cfg kind (firstn (b - a) (skipn a input))); try reflexivity.
  destruct (kind =? K_EOF)%Z; [reflexivity|].
  rewrite (IHf pos' rest' (quote_free_app _ _ Hq)). reflexivity.
Qed.

Definition digit_test (c : Z) : bool := if fx_ascii_digit cfg then is_ascii_digit c else o_numeric O c.
Definition digit_free (l : list Z) : Prop := forall c, In c l -> digit_test c = false.

Definition tkind (x : nat * tres) : Prop :=
  match snd x with TOk k _ _ _ => k <> K_INT /\ k <> K_FLOAT | _ => True end.

Lemma lex_string_kind : forall s q cur,
  match snd (lex_string U cfg s q cur) with TOk k _ _ _ => k = K_STR \/ k = K_BYTES | _ => True end.
Proof.
  intros s q cur. unfold lex_string. destruct (consume U (rx_string cfg) (s, q)) as [d o].
  destruct o as [[stop sf]| |]; try exact I.
  destruct (_ && _); [left; reflexivity|]. destruct (negb _); [left; reflexivity|].
  unfold string_kind. destruct (fx_utf8_kind cfg).
  - destruct (bytes_of _) as [bs|]; [|exact I]. destruct (utf8_valid bs); [left|right]; reflexivity.
  - destruct (bytes_ascii _) as [[|]|]; try exact I; [left|right]; reflexivity.
Qed.

(* a token is not a numeric literal unless it comes from the number branch *)
Lemma lex_dispatch_cases : forall p1 rest1,
  tkind (lex_dispatch O cfg p1 rest1) \/
  (exists c rest2, rest1 = c :: rest2 /\ digit_test c = true /\
     snd (lex_dispatch O cfg p1 rest1) = snd (lex_number U cfg c p1 (S p1, rest2))).
Proof.
  intros p1 [|c rest2]; [left; unfold tkind; cbn; split; discriminate|].
  assert (H : (fun x => tkind x \/ (digit_test c = true /\ snd x = snd (lex_number U cfg c p1 (S p1, rest2))))
                (lex_dispatch O cfg p1 (c :: rest2))).
  { apply lex_dispatch_elim.
    - intros a b. left. exact I.
    - intros k more rest' p' _ _ Hk. left. exact Hk.
    - intros k more sub pos d t _ _ Hk Eb. left. unfold lex_bare in Eb.
      destruct (consume U (rx_bare_suffix cfg) (pos, sub)) as [d0 [st'| |]]; injection Eb as _ <-; try exact Hk; exact I.
    - intros d t Es. left. pose proof (lex_string_kind p1 (c :: rest2) (S p1)) as Hs. rewrite Es in Hs.
      destruct t as [k a b st'| |]; try exact I. destruct Hs as [->| ->]; split; discriminate.
    - intros d t _. left. destruct t; try exact I. split; discriminate.
    - intros k d o Hk _. left. destruct o; try exact I. exact Hk.
    - intros Hd d t En. right. split; [exact Hd|]. rewrite En. reflexivity. }
  destruct H as [H|[Hd Hn]]; [left; exact H|right]. exists c, rest2. repeat split; assumption.
Qed.

Lemma lex_dispatch_kind : forall p1 rest1,
  match rest1 with c :: _ => digit_test c = false | [] => True end ->
  tkind (lex_dispatch O cfg p1 rest1).
Proof.
  intros p1 rest1 Hd. destruct (lex_dispatch_cases p1 rest1) as [H|(c & rest2 & -> & Hc & _)]; [exact H|].
  rewrite Hd in Hc. discriminate.
Qed.

Lemma lex_token_kind : forall pos rest, digit_free rest -> tkind (lex_token O cfg (pos, rest)).
Proof.
  intros pos rest Hdf. unfold lex_token.
  destruct (consume U (rx_ws cfg) (pos, rest)) as [d0 ows] eqn:E0. pose proof (consume_spec O _ _ _ _ _ E0) as H0.
  assert (Hh : forall pre l, rest = pre ++ l -> match l with c :: _ => digit_test c = false | [] => True end).
  { intros pre [|c t] ->; [exact I|]. apply Hdf, in_or_app. right. left. reflexivity. }
  destruct ows as [[p1 rest1]| |]; [destruct H0 as (pre & Hr & _)| |exact I].
  - exact (lex_dispatch_kind p1 rest1 (Hh pre _ Hr)).
  - exact (lex_dispatch_kind pos rest (Hh [] _ eq_refl)).
Qed.

Lemma convert_nonlit : forall kind text, kind <> K_INT -> kind <> K_FLOAT -> convert O cfg kind text = VOk LNone.
Proof.
  intros kind text H1 H2. unfold convert.
  apply Z.eqb_neq in H1. apply Z.eqb_neq in H2. rewrite H1, H2. reflexivity.
Qed.

Lemma lex_all_digit_free : forall input fuel pos rest, digit_free rest ->
  forall k, snd (snd (lex_all O cfg input fuel (pos, rest))) <> Internal k.
Proof.
  intros input. induction fuel as [|f IHf]; intros pos rest Hdf k; [cbn; discriminate|].
  cbn [lex_all]. pose proof (lex_token_kind pos rest Hdf) as Hk. pose proof (lex_token_advances O cfg pos rest) as Hs.
  destruct (lex_token O cfg (pos, rest)) as [d t]. unfold tkind in *. cbn [snd] in *.
  destruct t as [kind a b [pos' rest']|a b|]; try (cbn; discriminate).
  destruct Hk as [Hk1 Hk2]. rewrite (convert_nonlit kind _ Hk1 Hk2).
  destruct (kind =? K_EOF)%Z; [cbn; discriminate|]. destruct Hs as (pre & -> & _).
  assert (Hdf' : digit_free rest') by (intros c Hin; apply Hdf, in_or_app; right; exact Hin).
  specialize (IHf pos' rest' Hdf' k).
  destruct (lex_all O cfg input f (pos', rest')) as [d' [l o]]. cbn [fst snd] in *. exact IHf.
Qed.

(* the partial form of C07_lex_total for the unrepaired code: inputs on which the lexer's digit test
   never fires have no numeric literal and therefore no failing conversion *)
Theorem lex_total_partial : progress_ok cfg = true ->
  forall s, digit_free s -> no_internal (lex_outcome O cfg s).
Proof.
  intros Hp s Hdf. apply (no_internal_of O cfg Hp). exact (lex_all_digit_free s (S (length s)) 0 s Hdf).
Qed.

End Restricted.
