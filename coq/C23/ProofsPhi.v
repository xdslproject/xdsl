(* C23/ProofsPhi.v -- block arguments vs phi nodes on the CFG kernel of C23/Model.v.

   Source machine (`run_ba`): blocks with arguments; a branch evaluates its operands in the current state and
   assigns them simultaneously to the arguments of the destination block.
   Target machine (`run_phi`): the same blocks and terminators without operands, plus the phi table that
   `k_build` (= the add_incoming calls of _convert_br / _convert_condbr, folded over the blocks in conversion
   order) constructs; entering block d from predecessor p evaluates every phi of d by LLVM's rule: the
   incoming entries labelled p -- if they do not all carry the same value the IR is invalid (LLVM's verifier
   rejects `PHI node has multiple entries for the same basic block with different incoming values`), modelled
   as getting stuck.
   States, operand evaluation, simultaneous assignment and the effect of a block's non-terminator operations are
   abstract (Section variables, no law needed): both machines perform the same assignments with the same values,
   so the theorem is an EQUALITY of outcomes for every CFG, entry state, path and fuel. *)
From Coq Require Import ZArith Bool List String Lia.
From XV Require Import Gen.C23_tables C23.Model.
Import ListNotations.
Local Open Scope list_scope.
Local Open Scope Z_scope.

Definition kopd_dflt : kopd := KO (IVar 0).
Definition kdflt : kblock := mkKB [] KStop.

Lemma iopd_eqb_refl x : iopd_eqb x x = true.
Proof. destruct x; cbn; rewrite ?Z.eqb_refl; reflexivity. Qed.
Lemma kopd_eqb_refl x : kopd_eqb x x = true.
Proof. destruct x; cbn; rewrite ?iopd_eqb_refl; reflexivity. Qed.

Lemma forallb_const (o : kopd) (r : list incoming) : Forall (fun e => fst e = o) r ->
  forallb (fun e => kopd_eqb (fst e) o) r = true.
Proof. induction 1 as [|x r Hx _ IH]; [reflexivity|]. cbn. rewrite Hx, kopd_eqb_refl. exact IH. Qed.

Lemma pt_add_get pt b k inc pt' : pt_add pt b k inc = Some pt' ->
  forall b' k', pt_get pt' b' k' = pt_get pt b' k' ++ if (b' =? b) && (k' =? k) then [inc] else [].
Proof.
  revert pt'. induction pt as [|[[b0 k0] l] r IH]; intros pt' Hadd b' k'; cbn [pt_add] in Hadd; [discriminate|].
  unfold pt_get in *. destruct ((b =? b0) && (k =? k0)) eqn:E.
  - inversion Hadd; subst pt'; clear Hadd. cbn [find fst snd].
    apply andb_prop in E as [E1 E2]. apply Z.eqb_eq in E1, E2. subst b0 k0.
    destruct ((b' =? b) && (k' =? k)); [reflexivity | rewrite app_nil_r; reflexivity].
  - destruct (pt_add r b k inc) as [r'|] eqn:Er; [|discriminate].
    inversion Hadd; subst pt'; clear Hadd. cbn [find fst snd].
    destruct ((b' =? b0) && (k' =? k0)) eqn:E0; [|apply (IH r' eq_refl)].
    apply andb_prop in E0 as [A1 A2]. apply Z.eqb_eq in A1, A2. subst b' k'. rewrite (Z.eqb_sym b0), (Z.eqb_sym k0), E, app_nil_r. reflexivity.
Qed.

(* the incomings `add_incomings pt d k0 n vals cur` appends to phi (b, k) *)
Fixpoint added (d k0 : Z) (n : nat) (vals : list kopd) (cur b k : Z) : list incoming :=
  match n, vals with
  | S n', v :: r => (if (b =? d) && (k =? k0) then [(v, cur)] else []) ++ added d (k0 + 1) n' r cur b k
  | _, _ => []
  end.

Lemma add_incomings_get n : forall pt d k0 vals cur pt',
  add_incomings pt d k0 n vals cur = Ok pt' ->
  forall b k, pt_get pt' b k = pt_get pt b k ++ added d k0 n vals cur b k.
Proof.
  induction n as [|n IH]; intros pt d k0 [|v r] cur pt' Hadd b k; cbn [add_incomings added] in *;
    try (inversion Hadd; subst; rewrite app_nil_r; reflexivity).
  destruct (pt_add pt d k0 (v, cur)) as [pt1|] eqn:Ea; [|discriminate].
  rewrite (IH _ _ _ _ _ _ Hadd b k), (pt_add_get _ _ _ _ _ Ea b k), app_assoc. reflexivity.
Qed.

Lemma added_label d n cur b k e : forall k0 vals, In e (added d k0 n vals cur b k) -> snd e = cur.
Proof.
  induction n as [|n IH]; intros k0 [|v r]; cbn [added]; try (intros []).
  intros H. apply in_app_or in H as [H | H]; [|exact (IH _ _ H)].
  destruct (_ && _); [destruct H as [<- | []]; reflexivity | destruct H].
Qed.
Lemma added_miss d n cur b k : forall k0 vals, b <> d \/ k < k0 -> added d k0 n vals cur b k = [].
Proof.
  induction n as [|n IH]; intros k0 [|v r] H; cbn [added]; try reflexivity.
  rewrite IH by lia. destruct (Z.eqb_spec b d), (Z.eqb_spec k k0); try reflexivity; lia.
Qed.
Lemma added_hit_from d n cur : forall vals k0 k, (k < Nat.min n (List.length vals))%nat ->
  added d k0 n vals cur d (k0 + Z.of_nat k) = [(nth k vals kopd_dflt, cur)].
Proof.
  induction n as [|n IH]; intros [|v r] k0 k Hk; cbn [Nat.min List.length] in Hk; try lia. cbn [added].
  rewrite Z.eqb_refl. destruct k as [|k]; cbn [andb nth].
  - rewrite Z.add_0_r, Z.eqb_refl, added_miss by lia. reflexivity.
  - destruct (Z.eqb_spec (k0 + Z.of_nat (S k)) k0); [lia|].
    replace (k0 + Z.of_nat (S k)) with (k0 + 1 + Z.of_nat k) by lia. apply IH. lia.
Qed.
Lemma added_hit d n vals cur k : (k < Nat.min n (List.length vals))%nat ->
  added d 0 n vals cur d (Z.of_nat k) = [(nth k vals kopd_dflt, cur)].
Proof. apply (added_hit_from d n cur vals 0). Qed.

Definition edge_incs (fixed : bool) (f : kfunc) (cur : Z) (t : kterm) (b k : Z) : list incoming :=
  match t with
  | KRet _ | KStop => []
  | KBr d args => added d 0 (k_nargs f d) (map KO args) cur b k
  | KCondBr c tb targs eb eargs =>
      if fixed && (tb =? eb) then
        let os := map (fun p => k_sel c (fst p) (snd p)) (combine targs eargs) in
        added tb 0 (k_nargs f tb) os cur b k ++ added tb 0 (k_nargs f tb) os cur b k
      else added tb 0 (k_nargs f tb) (map KO targs) cur b k ++ added eb 0 (k_nargs f eb) (map KO eargs) cur b k
  end.

Lemma k_term_phis_get fixed f pt cur t pt' : k_term_phis fixed f pt cur t = Ok pt' ->
  forall b k, pt_get pt' b k = pt_get pt b k ++ edge_incs fixed f cur t b k.
Proof.
  intros Ht b k. destruct t as [v|d args|c tb targs eb eargs|]; cbn [k_term_phis edge_incs] in *.
  - inversion Ht; subst; rewrite app_nil_r; reflexivity.
  - apply (add_incomings_get _ _ _ _ _ _ _ Ht).
  - destruct (fixed && (tb =? eb)); destruct (add_incomings pt tb 0 _ _ cur) as [pt1|] eqn:E1; try discriminate;
      cbn [bind] in Ht;
      rewrite (add_incomings_get _ _ _ _ _ _ _ Ht), (add_incomings_get _ _ _ _ _ _ _ E1), app_assoc; reflexivity.
  - inversion Ht; subst; rewrite app_nil_r; reflexivity.
Qed.

Lemma pt_get_ext pt ext b k : (forall e, In e ext -> snd e = []) -> pt_get (pt ++ ext) b k = pt_get pt b k.
Proof.
  intros He. unfold pt_get. induction pt as [|e r IH]; cbn [app find].
  - induction ext as [|x xs IHx]; [reflexivity|]. cbn [find].
    destruct ((b =? fst (fst x)) && (k =? snd (fst x))).
    + apply He. left; reflexivity.
    + apply IHx. intros e Hin; apply He; right; exact Hin.
  - destruct ((b =? fst (fst e)) && (k =? snd (fst e))); [reflexivity | exact IH].
Qed.
Lemma k_init_get bs : forall i pt b k, pt_get (k_init i bs pt) b k = pt_get pt b k.
Proof.
  induction bs as [|x r IH]; intros i pt b k; cbn [k_init]; [reflexivity|].
  rewrite IH. destruct (i =? 0); [reflexivity|].
  apply pt_get_ext. intros e Hin. apply in_map_iff in Hin as [j [<- _]]. reflexivity.
Qed.

Lemma k_walk_get fixed f order : forall pt pt', k_walk fixed f order pt = Ok pt' ->
  forall b k, pt_get pt' b k = pt_get pt b k ++
    flat_map (fun i => edge_incs fixed f (Z.of_nat i) (k_term (nth i f kdflt)) b k) order.
Proof.
  induction order as [|i r IH]; intros pt pt' Hw b k; cbn [k_walk flat_map] in *.
  - inversion Hw; subst; rewrite app_nil_r; reflexivity.
  - destruct (nth_error f i) as [bl|] eqn:En; [|discriminate].
    destruct (k_term_phis fixed f pt (Z.of_nat i) (k_term bl)) as [pt1|] eqn:Et; [|discriminate]. cbn [bind] in Hw.
    rewrite (IH _ _ Hw b k), (k_term_phis_get _ _ _ _ _ _ Et b k), app_assoc.
    rewrite (nth_error_nth _ _ kdflt En). reflexivity.
Qed.

Theorem k_build_get fixed f order pt : k_build fixed f order = Ok pt ->
  forall b k, pt_get pt b k =
    flat_map (fun i => edge_incs fixed f (Z.of_nat i) (k_term (nth i f kdflt)) b k) order.
Proof.
  intros Hb b k. unfold k_build in Hb. rewrite (k_walk_get _ _ _ _ _ Hb b k), k_init_get. reflexivity.
Qed.

Lemma edge_incs_label fixed f cur t b k e : In e (edge_incs fixed f cur t b k) -> snd e = cur.
Proof.
  destruct t; cbn [edge_incs]; try (intros []).
  - apply added_label.
  - destruct (fixed && (t =? e0)); intros Hin; apply in_app_or in Hin as [Hin | Hin]; eapply added_label; exact Hin.
Qed.

Lemma filter_label_all (l : list incoming) p : (forall e, In e l -> snd e = p) ->
  filter (fun e => snd e =? p) l = l.
Proof.
  induction l as [|x r IH]; intros Hl; [reflexivity|]. cbn [filter].
  rewrite (Hl x (or_introl eq_refl)), Z.eqb_refl. f_equal. apply IH. intros e He; apply Hl; right; exact He.
Qed.
Lemma filter_label_none (l : list incoming) p q : q <> p -> (forall e, In e l -> snd e = q) ->
  filter (fun e => snd e =? p) l = [].
Proof.
  intros Hq. induction l as [|x r IH]; intros Hl; [reflexivity|]. cbn [filter].
  rewrite (Hl x (or_introl eq_refl)). destruct (Z.eqb_spec q p); [contradiction|].
  apply IH. intros e He; apply Hl; right; exact He.
Qed.
Lemma filter_flat_map_unique (g : nat -> list incoming) order p :
  (forall i e, In e (g i) -> snd e = Z.of_nat i) -> NoDup order -> In p order ->
  filter (fun e => snd e =? Z.of_nat p) (flat_map g order) = g p.
Proof.
  intros Hg. induction order as [|i r IH]; intros Hnd Hin; [destruct Hin|].
  cbn [flat_map]. rewrite filter_app. inversion Hnd as [|? ? Hni Hnd']; subst.
  destruct Hin as [-> | Hin].
  - rewrite filter_label_all by (apply Hg).
    assert (E : filter (fun e => snd e =? Z.of_nat p) (flat_map g r) = []).
    { clear IH Hnd Hnd'. induction r as [|j r IHr]; [reflexivity|]. cbn [flat_map]. rewrite filter_app.
      rewrite (filter_label_none _ _ (Z.of_nat j)); [|intros E; apply Nat2Z.inj in E; subst; apply Hni; left; reflexivity|apply Hg].
      apply IHr. intros Hc; apply Hni; right; exact Hc. }
    rewrite <- (app_nil_r (g p)) at 2. f_equal. exact E.
  - rewrite (filter_label_none _ _ (Z.of_nat i)); [|intros E; apply Nat2Z.inj in E; subst; contradiction|apply Hg].
    apply IH; assumption.
Qed.

Lemma nth_map_sel c (ta ea : list iopd) k : List.length ea = List.length ta -> (k < List.length ta)%nat ->
  nth k (map (fun p => k_sel c (fst p) (snd p)) (combine ta ea)) kopd_dflt =
  k_sel c (nth k ta (IVar 0)) (nth k ea (IVar 0)).
Proof.
  intros Hl Hk.
  rewrite (nth_indep _ kopd_dflt ((fun p => k_sel c (fst p) (snd p)) (IVar 0, IVar 0)))
    by (rewrite map_length, combine_length; lia).
  rewrite (map_nth (fun p => k_sel c (fst p) (snd p))). rewrite combine_nth by (symmetry; exact Hl). reflexivity.
Qed.
Lemma iopd_eqb_true x y : iopd_eqb x y = true -> x = y.
Proof.
  destruct x, y; cbn; try discriminate.
  - intros H; apply Z.eqb_eq in H; subst; reflexivity.
  - intros H; apply andb_prop in H as [H1 H2]. apply Z.eqb_eq in H1, H2. subst; reflexivity.
Qed.

Inductive outcome := ORet (v : Z) | OHalt | OStuck | OFuel.

Section Kernel.
  Variable St : Type.
  Variable eval : St -> iopd -> option Z.            (* value of an llvmlite operand in a state *)
  Variable assign : list (Z * Z) -> St -> St.        (* simultaneous assignment  id := value *)
  Variable body : nat -> St -> option St.            (* the non-terminator operations of block i *)

  Fixpoint opt_map {A B} (g : A -> option B) (l : list A) : option (list B) :=
    match l with
    | [] => Some []
    | x :: r => match g x, opt_map g r with Some v, Some vs => Some (v :: vs) | _, _ => None end
    end.
  Definition evals (st : St) (l : list iopd) : option (list Z) := opt_map (eval st) l.

  Definition enter (f : kfunc) (d : Z) (vals : list Z) (st : St) : St :=
    assign (combine (k_args (nth (Z.to_nat d) f kdflt)) vals) st.

  Fixpoint run_ba (f : kfunc) (fuel : nat) (cur : nat) (st : St) : outcome :=
    match fuel with
    | O => OFuel
    | S n =>
      match nth_error f cur with
      | None => OStuck
      | Some b =>
        match body cur st with
        | None => OStuck
        | Some st1 =>
          match k_term b with
          | KRet v => match eval st1 v with Some x => ORet x | None => OStuck end
          | KStop => OHalt
          | KBr d args =>
              match evals st1 args with
              | Some vs => run_ba f n (Z.to_nat d) (enter f d vs st1)
              | None => OStuck
              end
          | KCondBr c tb targs eb eargs =>
              match eval st1 c with
              | None => OStuck
              | Some cv =>
                  let d := if Z.odd cv then tb else eb in
                  match evals st1 (if Z.odd cv then targs else eargs) with
                  | Some vs => run_ba f n (Z.to_nat d) (enter f d vs st1)
                  | None => OStuck
                  end
              end
          end
        end
      end
    end.

  Definition eval_k (st : St) (o : kopd) : option Z :=
    match o with
    | KO x => eval st x
    | KSel c a b => match eval st c with Some cv => if Z.odd cv then eval st a else eval st b | None => None end
    end.
  Definition phi_eval (incs : list incoming) (pred : Z) (st : St) : option Z :=
    match filter (fun e => snd e =? pred) incs with
    | [] => None                                                    (* no entry for the predecessor *)
    | (o, _) :: r => if forallb (fun e => kopd_eqb (fst e) o) r then eval_k st o else None
    end.
  Definition phi_vals (f : kfunc) (pt : phitab) (d pred : Z) (st : St) : option (list Z) :=
    opt_map (fun k => phi_eval (pt_get pt d (Z.of_nat k)) pred st) (seq 0 (k_nargs f d)).

  Fixpoint run_phi (f : kfunc) (pt : phitab) (fuel : nat) (cur : nat) (st : St) : outcome :=
    match fuel with
    | O => OFuel
    | S n =>
      match nth_error f cur with
      | None => OStuck
      | Some b =>
        match body cur st with
        | None => OStuck
        | Some st1 =>
          match k_term b with
          | KRet v => match eval st1 v with Some x => ORet x | None => OStuck end
          | KStop => OHalt
          | KBr d _ =>
              match phi_vals f pt d (Z.of_nat cur) st1 with
              | Some vs => run_phi f pt n (Z.to_nat d) (enter f d vs st1)
              | None => OStuck
              end
          | KCondBr c tb _ eb _ =>
              match eval st1 c with
              | None => OStuck
              | Some cv =>
                  let d := if Z.odd cv then tb else eb in
                  match phi_vals f pt d (Z.of_nat cur) st1 with
                  | Some vs => run_phi f pt n (Z.to_nat d) (enter f d vs st1)
                  | None => OStuck
                  end
              end
          end
        end
      end
    end.

  Definition edge_ok (f : kfunc) (d : Z) (args : list iopd) : Prop :=
    0 < d /\ (Z.to_nat d < List.length f)%nat /\ List.length args = k_nargs f d.
  Definition term_ok (f : kfunc) (t : kterm) : Prop :=
    match t with
    | KBr d args => edge_ok f d args
    | KCondBr _ tb targs eb eargs => edge_ok f tb targs /\ edge_ok f eb eargs
    | _ => True
    end.
  Definition wf (f : kfunc) : Prop := forall b, In b f -> term_ok f (k_term b).
  (* a cond_br that names one block twice passes the same operands on both edges *)
  Definition no_conflict (f : kfunc) : Prop :=
    forall b c tb targs eb eargs, In b f -> k_term b = KCondBr c tb targs eb eargs -> tb = eb -> targs = eargs.

  Lemma opt_map_ext {A B} (g h : A -> option B) l : (forall x, In x l -> g x = h x) -> opt_map g l = opt_map h l.
  Proof.
    induction l as [|x r IH]; intros He; [reflexivity|]. cbn [opt_map].
    rewrite (He x (or_introl eq_refl)), IH; [reflexivity|]. intros y Hy; apply He; right; exact Hy.
  Qed.
  Lemma opt_map_map {A B C} (g : B -> option C) (h : A -> B) l : opt_map g (map h l) = opt_map (fun x => g (h x)) l.
  Proof. induction l as [|x r IH]; [reflexivity|]. cbn [map opt_map]. rewrite IH. reflexivity. Qed.
  Lemma opt_map_nth {A B} (g : A -> option B) (l : list A) (d : A) :
    opt_map (fun k => g (nth k l d)) (seq 0 (List.length l)) = opt_map g l.
  Proof.
    induction l as [|x r IH]; [reflexivity|]. cbn [List.length seq opt_map nth].
    rewrite <- seq_shift, opt_map_map. cbn [nth]. rewrite IH. reflexivity.
  Qed.

  Definition edges_to (f : kfunc) (d : Z) (i : nat) : list Z :=
    match k_term (nth i f kdflt) with
    | KBr d' _ => if d' =? d then [Z.of_nat i] else []
    | KCondBr _ tb _ eb _ => (if tb =? d then [Z.of_nat i] else []) ++ (if eb =? d then [Z.of_nat i] else [])
    | _ => []
    end.
  Lemma added_snd d' n vals cur d (k : nat) : (d' = d -> (k < Nat.min n (List.length vals))%nat) ->
    map snd (added d' 0 n vals cur d (Z.of_nat k)) = if d' =? d then [cur] else [].
  Proof.
    intros Hk. destruct (Z.eqb_spec d' d) as [-> | Ne]; [rewrite added_hit by auto | rewrite added_miss by auto]; reflexivity.
  Qed.
  Lemma edges_map_snd fixed f d (k : nat) order :
    wf f -> (forall i, In i order -> (i < List.length f)%nat) -> (k < k_nargs f d)%nat ->
    map snd (flat_map (fun i => edge_incs fixed f (Z.of_nat i) (k_term (nth i f kdflt)) d (Z.of_nat k)) order) =
    flat_map (edges_to f d) order.
  Proof.
    intros Hwf Hin Hk. induction order as [|i r IHo]; [reflexivity|]. cbn [flat_map]. rewrite map_app.
    f_equal; [|apply IHo; intros j Hj; apply Hin; right; exact Hj].
    assert (Hi : (i < List.length f)%nat) by (apply Hin; left; reflexivity).
    pose proof (Hwf (nth i f kdflt) (nth_In _ _ Hi)) as Hok. unfold edges_to.
    destruct (k_term (nth i f kdflt)) as [v|d' args|c tb targs eb eargs|]; cbn [edge_incs map]; try reflexivity.
    - destruct Hok as (_ & _ & Hlen). apply added_snd. intros ->. rewrite map_length, Hlen, Nat.min_id. exact Hk.
    - destruct Hok as ((_ & _ & Htl) & (_ & _ & Hel)).
      destruct (fixed && (tb =? eb)) eqn:Ef; rewrite map_app.
      + apply andb_prop in Ef as [_ Ee]. apply Z.eqb_eq in Ee. subst eb.
        rewrite added_snd by (intros ->; rewrite map_length, combine_length, Htl, Hel, !Nat.min_id; exact Hk).
        reflexivity.
      + rewrite !added_snd by (intros ->; rewrite map_length, ?Htl, ?Hel, Nat.min_id; exact Hk). reflexivity.
  Qed.

  Section Built.
    Variable fixed : bool.
    Variable f : kfunc.
    Variable order : list nat.
    Variable pt : phitab.
    Hypothesis Hbuild : k_build fixed f order = Ok pt.
    Hypothesis Hwf : wf f.
    Hypothesis Hnc : fixed = false -> no_conflict f.
    Hypothesis Hnd : NoDup order.
    Hypothesis Hall : forall i, (i < List.length f)%nat -> In i order.

    Lemma incs_from p b (k : nat) : (p < List.length f)%nat ->
      filter (fun e => snd e =? Z.of_nat p) (pt_get pt b (Z.of_nat k)) =
      edge_incs fixed f (Z.of_nat p) (k_term (nth p f kdflt)) b (Z.of_nat k).
    Proof.
      intros Hp. rewrite (k_build_get _ _ _ _ Hbuild).
      apply (filter_flat_map_unique
               (fun i => edge_incs fixed f (Z.of_nat i) (k_term (nth i f kdflt)) b (Z.of_nat k))).
      - intros i e He. eapply edge_incs_label; exact He.
      - exact Hnd.
      - apply Hall; exact Hp.
    Qed.

    (* entering d from p: if every phi of d has, under label p, entries that all carry one operand whose value is that
       of the k-th argument, the phis deliver the arguments *)
    Lemma phi_vals_edge p bl d args st : nth_error f p = Some bl -> List.length args = k_nargs f d ->
      (forall k, (k < k_nargs f d)%nat -> exists o r,
          edge_incs fixed f (Z.of_nat p) (k_term bl) d (Z.of_nat k) = (o, Z.of_nat p) :: r /\
          Forall (fun e => fst e = o) r /\ eval_k st o = eval st (nth k args (IVar 0))) ->
      phi_vals f pt d (Z.of_nat p) st = evals st args.
    Proof.
      intros Hn Hlen Hinc.
      assert (Hp : (p < List.length f)%nat) by (apply nth_error_Some; rewrite Hn; discriminate).
      unfold phi_vals, evals. rewrite <- Hlen, <- (opt_map_nth (eval st) args (IVar 0)).
      apply opt_map_ext. intros k Hk. apply in_seq in Hk. destruct (Hinc k) as (o & r & Hi & Hr & He); [lia|].
      unfold phi_eval. rewrite (incs_from p d k Hp), (nth_error_nth _ _ kdflt Hn), Hi, (forallb_const o r Hr). exact He.
    Qed.

    Lemma transfer_br p bl d args st : nth_error f p = Some bl -> k_term bl = KBr d args ->
      phi_vals f pt d (Z.of_nat p) st = evals st args.
    Proof.
      intros Hn Ht.
      pose proof (Hwf bl (nth_error_In _ _ Hn)) as Hok. rewrite Ht in Hok. destruct Hok as (_ & _ & Hlen).
      apply (phi_vals_edge p bl d args st Hn Hlen). intros k Hk. rewrite Ht. cbn [edge_incs].
      exists (KO (nth k args (IVar 0))), [].
      rewrite added_hit by (rewrite map_length, Hlen, Nat.min_id; exact Hk).
      change kopd_dflt with (KO (IVar 0)). rewrite map_nth. auto.
    Qed.

    Lemma transfer_condbr p bl c tb targs eb eargs st cv :
      nth_error f p = Some bl -> k_term bl = KCondBr c tb targs eb eargs -> eval st c = Some cv ->
      phi_vals f pt (if Z.odd cv then tb else eb) (Z.of_nat p) st =
      evals st (if Z.odd cv then targs else eargs).
    Proof.
      intros Hn Ht Hc.
      pose proof (Hwf bl (nth_error_In _ _ Hn)) as Hok. rewrite Ht in Hok.
      destruct Hok as ((_ & _ & Htlen) & (_ & _ & Helen)).
      set (d := if Z.odd cv then tb else eb). set (args := if Z.odd cv then targs else eargs).
      assert (Hlen : List.length args = k_nargs f d) by (subst d args; destruct (Z.odd cv); assumption).
      apply (phi_vals_edge p bl d args st Hn Hlen). intros k Hk. rewrite Ht. cbn [edge_incs].
      destruct (Z.eqb_spec tb eb) as [Eq | Ne].
      - (* both edges lead to the same block *)
        subst eb. assert (Ed : d = tb) by (subst d; destruct (Z.odd cv); reflexivity). rewrite Ed in *.
        destruct fixed eqn:Ef; cbn [andb].
        + (* repaired code: the same select twice *)
          assert (Hl2 : List.length eargs = List.length targs) by lia.
          exists (k_sel c (nth k targs (IVar 0)) (nth k eargs (IVar 0))), [(k_sel c (nth k targs (IVar 0)) (nth k eargs (IVar 0)), Z.of_nat p)].
          rewrite !added_hit by (rewrite map_length, combine_length, Hl2, Nat.min_id, <- Htlen, Nat.min_id; lia).
          rewrite nth_map_sel by lia. split; [reflexivity|]. split; [repeat constructor|].
          unfold k_sel. destruct (iopd_eqb (nth k targs (IVar 0)) (nth k eargs (IVar 0))) eqn:Ek; cbn [eval_k].
          * apply iopd_eqb_true in Ek. subst args; destruct (Z.odd cv); [reflexivity | rewrite Ek; reflexivity].
          * rewrite Hc. subst args; destruct (Z.odd cv); reflexivity.
        + (* unrepaired code: two entries, equal because the operands are *)
          assert (Eargs : targs = eargs) by (eapply (Hnc eq_refl); [eapply nth_error_In; exact Hn | exact Ht | reflexivity]).
          subst eargs. assert (Ea : args = targs) by (subst args; destruct (Z.odd cv); reflexivity). rewrite Ea in *.
          exists (KO (nth k targs (IVar 0))), [(KO (nth k targs (IVar 0)), Z.of_nat p)].
          rewrite !added_hit by (rewrite map_length, <- Htlen, Nat.min_id; lia).
          change kopd_dflt with (KO (IVar 0)). rewrite map_nth. split; [reflexivity|]. split; [repeat constructor | reflexivity].
      - (* two different blocks: exactly one entry *)
        rewrite andb_false_r. exists (KO (nth k args (IVar 0))), []. subst d args. destruct (Z.odd cv).
        + rewrite added_hit by (rewrite map_length, <- Htlen, Nat.min_id; lia).
          rewrite added_miss by auto. change kopd_dflt with (KO (IVar 0)). rewrite map_nth. auto.
        + rewrite (added_miss tb) by auto.
          rewrite added_hit by (rewrite map_length, <- Helen, Nat.min_id; lia).
          change kopd_dflt with (KO (IVar 0)). rewrite map_nth. auto.
    Qed.

    Theorem phi_block_args : forall fuel cur st, run_phi f pt fuel cur st = run_ba f fuel cur st.
    Proof.
      induction fuel as [|n IH]; intros cur st; [reflexivity|]. cbn [run_phi run_ba].
      destruct (nth_error f cur) as [bl|] eqn:Hn; [|reflexivity].
      destruct (body cur st) as [st1|]; [|reflexivity].
      destruct (k_term bl) as [v|d args|c tb targs eb eargs|] eqn:Ht; try reflexivity.
      - rewrite (transfer_br cur bl d args st1 Hn Ht). destruct (evals st1 args); [apply IH | reflexivity].
      - destruct (eval st1 c) as [cv|] eqn:Hc; [|reflexivity]. cbv zeta.
        rewrite (transfer_condbr cur bl c tb targs eb eargs st1 cv Hn Ht Hc).
        destruct (evals st1 (if Z.odd cv then targs else eargs)); [apply IH | reflexivity].
    Qed.

    (* LLVM's structural rule: phi (d, k) has exactly one entry per CFG edge into d, labelled with its source *)
    Theorem phi_one_entry_per_edge : forall d (k : nat), (k < k_nargs f d)%nat ->
      map snd (pt_get pt d (Z.of_nat k)) = flat_map (edges_to f d) order.
    Proof.
      intros d k Hk. rewrite (k_build_get _ _ _ _ Hbuild).
      apply edges_map_snd; [exact Hwf | | exact Hk].
      unfold k_build in Hbuild. revert Hbuild. generalize (k_init 0 f []). clear.
      induction order as [|j r IHr]; intros p0 Hb i Hi; [destruct Hi|]. cbn [k_walk] in Hb.
      destruct (nth_error f j) as [bj|] eqn:En; [|discriminate].
      destruct (k_term_phis fixed f p0 (Z.of_nat j) (k_term bj)) as [p1|]; [|discriminate]. cbn [bind] in Hb.
      destruct Hi as [<- | Hi]; [apply nth_error_Some; rewrite En; discriminate | eapply IHr; eassumption].
    Qed.
  End Built.
End Kernel.

(* ---------- a concrete instance: environments as association lists, empty block bodies ---------- *)
Definition cenv := list (Z * Z).
Fixpoint env_get (e : cenv) (v : Z) : option Z :=
  match e with [] => None | (k, x) :: r => if k =? v then Some x else env_get r v end.
Definition c_eval (e : cenv) (o : iopd) : option Z :=
  match o with IVar v => env_get e v | IConst _ c => Some c end.
Definition c_assign (l : list (Z * Z)) (e : cenv) : cenv := l ++ e.
Definition c_body (_ : nat) (e : cenv) : option cenv := Some e.
Definition c_run_ba := run_ba cenv c_eval c_assign c_body.
Definition c_run_phi := run_phi cenv c_eval c_assign c_body.

(* entry(%10, %11, %12): cond_br %12, ^1(%10), ^1(%11)   ^1(%20): ret %20 *)
Definition multi_edge : kfunc :=
  [ mkKB [10; 11; 12] (KCondBr (IVar 12) 1 [IVar 10] 1 [IVar 11]); mkKB [20] (KRet (IVar 20)) ].
(* the same with equal operands on both edges *)
Definition multi_edge_same : kfunc :=
  [ mkKB [10; 11; 12] (KCondBr (IVar 12) 1 [IVar 10] 1 [IVar 10]); mkKB [20] (KRet (IVar 20)) ].

(* the unrepaired construction makes an invalid phi on which the target is stuck while the source returns 5 *)
Theorem phi_multi_edge_refuted :
  exists f pt st, k_build false f (seq 0 (List.length f)) = Ok pt /\ wf f /\
    c_run_ba f 3 0 st = ORet 5 /\ c_run_phi f pt 3 0 st = OStuck.
Proof.
  exists multi_edge.
  eexists. exists [(10, 5); (11, 7); (12, 1)].
  split; [vm_compute; reflexivity|]. split; [|split; vm_compute; reflexivity].
  intros b Hb. cbn in Hb. destruct Hb as [<- | [<- | []]]; cbv; repeat split; try reflexivity; repeat constructor.
Qed.
(* the repaired construction (select) handles it *)
Example phi_multi_edge_fixed :
  exists pt, k_build true multi_edge (seq 0 2) = Ok pt /\
    c_run_phi multi_edge pt 3 0 [(10, 5); (11, 7); (12, 1)] = ORet 5 /\
    c_run_phi multi_edge pt 3 0 [(10, 5); (11, 7); (12, 0)] = ORet 7.
Proof. eexists. split; [vm_compute; reflexivity|]. split; vm_compute; reflexivity. Qed.
(* the hypothesis of the partial theorem is satisfiable on a CFG with a genuine double edge *)
Example no_conflict_satisfiable : wf multi_edge_same /\ no_conflict multi_edge_same /\
  exists pt, k_build false multi_edge_same (seq 0 2) = Ok pt /\
             c_run_phi multi_edge_same pt 3 0 [(10, 5); (11, 7); (12, 1)] = ORet 5.
Proof.
  split; [|split].
  - intros b Hb. cbn in Hb. destruct Hb as [<- | [<- | []]]; cbv; repeat split; try reflexivity; repeat constructor.
  - intros b c tb ta eb ea Hb Ht _. cbn in Hb. destruct Hb as [<- | [<- | []]]; cbn in Ht; inversion Ht; reflexivity.
  - eexists. split; vm_compute; reflexivity.
Qed.
