(* C04/ProofsWit.v -- witnesses: the defects of the pinned tree (refutations of the unconditional
   statements), their absence under the repaired configuration, satisfiability of the hypotheses, and the
   bridge from "hints the API stores" to the hypothesis of the theorems for the repaired configuration. *)
From Coq Require Import ZArith List Bool Arith Lia.
From XV Require Import C04.Model C04.ProofsStr C04.ProofsGhost C04.ProofsPrint C04.ProofsParse C04.ProofsRound C04.ProofsTree.
Import ListNotations.
Local Open Scope Z_scope.

Definition mk (nm : Z) (res args : list (Z * hint)) (succs : list Z) (regs : list (list (block (Z * hint) Z (Z * hint)))) : skel :=
  Op nm res args succs [] regs [] [] [].
Definition modl (ops : list skel) : skel := mk 7 [] [] [] [[Bk (-1, None) [] ops]].
Definition s_a : str := [97]. Definition s_a_1_2 : str := [97; 95; 49; 95; 50]. Definition s_bb1 : str := [98; 98; 49].

(* hints as the name_hint setter stores them *)
Definition hint_stored (c : cfg) (h : hint) : Prop :=
  match h with None => True | Some s => exists raw, store_hint c raw = Some s end.
Definition act_stored (c : cfg) (a : sact) : Prop :=
  match a with
  | Ares (_, h) | Aarg (_, h) | Apre (_, h) | Abarg (_, h) | Aarg_post (_, h) | Ares_post (_, h) => hint_stored c h
  | Arbegin ls _ => Forall (fun l => hint_stored c (snd l)) ls
  | Alabel (_, h) _ => hint_stored c h
  | _ => True
  end.
Definition hints_stored (c : cfg) (l : list sact) : Prop := Forall (act_stored c) l.

(* with the repaired suffix rule, block-hint rule and entry-label rule, every stored hint is fine *)
Lemma stored_ok : forall c l,
  fx_strip_all c = true -> fx_block_default c = true -> fx_entry_hint c = true ->
  hints_stored c l -> hints_ok c l.
Proof.
  intros c l F1 F2 F3 H. unfold hints_ok, hints_stored in *. rewrite Forall_forall in *. intros a Ha. specialize (H a Ha).
  assert (V : forall h, hint_stored c h -> vhint_ok h).
  { intros h Hs hs E. destruct h as [s|]; [|discriminate]. destruct Hs as [raw Hr].
    destruct s as [|x t]; [discriminate|]. cbn in E. inversion E; subst.
    apply (stored_good c raw); [exact F1|exact Hr|discriminate]. }
  assert (B : forall h, hint_stored c h -> bhint_ok c h).
  { intros h Hs hs E. split; [apply (V h Hs hs E)|]. rewrite F2. discriminate. }
  destruct a as [[v h]|[v h]| |[v h]|b|ls ep|[b h] pr|[v h]| | |[v h]|[v h]]; cbn in *; auto.
  split.
  - rewrite Forall_forall in *. intros x Hx. apply B. apply H. exact Hx.
  - rewrite F3. discriminate.
Qed.

(* four witnesses of defects of the pinned tree *)
(* 1: hints a, a and name_hint = "a_1_2" (stored "a_1") on three results *)
Definition w1 (c : cfg) : skel :=
  modl [mk 2 [(1, store_hint c s_a); (2, store_hint c s_a); (3, store_hint c s_a_1_2)] [] [] []].
(* 2: third block of a region hinted bb1 *)
Definition w2 (c : cfg) : skel :=
  modl [mk 2 [] [] [] [[Bk (10, None) [] [mk 4 [] [] [11; 12] []]; Bk (11, None) [] [mk 4 [] [] [12] []];
                         Bk (12, store_hint c s_bb1) [] [mk 4 [] [] [] []]]]].
(* 4: entry block (label omitted) and second block both hinted a *)
Definition w4 (c : cfg) : skel :=
  modl [mk 2 [] [] [] [[Bk (10, store_hint c s_a) [] [mk 4 [] [] [11] []]; Bk (11, store_hint c s_a) [] [mk 4 [] [] [] []]]]].
(* 5: operand of an IsolatedFromAbove operation defined later in the module body *)
Definition w5 : skel := modl [mk 3 [] [(1, None)] [] []; mk 2 [(1, None)] [] [] []; mk 2 [(2, None)] [] [] []].

Definition printed (c : cfg) (ir : skel) : list str := names_of_acts (sched (print_names c ir)).
Definition reprinted (c : cfg) (ir : skel) : option (list str) :=
  match parse_names c (print_names c ir) with Ok ir' => Some (printed c ir') | Err _ => None end.

Lemma w1_refutes : well_scoped pinned_cfg (w1 pinned_cfg) = true /\
  printed pinned_cfg (w1 pinned_cfg) = [[97]; [97; 95; 49]; [97; 95; 49]] /\
  parse_names pinned_cfg (print_names pinned_cfg (w1 pinned_cfg)) = Err EAlreadyDefined.
Proof. vm_compute. repeat split. Qed.
Lemma w1_repaired : well_scoped repaired_cfg (w1 repaired_cfg) = true /\
  reprinted repaired_cfg (w1 repaired_cfg) = Some [[97]; [97; 95; 49]; [97; 95; 50]].
Proof. vm_compute. repeat split. Qed.

Lemma w2_refutes : well_scoped pinned_cfg (w2 pinned_cfg) = true /\
  parse_names pinned_cfg (print_names pinned_cfg (w2 pinned_cfg)) = Err ERedeclared.
Proof. vm_compute. repeat split. Qed.
Lemma w2_repaired : well_scoped repaired_cfg (w2 repaired_cfg) = true /\
  reprinted repaired_cfg (w2 repaired_cfg) = Some (printed repaired_cfg (w2 repaired_cfg)).
Proof. vm_compute. repeat split. Qed.

Lemma w4_refutes : well_scoped pinned_cfg (w4 pinned_cfg) = true /\
  printed pinned_cfg (w4 pinned_cfg) = [[97; 95; 49]; [97; 95; 49]] /\
  reprinted pinned_cfg (w4 pinned_cfg) = Some [[97]; [97]].
Proof. vm_compute. repeat split. Qed.
Lemma w4_repaired : well_scoped repaired_cfg (w4 repaired_cfg) = true /\
  reprinted repaired_cfg (w4 repaired_cfg) = Some (printed repaired_cfg (w4 repaired_cfg)).
Proof. vm_compute. repeat split. Qed.

Lemma w5_refutes : well_scoped repaired_cfg w5 = true /\
  printed pinned_cfg w5 = [[48]; [48]; [48]] /\
  parse_names pinned_cfg (print_names pinned_cfg w5) = Err EAlreadyDefined /\ well_scoped pinned_cfg w5 = false.
Proof. vm_compute. repeat split. Qed.
Lemma w5_repaired : reprinted repaired_cfg w5 = Some [[48]; [48]; [49]].
Proof. vm_compute. reflexivity. Qed.

(* the hypotheses of C04_roundtrip hold of a non-trivial skeleton (pinned configuration): hinted values with a repeated hint, a forward reference, an isolated operation with a region, a
   multi-block region with a forward successor reference and a hinted block *)
Definition s_x : str := [120]. Definition s_then : str := [116; 104; 101; 110].
Definition demo : skel :=
  modl [mk 2 [(1, Some s_a)] [(2, Some s_a)] [] [];
        mk 2 [(2, Some s_a)] [] [] [];
        mk 3 [(3, None)] [(1, Some s_a)] []
           [[Bk (20, None) [((4, Some s_x), ABare 0)] [mk 4 [] [(4, Some s_x)] [21] []];
             Bk (21, Some s_then) [] [mk 4 [(5, Some s_x)] [] [20] []]]]].

(* a checker for the hint hypothesis *)
Definition good_hintb (h : str) : bool := valid_name h && str_eqb (strip1 h) h.
Definition vhint_okb (h : hint) : bool := match eff_hint h with Some hs => good_hintb hs | None => true end.
Definition bhint_okb (c : cfg) (h : hint) : bool :=
  match eff_hint h with Some hs => good_hintb hs && (fx_block_default c || negb (is_default hs)) | None => true end.
Definition act_hints_okb (c : cfg) (a : sact) : bool :=
  match a with
  | Ares (_, h) | Aarg (_, h) | Apre (_, h) | Abarg (_, h) | Aarg_post (_, h) | Ares_post (_, h) => vhint_okb h
  | Arbegin ls ep =>
      forallb (fun l => bhint_okb c (snd l)) ls &&
      (fx_entry_hint c || ep || match ls with l :: _ => match eff_hint (snd l) with None => true | Some _ => false end | [] => true end)
  | Alabel (_, h) _ => bhint_okb c h
  | _ => true
  end.
Definition hints_okb (c : cfg) (l : list sact) : bool := forallb (act_hints_okb c) l.

Lemma good_hintb_ok : forall h, good_hintb h = true -> good_hint h.
Proof. intros h H. apply andb_true_iff in H. destruct H as [H1 H2]. apply str_eqb_eq in H2. split; assumption. Qed.
Lemma hints_okb_ok : forall c l, hints_okb c l = true -> hints_ok c l.
Proof.
  intros c l H. unfold hints_okb in H. rewrite forallb_forall in H. unfold hints_ok. rewrite Forall_forall.
  intros a Ha. specialize (H a Ha).
  assert (V : forall h, vhint_okb h = true -> vhint_ok h).
  { intros h Hv hs E. unfold vhint_okb in Hv. rewrite E in Hv. apply good_hintb_ok. exact Hv. }
  assert (B : forall h, bhint_okb c h = true -> bhint_ok c h).
  { intros h Hv hs E. unfold bhint_okb in Hv. rewrite E in Hv. apply andb_true_iff in Hv. destruct Hv as [H1 H2].
    split; [apply good_hintb_ok; exact H1|]. intro F. rewrite F in H2. cbn in H2. apply negb_true_iff in H2. exact H2. }
  destruct a as [[v h]|[v h]| |[v h]|b|ls ep|[b h] pr|[v h]| | |[v h]|[v h]]; cbn in *; auto.
  apply andb_true_iff in H. destruct H as [H1 H2]. split.
  - rewrite forallb_forall in H1. rewrite Forall_forall. intros x Hx. apply B. apply H1. exact Hx.
  - intros F E. subst ep. rewrite F in H2. cbn in H2. destruct ls as [|l0 ls']; [exact I|].
    destruct (eff_hint (snd l0)); [discriminate|reflexivity].
Qed.

Lemma demo_hints_ok : hints_ok pinned_cfg (sched demo).
Proof. apply hints_okb_ok. vm_compute. reflexivity. Qed.
Lemma demo_ws : well_scoped pinned_cfg demo = true.
Proof. vm_compute. reflexivity. Qed.
Lemma demo_prints : printed pinned_cfg demo =
  [[97]; [97; 95; 49]; [97; 95; 49]; [48]; [97]; [98; 98; 48]; [120]; [120]; [116; 104; 101; 110];
   [116; 104; 101; 110]; [120; 95; 49]; [98; 98; 48]].
Proof. vm_compute. reflexivity. Qed.

From XV Require Import C07.Regex C04.ProofsLex Gen.C04_current.

Theorem hint_lexable : forall U rn rl s rest,
  name_check rn = true -> lexer_check rl = true ->
  outc (bt_fullmatch U rn s) = MSome [] ->
  (rest = [] \/ exists y r', rest = y :: r' /\ id_cont y = false) ->
  lexable s = true /\ outc (bt_match U rl (s ++ rest)) = MSome rest.
Proof.
  intros U rn rl s rest Hn Hl Hm Hs.
  assert (V : valid_name s = true) by (eapply name_pattern_valid; eauto).
  pose proof (valid_lexable s V) as L. split; [exact L|]. apply lexable_lexed; assumption.
Qed.

(* the lexer's identifier pattern of the current source is the one the model's `lexable` describes *)
Lemma cur_lexer_checked : lexer_check cur_r_suffix_id = true.
Proof. unfold cur_r_suffix_id. rewrite lexer_check_fast. vm_compute. reflexivity. Qed.
(* the proposed name pattern (re.ASCII) passes the check, the pinned one does not *)
Lemma rep_name_checked : name_check rep_r_name = true.
Proof. unfold rep_r_name. rewrite name_check_fast. vm_compute. reflexivity. Qed.
Lemma pin_name_unchecked : name_check pin_r_name = false.
Proof. unfold pin_r_name. rewrite name_check_fast. vm_compute. reflexivity. Qed.

(* CPython's \w and \d on str patterns (tables regenerated on every run) *)
Definition in_tbl (t : list (Z * Z)) (x : Z) : bool := existsb (in_range x) t.
Definition cpyU (n : named) (x : Z) : bool :=
  match n with
  | UWord => is_alpha x || is_digit x || (x =? 95)%Z || in_tbl tbl_uword x
  | UDigit => is_digit x || in_tbl tbl_udigit x
  | USpace => false
  end.

(* the hint "a" followed by U+00E9: accepted by the pinned pattern, not one lexer token *)
Lemma pin_name_refutes :
  outc (bt_fullmatch cpyU pin_r_name [97; 233]) = MSome [] /\ lexable [97; 233] = false /\
  outc (bt_match cpyU cur_r_suffix_id ([97; 233] ++ [32])) = MSome [233; 32].
Proof. vm_compute. repeat split. Qed.

Lemma roundtrip_repaired : forall ir,
  hints_stored repaired_cfg (sched ir) -> well_scoped repaired_cfg ir = true ->
  exists ir', parse_names repaired_cfg (print_names repaired_cfg ir) = Ok ir' /\ skel_iso repaired_cfg ir ir' /\
              print_names repaired_cfg ir' = print_names repaired_cfg ir.
Proof. intros ir H W. apply roundtrip; [apply stored_ok; auto|exact W]. Qed.

Lemma hint_lexable_repaired : forall U s rest,
  outc (bt_fullmatch U rep_r_name s) = MSome [] ->
  (rest = [] \/ exists y r', rest = y :: r' /\ id_cont y = false) ->
  lexable s = true /\ outc (bt_match U cur_r_suffix_id (s ++ rest)) = MSome rest.
Proof. intros U s rest. apply hint_lexable; [exact rep_name_checked|exact cur_lexer_checked]. Qed.

Lemma names_unique_refuted : exists ir,
  hints_stored pinned_cfg (sched ir) /\ well_scoped pinned_cfg ir = true /\
  ~ NoDup (printed pinned_cfg ir) /\
  parse_names pinned_cfg (print_names pinned_cfg ir) = Err EAlreadyDefined.
Proof.
  exists (w1 pinned_cfg). destruct w1_refutes as [A [B C]]. split; [|split; [exact A|split; [|exact C]]].
  - unfold hints_stored. cbn. repeat constructor; try exact I; cbn.
    + exists s_a. reflexivity.
    + exists s_a. reflexivity.
    + exists s_a_1_2. reflexivity.
    + exists s_a. reflexivity.
    + exists s_a. reflexivity.
    + exists s_a_1_2. reflexivity.
  - rewrite B. intro N. inversion N as [|? ? N1 N2]; subst. inversion N2 as [|? ? N3 N4]; subst. apply N3. now left.
Qed.
