(* C23/ProofsLit.v -- conv_func's literal output WITH the selects the repaired cond_br materialises vs the
   block-wise translation tr_prog (whose phi table holds the abstract `KSel c a b`).

   LitOK bs T : the literal blocks are the translated bodies followed by select instructions with fresh (negative)
   result ids; terminators match; per phi and predecessor the literal entries and the kernel's entries are constant
   lists whose heads correspond (same operand, or `KSel c a b` <-> the result of a materialised `select c a b` of the
   predecessor); all other ids are non-negative.
   Theorem lit_sel_sim: whenever the abstract target machine run_tgt does not get stuck, the literal machine run_lit
   computes the same outcome from environments that agree on the non-negative ids. *)
From Coq Require Import ZArith List String Bool Lia.
From XV Require Import C15.Spec Gen.C23_tables C23.Model C23.Sem C23.ProofsTables C23.ProofsPhi C23.Whole C23.ProofsWhole.
Import ListNotations.
Local Open Scope list_scope.
Local Open Scope Z_scope.

Definition opd_nn (o : iopd) : bool := match o with IVar v => 0 <=? v | IConst _ _ => true end.
Definition instr_nn (i : iinstr) : bool :=
  match i with
  | IBin r _ _ _ a b | IIcmp r _ _ a b => (0 <=? r) && opd_nn a && opd_nn b
  | ICast r _ _ _ a _ => (0 <=? r) && opd_nn a
  | ISelect r _ c a b => (0 <=? r) && opd_nn c && opd_nn a && opd_nn b
  | _ => true
  end.
Definition Agree (el ea : cenv) : Prop := forall v, 0 <= v -> env_get el v = env_get ea v.

Lemma i_eval_agree el ea o : Agree el ea -> opd_nn o = true -> i_eval el o = i_eval ea o.
Proof. intros H Hn. destruct o as [v|t c]; [|reflexivity]. cbn in *. apply H. apply Z.leb_le; exact Hn. Qed.
Lemma fetch_agree el ea o t : Agree el ea -> opd_nn o = true -> fetch_i el o t = fetch_i ea o t.
Proof. intros H Hn. unfold fetch_i. rewrite (i_eval_agree el ea o H Hn). reflexivity. Qed.
Lemma Agree_cons el ea r z : Agree el ea -> Agree ((r, z) :: el) ((r, z) :: ea).
Proof. intros H v Hv. cbn [env_get]. destruct (r =? v); [reflexivity | apply H; exact Hv]. Qed.
Lemma Agree_neg el ea n x : n < 0 -> Agree el ea -> Agree ((n, x) :: el) ea.
Proof. intros Hn H v Hv. cbn [env_get]. destruct (Z.eqb_spec n v); [lia | apply H; exact Hv]. Qed.
Lemma Agree_app l el ea : Agree el ea -> Agree (l ++ el) (l ++ ea).
Proof. intros H. induction l as [|[k z] r IH]; [exact H|]. cbn [app]. apply Agree_cons; exact IH. Qed.

Definition step_rel (s1 s2 : step) : Prop :=
  match s1, s2 with
  | Next a, Next b => Agree a b
  | Poison, Poison => True
  | StuckS, StuckS => True
  | _, _ => False
  end.

Lemma exec_i_agree el ea i : Agree el ea -> instr_nn i = true -> step_rel (exec_i el i) (exec_i ea i).
Proof.
  intros H Hn. destruct i as [r opc fl t a b|r mn t a b|r mn t a b|r opc fl t a t2|r t c a b| | |];
    cbn [instr_nn] in Hn; cbn [exec_i]; try exact I.
  - apply andb_prop in Hn as [Hn Hb]. apply andb_prop in Hn as [_ Ha].
    rewrite (fetch_agree el ea a t H Ha), (fetch_agree el ea b t H Hb).
    destruct (llvm_bin opc); [|exact I]. destruct (flags_ok _ fl); [|exact I].
    destruct (fetch_i ea a t); [|exact I]. destruct (fetch_i ea b t); [|exact I].
    destruct (sem_i _ _ t _ _); [apply Agree_cons; exact H | exact I].
  - apply andb_prop in Hn as [Hn Hb]. apply andb_prop in Hn as [_ Ha].
    rewrite (fetch_agree el ea a t H Ha), (fetch_agree el ea b t H Hb).
    destruct (fetch_i ea a t); [|exact I]. destruct (fetch_i ea b t); [|exact I].
    destruct (sem_i_icmp mn t _ _); [apply Agree_cons; exact H | exact I].
  - apply andb_prop in Hn as [_ Ha]. rewrite (fetch_agree el ea a t H Ha).
    destruct (llvm_cast opc); [|exact I]. destruct (_ && _); [|exact I].
    destruct (fetch_i ea a t); [|exact I].
    destruct (sem_i_cast _ _ t t2 _); [apply Agree_cons; exact H | exact I].
  - apply andb_prop in Hn as [Hn Hb]. apply andb_prop in Hn as [Hn Ha]. apply andb_prop in Hn as [_ Hc].
    rewrite (i_eval_agree el ea c H Hc). destruct (i_eval ea c) as [vc|]; [|exact I].
    assert (E : i_eval el (if Z.odd vc then a else b) = i_eval ea (if Z.odd vc then a else b))
      by (destruct (Z.odd vc); apply i_eval_agree; assumption).
    rewrite E. destruct (i_eval ea _); [apply Agree_cons; exact H | exact I].
Qed.

Lemma exec_body_agree l : forall el ea, Agree el ea -> Forall (fun x => instr_nn x = true) l ->
  step_rel (exec_body_i el l) (exec_body_i ea l).
Proof.
  induction l as [|i r IH]; intros el ea H Hn; cbn [exec_body_i]; [exact H|].
  inversion Hn as [|? ? Hi Hr]; subst.
  pose proof (exec_i_agree el ea i H Hi) as G.
  destruct (exec_i el i) as [el1| |], (exec_i ea i) as [ea1| |]; cbn [step_rel] in G; try contradiction; try exact I.
  apply IH; assumption.
Qed.

Lemma exec_body_app l1 l2 e : exec_body_i e (l1 ++ l2) =
  match exec_body_i e l1 with Next e1 => exec_body_i e1 l2 | s => s end.
Proof.
  revert e. induction l1 as [|i r IH]; intros e; cbn [app exec_body_i]; [reflexivity|].
  destruct (exec_i e i); [apply IH | reflexivity | reflexivity].
Qed.

Definition sel := (Z * Z * iopd * iopd * iopd)%type.       (* (result id, type, cond, a, b) *)
Definition sel_id (s : sel) : Z := fst (fst (fst (fst s))).
Definition mk_sel (s : sel) : iinstr :=
  match s with (n, ty, c, a, b) => ISelect n ty c a b end.
Definition sel_wf (c : iopd) (s : sel) : Prop :=
  match s with (n, ty, c', a, b) => n < 0 /\ c' = c /\ opd_nn a = true /\ opd_nn b = true end.

(* executing the selects: all of them succeed when the chosen operands evaluate; the new bindings are exactly the
   chosen values; nothing non-negative changes *)
Lemma sels_exec c cv : forall (sels : list sel) el ea,
  Agree el ea -> opd_nn c = true -> i_eval ea c = Some cv ->
  Forall (sel_wf c) sels -> NoDup (map sel_id sels) ->
  (forall n ty c' a b, In (n, ty, c', a, b) sels -> exists x, i_eval ea (if Z.odd cv then a else b) = Some x) ->
  exists el', exec_body_i el (map mk_sel sels) = Next el' /\ Agree el' ea /\
    (forall n ty c' a b, In (n, ty, c', a, b) sels ->
       env_get el' n = i_eval ea (if Z.odd cv then a else b)) /\
    (forall v, ~ In v (map sel_id sels) -> env_get el' v = env_get el v).
Proof.
  induction sels as [|[[[[n ty] c'] a] b] r IH]; intros el ea H Hc Ec Hwf Hnd Hev.
  - exists el. split; [reflexivity|]. split; [exact H|]. split; [intros ? ? ? ? ? [] | reflexivity].
  - inversion Hwf as [|? ? Hw Hwr]; subst. cbn [sel_wf] in Hw. destruct Hw as (Hn & Hcc & Ha & Hb). subst c'.
    inversion Hnd as [|? ? Hni Hndr]; subst.
    cbn [map mk_sel exec_body_i exec_i].
    rewrite (i_eval_agree el ea c H Hc), Ec.
    destruct (Hev n ty c a b (or_introl eq_refl)) as [x Ex].
    assert (E : i_eval el (if Z.odd cv then a else b) = Some x).
    { rewrite <- Ex. destruct (Z.odd cv); apply i_eval_agree; assumption. }
    rewrite E.
    destruct (IH ((n, x) :: el) ea (Agree_neg el ea n x Hn H) Hc Ec Hwr Hndr
                 (fun n' ty' c'' a' b' Hin => Hev n' ty' c'' a' b' (or_intror Hin)))
      as (el' & X1 & X2 & X3 & X4).
    exists el'. split; [exact X1|]. split; [exact X2|]. split.
    + intros n' ty' c'' a' b' [Heq | Hin].
      * inversion Heq; subst. rewrite X4 by exact Hni. cbn [env_get]. rewrite Z.eqb_refl. symmetry; exact Ex.
      * apply (X3 n' ty' c'' a' b' Hin).
    + intros v Hv. cbn [map] in Hv. rewrite X4 by (intros Hc'; apply Hv; right; exact Hc').
      cbn [env_get]. destruct (Z.eqb_spec n v) as [->|]; [|reflexivity].
      exfalso; apply Hv; left; reflexivity.
Qed.

Definition inc_rel (sels : list sel) (ka kl : kopd) : Prop :=
  (exists x, ka = KO x /\ kl = KO x /\ opd_nn x = true) \/
  (exists n ty c a b, kl = KO (IVar n) /\ In (n, ty, c, a, b) sels /\ (ka = KSel c a b \/ (ka = KO a /\ a = b))).
Definition phi_rel (sels : list sel) (la ll : list incoming) : Prop :=
  match la, ll with
  | [], [] => True
  | a :: ra, l :: rl =>
      inc_rel sels (fst a) (fst l) /\ Forall (fun e => fst e = fst a) ra /\ Forall (fun e => fst e = fst l) rl
  | _, _ => False
  end.
(* what executing the selects of the predecessor established *)
Definition SelInfo (sels : list sel) (el ea : cenv) : Prop :=
  forall n ty c a b, In (n, ty, c, a, b) sels ->
    exists cv, i_eval ea c = Some cv /\ env_get el n = i_eval ea (if Z.odd cv then a else b).

Lemma phi_eval_rel sels la ll p el ea : Agree el ea -> SelInfo sels el ea ->
  phi_rel sels (filter (fun e => snd e =? p) la) (filter (fun e => snd e =? p) ll) ->
  phi_eval cenv i_eval ll p el = phi_eval cenv i_eval la p ea.
Proof.
  intros HA HS HR. unfold phi_eval.
  destruct (filter (fun e => snd e =? p) la) as [|[ka pa] ra]; destruct (filter (fun e => snd e =? p) ll) as [|[kl pl] rl];
    cbn [phi_rel] in HR; try contradiction; [reflexivity|].
  destruct HR as (HI & Ha & Hl). cbn [fst] in *.
  rewrite (forallb_const ka ra Ha), (forallb_const kl rl Hl).
  destruct HI as [(x & -> & -> & Hx) | (n & ty & c & a & b & -> & Hin & Hk)].
  - cbn [eval_k]. apply i_eval_agree; assumption.
  - destruct (HS n ty c a b Hin) as (cv & Ec & En). cbn [eval_k i_eval]. rewrite En.
    destruct Hk as [-> | [-> <-]].
    + cbn [eval_k]. rewrite Ec. destruct (Z.odd cv); reflexivity.
    + cbn [eval_k]. destruct (Z.odd cv); reflexivity.
Qed.

Lemma opt_map_some {A B} (g : A -> option B) l vs x : opt_map g l = Some vs -> In x l -> exists y, g x = Some y.
Proof.
  revert vs. induction l as [|a r IH]; intros vs H Hin; [destruct Hin|]. cbn [opt_map] in H.
  destruct (g a) as [y|] eqn:Ea; [|discriminate]. destruct (opt_map g r) as [ys|] eqn:Er; [|discriminate].
  destruct Hin as [<- | Hin]; [exists y; exact Ea | apply (IH ys eq_refl Hin)].
Qed.

Record LitOK (bs : list iblock) (T : tprog) (S : nat -> list sel) : Prop := {
  lo_len : List.length bs = List.length (t_k T);
  lo_body : forall i b, nth_error bs i = Some b -> i_body b = nth i (t_bodies T) [] ++ map mk_sel (S i);
  lo_nn : forall i, Forall (fun x => instr_nn x = true) (nth i (t_bodies T) []);
  lo_term : forall i b, nth_error bs i = Some b -> term_matchesP (k_term (nth i (t_k T) kdflt)) (i_term b);
  lo_term_nn : forall i, match k_term (nth i (t_k T) kdflt) with
                         | KRet v => opd_nn v = true | KCondBr c _ _ _ _ => opd_nn c = true | _ => True end;
  lo_sel : forall i, S i = [] \/
      exists c tb ta ea, k_term (nth i (t_k T) kdflt) = KCondBr c tb ta tb ea /\
        Forall (sel_wf c) (S i) /\ NoDup (map sel_id (S i)) /\
        forall n ty c' a b, In (n, ty, c', a, b) (S i) -> exists k, (k < k_nargs (t_k T) tb)%nat /\
          match filter (fun e => snd e =? Z.of_nat i) (pt_get (t_pt T) tb (Z.of_nat k)) with
          | (ka, _) :: r => (ka = KSel c a b \/ (ka = KO a /\ a = b)) /\ Forall (fun e => fst e = ka) r
          | [] => False
          end;
  lo_phis : forall d b, d <> O -> nth_error bs d = Some b ->
      map (fun ph => fst (fst ph)) (i_phis b) = k_args (nth d (t_k T) kdflt) /\
      forall k ph p, nth_error (i_phis b) k = Some ph -> (p < List.length bs)%nat ->
        phi_rel (S p) (filter (fun e => snd e =? Z.of_nat p) (pt_get (t_pt T) (Z.of_nat d) (Z.of_nat k)))
                      (filter (fun e => snd e =? Z.of_nat p) (snd ph)) }.

Section Lit.
  Variable bs : list iblock.
  Variable T : tprog.
  Variable S : nat -> list sel.
  Hypothesis HL : LitOK bs T S.
  Hypothesis Hwf : wf (t_k T).

  (* entering block d from block cur: the literal phis deliver what the kernel's table delivers *)
  Lemma enter_lit d cur el ea : 0 < d -> (Z.to_nat d < List.length (t_k T))%nat -> (cur < List.length bs)%nat ->
    Agree el ea -> SelInfo (S cur) el ea ->
    lit_phi_vals (nth (Z.to_nat d) bs idflt) (Z.of_nat cur) el =
      phi_vals cenv i_eval (t_k T) (t_pt T) d (Z.of_nat cur) ea /\
    forall vs, Agree (lit_enter bs d vs el) (enter cenv c_assign (t_k T) d vs ea).
  Proof.
    intros Hd Hdl Hc HA HS.
    assert (Hb : nth_error bs (Z.to_nat d) = Some (nth (Z.to_nat d) bs idflt))
      by (apply nth_error_nth'; rewrite (lo_len _ _ _ HL); exact Hdl).
    destruct (lo_phis _ _ _ HL (Z.to_nat d) _ ltac:(lia) Hb) as [Hids Hrel]. rewrite (Z2Nat.id d) in Hrel by lia.
    set (b := nth (Z.to_nat d) bs idflt) in *. split.
    - assert (Hn : k_nargs (t_k T) d = List.length (i_phis b)).
      { unfold k_nargs. rewrite (nth_error_nth' (t_k T) kdflt Hdl), <- Hids, map_length. reflexivity. }
      unfold lit_phi_vals, phi_vals. rewrite Hn.
      rewrite <- (opt_map_nth (fun ph => phi_eval cenv i_eval (snd ph) (Z.of_nat cur) el) (i_phis b) (0, 0, [])).
      apply opt_map_ext. intros k Hk. apply in_seq in Hk.
      assert (Hph : nth_error (i_phis b) k = Some (nth k (i_phis b) (0, 0, []))) by (apply nth_error_nth'; lia).
      apply (phi_eval_rel (S cur)); [exact HA | exact HS | apply (Hrel k _ cur Hph Hc)].
    - intros vs. unfold lit_enter, enter, c_assign. fold b. rewrite Hids. apply Agree_app; exact HA.
  Qed.

  Theorem lit_sel_sim : forall fuel cur el ea, Agree el ea ->
    run_tgt T fuel cur ea <> WStuck -> run_lit bs fuel cur el = run_tgt T fuel cur ea.
  Proof.
    pose proof (lo_len _ _ _ HL) as Hlen.
    induction fuel as [|n IH]; intros cur el ea HA Hns; [reflexivity|]. cbn [run_lit run_tgt] in *.
    destruct (nth_error bs cur) as [b|] eqn:Hb.
    2: { apply nth_error_None in Hb. rewrite Hlen in Hb. apply nth_error_None in Hb. rewrite Hb in *. reflexivity. }
    assert (Hc : (cur < List.length bs)%nat) by (apply nth_error_Some; rewrite Hb; discriminate).
    assert (Hck : (cur < List.length (t_k T))%nat) by (rewrite <- Hlen; exact Hc).
    rewrite (nth_error_nth' (t_k T) kdflt Hck) in *.
    rewrite (lo_body _ _ _ HL cur b Hb), exec_body_app.
    pose proof (exec_body_agree _ el ea HA (lo_nn _ _ _ HL cur)) as G.
    destruct (exec_body_i ea (nth cur (t_bodies T) [])) as [ea1| |];
      destruct (exec_body_i el (nth cur (t_bodies T) [])) as [el1| |]; cbn [step_rel] in G; try contradiction;
      try reflexivity.
    pose proof (lo_term _ _ _ HL cur b Hb) as Hterm. pose proof (lo_term_nn _ _ _ HL cur) as Hnn.
    pose proof (Hwf _ (nth_In (t_k T) kdflt Hck)) as Hok. unfold term_ok in Hok.
    destruct (lo_sel _ _ _ HL cur) as [Hs0 | (c0 & tb0 & ta0 & ea0 & Hk0 & Hswf & Hsnd & Hsused)].
    - (* no select in this block *)
      rewrite Hs0. cbn [map exec_body_i].
      assert (HS : SelInfo (S cur) el1 ea1) by (rewrite Hs0; intros ? ? ? ? ? []).
      destruct (k_term (nth cur (t_k T) kdflt)) as [v|d args|c tb ta eb ea'|];
        destruct (i_term b) as [ty v'| |d'|c' tb' eb'|]; cbn [term_matchesP] in Hterm; try contradiction; try reflexivity.
      + subst v'. rewrite (i_eval_agree el1 ea1 v G Hnn). reflexivity.
      + subst d'. destruct Hok as (H0 & Hr & _).
        destruct (enter_lit d cur el1 ea1 H0 Hr Hc G HS) as [E HE]. rewrite E.
        destruct (phi_vals cenv i_eval (t_k T) (t_pt T) d (Z.of_nat cur) ea1) as [vs|]; [|reflexivity].
        apply IH; [apply HE | exact Hns].
      + destruct Hterm as (<- & <- & <-). destruct Hok as ((H0 & Hr & _) & (H0' & Hr' & _)).
        rewrite (i_eval_agree el1 ea1 c G Hnn). destruct (i_eval ea1 c) as [cv|]; [|reflexivity]. cbv zeta in *.
        set (d := if Z.odd cv then tb else eb) in *.
        assert (Hd : 0 < d /\ (Z.to_nat d < List.length (t_k T))%nat) by (subst d; destruct (Z.odd cv); split; assumption).
        destruct (enter_lit d cur el1 ea1 (proj1 Hd) (proj2 Hd) Hc G HS) as [E HE]. rewrite E.
        destruct (phi_vals cenv i_eval (t_k T) (t_pt T) d (Z.of_nat cur) ea1) as [vs|]; [|reflexivity].
        apply IH; [apply HE | exact Hns].
    - (* the block ends in the repaired cond_br with materialised selects *)
      rewrite Hk0 in *. destruct (i_term b) as [ty v'| |d'|c' tb' eb'|]; cbn [term_matchesP] in Hterm; try contradiction.
      destruct Hterm as (<- & <- & <-). destruct Hok as ((H0 & Hr & _) & _).
      destruct (i_eval ea1 c0) as [cv|] eqn:Ec; [|contradiction Hns; reflexivity]. cbv zeta in *.
      replace (if Z.odd cv then tb0 else tb0) with tb0 in * by (destruct (Z.odd cv); reflexivity).
      destruct (phi_vals cenv i_eval (t_k T) (t_pt T) tb0 (Z.of_nat cur) ea1) as [vs|] eqn:Ev;
        [|contradiction Hns; reflexivity].
      (* every select's chosen operand evaluates, because the phi it feeds evaluated *)
      assert (Hch : forall n ty c' a b, In (n, ty, c', a, b) (S cur) ->
                      exists x, i_eval ea1 (if Z.odd cv then a else b) = Some x).
      { intros n' ty c' sa sb Hin. destruct (Hsused n' ty c' sa sb Hin) as (k & Hk & Hhead).
        unfold phi_vals in Ev.
        destruct (opt_map_some _ _ _ k Ev ltac:(apply in_seq; lia)) as [y Ey]. unfold phi_eval in Ey.
        destruct (filter (fun e => snd e =? Z.of_nat cur) (pt_get (t_pt T) tb0 (Z.of_nat k))) as [|[ka pa] r];
          [destruct Hhead|]. destruct Hhead as [Hka Hr']. rewrite (forallb_const ka r Hr') in Ey.
        destruct Hka as [-> | [-> <-]]; cbn [eval_k] in Ey.
        - rewrite Ec in Ey. exists y. destruct (Z.odd cv); exact Ey.
        - exists y. destruct (Z.odd cv); exact Ey. }
      destruct (sels_exec c0 cv (S cur) el1 ea1 G Hnn Ec Hswf Hsnd Hch) as (el2 & X1 & X2 & X3 & _).
      rewrite X1. rewrite (i_eval_agree el2 ea1 c0 X2 Hnn), Ec. cbv zeta.
      replace (if Z.odd cv then tb0 else tb0) with tb0 by (destruct (Z.odd cv); reflexivity).
      assert (HS : SelInfo (S cur) el2 ea1).
      { intros n' ty c' sa sb Hin. exists cv. split; [|apply (X3 n' ty c' sa sb Hin)].
        rewrite Forall_forall in Hswf. specialize (Hswf _ Hin). cbn [sel_wf] in Hswf. destruct Hswf as (_ & -> & _). exact Ec. }
      destruct (enter_lit tb0 cur el2 ea1 H0 Hr Hc X2 HS) as [E HE].
      rewrite E, Ev. apply IH; [apply HE | exact Hns].
  Qed.
End Lit.

Lemma Agree_refl e : Agree e e.
Proof. intros v _; reflexivity. Qed.

Theorem conv_func_sel_sim : forall f bs T S, conv_func f = Ok bs -> tr_prog f = Ok T -> LitOK bs T S ->
  whole_okb f = true ->
  forall fuel inputs,
    let e0 := combine (map fst (d_args (nth 0 f ddflt))) inputs in
    run_src f fuel 0 e0 <> WStuck -> run_lit bs fuel 0 e0 = run_src f fuel 0 e0.
Proof.
  intros f bs T S _ Ht HL Hok fuel inputs e0 Hns.
  pose proof (whole_function_sim f T Ht Hok fuel inputs Hns) as E. fold e0 in E.
  rewrite <- E. apply (lit_sel_sim bs T S HL); [exact (tr_prog_wf f T Ht Hok) | apply Agree_refl | rewrite E; exact Hns].
Qed.

From Coq Require Import ListDec.
Definition parse_sel (i : iinstr) : option sel :=
  match i with ISelect n ty c a b => Some (n, ty, c, a, b) | _ => None end.
Fixpoint parse_sels (l : list iinstr) : option (list sel) :=
  match l with
  | [] => Some []
  | i :: r => match parse_sel i, parse_sels r with Some s, Some ss => Some (s :: ss) | _, _ => None end
  end.
Definition sels_list (bs : list iblock) (T : tprog) : list (list sel) :=
  map (fun i => match parse_sels (skipn (List.length (nth i (t_bodies T) [])) (i_body (nth i bs idflt))) with
                | Some l => l | None => [] end) (seq 0 (List.length bs)).
Definition S_of (bs : list iblock) (T : tprog) (i : nat) : list sel := nth i (sels_list bs T) [].

Fixpoint znodupb (l : list Z) : bool :=
  match l with [] => true | x :: r => negb (existsb (Z.eqb x) r) && znodupb r end.
Lemma znodupb_ok l : znodupb l = true -> NoDup l.
Proof.
  induction l as [|x r IH]; cbn; [constructor|]. intros H; apply andb_prop in H as [H1 H2].
  constructor; [|apply IH; exact H2]. intros Hin. apply negb_true_iff in H1.
  assert (existsb (Z.eqb x) r = true) by (apply existsb_exists; exists x; split; [exact Hin | apply Z.eqb_refl]).
  congruence.
Qed.
Definition keqb (x y : kopd) : bool := dec2b (kopd_eq_dec x y).
Definition sel_wfb (c : iopd) (s : sel) : bool :=
  match s with (n, ty, c', a, b) => (n <? 0) && dec2b (iopd_eq_dec c' c) && opd_nn a && opd_nn b end.
Definition absb (ka : kopd) (c a b : iopd) : bool :=
  keqb ka (KSel c a b) || (keqb ka (KO a) && dec2b (iopd_eq_dec a b)).
Definition head_okb (c a b : iopd) (l : list incoming) : bool :=
  match l with
  | (ka, _) :: r => absb ka c a b && forallb (fun e => keqb (fst e) ka) r
  | [] => false
  end.
Definition sel_blockb (T : tprog) (i : nat) (ss : list sel) : bool :=
  match ss with
  | [] => true
  | _ =>
    match k_term (nth i (t_k T) kdflt) with
    | KCondBr c tb ta eb ea =>
        (tb =? eb) && forallb (sel_wfb c) ss && znodupb (map sel_id ss) &&
        forallb (fun s => match s with (n, ty, c', a, b) =>
                   existsb (fun k => head_okb c a b (filter (fun e => snd e =? Z.of_nat i) (pt_get (t_pt T) tb (Z.of_nat k))))
                           (seq 0 (k_nargs (t_k T) tb)) end) ss
    | _ => false
    end
  end.
Definition inc_relb (sels : list sel) (ka kl : kopd) : bool :=
  match kl with
  | KO x =>
      (keqb ka (KO x) && opd_nn x) ||
      match x with
      | IVar n => existsb (fun s => match s with (n', ty, c, a, b) => (n' =? n) && absb ka c a b end) sels
      | _ => false
      end
  | _ => false
  end.
Definition phi_relb (sels : list sel) (la ll : list incoming) : bool :=
  match la, ll with
  | [], [] => true
  | a :: ra, l :: rl =>
      inc_relb sels (fst a) (fst l) && forallb (fun e => keqb (fst e) (fst a)) ra && forallb (fun e => keqb (fst e) (fst l)) rl
  | _, _ => false
  end.
Definition term_nnb (kb : kblock) : bool :=
  match k_term kb with KRet v => opd_nn v | KCondBr c _ _ _ _ => opd_nn c | _ => true end.
Definition phdflt : Z * Z * list incoming := (0, 0, []).
Definition lit_okb (bs : list iblock) (T : tprog) : bool :=
  let Sf := S_of bs T in
  Nat.eqb (List.length bs) (List.length (t_k T)) &&
  forallb (fun i =>
     let b := nth i bs idflt in
     dec2b (list_eq_dec iinstr_eq_dec (i_body b) (nth i (t_bodies T) [] ++ map mk_sel (Sf i))) &&
     term_matchesb (k_term (nth i (t_k T) kdflt)) (i_term b) &&
     sel_blockb T i (Sf i) &&
     (Nat.eqb i 0 ||
      (dec2b (list_eq_dec Z.eq_dec (map (fun ph => fst (fst ph)) (i_phis b)) (k_args (nth i (t_k T) kdflt))) &&
       forallb (fun k => forallb (fun p =>
                  phi_relb (Sf p) (filter (fun e => snd e =? Z.of_nat p) (pt_get (t_pt T) (Z.of_nat i) (Z.of_nat k)))
                                  (filter (fun e => snd e =? Z.of_nat p) (snd (nth k (i_phis b) phdflt))))
                (seq 0 (List.length bs))) (seq 0 (List.length (i_phis b))))))
    (seq 0 (List.length bs)) &&
  forallb (forallb instr_nn) (t_bodies T) &&
  forallb term_nnb (t_k T).

Lemma keqb_eq x y : keqb x y = true -> x = y.
Proof. apply dec2b_true. Qed.
Lemma absb_ok ka c a b : absb ka c a b = true -> ka = KSel c a b \/ (ka = KO a /\ a = b).
Proof.
  unfold absb. intros H. apply orb_prop in H as [H | H]; [left; apply keqb_eq; exact H|].
  apply andb_prop in H as [H1 H2]. right. split; [apply keqb_eq; exact H1 | apply (dec2b_true _ H2)].
Qed.
Lemma forallb_keqb (o : kopd) (r : list incoming) : forallb (fun e => keqb (fst e) o) r = true ->
  Forall (fun e => fst e = o) r.
Proof.
  intros H. apply Forall_forall. intros e He. rewrite forallb_forall in H. apply keqb_eq. apply H; exact He.
Qed.
Lemma inc_relb_ok sels ka kl : inc_relb sels ka kl = true -> inc_rel sels ka kl.
Proof.
  unfold inc_relb. destruct kl as [x|]; [|discriminate]. intros H. apply orb_prop in H as [H | H].
  - apply andb_prop in H as [H1 H2]. left. exists x. split; [apply keqb_eq; exact H1 | split; [reflexivity | exact H2]].
  - destruct x as [n|]; [|discriminate]. apply existsb_exists in H as [[[[[n' ty] c] a] b] [Hin H]].
    apply andb_prop in H as [H1 H2]. apply Z.eqb_eq in H1. subst n'.
    right. exists n, ty, c, a, b. split; [reflexivity | split; [exact Hin | apply absb_ok; exact H2]].
Qed.
Lemma phi_relb_ok sels la ll : phi_relb sels la ll = true -> phi_rel sels la ll.
Proof.
  unfold phi_relb, phi_rel. destruct la as [|a ra], ll as [|l rl]; try discriminate; [intros _; exact I|].
  intros H. apply andb_prop in H as [H H3]. apply andb_prop in H as [H1 H2].
  split; [apply inc_relb_ok; exact H1 | split; apply forallb_keqb; assumption].
Qed.
Lemma forallb_nth {A} (P : A -> bool) l i d : forallb P l = true -> P d = true -> P (nth i l d) = true.
Proof.
  intros H Hd. destruct (Nat.lt_ge_cases i (List.length l)) as [Hl | Hl].
  - rewrite forallb_forall in H. apply H. apply nth_In; exact Hl.
  - rewrite nth_overflow by exact Hl. exact Hd.
Qed.

Lemma andb4_prop a b c d : a && b && c && d = true -> a = true /\ b = true /\ c = true /\ d = true.
Proof. destruct a, b, c, d; intros H; try discriminate H; auto. Qed.

Theorem lit_okb_ok bs T : lit_okb bs T = true -> LitOK bs T (S_of bs T).
Proof.
  unfold lit_okb. cbv zeta. intros H.
  apply andb_prop in H as [H Htn]. apply andb_prop in H as [H Hnn]. apply andb_prop in H as [Hlen Hb].
  apply Nat.eqb_eq in Hlen. rewrite forallb_forall in Hb.
  pose proof (fun i Hi => andb4_prop _ _ _ _ (Hb i Hi)) as Hb'. clear Hb. rename Hb' into Hb.
  assert (Hblk : forall i b, nth_error bs i = Some b -> In i (seq 0 (List.length bs)) /\ nth i bs idflt = b).
  { intros i b E. assert ((i < List.length bs)%nat) by (apply nth_error_Some; rewrite E; discriminate).
    split; [apply in_seq; lia | apply nth_error_nth; exact E]. }
  constructor.
  - exact Hlen.
  - intros i b E. destruct (Hblk i b E) as [Hi <-]. destruct (Hb i Hi) as (H1 & _). exact (dec2b_true _ H1).
  - intros i. apply Forall_forall. intros x Hx.
    pose proof (forallb_nth (forallb instr_nn) (t_bodies T) i [] Hnn eq_refl) as F.
    rewrite forallb_forall in F. apply F; exact Hx.
  - intros i b E. destruct (Hblk i b E) as [Hi <-]. destruct (Hb i Hi) as (_ & H2 & _). apply term_matchesb_ok; exact H2.
  - intros i. pose proof (forallb_nth term_nnb (t_k T) i kdflt Htn eq_refl) as F. unfold term_nnb in F.
    destruct (k_term (nth i (t_k T) kdflt)); try exact I; exact F.
  - intros i. destruct (Nat.lt_ge_cases i (List.length bs)) as [Hi | Hi].
    2: { left. unfold S_of. apply nth_overflow. unfold sels_list. rewrite map_length, seq_length. exact Hi. }
    destruct (Hb i ltac:(apply in_seq; lia)) as (_ & _ & Hs & _). unfold sel_blockb in Hs.
    destruct (S_of bs T i) as [|s0 ss] eqn:ES; [left; reflexivity|]. right.
    destruct (k_term (nth i (t_k T) kdflt)) as [|?|c tb ta eb ea|]; try discriminate.
    apply andb_prop in Hs as [Hs Hu]. apply andb_prop in Hs as [Hs Hd]. apply andb_prop in Hs as [He Hw].
    apply Z.eqb_eq in He. subst eb. exists c, tb, ta, ea. split; [reflexivity|]. split; [|split].
    + apply Forall_forall. intros [[[[n ty] c'] a] b] Hin. rewrite forallb_forall in Hw. specialize (Hw _ Hin).
      cbn [sel_wfb sel_wf] in *. apply andb_prop in Hw as [Hw H4]. apply andb_prop in Hw as [Hw H3].
      apply andb_prop in Hw as [H1 H2]. apply Z.ltb_lt in H1. repeat split; try assumption. exact (dec2b_true _ H2).
    + exact (znodupb_ok _ Hd).
    + intros n ty c' a b Hin. rewrite forallb_forall in Hu. specialize (Hu _ Hin). cbn beta iota in Hu.
      apply existsb_exists in Hu as [k [Hk Hh]]. apply in_seq in Hk. exists k. split; [lia|].
      unfold head_okb in Hh.
      destruct (filter (fun e => snd e =? Z.of_nat i) (pt_get (t_pt T) tb (Z.of_nat k))) as [|[ka pa] r]; [discriminate|].
      apply andb_prop in Hh as [H1 H2]. split; [apply absb_ok; exact H1 | apply forallb_keqb; exact H2].
  - intros d b Hd E. destruct (Hblk d b E) as [Hi <-]. destruct (Hb d Hi) as (_ & _ & _ & Hp).
    destruct (Nat.eqb_spec d 0) as [|_]; [contradiction|]. cbn [orb] in Hp.
    apply andb_prop in Hp as [Hids Hrel]. split; [exact (dec2b_true _ Hids)|].
    intros k ph p Ek Hp. rewrite forallb_forall in Hrel.
    assert (Hk : (k < List.length (i_phis (nth d bs idflt)))%nat) by (apply nth_error_Some; rewrite Ek; discriminate).
    specialize (Hrel k ltac:(apply in_seq; lia)). rewrite forallb_forall in Hrel.
    specialize (Hrel p ltac:(apply in_seq; lia)). rewrite (nth_error_nth _ _ phdflt Ek) in Hrel.
    apply phi_relb_ok; exact Hrel.
Qed.

(* translation validation for every function of the fragment, the repaired same-successor cond_br included:
   whenever lit_okb accepts bs (meant to be conv_func's output), it computes the source *)
Theorem conv_func_validated_all : forall f bs T, conv_func f = Ok bs -> tr_prog f = Ok T ->
  lit_okb bs T = true -> whole_okb f = true ->
  forall fuel inputs,
    let e0 := combine (map fst (d_args (nth 0 f ddflt))) inputs in
    run_src f fuel 0 e0 <> WStuck -> run_lit bs fuel 0 e0 = run_src f fuel 0 e0.
Proof.
  intros f bs T Hc Ht Hl Hok. apply (conv_func_sel_sim f bs T (S_of bs T) Hc Ht (lit_okb_ok bs T Hl) Hok).
Qed.
