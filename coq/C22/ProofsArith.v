(* C22/ProofsArith.v -- arithmetic / bit-vector lemmas on Z mod 2^32 used by the C22 proofs. *)
From Coq Require Import ZArith List Bool Lia.
From XV Require Import C22.Model.
Import ListNotations.
Local Open Scope Z_scope.

Lemma M32_pow : M32 = 2 ^ 32. Proof. reflexivity. Qed.
Lemma wrap_range x : 0 <= wrap x < M32.
Proof. unfold wrap. apply Z.mod_pos_bound. reflexivity. Qed.
Lemma wrap_small x : 0 <= x < M32 -> wrap x = x.
Proof. intros. unfold wrap. apply Z.mod_small; assumption. Qed.
Lemma wrap_wrap x : wrap (wrap x) = wrap x.
Proof. apply wrap_small, wrap_range. Qed.
Lemma wrap_0 : wrap 0 = 0. Proof. reflexivity. Qed.
Lemma wrap_1 : wrap 1 = 1. Proof. reflexivity. Qed.
Lemma wrap_2 : wrap 2 = 2. Proof. reflexivity. Qed.
Lemma wrap_add a b : wrap (wrap a + wrap b) = wrap (a + b).
Proof. unfold wrap. symmetry. apply Zplus_mod. Qed.
Lemma wrap_add_l a b : wrap (wrap a + b) = wrap (a + b).
Proof. unfold wrap. apply Zplus_mod_idemp_l. Qed.
Lemma wrap_add_r a b : wrap (a + wrap b) = wrap (a + b).
Proof. unfold wrap. apply Zplus_mod_idemp_r. Qed.
Lemma wrap_sub_l a b : wrap (wrap a - b) = wrap (a - b).
Proof. unfold wrap. apply Zminus_mod_idemp_l. Qed.
Lemma wrap_sub_r a b : wrap (a - wrap b) = wrap (a - b).
Proof. unfold wrap. apply Zminus_mod_idemp_r. Qed.
Lemma wrap_mul a b : wrap (wrap a * wrap b) = wrap (a * b).
Proof. unfold wrap. symmetry. apply Zmult_mod. Qed.
Lemma wrap_mul_l a b : wrap (wrap a * b) = wrap (a * b).
Proof. unfold wrap. apply Zmult_mod_idemp_l. Qed.
Lemma wrap_opp a : wrap (- wrap a) = wrap (- a).
Proof. change (- wrap a) with (0 - wrap a). change (- a) with (0 - a). apply wrap_sub_r. Qed.
Lemma wrap_sext32 v : wrap (sext32 v) = wrap v.
Proof.
  unfold sext32, wrap. rewrite Zminus_mod_idemp_l.
  replace (v + H32 - H32) with v by ring. reflexivity.
Qed.
Lemma sext32_range v : - H32 <= sext32 v < H32.
Proof.
  unfold sext32. pose proof (Z.mod_pos_bound (v + H32) M32 eq_refl) as B.
  unfold H32, M32 in *. lia.
Qed.
Lemma sext12_id v : -2048 <= v < 2048 -> sext12 v = v.
Proof. intros. unfold sext12. rewrite Z.mod_small by lia. lia. Qed.

Lemma wrap_ones x : wrap x = Z.land x (Z.ones 32).
Proof. unfold wrap. rewrite M32_pow. symmetry. apply Z.land_ones. lia. Qed.
Lemma wrap_land a b : wrap (Z.land a b) = Z.land (wrap a) (wrap b).
Proof.
  rewrite !wrap_ones. apply Z.bits_inj'. intros i Hi.
  rewrite !Z.land_spec. destruct (Z.testbit a i), (Z.testbit b i), (Z.testbit (Z.ones 32) i); reflexivity.
Qed.
Lemma wrap_lor a b : wrap (Z.lor a b) = Z.lor (wrap a) (wrap b).
Proof.
  rewrite !wrap_ones. apply Z.bits_inj'. intros i Hi.
  rewrite !Z.land_spec, !Z.lor_spec, !Z.land_spec.
  destruct (Z.testbit a i), (Z.testbit b i), (Z.testbit (Z.ones 32) i); reflexivity.
Qed.
Lemma wrap_lxor a b : wrap (Z.lxor a b) = Z.lxor (wrap a) (wrap b).
Proof.
  rewrite !wrap_ones. apply Z.bits_inj'. intros i Hi.
  rewrite !Z.land_spec, !Z.lxor_spec, !Z.land_spec.
  destruct (Z.testbit a i), (Z.testbit b i), (Z.testbit (Z.ones 32) i); reflexivity.
Qed.
Lemma wrap_shiftl a k : 0 <= k -> wrap (Z.shiftl (wrap a) k) = wrap (Z.shiftl a k).
Proof. intros. rewrite !Z.shiftl_mul_pow2 by assumption. apply wrap_mul_l. Qed.

Lemma signed_wrap c : - H32 <= c < H32 -> signed (wrap c) = c.
Proof.
  intros Hc. unfold signed, wrap.
  destruct (Z_lt_le_dec c 0) as [Hn | Hp].
  - replace (c mod M32) with (c + M32).
    + destruct (c + M32 <? H32) eqn:E; [apply Z.ltb_lt in E; unfold H32, M32 in *; lia | lia].
    + apply Z.mod_unique with (q := -1); unfold H32, M32 in *; lia.
  - rewrite Z.mod_small by (unfold H32, M32 in *; lia).
    destruct (c <? H32) eqn:E; [reflexivity | apply Z.ltb_ge in E; lia].
Qed.
Lemma wrap_signed x : 0 <= x < M32 -> wrap (signed x) = x.
Proof.
  intros Hx. unfold signed. destruct (x <? H32).
  - apply wrap_small; assumption.
  - unfold wrap. replace (x - M32) with (x + (-1) * M32) by ring. rewrite Z.mod_add by (unfold M32; lia).
    apply Z.mod_small; assumption.
Qed.

Lemma land_bit c k : 0 <= k ->
  (Z.land c (Z.shiftl 1 k) =? 0) = negb (Z.testbit c k).
Proof.
  intros Hk. rewrite Z.shiftl_1_l.
  assert (E : Z.land c (2 ^ k) = if Z.testbit c k then 2 ^ k else 0).
  { apply Z.bits_inj'. intros i Hi. rewrite Z.land_spec, Z.pow2_bits_eqb by assumption.
    destruct (Z.eqb_spec k i) as [-> | Hne].
    - destruct (Z.testbit c i) eqn:T; [rewrite Z.pow2_bits_true by assumption | rewrite Z.bits_0]; reflexivity.
    - rewrite andb_false_r. destruct (Z.testbit c k);
        [rewrite Z.pow2_bits_false by (assumption || congruence) | rewrite Z.bits_0]; reflexivity. }
  rewrite E. destruct (Z.testbit c k); [| reflexivity].
  apply Z.eqb_neq. pose proof (Z.pow_pos_nonneg 2 k). lia.
Qed.
Lemma testbit_wrap c k : 0 <= k < 32 -> Z.testbit (wrap c) k = Z.testbit c k.
Proof. intros. unfold wrap. rewrite M32_pow. apply Z.mod_pow2_bits_low. lia. Qed.

(* range of xor on 12-bit signed immediates (XoriOfXori never raises) *)
Lemma shiftr_range n x : 0 <= n -> (- 2 ^ n <= x < 2 ^ n <-> (Z.shiftr x n = 0 \/ Z.shiftr x n = -1)).
Proof.
  intros Hn. rewrite Z.shiftr_div_pow2 by assumption.
  pose proof (Z.pow_pos_nonneg 2 n ltac:(lia) Hn) as Hp.
  split.
  - intros [Hlo Hhi]. destruct (Z_lt_le_dec x 0).
    + right. symmetry. apply Z.div_unique with (r := x + 2 ^ n); lia.
    + left. apply Z.div_small. lia.
  - intros [E | E].
    + pose proof (Z.div_mod x (2 ^ n) ltac:(lia)) as D. pose proof (Z.mod_pos_bound x (2 ^ n) Hp). lia.
    + pose proof (Z.div_mod x (2 ^ n) ltac:(lia)) as D. pose proof (Z.mod_pos_bound x (2 ^ n) Hp). lia.
Qed.
Lemma lxor_si12 a b : -2048 <= a < 2048 -> -2048 <= b < 2048 -> -2048 <= Z.lxor a b < 2048.
Proof.
  intros Ha Hb. change 2048 with (2 ^ 11) in *.
  apply (shiftr_range 11) in Ha; [| lia]. apply (shiftr_range 11) in Hb; [| lia].
  apply (shiftr_range 11); [lia |]. rewrite Z.shiftr_lxor.
  destruct Ha as [-> | ->], Hb as [-> | ->]; cbn; auto.
Qed.

(* f_<pattern>: the identity of the RV32 semantics behind one rewrite pattern (used by ProofsPat.v);
   x, y stand for register values already read as 32 bits *)
Lemma f_mul_comm x y : sem_bin Mul x y = sem_bin Mul y x.
Proof. cbn [sem_bin sem_imm]. f_equal; try ring. Qed.
Lemma f_mul_zero_r x : sem_bin Mul x (wrap 0) = wrap 0.
Proof. cbn [sem_bin sem_imm]. rewrite wrap_0, Z.mul_0_r. reflexivity. Qed.
Lemma f_mul_one_r x : 0 <= x < M32 -> sem_bin Mul x (wrap 1) = x.
Proof. intros. cbn [sem_bin sem_imm]. rewrite wrap_1, Z.mul_1_r. apply wrap_small; assumption. Qed.
Lemma f_mul_consts l r : sem_bin Mul (wrap l) (wrap r) = wrap (l * r).
Proof. cbn [sem_bin sem_imm]. apply wrap_mul. Qed.

Lemma signed_1 : signed (wrap 1) = 1. Proof. reflexivity. Qed.
Lemma f_div_one x : 0 <= x < M32 -> sem_bin Div x (wrap 1) = x.
Proof.
  intros Hx. cbn [sem_bin]. unfold sem_div. rewrite wrap_1. cbn [Z.eqb].
  change (signed 1) with 1. change (1 =? -1) with false. rewrite andb_false_r.
  rewrite Z.quot_1_r. apply wrap_signed; assumption.
Qed.

Lemma f_add_const_l l y : sem_bin Add (wrap l) y = wrap (y + wrap l).
Proof. cbn [sem_bin sem_imm]. f_equal; try ring. Qed.
Lemma f_add_consts l r : sem_bin Add (wrap l) (wrap r) = wrap (l + r).
Proof. cbn [sem_bin sem_imm]. apply wrap_add. Qed.
Lemma f_addi_zero x : 0 <= x < M32 -> sem_imm Addi x 0 = x.
Proof. intros. cbn [sem_bin sem_imm]. rewrite wrap_0, Z.add_0_r. apply wrap_small; assumption. Qed.
Lemma f_addi_const c imm : sem_imm Addi (wrap c) imm = wrap (c + imm).
Proof. cbn [sem_bin sem_imm]. apply wrap_add. Qed.

Lemma f_sub_const_r x r : sem_bin Sub x (wrap r) = wrap (x + wrap (- r)).
Proof. cbn [sem_bin sem_imm]. rewrite wrap_sub_r, wrap_add_r. f_equal; try ring. Qed.
Lemma f_sub_consts l r : sem_bin Sub (wrap l) (wrap r) = wrap (l - r).
Proof. cbn [sem_bin sem_imm]. rewrite wrap_sub_l, wrap_sub_r. reflexivity. Qed.
Lemma f_sub_self x : sem_bin Sub x x = 0.
Proof. cbn [sem_bin sem_imm]. rewrite Z.sub_diag. reflexivity. Qed.
Lemma f_sub_addi x imm : sem_bin Sub (wrap (sem_imm Addi x imm)) x = wrap imm.
Proof.
  cbn [sem_bin sem_imm]. rewrite wrap_wrap, wrap_sub_l.
  replace (x + wrap imm - x) with (wrap imm) by ring. apply wrap_wrap.
Qed.

Lemma f_andi_const c imm : sem_imm Andi (wrap c) imm = wrap (Z.land c imm).
Proof. cbn [sem_bin sem_imm]. rewrite <- wrap_land. apply wrap_wrap. Qed.
Lemma f_andi_zero x : sem_imm Andi x 0 = wrap 0.
Proof. cbn [sem_bin sem_imm]. rewrite wrap_0, Z.land_0_r. reflexivity. Qed.
Lemma f_ori_const c imm : sem_imm Ori (wrap c) imm = wrap (Z.lor c imm).
Proof. cbn [sem_bin sem_imm]. rewrite <- wrap_lor. apply wrap_wrap. Qed.
Lemma f_ori_zero x : 0 <= x < M32 -> sem_imm Ori x 0 = x.
Proof. intros. cbn [sem_bin sem_imm]. rewrite wrap_0, Z.lor_0_r. apply wrap_small; assumption. Qed.
Lemma f_xori_const c imm : sem_imm Xori (wrap c) imm = wrap (Z.lxor c imm).
Proof. cbn [sem_bin sem_imm]. rewrite <- wrap_lxor. apply wrap_wrap. Qed.
Lemma f_xori_zero x : 0 <= x < M32 -> sem_imm Xori x 0 = x.
Proof. intros. cbn [sem_bin sem_imm]. rewrite wrap_0, Z.lxor_0_r. apply wrap_small; assumption. Qed.
Lemma f_xori_xori x j imm :
  sem_imm Xori (wrap (sem_imm Xori x j)) imm = sem_imm Xori x (Z.lxor j imm).
Proof.
  cbn [sem_imm]. repeat (rewrite wrap_lxor || rewrite wrap_wrap). apply Z.lxor_assoc.
Qed.
Lemma f_xori_xori_same x j : 0 <= x < M32 -> sem_imm Xori (wrap (sem_imm Xori x j)) j = x.
Proof.
  intros Hx. rewrite f_xori_xori. rewrite Z.lxor_nilpotent. apply f_xori_zero; assumption.
Qed.

Lemma f_shift_zero s x : is_bitmanip s = false -> 0 <= x < M32 -> sem_sh s x 0 = x.
Proof.
  intros Hs Hx. destruct s; try discriminate; cbn [sem_sh].
  - rewrite Z.shiftl_0_r. apply wrap_small; assumption.
  - rewrite Z.shiftr_0_r. apply wrap_small; assumption.
  - rewrite Z.shiftr_0_r. apply wrap_signed; assumption.
  - rewrite Z.shiftr_0_r, Z.sub_0_r. rewrite wrap_lor.
    rewrite Z.shiftl_mul_pow2 by lia. unfold wrap at 2. rewrite M32_pow, Z.mod_mul by lia.
    rewrite Z.lor_0_r. apply wrap_small; assumption.
Qed.

Lemma f_shift_const s c k : - H32 <= c < H32 -> 0 <= k < 32 ->
  sem_sh s (wrap c) k = wrap (py_shift s c k).
Proof.
  intros Hc Hk. destruct s; cbn [sem_sh py_shift].
  - apply wrap_shiftl. lia.
  - reflexivity.
  - rewrite signed_wrap by assumption. reflexivity.
  - rewrite Z.ldiff_land. rewrite !wrap_land, wrap_wrap. reflexivity.
  - rewrite testbit_wrap by assumption. rewrite land_bit by lia.
    destruct (Z.testbit c k); reflexivity.
  - rewrite (wrap_lxor c). rewrite wrap_lxor, wrap_wrap. reflexivity.
  - rewrite (wrap_lor c). rewrite wrap_lor, wrap_wrap. reflexivity.
  - fold (wrap c). fold (wrap (Z.lor (Z.shiftr (wrap c) k) (Z.shiftl (wrap c) (32 - k)))).
    rewrite wrap_wrap. reflexivity.
Qed.

Lemma f_and_zero_l y : sem_bin And (wrap 0) y = wrap 0.
Proof. cbn [sem_bin sem_imm]. rewrite wrap_0, Z.land_0_l. reflexivity. Qed.
Lemma f_and_zero_r x : sem_bin And x (wrap 0) = wrap 0.
Proof. cbn [sem_bin sem_imm]. rewrite wrap_0, Z.land_0_r. reflexivity. Qed.
Lemma f_and_self x : 0 <= x < M32 -> sem_bin And x x = x.
Proof. intros. cbn [sem_bin sem_imm]. rewrite Z.land_diag. apply wrap_small; assumption. Qed.
Lemma f_or_zero_l y : 0 <= y < M32 -> sem_bin Or (wrap 0) y = y.
Proof. intros. cbn [sem_bin sem_imm]. rewrite wrap_0, Z.lor_0_l. apply wrap_small; assumption. Qed.
Lemma f_or_zero_r x : 0 <= x < M32 -> sem_bin Or x (wrap 0) = x.
Proof. intros. cbn [sem_bin sem_imm]. rewrite wrap_0, Z.lor_0_r. apply wrap_small; assumption. Qed.
Lemma f_or_self x : 0 <= x < M32 -> sem_bin Or x x = x.
Proof. intros. cbn [sem_bin sem_imm]. rewrite Z.lor_diag. apply wrap_small; assumption. Qed.
Lemma f_xor_self x : sem_bin Xor x x = 0.
Proof. cbn [sem_bin sem_imm]. rewrite Z.lxor_nilpotent. reflexivity. Qed.
Lemma f_xor_zero_l y : 0 <= y < M32 -> sem_bin Xor (wrap 0) y = y.
Proof. intros. cbn [sem_bin sem_imm]. rewrite wrap_0, Z.lxor_0_l. apply wrap_small; assumption. Qed.
Lemma f_xor_zero_r x : 0 <= x < M32 -> sem_bin Xor x (wrap 0) = x.
Proof. intros. cbn [sem_bin sem_imm]. rewrite wrap_0, Z.lxor_0_r. apply wrap_small; assumption. Qed.
Lemma f_add_self x : sem_bin Add x x = sem_bin Mul x (wrap 2).
Proof. cbn [sem_bin sem_imm]. rewrite wrap_2. f_equal; try ring. Qed.

Lemma f_mem_addr x j imm :
  wrap (wrap (sem_imm Addi x j) + wrap imm) = wrap (x + wrap (j + imm)).
Proof.
  cbn [sem_bin sem_imm]. rewrite wrap_wrap. rewrite wrap_add.
  replace (x + wrap j + imm) with ((x + imm) + wrap j) by ring. rewrite !wrap_add_r. f_equal; ring.
Qed.
