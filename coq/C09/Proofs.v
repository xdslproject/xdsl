(* C09/Proofs.v -- specification (denotation of constraints) and proofs about verify, get_bases,
   variables and can_infer/infer of C09/Model.v. *)
From Coq Require Import List Arith ZArith Bool Lia.
From XV Require Import C09.Model.
Import ListNotations.

Section AttrInd.
Variable P : attr -> Prop.
Hypothesis HD : forall k d, P (Data k d).
Hypothesis HP : forall k ps, Forall P ps -> P (Par k ps).
Fixpoint attr_ind2 (a : attr) : P a :=
  match a with
  | Data k d => HD k d
  | Par k ps =>
      HP k ps ((fix go (l : list attr) : Forall P l :=
                  match l with
                  | [] => Forall_nil _
                  | x :: r => Forall_cons _ (attr_ind2 x) (go r)
                  end) ps)
  end.
End AttrInd.

Section ConstrInd.
Variable P : constr -> Prop.
Hypothesis HAny : P CAny.
Hypothesis HBase : forall k, P (CBase k).
Hypothesis HEq : forall a, P (CEq a).
Hypothesis HSet : forall vs, P (CSet vs).
Hypothesis HAnyOf : forall cs, Forall P cs -> P (CAnyOf cs).
Hypothesis HAllOf : forall cs, Forall P cs -> P (CAllOf cs).
Hypothesis HParam : forall k cs, Forall P cs -> P (CParam k cs).
Hypothesis HVar : forall n c, P c -> P (CVar n c).
Hypothesis HMsg : forall m c, P c -> P (CMsg m c).
Hypothesis HTypeVar : forall i c, P c -> P (CTypeVar i c).
Fixpoint constr_ind2 (c : constr) : P c :=
  let go := fix go (l : list constr) : Forall P l :=
              match l with
              | [] => Forall_nil _
              | x :: r => Forall_cons _ (constr_ind2 x) (go r)
              end in
  match c with
  | CAny => HAny
  | CBase k => HBase k
  | CEq a => HEq a
  | CSet vs => HSet vs
  | CAnyOf cs => HAnyOf cs (go cs)
  | CAllOf cs => HAllOf cs (go cs)
  | CParam k cs => HParam k cs (go cs)
  | CVar n c => HVar n c (constr_ind2 c)
  | CMsg m c => HMsg m c (constr_ind2 c)
  | CTypeVar i c => HTypeVar i c (constr_ind2 c)
  end.
End ConstrInd.

Lemma forall2b_eq {A} (f : A -> A -> bool) (l : list A) :
  Forall (fun x => forall y, f x y = true <-> x = y) l ->
  forall l', forall2b f l l' = true <-> l = l'.
Proof.
  induction 1 as [|x r Hx Hr IH]; intros [|y r']; simpl; split; intros H; try congruence; auto.
  - apply andb_true_iff in H as [H1 H2]. apply Hx in H1. apply IH in H2. congruence.
  - inversion H; subst. apply andb_true_iff; split; [apply Hx | apply IH]; reflexivity.
Qed.

Lemma attr_eqb_eq : forall a b, attr_eqb a b = true <-> a = b.
Proof.
  induction a as [k d|k ps IH] using attr_ind2; intros [k' d'|k' ps']; simpl; split; intros H;
    try congruence.
  - apply andb_true_iff in H as [H1 H2]. apply Nat.eqb_eq in H1. apply Z.eqb_eq in H2. congruence.
  - inversion H; subst. now rewrite Nat.eqb_refl, Z.eqb_refl.
  - apply andb_true_iff in H as [H1 H2]. apply Nat.eqb_eq in H1.
    apply (forall2b_eq (fun x y => attr_eqb x y)) in H2; [congruence | exact IH].
  - inversion H; subst. rewrite Nat.eqb_refl. simpl.
    apply (forall2b_eq (fun x y => attr_eqb x y)); [exact IH | reflexivity].
Qed.

Lemma attr_eqb_refl a : attr_eqb a a = true.
Proof. now apply attr_eqb_eq. Qed.

Lemma mem_attr_In a vs : mem_attr a vs = true <-> In a vs.
Proof.
  unfold mem_attr. rewrite existsb_exists. split.
  - intros [v [Hi He]]. apply attr_eqb_eq in He. now subst.
  - intros Hi. exists a. split; [assumption | apply attr_eqb_refl].
Qed.

Lemma memn_In k l : memn k l = true <-> In k l.
Proof.
  unfold memn. rewrite existsb_exists. split.
  - intros [v [Hi He]]. apply Nat.eqb_eq in He. now subst.
  - intros Hi. exists k. split; [assumption | apply Nat.eqb_refl].
Qed.

Lemma memn_false k l : memn k l = false <-> ~ In k l.
Proof.
  rewrite <- memn_In. destruct (memn k l); split; intros; congruence.
Qed.

Lemma inter_In k b0 b : In k (inter b0 b) <-> In k b0 /\ In k b.
Proof. unfold inter. rewrite filter_In, memn_In. tauto. Qed.

Section ListP.
Context {A : Type} (P : A -> Prop).
Fixpoint existsP (l : list A) : Prop := match l with [] => False | c :: r => P c \/ existsP r end.
Fixpoint forallP (l : list A) : Prop := match l with [] => True | c :: r => P c /\ forallP r end.
Lemma existsP_In l : existsP l <-> exists c, In c l /\ P c.
Proof.
  induction l as [|x r IH]; simpl.
  - split; [tauto | intros [c [[] _]]].
  - rewrite IH. split.
    + intros [H|[c [Hi Hc]]]; [exists x | exists c]; auto.
    + intros [c [[He|Hi] Hc]]; [subst; auto | right; exists c; auto].
Qed.
Lemma forallP_In l : forallP l <-> forall c, In c l -> P c.
Proof.
  induction l as [|x r IH]; simpl.
  - split; [intros _ c [] | auto].
  - rewrite IH. split.
    + intros [H1 H2] c [He|Hi]; [subst; auto | auto].
    + intros H; split; [apply H; auto | intros c Hi; apply H; auto].
Qed.
End ListP.
Section List2P.
Context {A B : Type} (P : A -> B -> Prop).
Fixpoint forall2P (l : list A) (l' : list B) : Prop :=
  match l, l' with
  | [], [] => True
  | a :: r, b :: q => P a b /\ forall2P r q
  | _, _ => False
  end.
Lemma forall2P_length l : forall l', forall2P l l' -> length l = length l'.
Proof. induction l as [|a r IH]; intros [|b q]; simpl; try tauto. intros [_ H]. f_equal. auto. Qed.
Lemma forall2P_In l : forall l' c, forall2P l l' -> In c l -> exists p, In p l' /\ P c p.
Proof.
  induction l as [|a r IH]; intros [|b q] c; simpl; try tauto.
  intros [H1 H2] [He|Hi].
  - subst. exists b. auto.
  - destruct (IH q c H2 Hi) as [p [Hp1 Hp2]]. exists p. auto.
Qed.
End List2P.

Lemma existsP_impl {A} (P Q : A -> Prop) l :
  Forall (fun c => P c -> Q c) l -> existsP P l -> existsP Q l.
Proof. induction 1; simpl; tauto. Qed.
Lemma forallP_impl {A} (P Q : A -> Prop) l :
  Forall (fun c => P c -> Q c) l -> forallP P l -> forallP Q l.
Proof. induction 1; simpl; tauto. Qed.
Lemma forall2P_impl {A B} (P Q : A -> B -> Prop) l :
  Forall (fun c => forall p, P c p -> Q c p) l -> forall l', forall2P P l l' -> forall2P Q l l'.
Proof.
  induction 1 as [|c r Hc Hr IH]; intros [|p q]; simpl; try tauto.
  intros [H1 H2]. split; auto.
Qed.

Lemma pick_last_some {A R} (sel : A -> bool) (f : A -> R) l o :
  pick_last sel f l = Some o -> exists c, In c l /\ sel c = true /\ o = f c.
Proof.
  induction l as [|c r IH]; simpl; [discriminate|].
  destruct (pick_last sel f r) as [o'|] eqn:E.
  - intros H; inversion H; subst. destruct (IH eq_refl) as [c' [H1 [H2 H3]]]. exists c'. auto.
  - destruct (sel c) eqn:Es; [|discriminate]. intros H; inversion H; subst. exists c. auto.
Qed.
Lemma pick_last_none {A R} (sel : A -> bool) (f : A -> R) l :
  (forall c, In c l -> sel c = false) -> pick_last sel f l = None.
Proof.
  induction l as [|c r IH]; simpl; [reflexivity|]. intros H.
  rewrite IH by (intros; apply H; auto). rewrite (H c) by auto. reflexivity.
Qed.
Lemma pick_first_some {A R} (sel : A -> bool) (f : A -> R) l o :
  pick_first sel f l = Some o -> exists c, In c l /\ sel c = true /\ o = f c.
Proof.
  induction l as [|c r IH]; simpl; [discriminate|].
  destruct (sel c) eqn:Es.
  - intros H; inversion H; subst. exists c. auto.
  - intros H. destruct (IH H) as [c' [H1 [H2 H3]]]. exists c'. auto.
Qed.
Lemma pick_first_exists {A R} (sel : A -> bool) (f : A -> R) l :
  existsb sel l = true -> exists c, In c l /\ sel c = true /\ pick_first sel f l = Some (f c).
Proof.
  induction l as [|c r IH]; simpl; [discriminate|].
  destruct (sel c) eqn:Es.
  - intros _. exists c. auto.
  - simpl. intros H. destruct (IH H) as [c' [H1 [H2 H3]]]. exists c'. auto.
Qed.

Lemma thread_all_false {A S} (f : A -> S -> bool * S) l :
  forall x b x', thread_all f l x false = (b, x') -> b = false.
Proof.
  induction l as [|c r IH]; simpl; intros x b x' H.
  - now inversion H.
  - destruct (f c x) as [b1 x1]. simpl in H. eauto.
Qed.

Section ThreadRel.
Context {A B S : Type} (R : S -> S -> Prop).
Hypothesis Rrefl : forall x, R x x.
Hypothesis Rtrans : forall x y z, R x y -> R y z -> R x z.
Lemma thread_all_rel (f : A -> S -> bool * S) l :
  Forall (fun c => forall x b x', f c x = (b, x') -> R x x') l ->
  forall x ok b x', thread_all f l x ok = (b, x') -> R x x'.
Proof.
  induction 1 as [|c r Hc Hr IH]; simpl; intros x ok b x' H.
  - inversion H; subst. apply Rrefl.
  - destruct (f c x) as [b1 x1] eqn:E. eapply Rtrans; [eapply Hc; eauto | eapply IH; eauto].
Qed.
Lemma thread_zip_rel (f : A -> B -> S -> bool * S) l :
  Forall (fun c => forall p x b x', f c p x = (b, x') -> R x x') l ->
  forall ps x b x', thread_zip f l ps x = (b, x') -> R x x'.
Proof.
  induction 1 as [|c r Hc Hr IH]; simpl; intros ps x b x' H.
  - inversion H; subst. apply Rrefl.
  - destruct ps as [|p q]; [inversion H; subst; apply Rrefl|].
    destruct (f c p x) as [b1 x1] eqn:E. destruct b1.
    + eapply Rtrans; [eapply Hc; eauto | eapply IH; eauto].
    + inversion H; subst. eapply Hc; eauto.
Qed.
End ThreadRel.

Definition env := nat -> option attr.
Definition le_env (s s' : env) : Prop := forall n v, s n = Some v -> s' n = Some v.
Definition env_of (x : ctx) : env := fun n => cget x n.

Lemma le_env_refl s : le_env s s.
Proof. intros n v H; exact H. Qed.
Lemma le_env_trans s1 s2 s3 : le_env s1 s2 -> le_env s2 s3 -> le_env s1 s3.
Proof. intros H1 H2 n v H. apply H2, H1, H. Qed.

Lemma cget_cset_same x n a : cget (cset x n a) n = Some a.
Proof.
  induction x as [|[m v] r IH]; simpl.
  - now rewrite Nat.eqb_refl.
  - destruct (Nat.eqb m n) eqn:E; simpl; rewrite E; auto.
Qed.
Lemma cget_cset_other x n a m : m <> n -> cget (cset x n a) m = cget x m.
Proof.
  intros Hne. induction x as [|[k v] r IH]; simpl.
  - destruct (Nat.eqb n m) eqn:E; [apply Nat.eqb_eq in E; congruence | reflexivity].
  - destruct (Nat.eqb k n) eqn:E; simpl.
    + apply Nat.eqb_eq in E. subst k. destruct (Nat.eqb n m) eqn:E2; [apply Nat.eqb_eq in E2; congruence | reflexivity].
    + destruct (Nat.eqb k m); auto.
Qed.
Lemma cget_none_dom x n : cget x n = None <-> ~ In n (cdom x).
Proof.
  induction x as [|[m v] r IH]; simpl; [tauto|].
  destruct (Nat.eqb m n) eqn:E.
  - apply Nat.eqb_eq in E. split; [discriminate | intros H; exfalso; apply H; auto].
  - apply Nat.eqb_neq in E. rewrite IH. tauto.
Qed.
Lemma le_env_cset_fresh x n a : cget x n = None -> le_env (env_of x) (env_of (cset x n a)).
Proof.
  intros Hn m v H. unfold env_of in *. destruct (Nat.eq_dec m n) as [->|Hne]; [congruence|].
  now rewrite cget_cset_other.
Qed.

Section Spec.
Variable T : ctable.

(* [sat s c a]: attribute a is in the denotation of constraint c under the variable assignment s.
   union = some alternative, intersection = every conjunct, base = instance of the class,
   eq / set = equal to (one of) the value(s), param = instance of the class whose parameters are
   pointwise in the denotations of the parameter constraints, var = the assignment maps the
   variable to exactly this attribute and the attribute is in the inner denotation. *)
Fixpoint sat (s : env) (c : constr) (a : attr) {struct c} : Prop :=
  match c with
  | CAny => True
  | CBase k => inst T a k = true
  | CEq b => a = b
  | CSet vs => In a vs
  | CAnyOf cs => existsP (fun c => sat s c a) cs
  | CAllOf cs => forallP (fun c => sat s c a) cs
  | CParam k cs =>
      inst T a k = true /\
      match a with
      | Par _ ps => forall2P (fun c p => sat s c p) cs ps
      | Data _ _ => False
      end
  | CVar n c' => s n = Some a /\ sat s c' a
  | CMsg _ c' => sat s c' a
  | CTypeVar _ c' => sat s c' a
  end.

Lemma sat_mono s s' : le_env s s' -> forall c a, sat s c a -> sat s' c a.
Proof.
  intros Hle. induction c as [| k | e0 | vs | cs H | cs H | k cs H | n c IHc | m0 c IHc | i c IHc] using constr_ind2; intros a; simpl; auto.
  - apply existsP_impl. eapply Forall_impl; [|exact H]. intros c Hc. apply Hc.
  - apply forallP_impl. eapply Forall_impl; [|exact H]. intros c Hc. apply Hc.
  - intros [Hi Hp]. split; [assumption|]. destruct a as [|k' ps]; [assumption|].
    revert Hp. apply forall2P_impl. eapply Forall_impl; [|exact H]. intros c Hc p. apply Hc.
  - intros [H1 H2]. split; [apply Hle, H1 | apply IHc, H2].
Qed.

Fixpoint allvars (c : constr) : list nat :=
  match c with
  | CVar n c' => n :: allvars c'
  | CAnyOf cs => flat_map (fun c => allvars c) cs
  | CAllOf cs => flat_map (fun c => allvars c) cs
  | CParam _ cs => flat_map (fun c => allvars c) cs
  | CMsg _ c' => allvars c'
  | CTypeVar _ c' => allvars c'
  | _ => []
  end.

(* well-named: every occurrence of variable n carries the inner constraint G n
   (the clause "n not in allvars c'" follows from the first for finite trees; it is kept explicit) *)
Fixpoint wn (G : nat -> constr) (c : constr) : Prop :=
  match c with
  | CVar n c' => G n = c' /\ ~ In n (allvars c') /\ wn G c'
  | CAnyOf cs => forallP (fun c => wn G c) cs
  | CAllOf cs => forallP (fun c => wn G c) cs
  | CParam _ cs => forallP (fun c => wn G c) cs
  | CMsg _ c' => wn G c'
  | CTypeVar _ c' => wn G c'
  | _ => True
  end.

Definition ctx_ok (G : nat -> constr) (x : ctx) : Prop :=
  forall n v, cget x n = Some v -> sat (env_of x) (G n) v.

Lemma ctx_ok_nil G : ctx_ok G [].
Proof. intros n v H. discriminate. Qed.

(* verify moves the context along any preorder that is kept when, after a run from x, a variable
   that x leaves unbound (and that V admits) is bound *)
Lemma verify_rel (R : ctx -> ctx -> Prop) (V : nat -> Prop) :
  (forall x, R x x) -> (forall x y z, R x y -> R y z -> R x z) ->
  (forall x x1 n a, V n -> cget x n = None -> R x x1 -> R x (cset x1 n a)) ->
  forall c, (forall n, In n (allvars c) -> V n) ->
  forall a x b x', verify T c a x = (b, x') -> R x x'.
Proof.
  intros Rrefl Rtrans Rset.
  assert (Hsub : forall cs, (forall n, In n (flat_map (fun c => allvars c) cs) -> V n) ->
                 forall c, In c cs -> forall n, In n (allvars c) -> V n).
  { intros cs HV c Hi n Hn. apply HV, in_flat_map. eauto. }
  assert (Hsame : forall (b b' : bool) x x', (b, x) = (b', x') -> R x x').
  { intros b b' x x' E. injection E as _ <-. apply Rrefl. }
  induction c as [| k | e0 | vs | cs H | cs H | k cs H | n c IHc | m0 c IHc | i c IHc] using constr_ind2;
    intros HV a x b x' Hv; simpl in Hv, HV; try exact (Hsame _ _ _ _ Hv).
  - destruct (pick_last (owns T a) (fun c => verify T c a x) cs) as [o|] eqn:E.
    + apply pick_last_some in E as [c [Hi [_ ->]]]. rewrite Forall_forall in H.
      apply (H c Hi (Hsub cs HV c Hi) _ _ _ _ Hv).
    + destruct (find_abstract T cs) as [[]|]; exact (Hsame _ _ _ _ Hv).
  - revert Hv. apply (thread_all_rel R Rrefl Rtrans). rewrite Forall_forall in *.
    intros c Hi y b1 y'. apply (H c Hi (Hsub cs HV c Hi)).
  - destruct (negb (inst T a k)); [exact (Hsame _ _ _ _ Hv)|].
    destruct a as [|k' ps]; [exact (Hsame _ _ _ _ Hv)|].
    destruct (negb (length cs =? length ps)); [exact (Hsame _ _ _ _ Hv)|].
    revert Hv. apply (thread_zip_rel R Rrefl Rtrans). rewrite Forall_forall in *.
    intros c Hi p y b1 y'. apply (H c Hi (Hsub cs HV c Hi)).
  - destruct (cget x n) as [v|] eqn:Eg; [exact (Hsame _ _ _ _ Hv)|].
    destruct (verify T c a x) as [b1 x1] eqn:E1.
    assert (Hx1 : R x x1) by apply (IHc (fun m Hm => HV m (or_intror Hm)) _ _ _ _ E1).
    destruct b1; injection Hv as _ <-; [|exact Hx1].
    apply Rset; [apply HV; left; reflexivity | exact Eg | exact Hx1].
  - apply (IHc HV _ _ _ _ Hv).
  - apply (IHc HV _ _ _ _ Hv).
Qed.

Lemma verify_ext : forall c a x b x',
  verify T c a x = (b, x') -> le_env (env_of x) (env_of x').
Proof.
  intros c. apply (verify_rel (fun x x' => le_env (env_of x) (env_of x')) (fun _ => True)); trivial.
  - intros; apply le_env_refl.
  - intros; eapply le_env_trans; eauto.
  - intros x x1 n a _ Hn Hle m v Hm. unfold env_of in *.
    rewrite cget_cset_other by congruence. apply Hle, Hm.
Qed.

Lemma verify_frame : forall c a x b x' m,
  verify T c a x = (b, x') -> ~ In m (allvars c) -> cget x' m = cget x m.
Proof.
  intros c a x b x' m Hv Hm. revert Hv.
  apply (verify_rel (fun x x' => cget x' m = cget x m) (fun n => n <> m)); try congruence.
  intros y y1 n v Hn _ He. rewrite cget_cset_other; auto.
Qed.

Definition sound_at (G : nat -> constr) (c : constr) : Prop :=
  wn G c -> forall a x x', ctx_ok G x -> verify T c a x = (true, x') ->
  sat (env_of x') c a /\ ctx_ok G x'.

Lemma verify_ext_all a cs :
  forall x ok b x', thread_all (fun c x => verify T c a x) cs x ok = (b, x') ->
  le_env (env_of x) (env_of x').
Proof.
  apply (thread_all_rel (fun x x' => le_env (env_of x) (env_of x'))).
  - intros; apply le_env_refl.
  - intros; eapply le_env_trans; eauto.
  - apply Forall_forall. intros c _ z b z' Hz. eapply verify_ext; eauto.
Qed.
Lemma verify_ext_zip cs :
  forall ps x b x', thread_zip (fun c p x => verify T c p x) cs ps x = (b, x') ->
  le_env (env_of x) (env_of x').
Proof.
  apply (thread_zip_rel (fun x x' => le_env (env_of x) (env_of x'))).
  - intros; apply le_env_refl.
  - intros; eapply le_env_trans; eauto.
  - apply Forall_forall. intros c _ p z b z' Hz. eapply verify_ext; eauto.
Qed.

Lemma allof_sound G a cs :
  Forall (sound_at G) cs -> forallP (fun c => wn G c) cs ->
  forall ok x x', ctx_ok G x -> thread_all (fun c x => verify T c a x) cs x ok = (true, x') ->
  ok = true /\ forallP (fun c => sat (env_of x') c a) cs /\ ctx_ok G x'.
Proof.
  induction 1 as [|c r Hc Hr IH]; simpl; intros Hw ok x x' Hok Ht.
  - inversion Ht; subst; auto.
  - destruct Hw as [Hw1 Hw2]. destruct (verify T c a x) as [b1 x1] eqn:E1.
    pose proof (verify_ext_all _ _ _ _ _ _ Ht) as Hext.
    destruct b1.
    + destruct (Hc Hw1 a x x1 Hok E1) as [S1 O1].
      destruct (IH Hw2 _ _ _ O1 Ht) as [Hok' [Hf Ho']].
      rewrite andb_true_r in Hok'. split; [assumption|]. split; [|assumption].
      split; [eapply sat_mono; eauto | assumption].
    + rewrite andb_false_r in Ht. apply thread_all_false in Ht. discriminate.
Qed.

Lemma param_sound G cs :
  Forall (sound_at G) cs -> forallP (fun c => wn G c) cs ->
  forall ps x x', ctx_ok G x -> length cs = length ps ->
  thread_zip (fun c p x => verify T c p x) cs ps x = (true, x') ->
  forall2P (fun c p => sat (env_of x') c p) cs ps /\ ctx_ok G x'.
Proof.
  induction 1 as [|c r Hc Hr IH]; simpl; intros Hw ps x x' Hok Hlen Ht.
  - destruct ps; [|discriminate]. inversion Ht; subst. simpl. auto.
  - destruct ps as [|p q]; [discriminate|]. destruct Hw as [Hw1 Hw2].
    destruct (verify T c p x) as [b1 x1] eqn:E1. destruct b1; [|discriminate].
    pose proof (verify_ext_zip _ _ _ _ _ Ht) as Hext.
    destruct (Hc Hw1 p x x1 Hok E1) as [S1 O1].
    destruct (IH Hw2 q x1 x' O1 (eq_add_S _ _ Hlen) Ht) as [Hf Ho'].
    simpl. split; [|assumption]. split; [eapply sat_mono; eauto | assumption].
Qed.

Lemma verify_sound G : forall c, sound_at G c.
Proof.
  induction c as [| k | e0 | vs | cs H | cs H | k cs H | n c IHc | m0 c IHc | i c IHc] using constr_ind2;
    intros Hw a x x' Hok Hv; simpl in Hw, Hv |- *.
  - inversion Hv; subst; auto.
  - inversion Hv; subst; auto.
  - inversion Hv; subst. split; [apply attr_eqb_eq|]; assumption.
  - inversion Hv; subst. split; [apply mem_attr_In|]; assumption.
  - destruct (pick_last (owns T a) (fun c => verify T c a x) cs) as [o|] eqn:E.
    + apply pick_last_some in E as [c [Hi [_ Ho]]]. subst o.
      rewrite Forall_forall in H. rewrite forallP_In in Hw.
      destruct (H c Hi (Hw c Hi) a x x' Hok Hv) as [S1 O1]. split; [|assumption].
      apply existsP_In. exists c. auto.
    + destruct (find_abstract T cs) as [c0|] eqn:Ef; [|inversion Hv].
      destruct c0; try (inversion Hv; fail). inversion Hv; subst.
      unfold find_abstract in Ef. apply pick_first_some in Ef as [c [Hi [_ Ho]]]. subst c.
      split; [|assumption]. apply existsP_In. exists (CBase k). split; [assumption|]. simpl. assumption.
  - destruct (allof_sound G a cs H Hw true x x' Hok Hv) as [_ [Hf Ho]]. auto.
  - destruct (negb (inst T a k)) eqn:Ei; [discriminate|]. apply negb_false_iff in Ei.
    destruct a as [|k' ps]; [discriminate|].
    destruct (negb (length cs =? length ps)) eqn:El; [discriminate|].
    apply negb_false_iff in El. apply Nat.eqb_eq in El.
    destruct (param_sound G cs H Hw ps x x' Hok El Hv) as [Hf Ho]. auto.
  - destruct Hw as [HG [Hn Hw']]. destruct (cget x n) as [v|] eqn:Eg.
    + inversion Hv; subst. apply attr_eqb_eq in H0. subst v.
      split; [|assumption]. split; [exact Eg|]. apply Hok. assumption.
    + destruct (verify T c a x) as [b1 x1] eqn:E1. destruct b1; [|discriminate].
      inversion Hv; subst. destruct (IHc Hw' a x x1 Hok E1) as [S1 O1].
      assert (Hfresh : cget x1 n = None)
        by (rewrite (verify_frame _ _ _ _ _ n E1 Hn); assumption).
      pose proof (le_env_cset_fresh x1 n a Hfresh) as Hle.
      split; [split|].
      * unfold env_of. apply cget_cset_same.
      * eapply sat_mono; eauto.
      * intros m v Hm. destruct (Nat.eq_dec m n) as [->|Hne].
        -- rewrite cget_cset_same in Hm. inversion Hm; subst. eapply sat_mono; eauto.
        -- rewrite cget_cset_other in Hm by assumption. eapply sat_mono; [exact Hle|].
           apply O1. assumption.
  - eauto.
  - eauto.
Qed.

Hypothesis Hfinal : forall k k', final T k = true -> sub T k' k = true -> k' = k.

Lemma bases_union_In (f : constr -> option (list nat)) l :
  forall b, bases_union f l = Some b -> forall c bc, In c l -> f c = Some bc -> incl bc b.
Proof.
  induction l as [|c0 r IH]; simpl; intros b Hb c bc Hi Hf; [destruct Hi|].
  destruct (f c0) as [b0|] eqn:E1; [|discriminate].
  destruct (bases_union f r) as [b'|] eqn:E2; [|discriminate].
  inversion Hb; subst. destruct Hi as [->|Hi].
  - rewrite E1 in Hf; inversion Hf; subst. apply incl_appl, incl_refl.
  - apply incl_appr. eapply IH; eauto.
Qed.
Lemma bases_union_all (f : constr -> option (list nat)) l :
  forall b, bases_union f l = Some b -> forall c, In c l -> f c <> None.
Proof.
  induction l as [|c0 r IH]; simpl; intros b Hb c Hi; [destruct Hi|].
  destruct (f c0) as [b0|] eqn:E1; [|discriminate].
  destruct (bases_union f r) as [b'|] eqn:E2; [|discriminate].
  destruct Hi as [->|Hi]; [congruence | eapply IH; eauto].
Qed.
Lemma bases_inter_sound (f : constr -> option (list nat)) (k : nat) l :
  (forall c bc, In c l -> f c = Some bc -> In k bc) ->
  forall acc b, (forall b0, acc = Some b0 -> In k b0) -> bases_inter f l acc = Some b -> In k b.
Proof.
  induction l as [|c0 r IH]; simpl; intros Hl acc b Hacc Hb.
  - apply Hacc; assumption.
  - destruct (f c0) as [b0|] eqn:E.
    + eapply IH; [| |exact Hb].
      * intros; eapply Hl; eauto.
      * intros b1 Hb1. destruct acc as [a0|]; inversion Hb1; subst.
        -- apply inter_In. split; [apply Hacc; reflexivity | eapply Hl; eauto].
        -- eapply Hl; eauto.
    + eapply IH; eauto.
Qed.

Lemma bases_sound : forall c s a b, sat s c a -> bases T c = Some b -> In (cls a) b.
Proof.
  induction c as [| k | e0 | vs | cs H | cs H | k cs H | n c IHc | m0 c IHc | i c IHc] using constr_ind2;
    intros s a b Hs Hb; simpl in Hs, Hb.
  - discriminate.
  - destruct (final T k) eqn:Ef; inversion Hb; subst. left. symmetry. apply (Hfinal k (cls a)); assumption.
  - inversion Hb; subst. left. reflexivity.
  - inversion Hb; subst. apply in_map. assumption.
  - apply existsP_In in Hs as [c [Hi Hc]]. rewrite Forall_forall in H.
    destruct (bases T c) as [bc|] eqn:Ec.
    + eapply (bases_union_In (fun c => bases T c)); eauto.
    + exfalso. eapply (bases_union_all (fun c => bases T c)); eauto.
  - rewrite forallP_In in Hs. rewrite Forall_forall in H.
    eapply (bases_inter_sound (fun c => bases T c)); [| |exact Hb].
    + intros c bc Hi Hf. eapply H; eauto.
    + intros b0 Hb0; discriminate.
  - destruct Hs as [Hi _]. destruct (final T k) eqn:Ef; inversion Hb; subst.
    left. symmetry. apply (Hfinal k (cls a)); assumption.
  - destruct Hs; eauto.
  - eauto.
  - eauto.
Qed.

(* What a successful run of the constructor's loop has established: bases of different alternatives are
   disjoint (so the alternative owning a class is unique, whatever `pick_last` prefers), they all end up among
   the keys, and an alternative without bases is the one abstract alternative. *)
Lemma scan_spec : forall cs keys abstr keys' ab,
  anyof_scan T cs keys abstr = Ok (keys', ab) ->
  incl keys keys' /\
  (abstr <> None -> ab = abstr) /\
  (forall c b, In c cs -> bases T c = Some b -> incl b keys' /\ forall k, In k b -> ~ In k keys) /\
  (forall c, In c cs -> bases T c = None ->
     abstr = None /\ ab = Some c /\ is_abstract_base T c = true /\ find_abstract T cs = Some c) /\
  (forall R a c (f : constr -> R), In c cs -> owns T a c = true ->
     pick_last (owns T a) f cs = Some (f c)).
Proof.
  induction cs as [|c0 rest IH]; simpl; intros keys abstr keys' ab Hsc.
  - inversion Hsc; subst. split; [apply incl_refl|]. split; [reflexivity|].
    split; [intros c b []|]. split; [intros c []|intros R a c f []].
  - destruct (bases T c0) as [b0|] eqn:Eb0.
    + destruct (existsb (fun k => memn k keys) b0) eqn:Ex; [discriminate|].
      destruct (IH _ _ _ _ Hsc) as (IA & IE & IB & ID & IC).
      split; [intros k Hk; apply IA, in_or_app; left; exact Hk|]. split; [exact IE|]. split; [|split].
      * intros c b [<-|Hi] Hb.
        -- rewrite Eb0 in Hb; inversion Hb; subst.
           split; [intros k Hk; apply IA, in_or_app; right; exact Hk|]. intros k Hk Hin.
           assert (Ht : existsb (fun k => memn k keys) b = true)
             by (apply existsb_exists; exists k; split; [assumption | apply memn_In; assumption]).
           congruence.
        -- destruct (IB c b Hi Hb) as [H1 H2]. split; [exact H1|].
           intros k Hk Hin. apply (H2 k Hk), in_or_app. left; exact Hin.
      * intros c [<-|Hi] Hb; [congruence|]. destruct (ID c Hi Hb) as (H1 & H2 & H3 & H4).
        repeat (split; [assumption|]). unfold find_abstract in *. simpl. unfold has_bases at 1. rewrite Eb0. exact H4.
      * intros R a c f [<-|Hi] Ho; [|rewrite (IC R a c f Hi Ho); reflexivity].
        rewrite pick_last_none; [rewrite Ho; reflexivity|].
        intros c' Hi'. destruct (owns T a c') eqn:Eo'; [|reflexivity]. exfalso.
        unfold owns in Ho, Eo'. rewrite Eb0 in Ho. destruct (bases T c') as [b'|] eqn:Eb'; [|discriminate].
        apply memn_In in Ho. apply memn_In in Eo'.
        apply (proj2 (IB c' b' Hi' Eb') _ Eo'), in_or_app. right; exact Ho.
    + destruct abstr; [discriminate|]. destruct (is_abstract_base T c0) eqn:Ea; [|discriminate].
      destruct (IH _ _ _ _ Hsc) as (IA & IE & IB & ID & IC).
      assert (Hab : ab = Some c0) by (apply IE; discriminate).
      split; [exact IA|]. split; [intros H; exfalso; apply H; reflexivity|]. split; [|split].
      * intros c b [<-|Hi] Hb; [congruence | exact (IB c b Hi Hb)].
      * intros c [<-|Hi] Hb.
        -- repeat (split; [assumption || reflexivity|]).
           unfold find_abstract. simpl. unfold has_bases. rewrite Hb. reflexivity.
        -- destruct (ID c Hi Hb) as [H _]. discriminate H.
      * intros R a c f [<-|Hi] Ho; [|rewrite (IC R a c f Hi Ho); reflexivity].
        unfold owns in Ho. rewrite Eb0 in Ho. discriminate.
Qed.

Definition complete_at (c : constr) : Prop :=
  constructible T c = true -> forall a x s,
  le_env (env_of x) s -> sat s c a ->
  exists x', verify T c a x = (true, x') /\ le_env (env_of x') s.

Lemma allof_complete a s cs :
  Forall complete_at cs -> forallb (fun c => constructible T c) cs = true ->
  forallP (fun c => sat s c a) cs ->
  forall x, le_env (env_of x) s ->
  exists x', thread_all (fun c x => verify T c a x) cs x true = (true, x') /\ le_env (env_of x') s.
Proof.
  induction 1 as [|c r Hc Hr IH]; simpl; intros Hcs Hs x Hle.
  - eauto.
  - apply andb_true_iff in Hcs as [Hc1 Hc2]. destruct Hs as [Hs1 Hs2].
    destruct (Hc Hc1 a x s Hle Hs1) as [x1 [E1 L1]]. rewrite E1. simpl. apply IH; assumption.
Qed.

Lemma param_complete s cs :
  Forall complete_at cs -> forallb (fun c => constructible T c) cs = true ->
  forall ps, forall2P (fun c p => sat s c p) cs ps ->
  forall x, le_env (env_of x) s ->
  exists x', thread_zip (fun c p x => verify T c p x) cs ps x = (true, x') /\ le_env (env_of x') s.
Proof.
  induction 1 as [|c r Hc Hr IH]; simpl; intros Hcs ps Hs x Hle.
  - eauto.
  - destruct ps as [|p q]; [destruct Hs|].
    apply andb_true_iff in Hcs as [Hc1 Hc2]. destruct Hs as [Hs1 Hs2].
    destruct (Hc Hc1 p x s Hle Hs1) as [x1 [E1 L1]]. rewrite E1. apply IH; assumption.
Qed.

Lemma verify_complete : forall c, complete_at c.
Proof.
  induction c as [| k | e0 | vs | cs H | cs H | k cs H | n c IHc | m0 c IHc | i c IHc] using constr_ind2;
    intros Hc a x s Hle Hs; simpl in Hc, Hs |- *.
  - eauto.
  - exists x. rewrite Hs. auto.
  - exists x. subst. rewrite attr_eqb_refl. auto.
  - exists x. apply mem_attr_In in Hs. rewrite Hs. auto.
  - apply andb_true_iff in Hc as [Hc1 Hc2].
    destruct (anyof_init T cs) as [u|] eqn:Einit; [|discriminate]. unfold anyof_init in Einit.
    destruct (anyof_scan T cs [] None) as [[keys ab]|] eqn:Esc; [|discriminate].
    apply existsP_In in Hs as [c [Hi Hsc]].
    rewrite Forall_forall in H. rewrite forallb_forall in Hc1.
    destruct (bases T c) as [b|] eqn:Eb.
    + assert (Ho : owns T a c = true).
      { unfold owns. rewrite Eb. apply memn_In. eapply bases_sound; eauto. }
      rewrite (proj2 (proj2 (proj2 (proj2 (scan_spec _ _ _ _ _ Esc)))) _ a c _ Hi Ho).
      apply (H c Hi (Hc1 c Hi) a x s Hle Hsc).
    + destruct (scan_spec _ _ _ _ _ Esc) as (_ & _ & Hkeys & Hnone & _).
      destruct (Hnone c Hi Eb) as (_ & Hab & Habs & Hfind).
      destruct c; simpl in Habs; try discriminate. simpl in Hsc.
      rewrite pick_last_none.
      * rewrite Hfind. rewrite Hsc. eauto.
      * intros c' Hi'. destruct (owns T a c') eqn:Eo; [|reflexivity]. exfalso.
        unfold owns in Eo. destruct (bases T c') as [b'|] eqn:Eb'; [|discriminate].
        apply memn_In in Eo. pose proof (proj1 (Hkeys c' b' Hi' Eb') _ Eo) as Hk. subst ab.
        assert (Hex : existsb (fun b0 => sub T b0 k) keys = true)
          by (apply existsb_exists; exists (cls a); split; assumption).
        rewrite Hex in Einit. discriminate.
  - apply (allof_complete a s cs H Hc Hs x Hle).
  - destruct Hs as [Hi Hp]. rewrite Hi. simpl. destruct a as [|k' ps]; [destruct Hp|].
    rewrite (forall2P_length _ _ _ Hp). rewrite Nat.eqb_refl. simpl.
    apply (param_complete s cs H Hc ps Hp x Hle).
  - destruct Hs as [Hn Hs']. destruct (cget x n) as [v|] eqn:Eg.
    + apply Hle in Eg. rewrite Hn in Eg. inversion Eg; subst. rewrite attr_eqb_refl. eauto.
    + destruct (IHc Hc a x s Hle Hs') as [x1 [E1 L1]]. rewrite E1.
      exists (cset x1 n a). split; [reflexivity|].
      intros m v Hm. unfold env_of in Hm. destruct (Nat.eq_dec m n) as [->|Hne].
      * rewrite cget_cset_same in Hm. congruence.
      * rewrite cget_cset_other in Hm by assumption. apply L1. assumption.
  - eauto.
  - eauto.
Qed.

Lemma fold_intern_In n (r : list constr) : forall v0,
  In n (fold_left (fun acc c => intern acc (variables c)) r v0) ->
  In n v0 /\ forall c, In c r -> In n (variables c).
Proof.
  induction r as [|c r IH]; simpl; intros v0 Hn.
  - split; [assumption | intros c []].
  - apply IH in Hn as [H1 H2]. unfold intern in H1. apply filter_In in H1 as [H1 H3].
    apply memn_In in H3. split; [assumption|]. intros c' [<-|Hi]; auto.
Qed.

Lemma sat_variables : forall c s a, sat s c a -> forall n, In n (variables c) -> s n <> None.
Proof.
  induction c as [| k | e0 | vs | cs H | cs H | k cs H | n0 c IHc | m0 c IHc | i c IHc] using constr_ind2;
    intros s a Hs n Hn; simpl in Hs, Hn; try (destruct Hn; fail).
  - destruct cs as [|c0 r]; [destruct Hn|].
    apply fold_intern_In in Hn as [H1 H2].
    apply existsP_In in Hs as [c [Hi Hc]]. rewrite Forall_forall in H.
    destruct Hi as [<-|Hi]; [eapply H; simpl; eauto | eapply H; simpl; eauto].
  - apply in_flat_map in Hn as [c [Hi Hc]]. rewrite forallP_In in Hs. rewrite Forall_forall in H.
    eapply H; eauto.
  - apply in_flat_map in Hn as [c [Hi Hc]]. destruct Hs as [_ Hp]. destruct a as [|k' ps]; [destruct Hp|].
    destruct (forall2P_In _ _ _ _ Hp Hi) as [p [_ Hsp]]. rewrite Forall_forall in H. eapply H; eauto.
  - destruct Hs as [H1 H2]. apply in_app_or in Hn as [Hn|[<-|[]]]; [eauto | congruence].
  - eauto.
Qed.

(* validity of an attribute value: every parametrized node passes its class's `new` *)
Fixpoint valid_attr (a : attr) : Prop :=
  match a with
  | Data k _ => isparam T k = false
  | Par k ps => forallP (fun p => valid_attr p) ps /\ new_attr T k ps = Ok (Par k ps)
  end.

Lemma new_attr_length k ps a : new_attr T k ps = Ok a -> length (cdef T k) = length ps.
Proof.
  unfold new_attr. destruct (negb (length (cdef T k) =? length ps)) eqn:E; [discriminate|].
  intros _. apply negb_false_iff in E. now apply Nat.eqb_eq.
Qed.

Lemma mapM_infer_unique s x cs :
  Forall (fun c => forall a, can_infer T c (cdom x) = true -> valid_attr a -> sat s c a ->
                             infer T c x = Ok a) cs ->
  forallb (fun c => can_infer T c (cdom x)) cs = true ->
  forall ps, forallP (fun p => valid_attr p) ps -> forall2P (fun c p => sat s c p) cs ps ->
  mapM (fun c => infer T c x) cs = Ok ps.
Proof.
  induction 1 as [|c r Hc Hr IH]; simpl; intros Hci ps Hv Hs.
  - destruct ps; [reflexivity | destruct Hs].
  - destruct ps as [|p q]; [destruct Hs|]. apply andb_true_iff in Hci as [H1 H2].
    destruct Hv as [Hv1 Hv2]. destruct Hs as [Hs1 Hs2].
    rewrite (Hc p H1 Hv1 Hs1). simpl. rewrite (IH H2 q Hv2 Hs2). reflexivity.
Qed.

Lemma infer_unique s x : le_env (env_of x) s -> forall c a,
  can_infer T c (cdom x) = true -> valid_attr a -> sat s c a -> infer T c x = Ok a.
Proof.
  intros Hle.
  induction c as [| k | e0 | vs | cs H | cs H | k cs H | n c IHc | m0 c IHc | i c IHc] using constr_ind2;
    intros a Hci Hv Hs; simpl in Hci, Hs |- *; try discriminate.
  - apply andb_true_iff in Hci as [Hci Har]. apply andb_true_iff in Hci as [Hf Hp].
    apply Nat.eqb_eq in Har. rewrite Hp, Hf. simpl.
    assert (Hk : cls a = k) by (apply (Hfinal k (cls a)); assumption).
    destruct a as [k' d|k' ps]; simpl in Hk, Hv; subst k'.
    + congruence.
    + destruct Hv as [_ Hnew]. pose proof (new_attr_length _ _ _ Hnew) as Hl.
      rewrite Har in Hl. destruct ps; [assumption | discriminate].
  - congruence.
  - apply (pick_first_exists _ (fun c => infer T c x)) in Hci as [c [Hi [Hc Hp]]].
    rewrite Hp. rewrite Forall_forall in H. rewrite forallP_In in Hs. apply H; auto.
  - apply andb_true_iff in Hci as [Hf Hall]. destruct Hs as [Hi Hp].
    assert (Hk : cls a = k) by (apply (Hfinal k (cls a)); assumption).
    destruct a as [k' d|k' ps]; [destruct Hp|]. simpl in Hk, Hv. subst k'. destruct Hv as [Hv Hnew].
    rewrite (mapM_infer_unique s x cs H Hall ps Hv Hp). simpl. exact Hnew.
  - destruct Hs as [Hn Hs']. destruct (cget x n) as [v|] eqn:Eg.
    + apply Hle in Eg. congruence.
    + apply cget_none_dom in Eg. apply memn_false in Eg. rewrite Eg in Hci. simpl in Hci. auto.
  - auto.
Qed.

End Spec.

(* the only fact about the class table the theorems need: a runtime-final class has no proper
   subclass (python: runtime_final.__init_subclass__ raises) *)
Definition final_leaf (T : ctable) : Prop :=
  forall k k', final T k = true -> sub T k' k = true -> k' = k.

Theorem verify_denotes T (Hf : final_leaf T) G c a x :
  constructible T c = true -> wn G c -> ctx_ok T G x ->
  (verify_opt T c a x <> None <-> exists s, le_env (env_of x) s /\ sat T s c a) /\
  (forall x', verify_opt T c a x = Some x' ->
     le_env (env_of x) (env_of x') /\ sat T (env_of x') c a /\ ctx_ok T G x' /\
     forall s, le_env (env_of x) s -> sat T s c a -> le_env (env_of x') s).
Proof.
  intros Hc Hw Hok. unfold verify_opt. destruct (verify T c a x) as [b x1] eqn:E. destruct b.
  - destruct (verify_sound T G c Hw a x x1 Hok E) as [S1 O1].
    pose proof (verify_ext T c a x true x1 E) as Hext. split.
    + split; [intros _; exists (env_of x1); auto | intros _; discriminate].
    + intros x' Hx'. inversion Hx'; subst. repeat split; auto.
      intros s Hle Hs. destruct (verify_complete T Hf c Hc a x s Hle Hs) as [x2 [E2 L2]].
      rewrite E in E2. inversion E2; subst. assumption.
  - split.
    + split; [intros Hn; exfalso; apply Hn; reflexivity|].
      intros [s [Hle Hs]]. destruct (verify_complete T Hf c Hc a x s Hle Hs) as [x2 [E2 _]].
      rewrite E in E2. discriminate.
    + intros x' Hx'. discriminate.
Qed.

Corollary verifies_denotes T (Hf : final_leaf T) G c a :
  constructible T c = true -> wn G c -> (verifies T c a = true <-> exists s, sat T s c a).
Proof.
  intros Hc Hw. destruct (verify_denotes T Hf G c a [] Hc Hw (ctx_ok_nil T G)) as [H1 _].
  unfold verifies, verify_opt in *. destruct (verify T c a []) as [b x1]. simpl. split.
  - intros ->. destruct (proj1 H1) as [s [_ Hs]]; [discriminate | eauto].
  - intros [s Hs]. destruct b; [reflexivity|]. exfalso. apply (proj2 H1); [|reflexivity].
    exists s. split; [intros n v Hn; discriminate | assumption].
Qed.

Theorem bases_sound_verify T (Hf : final_leaf T) G c a x x' b :
  wn G c -> ctx_ok T G x -> verify_opt T c a x = Some x' -> bases T c = Some b -> In (cls a) b.
Proof.
  intros Hw Hok Hv Hb. unfold verify_opt in Hv. destruct (verify T c a x) as [b0 x1] eqn:E.
  destruct b0; [|discriminate]. inversion Hv; subst.
  destruct (verify_sound T G c Hw a x x' Hok E) as [S1 _].
  eapply (bases_sound T Hf); eauto.
Qed.

Theorem var_consistent T G c a x :
  (forall b x', verify T c a x = (b, x') -> le_env (env_of x) (env_of x')) /\
  (wn G c -> ctx_ok T G x -> forall x', verify_opt T c a x = Some x' ->
     (forall n, In n (variables c) -> cget x' n <> None) /\ sat T (env_of x') c a).
Proof.
  split; [intros b x' H; eapply verify_ext; eauto|].
  intros Hw Hok x' Hv. unfold verify_opt in Hv. destruct (verify T c a x) as [b0 x1] eqn:E.
  destruct b0; [|discriminate]. inversion Hv; subst.
  destruct (verify_sound T G c Hw a x x' Hok E) as [S1 _]. split; [|assumption].
  intros n Hn. apply (sat_variables T c (env_of x') a S1 n Hn).
Qed.

Theorem infer_satisfies_partial T (Hf : final_leaf T) c x s a :
  constructible T c = true -> can_infer T c (cdom x) = true ->
  le_env (env_of x) s -> valid_attr T a -> sat T s c a ->
  infer T c x = Ok a /\ exists x', verify T c a x = (true, x').
Proof.
  intros Hc Hci Hle Hv Hs. split.
  - apply (infer_unique T Hf s x Hle c a Hci Hv Hs).
  - destruct (verify_complete T Hf c Hc a x s Hle Hs) as [x' [E _]]. eauto.
Qed.
