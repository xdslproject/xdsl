(* Props/C27.v -- PDL patterns act the same interpreted or compiled to pdl_interp.
   Only statements closed by `exact`, the refutation witnesses of the code as found (vm_compute) and
   non-vacuity examples.  Definitions: C27/Model.v (executable model of interpreters/pdl.py, of the single-pattern
   conversion and of interpreters/pdl_interp.py); Spec: position semantics eval_pos / seq_eval in
   C27/ProofsChain.v, side conditions in C27/ProofsMatch.v and C27/Proofs.v. *)
From Coq Require Import ZArith List Bool.
From XV Require Import Base.Show C27.Model C27.Enc C27.ProofsChain C27.ProofsOrder C27.ProofsMatch C27.ProofsGuard C27.ProofsTotal C27.Proofs C27.ProofsEnv C27.ProofsRewrite C27.ProofsRewriteFull C27.ProofsRewriteTop.
Import ListNotations.
Local Open Scope Z_scope.

(* The matcher the conversion generates for ANY ordered predicate list and ANY list of positions used by the
   rewriter, run by the pdl_interp abstract machine from the root operation, computes exactly the sequential
   evaluation of the predicates under the position semantics (first false -> no match, first failed
   assertion -> raise, all true -> record_match with the denotations of the used positions). *)
Theorem C27_chain_is_sequential_evaluation : forall fx pl root preds used,
  run_matcher fx pl [(0, OOp root)] (gen_matcher preds used) = seq_eval fx pl root preds used.
Proof. exact chain_sound. Qed.
Print Assumptions C27_chain_is_sequential_evaluation.

(* The ordering step (frequency / depth / cost sort with de-duplication) keeps exactly the extracted predicates. *)
Theorem C27_ordering_keeps_predicates : forall preds x, In x (ordered preds) <-> In x preds.
Proof. exact ordered_In. Qed.
Print Assumptions C27_ordering_keeps_predicates.

(* C27_match_equiv, the strongest form that holds of the code as found and of every combination of the
   proposed repairs (fx).  Under Proofs.match_side_conditions, i.e.
     - every constant attribute constraint is truthy                    (or repair C27-1 is present)
     - no payload operation has one name in attributes and properties   (or repair C27-6)
     - the payload is well-formed SSA and every operation reached through pdl.result declares ONE result
                                                                         (or repair C27-2)
     - every pdl.operation / pdl.result value occurs once in the tree, no pdl.result value is re-used,
       every pdl.result index lies within the declared result types,
   the direct matcher never raises, it succeeds exactly when the converted matcher reaches record_match, and
   every pattern value it binds equals the denotation of the position the conversion recorded for it (these
   denotations are what record_match hands to the rewriter). *)
Theorem C27_match_equiv_partial : forall fx P pl x c,
  match_side_conditions fx P pl ->
  find_op pl (o_id x) = Some x ->
  compile fx P = Some c ->
  match pdl_match fx P pl x with
  | MOk e => (exists args, interp_match fx c pl x = IMatch args) /\
             (forall k v p, klookup e k = Some v -> klookup (snd (extract fx P)) k = Some p ->
                            eval_pos fx pl (o_id x) p = Some v)
  | MFail => forall args, interp_match fx c pl x <> IMatch args
  | MErr => False
  end.
Proof. exact match_equiv. Qed.
Print Assumptions C27_match_equiv_partial.

(* ... and with every proposed repair present only the static shape of the pattern remains as side condition. *)
Theorem C27_match_equiv_repaired : forall P pl x c seen',
  lin_op (p_root P) [] = Some seen' -> idx_op false (p_root P) ->
  find_op pl (o_id x) = Some x ->
  compile repaired P = Some c ->
  match pdl_match repaired P pl x with
  | MOk e => (exists args, interp_match repaired c pl x = IMatch args) /\
             (forall k v p, klookup e k = Some v -> klookup (snd (extract repaired P)) k = Some p ->
                            eval_pos repaired pl (o_id x) p = Some v)
  | MFail => forall args, interp_match repaired c pl x <> IMatch args
  | MErr => False
  end.
Proof. exact match_equiv_repaired. Qed.
Print Assumptions C27_match_equiv_repaired.

(* The converted matcher never raises: `compile_guarded` is an executable static check of the ordered chain
   (every get_operand / get_result / get_attribute / check_* on an operation and every get_value_type on a value
   comes after the is_not_null of that operation / value); the harness evaluates it on the model's compiled chain
   of every generated and corpus pattern (it has never been false), and a chain that passes it cannot raise on
   any payload.  Together with C27_match_equiv_partial: when the direct matcher fails, the converted one falls
   through to finalize (no match, no exception). *)
Theorem C27_matcher_never_raises : forall fx P pl x c,
  compile_guarded fx P = true -> find_op pl (o_id x) = Some x -> compile fx P = Some c ->
  interp_match fx c pl x <> IErr.
Proof. exact compile_guarded_no_raise. Qed.
Print Assumptions C27_matcher_never_raises.

(* C27_compile_total: the (modelled) conversion never fails on a pattern of the restricted language whose rewrite
   part only refers to values that exist -- locals defined by an earlier statement, constants, match-part values
   reached by the match tree (`rewrite_refs_ok`, executable).  The only failure of the real conversion in the
   language is the assertion "Expected value to be a pattern input". *)
Theorem C27_compile_total : forall fx P, rewrite_refs_ok fx P = true -> exists c, compile fx P = Some c.
Proof. exact compile_total. Qed.
Print Assumptions C27_compile_total.

(* C27_rewrite_equiv, partial form, for every configuration in which pdl_interp.erase is implemented and type
   ranges / result-type inference are handled (repairs C27-4, C27-5; the other repair flags arbitrary, with the
   side conditions of the match theorem).  Exact hypotheses:
     - the executable static check rewrite_static_ok: the conversion recorded all pattern values at pairwise
       different positions (none of them a rewrite-local value), the rewriter function has as many arguments as
       record_match hands over positions (evaluated by the harness on every generated and corpus pattern);
     - the direct application does not raise.
   Then: if the direct application rewrites the payload into plF, the converted matcher + rewriter produce exactly
   plF (new operations get the same ids in both models, so "up to fresh ids" is plain equality); and if the direct
   pattern does not match, neither does the converted one (and it does not raise).
   Not covered: the case in which the direct rewrite raises (ill-typed rewrites, where the converted path may go on:
   pdl.result index beyond the declared results, replacement with results for a root without results). *)
Theorem C27_rewrite_equiv_partial : forall fx P pl x c plF,
  fx_erase fx = true -> fx_range fx = true -> fx_infer fx = true ->
  match_side_conditions fx P pl -> rewrite_static_ok fx P = true ->
  find_op pl (o_id x) = Some x -> compile fx P = Some c ->
  pdl_apply fx P pl (o_id x) = ROk plF -> interp_apply fx c pl (o_id x) = ROk plF.
Proof. exact rewrite_equiv_partial. Qed.
Print Assumptions C27_rewrite_equiv_partial.

Theorem C27_no_match_equiv : forall fx P pl x c,
  match_side_conditions fx P pl -> compile_guarded fx P = true ->
  find_op pl (o_id x) = Some x -> compile fx P = Some c ->
  pdl_apply fx P pl (o_id x) = RNoMatch -> interp_apply fx c pl (o_id x) = RNoMatch.
Proof. exact apply_nomatch. Qed.
Print Assumptions C27_no_match_equiv.

(* ... and with every repair present (the current tree): only static, executable conditions on the pattern remain *)
Theorem C27_rewrite_equiv_repaired : forall P pl x c seen',
  lin_op (p_root P) [] = Some seen' -> idx_op false (p_root P) ->
  rewrite_static_ok repaired P = true -> compile_guarded repaired P = true ->
  find_op pl (o_id x) = Some x -> compile repaired P = Some c ->
  (forall plF, pdl_apply repaired P pl (o_id x) = ROk plF -> interp_apply repaired c pl (o_id x) = ROk plF) /\
  (pdl_apply repaired P pl (o_id x) = RNoMatch -> interp_apply repaired c pl (o_id x) = RNoMatch).
Proof. exact rewrite_equiv_repaired. Qed.
Print Assumptions C27_rewrite_equiv_repaired.

(* C27_rewrite_equiv in full (every outcome: rewritten payload, no match, exception) for the rewrites the executable
   check rewrite_frag_ok accepts: a pdl.result in the rewrite part only of a new operation whose result count
   (declared types, or inferred from the replaced root) covers the index; no empty replacement list; for a root
   without declared result types a replacement operation that has no results; every match-part value the rewrite
   reads is reached by the match tree; no pdl.result after the replace / erase.  What stays outside are ill-typed
   rewrites, on which the two paths differ on the real code as well (pdl.result index beyond the results of the new
   operation: IndexError vs null value; replacement with results for a root without results: ValueError vs erase);
   for those only C27_rewrite_equiv_partial (direction "the direct application rewrites") applies. *)
Theorem C27_rewrite_equiv : forall fx P pl x c,
  fx_erase fx = true -> fx_range fx = true -> fx_infer fx = true ->
  match_side_conditions fx P pl -> rewrite_static_ok fx P = true -> compile_guarded fx P = true ->
  rewrite_frag_ok fx P = true ->
  find_op pl (o_id x) = Some x -> compile fx P = Some c ->
  pdl_apply fx P pl (o_id x) = interp_apply fx c pl (o_id x).
Proof. exact rewrite_equiv_full. Qed.
Print Assumptions C27_rewrite_equiv.

(* the core of it: statement-by-statement simulation of the generated rewriter function against the direct rewrite,
   for ANY rewriter arguments that are the direct bindings of the values they translate *)
Theorem C27_rewriter_simulates_direct_rewrite :
  forall fx P inp rootpat pid e0 regs0 usedF,
  fx_erase fx = true -> fx_range fx = true -> fx_infer fx = true ->
  (forall l, klookup inp (KLocal l) = None) ->
  (forall k1 k2 p, klookup inp k1 = Some p -> klookup inp k2 = Some p -> k1 = k2) ->
  (forall k p j, klookup inp k = Some p -> znth usedF j = Some p ->
                 exists v, klookup e0 k = Some v /\ rrlookup regs0 (RA j) = Some v) ->
  (forall a c v, p_aconst P a = Some c -> klookup e0 (KAttr a) = Some v -> v = OAttr c) ->
  (forall t c v, p_tconst P t = Some c -> klookup e0 (KType t) = Some v -> v = OType c) ->
  klookup e0 (KOp (op_id rootpat)) = Some (OOp pid) ->
  forall l st stF code e regs pl plF,
  Inv inp e0 regs0 e st regs -> gen_stmts fx P inp rootpat st l = Some (stF, code) -> pre (rg_used stF) usedF ->
  RI rootpat pid pl ->
  run_rw fx pid l e pl = ROk plF ->
  run_rewriter fx pid (code ++ [RFinalize]) regs pl = ROk plF.
Proof. exact stmts_sim. Qed.
Print Assumptions C27_rewriter_simulates_direct_rewrite.

(* as found: the constant attribute 0 : i32 is dropped by the conversion; the converted matcher rewrites an operation the direct one rejects.  With the repairs both agree *)
Theorem C27_match_equiv_refuted_falsy_constant :
  exists P pl pid, outcome_pair as_found P pl pid = Some (0, 1) /\ same_result repaired P pl pid.
Proof.
  exists (Build_pattern (fun v => match v with | _ => None end) (fun v => match v with | 0 => Some 0 | _ => None end) (fun v => match v with | _ => None end) (Op 0 (Some 0) (cons (0, 0) nil) nil (cons 0 nil)) (cons (SType 0 1) (cons (SOp 1 1 nil nil (cons (TL 0) nil)) (cons (SReplaceOp 1) nil)))).
  exists (Build_payload nil (cons (mkop 0 0 nil (cons (0, 1) nil) nil (cons 0 nil)) nil)).
  exists 0. split; vm_compute; reflexivity.
Qed.
Print Assumptions C27_match_equiv_refuted_falsy_constant.

(* as found: the direct matcher accepts an operand that is result 0 where the pattern asks for result 1 of the operation *)
Theorem C27_match_equiv_refuted_result_index :
  exists P pl pid, outcome_pair as_found P pl pid = Some (1, 0) /\ same_result repaired P pl pid.
Proof.
  exists (Build_pattern (fun v => match v with | _ => None end) (fun v => match v with | _ => None end) (fun v => match v with | _ => None end) (Op 1 (Some 1) nil (cons (ORes 0 1 (Op 0 (Some 0) nil nil (cons 0 (cons 0 nil)))) nil) nil) (cons (SOp 0 2 (cons (VMr 0) nil) nil nil) (cons (SReplaceOp 0) nil))).
  exists (Build_payload nil (cons (mkop 0 0 nil nil nil (cons 0 (cons 0 nil))) (cons (mkop 1 1 (cons (VRes 0 0) nil) nil nil nil) nil))).
  exists 1. split; vm_compute; reflexivity.
Qed.
Print Assumptions C27_match_equiv_refuted_result_index.

(* as found: a pdl.result value used for two operands is compared by the direct matcher only *)
Theorem C27_match_equiv_refuted_result_reuse :
  exists P pl pid, outcome_pair as_found P pl pid = Some (0, 1) /\ same_result repaired P pl pid.
Proof.
  exists (Build_pattern (fun v => match v with | _ => None end) (fun v => match v with | _ => None end) (fun v => match v with | _ => None end) (Op 1 (Some 1) nil (cons (ORes 0 0 (Op 0 (Some 0) nil nil (cons 0 nil))) (cons (OReuse 0) nil)) (cons 1 nil)) (cons (SReplaceVals (cons (VMr 0) nil)) nil)).
  exists (Build_payload nil (cons (mkop 0 0 nil nil nil (cons 0 nil)) (cons (mkop 1 0 nil nil nil (cons 0 nil)) (cons (mkop 2 1 (cons (VRes 0 0) (cons (VRes 1 0) nil)) nil nil (cons 0 nil)) nil)))).
  exists 2. split; vm_compute; reflexivity.
Qed.
Print Assumptions C27_match_equiv_refuted_result_reuse.

(* as found: pdl_interp.erase has no implementation; the converted rewriter raises where the direct one erases *)
Theorem C27_rewrite_equiv_refuted_erase :
  exists P pl pid, outcome_pair as_found P pl pid = Some (1, 2) /\ same_result repaired P pl pid.
Proof.
  exists (Build_pattern (fun v => match v with | _ => None end) (fun v => match v with | 0 => Some 1 | _ => None end) (fun v => match v with | _ => None end) (Op 0 (Some 0) (cons (0, 0) nil) nil nil) (cons SErase nil)).
  exists (Build_payload nil (cons (mkop 0 0 nil (cons (0, 1) nil) nil nil) (cons (mkop 1 0 nil (cons (0, 2) nil) nil nil) nil))).
  exists 0. split; vm_compute; reflexivity.
Qed.
Print Assumptions C27_rewrite_equiv_refuted_erase.

(* as found: result types of a replacement operation without declared types are inferred through get_value_type of a range, which asserts *)
Theorem C27_rewrite_equiv_refuted_typeless_replacement :
  exists P pl pid, outcome_pair as_found P pl pid = Some (1, 2) /\ same_result repaired P pl pid.
Proof.
  exists (Build_pattern (fun v => match v with | _ => None end) (fun v => match v with | 0 => Some 0 | _ => None end) (fun v => match v with | _ => None end) (Op 0 (Some 0) (cons (0, 0) nil) nil nil) (cons (SAttr 0 1) (cons (SOp 1 0 nil (cons (0, AL 0) nil) nil) (cons (SReplaceOp 1) nil)))).
  exists (Build_payload nil (cons (mkop 0 0 nil (cons (0, 0) nil) nil nil) nil)).
  exists 0. split; vm_compute; reflexivity.
Qed.
Print Assumptions C27_rewrite_equiv_refuted_typeless_replacement.

(* as found: a name present in attributes and properties is read from different dictionaries by the two paths *)
Theorem C27_match_equiv_refuted_attr_and_prop :
  exists P pl pid, outcome_pair as_found P pl pid = Some (1, 0) /\ same_result repaired P pl pid.
Proof.
  exists (Build_pattern (fun v => match v with | _ => None end) (fun v => match v with | 0 => Some 1 | _ => None end) (fun v => match v with | _ => None end) (Op 0 (Some 0) (cons (2, 0) nil) nil (cons 0 nil)) (cons (SType 0 1) (cons (SOp 1 1 nil nil (cons (TL 0) nil)) (cons (SReplaceOp 1) nil)))).
  exists (Build_payload nil (cons (mkop 0 0 nil (cons (2, 2) nil) (cons (2, 1) nil) (cons 0 nil)) nil)).
  exists 0. split; vm_compute; reflexivity.
Qed.
Print Assumptions C27_match_equiv_refuted_attr_and_prop.

(* non-vacuity: a two-level pattern with a shared operand, a typed operand, attribute constraints and two
   results satisfies the static side conditions (lin_op, idx_op) of the code as found, matches, and both paths give
   the same IR *)
Definition ex_pattern : pattern :=
  Build_pattern (fun v => match v with 0 => Some 0 | _ => None end)
                (fun v => match v with 0 => Some 1 | _ => None end)
                (fun v => match v with 1 => Some 1 | _ => None end)
                (Op 1 (Some 1) (cons (0, 0) nil)
                    (cons (OFree 0) (cons (ORes 0 0 (Op 0 (Some 0) (cons (2, 1) nil) (cons (OFree 0) (cons (OFree 1) nil)) (cons 1 nil))) nil))
                    (cons 1 (cons 0 nil)))
                (cons (SType 0 1) (cons (SOp 1 2 (cons (VMo 0) (cons (VMr 0) nil)) (cons (0, AMa 0) nil) (cons (TMt 1) (cons (TL 0) nil)))
                 (cons (SReplaceOp 1) nil))).
Definition ex_payload : payload :=
  Build_payload (cons 2 (cons 3 nil))
    (cons (mkop 0 0 (cons (VArg 0) (cons (VArg 1) nil)) nil (cons (2, 5) nil) (cons 3 nil))
    (cons (mkop 1 1 (cons (VArg 0) (cons (VRes 0 0) nil)) (cons (0, 1) nil) nil (cons 3 (cons 0 nil)))
    (cons (mkop 2 3 (cons (VRes 1 0) (cons (VRes 1 1) nil)) nil nil nil) nil))).
Example C27_example_applies : outcome_pair as_found ex_pattern ex_payload 1 = Some (1, 1) /\ same_result as_found ex_pattern ex_payload 1.
Proof. split; vm_compute; reflexivity. Qed.
Print Assumptions C27_example_applies.
Example C27_example_side_conditions_static :
  (exists seen', lin_op (p_root ex_pattern) [] = Some seen') /\ idx_op true (p_root ex_pattern).
Proof. split; [eexists; vm_compute; reflexivity | vm_compute; intuition (try discriminate; try reflexivity)]. Qed.
Print Assumptions C27_example_side_conditions_static.
Example C27_example_guarded : compile_guarded as_found ex_pattern = true /\ compile_guarded repaired ex_pattern = true.
Proof. split; vm_compute; reflexivity. Qed.
Print Assumptions C27_example_guarded.
Example C27_example_refs_ok : rewrite_refs_ok as_found ex_pattern = true.
Proof. vm_compute. reflexivity. Qed.
Print Assumptions C27_example_refs_ok.
Example C27_example_rewrite_static_ok : rewrite_static_ok repaired ex_pattern = true /\ rewrite_static_ok as_found ex_pattern = true.
Proof. split; vm_compute; reflexivity. Qed.
Print Assumptions C27_example_rewrite_static_ok.
Example C27_example_frag_ok : rewrite_frag_ok repaired ex_pattern = true.
Proof. vm_compute. reflexivity. Qed.
Print Assumptions C27_example_frag_ok.
