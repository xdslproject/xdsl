(* C21/ProofsMachine.v -- facts about the x86-64 subset machine:
   wrap-around arithmetic, register writes, sequencing, soundness of the two-address lowering of every
   entry of X86_OP_BY_ARITH_BINARY_OP, and the prologue/epilogue frame theorem. *)
From Coq Require Import ZArith List Bool Lia.
From XV Require Import Gen.C21_tables C21.Model C21.Spec.
Import ListNotations.
Local Open Scope Z_scope.


Definition M64 : Z := 18446744073709551616.
Lemma modulus64 : modulus W64 = M64. Proof. reflexivity. Qed.

Lemma modulus_pos : forall w, 0 < modulus w.
Proof. destruct w; reflexivity. Qed.

Lemma low_range : forall w x, 0 <= low w x < modulus w.
Proof. intros w x. unfold low. apply Z.mod_pos_bound. apply modulus_pos. Qed.

Lemma low_low : forall w x, low w (low w x) = low w x.
Proof. intros w x. unfold low. apply Z.mod_mod. pose proof (modulus_pos w). lia. Qed.

Lemma low_add : forall w x y, low w (low w x + low w y) = low w (x + y).
Proof. intros w x y. unfold low. symmetry. apply Zplus_mod. Qed.

Lemma low_sub : forall w x y, low w (low w x - low w y) = low w (x - y).
Proof. intros w x y. unfold low. symmetry. apply Zminus_mod. Qed.

Lemma low_mul : forall w x y, low w (low w x * low w y) = low w (x * y).
Proof. intros w x y. unfold low. symmetry. apply Zmult_mod. Qed.

Lemma low_small : forall w x, 0 <= x < modulus w -> low w x = x.
Proof. intros w x H. unfold low. apply Z.mod_small. exact H. Qed.

Lemma low64_small : forall x, 0 <= x < M64 -> low W64 x = x.
Proof. intros x H. apply low_small. rewrite modulus64. exact H. Qed.

Lemma low_zero : forall w, low w 0 = 0.
Proof. destruct w; reflexivity. Qed.

(* dropping the low bits leaves a multiple of the modulus *)
Lemma low_merge : forall w old v, low w (old - low w old + low w v) = low w v.
Proof.
  intros w old v. unfold low.
  pose proof (modulus_pos w) as Hm.
  assert (Hq : old - old mod modulus w = (old / modulus w) * modulus w).
  { pose proof (Z.div_mod old (modulus w)). lia. }
  rewrite Hq. rewrite Z.add_comm. rewrite Z.mod_add by lia. apply Z.mod_mod. lia.
Qed.


Lemma upd_same : forall A (f : Z -> A) k v, upd f k v k = v.
Proof. intros. unfold upd. rewrite Z.eqb_refl. reflexivity. Qed.

Lemma upd_other : forall A (f : Z -> A) k v x, x <> k -> upd f k v x = f x.
Proof. intros A f k v x H. unfold upd. destruct (x =? k) eqn:E; [apply Z.eqb_eq in E; contradiction | reflexivity]. Qed.

Lemma write_reg_same : forall w r v rf, low w (write_reg w r v rf r) = low w v.
Proof.
  intros w r v rf. destruct w; cbn [write_reg]; rewrite upd_same.
  - apply low_merge.
  - apply low_merge.
  - apply low_low.
  - apply low_low.
Qed.

Lemma write_reg_other : forall w r v rf x, x <> r -> write_reg w r v rf x = rf x.
Proof. intros w r v rf x H. destruct w; cbn [write_reg]; apply upd_other; exact H. Qed.

Lemma write_reg64_same : forall r v rf, write_reg W64 r v rf r = low W64 v.
Proof. intros. cbn [write_reg]. apply upd_same. Qed.


Lemma exec_app : forall l1 l2 s,
  exec (l1 ++ l2) s = match exec l1 s with Running s' => exec l2 s' | o => o end.
Proof.
  induction l1 as [|i l1 IH]; intros l2 s; cbn [app exec]; [reflexivity|].
  destruct (step i s); [apply IH | reflexivity | reflexivity].
Qed.

Lemma exec_app_running : forall l1 l2 s s1, exec l1 s = Running s1 -> exec (l1 ++ l2) s = exec l2 s1.
Proof. intros l1 l2 s s1 H. rewrite exec_app, H. reflexivity. Qed.

(* the two-address lowering of a binary op: `mov t, rhs ; op t, lhs` *)

Definition binop_sound (o : bop) (xo : xop) : Prop :=
  forall w s a b t, t <> a ->
    exists s', exec [IMovRR w t b; xinstr xo w t a] s = Running s'
      /\ low w (regs s' t) = low w (bop_eval o (low w (regs s a)) (low w (regs s b)))
      /\ (forall r, r <> t -> regs s' r = regs s r)
      /\ mem s' = mem s.

Lemma binop_sound_add : binop_sound BAdd XAdd.
Proof.
  intros w s a b t Hta. eexists. split; [reflexivity|]. cbn [regs mem]. repeat split.
  - rewrite write_reg_same.
    rewrite (write_reg_other w t (regs s b) (regs s) a) by (apply not_eq_sym; exact Hta).
    rewrite <- low_add. rewrite write_reg_same. cbn [bop_eval]. f_equal. lia.
  - intros r Hr. rewrite !write_reg_other by exact Hr. reflexivity.
Qed.

Lemma binop_sound_mul : binop_sound BMul XImul.
Proof.
  intros w s a b t Hta. eexists. split; [reflexivity|]. cbn [regs mem]. repeat split.
  - rewrite write_reg_same.
    rewrite (write_reg_other w t (regs s b) (regs s) a) by (apply not_eq_sym; exact Hta).
    rewrite <- low_mul. rewrite write_reg_same. cbn [bop_eval]. f_equal. lia.
  - intros r Hr. rewrite !write_reg_other by exact Hr. reflexivity.
Qed.

(* every entry of the table extracted from X86_OP_BY_ARITH_BINARY_OP *)
Theorem binop_table_sound : forall o xo, lookup_binop o = Some xo -> binop_sound o xo.
Proof.
  intros o xo H. destruct o; vm_compute in H; inversion H; subst.
  - exact binop_sound_add.
  - exact binop_sound_mul.
Qed.

(* the same scheme would be WRONG for a non-commutative op: `mov t, rhs ; sub t, lhs` computes rhs - lhs *)
Lemma sub_scheme_unsound : ~ binop_sound BSub XSub.
Proof.
  intro H.
  destruct (H W64 (mkState (fun r => if r =? 1 then 5 else if r =? 2 then 3 else 0) (fun _ => None)) 1 2 3
              ltac:(lia)) as [s' [He [Hv _]]].
  vm_compute in He. inversion He; subst. vm_compute in Hv. discriminate.
Qed.


Lemma aligned_spec : forall a, aligned a = true <-> exists q, a = 8 * q.
Proof.
  intro a. unfold aligned. rewrite Z.eqb_eq. split.
  - intro H. exists (a / 8). pose proof (Z.div_mod a 8). lia.
  - intros [q ->]. rewrite Z.mul_comm. apply Z.mod_mul. lia.
Qed.

Lemma aligned_shift : forall a k, aligned a = true -> aligned (a + 8 * k) = true.
Proof. intros a k H. apply aligned_spec in H. destruct H as [q ->]. apply aligned_spec. exists (q + k). lia. Qed.

Lemma aligned_m8 : forall a, aligned a = true -> aligned (a - 8) = true.
Proof. intros a H. replace (a - 8) with (a + 8 * (-1)) by lia. apply aligned_shift. exact H. Qed.

Lemma aligned_p8 : forall a, aligned a = true -> aligned (a + 8) = true.
Proof. intros a H. replace (a + 8) with (a + 8 * 1) by lia. apply aligned_shift. exact H. Qed.


Fixpoint stack_at (m : Z -> option Z) (base : Z) (vals : list Z) : Prop :=
  match vals with
  | [] => True
  | v :: r => m base = Some v /\ stack_at m (base + 8) r
  end.

Lemma stack_at_app : forall m l1 l2 base,
  stack_at m base (l1 ++ l2) <-> stack_at m base l1 /\ stack_at m (base + 8 * Z.of_nat (length l1)) l2.
Proof.
  intros m l1. induction l1 as [|v l1 IH]; intros l2 base.
  - cbn [app length stack_at]. replace (base + 8 * Z.of_nat 0) with base by lia. tauto.
  - cbn [app stack_at]. rewrite IH. cbn [length].
    replace (base + 8 + 8 * Z.of_nat (length l1)) with (base + 8 * Z.of_nat (S (length l1))) by lia. tauto.
Qed.

Lemma stack_at_ext : forall m m' vals base,
  (forall a, base <= a -> m' a = m a) -> stack_at m base vals -> stack_at m' base vals.
Proof.
  intros m m' vals. induction vals as [|v r IH]; intros base Hext H; cbn [stack_at] in *; [exact I|].
  destruct H as [H1 H2]. split.
  - rewrite Hext by lia. exact H1.
  - apply IH; [|exact H2]. intros a Ha. apply Hext. lia.
Qed.

Lemma push_all : forall ps s sp,
  regs s RSP = sp -> aligned sp = true -> 8 * Z.of_nat (length ps) <= sp -> sp < M64 -> ~ In RSP ps ->
  exists s1, exec (map IPush ps) s = Running s1
    /\ regs s1 RSP = sp - 8 * Z.of_nat (length ps)
    /\ (forall r, r <> RSP -> regs s1 r = regs s r)
    /\ (forall a, sp <= a -> mem s1 a = mem s a)
    /\ stack_at (mem s1) (sp - 8 * Z.of_nat (length ps)) (rev (map (regs s) ps)).
Proof.
  induction ps as [|p ps IH]; intros s sp Hsp Hal Hroom Hlt Hnin.
  - exists s. cbn [map exec length rev stack_at]. repeat split; auto. lia.
  - cbn [map exec step]. rewrite Hsp.
    cbn [length] in Hroom. rewrite Nat2Z.inj_succ in Hroom.
    rewrite low64_small by lia. rewrite (aligned_m8 _ Hal).
    set (s' := mkState (upd (regs s) RSP (sp - 8)) (upd (mem s) (sp - 8) (Some (regs s p)))).
    destruct (IH s' (sp - 8)) as [s1 [He [Hr [Hf [Hm Hst]]]]].
    + reflexivity.
    + apply aligned_m8. exact Hal.
    + lia.
    + lia.
    + intro Hin. apply Hnin. right. exact Hin.
    + exists s1. split; [exact He|]. cbn [length]. rewrite Nat2Z.inj_succ. split; [lia|]. split; [|split].
      * intros r Hrr. rewrite Hf by exact Hrr. subst s'. cbn [regs]. apply upd_other. exact Hrr.
      * intros a Ha. rewrite Hm by lia. subst s'. cbn [mem]. apply upd_other. lia.
      * cbn [map rev]. apply stack_at_app. split.
        -- replace (sp - 8 * Z.succ (Z.of_nat (length ps))) with (sp - 8 - 8 * Z.of_nat (length ps)) by lia.
           assert (Hmap : map (regs s') ps = map (regs s) ps).
           { apply map_ext_in. intros r Hin. subst s'. cbn [regs]. apply upd_other.
             intro Heq. subst r. apply Hnin. right. exact Hin. }
           rewrite <- Hmap. exact Hst.
        -- rewrite rev_length, map_length. cbn [stack_at]. split; [|exact I].
           replace (sp - 8 * Z.succ (Z.of_nat (length ps)) + 8 * Z.of_nat (length ps)) with (sp - 8) by lia.
           rewrite Hm by lia. subst s'. cbn [mem]. apply upd_same.
Qed.

Lemma pop_all : forall qs s base vals,
  regs s RSP = base -> aligned base = true -> 0 <= base -> base + 8 * Z.of_nat (length qs) < M64 ->
  length vals = length qs -> stack_at (mem s) base vals -> NoDup qs -> ~ In RSP qs ->
  exists s', exec (map IPop qs) s = Running s'
    /\ regs s' RSP = base + 8 * Z.of_nat (length qs)
    /\ (forall q v, In (q, v) (combine qs vals) -> regs s' q = v)
    /\ (forall r, ~ In r qs -> r <> RSP -> regs s' r = regs s r)
    /\ mem s' = mem s.
Proof.
  induction qs as [|q qs IH]; intros s base vals Hsp Hal H0 Hlt Hlen Hst Hnd Hnin.
  - exists s. cbn [map exec length combine]. repeat split; auto; try lia. intros q v [].
  - destruct vals as [|v vals]; [discriminate|]. cbn [stack_at] in Hst. destruct Hst as [Hv Hst].
    cbn [length] in Hlt. rewrite Nat2Z.inj_succ in Hlt.
    cbn [map exec step]. rewrite Hsp.
    destruct (q =? RSP) eqn:Eq; [apply Z.eqb_eq in Eq; exfalso; apply Hnin; left; exact Eq|].
    apply Z.eqb_neq in Eq.
    rewrite Hal, Hv. rewrite low64_small by lia.
    set (s1 := mkState (upd (upd (regs s) RSP (base + 8)) q v) (mem s)).
    apply NoDup_cons_iff in Hnd. destruct Hnd as [Hnq Hnd'].
    destruct (IH s1 (base + 8) vals) as [s' [He [Hr [Hc [Hf Hm]]]]].
    + subst s1. cbn [regs]. rewrite upd_other by (intro; apply Eq; congruence). apply upd_same.
    + apply aligned_p8. exact Hal.
    + lia.
    + lia.
    + cbn [length] in Hlen. lia.
    + subst s1. cbn [mem]. exact Hst.
    + exact Hnd'.
    + intro Hin. apply Hnin. right. exact Hin.
    + exists s'. split; [exact He|]. cbn [length]. rewrite Nat2Z.inj_succ. split; [lia|]. split; [|split].
      * intros q' v' Hin. cbn [combine] in Hin. destruct Hin as [Heq | Hin].
        -- inversion Heq; subst q' v'. rewrite Hf; [| exact Hnq | exact Eq]. subst s1. cbn [regs]. apply upd_same.
        -- apply Hc. exact Hin.
      * intros r Hnr Hrr. rewrite Hf; [| intro Hin; apply Hnr; right; exact Hin | exact Hrr].
        subst s1. cbn [regs]. rewrite upd_other by (intro Heq; apply Hnr; left; congruence).
        apply upd_other. exact Hrr.
      * rewrite Hm. reflexivity.
Qed.

Lemma combine_map_self : forall A B (f : A -> B) (l : list A),
  combine l (map f l) = map (fun x => (x, f x)) l.
Proof. intros A B f l. induction l as [|a l IH]; cbn [map combine]; [reflexivity | rewrite IH; reflexivity]. Qed.


Theorem wrap_correct : forall ps body s sp ra,
  regs s RSP = sp -> aligned sp = true -> 8 * Z.of_nat (length ps) <= sp -> sp + 8 < M64 ->
  NoDup ps -> ~ In RSP ps -> mem s sp = Some ra ->
  exists s1, exec (map IPush ps) s = Running s1
    /\ regs s1 RSP = sp - 8 * Z.of_nat (length ps)
    /\ (forall r, r <> RSP -> regs s1 r = regs s r)
    /\ (forall a, sp <= a -> mem s1 a = mem s a)
    /\ forall sb,
         exec body s1 = Running sb ->
         regs sb RSP = regs s1 RSP ->                                   (* stack-balanced body *)
         (forall a, regs s1 RSP <= a <= sp -> mem sb a = mem s1 a) ->  (* leaves save area + return slot alone *)
         exists sf, exec (map IPush ps ++ body ++ map IPop (rev ps) ++ [IRet]) s = Returned sf ra
           /\ regs sf RSP = sp + 8
           /\ (forall r, In r ps -> regs sf r = regs s r)
           /\ (forall r, ~ In r ps -> r <> RSP -> regs sf r = regs sb r)
           /\ mem sf = mem sb.
Proof.
  intros ps body s sp ra Hsp Hal Hroom Hlt Hnd Hnin Hra.
  assert (H0 : 0 <= Z.of_nat (length ps)) by lia.
  destruct (push_all ps s sp Hsp Hal Hroom ltac:(lia) Hnin) as [s1 [He1 [Hr1 [Hf1 [Hm1 Hst1]]]]].
  exists s1. split; [exact He1|]. split; [exact Hr1|]. split; [exact Hf1|]. split; [exact Hm1|].
  intros sb Heb Hbal Hsave.
  set (base := sp - 8 * Z.of_nat (length ps)) in *.
  assert (Hstb : stack_at (mem sb) base (rev (map (regs s) ps))).
  { clear - Hst1 Hsave Hr1 H0.
    assert (G : forall vals b, base <= b -> b + 8 * Z.of_nat (length vals) <= sp + 8 ->
                stack_at (mem s1) b vals -> stack_at (mem sb) b vals).
    { induction vals as [|v r IH]; intros b Hb1 Hb2 Hst; cbn [stack_at] in *; [exact I|].
      cbn [length] in Hb2. rewrite Nat2Z.inj_succ in Hb2. destruct Hst as [Hv Hst]. split.
      - rewrite Hsave; [exact Hv|]. rewrite Hr1. fold base. lia.
      - apply IH; [lia | lia | exact Hst]. }
    apply G; [lia | | exact Hst1]. rewrite rev_length, map_length. subst base. lia. }
  destruct (pop_all (rev ps) sb base (rev (map (regs s) ps))) as [s3 [He3 [Hr3 [Hc3 [Hf3 Hm3]]]]].
  - rewrite Hbal. exact Hr1.
  - subst base. replace (sp - 8 * Z.of_nat (length ps)) with (sp + 8 * (- Z.of_nat (length ps))) by lia.
    apply aligned_shift. exact Hal.
  - subst base. lia.
  - rewrite rev_length. subst base. lia.
  - rewrite !rev_length, map_length. reflexivity.
  - exact Hstb.
  - apply NoDup_rev. exact Hnd.
  - intro Hin. apply in_rev in Hin. contradiction.
  - rewrite rev_length in Hr3.
    assert (Hrsp3 : regs s3 RSP = sp) by (rewrite Hr3; subst base; lia).
    assert (Hra3 : mem s3 sp = Some ra).
    { rewrite Hm3. rewrite Hsave; [| rewrite Hr1; fold base; subst base; lia]. rewrite Hm1 by lia. exact Hra. }
    eexists. split.
    + rewrite (exec_app_running _ _ _ _ He1). rewrite (exec_app_running _ _ _ _ Heb).
      rewrite (exec_app_running _ _ _ _ He3). cbn [exec step]. rewrite Hrsp3, Hal, Hra3. reflexivity.
    + cbn [regs mem]. split; [|split; [|split]].
      * rewrite upd_same. apply low64_small. lia.
      * intros r Hin. assert (Hrr : r <> RSP) by (intro; subst; contradiction).
        rewrite upd_other by exact Hrr. apply Hc3.
        rewrite <- map_rev. rewrite combine_map_self. apply in_map_iff. exists r. split; [reflexivity|].
        apply in_rev in Hin. exact Hin.
      * intros r Hnr Hrr. rewrite upd_other by exact Hrr. apply Hf3; [|exact Hrr].
        intro Hin. apply in_rev in Hin. contradiction.
      * exact Hm3.
Qed.
