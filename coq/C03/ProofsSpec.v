(* C03/ProofsSpec.v -- the specification the C03 theorems are stated against (iso = a bijection between
   the inside values and one between the inside blocks under which the two trees match: m_op), the
   side conditions of the partial theorems, list lemmas, and the first structural lemma: what a
   successful run adds to the context. *)
From Coq Require Import List Arith Bool Lia.
From XV Require Import C03.Model.
Import ListNotations.

Scheme op_mind := Induction for op Sort Prop
with ops_mind := Induction for ops Sort Prop
with block_mind := Induction for block Sort Prop
with blocks_mind := Induction for blocks Sort Prop
with regions_mind := Induction for regions Sort Prop.
Combined Scheme ir_mutind from op_mind, ops_mind, block_mind, blocks_mind, regions_mind.

(* the values / blocks defined inside a piece of IR, in the order the walk meets their definitions *)

Fixpoint defs_op (x : op) : list vid :=
  match x with Op _ _ rs _ _ _ g _ => defs_regions g ++ map fst rs end
with defs_regions (g : regions) : list vid :=
  match g with GNil => [] | GCons r t => defs_blocks r ++ defs_regions t end
with defs_blocks (r : blocks) : list vid :=
  match r with BNil => [] | BCons k t => defs_block k ++ defs_blocks t end
with defs_block (k : block) : list vid :=
  match k with Blk _ args body => map fst args ++ defs_ops body end
with defs_ops (l : ops) : list vid :=
  match l with ONil => [] | OCons o t => defs_op o ++ defs_ops t end.

Fixpoint blks_op (x : op) : list bid :=
  match x with Op _ _ _ _ _ _ g _ => blks_regions g end
with blks_regions (g : regions) : list bid :=
  match g with GNil => [] | GCons r t => blks_blocks r ++ blks_regions t end
with blks_blocks (r : blocks) : list bid :=
  match r with BNil => [] | BCons k t => blks_block k ++ blks_blocks t end
with blks_block (k : block) : list bid :=
  match k with Blk b _ body => b :: blks_ops body end
with blks_ops (l : ops) : list bid :=
  match l with ONil => [] | OCons o t => blks_op o ++ blks_ops t end.

(* R is a one-to-one correspondence between the elements of dom and the elements of cod *)
Record bij (R : nat -> nat -> Prop) (dom cod : list nat) : Prop := {
  bij_dom : forall x y, R x y -> In x dom /\ In y cod;
  bij_tot : forall x, In x dom -> exists y, R x y;
  bij_sur : forall y, In y cod -> exists x, R x y;
  bij_fun : forall x y y', R x y -> R x y' -> y = y';
  bij_inj : forall x x' y, R x y -> R x' y -> x = x' }.

Section Match.
  Variable rt : bool.                         (* true: result types must agree (the property) *)
  Variables Rv Rb : nat -> nat -> Prop.       (* the correspondence of values / of blocks *)
  Variables Iva Ivb : list vid.               (* values defined inside the left / right IR *)
  Variables Iba Ibb : list bid.               (* blocks inside the left / right IR *)

  (* a use corresponds: inside -> mapped ; outside -> identical (and outside on both sides) *)
  Definition vcorr (o o' : vid) : Prop := Rv o o' \/ (~ In o Iva /\ ~ In o' Ivb /\ o = o').
  Definition bcorr (s s' : bid) : Prop := Rb s s' \/ (~ In s Iba /\ ~ In s' Ibb /\ s = s').
  Definition rescorr (r r' : vid * ty) : Prop := Rv (fst r) (fst r') /\ (rt = true -> snd r = snd r').
  Definition argcorr (r r' : vid * ty) : Prop := Rv (fst r) (fst r') /\ snd r = snd r'.

  (* every operation agrees on name, operand correspondence, result types, attributes, properties,
     successors and nested regions; every block on argument types.  (The `parent` field is the
     position of the node in its tree and is not part of the comparison.) *)
  Fixpoint m_op (x y : op) {struct x} : Prop :=
    match x, y with
    | Op n os rs a p ss g _, Op n' os' rs' a' p' ss' g' _ =>
        n = n' /\ a = a' /\ p = p' /\ Forall2 vcorr os os' /\ Forall2 rescorr rs rs'
        /\ Forall2 bcorr ss ss' /\ m_regions g g'
    end
  with m_regions (g g' : regions) {struct g} : Prop :=
    match g, g' with
    | GNil, GNil => True
    | GCons r t, GCons r' t' => m_blocks r r' /\ m_regions t t'
    | _, _ => False
    end
  with m_blocks (r r' : blocks) {struct r} : Prop :=
    match r, r' with
    | BNil, BNil => True
    | BCons k t, BCons k' t' => m_block k k' /\ m_blocks t t'
    | _, _ => False
    end
  with m_block (k k' : block) {struct k} : Prop :=
    match k, k' with
    | Blk b args body, Blk b' args' body' => Rb b b' /\ Forall2 argcorr args args' /\ m_ops body body'
    end
  with m_ops (l l' : ops) {struct l} : Prop :=
    match l, l' with
    | ONil, ONil => True
    | OCons o t, OCons o' t' => m_op o o' /\ m_ops t t'
    | _, _ => False
    end.

  (* side conditions of the partial theorems, on the left IR only (dpu refers to its inside ids Iva, Iba) *)

  (* every use satisfies P (operands) / Q (successors) *)
  Fixpoint uses_op (P : vid -> Prop) (Q : bid -> Prop) (x : op) : Prop :=
    match x with
    | Op _ os _ _ _ ss g _ => (forall o, In o os -> P o) /\ (forall s, In s ss -> Q s) /\ uses_regions P Q g
    end
  with uses_regions P Q (g : regions) : Prop :=
    match g with GNil => True | GCons r t => uses_blocks P Q r /\ uses_regions P Q t end
  with uses_blocks P Q (r : blocks) : Prop :=
    match r with BNil => True | BCons k t => uses_block P Q k /\ uses_blocks P Q t end
  with uses_block P Q (k : block) : Prop :=
    match k with Blk _ _ body => uses_ops P Q body end
  with uses_ops P Q (l : ops) : Prop :=
    match l with ONil => True | OCons o t => uses_op P Q o /\ uses_ops P Q t end.

  (* defs precede uses: when an op is visited, each of its operands that is defined inside the
     compared IR is among the values `sv` registered so far (and each successor that is an inside
     block among the blocks `sb` registered so far).  The threading of sv/sb follows the walk:
     a region first registers all its blocks; a block its arguments and itself; an op, after its
     regions, its results. *)
  Fixpoint dpu_op (sv : list vid) (sb : list bid) (x : op) : Prop :=
    match x with
    | Op _ os _ _ _ ss g _ =>
        (forall o, In o os -> In o Iva -> In o sv) /\ (forall s, In s ss -> In s Iba -> In s sb)
        /\ dpu_regions sv sb g
    end
  with dpu_regions sv sb (g : regions) : Prop :=
    match g with
    | GNil => True
    | GCons r t => dpu_blocks sv (blocks_ids r ++ sb) r
                   /\ dpu_regions (defs_blocks r ++ sv) (blks_blocks r ++ sb) t
    end
  with dpu_blocks sv sb (r : blocks) : Prop :=
    match r with
    | BNil => True
    | BCons k t => dpu_block sv sb k /\ dpu_blocks (defs_block k ++ sv) (blks_block k ++ sb) t
    end
  with dpu_block sv sb (k : block) : Prop :=
    match k with Blk b args body => dpu_ops (map fst args ++ sv) (b :: sb) body end
  with dpu_ops sv sb (l : ops) : Prop :=
    match l with
    | ONil => True
    | OCons o t => dpu_op sv sb o /\ dpu_ops (defs_op o ++ sv) (blks_op o ++ sb) t
    end.
End Match.

(* tree well-formedness of the `parent` fields below the root: an op listed in block b has parent b *)
Fixpoint wfp_op (x : op) : Prop :=
  match x with Op _ _ _ _ _ _ g _ => wfp_regions g end
with wfp_regions (g : regions) : Prop :=
  match g with GNil => True | GCons r t => wfp_blocks r /\ wfp_regions t end
with wfp_blocks (r : blocks) : Prop :=
  match r with BNil => True | BCons k t => wfp_block k /\ wfp_blocks t end
with wfp_block (k : block) : Prop :=
  match k with Blk b _ body => wfp_ops b body end
with wfp_ops (b : bid) (l : ops) : Prop :=
  match l with ONil => True | OCons o t => op_parent o = Some b /\ wfp_op o /\ wfp_ops b t end.

(* result types pairwise equal (positionally, wherever both trees have an op) *)
Fixpoint rt_eq_op (x y : op) {struct x} : Prop :=
  match x, y with
  | Op _ _ rs _ _ _ g _, Op _ _ rs' _ _ _ g' _ => map snd rs = map snd rs' /\ rt_eq_regions g g'
  end
with rt_eq_regions (g g' : regions) {struct g} : Prop :=
  match g, g' with GCons r t, GCons r' t' => rt_eq_blocks r r' /\ rt_eq_regions t t' | _, _ => True end
with rt_eq_blocks (r r' : blocks) {struct r} : Prop :=
  match r, r' with BCons k t, BCons k' t' => rt_eq_block k k' /\ rt_eq_blocks t t' | _, _ => True end
with rt_eq_block (k k' : block) {struct k} : Prop :=
  match k, k' with Blk _ _ body, Blk _ _ body' => rt_eq_ops body body' end
with rt_eq_ops (l l' : ops) {struct l} : Prop :=
  match l, l' with OCons o t, OCons o' t' => rt_eq_op o o' /\ rt_eq_ops t t' | _, _ => True end.

(* identities are unique inside one IR tree *)
Definition wf_op (x : op) : Prop := NoDup (defs_op x) /\ NoDup (blks_op x) /\ wfp_op x.
Definition wf_block (k : block) : Prop := NoDup (defs_block k) /\ NoDup (blks_block k) /\ wfp_block k.
Definition wf_region (r : blocks) : Prop := NoDup (defs_blocks r) /\ NoDup (blks_blocks r) /\ wfp_blocks r.

(* THE SPEC.  rt = true is the property's statement; rt = false ignores result types. *)
Definition iso_op (rt : bool) (a b : op) : Prop :=
  exists Rv Rb, bij Rv (defs_op a) (defs_op b) /\ bij Rb (blks_op a) (blks_op b)
    /\ m_op rt Rv Rb (defs_op a) (defs_op b) (blks_op a) (blks_op b) a b.
Definition iso_block (rt : bool) (a b : block) : Prop :=
  exists Rv Rb, bij Rv (defs_block a) (defs_block b) /\ bij Rb (blks_block a) (blks_block b)
    /\ m_block rt Rv Rb (defs_block a) (defs_block b) (blks_block a) (blks_block b) a b.
Definition iso_region (rt : bool) (a b : blocks) : Prop :=
  exists Rv Rb, bij Rv (defs_blocks a) (defs_blocks b) /\ bij Rb (blks_blocks a) (blks_blocks b)
    /\ m_blocks rt Rv Rb (defs_blocks a) (defs_blocks b) (blks_blocks a) (blks_blocks b) a b.

Definition dpu_top_op (a : op) : Prop := dpu_op (defs_op a) (blks_op a) [] [] a.
Definition dpu_top_block (a : block) : Prop := dpu_block (defs_block a) (blks_block a) [] [] a.
Definition dpu_top_region (a : blocks) : Prop :=
  dpu_blocks (defs_blocks a) (blks_blocks a) [] (blocks_ids a) a.
(* an operand/successor of a that is outside a is also outside b *)
Definition ext_ok_op (a b : op) : Prop :=
  uses_op (fun o => ~ In o (defs_op a) -> ~ In o (defs_op b))
          (fun s => ~ In s (blks_op a) -> ~ In s (blks_op b)) a.
Definition ext_ok_block (a b : block) : Prop :=
  uses_block (fun o => ~ In o (defs_block a) -> ~ In o (defs_block b))
             (fun s => ~ In s (blks_block a) -> ~ In s (blks_block b)) a.
Definition ext_ok_region (a b : blocks) : Prop :=
  uses_blocks (fun o => ~ In o (defs_blocks a) -> ~ In o (defs_blocks b))
              (fun s => ~ In s (blks_blocks a) -> ~ In s (blks_blocks b)) a.
Definition detached (a b : op) : Prop := op_parent a = None \/ op_parent b = None.

Lemma combine_app : forall (A B : Type) (a a2 : list A) (b b2 : list B),
  length a = length b -> combine (a ++ a2) (b ++ b2) = combine a b ++ combine a2 b2.
Proof.
  induction a as [|x a IH]; intros a2 b b2 Hl; destruct b as [|y b]; simpl in *; try discriminate; auto.
  f_equal. apply IH. lia.
Qed.

Lemma in_combine_ex_l : forall (l l' : list nat) x, In x l -> length l = length l' ->
  exists y, In (x, y) (combine l l').
Proof.
  induction l as [|a l IH]; destruct l' as [|b l']; simpl; intros x Hin Hl; try contradiction; try discriminate.
  destruct Hin as [->|Hin]; [eexists; left; reflexivity|].
  destruct (IH l' x Hin) as [y Hy]; [lia|]. exists y. right. exact Hy.
Qed.

Lemma in_combine_ex_r : forall (l l' : list nat) y, In y l' -> length l = length l' ->
  exists x, In (x, y) (combine l l').
Proof.
  induction l as [|a l IH]; destruct l' as [|b l']; simpl; intros y Hin Hl; try contradiction; try discriminate.
  destruct Hin as [->|Hin]; [eexists; left; reflexivity|].
  destruct (IH l' y Hin) as [x Hx]; [lia|]. exists x. right. exact Hx.
Qed.

Lemma combine_fun : forall (l l' : list nat) x y y', NoDup l ->
  In (x, y) (combine l l') -> In (x, y') (combine l l') -> y = y'.
Proof.
  induction l as [|a l IH]; destruct l' as [|b l']; simpl; intros x y y' Hnd H1 H2; try contradiction.
  inversion Hnd as [|? ? Hni Hnd']; subst.
  destruct H1 as [H1|H1]; destruct H2 as [H2|H2].
  - congruence.
  - inversion H1; subst. apply in_combine_l in H2. contradiction.
  - inversion H2; subst. apply in_combine_l in H1. contradiction.
  - eapply IH; eauto.
Qed.

Lemma combine_inj : forall (l l' : list nat) x x' y, NoDup l' ->
  In (x, y) (combine l l') -> In (x', y) (combine l l') -> x = x'.
Proof.
  induction l as [|a l IH]; destruct l' as [|b l']; simpl; intros x x' y Hnd H1 H2; try contradiction.
  inversion Hnd as [|? ? Hni Hnd']; subst.
  destruct H1 as [H1|H1]; destruct H2 as [H2|H2].
  - congruence.
  - inversion H1; subst. apply in_combine_r in H2. contradiction.
  - inversion H2; subst. apply in_combine_r in H1. contradiction.
  - eapply IH; eauto.
Qed.

Lemma bij_combine : forall l l', NoDup l -> NoDup l' -> length l = length l' ->
  bij (fun x y => In (x, y) (combine l l')) l l'.
Proof.
  intros l l' H1 H2 Hl. constructor.
  - intros x y H. split; [eapply in_combine_l|eapply in_combine_r]; eauto.
  - intros x H. apply in_combine_ex_l; auto.
  - intros y H. apply in_combine_ex_r; auto.
  - intros x y y' Ha Hb. cbv beta in Ha, Hb. exact (combine_fun l l' x y y' H1 Ha Hb).
  - intros x x' y Ha Hb. cbv beta in Ha, Hb. exact (combine_inj l l' x x' y H2 Ha Hb).
Qed.

Lemma lookup_some_in : forall l k v, lookup l k = Some v -> In (k, v) l.
Proof.
  induction l as [|[k' v'] l IH]; simpl; intros k v H; [discriminate|].
  destruct (k' =? k) eqn:E.
  - apply Nat.eqb_eq in E. inversion H; subst. left; reflexivity.
  - right. apply IH; exact H.
Qed.

Lemma lookup_none_notin : forall l k, lookup l k = None -> ~ In k (map fst l).
Proof.
  induction l as [|[k' v'] l IH]; simpl; intros k H; [tauto|].
  destruct (k' =? k) eqn:E; [discriminate|].
  apply Nat.eqb_neq in E. intros [Hc|Hc]; [contradiction|]. eapply IH; eauto.
Qed.

Lemma in_lookup_some : forall l k v, In (k, v) l -> exists v', lookup l k = Some v'.
Proof.
  intros l k v H. destruct (lookup l k) eqn:E; [eexists; reflexivity|].
  apply lookup_none_notin in E. exfalso. apply E. apply in_map_iff. exists (k, v). auto.
Qed.

Lemma nats_eqb_eq : forall l l', nats_eqb l l' = true <-> l = l'.
Proof.
  induction l as [|a l IH]; destruct l' as [|b l']; simpl; split; intros H; try discriminate; auto.
  - apply andb_true_iff in H. destruct H as [H1 H2]. apply Nat.eqb_eq in H1. apply IH in H2. congruence.
  - inversion H; subst. rewrite Nat.eqb_refl. simpl. apply IH. reflexivity.
Qed.

Lemma blocks_ids_len : forall r, length (blocks_ids r) = blocks_len r.
Proof. induction r; simpl; auto. Qed.

Lemma reg_results_in : forall rs rs' l p,
  In p (reg_results l rs rs') <-> In p (combine (map fst rs) (map fst rs')) \/ In p l.
Proof.
  unfold reg_results. induction rs as [|r rs IH]; intros [|r' rs'] l p; simpl; [tauto..|].
  split.
  - intros H. apply IH in H. destruct H as [H|[H|H]]; auto.
  - intros [[H|H]|H]; apply IH; simpl; auto.
Qed.

Lemma reg_blocks_in : forall r r' l p,
  In p (reg_blocks l r r') <-> In p (combine (blocks_ids r) (blocks_ids r')) \/ In p l.
Proof.
  unfold reg_blocks. intros r r'. generalize (blocks_ids r) (blocks_ids r'). clear.
  intros i. induction i as [|a i IH]; intros [|b i'] l p; simpl; [tauto..|].
  split.
  - intros H. apply IH in H. destruct H as [H|[H|H]]; auto.
  - intros [[H|H]|H]; apply IH; simpl; auto.
Qed.

Lemma reg_args_true : forall xs ys l l', reg_args l xs ys = (true, l') ->
  (forall p, In p l' <-> In p (combine (map fst xs) (map fst ys)) \/ In p l)
  /\ (length xs = length ys -> map snd xs = map snd ys).
Proof.
  induction xs as [|[a t] xs IH]; intros [|[a' t'] ys] l l' H; simpl in H.
  - injection H as <-. split; [simpl; tauto|reflexivity].
  - injection H as <-. split; [simpl; tauto|discriminate].
  - injection H as <-. split; [simpl; tauto|discriminate].
  - destruct (t =? t') eqn:E; simpl in H; [|discriminate].
    apply Nat.eqb_eq in E. subst t'.
    destruct (IH _ _ _ H) as [H1 H2]. split.
    + intros p. simpl. split.
      * intros Hp. apply H1 in Hp. destruct Hp as [Hp|[Hp|Hp]]; auto.
      * intros [[Hp|Hp]|Hp]; apply H1; simpl; auto.
    + intros Hl. simpl. f_equal. apply H2. injection Hl as Hl. exact Hl.
Qed.

Lemma reg_args_complete : forall xs ys l,
  Forall2 (fun r r' : vid * ty => snd r = snd r') xs ys -> exists l', reg_args l xs ys = (true, l').
Proof.
  induction xs as [|[a t] xs IH]; intros ys l H; inversion H as [|? [a' t'] ? ? Hh Ht]; subst; simpl.
  - eexists; reflexivity.
  - simpl in Hh. subst t'. rewrite Nat.eqb_refl. simpl. apply IH. exact Ht.
Qed.

Lemma all_mapped_true : forall l xs ys, all_mapped l xs ys = true -> length xs = length ys ->
  Forall2 (fun x y => get_or_self l x = y) xs ys.
Proof.
  unfold all_mapped. induction xs as [|x xs IH]; destruct ys as [|y ys]; simpl; intros H Hl; try discriminate.
  - constructor.
  - apply andb_true_iff in H. destruct H as [H1 H2]. apply Nat.eqb_eq in H1.
    constructor; [exact H1|apply IH; [exact H2|lia]].
Qed.

Lemma all_mapped_complete : forall l xs ys,
  Forall2 (fun x y => get_or_self l x = y) xs ys -> all_mapped l xs ys = true.
Proof.
  unfold all_mapped. induction 1 as [|x y xs ys Hh Ht IH]; simpl; auto.
  rewrite Hh, Nat.eqb_refl. exact IH.
Qed.

Lemma Forall2_len : forall (A B : Type) (P : A -> B -> Prop) l l', Forall2 P l l' -> length l = length l'.
Proof. induction 1; simpl; auto. Qed.

(* l' is l plus the pairs of (k, k'), as a set: a pair may have been added more than once *)
Definition grows (k k' : list nat) (l l' : list (nat * nat)) : Prop :=
  length k = length k' /\ forall p, In p l' <-> In p (combine k k') \/ In p l.

Lemma grows_refl : forall l, grows [] [] l l.
Proof. intros l. split; [reflexivity|]. intros p. simpl. tauto. Qed.

Lemma grows_trans : forall k1 k1' k2 k2' l l1 l2,
  grows k1 k1' l l1 -> grows k2 k2' l1 l2 -> grows (k1 ++ k2) (k1' ++ k2') l l2.
Proof.
  intros k1 k1' k2 k2' l l1 l2 [L1 H1] [L2 H2]. split; [rewrite !app_length; lia|].
  intros p. rewrite combine_app by exact L1. split.
  - intros H. apply H2 in H. destruct H as [H|H]; [left; apply in_or_app; right; exact H|].
    apply H1 in H. destruct H as [H|H]; [left; apply in_or_app; left; exact H|right; exact H].
  - intros [H|H]; apply H2.
    + apply in_app_or in H. destruct H as [H|H]; [right; apply H1; left; exact H|left; exact H].
    + right. apply H1. right. exact H.
Qed.

(* pairs registered twice (a region registers its blocks, then every block registers itself) *)
Lemma grows_absorb : forall i i' k k' l l',
  length i = length i' -> (forall p, In p (combine i i') -> In p (combine k k')) ->
  grows (i ++ k) (i' ++ k') l l' -> grows k k' l l'.
Proof.
  intros i i' k k' l l' Hl Hsub [L H]. split; [rewrite !app_length in L; lia|].
  intros p. rewrite H, combine_app by exact Hl. split.
  - intros [Hp|Hp]; [|right; exact Hp]. left. apply in_app_or in Hp. destruct Hp; auto.
  - intros [Hp|Hp]; [left; apply in_or_app; right; exact Hp|right; exact Hp].
Qed.

Lemma grows_mono : forall k k' l l' p, grows k k' l l' -> In p l -> In p l'.
Proof. intros k k' l l' p [_ H] Hp. apply H. right. exact Hp. Qed.

(* what a successful run adds: c' is c plus the value pairs (d, d') and the block pairs (b, b') *)
Definition ext (d d' : list vid) (b b' : list bid) (c c' : ctx) : Prop :=
  grows d d' (cv c) (cv c') /\ grows b b' (cb c) (cb c').

Lemma ext_refl : forall c, ext [] [] [] [] c c.
Proof. intros c. split; apply grows_refl. Qed.

Lemma ext_trans : forall d1 d1' b1 b1' d2 d2' b2 b2' c c1 c2,
  ext d1 d1' b1 b1' c c1 -> ext d2 d2' b2 b2' c1 c2 ->
  ext (d1 ++ d2) (d1' ++ d2') (b1 ++ b2) (b1' ++ b2') c c2.
Proof. intros d1 d1' b1 b1' d2 d2' b2 b2' c c1 c2 [V1 B1] [V2 B2]. split; eapply grows_trans; eassumption. Qed.

Lemma ext_absorb : forall d d' i i' b b' c c',
  length i = length i' ->
  (forall p, In p (combine i i') -> In p (combine b b')) ->
  ext d d' (i ++ b) (i' ++ b') c c' -> ext d d' b b' c c'.
Proof. intros d d' i i' b b' c c' Hl Hsub [V B]. split; [exact V|]. eapply grows_absorb; eassumption. Qed.

Lemma results_ext : forall c rs rs', length rs = length rs' ->
  ext (map fst rs) (map fst rs') [] [] c (Ctx (reg_results (cv c) rs rs') (cb c)).
Proof.
  intros c rs rs' Hl. split; [|apply grows_refl].
  split; [rewrite !map_length; exact Hl|]. intros p. apply reg_results_in.
Qed.

Lemma block_pre_ext : forall c args args' v1 b b',
  reg_args (cv c) args args' = (true, v1) -> length args = length args' ->
  ext (map fst args) (map fst args') [b] [b'] c (Ctx v1 ((b, b') :: cb c)).
Proof.
  intros c args args' v1 b b' H Hl. apply reg_args_true in H. destruct H as [H _].
  split; (split; [|intros p]).
  - rewrite !map_length. exact Hl.
  - apply H.
  - reflexivity.
  - simpl. tauto.
Qed.

Lemma region_pre_ext : forall c r r', blocks_len r = blocks_len r' ->
  ext [] [] (blocks_ids r) (blocks_ids r') c (Ctx (cv c) (reg_blocks (cb c) r r')).
Proof.
  intros c r r' Hl. split; [apply grows_refl|].
  split; [rewrite !blocks_ids_len; exact Hl|]. intros p. apply reg_blocks_in.
Qed.

Lemma equiv_regions_cons : forall cf c r t r' t',
  equiv_regions cf c (GCons r t) (GCons r' t') =
  let (ok, c1) := equiv_region cf c r r' in if ok then equiv_regions cf c1 t t' else (false, c1).
Proof. reflexivity. Qed.

(* a successful comparison of two operations, read off the model once *)
Lemma equiv_op_true : forall cf c n os rs a p ss g par n' os' rs' a' p' ss' g' par' c',
  equiv_op cf c (Op n os rs a p ss g par) (Op n' os' rs' a' p' ss' g' par') = (true, c') ->
  exists c1, equiv_regions cf c g g' = (true, c1) /\ c' = Ctx (reg_results (cv c1) rs rs') (cb c1)
    /\ regions_len g = regions_len g' /\ length rs = length rs'
    /\ n = n' /\ a = a' /\ p = p' /\ length os = length os' /\ length ss = length ss'
    /\ (cmp_rt cf = true -> map snd rs = map snd rs')
    /\ all_mapped (cv c) os os' = true /\ all_mapped (cb c) ss ss' = true.
Proof.
  intros cf c n os rs a p ss g par n' os' rs' a' p' ss' g' par' c' H. cbn [equiv_op] in H.
  destruct (n =? n') eqn:En; [|discriminate]. apply Nat.eqb_eq in En. cbn [negb] in H.
  match type of H with (if ?b then _ else _) = _ => destruct b eqn:Hlen end; [discriminate|].
  destruct (parent_fail cf c par par'); [discriminate|].
  destruct (all_mapped (cv c) os os'); [|discriminate]. destruct (all_mapped (cb c) ss ss'); [|discriminate].
  cbn [negb] in H. destruct (equiv_regions cf c g g') as [[] c1]; simpl in H; [|discriminate].
  injection H as <-.
  apply orb_false_iff in Hlen; destruct Hlen as [Hlen Hty].
  repeat (apply orb_false_iff in Hlen; destruct Hlen as [Hlen ?]).
  repeat match goal with Hx : negb (_ =? _) = false |- _ =>
    apply negb_false_iff in Hx; apply Nat.eqb_eq in Hx end.
  exists c1. repeat split; auto.
  intros E. rewrite E in Hty. apply negb_false_iff in Hty. apply nats_eqb_eq. exact Hty.
Qed.

Lemma equiv_block_true : forall cf c b args body b' args' body' c',
  equiv_block cf c (Blk b args body) (Blk b' args' body') = (true, c') ->
  exists v1, reg_args (cv c) args args' = (true, v1) /\ length args = length args'
    /\ ops_len body = ops_len body' /\ equiv_ops cf (Ctx v1 ((b, b') :: cb c)) body body' = (true, c').
Proof.
  intros cf c b args body b' args' body' c' H. cbn [equiv_block] in H.
  match type of H with (if ?b then _ else _) = _ => destruct b eqn:Hlen end; [discriminate|].
  apply orb_false_iff in Hlen. destruct Hlen as [Hl1 Hl2].
  apply negb_false_iff, Nat.eqb_eq in Hl1. apply negb_false_iff, Nat.eqb_eq in Hl2.
  destruct (reg_args (cv c) args args') as [[] v1]; simpl in H; [|discriminate].
  exists v1. auto.
Qed.

Lemma equiv_regions_true : forall cf c r t r' t' c',
  equiv_regions cf c (GCons r t) (GCons r' t') = (true, c') ->
  blocks_len r = blocks_len r' /\
  exists c1, equiv_blocks cf (Ctx (cv c) (reg_blocks (cb c) r r')) r r' = (true, c1)
    /\ equiv_regions cf c1 t t' = (true, c').
Proof.
  intros cf c r t r' t' c' H. rewrite equiv_regions_cons in H. unfold equiv_region, region_pre in H.
  destruct (negb (blocks_len r =? blocks_len r')) eqn:Hbl; [discriminate|].
  apply negb_false_iff, Nat.eqb_eq in Hbl. split; [exact Hbl|].
  match type of H with (let (_, _) := ?e in _) = _ => destruct e as [[] c1] end; [|discriminate].
  exists c1. auto.
Qed.

(* a region compared on its own = the one-region list compared *)
Lemma se_region_regions : forall cf a b,
  se_region cf a b = fst (equiv_regions cf empty_ctx (GCons a GNil) (GCons b GNil)).
Proof.
  intros cf a b. rewrite equiv_regions_cons. unfold se_region.
  destruct (equiv_region cf empty_ctx a b) as [[] c1]; reflexivity.
Qed.

Lemma equiv_ext :
  (forall x cf c y c', equiv_op cf c x y = (true, c') ->
     ext (defs_op x) (defs_op y) (blks_op x) (blks_op y) c c')
  /\ (forall l cf c l' c', equiv_ops cf c l l' = (true, c') -> ops_len l = ops_len l' ->
     ext (defs_ops l) (defs_ops l') (blks_ops l) (blks_ops l') c c')
  /\ (forall k cf c k' c', equiv_block cf c k k' = (true, c') ->
     ext (defs_block k) (defs_block k') (blks_block k) (blks_block k') c c')
  /\ (forall r cf c r' c', equiv_blocks cf c r r' = (true, c') -> blocks_len r = blocks_len r' ->
     ext (defs_blocks r) (defs_blocks r') (blks_blocks r) (blks_blocks r') c c'
     /\ (forall p, In p (combine (blocks_ids r) (blocks_ids r')) ->
                   In p (combine (blks_blocks r) (blks_blocks r'))))
  /\ (forall g cf c g' c', equiv_regions cf c g g' = (true, c') -> regions_len g = regions_len g' ->
     ext (defs_regions g) (defs_regions g') (blks_regions g) (blks_regions g') c c').
Proof.
  apply ir_mutind.
  - intros n os rs a p ss g IHg par cf c y c' H.
    destruct y as [n' os' rs' a' p' ss' g' par'].
    apply equiv_op_true in H. destruct H as (c1 & Hg & -> & Lg & Lr & _).
    specialize (IHg cf c g' c1 Hg Lg).
    cbn [defs_op blks_op].
    rewrite <- (app_nil_r (blks_regions g)), <- (app_nil_r (blks_regions g')).
    eapply ext_trans; [exact IHg|]. apply results_ext. exact Lr.
  - intros cf c l' c' H Hl. destruct l'; simpl in *; [inversion H; subst; apply ext_refl|discriminate].
  - intros o IHo t IHt cf c l' c' H Hl. destruct l' as [|o' t']; [simpl in Hl; discriminate|].
    cbn [equiv_ops] in H. destruct (equiv_op cf c o o') as [ok c1] eqn:Ho.
    destruct ok; [|discriminate]. simpl in Hl.
    cbn [defs_ops blks_ops]. eapply ext_trans; [eapply IHo; eauto|eapply IHt; eauto].
  - intros b args body IHb cf c k' c' H. destruct k' as [b' args' body'].
    apply equiv_block_true in H. destruct H as (v1 & Ha & Hl1 & Hl2 & H).
    specialize (IHb cf _ body' c' H Hl2).
    cbn [defs_block blks_block].
    change (b :: blks_ops body) with ([b] ++ blks_ops body).
    change (b' :: blks_ops body') with ([b'] ++ blks_ops body').
    eapply ext_trans; [|exact IHb]. apply block_pre_ext; assumption.
  - intros cf c r' c' H Hl. destruct r'; simpl in H; inversion H; subst.
    + split; [apply ext_refl|simpl; tauto].
    + simpl in Hl. discriminate.
  - intros k IHk t IHt cf c r' c' H Hl. destruct r' as [|k' t']; [simpl in Hl; discriminate|].
    cbn [equiv_blocks] in H. destruct (equiv_block cf c k k') as [ok c1] eqn:Hk.
    destruct ok; [|discriminate]. simpl in Hl.
    specialize (IHk cf c k' c1 Hk).
    destruct (IHt cf c1 t' c' H ltac:(lia)) as [IHt1 IHt2].
    cbn [defs_blocks blks_blocks blocks_ids]. split.
    + eapply ext_trans; eauto.
    + destruct IHk as [_ [Lb _]].
      rewrite combine_app by exact Lb.
      destruct k as [b args body]; destruct k' as [b' args' body']. simpl.
      intros p [Hp|Hp]; [left; exact Hp|].
      right. apply in_app_iff. right. apply IHt2. exact Hp.
  - intros cf c g' c' H Hl. destruct g'; simpl in *; [inversion H; subst; apply ext_refl|discriminate].
  - intros r IHr t IHt cf c g' c' H Hl. destruct g' as [|r' t']; [simpl in Hl; discriminate|].
    apply equiv_regions_true in H. destruct H as (Hbl & c1 & Hr & H). simpl in Hl.
    destruct (IHr cf _ r' c1 Hr Hbl) as [IHr1 IHr2].
    specialize (IHt cf c1 t' c' H ltac:(lia)).
    cbn [defs_regions blks_regions].
    eapply ext_trans; [|exact IHt].
    eapply ext_absorb with (i := blocks_ids r) (i' := blocks_ids r');
      [rewrite !blocks_ids_len; exact Hbl|exact IHr2|].
    change (defs_blocks r) with ([] ++ defs_blocks r).
    change (defs_blocks r') with ([] ++ defs_blocks r').
    eapply ext_trans; [|exact IHr1]. apply region_pre_ext. exact Hbl.
Qed.
