(* C13/ProofsSem.v -- region_dce preserves the behaviour of the single-region CFG fragment.

   Semantics (Spec): a region whose operations have no nested regions is executed from its entry
   block.  Operation semantics are uninterpreted (Section variables): `sem o operands mem` gives
   the results, the new memory and the events appended to the effect log; the last operation of a
   block must be a terminator, whose `tsem` either returns values or jumps to its k-th successor
   passing block arguments.  The only assumption about them (`sem_pure`) is the meaning of the traits:
   an operation that passes would_be_trivially_dead always succeeds, leaves the memory unchanged
   and logs nothing.  Environments are total maps from value ids to values. *)
From Coq Require Import List Arith Bool Lia.
From XV Require Import C24.Model C24.ProofsPO C13.Model C13.Proofs.
Import ListNotations.

Section Sem.
  Variables val mem event : Type.
  Inductive tres := TJump (k : nat) (args : list val) | TRet (rs : list val).
  Variable sem : op -> list val -> mem -> option (list val * mem * list event).
  Variable tsem : op -> list val -> mem -> option (tres * mem * list event).
  Hypothesis sem_pure : forall o vs m,
    would_be_trivially_dead o = true -> exists rs, sem o vs m = Some (rs, m, []).

  Definition env := nat -> val.
  Fixpoint bind (xs : list nat) (vs : list val) (e : env) : env :=
    match xs, vs with
    | x :: xs', v :: vs' => bind xs' vs' (fun y => if Nat.eqb y x then v else e y)
    | _, _ => e
    end.
  Definition get_all (e : env) (l : list nat) : list val := map e l.
  Definition find_block (r : region) (bid : nat) : option block :=
    find (fun b => Nat.eqb (b_id b) bid) r.

  Definition outcome := (list val * mem * list event)%type.

  (* big-step execution of the rest `ops` of the current block *)
  Inductive exec (r : region) : list op -> env -> mem -> list event -> outcome -> Prop :=
  | ex_op o rest e m lg rs m' ev res :
      rest <> [] ->
      sem o (get_all e (o_args o)) m = Some (rs, m', ev) ->
      exec r rest (bind (o_res o) rs e) m' (lg ++ ev) res ->
      exec r (o :: rest) e m lg res
  | ex_ret t e m lg rs m' ev :
      o_term t = true ->
      tsem t (get_all e (o_args t)) m = Some (TRet rs, m', ev) ->
      exec r [t] e m lg (rs, m', lg ++ ev)
  | ex_jump t e m lg k args m' ev bid b res :
      o_term t = true ->
      tsem t (get_all e (o_args t)) m = Some (TJump k args, m', ev) ->
      nth_error (o_succs t) k = Some bid ->
      find_block r bid = Some b ->
      exec r (b_ops b) (bind (b_args b) args e) m' (lg ++ ev) res ->
      exec r [t] e m lg res.

  (* run r e m res: started in the entry block with environment e, memory m and an empty log, the
     region returns `res` = (returned values, final memory, effect log) *)
  Definition run (r : region) (e : env) (m : mem) (res : outcome) : Prop :=
    match r with [] => False | b0 :: _ => exec r (b_ops b0) e m [] res end.

  Lemma run_cons rr b0 rest e m res :
    rr = b0 :: rest -> (run rr e m res <-> exec rr (b_ops b0) e m [] res).
  Proof. intros ->. reflexivity. Qed.

(* environments *)
  Lemma bind_ext xs : forall vs e1 e2 y, e1 y = e2 y -> bind xs vs e1 y = bind xs vs e2 y.
  Proof.
    induction xs as [|x xs IH]; intros [|v vs] e1 e2 y E; simpl; auto.
    apply IH. destruct (Nat.eqb y x); auto.
  Qed.

  Lemma bind_notin xs : forall vs e y, ~ In y xs -> bind xs vs e y = e y.
  Proof.
    induction xs as [|x xs IH]; intros [|v vs] e y Hn; simpl; auto.
    rewrite IH by (intros H; apply Hn; right; exact H).
    destruct (Nat.eqb y x) eqn:E; auto. apply Nat.eqb_eq in E. subst. exfalso. apply Hn. left; reflexivity.
  Qed.

  Variable r : region.
  Variable st : lstate.
  Hypothesis Hnd : NoDup (ids (walk_region r)).
  Hypothesis Hfin : final (walk_region r) (trav_region r) st.
  Hypothesis Hfree : forall o, In o (walk_region r) -> o_regs o = [].
  Let L := Lof st.
  Let r' := dd_region L r.

  Definition live_ops (ops : list op) : list op := filter (fun x => L (o_id x)) ops.

  Definition dead_val (v : nat) : Prop :=
    exists o, visited_r r o /\ L (o_id o) = false /\ In v (o_res o).
  Definition agree (e1 e2 : env) : Prop := forall v, ~ dead_val v -> e1 v = e2 v.

  Lemma agree_bind_same xs vs e1 e2 : agree e1 e2 -> agree (bind xs vs e1) (bind xs vs e2).
  Proof. intros H v Hv. apply bind_ext. apply H. exact Hv. Qed.

  Lemma agree_bind_dead xs vs e1 e2 :
    (forall v, In v xs -> dead_val v) -> agree e1 e2 -> agree (bind xs vs e1) e2.
  Proof.
    intros Hd H v Hv. rewrite bind_notin; [apply H; exact Hv|]. intros Hin. apply Hv. apply Hd. exact Hin.
  Qed.

  (* positions: `ops` is the rest of a reachable block *)
  Definition at_ (ops : list op) : Prop :=
    exists bi bcur pre, nth_error r bi = Some bcur /\ reach (cfg_of r) bi /\ b_ops bcur = pre ++ ops.

  Lemma at_tail o rest : at_ (o :: rest) -> at_ rest.
  Proof.
    intros (bi & bc & pre & Hn & Hr & E). exists bi, bc, (pre ++ [o]). repeat split; auto.
    rewrite <- app_assoc. exact E.
  Qed.

  Lemma at_visited ops o : at_ ops -> In o ops -> visited_r r o.
  Proof.
    intros (bi & bc & pre & Hn & Hr & E) Ho. eapply vis_r; eauto; [|apply vis_self].
    rewrite E. apply in_or_app. right; exact Ho.
  Qed.

  Lemma at_block bi b : nth_error r bi = Some b -> reach (cfg_of r) bi -> at_ (b_ops b).
  Proof. intros Hn Hr. exists bi, b, []. auto. Qed.

  Lemma visited_term_live t : visited_r r t -> o_term t = true -> L (o_id t) = true.
  Proof.
    intros Hv Ht. destruct (visited_closed r st Hfin t Hv) as [Hl|[Hw _]]; [exact Hl|].
    unfold would_be_trivially_dead in Hw. rewrite Ht in Hw. discriminate.
  Qed.

  Lemma visited_dead o : visited_r r o -> L (o_id o) = false ->
    would_be_trivially_dead o = true /\ forall v, In v (o_res o) -> dead_val v.
  Proof.
    intros Hv Hl. destruct (visited_closed r st Hfin o Hv) as [Hl'|[Hw _]].
    - unfold L in Hl. congruence.
    - split; auto. intros v Hin. exists o. auto.
  Qed.

  Lemma live_args o : visited_r r o -> L (o_id o) = true -> forall e1 e2, agree e1 e2 ->
    get_all e1 (o_args o) = get_all e2 (o_args o).
  Proof.
    intros Hv Hl e1 e2 Ha. unfold get_all. apply map_ext_in. intros v Hin. apply Ha.
    intros (d & Hvd & Hld & Hres).
    destruct (visited_closed r st Hfin d Hvd) as [Hl'|[_ Hno]]; [unfold L in Hld; congruence|].
    apply Hno. exists o. split; [apply visited_r_walk; exact Hv|]. split; [exists v; auto|exact Hl].
  Qed.

  (* region-free blocks: delete_dead is a filter *)
  Lemma dd_op_free o : o_regs o = [] -> dd_op L o = o.
  Proof. intros E. rewrite dd_op_eq, E. destruct o; simpl in *; subst; reflexivity. Qed.

  Lemma dd_block_free b : In b r -> b_ops (dd_block L b) = live_ops (b_ops b).
  Proof.
    intros Hb. rewrite dd_block_ops. unfold live_ops.
    assert (H : forall x, In x (b_ops b) -> dd_op L x = x).
    { intros x Hx. apply dd_op_free. apply Hfree. exact (walk_region_op r b x Hb Hx). }
    induction (b_ops b) as [|x l IH]; simpl; auto.
    rewrite IH by (intros; apply H; right; assumption).
    destruct (L (o_id x)); simpl; auto. rewrite H by (left; reflexivity). reflexivity.
  Qed.

  (* executions end in a terminator *)
  Lemma exec_last rr ops e m lg res : exec rr ops e m lg res ->
    exists pre t, ops = pre ++ [t] /\ o_term t = true.
  Proof.
    induction 1 as [o rest e m lg rs m' ev res Hne _ _ (pre & t & -> & Ht)|t e m lg rs m' ev Ht _
                   |t e m lg k args m' ev bid b res Ht _ _ _ _ _].
    - exists (o :: pre), t. auto.
    - exists [], t. auto.
    - exists [], t. auto.
  Qed.

  Lemma live_ops_nonempty ops e m lg res : at_ ops -> exec r ops e m lg res -> live_ops ops <> [].
  Proof.
    intros Hat Hex. destruct (exec_last _ _ _ _ _ _ Hex) as (pre & t & -> & Ht).
    assert (Hin : In t (live_ops (pre ++ [t]))).
    { apply filter_In. split; [apply in_or_app; right; left; reflexivity|].
      apply visited_term_live; auto. eapply at_visited; eauto. apply in_or_app; right; left; reflexivity. }
    intros E. rewrite E in Hin. destruct Hin.
  Qed.

(* jump targets *)
  Lemma find_index rr bid b : find_block rr bid = Some b ->
    nth_error rr (index_of bid (map b_id rr)) = Some b.
  Proof.
    unfold find_block. induction rr as [|a rr IH]; simpl; [discriminate|].
    rewrite (Nat.eqb_sym bid (b_id a)). destruct (Nat.eqb (b_id a) bid); intros E; [exact E|apply IH; exact E].
  Qed.

  Lemma last_some {A} (l : list A) (x : A) : last (map Some (l ++ [x])) None = Some x.
  Proof. induction l as [|a l IH]; simpl; auto. rewrite IH. destruct (map Some (l ++ [x])) eqn:E; auto.
         destruct l; discriminate. Qed.

  Lemma jump_target t k bid b :
    at_ [t] -> o_term t = true -> nth_error (o_succs t) k = Some bid -> find_block r bid = Some b ->
    exists bj, nth_error r bj = Some b /\ reach (cfg_of r) bj.
  Proof.
    intros (bi & bc & pre & Hn & Hr & E) Ht Hk Hf.
    exists (index_of bid (map b_id r)). split; [apply find_index; exact Hf|].
    apply (reach_step _ bi); [exact Hr|].
    unfold succs, cfg_of. rewrite nth_map_error, Hn.
    unfold term_succs, last_op. rewrite E, last_some, Ht.
    apply in_map_iff. exists bid. split; [reflexivity|]. eapply nth_error_In; eauto.
  Qed.

  Lemma target_kept bj b e m lg res :
    nth_error r bj = Some b -> reach (cfg_of r) bj -> exec r (b_ops b) e m lg res -> keep_blk L bj b.
  Proof.
    intros Hn Hr Hex. destruct (exec_last _ _ _ _ _ _ Hex) as (pre & t & E & Ht).
    eapply (terminated_block_kept r st Hfin r (hin_refl r) bj b t); eauto.
    rewrite E. apply in_or_app. right; left; reflexivity.
  Qed.

  Lemma b_id_dd b : b_id (dd_block L b) = b_id b.
  Proof. reflexivity. Qed.

  Lemma find_dd_fwd rr bid b bj :
    find_block rr bid = Some b -> nth_error rr bj = Some b -> keep_blk L bj b ->
    find_block (dd_region L rr) bid = Some (dd_block L b).
  Proof.
    unfold find_block, dd_region. destruct rr as [|first rest]; [discriminate|]. simpl.
    destruct (Nat.eqb (b_id first) bid) eqn:Ef; [intros E; inversion E; reflexivity|].
    intros Hfind Hn Hk.
    assert (Hl : has_live L b = true).
    { destruct Hk as [->|Hl]; auto. simpl in Hn. inversion Hn; subst.
      apply find_some in Hfind. destruct Hfind as [_ E]. congruence. }
    clear Hn Hk. induction rest as [|h rest IH]; simpl in *; [discriminate|].
    destruct (Nat.eqb (b_id h) bid) eqn:Eh.
    - inversion Hfind; subst h. rewrite Hl. simpl. rewrite Eh. reflexivity.
    - destruct (has_live L h); simpl; [rewrite Eh|]; apply IH; exact Hfind.
  Qed.

  Hypothesis Hbids : NoDup (map b_id r).

  Lemma find_unique rr b : NoDup (map b_id rr) -> In b rr -> find_block rr (b_id b) = Some b.
  Proof.
    unfold find_block. induction rr as [|a rr IH]; intros Hn Hb; [destruct Hb|]. simpl.
    inversion Hn as [|? ? Hna Hn']; subst. destruct Hb as [->|Hb]; [rewrite Nat.eqb_refl; reflexivity|].
    destruct (Nat.eqb (b_id a) (b_id b)) eqn:E; [|apply IH; auto].
    apply Nat.eqb_eq in E. exfalso. apply Hna. rewrite E. apply in_map. exact Hb.
  Qed.

  Lemma find_dd_bwd bid b' :
    find_block r' bid = Some b' -> exists b, find_block r bid = Some b /\ b' = dd_block L b /\ In b r.
  Proof.
    intros Hf. apply find_some in Hf. destruct Hf as [Hin E]. apply Nat.eqb_eq in E.
    apply dd_region_blocks in Hin. destruct Hin as (bi & b & Hn & _ & ->).
    exists b. rewrite b_id_dd in E. subst bid. repeat split; [|eapply nth_error_In; eauto].
    apply find_unique; auto. eapply nth_error_In; eauto.
  Qed.

  (* original run => run after region_dce *)
  Lemma fwd ops e1 m lg res : exec r ops e1 m lg res ->
    at_ ops -> forall e2, agree e1 e2 -> exec r' (live_ops ops) e2 m lg res.
  Proof.
    induction 1 as [o rest e m lg rs m' ev res Hne Hsem Hex IH|t e m lg rs m' ev Ht Hts
                   |t e m lg k args m' ev bid b res Ht Hts Hk Hfind Hex IH]; intros Hat e2 Hag.
    - assert (Hv : visited_r r o) by (eapply at_visited; eauto; left; reflexivity).
      assert (Hat' := at_tail _ _ Hat).
      simpl. destruct (L (o_id o)) eqn:El.
      + eapply ex_op.
        * eapply live_ops_nonempty; eauto.
        * rewrite <- (live_args o Hv El e e2 Hag). exact Hsem.
        * apply IH; auto. apply agree_bind_same. exact Hag.
      + destruct (visited_dead o Hv El) as [Hw Hdv].
        destruct (sem_pure o (get_all e (o_args o)) m Hw) as [rs' Hs]. rewrite Hsem in Hs.
        inversion Hs; subst. rewrite app_nil_r in IH. apply IH; auto.
        apply agree_bind_dead; auto.
    - assert (Hv : visited_r r t) by (eapply at_visited; eauto; left; reflexivity).
      assert (El := visited_term_live t Hv Ht). simpl. rewrite El.
      apply ex_ret; auto. rewrite <- (live_args t Hv El e e2 Hag). exact Hts.
    - assert (Hv : visited_r r t) by (eapply at_visited; eauto; left; reflexivity).
      assert (El := visited_term_live t Hv Ht). simpl. rewrite El.
      destruct (jump_target t k bid b Hat Ht Hk Hfind) as (bj & Hnj & Hrj).
      assert (Hkeep := target_kept bj b _ _ _ _ Hnj Hrj Hex).
      eapply ex_jump; eauto.
      + rewrite <- (live_args t Hv El e e2 Hag). exact Hts.
      + unfold r'. eapply find_dd_fwd; eauto.
      + rewrite dd_block_free by (eapply nth_error_In; eauto). simpl.
        apply IH; [eapply at_block; eauto|]. apply agree_bind_same. exact Hag.
  Qed.

  (* run after region_dce => original run.  Needs: a terminator is the last op of its block *)
  Hypothesis Hterm : forall b pre t post, In b r -> b_ops b = pre ++ t :: post -> o_term t = true -> post = [].

  Lemma at_term_last t rest : at_ (t :: rest) -> o_term t = true -> rest = [].
  Proof.
    intros (bi & bc & pre & Hn & _ & E) Ht. eapply Hterm; eauto. eapply nth_error_In; eauto.
  Qed.

  Lemma skip_dead ops : at_ ops -> forall e1 e2 m lg res o' rest',
    live_ops ops = o' :: rest' -> agree e1 e2 ->
    (forall rest e1', at_ (o' :: rest) -> L (o_id o') = true -> live_ops rest = rest' -> agree e1' e2 ->
        exec r (o' :: rest) e1' m lg res) ->
    exec r ops e1 m lg res.
  Proof.
    induction ops as [|o rest IH]; intros Hat e1 e2 m lg res o' rest' El Hag K; [discriminate|].
    simpl in El. destruct (L (o_id o)) eqn:Elo.
    - inversion El; subst. apply K; auto.
    - assert (Hv : visited_r r o) by (eapply at_visited; eauto; left; reflexivity).
      destruct (visited_dead o Hv Elo) as [Hw Hdv].
      destruct (sem_pure o (get_all e1 (o_args o)) m Hw) as [rs Hs].
      eapply ex_op; [intros ->; discriminate|exact Hs|]. rewrite app_nil_r.
      eapply IH; eauto; [eapply at_tail; eauto|]. apply agree_bind_dead; auto.
  Qed.

  Lemma bwd ops' e2 m lg res : exec r' ops' e2 m lg res ->
    forall ops e1, at_ ops -> ops' = live_ops ops -> agree e1 e2 -> exec r ops e1 m lg res.
  Proof.
    induction 1 as [o rest' e m lg rs m' ev res Hne Hsem Hex IH|t e m lg rs m' ev Ht Hts
                   |t e m lg k args m' ev bid b' res Ht Hts Hk Hfind Hex IH]; intros ops e1 Hat Eo Hag.
    - eapply skip_dead; eauto. intros rest e1' Hat' El Er Hag'.
      assert (Hv : visited_r r o) by (eapply at_visited; eauto; left; reflexivity).
      eapply ex_op.
      + intros ->. simpl in Er. subst rest'. contradiction.
      + rewrite (live_args o Hv El e1' e Hag'). exact Hsem.
      + apply IH; auto; [eapply at_tail; eauto|]. apply agree_bind_same. exact Hag'.
    - eapply skip_dead; eauto. intros rest e1' Hat' El Er Hag'.
      assert (Hv : visited_r r t) by (eapply at_visited; eauto; left; reflexivity).
      assert (rest = []) by (eapply at_term_last; eauto). subst rest.
      apply ex_ret; auto. rewrite (live_args t Hv El e1' e Hag'). exact Hts.
    - eapply skip_dead; eauto. intros rest e1' Hat' El Er Hag'.
      assert (Hv : visited_r r t) by (eapply at_visited; eauto; left; reflexivity).
      assert (rest = []) by (eapply at_term_last; eauto). subst rest.
      destruct (find_dd_bwd bid b' Hfind) as (b & Hfb & -> & Hbin).
      destruct (jump_target t k bid b Hat' Ht Hk Hfb) as (bj & Hnj & Hrj).
      eapply ex_jump; eauto.
      + rewrite (live_args t Hv El e1' e Hag'). exact Hts.
      + apply IH; [eapply at_block; eauto|apply dd_block_free; exact Hbin|].
        simpl. apply agree_bind_same. exact Hag'.
  Qed.

  Lemma agree_refl e : agree e e.
  Proof. intros v _. reflexivity. Qed.

  Theorem run_preserved e m res : run r e m res <-> run r' e m res.
  Proof.
    assert (Hcase : r = [] \/ exists b0 rest, r = b0 :: rest) by (destruct r; eauto).
    destruct Hcase as [E|(b0 & rest & E)].
    - unfold run, r'. rewrite E. simpl. tauto.
    - assert (Er' : r' = dd_block L b0 :: flat_map (fun b => if has_live L b then [dd_block L b] else []) rest)
        by (unfold r'; rewrite E; reflexivity).
      rewrite (run_cons r b0 rest e m res E), (run_cons r' _ _ e m res Er').
      assert (Hat : at_ (b_ops b0)).
      { exists 0, b0, []. rewrite E. repeat split; auto. apply reach_entry. }
      assert (Hb0 : b_ops (dd_block L b0) = live_ops (b_ops b0)).
      { apply dd_block_free. rewrite E. left; reflexivity. }
      rewrite Hb0. split.
      + intros Hex. apply (fwd _ _ _ _ _ Hex Hat e (agree_refl e)).
      + intros Hex. apply (bwd _ _ _ _ _ Hex (b_ops b0) e Hat eq_refl (agree_refl e)).
  Qed.
End Sem.

(* C13_semantics *)
Theorem semantics_preserved (val mem event : Type)
  (sem : op -> list val -> mem -> option (list val * mem * list event))
  (tsem : op -> list val -> mem -> option (tres val * mem * list event)) :
  (forall o vs m, would_be_trivially_dead o = true -> exists rs, sem o vs m = Some (rs, m, [])) ->
  forall r r' ch,
    NoDup (ids (walk_region r)) -> NoDup (map b_id r) ->
    (forall o, In o (walk_region r) -> o_regs o = []) ->
    (forall b pre t post, In b r -> b_ops b = pre ++ t :: post -> o_term t = true -> post = []) ->
    region_dce r = Some (r', ch) ->
    forall e m res, run val mem event sem tsem r e m res <-> run val mem event sem tsem r' e m res.
Proof.
  intros Hpure r r' ch Hnd Hb Hfree Hterm E e m res.
  destruct (region_dce_inv r r' ch E) as (st & Hfin & -> & ->).
  apply run_preserved; auto.
Qed.

(* non-vacuity: a program with a dead pure op, an effectful op and a returning terminator; it runs to
   a result, region_dce deletes the pure op, and `sem_pure` holds of the example semantics *)
Definition ex_prog : region :=
  [Blk 0 [] [Op 0 [0] [] [] [] false false (Some []) false;
             Op 1 [1] [] [] [] false false (Some [EWrite]) false;
             Op 2 [] [1] [] [] true false None false]].
Definition ex_sem (o : op) (vs : list nat) (m : nat) : option (list nat * nat * list nat) :=
  if would_be_trivially_dead o then Some ([0], m, []) else Some ([7], S m, [o_id o]).
Definition ex_tsem (t : op) (vs : list nat) (m : nat) : option (tres nat * nat * list nat) :=
  Some (TRet nat vs, m, []).

Example semantics_nonvacuous :
  (forall o vs m, would_be_trivially_dead o = true -> exists rs, ex_sem o vs m = Some (rs, m, [])) /\
  region_dce ex_prog = Some ([Blk 0 [] [Op 1 [1] [] [] [] false false (Some [EWrite]) false;
                                        Op 2 [] [1] [] [] true false None false]], true) /\
  run nat nat nat ex_sem ex_tsem ex_prog (fun _ => 0) 0 ([7], 1, [1]).
Proof.
  split; [|split].
  - intros o vs m Hw. unfold ex_sem. rewrite Hw. eauto.
  - vm_compute. reflexivity.
  - unfold run, ex_prog. simpl.
    eapply ex_op; [discriminate|vm_compute; reflexivity|].
    eapply ex_op; [discriminate|vm_compute; reflexivity|].
    simpl. apply (ex_ret nat nat nat ex_sem ex_tsem ex_prog _ _ 1 [1] [7] 1 []); reflexivity.
Qed.
