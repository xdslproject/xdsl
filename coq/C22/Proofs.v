(* C22/Proofs.v -- pattern-level soundness of the riscv canonicalization patterns (model: C22/Model.v).

   Spec.  A snippet is executed by `exec` (Model.v): SSA ids -> values, integer registers read mod 2^32, abstract
   memory.  `def_holds d e`: environment e satisfies the defining equation of op d (what executing d established);
   `env_ok rpre e`: that holds for every op before the matched one.  `valid_node`: the immediates are in the range
   their attribute types allow (li: normalised i32, si12 immediates and offsets, ui5 shift amounts) -- what the
   verifier guarantees for the input and what "encodable" means for the output.
   `sound_outcome`: executing the replacement ops instead of the matched op gives the same memory, defines only
   fresh ids, every new op is valid, and the replacement value equals the value the matched op defines. *)
From Coq Require Import ZArith List Bool Lia.
From XV Require Import C22.Model C22.ProofsArith.
Import ListNotations.
Local Open Scope Z_scope.

Definition valid_op (o : op) : Prop :=
  match o with
  | OLi c => - H32 <= c < H32
  | OImm _ _ imm => -2048 <= imm < 2048
  | OSh _ _ k => 0 <= k < 32
  | OLoad _ _ imm => -2048 <= imm < 2048
  | OStore _ _ _ imm => -2048 <= imm < 2048
  | _ => True
  end.
Definition valid_node (n : node) : Prop := valid_op (nop n).

Definition ids_below (nx : Z) (n : node) : Prop :=
  nid n < nx /\ Forall (fun a => a < nx) (operands (nop n)).

Section Sound.
Variable memT : Type.
Variable ld : memT -> memkind -> Z -> Z.
Variable st : memT -> memkind -> Z -> Z -> memT.
Notation exec_node := (exec_node memT ld st).
Notation exec := (exec memT ld st).

(* the value an op with a pure result defines, as a function of the environment *)
Definition def_holds (d : node) (e : env) : Prop :=
  (is_int_op (nop d) = true -> 0 <= e (nid d) < M32) /\
  match nop d with
  | OGetZero => e (nid d) = 0
  | OLi c => e (nid d) = wrap c
  | OMv MvI a => e (nid d) = rdx e a
  | OMv _ a => e (nid d) = e a
  | OBin b a1 a2 => e (nid d) = sem_bin b (rdx e a1) (rdx e a2)
  | OImm o a imm => e (nid d) = sem_imm o (rdx e a) imm
  | OSh o a k => e (nid d) = sem_sh o (rdx e a) k
  | _ => True
  end.
Definition env_ok (rpre : list node) (e : env) : Prop := Forall (fun d => def_holds d e) rpre.

Definition sound_outcome (e : env) (m : memT) (n : node) (nx : Z) (o : outcome) : Prop :=
  match o with
  | Rew new repl er =>
      let s1 := exec_node (e, m) n in
      let s2 := exec new (e, m) in
      snd s1 = snd s2
      /\ Forall valid_node new
      /\ (forall j, j < nx -> fst s2 j = e j)
      /\ match repl with
         | Some v => is_store (nop n) = false /\ fst s2 v = fst s1 (nid n)
         | None => is_store (nop n) = true
         end
  | _ => True
  end.

(* the two rewrites of the unchanged tree that change a value (known findings C22-kf-3 / C22-kf-4) *)
Definition is_floatmem (m : memkind) : bool := match m with MW => false | _ => true end.
Definition miscompiles (vr : ver) (p : pat) (rpre : list node) (n : node) : bool :=
  match p, nop n with
  | ShiftbyZero, OSh s _ _ => negb (fix_shz vr) && is_bitmanip s
  | (LoadFloatWordWithKnownOffset | LoadDoubleWithKnownOffset), OLoad m a imm
  | (StoreFloatWordWithKnownOffset | StoreDoubleWithKnownOffset), OStore m a _ imm =>
      negb (fix_mem vr) &&
      match find_def rpre a with
      | Some (mkN _ _ (OImm Addi x j)) => negb (in_si12 (j + imm))
      | _ => false
      end
  | _, _ => false
  end.

Lemma find_def_In rpre a d : find_def rpre a = Some d -> In d rpre /\ nid d = a.
Proof.
  induction rpre as [| x r IH]; cbn; [discriminate |].
  destruct (Z.eqb_spec (nid x) a) as [E | E]; intros H.
  - inversion H; subst. auto.
  - destruct (IH H). auto.
Qed.

Lemma env_ok_In rpre e d : env_ok rpre e -> In d rpre -> def_holds d e.
Proof. unfold env_ok. rewrite Forall_forall. auto. Qed.

Lemma get_const_sound rpre e : env_ok rpre e -> Forall valid_node rpre ->
  forall a c, get_const rpre a = Some c -> rdx e a = wrap c /\ - H32 <= c < H32.
Proof.
  induction rpre as [| d r IH]; intros Hok Hv a c; cbn; [discriminate |].
  inversion Hok as [| ? ? Hd Hr]; subst. inversion Hv as [| ? ? Vd Vr]; subst.
  destruct (Z.eqb_spec (nid d) a) as [E | E]; [| apply IH; assumption].
  subst a. destruct Hd as [_ Hd]. unfold valid_node in Vd.
  destruct (nop d) as [| | c0 | k s | | | | |] eqn:Hop; try discriminate.
  - destruct (nrd d =? 0); [| discriminate]. intros H; inversion H; subst.
    unfold rdx. rewrite Hd. split; [reflexivity | unfold H32; lia].
  - intros H; inversion H; subst. unfold rdx. rewrite Hd, wrap_wrap. cbn in Vd. auto.
  - destruct k; try discriminate. intros H. destruct (IH Hr Vr _ _ H) as [H1 H2].
    split; [| assumption]. unfold rdx at 1. rewrite Hd. unfold rdx in *. rewrite wrap_wrap. assumption.
Qed.

Lemma is_c_sound rpre e a c : env_ok rpre e -> Forall valid_node rpre ->
  is_c (get_const rpre a) c = true -> rdx e a = wrap c.
Proof.
  intros Hok Hv H. unfold is_c in H. destruct (get_const rpre a) as [x |] eqn:G; [| discriminate].
  apply Z.eqb_eq in H. subst x. exact (proj1 (get_const_sound _ _ Hok Hv _ _ G)).
Qed.

Lemma rdx_range e a : 0 <= rdx e a < M32. Proof. apply wrap_range. Qed.
Lemma rdx_upd_ne e i v a : a <> i -> rdx (upd e i v) a = rdx e a.
Proof. intros. unfold rdx, upd. destruct (Z.eqb_spec a i); [contradiction | reflexivity]. Qed.
Lemma upd_eq e i v : upd e i v i = v.
Proof. unfold upd. rewrite Z.eqb_refl. reflexivity. Qed.
Lemma upd_ne e i v j : j <> i -> upd e i v j = e j.
Proof. intros. unfold upd. destruct (Z.eqb_spec j i); [contradiction | reflexivity]. Qed.

Lemma mk_i32_sound vr v c : mk_i32 vr v = Some c -> wrap c = wrap v /\ - H32 <= c < H32.
Proof.
  unfold mk_i32. destruct (fix_li vr); [| destruct (in_i32 v)]; intros H; inversion H; subst;
    (split; [apply wrap_sext32 | apply sext32_range]).
Qed.
Lemma in_si12_true v : in_si12 v = true <-> -2048 <= v < 2048.
Proof. unfold in_si12. rewrite andb_true_iff, Z.leb_le, Z.ltb_lt. reflexivity. Qed.
Lemma mk_si12_sound v c : mk_si12 v = Some c -> c = v /\ -2048 <= v < 2048.
Proof.
  unfold mk_si12. destruct (in_si12 v) eqn:E; intros H; inversion H; subst.
  split; [reflexivity | apply in_si12_true; assumption].
Qed.

Ltac split5 := split; [| split; [| split; [| split]]].

Section Pattern.
Variable vr : ver.
Variable e : env.
Variable m : memT.
Variable nx : Z.

(* soundness of the small rewrite builders; s1 = the state after executing the matched op *)
Definition result_is (n : node) (val : Z) : Prop :=
  is_store (nop n) = false /\ nid n < nx /\
  fst (exec_node (e, m) n) (nid n) = val /\ snd (exec_node (e, m) n) = m.

(* a replacement by one new op that defines the value of the matched op *)
Lemma s_rew1 n rd o v val : result_is n val -> valid_op o ->
  exec_node (e, m) (mkN nx rd o) = (upd e nx v, m) -> v = val ->
  sound_outcome e m n nx (rew1 (mkN nx rd o)).
Proof.
  intros (Hs & Hi & Hval & Hm) Vo Ex Hw. unfold rew1, sound_outcome.
  cbn [Model.exec fold_left nid]. rewrite Ex. cbn [fst snd]. split5.
  - exact Hm.
  - constructor; [exact Vo | constructor].
  - intros j Hj. apply upd_ne. lia.
  - exact Hs.
  - rewrite upd_eq, Hw. symmetry. exact Hval.
Qed.

Lemma s_li n v val : result_is n val -> wrap v = val ->
  sound_outcome e m n nx (rew_li vr nx (nrd n) v).
Proof.
  intros H Hw. unfold rew_li. destruct (mk_i32 vr v) as [c |] eqn:E; [| exact I].
  apply mk_i32_sound in E. destruct E as [E1 E2].
  apply (s_rew1 n _ (OLi c) (wrap c) val H E2 eq_refl). rewrite E1. exact Hw.
Qed.

Lemma s_mv n a val : result_is n val -> rdx e a = val ->
  sound_outcome e m n nx (rew_mv nx (nrd n) a).
Proof. intros H Hw. exact (s_rew1 n _ (OMv MvI a) (rdx e a) val H I eq_refl Hw). Qed.

Lemma s_addi n a v val : result_is n val -> wrap (rdx e a + wrap v) = val ->
  sound_outcome e m n nx (rew_addi nx (nrd n) a v).
Proof.
  intros H Hw. unfold rew_addi. destruct (mk_si12 v) as [c |] eqn:E; [| exact I].
  apply mk_si12_sound in E. destruct E as [-> E2].
  exact (s_rew1 n _ (OImm Addi a v) _ val H E2 eq_refl Hw).
Qed.

Lemma s_zero n : result_is n 0 -> sound_outcome e m n nx (rew_zero nx (nrd n)).
Proof.
  intros (Hs & Hi & Hval & Hm). unfold rew_zero, sound_outcome.
  remember (exec_node (e, m) n) as s1 eqn:Hs1. cbn. split5.
  - exact Hm.
  - repeat (constructor; try exact I).
  - intros j Hj. rewrite !upd_ne by lia. reflexivity.
  - exact Hs.
  - rewrite upd_eq. unfold rdx. rewrite upd_eq. rewrite Hval. reflexivity.
Qed.

End Pattern.
End Sound.
