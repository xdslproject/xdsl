(* C19/ProofsSem.v -- an interference-free register assignment preserves the semantics:
   the register machine (ProofsSpec.exec_regs) reads, at every operation, the same operand values
   as the SSA evaluation (ProofsSpec.exec_ssa), hence computes the same results. *)
From Coq Require Import ZArith List Bool Arith Lia.
From XV Require Import C19.Model C19.ProofsSpec C19.ProofsStack.
Import ListNotations.
Local Open Scope Z_scope.

Lemma nodup_done_defs : forall done o rest v,
  NoDup (flat_map defs (done ++ o :: rest)) -> defined_in done v -> ~ In v (defs o).
Proof.
  intros done o rest v Hnd Hd Hin. rewrite flat_map_app in Hnd. apply in_flat_map in Hd.
  apply (NoDup_app_disjoint _ _ Hnd v Hd). apply in_or_app. left. exact Hin.
Qed.

Definition zstep (zs : list value) (o : sop) : list value :=
  match s_kind o, s_outs o, s_ins o with
  | KZero, r :: _, _ => r :: zs
  | KMv, r :: _, x :: _ => if memN x zs then r :: zs else zs
  | _, _, _ => zs
  end.

Lemma zero_consts_fold : forall l, zero_consts l = fold_left zstep l [].
Proof. reflexivity. Qed.

Lemma zero_consts_snoc : forall p o, zero_consts (p ++ [o]) = zstep (zero_consts p) o.
Proof. intros p o. rewrite !zero_consts_fold, fold_left_app. reflexivity. Qed.

Lemma zstep_cases : forall zs o,
  zstep zs o = zs \/
  exists r t, s_outs o = r :: t /\ zstep zs o = r :: zs /\
    (s_kind o = KZero \/ (s_kind o = KMv /\ exists x t', s_ins o = x :: t' /\ In x zs)).
Proof.
  intros zs o. unfold zstep.
  destruct (s_kind o) eqn:Hk.
  - left. destruct (s_outs o); destruct (s_ins o); reflexivity.
  - destruct (s_outs o) as [|r t] eqn:Ho.
    + left. destruct (s_ins o); reflexivity.
    + right. exists r, t. split; [reflexivity|]. split; [|left; reflexivity].
      destruct (s_ins o); reflexivity.
  - destruct (s_outs o) as [|r t] eqn:Ho.
    + left. destruct (s_ins o); reflexivity.
    + destruct (s_ins o) as [|x t'] eqn:Hi; [left; reflexivity|].
      destruct (memN x zs) eqn:Hm; [|left; reflexivity].
      right. exists r, t. split; [reflexivity|]. split; [reflexivity|]. right.
      split; [reflexivity|]. exists x, t'. split; [reflexivity|]. apply memN_In. exact Hm.
Qed.

Lemma zfold_kind : forall s zs v, In v (fold_left zstep s zs) ->
  In v zs \/ exists o, In o s /\ s_kind o <> KOther /\ exists t, s_outs o = v :: t.
Proof.
  induction s as [|o s IH]; intros zs v Hin; simpl in Hin; [left; exact Hin|].
  destruct (IH _ _ Hin) as [H1 | [o' [Ho' H]]]; [|right; exists o'; split; [right; exact Ho' | exact H]].
  destruct (zstep_cases zs o) as [He | [r [t [Ho [He Hk]]]]]; rewrite He in H1; [left; exact H1|].
  destruct H1 as [<-|H1]; [right | left; exact H1].
  exists o. split; [left; reflexivity|]. split; [|exists t; exact Ho].
  destruct Hk as [Hk|[Hk _]]; rewrite Hk; discriminate.
Qed.

Lemma zero_consts_kind : forall l v, In v (zero_consts l) ->
  exists o, In o l /\ s_kind o <> KOther /\ exists t, s_outs o = v :: t.
Proof. intros l v H. destruct (zfold_kind l [] v H) as [[]|H']. exact H'. Qed.

Lemma zfold_In : forall s zs v, In v (fold_left zstep s zs) -> In v zs \/ defined_in s v.
Proof.
  intros s zs v Hin. destruct (zfold_kind s zs v Hin) as [H|[o [Ho [_ [t Ht]]]]]; [left; exact H | right].
  exists o. split; [exact Ho|]. unfold defs, sop_results. rewrite Ht. left. reflexivity.
Qed.

Lemma zero_consts_defined : forall p v, In v (zero_consts p) -> defined_in p v.
Proof.
  intros p v Hin. rewrite zero_consts_fold in Hin.
  destruct (zfold_In _ _ _ Hin) as [[] | H]; exact H.
Qed.

Lemma zero_consts_prefix : forall p s v,
  In v (zero_consts (p ++ s)) -> ~ defined_in s v -> In v (zero_consts p).
Proof.
  intros p s v Hin Hnd. rewrite zero_consts_fold, fold_left_app in Hin. rewrite zero_consts_fold.
  destruct (zfold_In _ _ _ Hin) as [H | H]; [exact H | contradiction].
Qed.

Section Sim.
  Variable data : Type.
  Variable dzero : data.
  Variable fop : nat -> nat -> list data -> data.
  Variable zr : bool.
  Variable asg : value -> Z.
  Variable l : list sop.
  Hypothesis Hwf : wf_prog l.
  (* interference freedom of the assignment, as delivered by the allocator theorems *)
  Hypothesis Hlive : forall p s, l = p ++ s -> forall v1 v2, live s v1 -> live s v2 -> v1 <> v2 ->
      asg v1 = asg v2 -> is_zero_reg zr (asg v1) = true.
  Hypothesis Hdef : forall p o s, l = p ++ o :: s -> forall d v, In d (defs o) -> live s v -> d <> v ->
      asg d = asg v -> is_zero_reg zr (asg d) = true.
  (* only known constants zero sit in the hard-wired zero register *)
  Hypothesis Hzero : forall v, is_zero_reg zr (asg v) = true -> In v (zero_consts l).
  Variable env0 : value -> data.
  Variable rf0 : Z -> data.
  Hypothesis Hinit : forall v, live l v -> read_reg data dzero zr asg rf0 v = env0 v.

  Local Notation rd := (read_reg data dzero zr asg).
  Local Notation wr := (write_regs data zr asg).
  Local Notation we := (write_env data).
  Local Notation rs := (results_of data dzero fop).

  Lemma results_length : forall i o ins, length (rs i o ins) = length (defs o).
  Proof.
    intros i o ins. unfold results_of.
    destruct (s_kind o); rewrite map_length; try rewrite seq_length; reflexivity.
  Qed.

  Lemma write_env_notin : forall ds xs env v, ~ In v ds -> we env ds xs v = env v.
  Proof.
    induction ds as [|d ds IH]; intros xs env v Hn; simpl; [reflexivity|].
    destruct xs as [|x xs]; [reflexivity|].
    rewrite IH by (intro H; apply Hn; right; exact H).
    unfold upd. destruct (Nat.eqb v d) eqn:E; [|reflexivity].
    apply Nat.eqb_eq in E. subst. exfalso. apply Hn. left; reflexivity.
  Qed.

  (* all written values equal c: a value that was c, or is written, is c afterwards *)
  Lemma write_env_const : forall c ds xs env v, (forall x, In x xs -> x = c) ->
    (env v = c \/ (In v ds /\ length ds = length xs)) -> we env ds xs v = c.
  Proof.
    intros c. induction ds as [|d ds IH]; intros xs env v Hall Hc.
    - simpl. destruct Hc as [H | [[] _]]. exact H.
    - destruct xs as [|x xs].
      + simpl. destruct Hc as [H | [_ Hlen]]; [exact H | discriminate Hlen].
      + simpl. apply IH.
        * intros y Hy. apply Hall. right; exact Hy.
        * unfold upd. destruct (Nat.eqb v d) eqn:E.
          -- left. apply Hall. left; reflexivity.
          -- destruct Hc as [H | [[Heq | Hin] Hlen]].
             ++ left; exact H.
             ++ subst. rewrite Nat.eqb_refl in E. discriminate.
             ++ right. split; [exact Hin|]. simpl in Hlen. injection Hlen as Hlen. exact Hlen.
  Qed.

  (* a value in a proper register that no other written value shares: its register holds, after the
     writes, what the environment binds it to *)
  Lemma write_sim : forall ds xs env rf v,
    is_zero_reg zr (asg v) = false ->
    (forall d, In d ds -> d <> v -> asg d <> asg v) ->
    (rf (asg v) = env v \/ (In v ds /\ length ds = length xs)) ->
    wr rf ds xs (asg v) = we env ds xs v.
  Proof.
    induction ds as [|d ds IH]; intros xs env rf v Hnz Hdis Hc.
    - simpl. destruct Hc as [H | [[] _]]. exact H.
    - destruct xs as [|x xs].
      + simpl. destruct Hc as [H | [_ Hlen]]; [exact H | discriminate Hlen].
      + simpl. apply IH; [exact Hnz | intros d' Hd'; apply Hdis; right; exact Hd' |].
        destruct (Nat.eq_dec v d) as [E | E].
        * left. subst d. rewrite Hnz. unfold updZ, upd. rewrite Z.eqb_refl, Nat.eqb_refl. reflexivity.
        * destruct Hc as [H | [[Heq | Hin] Hlen]].
          -- left.
             assert (Hne : asg d <> asg v) by (apply Hdis; [left; reflexivity | congruence]).
             unfold upd. destruct (Nat.eqb v d) eqn:E1; [apply Nat.eqb_eq in E1; contradiction|].
             destruct (is_zero_reg zr (asg d)); [exact H|].
             unfold updZ. destruct (Z.eqb (asg v) (asg d)) eqn:E2; [|exact H].
             apply Z.eqb_eq in E2. congruence.
          -- congruence.
          -- right. split; [exact Hin|]. simpl in Hlen. injection Hlen as Hlen. exact Hlen.
  Qed.

  Lemma live_use : forall p o s v, l = p ++ o :: s -> In v (uses o) -> live (o :: s) v.
  Proof.
    intros p o s v Hl Hin. split.
    - exists o. split; [left; reflexivity | exact Hin].
    - exact (wf_use l Hwf p o s Hl v Hin).
  Qed.

  Lemma live_cons : forall o s v, live s v -> ~ In v (defs o) -> live (o :: s) v.
  Proof.
    intros o s v [[o' [Ho' Hu]] Hnd] Hn. split.
    - exists o'. split; [right; exact Ho' | exact Hu].
    - intros [o'' [[Heq | Hin] Hd]].
      + subst. contradiction.
      + apply Hnd. exists o''. split; assumption.
  Qed.

  Definition INV (done rest : list sop) (env : value -> data) (rf : Z -> data) : Prop :=
    (forall v, live rest v -> rd rf v = env v) /\
    (forall v, In v (zero_consts done) -> env v = dzero).

  Lemma inputs_eq : forall done o rest env rf, l = done ++ o :: rest -> INV done (o :: rest) env rf ->
    map (rd rf) (uses o) = map env (uses o).
  Proof.
    intros done o rest env rf Hl Hinv. apply map_ext_in. intros v Hv.
    apply (proj1 Hinv). exact (live_use done o rest v Hl Hv).
  Qed.

  Lemma inv_step_zero : forall done o rest env i, l = done ++ o :: rest ->
    (forall v, In v (zero_consts done) -> env v = dzero) ->
    forall v, In v (zero_consts (done ++ [o])) ->
      we env (defs o) (rs i o (map env (uses o))) v = dzero.
  Proof.
    intros done o rest env i Hl Hz v Hin. rewrite zero_consts_snoc in Hin.
    destruct (zstep_cases (zero_consts done) o) as [He | [r [t [Ho [He Hk]]]]]; rewrite He in Hin.
    - rewrite write_env_notin; [apply Hz; exact Hin|].
      apply (nodup_done_defs done o rest).
      + rewrite <- Hl. exact (wf_nodup l Hwf).
      + apply zero_consts_defined. exact Hin.
    - apply write_env_const.
      + intros x Hx. unfold results_of in Hx.
        destruct Hk as [Hk | [Hk [y [t' [Hi Hy]]]]]; rewrite Hk in Hx;
          apply in_map_iff in Hx; destruct Hx as [w [Hx _]]; subst x; [reflexivity|].
        unfold uses, sop_operands. rewrite Hi. simpl. apply Hz. exact Hy.
      + destruct Hin as [Heq | Hin]; [right | left; apply Hz; exact Hin].
        subst v. split.
        * unfold defs, sop_results. rewrite Ho. left; reflexivity.
        * symmetry. apply results_length.
  Qed.

  Lemma inv_step : forall done o rest env rf i, l = done ++ o :: rest -> INV done (o :: rest) env rf ->
    INV (done ++ [o]) rest
      (we env (defs o) (rs i o (map env (uses o))))
      (wr rf (defs o) (rs i o (map (rd rf) (uses o)))).
  Proof.
    intros done o rest env rf i Hl Hinv.
    rewrite (inputs_eq done o rest env rf Hl Hinv).
    destruct Hinv as [H1 H2].
    assert (HZ := inv_step_zero done o rest env i Hl H2).
    split; [|exact HZ].
    intros v Hlv. unfold read_reg. destruct (is_zero_reg zr (asg v)) eqn:Hz.
    - symmetry. apply HZ. apply (zero_consts_prefix _ rest).
      + rewrite <- app_assoc. simpl. rewrite <- Hl. apply Hzero. exact Hz.
      + exact (proj2 Hlv).
    - apply write_sim; [exact Hz | |].
      + intros d Hd Hne Heq.
        assert (Hzz := Hdef done o rest Hl d v Hd Hlv Hne Heq). rewrite Heq in Hzz. congruence.
      + destruct (in_dec Nat.eq_dec v (defs o)) as [Hin | Hnin].
        * right. split; [exact Hin | symmetry; apply results_length].
        * left. assert (Hl' := H1 v (live_cons o rest v Hlv Hnin)).
          unfold read_reg in Hl'. rewrite Hz in Hl'. exact Hl'.
  Qed.

  Lemma inv_run : forall p done rest env rf, l = done ++ p ++ rest -> INV done (p ++ rest) env rf ->
    INV (done ++ p) rest
      (exec_ssa data dzero fop (length done) p env)
      (exec_regs data dzero fop zr asg (length done) p rf).
  Proof.
    induction p as [|o p IH]; intros done rest env rf Hl Hinv.
    - simpl. rewrite app_nil_r. exact Hinv.
    - simpl. simpl in Hl, Hinv.
      assert (Hs := inv_step done o (p ++ rest) env rf (length done) Hl Hinv).
      assert (Hl2 : l = (done ++ [o]) ++ p ++ rest) by (rewrite <- app_assoc; exact Hl).
      specialize (IH (done ++ [o]) rest _ _ Hl2 Hs).
      rewrite app_length in IH. simpl in IH. rewrite Nat.add_1_r in IH.
      rewrite <- app_assoc in IH. exact IH.
  Qed.

  (* every operation reads the same operand values from registers as from the SSA environment *)
  Theorem sim_operands : forall p o s, l = p ++ o :: s -> forall v, In v (uses o) ->
      read_reg data dzero zr asg (exec_regs data dzero fop zr asg 0 p rf0) v
      = exec_ssa data dzero fop 0 p env0 v.
  Proof using All.
    intros p o s Hl v Hv.
    assert (H0 : INV [] (p ++ o :: s) env0 rf0).
    { split.
      - intros w Hw. apply Hinit. rewrite Hl. exact Hw.
      - intros w Hw. cbv in Hw. contradiction. }
    assert (Hr := inv_run p [] (o :: s) env0 rf0 Hl H0). simpl in Hr.
    apply (proj1 Hr). exact (live_use p o s v Hl Hv).
  Qed.

  (* hence every operation computes the same results in both executions *)
  Corollary sim_results : forall p o s, l = p ++ o :: s ->
      results_of data dzero fop (length p) o
        (map (read_reg data dzero zr asg (exec_regs data dzero fop zr asg 0 p rf0)) (uses o))
      = results_of data dzero fop (length p) o (map (exec_ssa data dzero fop 0 p env0) (uses o)).
  Proof using All.
    intros p o s Hl. f_equal. apply map_ext_in. intros v Hv. exact (sim_operands p o s Hl v Hv).
  Qed.
End Sim.

Check sim_operands.
Check sim_results.
Print Assumptions sim_operands.
Print Assumptions sim_results.
