(* C11/ProofsLive.v -- the heap model `cir_sem` satisfies Proofs.StructLaws: only erase kills
   operations (and only those of op.walk()), a region-less op's walk is itself, inserted ops are alive. *)
From Coq Require Import List Arith Bool ZArith Lia.
From XV Require Import C11.Model C11.IR C11.Proofs C11.ProofsEv.
Import ListNotations.

(* InsertPoint validity as the model sees it *)
Definition cir_ip_ok (c : cir) (ip : ipoint) : Prop := ip_target c ip <> None.

Lemma erase_survive o1 c x :
  In x (g_alive c) -> ~ In x (g_subops c o1) -> In x (g_alive (cp_erase o1 c)).
Proof.
  intros Hx Hn. apply alive_info. apply alive_info in Hx. destruct Hx as [l Hx].
  exists l. rewrite (keeps_erase o1 c x Hn). exact Hx.
Qed.

Lemma leaf_walk c o x : g_has_regions c o = false -> In x (g_subops c o) -> x = o.
Proof.
  unfold g_has_regions, g_subops, fuel_of. intros H. simpl.
  destruct (g_regions c o); [|discriminate]. simpl. intros [E|[]]. auto.
Qed.

Theorem cir_struct_laws : StructLaws cir_sem cir_ip_ok.
Proof.
  split.
  - intros p c x Hx Hk. destruct p; simpl in *.
    + exact (proj2 (proj1 (frame_insert news ip c)) x Hx).
    + apply erase_survive; assumption.
    + exact (proj2 (frame_rauw v t c) x Hx).
    + exact (proj2 (frame_erase_value v c) x Hx).
    + exact (proj2 (frame_rauw_if v t p c) x Hx).
    + exact (nokill_ops_eq c _ (ops_upd_val _ _ _) x Hx).
    + exact (nokill_ops_eq c _ (ops_insert_arg _ _ _ _) x Hx).
    + exact (proj2 (frame_erase_arg v c) x Hx).
    + exact (proj1 (frame_inline_block b ip args c) x Hx).
    + exact (nokill_ops_eq c _ (ops_move_region _ _ _) x Hx).
    + exact (nokill_ops_eq c _ (ops_inline_region _ _ _ _) x Hx).
    + exact (nokill_ops_eq c _ (ops_create_block _ _ _ _) x Hx).
    + exact (proj2 (frame_bump o c) x Hx).
  - exact leaf_walk.
  - intros news ip c n Hip Hn. exact (proj2 (frame_insert news ip c) Hip n Hn).
Qed.
