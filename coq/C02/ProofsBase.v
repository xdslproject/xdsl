(* C02/ProofsBase.v -- the specification vocabulary (definition lists, isomorphism via two id maps,
   scoping of successors), list-level lemmas about the mapper dicts and the allocators, and the record
   of what a phase-1 run (the sh_ functions) allocates and registers. *)
From Coq Require Import List ZArith Bool Lia.
From XV Require Import C02.Model.
Import ListNotations.
Local Open Scope Z_scope.

Scheme op_mind := Induction for op Sort Prop
with ops_mind := Induction for ops Sort Prop
with block_mind := Induction for block Sort Prop
with blocks_mind := Induction for blocks Sort Prop
with regions_mind := Induction for regions Sort Prop.
Combined Scheme ir_mutind from op_mind, ops_mind, block_mind, blocks_mind, regions_mind.

(* values defined inside a tree (op results, block arguments), in pre-order *)
Fixpoint dv_op (x : op) : list Z :=
  match x with Op _ _ _ rs _ _ g => map fst rs ++ dv_regions g end
with dv_regions (g : regions) : list Z :=
  match g with GNil => [] | GCons r t => dv_blocks r ++ dv_regions t end
with dv_blocks (r : blocks) : list Z :=
  match r with BNil => [] | BCons k t => dv_block k ++ dv_blocks t end
with dv_block (k : block) : list Z :=
  match k with Blk _ args body => map fst args ++ dv_ops body end
with dv_ops (l : ops) : list Z :=
  match l with ONil => [] | OCons o t => dv_op o ++ dv_ops t end.

Definition bid_of (k : block) : Z := match k with Blk b _ _ => b end.
Fixpoint bids (r : blocks) : list Z := match r with BNil => [] | BCons k t => bid_of k :: bids t end.

(* blocks defined inside a tree: region by region, the blocks of a region before what they contain *)
Fixpoint db_op (x : op) : list Z :=
  match x with Op _ _ _ _ _ _ g => db_regions g end
with db_regions (g : regions) : list Z :=
  match g with GNil => [] | GCons r t => bids r ++ dbi_blocks r ++ db_regions t end
with dbi_blocks (r : blocks) : list Z :=
  match r with BNil => [] | BCons k t => dbi_block k ++ dbi_blocks t end
with dbi_block (k : block) : list Z :=
  match k with Blk _ _ body => db_ops body end
with db_ops (l : ops) : list Z :=
  match l with ONil => [] | OCons o t => db_op o ++ db_ops t end.
Definition db_region (r : blocks) : list Z := bids r ++ dbi_blocks r.

(* operation ids in walk order *)
Fixpoint ido_op (x : op) : list Z := match x with Op i _ _ _ _ _ g => i :: ido_regions g end
with ido_regions (g : regions) : list Z := match g with GNil => [] | GCons r t => ido_blocks r ++ ido_regions t end
with ido_blocks (r : blocks) : list Z := match r with BNil => [] | BCons k t => ido_block k ++ ido_blocks t end
with ido_block (k : block) : list Z := match k with Blk _ _ body => ido_ops body end
with ido_ops (l : ops) : list Z := match l with ONil => [] | OCons o t => ido_op o ++ ido_ops t end.

(* `y` is `x` with every value id replaced by fv and every block id by fb (operation ids are not
   compared); names, attribute payloads, result/argument payloads (type + name hint) equal.
   co = false: the copy has no operands at all (clone_operands=False). *)
Fixpoint iso_op (co : bool) (fv fb : Z -> Z) (x y : op) {struct x} : Prop :=
  match x, y with
  | Op _ n os rs a ss g, Op _ n' os' rs' a' ss' g' =>
      n' = n /\ a' = a /\ os' = (if co then map fv os else []) /\
      map fst rs' = map fv (map fst rs) /\ map snd rs' = map snd rs /\
      ss' = map fb ss /\ iso_regions co fv fb g g'
  end
with iso_regions (co : bool) (fv fb : Z -> Z) (g g' : regions) {struct g} : Prop :=
  match g, g' with
  | GNil, GNil => True
  | GCons r t, GCons r' t' => iso_blocks co fv fb r r' /\ iso_regions co fv fb t t'
  | _, _ => False
  end
with iso_blocks (co : bool) (fv fb : Z -> Z) (r r' : blocks) {struct r} : Prop :=
  match r, r' with
  | BNil, BNil => True
  | BCons k t, BCons k' t' => iso_block co fv fb k k' /\ iso_blocks co fv fb t t'
  | _, _ => False
  end
with iso_block (co : bool) (fv fb : Z -> Z) (k k' : block) {struct k} : Prop :=
  match k, k' with
  | Blk b args body, Blk b' args' body' =>
      b' = fb b /\ map fst args' = map fv (map fst args) /\ map snd args' = map snd args /\
      iso_ops co fv fb body body'
  end
with iso_ops (co : bool) (fv fb : Z -> Z) (l l' : ops) {struct l} : Prop :=
  match l, l' with
  | ONil, ONil => True
  | OCons o t, OCons o' t' => iso_op co fv fb o o' /\ iso_ops co fv fb t t'
  | _, _ => False
  end.

(* successors are scoped: every successor of an operation is a block of a region that encloses the
   operation (env), or is not defined inside the cloned part (D) at all.  Operation.verify demands
   more (successors are blocks of the operation's own parent region). *)
Fixpoint scoped_op (D env : list Z) (x : op) : Prop :=
  match x with
  | Op _ _ _ _ _ ss g => (forall b, In b ss -> In b env \/ ~ In b D) /\ scoped_regions D env g
  end
with scoped_regions (D env : list Z) (g : regions) : Prop :=
  match g with GNil => True | GCons r t => scoped_blocks D (bids r ++ env) r /\ scoped_regions D env t end
with scoped_blocks (D env : list Z) (r : blocks) : Prop :=
  match r with BNil => True | BCons k t => scoped_block D env k /\ scoped_blocks D env t end
with scoped_block (D env : list Z) (k : block) : Prop :=
  match k with Blk _ _ body => scoped_ops D env body end
with scoped_ops (D env : list Z) (l : ops) : Prop :=
  match l with ONil => True | OCons o t => scoped_op D env o /\ scoped_ops D env t end.

Fixpoint zseq (from : Z) (n : nat) : list Z :=
  match n with O => [] | S k => from :: zseq (from + 1) k end.

Lemma zseq_length : forall n b, length (zseq b n) = n.
Proof. induction n; simpl; intros; auto. Qed.

Lemma zseq_app : forall n m b, zseq b (n + m) = zseq b n ++ zseq (b + Z.of_nat n) m.
Proof.
  induction n; intros m b.
  - simpl. f_equal. lia.
  - cbn [Nat.add zseq app]. f_equal. rewrite IHn. f_equal. f_equal. lia.
Qed.

Lemma zseq_In : forall n b v, In v (zseq b n) <-> b <= v < b + Z.of_nat n.
Proof.
  induction n; intros b v; cbn [zseq In].
  - split; [tauto | lia].
  - rewrite IHn. lia.
Qed.

Lemma zseq_NoDup : forall n b, NoDup (zseq b n).
Proof.
  induction n; intros b; cbn [zseq]; constructor; auto.
  rewrite zseq_In. lia.
Qed.

Lemma app_eq_len : forall (a c b d : list Z), length a = length c -> a ++ b = c ++ d -> a = c /\ b = d.
Proof.
  induction a; destruct c; simpl; intros b d Hl H; try discriminate; auto.
  injection H as -> H. destruct (IHa c b d) as [-> ->]; auto.
Qed.

Lemma map_zseq_split : forall (f : Z -> Z) l1 l2 b,
  map f (l1 ++ l2) = zseq b (length (l1 ++ l2)) ->
  map f l1 = zseq b (length l1) /\ map f l2 = zseq (b + Z.of_nat (length l1)) (length l2).
Proof.
  intros f l1 l2 b H. rewrite map_app, app_length, zseq_app in H.
  apply app_eq_len in H; [exact H | now rewrite map_length, zseq_length].
Qed.

Lemma map_zseq_join : forall (f : Z -> Z) l1 l2 b,
  map f l1 = zseq b (length l1) -> map f l2 = zseq (b + Z.of_nat (length l1)) (length l2) ->
  map f (l1 ++ l2) = zseq b (length (l1 ++ l2)).
Proof. intros. rewrite map_app, app_length, zseq_app. congruence. Qed.

Lemma map_eq_pointwise : forall (f g : Z -> Z) l, map f l = map g l -> forall x, In x l -> f x = g x.
Proof.
  induction l; simpl; intros H x Hin; [tauto|]. injection H as H1 H2.
  destruct Hin as [<- | Hin]; auto.
Qed.

(* registering l -> base, base+1, ... one after the other *)
Definition regs (l : list Z) (base : Z) : amap := rev (combine l (zseq base (length l))).

Lemma regs_nil : forall b, regs [] b = [].
Proof. reflexivity. Qed.

Lemma regs_cons : forall a l b, regs (a :: l) b = regs l (b + 1) ++ [(a, b)].
Proof. reflexivity. Qed.

Lemma regs_app : forall l1 l2 b, regs (l1 ++ l2) b = regs l2 (b + Z.of_nat (length l1)) ++ regs l1 b.
Proof.
  induction l1; intros l2 b.
  - simpl. rewrite app_nil_r. f_equal. lia.
  - cbn [app length]. rewrite !regs_cons, IHl1, app_assoc. do 3 f_equal. lia.
Qed.

Lemma lookup_app : forall m1 m2 k,
  lookup (m1 ++ m2) k = match lookup m1 k with Some v => Some v | None => lookup m2 k end.
Proof.
  induction m1 as [|[k' v] m1 IH]; intros m2 k; cbn [app lookup]; auto.
  destruct (k' =? k); auto.
Qed.

Lemma lookup_regs_notin : forall l b k, ~ In k l -> lookup (regs l b) k = None.
Proof.
  induction l; intros b k Hn; [reflexivity|].
  rewrite regs_cons, lookup_app, IHl by (simpl in Hn; tauto).
  cbn [lookup]. destruct (a =? k) eqn:E; auto. apply Z.eqb_eq in E. simpl in Hn. tauto.
Qed.

Lemma get_regs_notin : forall l b m k, ~ In k l -> get (regs l b ++ m) k = get m k.
Proof. intros. unfold get. now rewrite lookup_app, lookup_regs_notin. Qed.

Lemma get_regs_map : forall l b m, NoDup l -> map (get (regs l b ++ m)) l = zseq b (length l).
Proof.
  induction l; intros b m Hnd; [reflexivity|].
  inversion Hnd as [|? ? Hn Hnd']; subst.
  cbn [map length zseq]. rewrite regs_cons, <- app_assoc. f_equal.
  - rewrite get_regs_notin by assumption. unfold get. cbn [app lookup]. now rewrite Z.eqb_refl.
  - apply IHl; assumption.
Qed.

Lemma alloc_vals_spec : forall vs nv m,
  alloc_vals nv m vs =
  (nv + Z.of_nat (length vs), regs (map fst vs) nv ++ m, combine (zseq nv (length vs)) (map snd vs)).
Proof.
  induction vs as [|[v t] vs IH]; intros nv m.
  - simpl. now rewrite Z.add_0_r.
  - cbn [alloc_vals]. rewrite IH. cbn [map fst snd length zseq combine].
    rewrite regs_cons, <- app_assoc. cbn [app].
    replace (nv + Z.of_nat (S (length vs))) with (nv + 1 + Z.of_nat (length vs)) by lia. reflexivity.
Qed.

Lemma combine_fst : forall (l : list Z) (l' : list Z), length l = length l' -> map fst (combine l l') = l.
Proof. induction l; destruct l'; simpl; intros; try discriminate; auto. f_equal. auto. Qed.
Lemma combine_snd : forall (l : list Z) (l' : list Z), length l = length l' -> map snd (combine l l') = l'.
Proof. induction l; destruct l'; simpl; intros; try discriminate; auto. f_equal. auto. Qed.

Lemma alloc_blks_spec : forall r nb m,
  alloc_blks nb m r = (nb + Z.of_nat (length (bids r)), regs (bids r) nb ++ m, zseq nb (length (bids r))).
Proof.
  induction r as [|k r IH]; intros nb m.
  - simpl. now rewrite Z.add_0_r.
  - destruct k as [b args body]. cbn [alloc_blks]. rewrite IH. cbn [bids bid_of length zseq].
    rewrite regs_cons, <- app_assoc. cbn [app].
    replace (nb + Z.of_nat (S (length (bids r)))) with (nb + 1 + Z.of_nat (length (bids r))) by lia. reflexivity.
Qed.

Lemma blocks_len_bids : forall r, blocks_len r = Z.of_nat (length (bids r)).
Proof. induction r; cbn [blocks_len bids length]; lia. Qed.

Lemma NoDup_app_l : forall (l1 l2 : list Z), NoDup (l1 ++ l2) -> NoDup l1.
Proof. induction l1; simpl; intros l2 H; [constructor|]. inversion H; subst. constructor; eauto. rewrite in_app_iff in *. tauto. Qed.
Lemma NoDup_app_r : forall (l1 l2 : list Z), NoDup (l1 ++ l2) -> NoDup l2.
Proof. induction l1; simpl; intros l2 H; auto. inversion H; eauto. Qed.
Lemma NoDup_app_disj : forall (l1 l2 : list Z) x, NoDup (l1 ++ l2) -> In x l1 -> ~ In x l2.
Proof.
  induction l1; simpl; intros l2 x H Hin; [tauto|]. inversion H; subst.
  destruct Hin as [<- | Hin]; [rewrite in_app_iff in *; tauto | eauto].
Qed.

(* What a phase-1 run (the sh_ functions: the copy's shape, no operands yet; sw_ is phase 2, the zip of
   the two walks) from state s to s' has done to the counters and the mappers: it registered the source
   values lv and blocks lb, in this order, at consecutive new ids, and gave the operations io of the
   source the consecutive ids io' in the copy. *)
Definition facts_v (s s' : st) (l : list Z) : Prop :=
  nval s' = nval s + Z.of_nat (length l) /\ vm s' = regs l (nval s) ++ vm s.
Definition facts_b (s s' : st) (l : list Z) : Prop :=
  nblk s' = nblk s + Z.of_nat (length l) /\ bm s' = regs l (nblk s) ++ bm s.
Definition facts_o (s s' : st) (io io' : list Z) : Prop :=
  nop s' = nop s + Z.of_nat (length io) /\ io' = zseq (nop s) (length io).
Definition facts (s s' : st) (lv lb io io' : list Z) : Prop :=
  facts_v s s' lv /\ facts_b s s' lb /\ facts_o s s' io io'.

Lemma facts_refl : forall s, facts s s [] [] [] [].
Proof. intros. unfold facts, facts_v, facts_b, facts_o. simpl. repeat split; lia. Qed.

Lemma facts_trans : forall s s1 s2 lv1 lv2 lb1 lb2 io1 io2 io1' io2',
  facts s s1 lv1 lb1 io1 io1' -> facts s1 s2 lv2 lb2 io2 io2' ->
  facts s s2 (lv1 ++ lv2) (lb1 ++ lb2) (io1 ++ io2) (io1' ++ io2').
Proof.
  unfold facts, facts_v, facts_b, facts_o.
  intros s s1 s2 lv1 lv2 lb1 lb2 io1 io2 io1' io2'
    [[Hv1 Hm1] [[Hb1 Hn1] [Ho1 Hi1]]] [[Hv2 Hm2] [[Hb2 Hn2] [Ho2 Hi2]]].
  rewrite !app_length, !Nat2Z.inj_add, !regs_app.
  repeat split; try lia.
  - rewrite Hm2, Hm1, Hv1, app_assoc. reflexivity.
  - rewrite Hn2, Hn1, Hb1, app_assoc. reflexivity.
  - rewrite zseq_app. rewrite Hi1, Hi2, Ho1. reflexivity.
Qed.

Lemma facts_op_head : forall s i (rs : list (Z * Z)),
  facts s (St (nop s + 1) (nval s + Z.of_nat (length rs)) (nblk s) (regs (map fst rs) (nval s) ++ vm s) (bm s))
        (map fst rs) [] [i] [nop s].
Proof.
  intros. unfold facts, facts_v, facts_b, facts_o. cbn [nop nval nblk vm bm length zseq app].
  rewrite map_length. repeat split; lia.
Qed.
Lemma facts_blk_head : forall s (args : list (Z * Z)),
  facts s (St (nop s) (nval s + Z.of_nat (length args)) (nblk s) (regs (map fst args) (nval s) ++ vm s) (bm s))
        (map fst args) [] [] [].
Proof.
  intros. unfold facts, facts_v, facts_b, facts_o. cbn [nop nval nblk vm bm length zseq app].
  rewrite map_length. repeat split; lia.
Qed.
Lemma facts_reg_head : forall s l,
  facts s (St (nop s) (nval s) (nblk s + Z.of_nat (length l)) (vm s) (regs l (nblk s) ++ bm s)) [] l [] [].
Proof.
  intros. unfold facts, facts_v, facts_b, facts_o. cbn [nop nval nblk vm bm length zseq app].
  repeat split; lia.
Qed.
