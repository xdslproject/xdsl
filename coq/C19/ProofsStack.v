(* C19/ProofsStack.v -- lemmas about the RegisterStack model (push / pop / include / exclude). *)
From Coq Require Import ZArith List Bool Arith Lia.
From XV Require Import C19.Model.
Import ListNotations.
Local Open Scope Z_scope.

Lemma memZ_In : forall r l, memZ r l = true <-> In r l.
Proof.
  intros r l. unfold memZ. rewrite existsb_exists. split.
  - intros [x [Hin Heq]]. apply Z.eqb_eq in Heq. subst. exact Hin.
  - intros Hin. exists r. split; [exact Hin | apply Z.eqb_refl].
Qed.

Lemma memZ_false : forall r l, memZ r l = false <-> ~ In r l.
Proof. intros r l. rewrite <- memZ_In. symmetry. apply not_true_iff_false. Qed.

Lemma memN_In : forall v l, memN v l = true <-> In v l.
Proof.
  intros v l. unfold memN. rewrite existsb_exists. split.
  - intros [x [Hin Heq]]. apply Nat.eqb_eq in Heq. subst. exact Hin.
  - intros Hin. exists v. split; [exact Hin | apply Nat.eqb_refl].
Qed.

Lemma In_remove_first : forall r l x, In x (remove_first r l) -> In x l.
Proof.
  intros r l x. induction l as [|y t IH]; simpl; [tauto|].
  destruct (y =? r); simpl; tauto.
Qed.

Lemma In_remove_first_neq : forall r l x, In x l -> x <> r -> In x (remove_first r l).
Proof.
  intros r l x Hin Hne. induction l as [|y t IH]; simpl in *; [exact Hin|].
  destruct (Z.eqb_spec y r); simpl; [|tauto].
  destruct Hin as [H|H]; [congruence | exact H].
Qed.

Lemma NoDup_remove_first : forall r l, NoDup l -> NoDup (remove_first r l).
Proof.
  intros r l H. induction H as [|y t Hn Hd IH]; simpl; [constructor|].
  destruct (y =? r); [exact Hd|]. constructor; [|exact IH].
  intro Hc. exact (Hn (In_remove_first r t y Hc)).
Qed.

Lemma not_In_remove_first : forall r l, NoDup l -> ~ In r (remove_first r l).
Proof.
  intros r l H. induction H as [|y t Hn Hd IH]; simpl; [tauto|].
  destruct (Z.eqb_spec y r); [subst; exact Hn|].
  intros [Hc|Hc]; [exact (n Hc) | exact (IH Hc)].
Qed.

Lemma remove_first_notin : forall r l, ~ In r l -> remove_first r l = l.
Proof.
  intros r l. induction l as [|y t IH]; intros Hn; simpl; [reflexivity|].
  destruct (y =? r) eqn:E.
  - apply Z.eqb_eq in E. subst. exfalso. apply Hn. left. reflexivity.
  - f_equal. apply IH. intro Hc. apply Hn. right. exact Hc.
Qed.

Lemma NoDup_snoc : forall (l : list Z) x, NoDup (l ++ [x]) <-> NoDup l /\ ~ In x l.
Proof. intros l x. rewrite (NoDup_Add (Add_app x l [])), app_nil_r. reflexivity. Qed.

Lemma NoDup_app_parts : forall (l1 l2 : list value), NoDup (l1 ++ l2) ->
  NoDup l1 /\ NoDup l2 /\ forall x, In x l1 -> ~ In x l2.
Proof.
  induction l1 as [|a t IH]; intros l2 H; simpl in *; [split; [constructor | tauto]|].
  inversion H as [|? ? Hn Hd]; subst. destruct (IH l2 Hd) as [H1 [H2 H3]]. split; [|split; [exact H2|]].
  - constructor; [|exact H1]. intro Hc. apply Hn. apply in_or_app. left. exact Hc.
  - intros x [<-|Hx] Hx2; [apply Hn; apply in_or_app; right; exact Hx2 | exact (H3 x Hx Hx2)].
Qed.

Lemma NoDup_app_disjoint : forall (l1 l2 : list value), NoDup (l1 ++ l2) -> forall x, In x l1 -> ~ In x l2.
Proof. intros l1 l2 H. exact (proj2 (proj2 (NoDup_app_parts l1 l2 H))). Qed.
Lemma NoDup_app_l : forall (l1 l2 : list value), NoDup (l1 ++ l2) -> NoDup l1.
Proof. intros l1 l2 H. exact (proj1 (NoDup_app_parts l1 l2 H)). Qed.
Lemma NoDup_app_r : forall (l1 l2 : list value), NoDup (l1 ++ l2) -> NoDup l2.
Proof. intros l1 l2 H. exact (proj1 (proj2 (NoDup_app_parts l1 l2 H))). Qed.

(* `push` moves a register to the top of `available`: remove it if present, append it *)
Lemma In_requeue : forall r l x, In x (remove_first r l ++ [r]) -> In x l \/ x = r.
Proof.
  intros r l x H. apply in_app_or in H. destruct H as [H|[H|[]]].
  - left. exact (In_remove_first r l x H).
  - right. symmetry. exact H.
Qed.

Lemma NoDup_requeue : forall r l, NoDup l -> NoDup (remove_first r l ++ [r]).
Proof.
  intros r l H. apply NoDup_snoc. split; [apply NoDup_remove_first | apply not_In_remove_first]; exact H.
Qed.

Lemma push_fields : forall r s,
  allocatable (push r s) = allocatable s /\ next_inf (push r s) = next_inf s /\
  reserved (push r s) = reserved s /\ allow_inf (push r s) = allow_inf s.
Proof.
  intros r s. unfold push. destruct (is_reserved r s || ((0 <=? r) && negb (memZ r (allocatable s))));
    simpl; repeat split; reflexivity.
Qed.

Lemma push_cases_res : forall r s,
  (push r s = s /\ (is_reserved r s = true \/ (0 <= r /\ ~ In r (allocatable s))))
  \/ (available (push r s) = remove_first r (available s) ++ [r] /\ is_reserved r s = false
      /\ (In r (allocatable s) \/ r < 0)).
Proof.
  intros r s. unfold push. destruct (is_reserved r s); simpl; [left; split; [reflexivity | left; reflexivity]|].
  destruct (Z.leb_spec 0 r); simpl; [|right; repeat split; right; assumption].
  destruct (memZ r (allocatable s)) eqn:Em; simpl.
  - right. repeat split. left. apply memZ_In. exact Em.
  - left. split; [reflexivity|]. right. split; [assumption | apply memZ_false; exact Em].
Qed.

Lemma pop_cases_res : forall s r s', pop s = Ok (r, s') ->
  allocatable s' = allocatable s /\ reserved s' = reserved s /\ allow_inf s' = allow_inf s /\
  is_reserved r s = false /\
  ((available s = available s' ++ [r] /\ next_inf s' = next_inf s)
   \/ (available s = [] /\ available s' = [] /\ allow_inf s = true /\
       r = - next_inf s - 1 /\ next_inf s' = next_inf s + 1)).
Proof.
  intros s r s' Hpop. unfold pop in Hpop.
  pose proof (rev_involutive (available s)) as Hav.
  destruct (rev (available s)) as [|x rest]; simpl in Hav.
  - destruct (allow_inf s) eqn:Eallow; simpl in Hpop; [|discriminate].
    destruct (is_reserved _ _) eqn:Eb in Hpop; [discriminate|].
    injection Hpop as <- <-. simpl. repeat split; try assumption. right. rewrite <- Hav. repeat split.
  - simpl in Hpop. destruct (is_reserved _ _) eqn:Eb in Hpop; [discriminate|].
    injection Hpop as <- <-. simpl. repeat split; try assumption. left. rewrite <- Hav. split; reflexivity.
Qed.

Lemma pop_cases : forall s r s', reserved s = [] -> pop s = Ok (r, s') ->
  allocatable s' = allocatable s /\ reserved s' = [] /\ allow_inf s' = allow_inf s /\
  ((available s = available s' ++ [r] /\ next_inf s' = next_inf s)
   \/ (available s = [] /\ available s' = [] /\ allow_inf s = true /\
       r = - next_inf s - 1 /\ next_inf s' = next_inf s + 1)).
Proof.
  intros s r s' Hres Hpop. destruct (pop_cases_res s r s' Hpop) as [Fal [Fres [Fallow [_ Hc]]]].
  rewrite Hres in Fres. repeat split; assumption.
Qed.

(* shape invariant of a stack built by `get` *)
Record base_ok (s : rstack) : Prop := {
  b_nodup_av : NoDup (available s);
  b_nodup_al : NoDup (allocatable s);
  b_sub : forall r, In r (available s) -> In r (allocatable s);
  b_res : reserved s = [];
  b_next : next_inf s = 0 }.

Lemma push_base_ok : forall r s, base_ok s -> In r (allocatable s) -> base_ok (push r s).
Proof.
  intros r s [Hav Hal Hsub Hres Hnext] Hin. destruct (push_fields r s) as [Fa [Fn [Fr Fi]]].
  destruct (push_cases_res r s) as [[_ [Hr|[_ Hn]]]|[Hp _]].
  - unfold is_reserved in Hr. rewrite Hres in Hr. discriminate.
  - contradiction.
  - constructor; rewrite ?Hp, ?Fa, ?Fr, ?Fn; try assumption.
    + apply NoDup_requeue. exact Hav.
    + intros x Hx. destruct (In_requeue r _ x Hx) as [H| ->]; [exact (Hsub x H) | exact Hin].
Qed.

Lemma include_base_ok : forall r s, base_ok s -> base_ok (include_register r s).
Proof.
  intros r s Hs. unfold include_register. destruct (memZ r (allocatable s)) eqn:Em.
  - apply push_base_ok; [exact Hs | apply memZ_In; exact Em].
  - apply memZ_false in Em. destruct Hs as [Hav Hal Hsub Hres Hnext]. apply push_base_ok.
    + constructor; simpl; try assumption.
      * apply NoDup_snoc. split; assumption.
      * intros x Hx. apply in_or_app. left. exact (Hsub x Hx).
    + simpl. apply in_or_app. right. left. reflexivity.
Qed.

Lemma include_allocatable : forall r s x, In x (allocatable (include_register r s)) -> In x (allocatable s) \/ x = r.
Proof.
  intros r s x. unfold include_register. destruct (memZ r (allocatable s)).
  - rewrite (proj1 (push_fields r s)). tauto.
  - rewrite (proj1 (push_fields r _)). simpl. intros H. apply in_app_or in H. destruct H as [H|[H|[]]]; auto.
Qed.

Lemma include_allow : forall r s, allow_inf (include_register r s) = allow_inf s.
Proof.
  intros r s. unfold include_register.
  destruct (memZ r (allocatable s)); rewrite (proj2 (proj2 (proj2 (push_fields r _)))); reflexivity.
Qed.

Lemma stack_get_gen : forall pool s0, base_ok s0 ->
  base_ok (fold_left (fun s r => include_register r s) pool s0)
  /\ (forall x, In x (allocatable (fold_left (fun s r => include_register r s) pool s0)) ->
        In x (allocatable s0) \/ In x pool)
  /\ allow_inf (fold_left (fun s r => include_register r s) pool s0) = allow_inf s0.
Proof.
  induction pool as [|r t IH]; intros s0 H0; simpl.
  - split; [exact H0|]. split; [intros x Hx; left; exact Hx | reflexivity].
  - destruct (IH (include_register r s0) (include_base_ok r s0 H0)) as [Hb [Hsub Hal]].
    split; [exact Hb|]. split.
    + intros x Hx. destruct (Hsub x Hx) as [H|H]; [|right; right; exact H].
      destruct (include_allocatable r s0 x H) as [H1|H1]; [left; exact H1 | right; left; symmetry; exact H1].
    + rewrite Hal. apply include_allow.
Qed.

Lemma stack_get_ok : forall pool allow,
  base_ok (stack_get pool allow)
  /\ (forall x, In x (allocatable (stack_get pool allow)) -> In x pool)
  /\ allow_inf (stack_get pool allow) = allow.
Proof.
  intros pool allow. unfold stack_get.
  assert (H0 : base_ok (mkStack [] 0 [] [] allow)).
  { constructor; simpl; try constructor; try reflexivity. intros r []. }
  destruct (stack_get_gen pool _ H0) as [Hb [Hsub Hal]].
  split; [exact Hb|]. split; [|exact Hal].
  intros x Hx. destruct (Hsub x Hx) as [[]|H]. exact H.
Qed.

Lemma assoc_incr_keys : forall r l k, In k (map fst (assoc_incr r l)) <-> In k (map fst l) \/ k = r.
Proof.
  intros r l. induction l as [|[k0 n] t IH]; intros k; simpl.
  - split; [intros [H|[]]; right; symmetry; exact H | intros [[]|H]; left; symmetry; exact H].
  - destruct (Z.eqb_spec k0 r) as [->|Hne]; simpl; split.
    + intros H. left. exact H.
    + intros [H|H]; [exact H | left; symmetry; exact H].
    + intros [H|H]; [left; left; exact H|].
      apply IH in H. destruct H as [H|H]; [left; right; exact H | right; exact H].
    + intros [[H|H]|H]; [left; exact H | right; apply IH; left; exact H | right; apply IH; right; exact H].
Qed.

(* the stack after `get` and any number of `exclude_register` calls: reservations are those of
   infinite registers, and fresh infinite registers start above them *)
Record excl_ok (s : rstack) : Prop := {
  e_nodup_av : NoDup (available s);
  e_nodup_al : NoDup (allocatable s);
  e_sub : forall r, In r (available s) -> In r (allocatable s);
  e_res_neg : forall k, In k (map fst (reserved s)) -> k < 0 /\ - k - 1 < next_inf s;
  e_next : 0 <= next_inf s }.

Lemma base_excl_ok : forall s, base_ok s -> excl_ok s.
Proof.
  intros s [Hav Hal Hsub Hres Hnext]. constructor; try assumption.
  - rewrite Hres. intros k [].
  - rewrite Hnext. lia.
Qed.

Lemma exclude_old_excl_ok : forall r s, excl_ok s -> excl_ok (exclude_register_old r s).
Proof.
  intros r s [Hav Hal Hsub Hres Hnext]. constructor; simpl; try assumption.
  - apply NoDup_remove_first. exact Hav.
  - apply NoDup_remove_first. exact Hal.
  - intros x Hx. apply In_remove_first_neq.
    + apply Hsub. exact (In_remove_first r _ x Hx).
    + intros ->. exact (not_In_remove_first _ _ Hav Hx).
Qed.

Lemma exclude_excl_ok : forall r s, excl_ok s -> excl_ok (exclude_register r s)
  /\ allocatable (exclude_register r s) = remove_first r (allocatable s)
  /\ allow_inf (exclude_register r s) = allow_inf s
  /\ (forall k, In k (map fst (reserved (exclude_register r s))) <-> In k (map fst (reserved s)) \/ (k = r /\ r < 0)).
Proof.
  intros r s Hs. unfold exclude_register. destruct (Z.ltb_spec r 0) as [Er|Er].
  - split; [|split; [reflexivity | split; [reflexivity|]]].
    + apply exclude_old_excl_ok. destruct Hs as [Hav Hal Hsub Hres Hnext]. constructor; simpl; try assumption.
      * intros k Hk. apply assoc_incr_keys in Hk. destruct Hk as [Hk| ->]; [|lia].
        destruct (Hres k Hk). lia.
      * lia.
    + intros k. simpl. split.
      * intros H. apply assoc_incr_keys in H. destruct H as [H|H]; [left; exact H | right; split; [exact H | exact Er]].
      * intros [H|[H _]]; apply assoc_incr_keys; [left | right]; exact H.
  - split; [exact (exclude_old_excl_ok r s Hs)|]. split; [reflexivity | split; [reflexivity|]].
    intros k. simpl. split; [intros H; left; exact H | intros [H|[_ H]]; [exact H | lia]].
Qed.

Lemma exclude_all : forall regs s, excl_ok s ->
  let s' := fold_left (fun s r => exclude_register r s) regs s in
  excl_ok s' /\ (forall x, In x (allocatable s') -> In x (allocatable s) /\ ~ In x regs)
  /\ allow_inf s' = allow_inf s
  /\ (forall k, In k (map fst (reserved s')) <-> In k (map fst (reserved s)) \/ (In k regs /\ k < 0)).
Proof.
  induction regs as [|r t IH]; intros s Hs; simpl.
  - split; [exact Hs|]. split; [intros x Hx; split; [exact Hx | intros []]|]. split; [reflexivity|].
    intros k. split; [intros H; left; exact H | intros [H|[[] _]]; exact H].
  - destruct (exclude_excl_ok r s Hs) as [Hs1 [Fal [Fi Fres]]].
    destruct (IH _ Hs1) as [Hb [Hsub [Hal Hr]]]. simpl in Hal, Hr.
    split; [exact Hb|]. split; [|split].
    + intros x Hx. destruct (Hsub x Hx) as [H1 H2]. rewrite Fal in H1.
      split; [exact (In_remove_first r _ x H1)|].
      intros [<-|Hc]; [exact (not_In_remove_first _ _ (e_nodup_al _ Hs) H1) | exact (H2 Hc)].
    + rewrite Hal. exact Fi.
    + intros k. split.
      * intros H. apply Hr in H. destruct H as [H|[H1 H2]]; [|right; split; [right; exact H1 | exact H2]].
        apply Fres in H. destruct H as [H|[-> H2]]; [left; exact H | right; split; [left; reflexivity | exact H2]].
      * intros H. apply Hr. destruct H as [H|[[<-|H1] H2]].
        -- left. apply Fres. left. exact H.
        -- left. apply Fres. right. split; [reflexivity | exact H2].
        -- right. split; assumption.
Qed.
