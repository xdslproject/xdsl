(* Props/C08.v -- property C08: attribute equality and hashing form a consistent value semantics.
   The theorem statements closed by `exact`, each followed by Print Assumptions, and five examples by evaluation.
   Model: C08/Model.v (`eqb`, `hkey`/`hash` = FloatData.__eq__/__hash__ through Python float comparison, the
   pinned tree; `eqb_fix`, `hkey_fix`/`hash_fix` = through the packed binary64 pattern, repair C08-1, which is
   what /repo's working tree has since a97d45f).
   `obs a` is everything observable of an attribute (class, parameters, payloads, float payloads as
   binary64 bit patterns); `relax` additionally forgets the sign of zeros and the payload of NaNs. *)
From Coq Require Import List ZArith Bool.
From XV Require Import C08.Model C08.Proofs.
Import ListNotations.
Local Open Scope Z_scope.

(* `==` on attributes is reflexive, symmetric and transitive, for every attribute tree. *)
Theorem C08_equivalence :
  (forall a, eqb a a = true) /\
  (forall a b, eqb a b = eqb b a) /\
  (forall a b c, eqb a b = true -> eqb b c = true -> eqb a c = true).
Proof. exact eqb_equivalence. Qed.
Print Assumptions C08_equivalence.

(* Two attributes built from the same parameters (identical up to the identity of the Python float
   objects the constructors allocate) are equal. *)
Theorem C08_same_params_equal : forall a b, obs a = obs b -> eqb a b = true.
Proof. exact same_params_equal. Qed.
Print Assumptions C08_same_params_equal.

(* FULL STATEMENT "observably different payloads are unequal" is refuted by the pinned tree:
   +0.0 / -0.0 (a NaN-free pair), and two NaNs with different payload bits. *)
Theorem C08_observable_refuted :
  (exists a b, obs a <> obs b /\ eqb a b = true /\ nan_free a = true /\ nan_free b = true) /\
  (exists a b, obs a <> obs b /\ eqb a b = true /\ relax a <> a).
Proof. exact observable_refuted. Qed.
Print Assumptions C08_observable_refuted.

(* Strongest statement that holds: `==` is EXACTLY equality of the coarser observable `relax`
   (so attributes differing in anything but zero sign / NaN payload / float identity are unequal). *)
Theorem C08_observable_partial : forall a b, eqb a b = true <-> relax a = relax b.
Proof. exact eqb_iff_relax. Qed.
Print Assumptions C08_observable_partial.

(* ... in particular the full statement holds on attributes without zero or NaN float leaves. *)
Theorem C08_observable_partial_special_free : forall a b,
  special_free a = true -> special_free b = true -> obs a <> obs b -> eqb a b = false.
Proof. exact observable_partial_special_free. Qed.
Print Assumptions C08_observable_partial_special_free.

(* FULL STATEMENT "equal attributes have equal hashes" is refuted by the pinned tree, for ANY
   CPython hash functions in which distinct live objects have distinct identity hashes: two NaN
   FloatData with the same bits held in two float objects are == but hash differently. *)
Theorem C08_hash_consistent_refuted :
  forall (hash_buf : list Z -> Z) (hash_id : Z -> Z) (hash_tuple hash_fset : list Z -> Z),
  (forall i j, hash_id i = hash_id j -> i = j) ->
  exists a b, eqb a b = true /\ obs a = obs b /\
              hash hash_buf hash_id hash_tuple hash_fset a <> hash hash_buf hash_id hash_tuple hash_fset b.
Proof. exact hash_consistent_refuted. Qed.
Print Assumptions C08_hash_consistent_refuted.

(* Strongest statement that holds, for arbitrary CPython hash functions: equal attributes whose
   corresponding NaN leaves are the same float object have equal hashes ... *)
Theorem C08_hash_consistent_partial :
  forall (hash_buf : list Z -> Z) (hash_id : Z -> Z) (hash_tuple hash_fset : list Z -> Z) a b,
  eqb a b = true -> nan_objs_agree a b = true ->
  hash hash_buf hash_id hash_tuple hash_fset a = hash hash_buf hash_id hash_tuple hash_fset b.
Proof. exact hash_consistent_partial. Qed.
Print Assumptions C08_hash_consistent_partial.

(* ... in particular all equal NaN-free attributes (signed zeros included). *)
Theorem C08_hash_consistent_partial_nan_free :
  forall (hash_buf : list Z -> Z) (hash_id : Z -> Z) (hash_tuple hash_fset : list Z -> Z) a b,
  nan_free a = true -> eqb a b = true ->
  hash hash_buf hash_id hash_tuple hash_fset a = hash hash_buf hash_id hash_tuple hash_fset b.
Proof. exact hash_consistent_nan_free. Qed.
Print Assumptions C08_hash_consistent_partial_nan_free.

(* With repair C08-1 (compare / hash the packed binary64 pattern) the FULL statements hold:
   `==` is exactly equality of observables (hence an equivalence), and equal attributes hash equal. *)
Theorem C08_fix_observable : forall a b, eqb_fix a b = true <-> obs a = obs b.
Proof. exact eqb_fix_iff_obs. Qed.
Print Assumptions C08_fix_observable.

Theorem C08_fix_equivalence :
  (forall a, eqb_fix a a = true) /\
  (forall a b, eqb_fix a b = eqb_fix b a) /\
  (forall a b c, eqb_fix a b = true -> eqb_fix b c = true -> eqb_fix a c = true).
Proof. exact eqb_fix_equivalence. Qed.
Print Assumptions C08_fix_equivalence.

Theorem C08_fix_hash_consistent :
  forall (hash_buf : list Z -> Z) (hash_id : Z -> Z) (hash_tuple hash_fset : list Z -> Z) a b,
  eqb_fix a b = true ->
  hash_fix hash_buf hash_id hash_tuple hash_fset a = hash_fix hash_buf hash_id hash_tuple hash_fset b.
Proof. exact hash_fix_consistent. Qed.
Print Assumptions C08_fix_hash_consistent.

(* CSE key (OperationInfo), arbitrary CPython hash functions and arbitrary region-equivalence test.
   C08_opinfo_consistent, for ARBITRARY attribute ==/hash (`aeq`/`akey`): an equal key implies an equal hash --
   by construction, oi_eq compares the hashes first.  C08_opinfo_refl and C08_opinfo_eq_sound are stated at
   eqb/hkey (the pinned FloatData): a key equals itself, and an equal key pins down name, attributes,
   properties, result types, operands and region equivalence up to `relax`. *)
Theorem C08_opinfo_consistent :
  forall (hash_buf : list Z -> Z) (hash_id : Z -> Z) (hash_tuple hash_fset : list Z -> Z)
         (R : Type) (req : R -> R -> bool) (aeq : pyval -> pyval -> bool) (akey : pyval -> hk) (a b : opinfo R),
  oi_eq R req aeq akey hash_buf hash_id hash_tuple hash_fset a b = EqTrue ->
  oi_hash R akey hash_buf hash_id hash_tuple hash_fset a = oi_hash R akey hash_buf hash_id hash_tuple hash_fset b.
Proof. exact opinfo_consistent. Qed.
Print Assumptions C08_opinfo_consistent.

Theorem C08_opinfo_refl :
  forall (hash_buf : list Z -> Z) (hash_id : Z -> Z) (hash_tuple hash_fset : list Z -> Z)
         (R : Type) (req : R -> R -> bool) (a : opinfo R),
  (forall r, req r r = true) -> oi_eq R req eqb hkey hash_buf hash_id hash_tuple hash_fset a a = EqTrue.
Proof. exact opinfo_refl_cur. Qed.
Print Assumptions C08_opinfo_refl.

Theorem C08_opinfo_eq_sound :
  forall (hash_buf : list Z -> Z) (hash_id : Z -> Z) (hash_tuple hash_fset : list Z -> Z)
         (R : Type) (req : R -> R -> bool) (a b : opinfo R),
  oi_eq R req eqb hkey hash_buf hash_id hash_tuple hash_fset a b = EqTrue ->
  oi_name R a = oi_name R b /\ map relax (oi_attrs R a) = map relax (oi_attrs R b) /\
  map relax (oi_props R a) = map relax (oi_props R b) /\ oi_operands R a = oi_operands R b /\
  map relax (oi_results R a) = map relax (oi_results R b) /\
  regions_all R req (oi_regions R a) (oi_regions R b) = EqTrue.
Proof. exact opinfo_eq_sound_cur. Qed.
Print Assumptions C08_opinfo_eq_sound.

(* IntegerAttr normalisation: two signless IntegerAttr of width w > 0 built from in-range integers
   store the same value iff the integers have the same w-bit pattern (255 : i8 == -1 : i8). *)
Theorem C08_integer_attr_signless_bits : forall w v1 v2,
  0 < w -> in_range Signless w v1 = true -> in_range Signless w v2 = true ->
  exists n1 n2,
    integer_attr_value Signless w v1 false = Some n1 /\
    integer_attr_value Signless w v2 false = Some n2 /\
    n1 mod 2 ^ w = v1 mod 2 ^ w /\
    (n1 = n2 <-> v1 mod 2 ^ w = v2 mod 2 ^ w).
Proof. exact integer_attr_signless_bits. Qed.
Print Assumptions C08_integer_attr_signless_bits.

(* "Parsed from the same text in different Contexts are equal" is refuted for unregistered attributes/types on
   the pinned tree, where two Contexts create two distinct subclass objects of UnregisteredAttr for the same name
   (known finding C08-kf-4; /repo creates one class per name since b4f9c90): in the model, distinct class objects
   with identical parameters are never equal (and hash alike). *)
Theorem C08_two_contexts_refuted : forall c1 c2 ps,
  c1 <> c2 -> eqb (VParam c1 ps) (VParam c2 ps) = false /\ hkey (VParam c1 ps) = hkey (VParam c2 ps).
Proof. exact distinct_class_objects_unequal. Qed.
Print Assumptions C08_two_contexts_refuted.

(* FloatAttr(0.0, f64) == FloatAttr(-0.0, f64) (known finding C08-kf-1), hash keys equal *)
Example C08_ex_signed_zero :
  eqb (w_float 0 1) (w_float NEG_ZERO 2) = true /\ hkey (w_float 0 1) = hkey (w_float NEG_ZERO 2) /\
  eqb_fix (w_float 0 1) (w_float NEG_ZERO 2) = false.
Proof. vm_compute. repeat split; reflexivity. Qed.
(* NaNs of different payload compare equal (C08-kf-2); the hash keys of one NaN payload held in two float
   objects differ (C08-kf-3) *)
Example C08_ex_nan :
  eqb (w_float CANON_NAN 1) (w_float NAN_PAYLOAD_1 2) = true /\
  hkey (w_float CANON_NAN 1) <> hkey (w_float CANON_NAN 2) /\
  nan_objs_agree (w_float CANON_NAN 1) (w_float CANON_NAN 1) = true /\
  eqb_fix (w_float CANON_NAN 1) (w_float NAN_PAYLOAD_1 2) = false /\
  hkey_fix (w_float CANON_NAN 1) = hkey_fix (w_float CANON_NAN 2).
Proof. vm_compute. repeat split; try reflexivity. discriminate. Qed.
(* the hypotheses of the partial theorems are satisfiable by non-trivial attributes *)
Example C08_ex_partial_hyps :
  special_free (w_float 4607182418800017408 1) = true /\      (* 1.0 *)
  nan_free (w_float NEG_ZERO 1) = true /\
  eqb (w_float 4607182418800017408 1) (w_float 4607182418800017408 2) = true.
Proof. vm_compute. repeat split; reflexivity. Qed.
(* IntegerAttr(255, i8) == IntegerAttr(-1, i8); 256 : i8 is rejected *)
Example C08_ex_integer :
  mk_integer_attr Signless 8 255 false = mk_integer_attr Signless 8 (-1) false /\
  mk_integer_attr Signless 8 255 false <> None /\
  integer_attr_value Signless 8 256 false = None /\
  integer_attr_value Unsigned 8 255 false = Some 255.
Proof. vm_compute. repeat split; try reflexivity. discriminate. Qed.
(* exact CPython hashes: hash(-1) = -2, hash(2**61-1) = 0, hash(1.0) = 1, hash(0.5) = 2**60,
   hash(-0.0) = 0, hash(inf) = 314159; str and bytes share the buffer hash; hash("") = hash({}) = hash(0) = 0 *)
Example C08_ex_hashes :
  py_hash_int (-1) = -2 /\ py_hash_int (2^61 - 1) = 0 /\
  py_hash_float 4607182418800017408 = 1 /\ py_hash_float 4602678819172646912 = 2^60 /\
  py_hash_float NEG_ZERO = 0 /\ py_hash_float 9218868437227405312 = 314159 /\
  hkey (VData 5 (VStr [97])) = hkey (VData 6 (VBytes [97])) /\
  hkey (VData 5 (VStr [])) = hkey (VData 7 (VUnord UDict [])) /\ hkey (VData 5 (VStr [])) = hkey (VData 1 (VInt 0)).
Proof. vm_compute. repeat split; reflexivity. Qed.
