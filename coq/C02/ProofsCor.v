(* C02/ProofsCor.v -- corollaries in the form quoted by Props/C02.v. *)
From Coq Require Import List ZArith Bool Lia.
From XV Require Import C02.Model C02.ProofsBase C02.ProofsWalk C02.Proofs C02.ProofsFrame.
Import ListNotations.
Local Open Scope Z_scope.

(* all objects of the copy are new: created by this call, pairwise distinct, and not objects of any
   item of the world the clone was made in *)
Theorem clone_op_fresh : forall w x vm0 bm0 co,
  wf w -> NoDup (dv_op x) -> NoDup (db_op x) -> scoped_op (db_op x) [] x ->
  exists y, r_new (clone_op w x vm0 bm0 co) = Some y /\
    fresh_ids w (r_world (clone_op w x vm0 bm0 co)) (ido_op y) (dv_op y) (db_op y) /\
    forall it, In it (items w) ->
      (forall i, In i (ido_op y) -> ~ In i (ido_item it)) /\
      (forall b, In b (db_op y) -> ~ In b (ab_item it)) /\
      (forall v, In v (dv_op y) -> ~ In v (dv_item it)).
Proof.
  intros w x vm0 bm0 co Hw Hv Hb Hs.
  destruct (clone_op_correct w x vm0 bm0 co Hv Hb Hs) as (y & Hy). cbv zeta in Hy.
  destruct Hy as (Hn & _ & _ & _ & F). exists y. split; [exact Hn|]. split; [exact F|].
  intros it Hit. eapply fresh_not_in_world; eauto.
Qed.

(* the repaired remap: the full statement for every destination and every index 0 .. len (or None) *)
Theorem clone_into_fixed : forall w src j d idx vm0 bm0 co,
  nth_error (items w) j = Some (IReg d) ->
  NoDup (dv_blocks src) -> NoDup (db_region src) -> scoped_region src ->
  0 <= resolve_index idx d <= blocks_len d ->
  exists r, clone_into cfg_fixed w src j idx vm0 bm0 co = Some r /\
            into_ok w src j d (resolve_index idx d) vm0 bm0 co r.
Proof. intros. apply clone_into_general; auto. Qed.

(* the code as it is: correct when no operation precedes the insertion point in the destination's
   walk, or when operands are not cloned *)
Theorem clone_into_partial : forall w src j d idx vm0 bm0 co,
  nth_error (items w) j = Some (IReg d) ->
  NoDup (dv_blocks src) -> NoDup (db_region src) -> scoped_region src ->
  0 <= resolve_index idx d <= blocks_len d ->
  (co = false \/ walk_blocks (bfirstn (Z.to_nat (resolve_index idx d)) d) = []) ->
  exists r, clone_into cfg_original w src j idx vm0 bm0 co = Some r /\
            into_ok w src j d (resolve_index idx d) vm0 bm0 co r.
Proof. intros. apply clone_into_general; auto. Qed.

Theorem clone_into_index0 : forall w src j d vm0 bm0 co,
  nth_error (items w) j = Some (IReg d) ->
  NoDup (dv_blocks src) -> NoDup (db_region src) -> scoped_region src ->
  exists r, clone_into cfg_original w src j (Some 0) vm0 bm0 co = Some r /\
            into_ok w src j d 0 vm0 bm0 co r.
Proof.
  intros w src j d vm0 bm0 co Hj Hv Hb Hs.
  apply (clone_into_partial w src j d (Some 0) vm0 bm0 co); try assumption.
  - cbn [resolve_index]. pose proof (blocks_len_bids d). lia.
  - right. reflexivity.
Qed.

Theorem clone_into_empty_dest : forall w src j idx vm0 bm0 co,
  nth_error (items w) j = Some (IReg BNil) -> (idx = None \/ idx = Some 0) ->
  NoDup (dv_blocks src) -> NoDup (db_region src) -> scoped_region src ->
  exists r, clone_into cfg_original w src j idx vm0 bm0 co = Some r /\
            into_ok w src j BNil 0 vm0 bm0 co r.
Proof.
  intros w src j idx vm0 bm0 co Hj Hidx Hv Hb Hs.
  assert (E : resolve_index idx BNil = 0) by (destruct Hidx; subst; reflexivity).
  rewrite <- E. apply (clone_into_partial w src j BNil idx vm0 bm0 co); try assumption.
  - rewrite E. cbn [blocks_len]. lia.
  - right. rewrite E. reflexivity.
Qed.

(* the call as seen by the caller (clone_into_api): with the optional index check an out-of-range
   insert_index raises before anything is created; in range the check changes nothing *)
Theorem clone_into_api_rejects : forall c w src j d i vm0 bm0 co,
  reject_bad_index c = true -> nth_error (items w) j = Some (IReg d) -> (i < 0 \/ blocks_len d < i) ->
  clone_into_api c w src j (Some i) vm0 bm0 co = RaiseIndexError.
Proof.
  intros c w src j d i vm0 bm0 co Hc Hj Hi. unfold clone_into_api. rewrite Hj, Hc. cbn [andb].
  destruct (Z.ltb_spec i 0), (Z.ltb_spec (blocks_len d) i); reflexivity || lia.
Qed.

Theorem clone_into_api_in_range : forall c w src j d idx vm0 bm0 co,
  nth_error (items w) j = Some (IReg d) -> 0 <= resolve_index idx d <= blocks_len d ->
  clone_into_api c w src j idx vm0 bm0 co =
  match clone_into c w src j idx vm0 bm0 co with Some r => Done r | None => NotARegion end.
Proof.
  intros c w src j d idx vm0 bm0 co Hj Hr. unfold clone_into_api. rewrite Hj.
  destruct idx as [i|]; cbn [resolve_index] in Hr.
  - destruct (Z.ltb_spec i 0), (Z.ltb_spec (blocks_len d) i); try lia. now rewrite andb_false_r.
  - now rewrite andb_false_r.
Qed.
