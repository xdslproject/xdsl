(* C19/ProofsMain.v -- the backward walk over a stretch of a (possibly virtual) straight-line block, started
   from any state that satisfies the invariant below the stretch: the invariant holds at every point of the
   stretch, and the final types extend those of the state at each point (Sections WalkFrom, Segment). *)
From Coq Require Import ZArith List Bool Arith Lia.
From XV Require Import C19.Model C19.ProofsSpec C19.ProofsStack C19.ProofsAlloc C19.ProofsOp C19.ProofsStep
                       C19.ProofsSem.
Import ListNotations.
Local Open Scope Z_scope.

Lemma fold_res_app : forall {A S} (f : A -> S -> res S) l1 l2 s,
  fold_res f (l1 ++ l2) s = bind (fold_res f l1 s) (fold_res f l2).
Proof.
  intros A S f l1. induction l1 as [|x t IH]; intros l2 s; simpl; [reflexivity|].
  destruct (f x s) as [s1|e]; simpl; [apply IH | reflexivity].
Qed.

(* the block is walked backwards: the suffix first *)
Lemma allocate_sops_app : forall c p s a,
  allocate_sops c (p ++ s) a = bind (allocate_sops c s a) (allocate_sops c p).
Proof. intros c p s a. unfold allocate_sops. rewrite rev_app_distr. apply fold_res_app. Qed.

Lemma allocate_sops_cons : forall c o s a,
  allocate_sops c (o :: s) a = bind (allocate_sops c s a) (allocate_sop c o).
Proof.
  intros c o s a. change (o :: s) with ([o] ++ s). rewrite allocate_sops_app.
  destruct (allocate_sops c s a) as [a1|e]; simpl; [|reflexivity].
  unfold allocate_sops. simpl. destruct (allocate_sop c o a1); reflexivity.
Qed.

Lemma flat_map_app' : forall (p s : list sop), flat_map defs (p ++ s) = flat_map defs p ++ flat_map defs s.
Proof. intros. apply flat_map_app. Qed.

Lemma nodup_defs_inj : forall l o1 o2 v, NoDup (flat_map defs l) ->
  In o1 l -> In o2 l -> In v (defs o1) -> In v (defs o2) -> o1 = o2.
Proof.
  induction l as [|o t IH]; intros o1 o2 v Hnd H1 H2 Hv1 Hv2; [destruct H1|].
  simpl in Hnd.
  assert (Hdis : forall x, In x (defs o) -> ~ In x (flat_map defs t)) by (apply NoDup_app_disjoint; exact Hnd).
  destruct H1 as [H1|H1]; destruct H2 as [H2|H2].
  - congruence.
  - subst o1. exfalso. apply (Hdis v Hv1). apply in_flat_map. exists o2. split; assumption.
  - subst o2. exfalso. apply (Hdis v Hv2). apply in_flat_map. exists o1. split; assumption.
  - apply (IH o1 o2 v); try assumption. apply NoDup_app_r in Hnd. exact Hnd.
Qed.

Lemma op_facts_at : forall c (FR : value -> Z -> Prop) l p o s,
  wf_prog l -> io_ok l ->
  (forall o' x y, In o' l -> In (x, y) (s_io o') -> ~ In y (zconsts c)) ->
  (forall o' x y, In o' l -> In (x, y) (s_io o') -> forall r, (FR x r -> FR y r) /\ (FR y r -> FR x r)) ->
  l = p ++ o :: s -> op_facts c FR o s.
Proof.
  intros c FR l p o s Hwf Hio Hnz Htie Hl.
  pose proof (wf_nodup l Hwf) as Hnd. rewrite Hl in Hnd. rewrite flat_map_app in Hnd. simpl in Hnd.
  pose proof (NoDup_app_r _ _ Hnd) as Hnd2.
  assert (Ho : In o l). { rewrite Hl. apply in_or_app. right. left. reflexivity. }
  constructor.
  - exact (NoDup_app_l _ _ Hnd2).
  - exact (proj1 (Hio p o s Hl)).
  - intros v Hv. pose proof (wf_use l Hwf p o s Hl v Hv) as Hn. split.
    + intro Hc. apply Hn. apply defined_in_cons. left. exact Hc.
    + intro Hc. apply Hn. apply defined_in_cons. right. exact Hc.
  - intros d Hd Hc. apply in_flat_map in Hc. exact (NoDup_app_disjoint _ _ Hnd2 d Hd Hc).
  - exact (proj2 (Hio p o s Hl)).
  - intros x y Hin. exact (Hnz o x y Ho Hin).
  - intros x y Hin. exact (Htie o x y Ho Hin).
Qed.

Lemma io_not_zconst : forall l, wf_prog l -> forall o x y, In o l -> In (x, y) (s_io o) -> ~ In y (zero_consts l).
Proof.
  intros l Hwf o x y Ho Hin Hc. destruct (zero_consts_kind l y Hc) as [o' [Ho' [Hk [t Hout]]]].
  destruct (wf_kind l Hwf o' Ho' Hk) as [Hio' _].
  assert (Heq : o = o').
  { apply (nodup_defs_inj l o o' y (wf_nodup l Hwf) Ho Ho').
    - exact (io_snd_def o x y Hin).
    - apply in_or_app. left. rewrite Hout. left. reflexivity. }
  subst o'. rewrite Hio' in Hin. destruct Hin.
Qed.

Lemma forced_tie : forall t0 l o x y, In o l -> In (x, y) (s_io o) ->
  forall r, (forced t0 l x r -> forced t0 l y r) /\ (forced t0 l y r -> forced t0 l x r).
Proof.
  intros t0 l o x y Ho Hin r. assert (Ht : tied l x y) by (exists o; split; assumption).
  split; intro H; [exact (F_res t0 l x y r Ht H) | exact (F_opnd t0 l x y r Ht H)].
Qed.

(* the walk over a segment q of a (possibly virtual) block l, started from any state that satisfies the
   invariant at the point below the segment *)
Section WalkFrom.
  Variable c : cfg.
  Variable t0 : value -> option Z.
  Variable FR : value -> Z -> Prop.
  Hypothesis FR_pre : forall v r, t0 v = Some r -> FR v r.
  Variable l : list sop.
  Hypothesis Hwf : wf_prog l.
  Hypothesis Hio : io_ok l.
  Hypothesis Hnz : forall o' x y, In o' l -> In (x, y) (s_io o') -> ~ In y (zconsts c).
  Hypothesis Htie : forall o' x y, In o' l -> In (x, y) (s_io o') -> forall r, (FR x r -> FR y r) /\ (FR y r -> FR x r).
  Notation Inv := (Inv c t0 FR).

  Lemma walk_from : forall q s0 p a0 a, l = p ++ q ++ s0 ->
    Inv (live s0) Enone (ment s0) a0 -> (forall v, live s0 v -> exists r, ty a0 v = Some r) ->
    allocate_sops c q a0 = Ok a ->
    Inv (live (q ++ s0)) Enone (ment (q ++ s0)) a
    /\ (forall v, live (q ++ s0) v -> exists r, ty a v = Some r) /\ mono a0 a.
  Proof.
    induction q as [|o q IH]; intros s0 p a0 a Hl HI0 Hall0 Hrun.
    - unfold allocate_sops in Hrun. simpl in Hrun. inversion Hrun; subst a. simpl.
      split; [exact HI0|]. split; [exact Hall0 | intros w r H; exact H].
    - rewrite allocate_sops_cons in Hrun.
      destruct (allocate_sops c q a0) as [a1|e] eqn:E1; simpl in Hrun; [|discriminate].
      assert (Hl1 : l = (p ++ [o]) ++ q ++ s0). { rewrite <- app_assoc. exact Hl. }
      destruct (IH s0 (p ++ [o]) a0 a1 Hl1 HI0 Hall0 E1) as [HI1 [Hall1 Hm1]].
      assert (Hl2 : l = p ++ o :: (q ++ s0)) by exact Hl.
      pose proof (op_facts_at c FR l p o (q ++ s0) Hwf Hio Hnz Htie Hl2) as F.
      destruct (op_step c t0 FR FR_pre o (q ++ s0) a1 a F HI1 Hall1 Hrun) as [HI2 [Hall2 [Hm2 _]]].
      split; [exact HI2|]. split; [exact Hall2|]. intros w r H. apply Hm2. apply Hm1. exact H.
  Qed.

  (* the head operation of the segment: its definitions are allocated and clash with nothing live after it *)
  Lemma walk_head : forall o q s0 p a0 a, l = p ++ (o :: q) ++ s0 ->
    Inv (live s0) Enone (ment s0) a0 -> (forall v, live s0 v -> exists r, ty a0 v = Some r) ->
    allocate_sops c (o :: q) a0 = Ok a ->
    (forall d, In d (defs o) -> exists r, ty a d = Some r)
    /\ (forall d v r, In d (defs o) -> live (q ++ s0) v -> d <> v -> ty a d = Some r -> ty a v = Some r ->
          Pset t0 r \/ (zero_rule c = true /\ r = 0))
    /\ (forall x y, In (x, y) (s_io o) -> ty a x = ty a y)
    /\ (forall v r, live (q ++ s0) v -> ty a v = Some r -> Pset t0 r -> FR v r)
    /\ (forall d r, In d (defs o) -> ty a d = Some r -> Pset t0 r -> FR d r)
    /\ (forall v, live (q ++ s0) v -> exists r, ty a v = Some r).
  Proof.
    intros o q s0 p a0 a Hl HI0 Hall0 Hrun. simpl in Hl.
    rewrite allocate_sops_cons in Hrun.
    destruct (allocate_sops c q a0) as [a1|e] eqn:E1; simpl in Hrun; [|discriminate].
    assert (Hl1 : l = (p ++ [o]) ++ q ++ s0). { rewrite <- app_assoc. exact Hl. }
    destruct (walk_from q s0 (p ++ [o]) a0 a1 Hl1 HI0 Hall0 E1) as [HI1 [Hall1 Hm1]].
    pose proof (op_facts_at c FR l p o (q ++ s0) Hwf Hio Hnz Htie Hl) as F.
    destruct (op_step c t0 FR FR_pre o (q ++ s0) a1 a F HI1 Hall1 Hrun) as [_ [_ [Hm2 [Hd [Hh [Ht Hdf]]]]]].
    split; [exact Hd|]. split; [exact Hh|]. split; [exact Ht|]. split; [|split; [exact Hdf|]].
    - intros v r Hv Hr HP. destruct HI1 as [_ [_ [_ [_ H5]]]].
      destruct (Hall1 v Hv) as [r1 Hr1]. pose proof (Hm2 v r1 Hr1) as E. rewrite Hr in E. inversion E; subst r1.
      exact (H5 v r Hv Hr1 HP).
    - intros v Hv. destruct (Hall1 v Hv) as [r1 Hr1]. exists r1. apply Hm2. exact Hr1.
  Qed.
End WalkFrom.

Lemma mono_inj : forall a a' v r r', mono a a' -> ty a v = Some r -> ty a' v = Some r' -> r = r'.
Proof. intros a a' v r r' Hm H H'. rewrite (Hm v r H) in H'. inversion H'. reflexivity. Qed.
Arguments mono_inj {a a'} v {r r'} _ _ _.

(* ---- a stretch q of a block l = p ++ q ++ s0, walked from a state a0 that satisfies the invariant at the
   point below it (any typing t0, any reservations): what the FINAL state af of the whole allocation,
   which only extends the state aq reached above q, says about every point of the stretch ---- *)
Section Segment.
  Set Implicit Arguments.
  Variable c : cfg.
  Variable t0 : value -> option Z.
  Variable FR : value -> Z -> Prop.
  Variable l : list sop.

  Record seg (p q s0 : list sop) (a0 aq : astate) : Prop := {
    sg_pre : forall v r, t0 v = Some r -> FR v r;
    sg_wf : wf_prog l;
    sg_io : io_ok l;
    sg_nz : forall o x y, In o l -> In (x, y) (s_io o) -> ~ In y (zconsts c);
    sg_tie : forall o x y, In o l -> In (x, y) (s_io o) -> forall r, (FR x r -> FR y r) /\ (FR y r -> FR x r);
    sg_split : l = p ++ q ++ s0;
    sg_inv : Inv c t0 FR (live s0) Enone (ment s0) a0;
    sg_all : forall v, live s0 v -> exists r, ty a0 v = Some r;
    sg_run : allocate_sops c q a0 = Ok aq }.

  Variables p q s0 : list sop.
  Variables a0 aq af : astate.
  Hypothesis S : seg p q s0 a0 aq.
  Hypothesis Hm : mono aq af.

  Lemma seg_top : Inv c t0 FR (live (q ++ s0)) Enone (ment (q ++ s0)) aq
    /\ (forall v, live (q ++ s0) v -> exists r, ty aq v = Some r) /\ mono a0 aq.
  Proof.
    pose proof S as [Hpre Hwf Hio Hnz Htie Hl HI Hall Hrun].
    exact (walk_from c t0 FR Hpre l Hwf Hio Hnz Htie q s0 p a0 aq Hl HI Hall Hrun).
  Qed.

  Lemma seg_point : forall q1 q2, q = q1 ++ q2 -> exists a,
    allocate_sops c q2 a0 = Ok a
    /\ Inv c t0 FR (live (q2 ++ s0)) Enone (ment (q2 ++ s0)) a
    /\ (forall v, live (q2 ++ s0) v -> exists r, ty a v = Some r) /\ mono a af.
  Proof.
    intros q1 q2 E. pose proof S as [Hpre Hwf Hio Hnz Htie Hl HI Hall Hrun]. subst q.
    rewrite allocate_sops_app in Hrun.
    destruct (allocate_sops c q2 a0) as [a|e] eqn:E2; simpl in Hrun; [|discriminate].
    assert (Hl2 : l = (p ++ q1) ++ q2 ++ s0) by (rewrite Hl, <- !app_assoc; reflexivity).
    destruct (walk_from c t0 FR Hpre l Hwf Hio Hnz Htie q2 s0 _ a0 a Hl2 HI Hall E2) as [HI2 [Hall2 _]].
    assert (Hl1 : l = p ++ q1 ++ (q2 ++ s0)) by (rewrite Hl, <- app_assoc; reflexivity).
    destruct (walk_from c t0 FR Hpre l Hwf Hio Hnz Htie q1 (q2 ++ s0) p a aq Hl1 HI2 Hall2 Hrun) as [_ [_ Hm1]].
    exists a. split; [reflexivity|]. split; [exact HI2|]. split; [exact Hall2|].
    intros w r H. apply Hm. apply Hm1. exact H.
  Qed.

  Lemma seg_live_allocated : forall q1 q2 v, q = q1 ++ q2 -> live (q2 ++ s0) v -> exists r, ty af v = Some r.
  Proof.
    intros q1 q2 v E Hv. destruct (seg_point q1 q2 E) as [a [_ [_ [Hall Hma]]]].
    destruct (Hall v Hv) as [r Hr]. exists r. exact (Hma v r Hr).
  Qed.

  Lemma seg_live_confined : forall q1 q2 v1 v2 r, q = q1 ++ q2 ->
    live (q2 ++ s0) v1 -> live (q2 ++ s0) v2 -> v1 <> v2 -> ty af v1 = Some r -> ty af v2 = Some r ->
    Pset t0 r \/ (zero_rule c = true /\ r = 0).
  Proof.
    intros q1 q2 v1 v2 r E Hv1 Hv2 Hne H1 H2.
    destruct (seg_point q1 q2 E) as [a [_ [[_ [_ [HG2 _]]] [Hall Hma]]]].
    destruct (Hall v1 Hv1) as [r1 Hr1]. destruct (Hall v2 Hv2) as [r2 Hr2].
    rewrite (mono_inj v1 Hma Hr1 H1) in Hr1. rewrite (mono_inj v2 Hma Hr2 H2) in Hr2.
    destruct (HG2 v1 v2 r Hv1 Hv2 Hne Hr1 Hr2) as [H|[H|[]]]; [left; exact H | right; exact H].
  Qed.

  Lemma seg_live_forced : forall q1 q2 v r, q = q1 ++ q2 ->
    live (q2 ++ s0) v -> ty af v = Some r -> Pset t0 r -> FR v r.
  Proof.
    intros q1 q2 v r E Hv Hr HP. destruct (seg_point q1 q2 E) as [a [_ [[_ [_ [_ [_ H5]]]] [Hall Hma]]]].
    destruct (Hall v Hv) as [r1 Hr1]. rewrite (mono_inj v Hma Hr1 Hr) in Hr1. exact (H5 v r Hv Hr1 HP).
  Qed.

  Lemma seg_def : forall q1 o q2, q = q1 ++ o :: q2 ->
    (forall d, In d (defs o) -> exists r, ty af d = Some r)
    /\ (forall d v r, In d (defs o) -> live (q2 ++ s0) v -> d <> v -> ty af d = Some r -> ty af v = Some r ->
          Pset t0 r \/ (zero_rule c = true /\ r = 0))
    /\ (forall d r, In d (defs o) -> ty af d = Some r -> Pset t0 r -> FR d r).
  Proof.
    intros q1 o q2 E. destruct (seg_point q1 (o :: q2) E) as [a [Ea [_ [_ Hma]]]].
    pose proof S as [Hpre Hwf Hio Hnz Htie Hl HI Hall _].
    assert (Hl' : l = (p ++ q1) ++ (o :: q2) ++ s0) by (rewrite Hl, E, <- !app_assoc; reflexivity).
    destruct (walk_head c t0 FR Hpre l Hwf Hio Hnz Htie o q2 s0 _ a0 a Hl' HI Hall Ea)
      as [Hdal [Hhead [_ [_ [Hfd Hval]]]]].
    split; [|split].
    - intros d Hd. destruct (Hdal d Hd) as [r Hr]. exists r. exact (Hma d r Hr).
    - intros d v r Hd Hv Hne H1 H2. destruct (Hdal d Hd) as [rd Hrd]. destruct (Hval v Hv) as [rv Hrv].
      rewrite (mono_inj d Hma Hrd H1) in Hrd. rewrite (mono_inj v Hma Hrv H2) in Hrv.
      exact (Hhead d v r Hd Hv Hne Hrd Hrv).
    - intros d r Hd Hr HP. destruct (Hdal d Hd) as [rd Hrd]. rewrite (mono_inj d Hma Hrd Hr) in Hrd.
      exact (Hfd d r Hd Hrd HP).
  Qed.
  Lemma seg_ties : forall q1 o q2 x y, q = q1 ++ o :: q2 -> In (x, y) (s_io o) ->
    ty af x = ty af y /\ ty af x <> None.
  Proof.
    intros q1 o q2 x y E Hin. destruct (seg_point q1 (o :: q2) E) as [a [Ea [_ [_ Hma]]]].
    pose proof S as [Hpre Hwf Hio Hnz Htie Hl HI Hall _].
    assert (Hl' : l = (p ++ q1) ++ (o :: q2) ++ s0) by (rewrite Hl, E, <- !app_assoc; reflexivity).
    destruct (walk_head c t0 FR Hpre l Hwf Hio Hnz Htie o q2 s0 _ a0 a Hl' HI Hall Ea) as [Hdal [_ [Hties _]]].
    destruct (Hdal y (io_snd_def o x y Hin)) as [r Hr]. pose proof (Hties x y Hin) as Heq. rewrite Hr in Heq.
    rewrite (Hma x r Heq), (Hma y r Hr). split; [reflexivity | discriminate].
  Qed.
  Unset Implicit Arguments.
End Segment.
