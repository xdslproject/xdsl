(* C16/ProofsFor.v -- scf.for reference semantics, its big-step Spec, and convert-scf-to-cf. *)
From Coq Require Import ZArith List Bool Lia.
From XV Require Import C16.Model.
Import ListNotations.
Local Open Scope Z_scope.

Lemma trip_unique : forall lb ub step t, 0 < step -> 0 <= t ->
  ub <= lb + t * step -> (0 < t -> lb + (t - 1) * step < ub) -> trip lb ub step = t.
Proof.
  intros lb ub step t Hs Ht Hub Hlb. unfold trip.
  destruct (Z.ltb_spec lb ub); [|nia].
  symmetry. apply Z.div_unique with (r := ub - lb + step - 1 - step * t); lia.
Qed.

Lemma trip_spec : forall lb ub step, 0 < step ->
  0 <= trip lb ub step /\ ub <= lb + trip lb ub step * step
  /\ (0 < trip lb ub step -> lb + (trip lb ub step - 1) * step < ub).
Proof.
  intros lb ub step Hs. unfold trip.
  destruct (Z.ltb_spec lb ub); [|lia].
  pose proof (Z.div_mod (ub - lb + step - 1) step ltac:(lia)).
  pose proof (Z.mod_pos_bound (ub - lb + step - 1) step Hs). lia.
Qed.

Lemma trip_nonneg : forall lb ub step, 0 < step -> 0 <= trip lb ub step.
Proof. intros lb ub step Hs. apply trip_spec. assumption. Qed.

Lemma trip_zero : forall lb ub step, ub <= lb -> trip lb ub step = 0.
Proof.
  intros lb ub step H. unfold trip. destruct (Z.ltb_spec lb ub); [lia|reflexivity].
Qed.

Lemma trip_succ : forall lb ub step, 0 < step -> lb < ub ->
  Z.to_nat (trip lb ub step) = S (Z.to_nat (trip (lb + step) ub step)).
Proof.
  intros lb ub step Hs Hlt.
  destruct (trip_spec (lb + step) ub step Hs) as [H0 [Hub Hlb]].
  rewrite (trip_unique lb ub step (1 + trip (lb + step) ub step)); [lia|assumption|lia|lia|lia].
Qed.

Lemma trip_exact : forall lb ub step, 0 < step -> lb < ub ->
  lb + (trip lb ub step - 1) * step < ub <= lb + trip lb ub step * step.
Proof.
  intros lb ub step Hs Hlt. destruct (trip_spec lb ub step Hs) as [H0 [Hub Hlb]]. lia.
Qed.

Section ForSpec.
Variable st : Type.
Variable body : Z -> st -> st.

(* "iterate while iv < ub (signed), adding step": a reader-checkable definition of scf.for *)
Inductive for_rel (ub step : Z) : Z -> st -> st -> Prop :=
  | for_done : forall iv s, ub <= iv -> for_rel ub step iv s s
  | for_iter : forall iv s s', iv < ub ->
      for_rel ub step (iv + step) (body iv s) s' -> for_rel ub step iv s s'.

Lemma for_rel_det : forall ub step iv s s1, for_rel ub step iv s s1 ->
  forall s2, for_rel ub step iv s s2 -> s1 = s2.
Proof.
  intros ub step iv s s1 H1. induction H1 as [iv s Hge | iv s s' Hlt _ IH]; intros s2 H2.
  - inversion H2; subst; [reflexivity | lia].
  - inversion H2; subst; [lia | apply IH; assumption].
Qed.

Lemma for_sem_unfold : forall lb ub step s, 0 < step ->
  for_sem st body lb ub step s =
  if lb <? ub then for_sem st body (lb + step) ub step (body lb s) else s.
Proof.
  intros lb ub step s Hs. unfold for_sem.
  destruct (Z.ltb_spec lb ub).
  - rewrite trip_succ by assumption. reflexivity.
  - rewrite trip_zero by assumption. reflexivity.
Qed.

Lemma for_sem_rel : forall lb ub step s, 0 < step ->
  for_rel ub step lb s (for_sem st body lb ub step s).
Proof.
  intros lb ub step s Hs. unfold for_sem.
  remember (Z.to_nat (trip lb ub step)) as n eqn:Hn. revert lb s Hn.
  induction n as [|n IH]; intros lb s Hn; destruct (Z.lt_ge_cases lb ub) as [Hlt | Hge].
  - rewrite trip_succ in Hn by assumption. discriminate.
  - apply for_done. assumption.
  - rewrite trip_succ in Hn by assumption. injection Hn as Hn.
    apply for_iter; [assumption|]. apply IH. assumption.
  - rewrite trip_zero in Hn by assumption. discriminate.
Qed.

(* for_sem (trip-count form) is THE result of the big-step relation *)
Theorem for_sem_spec : forall lb ub step s, 0 < step ->
  for_rel ub step lb s (for_sem st body lb ub step s)
  /\ (forall s', for_rel ub step lb s s' -> s' = for_sem st body lb ub step s).
Proof.
  intros lb ub step s Hs. pose proof (for_sem_rel lb ub step s Hs) as H. split; [exact H|].
  intros s' H'. exact (for_rel_det _ _ _ _ _ H' _ H).
Qed.

Theorem for_fuel_enough : forall fuel lb ub step s, 0 < step ->
  (Z.to_nat (trip lb ub step) < fuel)%nat ->
  for_fuel st body fuel lb ub step s = Some (for_sem st body lb ub step s).
Proof.
  induction fuel as [|f IH]; intros lb ub step s Hs Hf; [lia|].
  cbn [for_fuel]. rewrite for_sem_unfold by assumption.
  destruct (Z.ltb_spec lb ub); [|reflexivity].
  rewrite trip_succ in Hf by assumption. apply IH; [assumption|lia].
Qed.

Lemma for_sem_zero_trip : forall lb ub step s, ub <= lb -> for_sem st body lb ub step s = s.
Proof. intros. unfold for_sem. rewrite trip_zero by assumption. reflexivity. Qed.

Section Lowering.
Variables (thenf elsef : st -> st).
Variables (lb ub step : Z) (cond : bool).

Notation run := (cfg_run st body thenf elsef lb ub step cond).

Lemma header_run : forall iv s r, 0 < step -> for_rel ub step iv s r -> forall k,
  run (Z.to_nat (trip iv ub step) * 2 + 2 + k) lower_for 1%nat iv s = RDone st r.
Proof.
  intros iv s r Hs H. induction H as [iv s Hge | iv s r Hlt _ IH]; intros k.
  - rewrite trip_zero by assumption. cbn. rewrite (proj2 (Z.ltb_ge iv ub) Hge). reflexivity.
  - rewrite trip_succ by assumption. cbn. rewrite (proj2 (Z.ltb_lt iv ub) Hlt). apply IH.
Qed.

(* the lowered CFG, started in the init block, returns exactly the scf.for result *)
Theorem for_lowering : forall iv0 s fuel, 0 < step ->
  (2 * Z.to_nat (trip lb ub step) + 3 <= fuel)%nat ->
  run fuel lower_for 0%nat iv0 s = RDone st (for_sem st body lb ub step s).
Proof.
  intros iv0 s fuel Hs Hf. destruct (Nat.le_exists_sub _ _ Hf) as [k [-> _]].
  replace (k + _)%nat with (S (Z.to_nat (trip lb ub step) * 2 + 2 + k)) by lia.
  cbn. apply header_run; [assumption|apply for_sem_rel; assumption].
Qed.

(* with a non-positive step and lb < ub the lowered loop never reaches the exit block *)
Lemma lowering_diverges_aux : forall fuel pc iv s, step <= 0 -> iv < ub ->
  (pc = 1 \/ pc = 2)%nat -> run fuel lower_for pc iv s = RFuel st.
Proof.
  induction fuel as [|f IH]; intros pc iv s Hs Hlt Hpc; [reflexivity|].
  destruct Hpc as [-> | ->]; cbn.
  - rewrite (proj2 (Z.ltb_lt iv ub) Hlt). apply IH; [assumption|assumption|right; reflexivity].
  - apply IH; [assumption|lia|left; reflexivity].
Qed.

Theorem for_lowering_nonpositive_step_diverges : forall fuel iv0 s, step <= 0 -> lb < ub ->
  run fuel lower_for 0%nat iv0 s = RFuel st.
Proof.
  intros fuel iv0 s Hs Hlt. destruct fuel as [|f]; [reflexivity|].
  cbn. apply lowering_diverges_aux; [assumption|assumption|left; reflexivity].
Qed.

Theorem if_lowering : forall has_else has_results iv0 s fuel, (5 <= fuel)%nat ->
  run fuel (lower_if has_else has_results) 0%nat iv0 s
  = RDone st (if_sem st thenf elsef cond has_else s).
Proof.
  intros he hr iv0 s fuel Hf.
  destruct (Nat.le_exists_sub _ _ Hf) as [k [-> _]]. rewrite Nat.add_comm.
  unfold if_sem. destruct he, hr, cond; reflexivity.
Qed.

End Lowering.
End ForSpec.
