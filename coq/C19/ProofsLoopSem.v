(* C19/ProofsLoopSem.v -- register machine vs SSA for a riscv_scf.for.  Section LoopRun: for an ABSTRACT
   assignment in which each loop-carried group sits in one register and the induction variable elsewhere, the
   lowered loop (no moves for carried values) and the SSA loop agree, for every trip count, on everything live
   after the loop (induction on the trip count; one execution of the body is the straight-line theorem inv_run).
   Section FuncLoop: the assignment computed by allocate_func is such an assignment. *)
From Coq Require Import ZArith List Bool Arith Lia.
From XV Require Import C19.Model C19.ProofsSpec C19.ProofsStack C19.ProofsAlloc C19.ProofsStep C19.ProofsMain
                       C19.ProofsFunc C19.ProofsSem C19.ProofsLoop C19.ProofsLoop2.
Import ListNotations.
Local Open Scope Z_scope.

Lemma zero_consts_skip : forall l1 o l2, s_kind o = KOther -> zero_consts (l1 ++ o :: l2) = zero_consts (l1 ++ l2).
Proof.
  intros l1 o l2 H. unfold zero_consts. rewrite !fold_left_app. simpl. rewrite H. reflexivity.
Qed.

Lemma zero_consts_virt : forall pre f post,
  zero_consts (virt pre f post) = zero_consts (pre ++ f_body f ++ post).
Proof.
  intros pre f post. unfold virt. rewrite (zero_consts_skip pre (Hop f)) by reflexivity.
  replace (pre ++ f_body f ++ Yop f :: post) with ((pre ++ f_body f) ++ Yop f :: post) by (rewrite <- app_assoc; reflexivity).
  rewrite (zero_consts_skip (pre ++ f_body f) (Yop f)) by reflexivity. rewrite <- app_assoc. reflexivity.
Qed.

Lemma all_sops_loop : forall pre f post,
  all_sops (map Simple pre ++ For f :: map Simple post) = pre ++ f_body f ++ post.
Proof.
  intros pre f post. unfold all_sops. rewrite flat_map_app. simpl.
  fold (all_sops (map Simple pre)). fold (all_sops (map Simple post)). rewrite !all_sops_simple. reflexivity.
Qed.

Lemma write_env_map : forall (data : Type) (g : value -> data) ds srcs (env : value -> data) d x,
  NoDup ds -> In (d, x) (combine ds srcs) -> write_env data env ds (map g srcs) d = g x.
Proof.
  intros data g ds. induction ds as [|d0 t IH]; intros srcs env d x Hnd Hin; [destruct Hin|].
  destruct srcs as [|s0 srcs]; [destruct Hin|]. simpl in *. inversion Hnd as [|? ? Hn Hd]; subst.
  destruct Hin as [Hin|Hin].
  - inversion Hin; subst. rewrite write_env_notin by exact Hn. unfold upd. rewrite Nat.eqb_refl. reflexivity.
  - exact (IH srcs _ d x Hd Hin).
Qed.

Lemma zfold_grow : forall l zs v, In v zs -> In v (fold_left zstep l zs).
Proof.
  induction l as [|o t IH]; intros zs v H; simpl; [exact H|]. apply IH.
  destruct (zstep_cases zs o) as [->|[r [t' [_ [-> _]]]]]; [exact H | right; exact H].
Qed.
Lemma zero_consts_mono : forall p s v, In v (zero_consts p) -> In v (zero_consts (p ++ s)).
Proof. intros p s v H. rewrite zero_consts_fold, fold_left_app. apply zfold_grow. exact H. Qed.

Fixpoint iter_n {A} (n : nat) (g : A -> A) (x : A) : A := match n with O => x | S k => g (iter_n k g x) end.

Section LoopRun.
  Variable data : Type.
  Variable dzero : data.
  Variable fop : nat -> nat -> list data -> data.
  Variable ivnext : data -> data -> data.          (* induction variable update, uninterpreted *)
  Variable zr : bool.
  Variable asg : value -> Z.
  Variable pre post : list sop.
  Variable f : forop.
  Variable iv : value.
  Variable cb : list value.
  Notation V := (virt pre f post).
  Notation H_ := (Hop f).
  Notation Y_ := (Yop f).
  Notation R_ := (f_body f ++ Y_ :: post).
  Notation done := (pre ++ [H_]).
  Notation rd := (read_reg data dzero zr asg).

  Hypothesis Hb : f_bargs f = iv :: cb.
  Hypothesis Hwf : wf_prog V.
  Hypothesis HdefV : forall p o s, V = p ++ o :: s -> forall d v, In d (defs o) -> live s v -> d <> v ->
      asg d = asg v -> is_zero_reg zr (asg d) = true.
  Hypothesis HzeroV : forall v, is_zero_reg zr (asg v) = true -> In v (zero_consts V).
  (* the loop-carried groups sit in one register each, the induction variable elsewhere, none in `zero` *)
  Hypothesis Hg1 : forall it b, In (b, it) (combine cb (f_iters f)) -> asg it = asg b.
  Hypothesis Hg2 : forall b y, In (b, y) (combine cb (f_yield f)) -> asg b = asg y.
  Hypothesis Hg3 : forall r_ b, In (r_, b) (combine (f_res f) cb) -> asg r_ = asg b.
  Hypothesis Hivg : forall b, In b cb -> asg b <> asg iv.
  Hypothesis Hivz : is_zero_reg zr (asg iv) = false.
  Hypothesis Hnd_cb : NoDup (iv :: cb).
  Hypothesis Hnd_res : NoDup (f_res f).
  Hypothesis Hlen : length (f_iters f) = length cb /\ length (f_iters f) = length (f_yield f)
                    /\ length (f_iters f) = length (f_res f).
  (* how liveness moves along the edges of the loop: what is live in the body, the block arguments apart, is live
     before the header (S3) and over the back edge (S5); what H reads is live before it (S4), what Y reads before it
     (S6); what is live after the loop, the results apart, is live in the body (S7); no zero constant is a block
     argument (S8) *)
  Hypothesis S3 : forall v, live R_ v -> ~ In v (iv :: cb) -> live (H_ :: R_) v.
  Hypothesis S4 : forall v, In v (f_lb f :: f_iters f) -> live (H_ :: R_) v.
  Hypothesis S5 : forall v, live R_ v -> ~ In v (iv :: cb) -> live (Y_ :: post) v.
  Hypothesis S6 : forall v, In v (iv :: step_list f ++ f_yield f) -> live (Y_ :: post) v.
  Hypothesis S7 : forall v, live post v -> ~ In v (f_res f) -> live R_ v /\ ~ In v (iv :: cb).
  Hypothesis S8 : forall v, In v (zero_consts (done ++ f_body f)) -> ~ In v (iv :: cb).

  Definition stepval (env : value -> data) : data := match f_step f with Some s => env s | None => dzero end.
  Definition stepvalR (rf : Z -> data) : data := match f_step f with Some s => rd rf s | None => dzero end.
  (* SSA semantics of riscv_scf.for with trip count n *)
  Definition ssa_H (env : value -> data) := write_env data (upd env iv (env (f_lb f))) cb (map env (f_iters f)).
  Definition ssa_back (env : value -> data) :=
    write_env data (upd env iv (ivnext (env iv) (stepval env))) cb (map env (f_yield f)).
  Definition ssa_iter (env : value -> data) := ssa_back (exec_ssa data dzero fop (length done) (f_body f) env).
  Definition ssa_loop (n : nat) (env : value -> data) :=
    let e := iter_n n ssa_iter (ssa_H env) in write_env data e (f_res f) (map e cb).
  (* the lowered loop on the register machine: mv iv <- lb ; (body ; iv <- next)^n ; results stay in place *)
  Definition regs_H (rf : Z -> data) := updZ rf (asg iv) (rd rf (f_lb f)).
  Definition regs_back (rf : Z -> data) := updZ rf (asg iv) (ivnext (rd rf iv) (stepvalR rf)).
  Definition regs_iter (rf : Z -> data) := regs_back (exec_regs data dzero fop zr asg (length done) (f_body f) rf).
  Definition regs_loop (n : nat) (rf : Z -> data) := iter_n n regs_iter (regs_H rf).

  Definition Top (env : value -> data) (rf : Z -> data) : Prop :=
    (forall v, live R_ v -> rd rf v = env v) /\ (forall b, In b cb -> rd rf b = env b)
    /\ (forall v, In v (zero_consts done) -> env v = dzero).

  Lemma rd_upd_iv : forall rf x, rd (updZ rf (asg iv) x) iv = x.
  Proof. intros rf x. unfold read_reg. rewrite Hivz. unfold updZ. rewrite Z.eqb_refl. reflexivity. Qed.
  Lemma rd_upd_other : forall rf x v, asg v <> asg iv -> rd (updZ rf (asg iv) x) v = rd rf v.
  Proof.
    intros rf x v Hne. unfold read_reg. destruct (is_zero_reg zr (asg v)); [reflexivity|].
    unfold updZ. destruct (asg v =? asg iv) eqn:E; [apply Z.eqb_eq in E; contradiction | reflexivity].
  Qed.
  Lemma rd_same_reg : forall rf u w, asg u = asg w -> rd rf u = rd rf w.
  Proof. intros rf u w E. unfold read_reg. rewrite E. reflexivity. Qed.

  Lemma iv_other : forall v, live R_ v -> v <> iv -> asg v <> asg iv.
  Proof.
    intros v Hv Hne Heq.
    assert (Hd : In iv (defs H_)) by (apply (defs_H f iv cb Hb Hlen); left; reflexivity).
    pose proof (HdefV pre H_ R_ eq_refl iv v Hd Hv (fun Hc => Hne (eq_sym Hc)) (eq_sym Heq)) as Hz.
    rewrite Hivz in Hz. discriminate.
  Qed.

  Lemma iv_notin_cb : ~ In iv cb.
  Proof. inversion Hnd_cb; assumption. Qed.
  Lemma nodup_cb : NoDup cb.
  Proof. inversion Hnd_cb; assumption. Qed.

  (* an edge into the top of the body: the induction variable gets x, the carried block arguments get the values
     of srcs, which already sit in the carried registers (no moves) *)
  Lemma edge_top : forall env rf srcs x, (length cb <= length srcs)%nat ->
    (forall b s, In (b, s) (combine cb srcs) -> asg s = asg b /\ rd rf s = env s) ->
    (forall v, live R_ v -> ~ In v (iv :: cb) -> rd rf v = env v) ->
    (forall v, In v (zero_consts done) -> env v = dzero) ->
    Top (write_env data (upd env iv x) cb (map env srcs)) (updZ rf (asg iv) x).
  Proof.
    intros env rf srcs x Hl Hsrc Hout Hzc. unfold Top.
    assert (Hcb : forall b, In b cb -> rd (updZ rf (asg iv) x) b = write_env data (upd env iv x) cb (map env srcs) b).
    { intros b Hbin. destruct (in_combine_l_ex cb srcs b Hbin Hl) as [s Hp]. destruct (Hsrc b s Hp) as [Ha Hr].
      rewrite (write_env_map data env cb srcs _ b s nodup_cb Hp).
      rewrite rd_upd_other by exact (Hivg b Hbin). rewrite <- (rd_same_reg rf s b Ha). exact Hr. }
    split; [|split; [exact Hcb|]].
    - intros v Hv. destruct (Nat.eq_dec v iv) as [E|E].
      + subst v. rewrite rd_upd_iv. rewrite write_env_notin by exact iv_notin_cb. unfold upd. rewrite Nat.eqb_refl. reflexivity.
      + destruct (in_dec Nat.eq_dec v cb) as [Hc|Hc]; [exact (Hcb v Hc)|].
        rewrite rd_upd_other by exact (iv_other v Hv E). rewrite write_env_notin by exact Hc.
        unfold upd. destruct (Nat.eqb v iv) eqn:Ev; [apply Nat.eqb_eq in Ev; contradiction|].
        apply Hout; [exact Hv | intros [Hx|Hx]; [exact (E (eq_sym Hx)) | exact (Hc Hx)]].
    - intros v Hv. pose proof (S8 v (zero_consts_mono done (f_body f) v Hv)) as Hn.
      rewrite write_env_notin by (intro Hc; apply Hn; right; exact Hc).
      unfold upd. destruct (Nat.eqb v iv) eqn:Ev; [apply Nat.eqb_eq in Ev; exfalso; apply Hn; left; symmetry; exact Ev|].
      exact (Hzc v Hv).
  Qed.

  Lemma entry_top : forall env rf,
    (forall v, live (H_ :: R_) v -> rd rf v = env v) ->
    (forall v, In v (zero_consts done) -> env v = dzero) ->
    Top (ssa_H env) (regs_H rf).
  Proof.
    intros env rf Hag Hzc. unfold ssa_H, regs_H. rewrite (Hag (f_lb f) (S4 _ (or_introl eq_refl))).
    apply edge_top; [destruct Hlen as [L _]; lia | | | exact Hzc].
    - intros b it Hp. split; [exact (Hg1 it b Hp) | apply Hag; apply S4; right; exact (in_combine_r _ _ _ _ Hp)].
    - intros v Hv Hn. apply Hag. exact (S3 v Hv Hn).
  Qed.

  Lemma back_top : forall env rf,
    (forall v, live (Y_ :: post) v -> rd rf v = env v) ->
    (forall v, In v (zero_consts (done ++ f_body f)) -> env v = dzero) ->
    Top (ssa_back env) (regs_back rf).
  Proof.
    intros env rf Hag Hzc. unfold ssa_back, regs_back.
    assert (Hstep : stepvalR rf = stepval env).
    { unfold stepvalR, stepval. pose proof S6 as S6'. unfold step_list in S6'.
      destruct (f_step f) as [s0|]; [|reflexivity].
      apply Hag. apply S6'. right. simpl. left. reflexivity. }
    rewrite (Hag iv (S6 iv (or_introl eq_refl))), Hstep.
    apply edge_top; [destruct Hlen as [L1 [L2 _]]; lia | | |].
    - intros b y Hp. split; [symmetry; exact (Hg2 b y Hp)|].
      apply Hag. apply S6. right. apply in_or_app. right. exact (in_combine_r _ _ _ _ Hp).
    - intros v Hv Hn. apply Hag. exact (S5 v Hv Hn).
    - intros v Hv. exact (Hzc v (zero_consts_mono done (f_body f) v Hv)).
  Qed.

  Lemma iter_top : forall env rf, Top env rf -> Top (ssa_iter env) (regs_iter rf).
  Proof.
    intros env rf [T1 [_ T3]]. unfold ssa_iter, regs_iter.
    assert (Hl : V = done ++ f_body f ++ Y_ :: post). { unfold virt. rewrite <- app_assoc. reflexivity. }
    destruct (inv_run data dzero fop zr asg V Hwf HdefV HzeroV (f_body f) done (Y_ :: post) env rf Hl (conj T1 T3)) as [R1 R2].
    exact (back_top _ _ R1 R2).
  Qed.

  (* C19_semantics for the loop, any trip count n: if the two states agree on everything live before the
     loop, then after  header ; (body ; back edge)^n ; exit  they agree on everything live after the loop
     (the loop results included) *)
  Theorem loop_semantics : forall n env rf,
    (forall v, live (H_ :: R_) v -> rd rf v = env v) ->
    (forall v, In v (zero_consts done) -> env v = dzero) ->
    forall v, live post v -> rd (regs_loop n rf) v = ssa_loop n env v.
  Proof.
    intros n env rf Hag Hzc.
    assert (HT : Top (iter_n n ssa_iter (ssa_H env)) (iter_n n regs_iter (regs_H rf))).
    { induction n as [|k IH]; simpl; [exact (entry_top env rf Hag Hzc) | exact (iter_top _ _ IH)]. }
    destruct HT as [T1 [T2 _]]. intros v Hv. unfold regs_loop, ssa_loop.
    destruct (in_dec Nat.eq_dec v (f_res f)) as [Hr|Hr].
    - destruct (in_combine_l_ex (f_res f) cb v Hr) as [b Hp]; [destruct Hlen as [L1 [L2 L3]]; lia|].
      rewrite (write_env_map data _ (f_res f) cb _ v b Hnd_res Hp).
      rewrite (rd_same_reg _ v b (Hg3 v b Hp)). apply T2. exact (in_combine_r _ _ _ _ Hp).
    - rewrite write_env_notin by exact Hr. apply T1. exact (proj1 (S7 v Hv Hr)).
  Qed.
End LoopRun.

Section FuncLoop.
  Variable zr : bool.
  Variable pool : list Z.
  Variable allow : bool.
  Variable types : list (option Z).
  Variable pre : list sop.
  Variable f : forop.
  Variable post : list sop.
  Variable iv : value.
  Variable cb : list value.
  Variable af : astate.
  Notation fn := (mkFunc types (map Simple pre ++ For f :: map Simple post)).
  Notation c := (mk_cfg zr fn).
  Notation V := (virt pre f post).
  Notation gv := (concat (groups f)).
  Notation H_ := (Hop f).
  Notation Y_ := (Yop f).
  Notation R_ := (f_body f ++ Y_ :: post).
  Notation done := (pre ++ [H_]).

  Hypothesis Hz : zr = true -> ~ In 0 pool.
  Hypothesis Hpool : forall r, In r pool -> 0 <= r.
  Hypothesis Hnone : forall v, ty0 fn v = None.
  Hypothesis Hb : f_bargs f = iv :: cb.
  Hypothesis Hwf : wf_prog V.
  Hypothesis Hio : io_ok V.
  Hypothesis Hnz : forall o x y, In o V -> In (x, y) (s_io o) -> ~ In y (zconsts c).
  Hypothesis Hlen : length (f_iters f) = length cb /\ length (f_iters f) = length (f_yield f)
                    /\ length (f_iters f) = length (f_res f).
  Hypothesis Hgs : NoDup gv.
  Hypothesis Hscope : forall v, In v (iv :: cb) \/ defined_in (f_body f) v -> ~ used_in post v.
  Hypothesis Hiv : ~ In iv gv.
  Hypothesis Hli : forall v, In v (live_ins_body f) -> ~ In v gv /\ v <> iv.
  Hypothesis Hbnd : forall v, In v (f_lb f :: f_ub f :: step_list f) -> ~ In v gv /\ v <> iv.
  Hypothesis Htie : forall p s, V = p ++ s -> forall v1 v2, live s v1 -> live s v2 -> v1 <> v2 ->
    tconn pre f post v1 v2 -> False.
  Hypothesis Htied : forall p o s, V = p ++ o :: s -> forall d v, In d (defs o) -> live s v -> d <> v ->
    tconn pre f post d v -> False.
  Hypothesis Hrun : allocate_func zr pool allow fn = Ok af.

  Let Hni := loop_no_interference zr pool allow types pre f post iv cb af
               Hz Hpool Hnone Hb Hwf Hio Hnz Hlen Hgs Hscope Hiv Hli Hbnd Htie Hrun.
  Let Hdefs := loop_defs zr pool allow types pre f post iv cb af
               Hz Hpool Hnone Hb Hwf Hio Hnz Hlen Hgs Hscope Hiv Hli Hbnd Htie Htied Hrun.
  Let Hzty := loop_zero_ty zr pool allow types pre f post iv cb af
               Hz Hpool Hnone Hb Hwf Hio Hnz Hlen Hgs Hscope Hiv Hli Hbnd Htie Hrun.
  Let Hregs := loop_reg_facts zr pool allow types pre f post iv cb af
               Hz Hpool Hnone Hb Hwf Hio Hnz Hlen Hgs Hscope Hiv Hli Hbnd Htie Hrun.
  Let FHf := FH zr types pre f post Hwf Hio Hnz FR00 (FR00_tie pre f post).
  Let FYf := FY zr types pre f post Hwf Hio Hnz FR00 (FR00_tie pre f post).

  (* a result is written into a register that no value live after the operation occupies (except zero) *)
  Lemma asg_def_sep : forall p o s, V = p ++ o :: s -> forall d v, In d (defs o) -> live s v -> d <> v ->
    asg_of af d = asg_of af v -> is_zero_reg zr (asg_of af d) = true.
  Proof.
    intros p o s Hl d v Hd Hv Hne Heq. unfold asg_of in *.
    destruct (Hdefs p o s Hl) as [Hdal Hda]. destruct (Hdal d Hd) as [r1 Hr1].
    assert (Hl' : V = (p ++ [o]) ++ s) by (rewrite <- app_assoc; exact Hl).
    destruct (proj1 (Hni (p ++ [o]) s Hl') v Hv) as [r2 Hr2].
    rewrite Hr1, Hr2 in Heq. subst r2. rewrite Hr1.
    destruct (Hda d v r1 Hd Hv Hne Hr1 Hr2) as [Hzr Hr0]. subst r1.
    unfold is_zero_reg. rewrite Hzr. reflexivity.
  Qed.

  Lemma asg_zero_const : forall v, is_zero_reg zr (asg_of af v) = true -> In v (zero_consts V).
  Proof.
    intros v Hzv. unfold asg_of, is_zero_reg in Hzv. apply andb_true_iff in Hzv. destruct Hzv as [Hzr Hr].
    destruct (ty af v) as [r|] eqn:Er; [|discriminate]. apply Z.eqb_eq in Hr. subst r.
    rewrite zero_consts_virt. rewrite <- all_sops_loop. exact (Hzty v Hzr Er).
  Qed.

  Theorem func_loop_iteration :
    forall (data : Type) (dzero : data) (fop : nat -> nat -> list data -> data) (env : value -> data) (rf : Z -> data),
    (forall v, live R_ v -> read_reg data dzero zr (asg_of af) rf v = env v) ->
    (forall v, In v (zero_consts done) -> env v = dzero) ->
    (forall v, live (Y_ :: post) v ->
       read_reg data dzero zr (asg_of af) (exec_regs data dzero fop zr (asg_of af) (length done) (f_body f) rf) v
       = exec_ssa data dzero fop (length done) (f_body f) env v)
    /\ (forall v, In v (zero_consts (done ++ f_body f)) -> exec_ssa data dzero fop (length done) (f_body f) env v = dzero).
  Proof.
    intros data dzero fop env rf Hlive Hzc.
    assert (Hl : V = done ++ f_body f ++ Y_ :: post) by (unfold virt; rewrite <- app_assoc; reflexivity).
    exact (inv_run data dzero fop zr (asg_of af) V Hwf asg_def_sep asg_zero_const (f_body f) done (Y_ :: post) env rf Hl
             (conj Hlive Hzc)).
  Qed.

  Lemma asg_group : forall x y,
    In (x, y) (combine cb (f_iters f)) \/ In (x, y) (combine cb (f_yield f)) \/ In (y, x) (combine (f_res f) cb) ->
    asg_of af x = asg_of af y.
  Proof.
    intros x y H. destruct (pair_group f iv cb Hb Hlen x y H) as [g [Hg [Hx Hy]]].
    destruct (proj1 Hregs g Hg) as [R HR]. unfold asg_of. rewrite (HR x Hx), (HR y Hy). reflexivity.
  Qed.

  Lemma zero_const_not_H : forall v, In v (zero_consts V) -> ~ In v (iv :: cb).
  Proof.
    intros v Hv Hc. destruct (zero_consts_kind _ v Hv) as [o [Ho [Hk [t Hout]]]].
    assert (HinV_H : In H_ V) by (unfold virt; apply in_or_app; right; left; reflexivity).
    assert (Heq : o = H_).
    { apply (nodup_defs_inj V o H_ v (wf_nodup _ Hwf) Ho HinV_H).
      - unfold defs, sop_results. apply in_or_app. left. rewrite Hout. left. reflexivity.
      - rewrite (defs_H_eq f iv cb Hb Hlen). exact Hc. }
    subst o. apply Hk. reflexivity.
  Qed.

  Theorem func_loop_semantics :
    forall (data : Type) (dzero : data) (fop : nat -> nat -> list data -> data) (ivnext : data -> data -> data)
           (n : nat) (env : value -> data) (rf : Z -> data),
    (forall v, live (H_ :: R_) v -> read_reg data dzero zr (asg_of af) rf v = env v) ->
    (forall v, In v (zero_consts done) -> env v = dzero) ->
    forall v, live post v ->
      read_reg data dzero zr (asg_of af) (regs_loop data dzero fop ivnext zr (asg_of af) pre f iv n rf) v
      = ssa_loop data dzero fop ivnext pre f iv cb n env v.
  Proof.
    intros data dzero fop ivnext n env rf Hag Hzc.
    destruct (proj2 Hregs) as [riv [Hrivf HIVF]].
    pose proof (uses_H f iv cb Hb Hlen) as HusesH. pose proof (uses_Y f iv cb Hb Hlen) as HusesY.
    pose proof (defs_Y f cb Hlen) as HdefsY.
    apply (loop_semantics data dzero fop ivnext zr (asg_of af) pre post f iv cb Hb Hwf asg_def_sep asg_zero_const).
    - (* Hg1 *) intros it b Hp. symmetry. exact (asg_group b it (or_introl Hp)).
    - (* Hg2 *) intros b y Hp. exact (asg_group b y (or_intror (or_introl Hp))).
    - (* Hg3 *) intros r_ b Hp. symmetry. exact (asg_group b r_ (or_intror (or_intror Hp))).
    - (* Hivg *) intros b Hbin Heq. unfold asg_of in Heq. rewrite Hrivf in Heq.
      pose proof (proj2 (in_gv_iff f iv cb Hb Hlen b) (or_introl Hbin)) as Hbg. apply (HIVF b Hbg).
      apply in_concat in Hbg. destruct Hbg as [g [Hg Hbg']]. destruct (proj1 Hregs g Hg) as [R HR].
      rewrite (HR b Hbg') in Heq. subst R. exact (HR b Hbg').
    - (* Hivz *) unfold asg_of, is_zero_reg. rewrite Hrivf. destruct (zr && (riv =? 0)) eqn:E; [|reflexivity].
      exfalso. apply andb_true_iff in E. destruct E as [Ez E0]. apply Z.eqb_eq in E0. subst riv.
      apply (zero_const_not_H iv); [|left; reflexivity]. rewrite zero_consts_virt. rewrite <- all_sops_loop.
      exact (Hzty iv Ez Hrivf).
    - (* NoDup (iv :: cb) *) rewrite <- (defs_H_eq f iv cb Hb Hlen). exact (of_nodup_defs c _ H_ _ FHf).
    - (* NoDup res *) rewrite <- HdefsY. exact (of_nodup_defs c _ Y_ _ FYf).
    - exact Hlen.
    - (* S3 *) intros v [Hu Hnd] Hn. split; [apply used_in_cons; right; exact Hu|]. intro Hc. apply defined_in_cons in Hc.
      destruct Hc as [Hc|Hc]; [|exact (Hnd Hc)]. rewrite (defs_H_eq f iv cb Hb Hlen) in Hc. exact (Hn Hc).
    - (* S4 *) intros v Hvin. apply (use_live c FR00 H_ R_ v FHf). rewrite HusesH.
      destruct Hvin as [Hvin|Hvin]; [left; exact Hvin | apply in_or_app; right; exact Hvin].
    - (* S5 *) intros v [Hu Hnd] Hn.
      assert (Hndb : ~ defined_in (f_body f) v) by (intro Hc; apply Hnd; apply defined_in_app; left; exact Hc).
      assert (HndY : ~ defined_in (Y_ :: post) v) by (intro Hc; apply Hnd; apply defined_in_app; right; exact Hc).
      split; [|exact HndY]. apply used_in_app in Hu. destruct Hu as [Hu|Hu]; [|exact Hu].
      apply used_in_cons. left. rewrite HusesY. apply in_or_app. left. right. apply in_or_app. left.
      apply live_ins_complete; [left; exact Hu | exact Hndb | rewrite Hb; exact Hn].
    - (* S6 *) intros v Hvin. apply (use_live c FR00 Y_ post v FYf). rewrite HusesY. destruct Hvin as [Hvin|Hvin]; [apply in_or_app; left; left; exact Hvin|].
      apply in_app_or in Hvin. destruct Hvin as [Hvin|Hvin]; [|apply in_or_app; right; exact Hvin].
      apply in_or_app. left. right. apply in_or_app. right. right. exact Hvin.
    - (* S7 *) intros v [Hu Hnd] Hnr. split.
      + split; [apply used_in_app; right; apply used_in_cons; right; exact Hu|].
        intro Hc. apply defined_in_app in Hc. destruct Hc as [Hc|Hc].
        * exact (Hscope v (or_intror Hc) Hu).
        * apply defined_in_cons in Hc. destruct Hc as [Hc|Hc]; [apply Hnr; rewrite <- HdefsY; exact Hc | exact (Hnd Hc)].
      + intro Hc. exact (Hscope v (or_introl Hc) Hu).
    - (* S8 *) intros v Hv. apply zero_const_not_H.
      replace V with ((done ++ f_body f) ++ Y_ :: post)
        by (unfold virt; repeat rewrite <- app_assoc; simpl; reflexivity).
      apply zero_consts_mono. exact Hv.
    - exact Hag.
    - exact Hzc.
  Qed.
End FuncLoop.
