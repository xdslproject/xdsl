(* C01/ProofsErase.v -- WF is preserved by a SUCCESSFUL Operation.erase / Block.erase_op /
   Rewriter.erase_op of an operation with any tree of regions below it.

   The state between drop_all_references and the final `kill` is not WF: the ops of the tree have
   operands but no operand uses, and nothing is marked erased yet.  The marks are ghost-only writes
   that no mutator reads, so
     (1) the state after drop_all_references WITH everything that `kill` will mark already marked is WF
         (all obligations about the marked nodes vanish; the use lists are exactly the slots of the other ops);
     (2) the remaining `value_erase` calls commute with the marks (simulation `simT`) and preserve WF
         on the marked run (value_erase_WF);
     (3) `kill` sets the marks.

   drop_all_references walks the tree by mutual recursion over ops / regions / blocks.  `collect_op`
   (the ghost list of everything that `kill` marks) has exactly the recursion structure of the walk,
   so the walk is analysed by induction on the common fuel:
     - `Inv s X st`: the state st after the nodes X (a prefix of the collected list) have been dropped,
       described table by table relative to the initial state s, with the use-list invariant
       `Uabs st (real_slot s minus the slots of the ops in X)`;
     - `walk`: each of the five mutually recursive functions extends X by its collected list, provided
       the collected list has no duplicates (the tree below the op is a tree) and its ops are live;
     - `closure`: the collected list is closed under `parent` (WF + liveness), hence the fields that the
       walk clears belong to nodes that no live container outside the list refers to;
     - `fin_WF`: the walked state with everything collected marked erased/dead is WF;
     - `simT`: the remaining value_erase calls commute with the marks; `kill_spec`: `kill` sets the marks;
     - `collect_op_NoDup`: no duplicates, from WF + liveness + `parent = None` at the root (depth argument).
   An operation without regions is the special case where the collected list is the op and its results. *)
From Coq Require Import ZArith List Bool PArith FMapPositive Lia FinFun.
From XV Require Import C01.Model C01.Spec C01.ProofsBase C01.ProofsFrame C01.ProofsUses C01.ProofsOperands
  C01.ProofsRauw C01.ProofsSetOperands C01.ProofsSetSuccessors C01.ProofsOps C01.ProofsBlocks.
Import ListNotations.
Local Open Scope Z_scope.

Definition gnode_eqb (a b : gnode) : bool :=
  match a, b with
  | GOp x, GOp y | GBlock x, GBlock y | GRegion x, GRegion y | GValue x, GValue y => Pos.eqb x y
  | _, _ => false
  end.
Lemma gnode_eqb_spec : forall a b, reflect (a = b) (gnode_eqb a b).
Proof.
  intros [x|x|x|x] [y|y|y|y]; simpl; try (constructor; discriminate);
    destruct (Pos.eqb_spec x y); constructor; congruence.
Qed.
Fixpoint gmem (g : gnode) (l : list gnode) : bool :=
  match l with [] => false | y :: r => gnode_eqb g y || gmem g r end.
Lemma gmem_In : forall g l, gmem g l = true <-> In g l.
Proof.
  intros g l. induction l as [|y r IH]; simpl; [split; [discriminate|tauto]|].
  rewrite orb_true_iff, IH. destruct (gnode_eqb_spec g y) as [E|N]; split; intros [H|H]; auto;
    first [discriminate|congruence].
Qed.
Lemma gmem_false : forall g l, gmem g l = false <-> ~ In g l.
Proof.
  intros g l. rewrite <- gmem_In. destruct (gmem g l); split; intro H;
    first [congruence|reflexivity|exfalso; apply H; reflexivity].
Qed.
Lemma gmem_app : forall g l1 l2, gmem g (l1 ++ l2) = gmem g l1 || gmem g l2.
Proof. intros g l1 l2. induction l1 as [|y r IH]; simpl; [reflexivity|]. rewrite IH, orb_assoc. reflexivity. Qed.

Definition isnode (g : gnode) : bool := match g with GValue _ => false | _ => true end.
Lemma gmem_values : forall g l, isnode g = true -> gmem g (map GValue l) = false.
Proof. intros g l N. induction l as [|v r IH]; simpl; [reflexivity|]. rewrite IH. destruct g; try discriminate; reflexivity. Qed.

Definition marked {R} (flag : positive -> bool) (mk : R -> R) (ms mt : PM.t R) : Prop :=
  forall i, PM.find i mt = if flag i then option_map mk (PM.find i ms) else PM.find i ms.

Lemma marked_find : forall {R} flag (mk : R -> R) ms mt k x,
  marked flag mk ms mt -> PM.find k ms = Some x -> PM.find k mt = Some (if flag k then mk x else x).
Proof. intros R flag mk ms mt k x M F. rewrite (M k), F. destruct (flag k); reflexivity. Qed.

Lemma marked_add : forall {R} flag (mk : R -> R) ms mt k y y',
  marked flag mk ms mt -> y' = (if flag k then mk y else y) -> marked flag mk (PM.add k y ms) (PM.add k y' mt).
Proof.
  intros R flag mk ms mt k y y' M -> i. rewrite !find_add. destruct (Pos.eqb_spec i k) as [->|]; [|apply M].
  destruct (flag k); reflexivity.
Qed.

Lemma marked_kill : forall {R} flag (mk : R -> R) ms mt k x,
  (forall y, mk (mk y) = mk y) -> PM.find k ms = Some x ->
  marked flag mk (PM.add k (mk x) ms) mt -> marked (fun i => Pos.eqb i k || flag i) mk ms mt.
Proof.
  intros R flag mk ms mt k x Id F M i. rewrite (M i), find_add.
  destruct (Pos.eqb_spec i k) as [->|]; simpl; [|reflexivity]. rewrite F. simpl. rewrite Id. destruct (flag k); reflexivity.
Qed.

Lemma marked_mapi : forall {R} flag (mk : R -> R) ms,
  marked flag mk ms (PM.mapi (fun i x => if flag i then mk x else x) ms).
Proof. intros R flag mk ms i. rewrite PM.gmapi. destruct (flag i), (PM.find i ms); reflexivity. Qed.

Lemma marked_fun : forall {R} flag (mk : R -> R) ms mt mt',
  marked flag mk ms mt -> marked flag mk ms mt' -> forall i, PM.find i mt' = PM.find i mt.
Proof. intros R flag mk ms mt mt' M M' i. rewrite (M i), (M' i). reflexivity. Qed.

Lemma marked_comp : forall {R} flag (f g : R -> R) a b c,
  marked flag f a b -> marked flag g b c -> marked flag (fun x => g (f x)) a c.
Proof.
  intros R flag f g a b c M1 M2 i. rewrite (M2 i), (M1 i). destruct (flag i); [|reflexivity].
  destruct (PM.find i a); reflexivity.
Qed.

Lemma marked_back : forall {R} flag (mk : R -> R) ms mt i y,
  marked flag mk ms mt -> PM.find i mt = Some y -> exists x, PM.find i ms = Some x.
Proof.
  intros R flag mk ms mt i y M F. rewrite (M i) in F.
  destruct (PM.find i ms) as [x|]; [eauto|]. destruct (flag i); discriminate.
Qed.

Lemma marked_live : forall {R} flag (mk : R -> R) (er : R -> bool) ms mt i y,
  marked flag mk ms mt -> (forall z, er (mk z) = true) -> PM.find i mt = Some y -> er y = false ->
  flag i = false /\ PM.find i ms = Some y.
Proof.
  intros R flag mk er ms mt i y M E F L. rewrite (M i) in F. destruct (flag i); [|auto].
  destruct (PM.find i ms); [|discriminate]. injection F as <-. rewrite E in L. discriminate.
Qed.

Lemma below_marked : forall {R} flag (mk : R -> R) (a b c : PM.t R) n,
  below a n -> dom_eq a b -> marked flag mk b c -> below c n.
Proof.
  intros R flag mk a b c n B Dq M i y F. rewrite (M i) in F.
  destruct (PM.find i b) eqn:Fb; [|destruct (flag i); discriminate].
  destruct (PM.find i a) eqn:Fa; [eapply B; eauto|]. apply Dq in Fa. congruence.
Qed.

Lemma op_drop_S : forall f o, op_drop_all_references (S f) o =
  (updO o (set_o_parent None) ;;;
   orec <- getO o ;;
   forM (zip (o_operands orec) (o_operand_uses orec)) (fun p => remove_use (HV (fst p)) (snd p)) ;;;
   updO o (set_o_operand_uses []) ;;;
   forM (zip (o_successors orec) (o_successor_uses orec)) (fun p => remove_use (HB (fst p)) (snd p)) ;;;
   updO o (set_o_successor_uses []) ;;;
   updO o (set_o_successors []) ;;;
   forM (o_regions orec) (fun r => region_drop_all_references f r)).
Proof. reflexivity. Qed.

Lemma region_drop_S : forall f r, region_drop_all_references (S f) r =
  (updR r (set_r_parent None) ;;; rr <- getR r ;; blocks_drop_from f (r_first rr)).
Proof. reflexivity. Qed.
Lemma blocks_drop_S : forall f cur, blocks_drop_from (S f) cur =
  match cur with
  | None => ret tt
  | Some b => br <- getB b ;; let nxt := b_next br in block_drop_all_references f b ;;; blocks_drop_from f nxt
  end.
Proof. reflexivity. Qed.
Lemma block_drop_S : forall f b, block_drop_all_references (S f) b =
  (updB b (set_b_parent None) ;;; updB b (set_b_next None) ;;; updB b (set_b_prev None) ;;;
   br <- getB b ;; ops_drop_from f (b_first_op br)).
Proof. reflexivity. Qed.
Lemma ops_drop_S : forall f cur, ops_drop_from (S f) cur =
  match cur with
  | None => ret tt
  | Some o => orec <- getO o ;; let nxt := o_next orec in op_drop_all_references f o ;;; ops_drop_from f nxt
  end.
Proof. reflexivity. Qed.

Lemma collect_op_S : forall f s o, collect_op (S f) s o =
  match PM.find o (s_ops s) with
  | None => []
  | Some x => GOp o :: map GValue (o_results x) ++ flat_map (collect_region f s) (o_regions x)
  end.
Proof. reflexivity. Qed.

Lemma collect_region_S : forall f s r, collect_region (S f) s r =
  match PM.find r (s_regions s) with None => [] | Some x => GRegion r :: collect_blocks_from f s (r_first x) end.
Proof. reflexivity. Qed.
Lemma collect_blocks_S : forall f s cur, collect_blocks_from (S f) s cur =
  match cur with
  | None => []
  | Some b => match PM.find b (s_blocks s) with
              | None => []
              | Some x => collect_block f s b ++ collect_blocks_from f s (b_next x)
              end
  end.
Proof. reflexivity. Qed.
Lemma collect_block_S : forall f s b, collect_block (S f) s b =
  match PM.find b (s_blocks s) with
  | None => []
  | Some x => GBlock b :: map GValue (b_args x) ++ collect_ops_from f s (b_first_op x)
  end.
Proof. reflexivity. Qed.
Lemma collect_ops_S : forall f s cur, collect_ops_from (S f) s cur =
  match cur with
  | None => []
  | Some o => match PM.find o (s_ops s) with
              | None => []
              | Some x => collect_op f s o ++ collect_ops_from f s (o_next x)
              end
  end.
Proof. reflexivity. Qed.

Definition same_nonU s s' := same_T1 s s' /\ same_T2 s s' /\ same_T3 s s' /\ same_I s s' /\ same_A s s'.

Lemma fr_nonU : frame_rel same_nonU.
Proof.
  split.
  - intro s. exact (conj (fr_refl _ fr_T1 s) (conj (fr_refl _ fr_T2 s) (conj (fr_refl _ fr_T3 s)
                   (conj (fr_refl _ fr_I s) (fr_refl _ fr_A s))))).
  - intros s1 s2 s3 (A1 & A2 & A3 & A4 & A5) (B1 & B2 & B3 & B4 & B5).
    exact (conj (fr_trans _ fr_T1 _ _ _ A1 B1) (conj (fr_trans _ fr_T2 _ _ _ A2 B2) (conj (fr_trans _ fr_T3 _ _ _ A3 B3)
          (conj (fr_trans _ fr_I _ _ _ A4 B4) (fr_trans _ fr_A _ _ _ A5 B5))))).
Qed.

Definition nofu (x : block_rec) : block_rec := set_b_first_use None x.

(* the frame of the use-list programs: they write the use table and the first_use pointers only *)
Definition useonly (s s' : state) : Prop :=
  s_ops s' = s_ops s /\ s_regions s' = s_regions s /\
  agree nofu (s_blocks s) (s_blocks s') /\ agree pI_val (s_values s) (s_values s') /\ same_A s s'.

Lemma fr_useonly : frame_rel useonly.
Proof.
  split.
  - intro s. unfold useonly. repeat (split; [first [reflexivity|apply agree_refl]|]). apply fr_A.
  - intros s1 s2 s3 (A1 & A2 & A3 & A4 & A5) (B1 & B2 & B3 & B4 & B5). unfold useonly.
    split; [congruence|]. split; [congruence|]. split; [eapply agree_trans; eauto|].
    split; [eapply agree_trans; eauto|]. eapply (fr_trans _ fr_A); eauto.
Qed.

Lemma updU_useonly : forall u f, preserves useonly (updU u f).
Proof.
  intros u f s s' r H. pose proof (updU_same_A u f s s' r H) as SA.
  unfold updU in H. destruct (PM.find u (s_uses s)); injection H as <- _; [|apply fr_useonly].
  unfold useonly. simpl. repeat (split; [first [reflexivity|apply agree_refl]|]). exact SA.
Qed.
Lemma updV_fu_useonly : forall v u, preserves useonly (updV v (set_v_first_use u)).
Proof.
  intros v u s s' r H. pose proof (updV_same_A _ _ s s' r H) as SA.
  unfold updV in H. destruct (PM.find v (s_values s)) eqn:F; injection H as <- _; [|apply fr_useonly].
  unfold useonly. simpl. split; [reflexivity|]. split; [reflexivity|]. split; [apply agree_refl|].
  split; [|exact SA]. eapply agree_add; eauto.
Qed.
Lemma updB_fu_useonly : forall b u, preserves useonly (updB b (set_b_first_use u)).
Proof.
  intros b u s s' r H. pose proof (updB_same_A _ _ s s' r H) as SA.
  unfold updB in H. destruct (PM.find b (s_blocks s)) eqn:F; injection H as <- _; [|apply fr_useonly].
  unfold useonly. simpl. split; [reflexivity|]. split; [reflexivity|]. split; [|split; [apply agree_refl|exact SA]].
  eapply agree_add; eauto.
Qed.
#[export] Hint Resolve updU_useonly updV_fu_useonly updB_fu_useonly fr_useonly : pres.

Lemma set_first_use_useonly : forall h u, preserves useonly (set_first_use h u).
Proof. intros h u. unfold set_first_use. destruct h; auto with pres. Qed.
#[export] Hint Resolve set_first_use_useonly : pres.
Lemma remove_use_useonly : forall h u, preserves useonly (remove_use h u).
Proof. intros. unfold remove_use. pres fr_useonly. Qed.
Lemma remove_loop_useonly : forall (mk : positive -> holder) (pairs : list (positive * uid)),
  preserves useonly (forM pairs (fun p => remove_use (mk (fst p)) (snd p))).
Proof. intros. apply (pres_forM _ fr_useonly). intro a. apply remove_use_useonly. Qed.

Definition drop_op (x : op_rec) : op_rec :=
  mkOp (o_operands x) [] (o_results x) [] [] (o_regions x) None (o_next x) (o_prev x) (o_erased x).
Definition drop_blk (x : block_rec) : block_rec :=
  mkBlock (b_args x) (b_first_op x) (b_last_op x) None None None (b_first_use x) (b_erased x).
Definition drop_reg (x : region_rec) : region_rec := set_r_parent None x.

Definition minus_ops (S : slotrel) (X : list gnode) : slotrel :=
  fun h o i u => S h o i u /\ gmem (GOp o) X = false.

(* the tables of st relative to s after the nodes X have been dropped.  tb_ops and tb_regs are
   `marked (fun i => gmem (G.. i) X) drop_..` written out, and are used as such by conversion; blocks are
   compared modulo first_use (`nofu`): removing a successor use writes b_first_use of blocks outside X *)
Record Tab (s : state) (X : list gnode) (st : state) : Prop := {
  tb_ops : forall i, PM.find i (s_ops st) =
     if gmem (GOp i) X then option_map drop_op (PM.find i (s_ops s)) else PM.find i (s_ops s);
  tb_regs : forall i, PM.find i (s_regions st) =
     if gmem (GRegion i) X then option_map drop_reg (PM.find i (s_regions s)) else PM.find i (s_regions s);
  tb_blks : forall i, option_map nofu (PM.find i (s_blocks st)) =
     if gmem (GBlock i) X then option_map (fun x => nofu (drop_blk x)) (PM.find i (s_blocks s))
     else option_map nofu (PM.find i (s_blocks s));
  tb_vals : agree pI_val (s_values s) (s_values st);
  tb_A : same_A s st }.

(* the invariant of the walk of drop_all_references (the history invariant is ProofsHistory.Inv) *)
Definition Inv (s : state) (X : list gnode) (st : state) : Prop :=
  Tab s X st /\ Uabs st (minus_ops (real_slot s) X).

Definition opsfree (s s' : state) : Prop :=
  s_regions s' = s_regions s /\ agree nofu (s_blocks s) (s_blocks s') /\
  agree pI_val (s_values s) (s_values s') /\ same_A s s'.
Lemma opsfree_refl : forall s, opsfree s s.
Proof. intro s. split; [reflexivity|]. split; [apply agree_refl|]. split; [apply agree_refl|apply fr_A]. Qed.
Lemma opsfree_trans : forall s1 s2 s3, opsfree s1 s2 -> opsfree s2 s3 -> opsfree s1 s3.
Proof.
  intros s1 s2 s3 (A2 & A3 & A4 & A5) (B2 & B3 & B4 & B5). split; [congruence|].
  split; [eapply agree_trans; eauto|]. split; [eapply agree_trans; eauto|eapply (fr_trans _ fr_A); eauto].
Qed.
Lemma useonly_opsfree : forall s s', useonly s s' -> opsfree s s'.
Proof. intros s s' (_ & A2 & A3 & A4 & A5). split; [exact A2|]. split; [exact A3|]. split; assumption. Qed.
Lemma updO_opsfree : forall o f s s' r, updO o f s = (s', r) -> opsfree s s'.
Proof.
  intros o f s s' r H. pose proof (updO_same_A o f s s' r H) as SA.
  unfold updO in H. destruct (PM.find o (s_ops s)); injection H as <- _; [|apply opsfree_refl].
  split; [reflexivity|]. split; [apply agree_refl|]. split; [apply agree_refl|exact SA].
Qed.

Lemma Tab_opsfree : forall s X st st', Tab s X st -> opsfree st st' ->
  (forall i, PM.find i (s_ops st') = PM.find i (s_ops st)) -> Tab s X st'.
Proof.
  intros s X st st' [T1 T2 T3 T4 T5] (A2 & A3 & A4 & A5) EO. constructor.
  - intro i. rewrite EO. apply T1.
  - intro i. rewrite A2. apply T2.
  - intro i. rewrite (A3 i). apply T3.
  - eapply agree_trans; eauto.
  - eapply (fr_trans _ fr_A); eauto.
Qed.

Lemma Uabs_irrel : forall s s' S, s_uses s' = s_uses s -> s_values s' = s_values s -> s_blocks s' = s_blocks s ->
  Uabs s S -> Uabs s' S.
Proof.
  intros s s' S E1 E2 E3 UA. eapply Uabs_ext; [| | |exact UA].
  - intro u. rewrite E1. reflexivity.
  - intros [v|b]; simpl; [rewrite E2|rewrite E3]; reflexivity.
  - intros; tauto.
Qed.

(* the values of a list are not nodes: Tab and the slot relation do not see them *)
Lemma Inv_values : forall s X l st, Inv s X st -> Inv s (X ++ map GValue l) st.
Proof.
  intros s X l st [[T1 T2 T3 T4 T5] U].
  assert (E : forall g, isnode g = true -> gmem g (X ++ map GValue l) = gmem g X).
  { intros g N. rewrite gmem_app, (gmem_values g l N). apply orb_false_r. }
  split.
  - constructor; try assumption; intro i.
    + rewrite (E (GOp i) eq_refl). apply T1.
    + rewrite (E (GRegion i) eq_refl). apply T2.
    + rewrite (E (GBlock i) eq_refl). apply T3.
  - eapply Uabs_iff; [|exact U]. intros h o i u. unfold minus_ops. rewrite (E (GOp o) eq_refl). tauto.
Qed.

Lemma gmem_snoc : forall g g' X, gmem g (X ++ [g']) = gmem g X || gnode_eqb g g'.
Proof. intros g g' X. rewrite gmem_app. simpl. rewrite orb_false_r. reflexivity. Qed.

Lemma nodup_notin : forall (X L : list gnode) g, NoDup (X ++ L) -> In g L -> gmem g X = false.
Proof.
  intros X L g ND I. apply gmem_false. intro IX. destruct (NoDup_app_inv _ _ ND) as (_ & _ & Dj). exact (Dj g IX I).
Qed.

Lemma option_map_Some : forall {A B} (p : A -> B) a b y,
  option_map p a = option_map p b -> a = Some y -> exists x, b = Some x /\ p y = p x.
Proof. intros A B p a [x|] y E ->; simpl in E; [|discriminate]. injection E as E. eauto. Qed.

Lemma nofu_eq : forall x y, nofu y = nofu x -> exists u, y = set_b_first_use u x.
Proof.
  intros x [] E. eexists. unfold nofu, set_b_first_use in *. simpl in *. injection E. intros. subst. reflexivity.
Qed.

(* The own part of a node that has not been visited: the run of its drop function splits into the clearing of
   its own fields, after which the node joins X, and the walk of its children. *)
Lemma reg_own : forall s X st st' f r x u,
  Inv s X st -> gmem (GRegion r) X = false -> PM.find r (s_regions s) = Some x ->
  region_drop_all_references (S f) r st = (st', Ok u) ->
  exists s1, Inv s (X ++ [GRegion r]) s1 /\ blocks_drop_from f (r_first x) s1 = (st', Ok u).
Proof.
  intros s X st st' f r x u [[T1 T2 T3 T4 T5] U] NX Fx H. rewrite region_drop_S in H.
  apply bind_ok in H as (s1 & [] & H1 & H). pose proof (updR_same_A _ _ _ _ _ H1) as SA.
  apply updR_ok in H1 as (x0 & F & ->). rewrite T2, NX, Fx in F. injection F as <-.
  apply bind_ok in H as (s1' & rr & Hg & H). apply getR_ok in Hg as [-> Fr].
  simpl in Fr. rewrite find_add_same in Fr. injection Fr as <-.
  eexists. split; [|exact H]. split.
  - constructor; simpl.
    + intro i. rewrite gmem_snoc, orb_false_r. apply T1.
    + intro i. rewrite find_add, gmem_snoc. simpl. destruct (Pos.eqb_spec i r) as [->|N].
      * rewrite orb_true_r, Fx. reflexivity.
      * rewrite orb_false_r. apply T2.
    + intro i. rewrite gmem_snoc, orb_false_r. apply T3.
    + exact T4.
    + eapply (fr_trans _ fr_A); eauto.
  - eapply Uabs_ext; [| | |exact U]; [intro; reflexivity|intro; reflexivity|].
    intros h o i u'. unfold minus_ops. rewrite gmem_snoc, orb_false_r. tauto.
Qed.

Lemma blk_own : forall s X st st' f b x u,
  Inv s X st -> gmem (GBlock b) X = false -> PM.find b (s_blocks s) = Some x ->
  block_drop_all_references (S f) b st = (st', Ok u) ->
  exists s3, Inv s (X ++ [GBlock b]) s3 /\ ops_drop_from f (b_first_op x) s3 = (st', Ok u).
Proof.
  intros s X st st' f b x u [[T1 T2 T3 T4 T5] U] NX Fx H. rewrite block_drop_S in H.
  apply bind_ok in H as (s1 & [] & H1 & H). apply bind_ok in H as (s2 & [] & H2 & H).
  apply bind_ok in H as (s3 & [] & H3 & H).
  assert (SA : same_A st s3).
  { eapply (fr_trans _ fr_A); [eapply updB_same_A; exact H1|].
    eapply (fr_trans _ fr_A); [eapply updB_same_A; exact H2|eapply updB_same_A; exact H3]. }
  apply updB_ok in H1 as (x0 & F0 & ->). apply updB_ok in H2 as (x1 & F1 & ->). apply updB_ok in H3 as (x2 & F2 & ->).
  simpl in F1. rewrite find_add_same in F1. injection F1 as <-.
  simpl in F2. rewrite find_add_same in F2. injection F2 as <-.
  (* b has not been visited: its record in st is that of s up to first_use *)
  pose proof (T3 b) as Tb. rewrite NX, Fx in Tb. destruct (option_map_Some _ _ _ _ Tb F0) as (x' & E & Q).
  injection E as <-. destruct (nofu_eq _ _ Q) as (u0 & ->).
  apply bind_ok in H as (s3' & br & Hg & H). apply getB_ok in Hg as [-> Fb].
  simpl in Fb. rewrite find_add_same in Fb. injection Fb as <-. simpl in H.
  eexists. split; [|exact H]. split.
  - constructor; simpl.
    + intro i. rewrite gmem_snoc, orb_false_r. apply T1.
    + intro i. rewrite gmem_snoc, orb_false_r. apply T2.
    + intro i. rewrite !find_add, gmem_snoc. simpl. destruct (Pos.eqb_spec i b) as [->|N].
      * rewrite orb_true_r, Fx. reflexivity.
      * rewrite orb_false_r. apply T3.
    + exact T4.
    + eapply (fr_trans _ fr_A); eauto.
  - eapply Uabs_ext; [| | |exact U]; [intro; reflexivity| |].
    + intros [v|b']; simpl; [reflexivity|]. unfold link. rewrite !find_add.
      destruct (Pos.eqb_spec b' b) as [->|]; [rewrite F0|]; reflexivity.
    + intros h o i u'. unfold minus_ops. rewrite gmem_snoc, orb_false_r. tauto.
Qed.

Lemma own_slots : forall s X o x, Uabs s (real_slot s) -> lens_ok s ->
  PM.find o (s_ops s) = Some x -> o_erased x = false -> forall h o' i u,
  minus_ops (real_slot s) (X ++ [GOp o]) h o' i u <->
  minus_uses (minus_uses (minus_ops (real_slot s) X) (o_operand_uses x)) (o_successor_uses x) h o' i u.
Proof.
  intros s X o x UA LN Fx Ex h o' i u. unfold minus_ops, minus_uses. rewrite gmem_snoc. simpl. split.
  - intros [R G]. apply orb_false_iff in G. destruct G as [G1 G2].
    destruct (LN o x Fx Ex) as [L1 L2].
    assert (NI : forall sd, length (sitems sd x) = length (suses sd x) -> ~ In u (suses sd x)).
    { intros sd L I. destruct (use_slot sd s o x u Fx Ex L I) as (a & j & R2).
      destruct (ua_slot _ _ UA _ _ _ _ R) as [I1 _]. destruct (ua_slot _ _ UA _ _ _ _ R2) as [I2 _].
      rewrite I1 in I2. injection I2 as E _. subst o'. rewrite Pos.eqb_refl in G2. discriminate. }
    split; [split; [split; assumption|exact (NI true L1)]|exact (NI false L2)].
  - intros [[[R G1] N1] N2]. split; [exact R|]. rewrite G1. simpl.
    destruct (Pos.eqb_spec o' o) as [->|]; [|reflexivity]. exfalso.
    destruct R as (x' & F' & E' & Z1 & Z2). rewrite Fx in F'. injection F' as <-. apply znth_In in Z2.
    destruct h; simpl in Z2; contradiction.
Qed.

Lemma op_own : forall s X st st' f o x r,
  Uabs s (real_slot s) -> lens_ok s -> WF_disjoint s ->
  PM.find o (s_ops s) = Some x -> o_erased x = false ->
  Inv s X st -> gmem (GOp o) X = false ->
  op_drop_all_references (S f) o st = (st', Ok r) ->
  exists sf, Inv s (X ++ [GOp o]) sf /\
             forM (o_regions x) (fun r => region_drop_all_references f r) sf = (st', Ok r).
Proof.
  intros s X st st' f o x r UA LN WD Fx Ex [T U] NX H.
  destruct (LN o x Fx Ex) as [Len1 Len2].
  assert (F0 : PM.find o (s_ops st) = Some x) by (rewrite (tb_ops _ _ _ T), NX; exact Fx).
  rewrite op_drop_S in H. apply bind_ok in H as (sa & [] & Ha & H).
  pose proof (updO_opsfree _ _ _ _ _ Ha) as Q1.
  apply updO_ok in Ha as (xa & Fa & Ea). rewrite F0 in Fa. injection Fa as <-.
  apply bind_ok in H as (sa' & orec & Hg & H). apply getO_ok in Hg as [-> Fo].
  rewrite Ea in Fo. simpl in Fo. rewrite find_add_same in Fo. injection Fo as <-. simpl in H.
  apply bind_ok in H as (sb & [] & Hl1 & H). apply bind_ok in H as (sc & [] & Hc & H).
  apply bind_ok in H as (sd & [] & Hl2 & H). apply bind_ok in H as (se & [] & He & H).
  apply bind_ok in H as (sf & [] & Hf & H).
  exists sf. split; [|exact H].
  (* frame: the use-list loops leave the op table alone, the updates of o everything else *)
  pose proof (remove_loop_useonly HV _ _ _ _ Hl1) as Q2.
  pose proof (updO_opsfree _ _ _ _ _ Hc) as Q3.
  pose proof (remove_loop_useonly HB _ _ _ _ Hl2) as Q4.
  pose proof (updO_opsfree _ _ _ _ _ He) as Q5.
  pose proof (updO_opsfree _ _ _ _ _ Hf) as Q6.
  assert (QF : opsfree st sf).
  { eapply opsfree_trans; [exact Q1|]. eapply opsfree_trans; [apply useonly_opsfree; exact Q2|].
    eapply opsfree_trans; [exact Q3|]. eapply opsfree_trans; [apply useonly_opsfree; exact Q4|].
    eapply opsfree_trans; [exact Q5|exact Q6]. }
  assert (Oa : s_ops sa = PM.add o (set_o_parent None x) (s_ops st)) by (rewrite Ea; reflexivity).
  assert (Ob : s_ops sb = s_ops sa) by (apply Q2).
  apply updO_ok in Hc as (xc & Fc & Ec). rewrite Ob, Oa, find_add_same in Fc. injection Fc as <-.
  assert (Oc : s_ops sc = PM.add o (set_o_operand_uses [] (set_o_parent None x)) (s_ops sb)) by (rewrite Ec; reflexivity).
  assert (Od : s_ops sd = s_ops sc) by (apply Q4).
  apply updO_ok in He as (xe & Fe & Ee). rewrite Od, Oc, find_add_same in Fe. injection Fe as <-.
  assert (Oe : s_ops se = PM.add o (set_o_successor_uses [] (set_o_operand_uses [] (set_o_parent None x))) (s_ops sd))
    by (rewrite Ee; reflexivity).
  apply updO_ok in Hf as (xf & Ff & Ef). rewrite Oe, find_add_same in Ff. injection Ff as <-.
  assert (FO : forall i, PM.find i (s_ops sf) = if Pos.eqb i o then Some (drop_op x) else PM.find i (s_ops st)).
  { intro i. rewrite Ef. simpl. rewrite Oe, Od, Oc, Ob, Oa, !find_add. destruct (Pos.eqb i o); reflexivity. }
  split.
  - destruct T as [T1 T2 T3 T4 T5]. destruct QF as (A2 & A3 & A4 & A5). constructor.
    + intro i. rewrite FO, gmem_snoc. simpl. destruct (Pos.eqb_spec i o) as [->|N].
      * rewrite orb_true_r, Fx. reflexivity.
      * rewrite orb_false_r. apply T1.
    + intro i. rewrite A2, gmem_snoc, orb_false_r. apply T2.
    + intro i. rewrite (A3 i), gmem_snoc, orb_false_r. apply T3.
    + eapply agree_trans; eauto.
    + eapply (fr_trans _ fr_A); eauto.
  - set (S0 := minus_ops (real_slot s) X) in *.
    assert (UAa : Uabs sa S0) by (eapply Uabs_irrel; [| | |exact U]; rewrite Ea; reflexivity).
    assert (INV1 : forall k v u, nth_error (zip (o_operands x) (o_operand_uses x)) k = Some (v, u) ->
                     S0 (HV v) o (0 + Z.of_nat k) u).
    { intros k v u N. apply nth_error_zip in N. destruct N as [N1' N2']. split; [|exact NX].
      exists x. simpl. rewrite !znth_of_nat. auto. }
    destruct (remove_loop HV _ _ sb S0 o 0 _ UAa INV1 Hl1) as (UAb & _ & _).
    assert (UAc : Uabs sc (minus_uses S0 (o_operand_uses x))).
    { rewrite <- (map_snd_zip_eq _ _ Len1). eapply Uabs_irrel; [| | |exact UAb]; rewrite Ec; reflexivity. }
    assert (INV2 : forall k b u, nth_error (zip (o_successors x) (o_successor_uses x)) k = Some (b, u) ->
                     minus_uses S0 (o_operand_uses x) (HB b) o (0 + Z.of_nat k) u).
    { intros k b u N. apply nth_error_zip in N. destruct N as [N1' N2']. split.
      - split; [|exact NX]. exists x. simpl. rewrite !znth_of_nat. auto.
      - intro I. eapply (WD o x Fx Ex u I). eapply nth_error_In; eauto. }
    destruct (remove_loop HB _ _ sd _ o 0 _ UAc INV2 Hl2) as (UAd & _ & _).
    eapply Uabs_iff; [apply own_slots; eassumption|]. rewrite <- (map_snd_zip_eq _ _ Len2).
    eapply Uabs_irrel; [| | |exact UAd]; rewrite Ef, Ee; reflexivity.
Qed.

Definition ops_live (s : state) (L : list gnode) : Prop := forall i, In (GOp i) L -> op_live s i.

Lemma ops_live_app : forall s A B, ops_live s (A ++ B) -> ops_live s A /\ ops_live s B.
Proof. intros s A B H. split; intros i I; apply H; apply in_or_app; auto. Qed.

Lemma find_blk_back : forall s X st i y, Tab s X st -> PM.find i (s_blocks st) = Some y ->
  exists x, PM.find i (s_blocks s) = Some x.
Proof.
  intros s X st i y T F. pose proof (tb_blks _ _ _ T i) as Q. rewrite F in Q.
  destruct (PM.find i (s_blocks s)) as [x|]; [eauto|]. destruct (gmem (GBlock i) X); discriminate.
Qed.

Section Walk.
  Variable s : state.
  Hypothesis UA : Uabs s (real_slot s).
  Hypothesis LN : lens_ok s.
  Hypothesis WD : WF_disjoint s.

  Definition W_op (f : nat) : Prop := forall o X post st st' r,
    NoDup (X ++ collect_op f s o ++ post) -> Inv s X st -> ops_live s (collect_op f s o) ->
    op_drop_all_references f o st = (st', Ok r) -> Inv s (X ++ collect_op f s o) st'.
  Definition W_region (f : nat) : Prop := forall x X post st st' r,
    NoDup (X ++ collect_region f s x ++ post) -> Inv s X st -> ops_live s (collect_region f s x) ->
    region_drop_all_references f x st = (st', Ok r) -> Inv s (X ++ collect_region f s x) st'.
  Definition W_blocks (f : nat) : Prop := forall cur X post st st' r,
    NoDup (X ++ collect_blocks_from f s cur ++ post) -> Inv s X st -> ops_live s (collect_blocks_from f s cur) ->
    blocks_drop_from f cur st = (st', Ok r) -> Inv s (X ++ collect_blocks_from f s cur) st'.
  Definition W_block (f : nat) : Prop := forall b X post st st' r,
    NoDup (X ++ collect_block f s b ++ post) -> Inv s X st -> ops_live s (collect_block f s b) ->
    block_drop_all_references f b st = (st', Ok r) -> Inv s (X ++ collect_block f s b) st'.
  Definition W_ops (f : nat) : Prop := forall cur X post st st' r,
    NoDup (X ++ collect_ops_from f s cur ++ post) -> Inv s X st -> ops_live s (collect_ops_from f s cur) ->
    ops_drop_from f cur st = (st', Ok r) -> Inv s (X ++ collect_ops_from f s cur) st'.

  (* the common shape of the five: running m after any duplicate-free prefix X extends X by L *)
  Definition Wk (L : list gnode) (m : M unit) : Prop := forall X post st st' r,
    NoDup (X ++ L ++ post) -> Inv s X st -> ops_live s L -> m st = (st', Ok r) -> Inv s (X ++ L) st'.

  Lemma Wk_seq : forall L1 L2 m1 m2, Wk L1 m1 -> Wk L2 m2 -> Wk (L1 ++ L2) (m1 ;;; m2).
  Proof.
    intros L1 L2 m1 m2 W1 W2 X post st st' r ND I OL H. apply bind_ok in H as (s1 & [] & H1 & H2).
    apply ops_live_app in OL. destruct OL as [OL1 OL2]. rewrite <- app_assoc in ND.
    pose proof (W1 X _ st s1 _ ND I OL1 H1) as I1. rewrite app_assoc in ND.
    rewrite app_assoc. exact (W2 _ post s1 st' r ND I1 OL2 H2).
  Qed.

  Lemma Wk_node : forall X g vals F post st1 st' r m,
    Wk F m -> NoDup (X ++ (g :: map GValue vals ++ F) ++ post) -> Inv s (X ++ [g]) st1 ->
    ops_live s (g :: map GValue vals ++ F) -> m st1 = (st', Ok r) ->
    Inv s (X ++ g :: map GValue vals ++ F) st'.
  Proof.
    intros X g vals F post st1 st' r m WK ND I1 OL H.
    assert (EQ : forall post', X ++ (g :: map GValue vals ++ F) ++ post' = ((X ++ [g]) ++ map GValue vals) ++ F ++ post').
    { intro. rewrite <- !app_assoc. simpl. rewrite <- !app_assoc. reflexivity. }
    rewrite EQ in ND. specialize (EQ []). rewrite !app_nil_r in EQ. rewrite EQ.
    apply (WK _ post st1 st' r ND (Inv_values _ _ vals _ I1)); [|exact H].
    intros i Ii. apply OL. right. apply in_or_app. right. exact Ii.
  Qed.

  Lemma regions_loop : forall f, W_region f -> forall rs,
    Wk (flat_map (collect_region f s) rs) (forM rs (fun x => region_drop_all_references f x)).
  Proof.
    intros f WR. induction rs as [|x rest IH]; simpl.
    - intros X post st st' r _ I _ H. apply ret_ok in H as [-> _]. rewrite app_nil_r. exact I.
    - apply Wk_seq; [exact (WR x)|exact IH].
  Qed.

  Lemma walk_op_step : forall f, W_region f -> W_op (S f).
  Proof.
    intros f WR o X post st st' r ND I OL H.
    assert (exists x, PM.find o (s_ops s) = Some x) as (x & Fx).
    { rewrite op_drop_S in H. apply bind_ok in H as (sa & [] & Ha & _). apply updO_ok in Ha as (y & Fy & _).
      exact (marked_back _ _ _ _ _ _ (tb_ops _ _ _ (proj1 I)) Fy). }
    rewrite collect_op_S, Fx in *.
    destruct (OL o (or_introl eq_refl)) as (x' & Fx' & Ex). rewrite Fx in Fx'. injection Fx' as <-.
    destruct (op_own s X st st' f o x r UA LN WD Fx Ex I (nodup_notin _ _ _ ND (or_introl eq_refl)) H)
      as (sf & I1 & H').
    exact (Wk_node X (GOp o) (o_results x) _ post sf st' r _ (regions_loop f WR (o_regions x)) ND I1 OL H').
  Qed.

  Lemma walk_region_step : forall f, W_blocks f -> W_region (S f).
  Proof.
    intros f WB x X post st st' r ND I OL H.
    assert (exists xr, PM.find x (s_regions s) = Some xr) as (xr & Fx).
    { rewrite region_drop_S in H. apply bind_ok in H as (s1 & [] & H1 & _). apply updR_ok in H1 as (y & Fy & _).
      exact (marked_back _ _ _ _ _ _ (tb_regs _ _ _ (proj1 I)) Fy). }
    rewrite collect_region_S, Fx in *.
    destruct (reg_own s X st st' f x xr r I (nodup_notin _ _ _ ND (or_introl eq_refl)) Fx H) as (s1 & I1 & H').
    exact (Wk_node X (GRegion x) [] _ post s1 st' r _ (WB (r_first xr)) ND I1 OL H').
  Qed.

  Lemma walk_block_step : forall f, W_ops f -> W_block (S f).
  Proof.
    intros f WO b X post st st' r ND I OL H.
    assert (exists xb, PM.find b (s_blocks s) = Some xb) as (xb & Fx).
    { rewrite block_drop_S in H. apply bind_ok in H as (s1 & [] & H1 & _). apply updB_ok in H1 as (y & Fy & _).
      exact (find_blk_back _ _ _ _ _ (proj1 I) Fy). }
    rewrite collect_block_S, Fx in *.
    destruct (blk_own s X st st' f b xb r I (nodup_notin _ _ _ ND (or_introl eq_refl)) Fx H) as (s3 & I1 & H').
    exact (Wk_node X (GBlock b) (b_args xb) _ post s3 st' r _ (WO (b_first_op xb)) ND I1 OL H').
  Qed.

  (* the successor is read before the block is dropped, from a block that has not been visited *)
  Lemma walk_blocks_step : forall f, W_block f -> W_blocks f -> W_blocks (S f).
  Proof.
    intros f WB WBS cur X post st st' r ND I OL H.
    rewrite blocks_drop_S in H. destruct cur as [b|].
    - apply bind_ok in H as (s0 & br & Hg & H). apply getB_ok in Hg as [-> Fb].
      destruct (find_blk_back _ _ _ _ _ (proj1 I) Fb) as (xb & Fx).
      rewrite collect_blocks_S, Fx in *. cbv zeta in H.
      assert (NX : gmem (GBlock b) X = false).
      { apply (nodup_notin _ _ _ ND). destruct f as [|f'].
        - apply bind_ok in H as (s1 & [] & H1 & _). exfalso. eapply raise_ok; exact H1.
        - rewrite collect_block_S, Fx. left. reflexivity. }
      pose proof (tb_blks _ _ _ (proj1 I) b) as Q. rewrite NX, Fx in Q.
      destruct (option_map_Some _ _ _ _ Q Fb) as (x' & E & Q'). injection E as <-.
      destruct (nofu_eq _ _ Q') as (u & ->). simpl in H.
      exact (Wk_seq _ _ _ _ (WB b) (WBS (b_next xb)) X post st st' r ND I OL H).
    - apply ret_ok in H as [-> _]. rewrite collect_blocks_S, app_nil_r. exact I.
  Qed.

  Lemma walk_ops_step : forall f, W_op f -> W_ops f -> W_ops (S f).
  Proof.
    intros f WO WOS cur X post st st' r ND I OL H.
    rewrite ops_drop_S in H. destruct cur as [o|].
    - apply bind_ok in H as (s0 & orec & Hg & H). apply getO_ok in Hg as [-> Fo].
      destruct (marked_back _ _ _ _ _ _ (tb_ops _ _ _ (proj1 I)) Fo) as (xo & Fx).
      rewrite collect_ops_S, Fx in *. cbv zeta in H.
      assert (NX : gmem (GOp o) X = false).
      { apply (nodup_notin _ _ _ ND). destruct f as [|f'].
        - apply bind_ok in H as (s1 & [] & H1 & _). exfalso. eapply raise_ok; exact H1.
        - rewrite collect_op_S, Fx. left. reflexivity. }
      rewrite (tb_ops _ _ _ (proj1 I)), NX, Fx in Fo. injection Fo as <-.
      exact (Wk_seq _ _ _ _ (WO o) (WOS (o_next xo)) X post st st' r ND I OL H).
    - apply ret_ok in H as [-> _]. rewrite collect_ops_S, app_nil_r. exact I.
  Qed.

  Lemma walk : forall f, W_op f /\ W_region f /\ W_blocks f /\ W_block f /\ W_ops f.
  Proof.
    induction f as [|f (I1 & I2 & I3 & I4 & I5)].
    - unfold W_op, W_region, W_blocks, W_block, W_ops.
      split; [|split; [|split; [|split]]]; intros ? ? ? ? ? ? ? ? ? HH; simpl in HH; exfalso; eapply raise_ok; eauto.
    - split; [apply walk_op_step; assumption|]. split; [apply walk_region_step; assumption|].
      split; [apply walk_blocks_step; assumption|]. split; [apply walk_block_step; assumption|].
      apply walk_ops_step; assumption.
  Qed.
End Walk.

Definition glive (s : state) (g : gnode) : Prop :=
  match g with
  | GOp i => op_live s i
  | GBlock b => blk_live s b
  | GRegion r => reg_live s r
  | GValue _ => True
  end.
Definition all_live (s : state) (L : list gnode) : Prop := forall g, In g L -> glive s g.

Lemma all_live_app : forall s A B, all_live s (A ++ B) -> all_live s A /\ all_live s B.
Proof. intros s A B H. split; intros g I; apply H; apply in_or_app; auto. Qed.

Definition par_in (s : state) (L : list gnode) (g : gnode) : Prop :=
  match g with
  | GOp i => exists x b, PM.find i (s_ops s) = Some x /\ o_parent x = Some b /\ In (GBlock b) L
  | GBlock b => exists x r, PM.find b (s_blocks s) = Some x /\ b_parent x = Some r /\ In (GRegion r) L
  | GRegion r => exists x o, PM.find r (s_regions s) = Some x /\ r_parent x = Some o /\ In (GOp o) L
  | GValue v => (exists o x, In (GOp o) L /\ PM.find o (s_ops s) = Some x /\ In v (o_results x)) \/
                (exists b x, In (GBlock b) L /\ PM.find b (s_blocks s) = Some x /\ In v (b_args x))
  end.

Lemma par_in_mono : forall s L L' g, (forall y, In y L -> In y L') -> par_in s L g -> par_in s L' g.
Proof.
  intros s L L' g HI P. destruct g as [i|b|r|v]; simpl in *.
  4:{ destruct P as [(o & x & M & F & Iv)|(b & x & M & F & Iv)]; [left; exists o, x|right; exists b, x]; auto. }
  - destruct P as (x & b & F & E & M). exists x, b. auto.
  - destruct P as (x & r & F & E & M). exists x, r. auto.
  - destruct P as (x & o & F & E & M). exists x, o. auto.
Qed.

Section Closure.
  Variable s : state.
  Hypothesis W : WF s.

  Definition C_op (f : nat) : Prop := forall o, all_live s (collect_op f s o) ->
    forall g, In g (collect_op f s o) -> g = GOp o \/ par_in s (collect_op f s o) g.
  Definition C_region (f : nat) : Prop := forall r, all_live s (collect_region f s r) ->
    forall g, In g (collect_region f s r) -> g = GRegion r \/ par_in s (collect_region f s r) g.
  Definition C_block (f : nat) : Prop := forall b, all_live s (collect_block f s b) ->
    forall g, In g (collect_block f s b) -> g = GBlock b \/ par_in s (collect_block f s b) g.
  Definition C_blocks (f : nat) : Prop := forall cur r l, chain (blk_next s) cur l ->
    (forall b, In b l -> exists x, PM.find b (s_blocks s) = Some x /\ b_parent x = Some r) ->
    all_live s (collect_blocks_from f s cur) ->
    forall g, In g (collect_blocks_from f s cur) ->
      (exists b x, g = GBlock b /\ PM.find b (s_blocks s) = Some x /\ b_parent x = Some r) \/
      par_in s (collect_blocks_from f s cur) g.
  Definition C_ops (f : nat) : Prop := forall cur b l, chain (op_next s) cur l ->
    (forall o, In o l -> exists x, PM.find o (s_ops s) = Some x /\ o_parent x = Some b) ->
    all_live s (collect_ops_from f s cur) ->
    forall g, In g (collect_ops_from f s cur) ->
      (exists o x, g = GOp o /\ PM.find o (s_ops s) = Some x /\ o_parent x = Some b) \/
      par_in s (collect_ops_from f s cur) g.

  Lemma closure_op_step : forall f, C_region f -> C_op (S f).
  Proof.
    intros f CR o AL g Ig. rewrite collect_op_S in *.
    destruct (PM.find o (s_ops s)) as [x|] eqn:Fx; [|destruct Ig].
    destruct (AL (GOp o) (or_introl eq_refl)) as (x' & Fx' & Ex). rewrite Fx in Fx'. injection Fx' as <-.
    destruct Ig as [<-|Ig]; [left; reflexivity|]. right.
    apply in_app_or in Ig. destruct Ig as [Ig|Ig].
    { apply in_map_iff in Ig. destruct Ig as (v & <- & Iv). simpl. left. exists o, x.
      split; [left; reflexivity|]. split; [exact Fx|exact Iv]. }
    apply in_flat_map in Ig. destruct Ig as (r & Ir & Ig).
    assert (SUB : forall y, In y (collect_region f s r) ->
              In y (GOp o :: map GValue (o_results x) ++ flat_map (collect_region f s) (o_regions x))).
    { intros y Iy. right. apply in_or_app. right. apply in_flat_map. eauto. }
    assert (AL2 : all_live s (collect_region f s r)) by (intros y Iy; apply AL; apply SUB; exact Iy).
    destruct (CR r AL2 g Ig) as [->|P]; [|eapply par_in_mono; eauto].
    destruct (wf_opregs s W o x Fx Ex) as (_ & M1 & _). destruct (M1 r Ir) as (rr & Fr & Pr).
    simpl. exists rr, o. split; [exact Fr|]. split; [exact Pr|]. left. reflexivity.
  Qed.

  Lemma closure_region_step : forall f, C_blocks f -> C_region (S f).
  Proof.
    intros f CB r AL g Ig. rewrite collect_region_S in *.
    destruct (PM.find r (s_regions s)) as [x|] eqn:Fx; [|destruct Ig].
    destruct (AL (GRegion r) (or_introl eq_refl)) as (x' & Fx' & Ex). rewrite Fx in Fx'. injection Fx' as <-.
    destruct Ig as [<-|Ig]; [left; reflexivity|]. right.
    destruct (wf_region s W r x Fx Ex) as (l & C1 & _ & _ & M1 & _).
    assert (AL2 : all_live s (collect_blocks_from f s (r_first x))) by (intros y Iy; apply AL; right; exact Iy).
    destruct (CB _ r l C1 M1 AL2 g Ig) as [(b & xb & -> & Fb & Pb)|P].
    - simpl. exists xb, r. split; [exact Fb|]. split; [exact Pb|]. left. reflexivity.
    - exact (par_in_mono _ _ _ _ (incl_tl _ (incl_refl _)) P).
  Qed.

  Lemma closure_block_step : forall f, C_ops f -> C_block (S f).
  Proof.
    intros f CO b AL g Ig. rewrite collect_block_S in *.
    destruct (PM.find b (s_blocks s)) as [x|] eqn:Fx; [|destruct Ig].
    destruct (AL (GBlock b) (or_introl eq_refl)) as (x' & Fx' & Ex). rewrite Fx in Fx'. injection Fx' as <-.
    destruct Ig as [<-|Ig]; [left; reflexivity|]. right.
    apply in_app_or in Ig. destruct Ig as [Ig|Ig].
    { apply in_map_iff in Ig. destruct Ig as (v & <- & Iv). simpl. right. exists b, x.
      split; [left; reflexivity|]. split; [exact Fx|exact Iv]. }
    destruct (wf_block s W b x Fx Ex) as (l & C1 & _ & _ & M1 & _).
    assert (SUB : forall y, In y (collect_ops_from f s (b_first_op x)) ->
              In y (GBlock b :: map GValue (b_args x) ++ collect_ops_from f s (b_first_op x))).
    { intros y Iy. right. apply in_or_app. right. exact Iy. }
    assert (AL2 : all_live s (collect_ops_from f s (b_first_op x))) by (intros y Iy; apply AL; apply SUB; exact Iy).
    destruct (CO _ b l C1 M1 AL2 g Ig) as [(o & xo & -> & Fo & Po)|P].
    - simpl. exists xo, b. split; [exact Fo|]. split; [exact Po|]. left. reflexivity.
    - eapply par_in_mono; [|exact P]. exact SUB.
  Qed.

  Lemma closure_blocks_step : forall f, C_block f -> C_blocks f -> C_blocks (S f).
  Proof.
    intros f CB CBS cur r l C M AL g Ig. rewrite collect_blocks_S in *.
    destruct cur as [b|]; [|destruct Ig].
    destruct (PM.find b (s_blocks s)) as [x|] eqn:Fx; [|destruct Ig].
    inversion C as [|? n l' Nb C']; subst.
    unfold blk_next, link in Nb. rewrite Fx in Nb. simpl in Nb. injection Nb as <-.
    apply all_live_app in AL. destruct AL as [AL1 AL2].
    apply in_app_or in Ig. destruct Ig as [Ig|Ig].
    - destruct (CB b AL1 g Ig) as [->|P].
      + left. destruct (M b (or_introl eq_refl)) as (x' & Fx' & Px). exists b, x'. auto.
      + right. exact (par_in_mono _ _ _ _ (incl_appl _ (incl_refl _)) P).
    - destruct (CBS _ r l' C' (fun b' I' => M b' (or_intror I')) AL2 g Ig) as [Q|P]; [left; exact Q|].
      right. exact (par_in_mono _ _ _ _ (incl_appr _ (incl_refl _)) P).
  Qed.

  Lemma closure_ops_step : forall f, C_op f -> C_ops f -> C_ops (S f).
  Proof.
    intros f CO COS cur b l C M AL g Ig. rewrite collect_ops_S in *.
    destruct cur as [o|]; [|destruct Ig].
    destruct (PM.find o (s_ops s)) as [x|] eqn:Fx; [|destruct Ig].
    inversion C as [|? n l' No C']; subst.
    unfold op_next, link in No. rewrite Fx in No. simpl in No. injection No as <-.
    apply all_live_app in AL. destruct AL as [AL1 AL2].
    apply in_app_or in Ig. destruct Ig as [Ig|Ig].
    - destruct (CO o AL1 g Ig) as [->|P].
      + left. destruct (M o (or_introl eq_refl)) as (x' & Fx' & Px). exists o, x'. auto.
      + right. exact (par_in_mono _ _ _ _ (incl_appl _ (incl_refl _)) P).
    - destruct (COS _ b l' C' (fun o' I' => M o' (or_intror I')) AL2 g Ig) as [Q|P]; [left; exact Q|].
      right. exact (par_in_mono _ _ _ _ (incl_appr _ (incl_refl _)) P).
  Qed.

  Lemma closure : forall f, C_op f /\ C_region f /\ C_blocks f /\ C_block f /\ C_ops f.
  Proof.
    induction f as [|f (I1 & I2 & I3 & I4 & I5)].
    - unfold C_op, C_region, C_blocks, C_block, C_ops.
      split; [|split; [|split; [|split]]]; simpl; intros; contradiction.
    - split; [apply closure_op_step; assumption|]. split; [apply closure_region_step; assumption|].
      split; [apply closure_blocks_step; assumption|]. split; [apply closure_block_step; assumption|].
      apply closure_ops_step; assumption.
  Qed.
End Closure.

(* t is s with the nodes of T flagged erased / dead: the effect of `kill T` *)
Record markT (T : list gnode) (s t : state) : Prop := {
  mk_ops : marked (fun i => gmem (GOp i) T) (set_o_erased true) (s_ops s) (s_ops t);
  mk_blks : marked (fun i => gmem (GBlock i) T) (set_b_erased true) (s_blocks s) (s_blocks t);
  mk_regs : marked (fun i => gmem (GRegion i) T) (set_r_erased true) (s_regions s) (s_regions t);
  mk_vals : marked (fun i => gmem (GValue i) T) (set_v_dead true) (s_values s) (s_values t);
  mk_uses : s_uses t = s_uses s;
  mk_ctrs : n_op t = n_op s /\ n_block t = n_block s /\ n_region t = n_region s /\
            n_value t = n_value s /\ n_use t = n_use s }.

Lemma kill_spec : forall l s s' r, kill l s = (s', Ok r) -> markT l s s'.
Proof.
  unfold kill. induction l as [|g rest IH]; intros s s' r H; simpl in H.
  - apply ret_ok in H as [-> _]. constructor; try (intro i; reflexivity); repeat split.
  - apply bind_ok in H as (s1 & [] & H1 & H2). destruct (IH _ _ _ H2) as [M1 M2 M3 M4 M5 M6].
    destruct g as [o|b|x|v]; simpl in H1.
    + apply updO_ok in H1 as (y & F & ->). constructor; try assumption.
      exact (marked_kill _ (set_o_erased true) _ _ _ _ (fun _ => eq_refl) F M1).
    + apply updB_ok in H1 as (y & F & ->). constructor; try assumption.
      exact (marked_kill _ (set_b_erased true) _ _ _ _ (fun _ => eq_refl) F M2).
    + apply updR_ok in H1 as (y & F & ->). constructor; try assumption.
      exact (marked_kill _ (set_r_erased true) _ _ _ _ (fun _ => eq_refl) F M3).
    + apply updV_ok in H1 as (y & F & ->). constructor; try assumption.
      exact (marked_kill _ (set_v_dead true) _ _ _ _ (fun _ => eq_refl) F M4).
Qed.

Definition markS (T : list gnode) (s : state) : state :=
  mkState (PM.mapi (fun i x => if gmem (GOp i) T then set_o_erased true x else x) (s_ops s))
          (PM.mapi (fun i x => if gmem (GBlock i) T then set_b_erased true x else x) (s_blocks s))
          (PM.mapi (fun i x => if gmem (GRegion i) T then set_r_erased true x else x) (s_regions s))
          (PM.mapi (fun i x => if gmem (GValue i) T then set_v_dead true x else x) (s_values s))
          (s_uses s) (n_op s) (n_block s) (n_region s) (n_value s) (n_use s).

Lemma markS_markT : forall T s, markT T s (markS T s).
Proof. intros T s. constructor; simpl; try apply marked_mapi; repeat split. Qed.

Lemma agree_ext : forall {R P} (p : R -> P) (t t' : PM.t R), (forall i, PM.find i t' = PM.find i t) -> agree p t t'.
Proof. intros R P p t t' E i. rewrite E. reflexivity. Qed.
Lemma dom_eq_ext : forall {R} (t t' : PM.t R), (forall i, PM.find i t' = PM.find i t) -> dom_eq t t'.
Proof. intros R t t' E i. rewrite E. tauto. Qed.

Lemma WF_ext : forall s t,
  (forall i, PM.find i (s_ops t) = PM.find i (s_ops s)) ->
  (forall i, PM.find i (s_blocks t) = PM.find i (s_blocks s)) ->
  (forall i, PM.find i (s_regions t) = PM.find i (s_regions s)) ->
  (forall i, PM.find i (s_values t) = PM.find i (s_values s)) ->
  (forall i, PM.find i (s_uses t) = PM.find i (s_uses s)) ->
  n_op t = n_op s -> n_block t = n_block s -> n_region t = n_region s -> n_value t = n_value s -> n_use t = n_use s ->
  WF s -> WF t.
Proof.
  intros s t Ao Ab Ar Av Au N1 N2 N3 N4 N5 W.
  apply (WF_groups s t W).
  - split; apply agree_ext; assumption.
  - split; apply agree_ext; assumption.
  - split; apply agree_ext; assumption.
  - split; [|split]; apply agree_ext; assumption.
  - unfold same_A. split; [apply dom_eq_ext; assumption|]. split; [apply dom_eq_ext; assumption|].
    split; [apply dom_eq_ext; assumption|]. split; [apply dom_eq_ext; assumption|].
    split; [apply dom_eq_ext; assumption|]. repeat split; assumption.
  - apply (UWF_same s t (WF_UWF s W)). split; [|split; [|split]]; apply agree_ext; assumption.
Qed.

Lemma markT_fun : forall T s t t', markT T s t -> markT T s t' -> WF t -> WF t'.
Proof.
  intros T s t t' [M1 M2 M3 M4 M5 (N1 & N2 & N3 & N4 & N5)] [M1' M2' M3' M4' M5' (N1' & N2' & N3' & N4' & N5')].
  apply WF_ext; try congruence; eapply marked_fun; eassumption.
Qed.

Definition MT (T : list gnode) (s t : state) : Prop :=
  markT T s t /\ forall v, gmem (GValue v) T = true -> (v < n_value s)%positive.

Definition simT (T : list gnode) {A} (m : M A) : Prop :=
  forall s t s' a, MT T s t -> m s = (s', Ok a) -> exists t', m t = (t', Ok a) /\ MT T s' t'.

Lemma simT_ret : forall T {A} (a : A), simT T (ret a).
Proof. intros T A a s t s' b HR H. apply ret_ok in H as [-> ->]. exists t. split; [reflexivity|exact HR]. Qed.
Lemma simT_raise : forall T {A} e, simT T (@raise A e).
Proof. intros T A e s t s' b HR H. exfalso. eapply raise_ok; eauto. Qed.
Lemma simT_bind : forall T {A B} (m : M A) (f : A -> M B), simT T m -> (forall a, simT T (f a)) -> simT T (bind m f).
Proof.
  intros T A B m f Hm Hf s t s' b HR H. apply bind_ok in H as (s1 & a & H1 & H2).
  destruct (Hm _ _ _ _ HR H1) as (t1 & G1 & HR1). destruct (Hf a _ _ _ _ HR1 H2) as (t' & G2 & HR2).
  exists t'. split; [|exact HR2]. unfold bind. rewrite G1. exact G2.
Qed.
Lemma simT_get_fuel : forall T, simT T get_fuel.
Proof.
  intros T s t s' b HR H. unfold get_fuel in *. apply gets_ok in H as [-> ->]. exists t. split; [|exact HR].
  destruct HR as [[_ _ _ _ _ (E1 & E2 & E3 & E4 & E5)] _].
  unfold gets, fuel_of. rewrite E1, E2, E3, E4, E5. reflexivity.
Qed.
Lemma simT_assert : forall T c, simT T (assert_ c).
Proof. intros T c. unfold assert_. destruct c; [apply simT_ret|apply simT_raise]. Qed.
Lemma simT_if : forall T {A} (c : bool) (m1 m2 : M A), simT T m1 -> simT T m2 -> simT T (if c then m1 else m2).
Proof. intros T A c m1 m2 H1 H2. destruct c; assumption. Qed.
Lemma simT_forM : forall T {A} (l : list A) (f : A -> M unit), (forall a, simT T (f a)) -> simT T (forM l f).
Proof.
  intros T A l f Hf. induction l as [|x r IH]; simpl; [apply simT_ret|].
  apply simT_bind; [apply Hf|intros _; exact IH].
Qed.
Lemma simT_index_or_raise : forall T {A} (l : list A) i, simT T (index_or_raise l i).
Proof. intros T A l i. unfold index_or_raise. destruct (py_index l i); [apply simT_ret|apply simT_raise]. Qed.

Lemma simT_getU : forall T v, simT T (getU v).
Proof.
  intros T v s t s' a HR H. apply getU_ok in H as [-> F]. exists t. split; [|exact HR].
  unfold getU. rewrite (mk_uses _ _ _ (proj1 HR)), F. reflexivity.
Qed.
Lemma simT_updU : forall T v f, simT T (updU v f).
Proof.
  intros T v f s t s' [] [M RV] H. apply updU_ok in H as (x & F & ->).
  unfold updU. rewrite (mk_uses _ _ _ M), F. eexists. split; [reflexivity|]. split; [|exact RV].
  destruct M. constructor; simpl; assumption || reflexivity.
Qed.

(* first_use of a value: not touched by the dead flag *)
Lemma simT_gfu : forall T v, simT T (get_first_use (HV v)).
Proof.
  intros T v s t s' a HR H. simpl in H. apply bind_ok in H as (s0 & x & Hg & H).
  apply getV_ok in Hg as [-> F]. apply ret_ok in H as [-> ->]. exists t. split; [|exact HR].
  simpl. unfold bind, getV. rewrite (marked_find _ _ _ _ _ _ (mk_vals _ _ _ (proj1 HR)) F).
  destruct (gmem (GValue v) T); reflexivity.
Qed.
Lemma simT_sfu : forall T v u, simT T (set_first_use (HV v) u).
Proof.
  intros T v u s t s' [] [M RV] H. simpl in H. apply updV_ok in H as (x & F & ->).
  simpl. unfold updV. rewrite (marked_find _ _ _ _ _ _ (mk_vals _ _ _ M) F).
  eexists. split; [reflexivity|]. split; [|exact RV]. destruct M. constructor; simpl; try assumption.
  apply marked_add; [assumption|]. destruct (gmem (GValue v) T); reflexivity.
Qed.
(* a fresh value is not among the marked ones *)
Lemma simT_allocV : forall T rec, simT T (allocV rec).
Proof.
  intros T rec s t s' a [M RV] H. unfold allocV in H. injection H as <- <-.
  destruct M as [M1 M2 M3 M4 M5 (N1 & N2 & N3 & N4 & N5)].
  unfold allocV. rewrite N4. eexists. split; [reflexivity|].
  assert (G : gmem (GValue (n_value s)) T = false).
  { destruct (gmem (GValue (n_value s)) T) eqn:G; [|reflexivity]. apply RV in G. lia. }
  split.
  - constructor; simpl; try assumption; [|repeat split; congruence].
    apply marked_add; [assumption|]. rewrite G. reflexivity.
  - simpl. intros v Gv. apply RV in Gv. lia.
Qed.

(* the only reads/writes of the op table in value_erase (OpOperands.__setitem__) are on fields that the
   erased flag does not touch *)
Definition setitem_K (o : oid) (idx : Z) (operand : vid) (operands : list vid) (operand_uses : list uid) : M unit :=
  let idx := norm_index (zlen operands) idx in
  if negb ((0 <=? idx) && (idx <? zlen operands)) then raise IndexError else
  old <- index_or_raise operands idx ;;
  u <- index_or_raise operand_uses idx ;;
  remove_use (HV old) u ;;;
  add_use (HV operand) u ;;;
  updO o (set_o_operands (py_slice_to operands idx ++ operand :: py_slice_from operands (idx + 1))).

Lemma operands_setitem_K : forall o idx v,
  operands_setitem o idx v = (orec <- getO o ;; setitem_K o idx v (o_operands orec) (o_operand_uses orec)).
Proof. reflexivity. Qed.

Lemma simT_getO_K : forall T o' {A} (K : list vid -> list uid -> M A),
  (forall a b, simT T (K a b)) -> simT T (orec <- getO o' ;; K (o_operands orec) (o_operand_uses orec)).
Proof.
  intros T o' A K HK s t s' a HR H. apply bind_ok in H as (s0 & orec & Hg & H). apply getO_ok in Hg as [-> F].
  destruct (HK _ _ _ _ _ _ HR H) as (t' & Ht & HR'). exists t'. split; [|exact HR'].
  unfold bind, getO. rewrite (marked_find _ _ _ _ _ _ (mk_ops _ _ _ (proj1 HR)) F).
  destruct (gmem (GOp o') T); exact Ht.
Qed.
Lemma simT_updO_operands : forall T o' l, simT T (updO o' (set_o_operands l)).
Proof.
  intros T o' l s t s' [] [M RV] H. apply updO_ok in H as (x & F & ->).
  unfold updO. rewrite (marked_find _ _ _ _ _ _ (mk_ops _ _ _ M) F).
  eexists. split; [reflexivity|]. split; [|exact RV]. destruct M. constructor; simpl; try assumption.
  apply marked_add; [assumption|]. destruct (gmem (GOp o') T); reflexivity.
Qed.

Ltac simT_step :=
  match goal with
  | |- simT _ (bind _ _) => apply simT_bind; [|intros ?]
  | |- simT _ (ret _) => apply simT_ret
  | |- simT _ (raise _) => apply simT_raise
  | |- simT _ get_fuel => apply simT_get_fuel
  | |- simT _ (getU _) => apply simT_getU
  | |- simT _ (updU _ _) => apply simT_updU
  | |- simT _ (allocV _) => apply simT_allocV
  | |- simT _ (assert_ _) => apply simT_assert
  | |- simT _ (get_first_use (HV _)) => apply simT_gfu
  | |- simT _ (set_first_use (HV _) _) => apply simT_sfu
  | |- simT _ (forM _ _) => apply simT_forM; intros ?
  | |- simT _ (index_or_raise _ _) => apply simT_index_or_raise
  | |- simT _ (if _ then _ else _) => apply simT_if
  | |- simT _ (match ?x with Some _ => _ | None => _ end) => destruct x
  end.
Ltac simT_auto := repeat simT_step.

Lemma simT_remove_use : forall T v u, simT T (remove_use (HV v) u).
Proof. intros T v u. unfold remove_use. simT_auto. Qed.
Lemma simT_add_use : forall T v u, simT T (add_use (HV v) u).
Proof. intros T v u. unfold add_use. simT_auto. Qed.

Lemma simT_operands_setitem : forall T o' idx v, simT T (operands_setitem o' idx v).
Proof.
  intros T o' idx v. rewrite operands_setitem_K. apply simT_getO_K. intros a b. unfold setitem_K.
  cbv zeta. simT_auto; first [apply simT_remove_use|apply simT_add_use|apply simT_updO_operands].
Qed.

Lemma simT_uses_from : forall T fl cur, simT T (uses_from fl cur).
Proof.
  intros T fl. induction fl as [|f IH]; intro cur; simpl; [apply simT_raise|].
  destruct cur as [u|]; [|apply simT_ret]. simT_auto. apply IH.
Qed.

Lemma simT_rauw : forall T self value, simT T (replace_all_uses_with self value).
Proof.
  intros T self value. unfold replace_all_uses_with, uses_of. simT_auto;
    first [apply simT_uses_from|apply simT_operands_setitem].
Qed.

Lemma simT_value_erase : forall T self safe, simT T (value_erase self safe).
Proof. intros T self safe. unfold value_erase. simT_auto. apply simT_rauw. Qed.

Section Final.
  Variables (s s2 t : state) (o : oid) (xo : op_rec) (D : list gnode).
  Hypothesis W : WF s.
  Hypothesis Fo : PM.find o (s_ops s) = Some xo.
  Hypothesis Po : o_parent xo = None.
  Hypothesis CL : forall g, In g D -> g = GOp o \/ par_in s D g.
  Hypothesis T : Tab s D s2.
  Hypothesis MK : markT D s2 t.

  Lemma fin_ops : marked (fun i => gmem (GOp i) D) (fun x => set_o_erased true (drop_op x)) (s_ops s) (s_ops t).
  Proof. exact (marked_comp _ _ _ _ _ _ (tb_ops _ _ _ T) (mk_ops _ _ _ MK)). Qed.
  Lemma fin_regs :
    marked (fun i => gmem (GRegion i) D) (fun x => set_r_erased true (drop_reg x)) (s_regions s) (s_regions t).
  Proof. exact (marked_comp _ _ _ _ _ _ (tb_regs _ _ _ T) (mk_regs _ _ _ MK)). Qed.

  Lemma fin_live_op : forall i x, PM.find i (s_ops t) = Some x -> o_erased x = false ->
    gmem (GOp i) D = false /\ PM.find i (s_ops s) = Some x.
  Proof. intros i x. exact (marked_live _ _ o_erased _ _ i x fin_ops (fun _ => eq_refl)). Qed.
  Lemma fin_live_reg : forall i x, PM.find i (s_regions t) = Some x -> r_erased x = false ->
    gmem (GRegion i) D = false /\ PM.find i (s_regions s) = Some x.
  Proof. intros i x. exact (marked_live _ _ r_erased _ _ i x fin_regs (fun _ => eq_refl)). Qed.

  Lemma fin_blk_out : forall i, gmem (GBlock i) D = false ->
    option_map nofu (PM.find i (s_blocks t)) = option_map nofu (PM.find i (s_blocks s)).
  Proof.
    intros i G. rewrite (mk_blks _ _ _ MK i), G. pose proof (tb_blks _ _ _ T i) as Q. rewrite G in Q. exact Q.
  Qed.
  Lemma fin_live_blk : forall b y, PM.find b (s_blocks t) = Some y -> b_erased y = false ->
    gmem (GBlock b) D = false /\ exists xb u, PM.find b (s_blocks s) = Some xb /\ y = set_b_first_use u xb.
  Proof.
    intros b y F E. destruct (marked_live _ _ b_erased _ _ b y (mk_blks _ _ _ MK) (fun _ => eq_refl) F E) as [G _].
    split; [exact G|]. destruct (option_map_Some _ _ _ _ (fin_blk_out b G) F) as (xb & Fxb & Q).
    destruct (nofu_eq _ _ Q) as (u & ->). eauto.
  Qed.
  Lemma fin_kept_blk : forall b xb, gmem (GBlock b) D = false -> PM.find b (s_blocks s) = Some xb ->
    exists u, PM.find b (s_blocks t) = Some (set_b_first_use u xb).
  Proof.
    intros b xb G F. destruct (option_map_Some _ _ _ _ (eq_sym (fin_blk_out b G)) F) as (y & Fy & Q).
    destruct (nofu_eq _ _ (eq_sym Q)) as (u & ->). eauto.
  Qed.
  Lemma fin_blk_args : forall i xb, PM.find i (s_blocks s) = Some xb ->
    exists y, PM.find i (s_blocks t) = Some y /\ b_args y = b_args xb.
  Proof.
    intros i xb F. pose proof (tb_blks _ _ _ T i) as Q. rewrite F in Q. rewrite (mk_blks _ _ _ MK i).
    destruct (PM.find i (s_blocks s2)) as [y|]; [|destruct (gmem (GBlock i) D); discriminate].
    assert (b_args y = b_args xb) by (destruct (gmem (GBlock i) D); simpl in Q; injection Q; auto).
    destruct (gmem (GBlock i) D); eexists; (split; [reflexivity|]); assumption.
  Qed.

  Lemma fin_val_kind : forall v vr, PM.find v (s_values s) = Some vr ->
    exists vr', PM.find v (s_values t) = Some vr' /\ v_kind vr' = v_kind vr.
  Proof.
    intros v vr F. destruct (agree_find_rev _ _ _ _ _ (tb_vals _ _ _ T) F) as (vr2 & F2 & P). injection P as P1 P2.
    rewrite (mk_vals _ _ _ MK v), F2. destruct (gmem (GValue v) D); eexists; (split; [reflexivity|]); assumption.
  Qed.
  Lemma fin_live_val : forall v vr', PM.find v (s_values t) = Some vr' -> v_dead vr' = false ->
    exists vr, PM.find v (s_values s) = Some vr /\ v_kind vr = v_kind vr' /\ v_dead vr = false.
  Proof.
    intros v vr' F Dd.
    destruct (marked_live _ _ v_dead _ _ v vr' (mk_vals _ _ _ MK) (fun _ => eq_refl) F Dd) as [_ F2].
    destruct (agree_find _ _ _ _ _ (tb_vals _ _ _ T) F2) as (vr & Fv & P). injection P as P1 P2.
    exists vr. split; [exact Fv|]. split; congruence.
  Qed.

  Lemma fin_next : forall i, op_next t i = op_next s i.
  Proof. intro i. unfold op_next, link. rewrite (fin_ops i). destruct (gmem (GOp i) D), (PM.find i (s_ops s)); reflexivity. Qed.
  Lemma fin_prev : forall i, op_prev t i = op_prev s i.
  Proof. intro i. unfold op_prev, link. rewrite (fin_ops i). destruct (gmem (GOp i) D), (PM.find i (s_ops s)); reflexivity. Qed.

  (* D is closed under `parent`: a node whose container is outside D is outside D *)

  Lemma fin_out_op : forall o' x' b, PM.find o' (s_ops s) = Some x' -> o_parent x' = Some b ->
    gmem (GBlock b) D = false -> gmem (GOp o') D = false.
  Proof.
    intros o' x' b F P G. destruct (gmem (GOp o') D) eqn:G'; [|reflexivity]. exfalso. apply gmem_In in G'.
    destruct (CL _ G') as [E|(x'' & b' & F' & P' & I')].
    - injection E as ->. rewrite Fo in F. injection F as <-. congruence.
    - rewrite F in F'. injection F' as <-. rewrite P in P'. injection P' as <-. apply gmem_In in I'. congruence.
  Qed.
  Lemma fin_out_blk : forall b' x' r, PM.find b' (s_blocks s) = Some x' -> b_parent x' = Some r ->
    gmem (GRegion r) D = false -> gmem (GBlock b') D = false.
  Proof.
    intros b' x' r F P G. destruct (gmem (GBlock b') D) eqn:G'; [|reflexivity]. exfalso. apply gmem_In in G'.
    destruct (CL _ G') as [E|(x'' & r' & F' & P' & I')]; [discriminate|].
    rewrite F in F'. injection F' as <-. rewrite P in P'. injection P' as <-. apply gmem_In in I'. congruence.
  Qed.
  Lemma fin_out_reg : forall r x' o', PM.find r (s_regions s) = Some x' -> r_parent x' = Some o' ->
    gmem (GOp o') D = false -> gmem (GRegion r) D = false.
  Proof.
    intros r x' o' F P G. destruct (gmem (GRegion r) D) eqn:G'; [|reflexivity]. exfalso. apply gmem_In in G'.
    destruct (CL _ G') as [E|(x'' & o'' & F' & P' & I')]; [discriminate|].
    rewrite F in F'. injection F' as <-. rewrite P in P'. injection P' as <-. apply gmem_In in I'. congruence.
  Qed.

  (* each clause of WF t is the clause of s at the same (live, hence unmarked) node *)

  Lemma fin_block : WF_block t.
  Proof.
    intros b y Fb Eb. destruct (fin_live_blk b y Fb Eb) as (G & xb & u & Fxb & ->).
    destruct (wf_block s W b xb Fxb Eb) as (l & C1 & C2 & ND & M1 & M2).
    exists l. split; [eapply chain_ext; [|exact C1]; intros; apply fin_next|].
    split; [eapply chain_ext; [|exact C2]; intros; apply fin_prev|]. split; [exact ND|]. split.
    - intros o' Io. destruct (M1 o' Io) as (x' & Fx' & Px'). exists x'. split; [|exact Px'].
      rewrite (fin_ops o'), (fin_out_op o' x' b Fx' Px' G). exact Fx'.
    - intros o' x' Fx' Ex' Px'. destruct (fin_live_op o' x' Fx' Ex') as [_ Fs]. eapply M2; eauto.
  Qed.

  Lemma fin_region : WF_region t.
  Proof.
    intros r rr Fr Er. destruct (fin_live_reg r rr Fr Er) as [G Fs].
    destruct (wf_region s W r rr Fs Er) as (l & C1 & C2 & ND & M1 & M2).
    assert (MEM : forall b', In b' l -> exists xb u, PM.find b' (s_blocks s) = Some xb /\
              PM.find b' (s_blocks t) = Some (set_b_first_use u xb) /\ b_parent xb = Some r).
    { intros b' Ib. destruct (M1 b' Ib) as (xb & Fxb & Pxb).
      destruct (fin_kept_blk b' xb (fin_out_blk b' xb r Fxb Pxb G) Fxb) as (u & Fy). exists xb, u. auto. }
    exists l. split; [eapply chain_ext; [|exact C1]|].
    { intros b' Ib. destruct (MEM b' Ib) as (xb & u & Fxb & Fy & _). unfold blk_next, link. rewrite Fy, Fxb. reflexivity. }
    split; [eapply chain_ext; [|exact C2]|].
    { intros b' Ib. apply in_rev in Ib. destruct (MEM b' Ib) as (xb & u & Fxb & Fy & _).
      unfold blk_prev, link. rewrite Fy, Fxb. reflexivity. }
    split; [exact ND|]. split.
    - intros b' Ib. destruct (MEM b' Ib) as (xb & u & _ & Fy & Pxb). eexists. split; [exact Fy|exact Pxb].
    - intros b' y Fy Ey Py. destruct (fin_live_blk b' y Fy Ey) as (_ & xb & u & Fxb & ->). eapply M2; eauto.
  Qed.

  Lemma fin_opregs : WF_opregs t.
  Proof.
    intros o' x' Fx' Ex'. destruct (fin_live_op o' x' Fx' Ex') as [G Fs].
    destruct (wf_opregs s W o' x' Fs Ex') as (ND & M1 & M2). split; [exact ND|]. split.
    - intros r Ir. destruct (M1 r Ir) as (rr & Fr & Pr). exists rr. split; [|exact Pr].
      rewrite (fin_regs r), (fin_out_reg r rr o' Fr Pr G). exact Fr.
    - intros r rr Fr Er Pr. destruct (fin_live_reg r rr Fr Er) as [_ Frs]. eapply M2; eauto.
  Qed.

  Lemma fin_results : WF_results t.
  Proof.
    intros o' x' Fx' Ex' i v N. destruct (fin_live_op o' x' Fx' Ex') as [_ Fs].
    destruct (wf_results s W o' x' Fs Ex' i v N) as (vr & Fv & K).
    destruct (fin_val_kind v vr Fv) as (vr' & Fv' & K'). exists vr'. split; [exact Fv'|congruence].
  Qed.
  Lemma fin_args : WF_args t.
  Proof.
    intros b y Fb Eb i v N. destruct (fin_live_blk b y Fb Eb) as (_ & xb & u & Fxb & ->).
    destruct (wf_args s W b xb Fxb Eb i v N) as (vr & Fv & K).
    destruct (fin_val_kind v vr Fv) as (vr' & Fv' & K'). exists vr'. split; [exact Fv'|congruence].
  Qed.
  (* the owner may be marked: marking keeps results and arguments *)
  Lemma fin_owner : WF_owner t.
  Proof.
    intros v vr' Fv' Dd. destruct (fin_live_val v vr' Fv' Dd) as (vr & Fv & K & Dv).
    pose proof (wf_owner s W v vr Fv Dv) as OW. rewrite <- K. destruct (v_kind vr) as [o' i|b i|old]; [| |exact I].
    - destruct OW as (x' & Fx' & Z). rewrite (fin_ops o'), Fx'.
      destruct (gmem (GOp o') D); eexists; (split; [reflexivity|]); exact Z.
    - destruct OW as (xb & Fxb & Z). destruct (fin_blk_args b xb Fxb) as (y & Fy & Ay). exists y. split; [exact Fy|congruence].
  Qed.

  Lemma fin_detached : WF_detached t.
  Proof.
    destruct (wf_detached s W) as [D1 D2]. split.
    - intros o' x' Fx' Ex' Px'. destruct (fin_live_op o' x' Fx' Ex') as [_ Fs]. eapply D1; eauto.
    - intros b y Fb Eb Pb. destruct (fin_live_blk b y Fb Eb) as (_ & xb & u & Fxb & ->). exact (D2 b xb Fxb Eb Pb).
  Qed.

  Lemma fin_alloc : WF_alloc t.
  Proof.
    destruct (wf_alloc s W) as (B1 & B2 & B3 & B4 & B5).
    destruct (tb_A _ _ _ T) as (D1 & D2 & D3 & D4 & D5 & K1 & K2 & K3 & K4 & K5).
    destruct (mk_ctrs _ _ _ MK) as (N1 & N2 & N3 & N4 & N5).
    unfold WF_alloc. rewrite N1, N2, N3, N4, N5, K1, K2, K3, K4, K5, (mk_uses _ _ _ MK).
    split; [exact (below_marked _ _ _ _ _ _ B1 D1 (mk_ops _ _ _ MK))|].
    split; [exact (below_marked _ _ _ _ _ _ B2 D2 (mk_blks _ _ _ MK))|].
    split; [exact (below_marked _ _ _ _ _ _ B3 D3 (mk_regs _ _ _ MK))|].
    split; [exact (below_marked _ _ _ _ _ _ B4 D4 (mk_vals _ _ _ MK))|].
    intros i y F. destruct (PM.find i (s_uses s)) eqn:F3; [eapply B5; eauto|]. apply D5 in F3. congruence.
  Qed.

  Lemma fin_uses : Uabs s2 (minus_ops (real_slot s) D) -> UWF t.
  Proof.
    intro U. destruct (UWF_Uabs s (WF_UWF s W)) as [_ LN]. apply Uabs_UWF.
    - eapply Uabs_ext; [| | |exact U].
      + intro u. rewrite (mk_uses _ _ _ MK). reflexivity.
      + intros [v|b]; simpl; unfold link.
        * rewrite (mk_vals _ _ _ MK v). destruct (gmem (GValue v) D), (PM.find v (s_values s2)); reflexivity.
        * rewrite (mk_blks _ _ _ MK b). destruct (gmem (GBlock b) D), (PM.find b (s_blocks s2)); reflexivity.
      + intros h o' i u. unfold minus_ops. split.
        * intros (x' & F' & E' & Z1 & Z2). destruct (fin_live_op o' x' F' E') as [G Fs]. split; [|exact G]. exists x'. auto.
        * intros [(x' & F' & E' & Z1 & Z2) G]. exists x'. rewrite (fin_ops o'), G. auto.
    - intros o' x' F' E'. destruct (fin_live_op o' x' F' E') as [_ Fs]. exact (LN o' x' Fs E').
  Qed.

  Lemma fin_WF : Uabs s2 (minus_ops (real_slot s) D) -> WF t.
  Proof.
    intro U. destruct (fin_uses U) as (U1 & U2 & U3 & U4 & U5).
    constructor; auto using fin_block, fin_region, fin_opregs, fin_results, fin_args, fin_owner, fin_detached, fin_alloc.
  Qed.
End Final.

Definition gpar (s : state) (g : gnode) : option gnode :=
  match g with
  | GOp i => match PM.find i (s_ops s) with Some x => option_map GBlock (o_parent x) | None => None end
  | GBlock b => match PM.find b (s_blocks s) with Some x => option_map GRegion (b_parent x) | None => None end
  | GRegion r => match PM.find r (s_regions s) with Some x => option_map GOp (r_parent x) | None => None end
  | GValue v => match PM.find v (s_values s) with
                | Some vr => match v_kind vr with
                             | KRes o _ => Some (GOp o)
                             | KArg b _ => Some (GBlock b)
                             | KErased _ => None
                             end
                | None => None
                end
  end.

Inductive anc (s : state) : nat -> gnode -> gnode -> Prop :=
| anc0 : forall g, anc s O g g
| ancS : forall k g p c, gpar s g = Some p -> anc s k p c -> anc s (S k) g c.

Lemma anc_fun : forall s k g c c', anc s k g c -> anc s k g c' -> c = c'.
Proof.
  intros s k g c c' H. revert c'. induction H; intros c' H'; inversion H'; subst; [reflexivity|].
  apply IHanc. congruence.
Qed.
Lemma anc_trans : forall s j g c, anc s j g c -> forall k d, anc s k c d -> anc s (j + k) g d.
Proof. intros s j g c H. induction H; intros k' d H'; simpl; [exact H'|]. econstructor; eauto. Qed.
Lemma anc_split : forall s j k g d, anc s (j + k) g d -> exists c, anc s j g c /\ anc s k c d.
Proof.
  intros s j. induction j as [|j IH]; intros k g d H; simpl in H.
  - exists g. split; [constructor|exact H].
  - inversion H; subst. destruct (IH _ _ _ H2) as (c & A1 & A2). exists c. split; [econstructor; eauto|exact A2].
Qed.
Lemma anc_root : forall s k root c, gpar s root = None -> anc s k root c -> k = O /\ c = root.
Proof. intros s k root c R H. inversion H; subst; [auto|congruence]. Qed.
Lemma anc_one : forall s g p, gpar s g = Some p -> anc s 1 g p.
Proof. intros. econstructor; [eassumption|constructor]. Qed.
Lemma anc_up : forall s j g c p, anc s j g c -> gpar s c = Some p -> anc s (S j) g p.
Proof. intros s j g c p A P. rewrite <- Nat.add_1_r. exact (anc_trans _ _ _ _ A _ _ (anc_one _ _ _ P)). Qed.

Lemma depth_le : forall s root k k' g, gpar s root = None ->
  anc s k g root -> anc s k' g root -> (k <= k')%nat -> k = k'.
Proof.
  intros s root k k' g R A1 A2 L. replace k' with (k + (k' - k))%nat in A2 by lia.
  destruct (anc_split _ _ _ _ _ A2) as (c & B1 & B2).
  assert (c = root) by (eapply anc_fun; eauto). subst c.
  destruct (anc_root _ _ _ _ R B2) as [E _]. lia.
Qed.
Lemma depth_uniq : forall s root k k' g, gpar s root = None -> anc s k g root -> anc s k' g root -> k = k'.
Proof.
  intros s root k k' g R A1 A2. destruct (Nat.le_ge_cases k k') as [L|L].
  - eapply depth_le; eauto.
  - symmetry. eapply depth_le; eauto.
Qed.

Lemma sib_disj : forall s root k c1 c2 j1 j2 g, gpar s root = None ->
  anc s k c1 root -> anc s k c2 root -> anc s j1 g c1 -> anc s j2 g c2 -> c1 = c2 /\ j1 = j2.
Proof.
  intros s root k c1 c2 j1 j2 g R A1 A2 B1 B2.
  pose proof (anc_trans _ _ _ _ B1 _ _ A1) as D1. pose proof (anc_trans _ _ _ _ B2 _ _ A2) as D2.
  pose proof (depth_uniq _ _ _ _ _ R D1 D2) as E. assert (j1 = j2) by lia. subst j2.
  split; [eapply anc_fun; eauto|reflexivity].
Qed.

Lemma desc_neq : forall s root k c j, gpar s root = None -> anc s k c root -> anc s (S j) c c -> False.
Proof.
  intros s root k c j R A B. pose proof (anc_trans _ _ _ _ B _ _ A) as D.
  pose proof (depth_uniq _ _ _ _ _ R A D). lia.
Qed.

Lemma NoDup_flat_map_disj : forall {A B} (f : A -> list B) (l : list A),
  NoDup l -> (forall a, In a l -> NoDup (f a)) ->
  (forall a b g, In a l -> In b l -> In g (f a) -> In g (f b) -> a = b) ->
  NoDup (flat_map f l).
Proof.
  intros A B f l ND. induction ND as [|a r Na ND IH]; intros N1 DJ; simpl; [constructor|].
  apply NoDup_app_intro.
  - apply N1. left. reflexivity.
  - apply IH; [intros; apply N1; right; assumption|]. intros a' b g Ia Ib. apply DJ; right; assumption.
  - intros g I1 I2. apply in_flat_map in I2. destruct I2 as (b & Ib & Igb).
    assert (a = b) by (eapply (DJ a b g); [left; reflexivity|right; exact Ib|exact I1|exact Igb]). subst b. contradiction.
Qed.

Lemma NoDup_values : forall (l : list vid), NoDup l -> NoDup (map GValue l).
Proof. intros l ND. apply Injective_map_NoDup; [|exact ND]. intros a b E. injection E as E. exact E. Qed.

Lemma all_live_sub : forall s L L', all_live s L -> (forall g, In g L' -> In g L) -> all_live s L'.
Proof. intros s L L' AL SUB g I. apply AL. apply SUB. exact I. Qed.

Section Distinct.
  Variable s : state.
  Hypothesis W : WF s.
  Variable root : gnode.
  Hypothesis Rt : gpar s root = None.

  Lemma indexed_NoDup : forall (l : list vid) (K : Z -> vkind), (forall i j, K i = K j -> i = j) ->
    (forall i v, nth_error l i = Some v -> exists vr, PM.find v (s_values s) = Some vr /\ v_kind vr = K (Z.of_nat i)) ->
    NoDup l.
  Proof.
    intros l K Inj H. apply NoDup_nth_error. intros i j Li Eq.
    destruct (nth_error l i) as [v|] eqn:Ni; [|apply nth_error_None in Ni; lia]. symmetry in Eq.
    destruct (H i v Ni) as (vr & Fv & K1). destruct (H j v Eq) as (vr' & Fv' & K2).
    rewrite Fv in Fv'. injection Fv' as <-. rewrite K1 in K2. apply Inj in K2. lia.
  Qed.

  Lemma res_facts : forall o x, PM.find o (s_ops s) = Some x -> o_erased x = false ->
    NoDup (o_results x) /\ forall v, In v (o_results x) -> gpar s (GValue v) = Some (GOp o).
  Proof.
    intros o x F E. split.
    - apply (indexed_NoDup _ (KRes o)); [intros i j Q; injection Q; auto|exact (wf_results s W o x F E)].
    - intros v Iv. destruct (In_nth_error _ _ Iv) as (i & Ni).
      destruct (wf_results s W o x F E i v Ni) as (vr & Fv & K). simpl. rewrite Fv, K. reflexivity.
  Qed.
  Lemma args_facts : forall b x, PM.find b (s_blocks s) = Some x -> b_erased x = false ->
    NoDup (b_args x) /\ forall v, In v (b_args x) -> gpar s (GValue v) = Some (GBlock b).
  Proof.
    intros b x F E. split.
    - apply (indexed_NoDup _ (KArg b)); [intros i j Q; injection Q; auto|exact (wf_args s W b x F E)].
    - intros v Iv. destruct (In_nth_error _ _ Iv) as (i & Ni).
      destruct (wf_args s W b x F E i v Ni) as (vr & Fv & K). simpl. rewrite Fv, K. reflexivity.
  Qed.

  (* The no-duplicates induction.  `one f c` is what the walk collects from the node `mk c`; `from f cur` what it
     collects from the children of a node p, visited along their `next` links, each with the fuel its
     predecessors have left.  Everything collected from c lies below c. *)
  Section Siblings.
    Variables (mk : positive -> gnode) (one : nat -> positive -> list gnode)
              (from : nat -> option positive -> list gnode) (nxt : positive -> option (option positive)).
    Hypothesis mk_inj : forall a b, mk a = mk b -> a = b.
    Hypothesis from_None : forall f, from f None = [].
    Hypothesis from_S : forall f c, from (S f) (Some c) =
      match nxt c with None => [] | Some n => one f c ++ from f n end.

    Definition N_one (f : nat) : Prop := forall c k0, anc s k0 (mk c) root -> all_live s (one f c) ->
      NoDup (one f c) /\ forall g, In g (one f c) -> exists j, anc s j g (mk c).
    Definition N_list (f : nat) : Prop := forall cur p l k0, anc s k0 p root ->
      chain nxt cur l -> NoDup l -> (forall c, In c l -> gpar s (mk c) = Some p) -> all_live s (from f cur) ->
      NoDup (from f cur) /\ forall g, In g (from f cur) -> exists c j, In c l /\ anc s j g (mk c).

    Lemma siblings_step : forall f, N_one f -> N_list f -> N_list (S f).
    Proof.
      intros f NO NL cur p l k0 A0 C NDl M AL.
      destruct cur as [c|]; [|rewrite from_None; split; [constructor|intros g []]].
      rewrite from_S in *. inversion C as [|? n l' Nc C']; subst. rewrite Nc in *.
      inversion NDl as [|? ? Ncl NDl']; subst.
      apply all_live_app in AL. destruct AL as [AL1 AL2].
      assert (PC : forall c', In c' (c :: l') -> anc s (S k0) (mk c') root).
      { intros c' Ic. exact (ancS _ _ _ _ _ (M c' Ic) A0). }
      destruct (NO c _ (PC c (or_introl eq_refl)) AL1) as [ND1 E1].
      destruct (NL _ p l' k0 A0 C' NDl' (fun c' I' => M c' (or_intror I')) AL2) as [ND2 E2].
      split.
      - apply NoDup_app_intro; [exact ND1|exact ND2|].
        intros g I1 I2. destruct (E1 g I1) as (j1 & B1). destruct (E2 g I2) as (c' & j2 & Ic' & B2).
        destruct (sib_disj _ _ _ _ _ _ _ _ Rt (PC c (or_introl eq_refl)) (PC c' (or_intror Ic')) B1 B2) as [E _].
        apply mk_inj in E. subst c'. contradiction.
      - intros g Ig. apply in_app_or in Ig. destruct Ig as [Ig|Ig].
        + destruct (E1 g Ig) as (j & Aj). exists c, j. split; [left; reflexivity|exact Aj].
        + destruct (E2 g Ig) as (c' & j & Ic' & Aj). exists c', j. split; [right; exact Ic'|exact Aj].
    Qed.
  End Siblings.

  Definition N_op := N_one GOp (fun f => collect_op f s).
  Definition N_region := N_one GRegion (fun f => collect_region f s).
  Definition N_block := N_one GBlock (fun f => collect_block f s).
  Definition N_blocks := N_list GBlock (fun f => collect_blocks_from f s) (blk_next s).
  Definition N_ops := N_list GOp (fun f => collect_ops_from f s) (op_next s).

  Lemma node_step : forall p k0 vals B, isnode p = true -> anc s k0 p root ->
    NoDup vals -> (forall v, In v vals -> gpar s (GValue v) = Some p) ->
    NoDup B -> (forall g, In g B -> exists c j, isnode c = true /\ gpar s c = Some p /\ anc s j g c) ->
    NoDup (p :: map GValue vals ++ B) /\ forall g, In g (p :: map GValue vals ++ B) -> exists j, anc s j g p.
  Proof.
    intros p k0 vals B Np A0 NDv PV NDB EB.
    assert (UP : forall g, In g B -> exists j, anc s (S j) g p).
    { intros g I. destruct (EB g I) as (c & j & _ & Pc & Aj). exists j. exact (anc_up _ _ _ _ _ Aj Pc). }
    split.
    - constructor.
      + intro I. apply in_app_or in I. destruct I as [I|I].
        * apply in_map_iff in I. destruct I as (v & <- & _). discriminate.
        * destruct (UP p I) as (j & Q). exact (desc_neq _ _ _ _ _ Rt A0 Q).
      + apply NoDup_app_intro; [apply NoDup_values; exact NDv|exact NDB|].
        intros g I1 I2. apply in_map_iff in I1. destruct I1 as (v & <- & Iv).
        destruct (EB _ I2) as (c & j & Nc & Pc & Aj).
        destruct (sib_disj _ _ _ _ _ _ _ _ Rt (ancS _ _ _ _ _ (PV v Iv) A0) (ancS _ _ _ _ _ Pc A0) (anc0 _ _) Aj)
          as [<- _].
        discriminate.
    - intros g [<-|Ig]; [exists O; constructor|]. apply in_app_or in Ig. destruct Ig as [Ig|Ig].
      + apply in_map_iff in Ig. destruct Ig as (v & <- & Iv). exists 1%nat. apply anc_one. apply PV. exact Iv.
      + destruct (UP g Ig) as (j & Q). eauto.
  Qed.

  Lemma nodup_op_step : forall f, N_region f -> N_op (S f).
  Proof.
    intros f NR o k0 A0 AL. rewrite collect_op_S in *.
    destruct (PM.find o (s_ops s)) as [x|] eqn:Fx; [|split; [constructor|intros g []]].
    destruct (AL (GOp o) (or_introl eq_refl)) as (x' & Fx' & Ex). rewrite Fx in Fx'. injection Fx' as <-.
    destruct (res_facts o x Fx Ex) as [NDr PR].
    destruct (wf_opregs s W o x Fx Ex) as (NDg & M1 & _).
    assert (PG : forall r, In r (o_regions x) -> gpar s (GRegion r) = Some (GOp o)).
    { intros r Ir. destruct (M1 r Ir) as (rr & Fr & Pr). simpl. rewrite Fr, Pr. reflexivity. }
    assert (AR : forall r, In r (o_regions x) -> anc s (S k0) (GRegion r) root).
    { intros r Ir. econstructor; [apply PG; exact Ir|exact A0]. }
    assert (ALr : forall r, In r (o_regions x) -> all_live s (collect_region f s r)).
    { intros r Ir. eapply all_live_sub; [exact AL|]. intros g Ig. right. apply in_or_app. right.
      apply in_flat_map. eauto. }
    apply (node_step (GOp o) k0 (o_results x) _ eq_refl A0 NDr PR).
    - apply NoDup_flat_map_disj; [exact NDg| |].
      + intros r Ir. apply (NR r _ (AR r Ir) (ALr r Ir)).
      + intros r1 r2 g I1 I2 G1 G2.
        destruct (NR r1 _ (AR r1 I1) (ALr r1 I1)) as [_ E1]. destruct (E1 g G1) as (j1 & B1).
        destruct (NR r2 _ (AR r2 I2) (ALr r2 I2)) as [_ E2]. destruct (E2 g G2) as (j2 & B2).
        destruct (sib_disj _ _ _ _ _ _ _ _ Rt (AR r1 I1) (AR r2 I2) B1 B2) as [E _]. injection E as E. exact E.
    - intros g Ig. apply in_flat_map in Ig. destruct Ig as (r & Ir & Ig).
      destruct (NR r _ (AR r Ir) (ALr r Ir)) as [_ En]. destruct (En g Ig) as (j & Aj). exists (GRegion r), j. auto.
  Qed.

  Lemma nodup_region_step : forall f, N_blocks f -> N_region (S f).
  Proof.
    intros f NB r k0 A0 AL. rewrite collect_region_S in *.
    destruct (PM.find r (s_regions s)) as [x|] eqn:Fx; [|split; [constructor|intros g []]].
    destruct (AL (GRegion r) (or_introl eq_refl)) as (x' & Fx' & Ex). rewrite Fx in Fx'. injection Fx' as <-.
    destruct (wf_region s W r x Fx Ex) as (l & C1 & _ & NDl & M1 & _).
    assert (ALb : all_live s (collect_blocks_from f s (r_first x))).
    { eapply all_live_sub; [exact AL|]. intros g Ig. right. exact Ig. }
    assert (PB : forall b, In b l -> gpar s (GBlock b) = Some (GRegion r)).
    { intros b Ib. destruct (M1 b Ib) as (xb & Fb & Pb). simpl. rewrite Fb, Pb. reflexivity. }
    destruct (NB _ (GRegion r) l k0 A0 C1 NDl PB ALb) as [NDB EB].
    apply (node_step (GRegion r) k0 [] _ eq_refl A0 (NoDup_nil _) (fun v (I : In v []) => match I with end) NDB).
    intros g Ig. destruct (EB g Ig) as (b & j & Ib & Aj). exists (GBlock b), j. auto.
  Qed.

  Lemma nodup_block_step : forall f, N_ops f -> N_block (S f).
  Proof.
    intros f NO b k0 A0 AL. rewrite collect_block_S in *.
    destruct (PM.find b (s_blocks s)) as [x|] eqn:Fx; [|split; [constructor|intros g []]].
    destruct (AL (GBlock b) (or_introl eq_refl)) as (x' & Fx' & Ex). rewrite Fx in Fx'. injection Fx' as <-.
    destruct (args_facts b x Fx Ex) as [NDa PA].
    destruct (wf_block s W b x Fx Ex) as (l & C1 & _ & NDl & M1 & _).
    assert (ALo : all_live s (collect_ops_from f s (b_first_op x))).
    { eapply all_live_sub; [exact AL|]. intros g Ig. right. apply in_or_app. right. exact Ig. }
    assert (PO : forall o, In o l -> gpar s (GOp o) = Some (GBlock b)).
    { intros o Io. destruct (M1 o Io) as (xo & Fo & Po). simpl. rewrite Fo, Po. reflexivity. }
    destruct (NO _ (GBlock b) l k0 A0 C1 NDl PO ALo) as [NDO EO].
    apply (node_step (GBlock b) k0 (b_args x) _ eq_refl A0 NDa PA NDO).
    intros g Ig. destruct (EO g Ig) as (o & j & Io & Aj). exists (GOp o), j. auto.
  Qed.

  Lemma nodup_blocks_step : forall f, N_block f -> N_blocks f -> N_blocks (S f).
  Proof.
    apply siblings_step; [intros a b E; injection E; auto|intros [|f]; reflexivity|].
    intros f b. rewrite collect_blocks_S. unfold blk_next, link. destruct (PM.find b (s_blocks s)); reflexivity.
  Qed.

  Lemma nodup_ops_step : forall f, N_op f -> N_ops f -> N_ops (S f).
  Proof.
    apply siblings_step; [intros a b E; injection E; auto|intros [|f]; reflexivity|].
    intros f o. rewrite collect_ops_S. unfold op_next, link. destruct (PM.find o (s_ops s)); reflexivity.
  Qed.

  Lemma nodup_collect : forall f, N_op f /\ N_region f /\ N_blocks f /\ N_block f /\ N_ops f.
  Proof.
    induction f as [|f (I1 & I2 & I3 & I4 & I5)].
    - unfold N_op, N_region, N_blocks, N_block, N_ops, N_one, N_list.
      split; [|split; [|split; [|split]]]; simpl; intros; (split; [constructor|intros g []]).
    - split; [apply nodup_op_step; assumption|]. split; [apply nodup_region_step; assumption|].
      split; [apply nodup_blocks_step; assumption|]. split; [apply nodup_block_step; assumption|].
      apply nodup_ops_step; assumption.
  Qed.
End Distinct.

Lemma collect_op_NoDup : forall s o x, WF s -> PM.find o (s_ops s) = Some x -> o_parent x = None ->
  forall f, all_live s (collect_op f s o) -> NoDup (collect_op f s o).
Proof.
  intros s o x W F P f AL.
  assert (Rt : gpar s (GOp o) = None) by (simpl; rewrite F, P; reflexivity).
  exact (proj1 (proj1 (nodup_collect s W (GOp o) Rt f) o O (anc0 s (GOp o)) AL)).
Qed.

Lemma Inv_init : forall s, Uabs s (real_slot s) -> Inv s [] s.
Proof.
  intros s UA. split.
  - constructor; simpl; try reflexivity; [apply agree_refl|apply fr_A].
  - eapply Uabs_iff; [|exact UA]. intros h o i u. unfold minus_ops. simpl. tauto.
Qed.

Lemma value_erase_loop_WF : forall l s s' safe r,
  WF s -> forM l (fun v => value_erase v safe) s = (s', Ok r) -> WF s'.
Proof.
  induction l as [|v rest IH]; intros s s' safe r W H; simpl in H.
  - apply ret_ok in H as [-> _]. exact W.
  - apply bind_ok in H as (s1 & ? & H1 & H2). eapply IH; [|exact H2]. eapply value_erase_WF; eauto.
Qed.

Lemma detach_op_ret : forall b o s s' r, detach_op b o s = (s', Ok r) -> r = o.
Proof.
  intros b o s s' r H. unfold detach_op in H.
  apply bind_ok in H as (s0 & orec & _ & H).
  destruct (negb (opt_eqb (o_parent orec) (Some b))); [exfalso; eapply raise_ok; eauto|].
  apply bind_ok in H as (s1 & ? & _ & H).
  apply bind_ok in H as (s2 & ? & _ & H).
  apply bind_ok in H as (s3 & ? & _ & H).
  apply ret_ok in H as [_ ->]. reflexivity.
Qed.

Lemma collected_value_below : forall s o f v, WF s -> all_live s (collect_op f s o) ->
  In (GValue v) (collect_op f s o) -> (v < n_value s)%positive.
Proof.
  intros s o f v W AL G. destruct (wf_alloc s W) as (_ & _ & _ & B4 & _).
  destruct (proj1 (closure s W f) o AL _ G) as [E|[(o' & x' & Io & Fo & Iv)|(b & xb & Ib & Fb & Iv)]]; [discriminate| |].
  - destruct (AL _ Io) as (x'' & Fo' & Eo). rewrite Fo in Fo'. injection Fo' as <-.
    destruct (In_nth_error _ _ Iv) as (k & Nk).
    destruct (wf_results s W o' x' Fo Eo k v Nk) as (vr & Fv & _). eapply B4; eauto.
  - destruct (AL _ Ib) as (x'' & Fb' & Eb). rewrite Fb in Fb'. injection Fb' as <-.
    destruct (In_nth_error _ _ Iv) as (k & Nk).
    destruct (wf_args s W b xb Fb Eb k v Nk) as (vr & Fv & _). eapply B4; eauto.
Qed.

(* Operation.erase of a live op with an arbitrary tree of regions below it; the liveness hypothesis says
   that everything the erase is going to mark (the walk of `collect_op`) is live: erased objects are not
   reachable from live ones *)
Theorem op_erase_tree_WF : forall s s' o safe r,
  WF s ->
  all_live s (collect_op (fuel_of s) s o) ->
  op_erase o safe true s = (s', Ok r) -> WF s'.
Proof.
  intros s s' o safe r W AL H. unfold op_erase in H.
  apply bind_ok in H as (s0 & x & Hg & H). apply getO_ok in Hg as [-> Fx].
  apply bind_ok in H as (s0 & [] & Ha & H). apply assert_ok in Ha as [-> Pa].
  apply negb_true_iff in Pa. apply is_some_false in Pa.
  apply bind_ok in H as (s0 & dead & Hd & H). apply gets_ok in Hd as [-> ->].
  apply bind_ok in H as (s0 & fl & Hf & H). unfold get_fuel in Hf. apply gets_ok in Hf as [-> ->].
  pose proof (collect_op_NoDup s o x W Fx Pa _ AL) as ND.
  pose proof (proj1 (closure s W (fuel_of s)) o AL) as CL.
  set (D := collect_op (fuel_of s) s o) in *.
  apply bind_ok in H as (s2 & [] & Hdrop & H). simpl in Hdrop.
  destruct (UWF_Uabs s (WF_UWF s W)) as [UA LN].
  assert (OL : ops_live s D) by (intros i Ii; exact (AL (GOp i) Ii)).
  assert (ND' : NoDup ([] ++ D ++ [])) by (simpl; rewrite app_nil_r; exact ND).
  destruct (proj1 (walk s UA LN (wf_disjoint s W) (fuel_of s)) o [] [] s s2 tt ND' (Inv_init s UA) OL Hdrop) as [T2 U2].
  simpl in T2, U2.
  pose proof (markS_markT D s2) as MK.
  pose proof (fin_WF s s2 (markS D s2) o x D W Fx Pa CL T2 MK U2) as W2.
  assert (HR2 : MT D s2 (markS D s2)).
  { split; [exact MK|]. intros v G. apply gmem_In in G.
    destruct (tb_A _ _ _ T2) as (_ & _ & _ & _ & _ & _ & _ & _ & K4 & _). rewrite K4.
    exact (collected_value_below s o _ v W AL G). }
  apply bind_ok in H as (s0 & orec' & Hg & H). apply getO_ok in Hg as [-> Fo'].
  apply bind_ok in H as (s3 & [] & Hve & Hk).
  destruct (simT_forM D (o_results orec') (fun v => value_erase v safe) (fun v => simT_value_erase D v safe)
              _ _ _ _ HR2 Hve) as (t3 & Hve' & [MK3 _]).
  pose proof (value_erase_loop_WF _ _ _ _ _ W2 Hve') as W3.
  exact (markT_fun D s3 t3 s' MK3 (kill_spec _ _ _ _ Hk) W3).
Qed.

(* Block.erase_op / Rewriter.erase_op: the liveness hypothesis is about the state after the detach
   (detach_op rewires the siblings and the parent block of o, which are outside the tree below o) *)
Theorem erase_op_tree_WF : forall s s' b o safe r,
  WF s -> blk_live s b -> op_live s o ->
  (forall s1 r1, detach_op b o s = (s1, Ok r1) -> all_live s1 (collect_op (fuel_of s1) s1 o)) ->
  erase_op b o safe s = (s', Ok r) -> WF s'.
Proof.
  intros s s' b o safe r W BL OL AL H. unfold erase_op in H.
  apply bind_ok in H as (s1 & o' & Hd & He).
  pose proof (detach_op_ret _ _ _ _ _ Hd) as ->.
  pose proof (detach_op_WF _ _ _ _ _ W BL OL Hd) as W1.
  eapply op_erase_tree_WF; eauto.
Qed.

Theorem rw_erase_op_tree_WF : forall s s' o safe r,
  WF s -> op_live s o ->
  (forall x b, PM.find o (s_ops s) = Some x -> o_parent x = Some b ->
     blk_live s b /\ forall s1 r1, detach_op b o s = (s1, Ok r1) -> all_live s1 (collect_op (fuel_of s1) s1 o)) ->
  (forall x, PM.find o (s_ops s) = Some x -> o_parent x = None -> all_live s (collect_op (fuel_of s) s o)) ->
  rw_erase_op o safe s = (s', Ok r) -> WF s'.
Proof.
  intros s s' o safe r W OL HB HN H. unfold rw_erase_op in H.
  apply bind_ok in H as (s0 & x & Hg & H). apply getO_ok in Hg as [-> Fx].
  destruct (o_parent x) as [b|] eqn:P.
  - destruct (HB x b Fx P) as [BL AL]. eapply erase_op_tree_WF; eauto.
  - eapply op_erase_tree_WF; eauto.
Qed.

(* The erase of an op WITHOUT regions marks the op and its results only, and these are live as soon as the op is. *)

Lemma noregions_all_live : forall s o x,
  PM.find o (s_ops s) = Some x -> o_erased x = false -> o_regions x = [] ->
  all_live s (collect_op (fuel_of s) s o).
Proof.
  intros s o x F E R. destruct (fuel_of s) as [|f]; [intros g []|].
  rewrite collect_op_S, F, R. simpl. rewrite app_nil_r.
  intros g [<-|I]; [exists x; auto|]. apply in_map_iff in I. destruct I as (v & <- & _). exact Logic.I.
Qed.

Theorem op_erase_noregions_WF : forall s s' o x safe r,
  WF s -> PM.find o (s_ops s) = Some x -> o_erased x = false -> o_regions x = [] ->
  op_erase o safe true s = (s', Ok r) -> WF s'.
Proof.
  intros s s' o x safe r W Fx Ex Rx H. eapply op_erase_tree_WF; [exact W| |exact H].
  eapply noregions_all_live; eauto.
Qed.

Corollary op_erase_noregions_live_WF : forall s s' o safe r,
  WF s -> op_live s o -> (forall x, PM.find o (s_ops s) = Some x -> o_regions x = []) ->
  op_erase o safe true s = (s', Ok r) -> WF s'.
Proof.
  intros s s' o safe r W (x & F & E) NR H. eapply op_erase_noregions_WF; eauto.
Qed.

Theorem erase_op_noregions_WF : forall s s' b o x safe r,
  WF s -> blk_live s b -> PM.find o (s_ops s) = Some x -> o_erased x = false -> o_regions x = [] ->
  erase_op b o safe s = (s', Ok r) -> WF s'.
Proof.
  intros s s' b o x safe r W BL Fx Ex Rx H.
  apply (erase_op_tree_WF s s' b o safe r W BL); [exists x; auto| |exact H].
  (* detach_op keeps the regions and the erased flag of o *)
  intros s1 r1 Hd. destruct (detach_op_T3 b o s s1 _ Hd) as [Ao _].
  destruct (agree_find_rev _ _ _ _ _ Ao Fx) as (x1 & F1 & P). unfold pT3_op in P. injection P as P1 P2.
  eapply noregions_all_live; eauto; congruence.
Qed.

Corollary erase_op_noregions_live_WF : forall s s' b o safe r,
  WF s -> blk_live s b -> op_live s o -> (forall x, PM.find o (s_ops s) = Some x -> o_regions x = []) ->
  erase_op b o safe s = (s', Ok r) -> WF s'.
Proof.
  intros s s' b o safe r W BL (x & F & E) NR H. eapply erase_op_noregions_WF; eauto.
Qed.

Theorem rw_erase_op_noregions_WF : forall s s' o x safe r,
  WF s -> PM.find o (s_ops s) = Some x -> o_erased x = false -> o_regions x = [] ->
  (forall b, o_parent x = Some b -> blk_live s b) ->
  rw_erase_op o safe s = (s', Ok r) -> WF s'.
Proof.
  intros s s' o x safe r W Fx Ex Rx BL H. unfold rw_erase_op in H.
  apply bind_ok in H as (s0 & orec & Hg & H). apply getO_ok in Hg as [-> Fo]. rewrite Fx in Fo. injection Fo as <-.
  destruct (o_parent x) as [b|] eqn:P.
  - eapply erase_op_noregions_WF; eauto.
  - eapply op_erase_noregions_WF; eauto.
Qed.

Corollary rw_erase_op_noregions_live_WF : forall s s' o safe r,
  WF s -> op_live s o ->
  (forall x, PM.find o (s_ops s) = Some x -> o_regions x = []) ->
  (forall x b, PM.find o (s_ops s) = Some x -> o_parent x = Some b -> blk_live s b) ->
  rw_erase_op o safe s = (s', Ok r) -> WF s'.
Proof.
  intros s s' o safe r W (x & F & E) NR BL H. eapply rw_erase_op_noregions_WF; eauto.
Qed.
