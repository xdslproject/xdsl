(* C25/Proofs.v -- the liveness solver model computes backward reachability under every pop order.

   SPEC (check this first): `Live P v` -- v is an operand of an op that is not trivially dead, or an
   operand of an op one of whose results is Live.  Nothing else is live. *)
From Coq Require Import List Arith Bool Lia.
From XV Require Import C25.Model.
Import ListNotations.

Inductive Live (P : list op) : value -> Prop :=
| Live_root : forall o v, In o P -> removable o = false -> In v (operands o) -> Live P v
| Live_step : forall o r v, In o P -> In r (results o) -> Live P r -> In v (operands o) -> Live P v.

Lemma sum_incl : forall (f : nat -> nat) (l s : list nat),
  NoDup l -> incl l s -> list_sum (map f l) <= list_sum (map f s).
Proof.
  intros f l; induction l as [|a l IH]; intros s Hnd Hin; simpl; [lia|].
  inversion Hnd as [|a' l' Hna Hnd']; subst.
  assert (Ha : In a s) by (apply Hin; left; reflexivity).
  destruct (in_split _ _ Ha) as [s1 [s2 Hs]]; subst s.
  assert (Hl : incl l (s1 ++ s2)).
  { intros x Hx. assert (Hx' : In x (s1 ++ a :: s2)) by (apply Hin; right; exact Hx).
    apply in_app_or in Hx'. apply in_or_app. destruct Hx' as [H|[H|H]]; auto.
    subst x. contradiction. }
  specialize (IH _ Hnd' Hl).
  rewrite map_app, list_sum_app in *. simpl. lia.
Qed.

Lemma sum_ge_length : forall (f : nat -> nat) (l : list nat),
  (forall i, In i l -> 1 <= f i) -> length l <= list_sum (map f l).
Proof.
  intros f l; induction l as [|a l IH]; intros H; simpl; [lia|].
  assert (1 <= f a) by (apply H; left; reflexivity).
  assert (length l <= list_sum (map f l)) by (apply IH; intros; apply H; right; assumption). lia.
Qed.

Lemma nodup_map_fst_liv : forall l : list item,
  NoDup l -> (forall x, In x l -> snd x = LIV) -> NoDup (map fst l).
Proof.
  induction l as [|a l IH]; intros Hnd Hs; simpl; [constructor|].
  inversion Hnd as [|a' l' Hna Hnd']; subst. constructor.
  - intros Hin. apply in_map_iff in Hin. destruct Hin as [x [Hfx Hx]].
    apply Hna. assert (x = a); [|subst; assumption].
    destruct x as [x1 x2], a as [a1 a2]. simpl in *.
    assert (x2 = LIV) by (apply (Hs (x1, x2)); right; assumption).
    assert (a2 = LIV) by (apply (Hs (a1, a2)); left; reflexivity). congruence.
  - apply IH; [assumption | intros; apply Hs; right; assumption].
Qed.

Lemma an_eqb_eq : forall a b, an_eqb a b = true <-> a = b.
Proof. intros [] []; simpl; split; congruence. Qed.
Lemma item_eqb_eq : forall x y, item_eqb x y = true <-> x = y.
Proof.
  intros [x1 x2] [y1 y2]; unfold item_eqb; simpl. rewrite andb_true_iff, Nat.eqb_eq, an_eqb_eq.
  split; [intros [? ?]; subst; reflexivity | intros H; inversion H; auto].
Qed.

Lemma set_add_in : forall {A} (eqb : A -> A -> bool) x y l,
  In y (set_add eqb x l) -> y = x \/ In y l.
Proof.
  intros A eqb x y l; unfold set_add. destruct (existsb (eqb x) l); intros H; auto.
  apply in_app_or in H. destruct H as [H|[H|[]]]; auto.
Qed.

Lemma set_add_incl : forall {A} (eqb : A -> A -> bool) x y l, In y l -> In y (set_add eqb x l).
Proof. intros A eqb x y l H; unfold set_add. destruct (existsb (eqb x) l); auto. apply in_or_app; auto. Qed.
Lemma set_add_self : forall x l, In x (set_add item_eqb x l).
Proof.
  intros x l; unfold set_add. destruct (existsb (item_eqb x) l) eqn:E.
  - apply existsb_exists in E. destruct E as [y [Hy He]]. apply item_eqb_eq in He. subst; assumption.
  - apply in_or_app; right; left; reflexivity.
Qed.

Lemma set_add_nodup : forall x l, NoDup l -> NoDup (set_add item_eqb x l).
Proof.
  intros x l H; unfold set_add. destruct (existsb (item_eqb x) l) eqn:E; [assumption|].
  apply NoDup_rev in H. rewrite <- (rev_involutive (l ++ [x])). apply NoDup_rev.
  rewrite rev_app_distr. simpl. constructor; [|assumption].
  intros Hin. apply in_rev in Hin.
  assert (Ht : existsb (item_eqb x) l = true).
  { apply existsb_exists. exists x. split; [assumption | apply item_eqb_eq; reflexivity]. }
  congruence.
Qed.

Lemma remove_nth_in : forall {A} i (l : list A) x, In x (remove_nth i l) -> In x l.
Proof.
  intros A i l; revert i; induction l as [|a l IH]; intros i x H; simpl in *; [destruct i; assumption|].
  destruct i; [right; assumption|]. destruct H as [H|H]; [left; assumption | right; eapply IH; eassumption].
Qed.

Lemma remove_nth_keep : forall {A} i (l : list A) d x, In x l -> x <> nth i l d -> In x (remove_nth i l).
Proof.
  intros A i l; revert i; induction l as [|a l IH]; intros i d x H Hne; simpl in *; [contradiction|].
  destruct i.
  - destruct H as [H|H]; [subst; contradiction | assumption].
  - destruct H as [H|H]; [left; assumption | right; eapply IH; eassumption].
Qed.

Lemma remove_nth_length : forall {A} i (l : list A), i < length l -> S (length (remove_nth i l)) = length l.
Proof.
  intros A i l; revert i; induction l as [|a l IH]; intros i H; simpl in *; [lia|].
  destruct i; [reflexivity|]. simpl. rewrite IH; [reflexivity | lia].
Qed.

Lemma enqueue_all_fields : forall l s,
  wl (enqueue_all l s) = wl s ++ l /\ live (enqueue_all l s) = live s /\ deps (enqueue_all l s) = deps s
  /\ ex_live (enqueue_all l s) = ex_live s /\ ex_deps (enqueue_all l s) = ex_deps s
  /\ ex_subs (enqueue_all l s) = ex_subs s.
Proof.
  unfold enqueue_all. induction l as [|a l IH]; intros s; simpl.
  - rewrite app_nil_r. repeat split.
  - destruct (IH (enqueue a s)) as (H1 & H2 & H3 & H4 & H5 & H6).
    rewrite H1, H2, H3, H4, H5, H6. simpl. rewrite <- app_assoc. repeat split.
Qed.

(* number of result slots, computed through indices (as the potential does) *)
Lemma sum_res_flat : forall P : list op,
  list_sum (map (fun i => length (match nth_error P i with Some o => results o | None => [] end))
                (seq 0 (length P))) = length (flat_map results P).
Proof.
  induction P as [|a P IH]; simpl; [reflexivity|].
  rewrite app_length. f_equal. rewrite <- seq_shift, map_map. simpl. exact IH.
Qed.

Section Program.
Variable P : list op.

Definition res (i : nat) : list value :=
  match nth_error P i with Some o => results o | None => [] end.

Definition cnt (s : state) (l : list value) : nat := length (filter (fun r => negb (live s r)) l).
Definition occ (v : value) (l : list value) : nat := length (filter (Nat.eqb v) l).
Definition dead_results (s : state) : nat := list_sum (map (fun i => cnt s (res i)) (seq 0 (length P))).
(* potential: pending work + result slots that may still flip *)
Definition pot (s : state) : nat := length (wl s) + dead_results s.

Definition wf (s : state) : Prop :=
  (forall v it, In it (deps s v) -> exists i o, it = (i, LIV) /\ nth_error P i = Some o /\ In v (results o))
  /\ (forall v, NoDup (deps s v)).

Definition sound (s : state) : Prop := forall v, live s v = true -> Live P v.

Definition flips (l : list event) : list value :=
  flat_map (fun e => match e with EFlip v => [v] | _ => [] end) l.
(* the log records no value twice as flipped, and the flipped values are exactly the live ones *)
Definition once (s : state) : Prop :=
  NoDup (flips (log s)) /\ forall v, In v (flips (log s)) <-> live s v = true.

Lemma once_eq : forall s s', flips (log s') = flips (log s) -> live s' = live s -> once s -> once s'.
Proof. intros s s' Hf Hl [H1 H2]. unfold once. rewrite Hf, Hl. auto. Qed.

Lemma once_enqueue_all : forall l s, once s -> once (enqueue_all l s).
Proof.
  unfold enqueue_all. induction l as [|a l IH]; intros s H; simpl; [exact H|].
  apply IH. eapply once_eq; [| |exact H]; reflexivity.
Qed.

(* what any part of a visit does to the solver state: lattices only rise, and only to Live values; dependents and
   pending items are kept; whoever depends on a flipped lattice is enqueued; the Executable gate is untouched;
   well-formedness is kept and the enqueues are paid for out of the potential; flips are logged once *)
Record ext (s s' : state) : Prop := {
  e_live : forall v, live s v = true -> live s' v = true;
  e_new : forall v, live s v = false -> live s' v = true -> Live P v;
  e_deps : forall v it, In it (deps s v) -> In it (deps s' v);
  e_wl : forall it, In it (wl s) -> In it (wl s');
  e_flip : forall v it, live s v = false -> live s' v = true -> In it (deps s v) -> In it (wl s');
  e_ex : ex_live s' = ex_live s;
  e_wf : wf s -> wf s';
  e_pot : wf s -> pot s' <= pot s;
  e_once : once s -> once s' }.

Lemma ext_refl : forall s, ext s s.
Proof. intros s; constructor; auto; intros; congruence. Qed.

Lemma ext_trans : forall s1 s2 s3, ext s1 s2 -> ext s2 s3 -> ext s1 s3.
Proof.
  intros s1 s2 s3 H12 H23. constructor.
  - intros v H. apply (e_live _ _ H23), (e_live _ _ H12), H.
  - intros v H1 H3. destruct (live s2 v) eqn:E2.
    + apply (e_new _ _ H12 v H1 E2).
    + apply (e_new _ _ H23 v E2 H3).
  - intros v it H. apply (e_deps _ _ H23), (e_deps _ _ H12), H.
  - intros it H. apply (e_wl _ _ H23), (e_wl _ _ H12), H.
  - intros v it H1 H3 Hin. destruct (live s2 v) eqn:E2.
    + apply (e_wl _ _ H23), (e_flip _ _ H12 v it H1 E2 Hin).
    + apply (e_flip _ _ H23 v it E2 H3), (e_deps _ _ H12), Hin.
  - rewrite (e_ex _ _ H23). apply (e_ex _ _ H12).
  - intros H. apply (e_wf _ _ H23), (e_wf _ _ H12), H.
  - intros H. pose proof (e_pot _ _ H12 H). pose proof (e_pot _ _ H23 (e_wf _ _ H12 H)). lia.
  - intros H. apply (e_once _ _ H23), (e_once _ _ H12), H.
Qed.

Lemma ext_sound : forall s s', ext s s' -> sound s -> sound s'.
Proof.
  intros s s' He Hs v Hv. destruct (live s v) eqn:E; [apply Hs, E | apply (e_new _ _ He v E Hv)].
Qed.

Lemma ext_same : forall s s', live s' = live s -> deps s' = deps s -> wl s' = wl s ->
  ex_live s' = ex_live s -> flips (log s') = flips (log s) -> ext s s'.
Proof.
  intros s s' Hl Hd Hw He Hf. constructor; try rewrite Hl; try rewrite Hd; try rewrite Hw; auto.
  - intros; congruence.
  - intros; congruence.
  - unfold wf. rewrite Hd. auto.
  - intros _. unfold pot, dead_results, cnt. rewrite Hl, Hw. lia.
  - apply once_eq; assumption.
Qed.

(* counting: a flip of v pays for the enqueue of its dependents *)
Lemma cnt_flip : forall s s' v l,
  live s v = false -> live s' = upd (live s) v true -> cnt s' l + occ v l = cnt s l.
Proof.
  intros s s' v l Hv Hl. unfold cnt, occ. rewrite Hl. induction l as [|a l IH]; simpl; [reflexivity|].
  unfold upd at 1. rewrite (Nat.eqb_sym v a). destruct (Nat.eqb a v) eqn:E.
  - apply Nat.eqb_eq in E. subst a. rewrite Hv. simpl. lia.
  - destruct (live s a); simpl; lia.
Qed.

Lemma dead_results_flip : forall s s' v,
  live s v = false -> live s' = upd (live s) v true ->
  dead_results s' + list_sum (map (fun i => occ v (res i)) (seq 0 (length P))) = dead_results s.
Proof.
  intros s s' v Hv Hl. unfold dead_results. induction (seq 0 (length P)) as [|a l IH]; simpl; [reflexivity|].
  pose proof (cnt_flip s s' v (res a) Hv Hl). lia.
Qed.

Lemma occ_pos : forall v l, In v l -> 1 <= occ v l.
Proof.
  intros v l; unfold occ; induction l as [|a l IH]; intros H; simpl in *; [contradiction|].
  destruct (Nat.eqb v a) eqn:E; simpl; [lia|].
  destruct H as [H|H]; [subst; rewrite Nat.eqb_refl in E; discriminate | apply IH, H].
Qed.

Lemma deps_bound : forall s v, wf s ->
  length (deps s v) <= list_sum (map (fun i => occ v (res i)) (seq 0 (length P))).
Proof.
  intros s v [Hval Hnd].
  assert (Hlen : length (map fst (deps s v)) = length (deps s v)) by apply map_length.
  rewrite <- Hlen. clear Hlen.
  assert (Hsnd : forall x, In x (deps s v) -> snd x = LIV).
  { intros x Hx. destruct (Hval v x Hx) as (i & o & -> & _). reflexivity. }
  pose proof (nodup_map_fst_liv _ (Hnd v) Hsnd) as Hnd'.
  eapply Nat.le_trans; [apply (sum_ge_length (fun i => occ v (res i)))|].
  - intros i Hi. apply in_map_iff in Hi. destruct Hi as [x [Hfx Hx]].
    destruct (Hval v x Hx) as (i' & o & -> & Hn & Hr). simpl in Hfx. subst i'.
    apply occ_pos. unfold res. rewrite Hn. exact Hr.
  - apply sum_incl; [exact Hnd'|].
    intros i Hi. apply in_map_iff in Hi. destruct Hi as [x [Hfx Hx]].
    destruct (Hval v x Hx) as (i' & o & -> & Hn & Hr). simpl in Hfx. subst i'.
    apply in_seq. split; [lia|]. simpl. apply nth_error_Some. congruence.
Qed.

Lemma mark_live_fields : forall v s, live s v = false ->
  live (mark_live_prop v s) = upd (live s) v true /\ wl (mark_live_prop v s) = wl s ++ deps s v
  /\ deps (mark_live_prop v s) = deps s /\ ex_live (mark_live_prop v s) = ex_live s.
Proof.
  intros v s Hv. unfold mark_live_prop, lattice_on_update. rewrite Hv.
  match goal with |- context [enqueue_all ?l ?t] => destruct (enqueue_all_fields l t) as (H1 & H2 & H3 & H4 & _) end.
  rewrite H1, H2, H3, H4. simpl. repeat split.
Qed.

Lemma ext_mark_live : forall v s, Live P v -> ext s (mark_live_prop v s).
Proof.
  intros v s HL. destruct (live s v) eqn:Hv.
  - unfold mark_live_prop. rewrite Hv. apply ext_refl.
  - destruct (mark_live_fields v s Hv) as (Hl & Hw & Hd & He).
    constructor; try rewrite Hl; try rewrite Hd; try rewrite Hw; auto.
    + intros x Hx. unfold upd. destruct (Nat.eqb x v); auto.
    + intros x Hx Hx'. unfold upd in Hx'. destruct (Nat.eqb x v) eqn:E; [|congruence].
      apply Nat.eqb_eq in E. subst; assumption.
    + intros it H. apply in_or_app; auto.
    + intros x it Hx Hx' Hin. unfold upd in Hx'. destruct (Nat.eqb x v) eqn:E; [|congruence].
      apply Nat.eqb_eq in E. subst x. apply in_or_app; auto.
    + unfold wf. rewrite Hd. auto.
    + intros Hwf. unfold pot. rewrite Hw, app_length.
      pose proof (dead_results_flip s (mark_live_prop v s) v Hv Hl).
      pose proof (deps_bound s v Hwf). lia.
    + (* the flip of v is logged, and v was not live *)
      intros [H1 H2]. unfold mark_live_prop. rewrite Hv. apply once_enqueue_all. split; simpl.
      * constructor; [|exact H1]. intros Hin. apply H2 in Hin. congruence.
      * intros x. unfold upd. destruct (Nat.eqb x v) eqn:E.
        -- apply Nat.eqb_eq in E. subst x. split; auto.
        -- rewrite <- H2. split; [intros [Hx|Hx]; [subst; rewrite Nat.eqb_refl in E; discriminate | exact Hx] | auto].
Qed.

Lemma mark_live_sets : forall v s, live (mark_live_prop v s) v = true.
Proof.
  intros v s. destruct (live s v) eqn:Hv.
  - unfold mark_live_prop. rewrite Hv. exact Hv.
  - destruct (mark_live_fields v s Hv) as (Hl & _). rewrite Hl. unfold upd. rewrite Nat.eqb_refl. reflexivity.
Qed.

Lemma mark_live_mono : forall v s r, live s r = true -> live (mark_live_prop v s) r = true.
Proof.
  intros v s r Hr. destruct (live s v) eqn:Hv.
  - unfold mark_live_prop. rewrite Hv. exact Hr.
  - destruct (mark_live_fields v s Hv) as (Hl & _). rewrite Hl. unfold upd. destruct (Nat.eqb r v); auto.
Qed.

Lemma fold_mark_spec : forall l s, (forall v, In v l -> Live P v) ->
  let s' := fold_left (fun s v => mark_live_prop v s) l s in
  ext s s' /\ forall v, In v l -> live s' v = true.
Proof.
  induction l as [|a l IH]; intros s H; simpl; [split; [apply ext_refl | intros v []]|].
  destruct (IH (mark_live_prop a s)) as [He Ha]; [intros; apply H; right; assumption|]. split.
  - eapply ext_trans; [apply ext_mark_live, H; left; reflexivity | exact He].
  - intros v [<-|Hv]; [apply (e_live _ _ He), mark_live_sets | apply Ha, Hv].
Qed.

Lemma fold_meet_mark : forall r l s, live s r = true ->
  fold_left (fun s v => meet_prop v r s) l s = fold_left (fun s v => mark_live_prop v s) l s.
Proof.
  intros r; induction l as [|a l IH]; intros s Hr; simpl; [reflexivity|].
  unfold meet_prop at 2. rewrite Hr. apply IH, mark_live_mono, Hr.
Qed.

(* op number i needs no further visit: its transfer function is satisfied (operands of a non-removable op and of an
   op with a live result are live) and it is registered with every result that may still flip *)
Definition settled (o : op) (i : nat) (s : state) : Prop :=
  (removable o = false -> forall v, In v (operands o) -> live s v = true)
  /\ (forall r, In r (results o) -> live s r = true -> forall v, In v (operands o) -> live s v = true)
  /\ (forall r, In r (results o) -> live s r = false -> In (i, LIV) (deps s r)).

Lemma impl_spec : forall o i s, In o P -> sound s ->
  ext s (visit_operation_impl o s) /\
  ((forall r, In r (results o) -> In (i, LIV) (deps s r)) -> settled o i (visit_operation_impl o s)).
Proof.
  intros o i s Ho Hs. unfold visit_operation_impl.
  set (s1 := if removable o then s else fold_left (fun s v => mark_live_prop v s) (operands o) s).
  assert (H1 : ext s s1 /\ (removable o = false -> forall v, In v (operands o) -> live s1 v = true)).
  { unfold s1. destruct (removable o) eqn:Er; [split; [apply ext_refl | discriminate]|].
    destruct (fold_mark_spec (operands o) s) as [He Ha]; [|split; auto].
    intros v Hv. eapply Live_root; eassumption. }
  destruct H1 as [H1 Hroot].
  destruct (find (fun r => live s1 r) (results o)) as [r0|] eqn:Ef.
  - apply find_some in Ef. destruct Ef as [Hr0 Hl0]. rewrite (fold_meet_mark r0 _ s1 Hl0).
    destruct (fold_mark_spec (operands o) s1) as [H2 Hall].
    { intros v Hv. apply (Live_step P o r0 v Ho Hr0); [|exact Hv]. apply (ext_sound _ _ H1 Hs), Hl0. }
    assert (He : ext s (fold_left (fun s v => mark_live_prop v s) (operands o) s1))
      by (eapply ext_trans; eassumption).
    split; [exact He|]. intros Hreg. split; [|split].
    + intros _ v Hv. apply Hall, Hv.
    + intros r _ _ v Hv. apply Hall, Hv.
    + intros r Hr _. apply (e_deps _ _ He), Hreg, Hr.
  - split; [exact H1|]. intros Hreg. split; [exact Hroot|split].
    + intros r Hr Hlr. exfalso. pose proof (find_none _ _ Ef r Hr) as Hn. simpl in Hn. congruence.
    + intros r Hr _. apply (e_deps _ _ H1), Hreg, Hr.
Qed.

Lemma fold_create_same : forall l s,
  let s' := fold_left (fun s v => lat_create v s) l s in
  live s' = live s /\ deps s' = deps s /\ wl s' = wl s /\ ex_live s' = ex_live s /\ log s' = log s.
Proof.
  induction l as [|a l IH]; intros s; simpl; [repeat split|].
  destruct (IH (lat_create a s)) as (H1 & H2 & H3 & H4 & H5). rewrite H1, H2, H3, H4, H5. repeat split.
Qed.

Lemma ext_create_dep : forall i o r s, nth_error P i = Some o -> In r (results o) ->
  ext s (lat_create_dep (i, LIV) r s).
Proof.
  intros i o r s Hn Hr.
  assert (Hd : forall v it, In it (deps (lat_create_dep (i, LIV) r s) v) ->
               In it (deps s v) \/ (v = r /\ it = (i, LIV))).
  { intros v it. unfold lat_create_dep, lat_create. simpl. unfold upd at 1.
    destruct (Nat.eqb v r) eqn:E; [|auto].
    apply Nat.eqb_eq in E. subst v. intros H. apply set_add_in in H. destruct H; auto. }
  constructor; simpl; auto.
  - intros; congruence.
  - intros v it H. unfold upd. destruct (Nat.eqb v r) eqn:E; [|assumption].
    apply Nat.eqb_eq in E. subst v. apply set_add_incl, H.
  - intros; congruence.
  - intros [Hval Hnd]. split.
    + intros v it H. destruct (Hd v it H) as [H'|[-> ->]]; [apply Hval, H'|].
      exists i, o. auto.
    + intros v. unfold lat_create_dep, lat_create. simpl. unfold upd.
      destruct (Nat.eqb v r); [apply set_add_nodup|]; apply Hnd.
Qed.

Lemma fold_create_dep_spec : forall i o l s, nth_error P i = Some o -> incl l (results o) ->
  let s' := fold_left (fun s r => lat_create_dep (i, LIV) r s) l s in
  ext s s' /\ forall r, In r l -> In (i, LIV) (deps s' r).
Proof.
  intros i o; induction l as [|a l IH]; intros s Hn Hin; simpl; [split; [apply ext_refl | intros r []]|].
  destruct (IH (lat_create_dep (i, LIV) a s) Hn) as [He Hr]; [intros x Hx; apply Hin; right; assumption|].
  split.
  - eapply ext_trans; [eapply ext_create_dep; [eassumption | apply Hin; left; reflexivity] | exact He].
  - intros r [<-|Hr']; [|apply Hr, Hr']. apply (e_deps _ _ He).
    unfold lat_create_dep, lat_create. simpl. unfold upd. rewrite Nat.eqb_refl. apply set_add_self.
Qed.

Lemma visit_operation_spec : forall i o s, nth_error P i = Some o -> sound s ->
  ext s (visit_operation i o s) /\
  (ex_live s = true -> operands o <> [] -> settled o i (visit_operation i o s)).
Proof.
  intros i o s Hn Hs. unfold visit_operation.
  destruct (operands o) eqn:Eo; [split; [apply ext_refl | congruence]|]. rewrite <- Eo. clear Eo.
  assert (H0 : ext s (ex_get_or_create s)) by (apply ext_same; reflexivity).
  change (ex_live (ex_get_or_create s)) with (ex_live s).
  destruct (ex_live s); simpl negb; cbv iota; [|split; [exact H0 | discriminate]].
  set (sa := fold_left (fun s v => lat_create v s) (operands o) (ex_get_or_create s)).
  assert (Ha : ext (ex_get_or_create s) sa).
  { destruct (fold_create_same (operands o) (ex_get_or_create s)) as (H1 & H2 & H3 & H4 & H5).
    unfold sa. apply ext_same; try assumption. rewrite H5. reflexivity. }
  destruct (fold_create_dep_spec i o (results o) sa Hn (incl_refl _)) as [Hb Hreg].
  set (sb := fold_left (fun s r => lat_create_dep (i, LIV) r s) (results o) sa) in *.
  assert (Hsb : ext s sb) by (eapply ext_trans; [exact H0 | eapply ext_trans; eassumption]).
  destruct (impl_spec o i sb (nth_error_In _ _ Hn) (ext_sound _ _ Hsb Hs)) as [He Hst].
  split; [eapply ext_trans; eassumption | intros _ _; apply Hst, Hreg].
Qed.

Lemma visit_ext : forall it s, sound s -> ext s (visit P it s).
Proof.
  intros [i a] s Hs. unfold visit. simpl fst; simpl snd.
  assert (H0 : ext s (add_log (EVisit a i) s)) by (apply ext_same; reflexivity).
  assert (Hs0 : sound (add_log (EVisit a i) s)) by (eapply ext_sound; eassumption).
  destruct (nth_error P i) as [o|] eqn:Hn; [|exact H0].
  destruct a.
  - eapply ext_trans; [exact H0|]. unfold dca_visit.
    match goal with |- context [if ?c then _ else _] => destruct c end; apply ext_same; reflexivity.
  - eapply ext_trans; [exact H0|]. apply visit_operation_spec; assumption.
Qed.

Lemma visit_settles : forall i o s, nth_error P i = Some o -> sound s -> ex_live s = true ->
  operands o <> [] -> settled o i (visit P (i, LIV) s).
Proof.
  intros i o s Hn Hs Hex Hne. unfold visit. simpl fst; simpl snd. rewrite Hn.
  apply visit_operation_spec; auto.
Qed.

Definition pending (i : nat) (s : state) : Prop := In (i, LIV) (wl s).
(* every op with operands among those selected by S is on the worklist or settled *)
Definition handled (S : nat -> Prop) (s : state) : Prop :=
  forall i o, S i -> nth_error P i = Some o -> operands o <> [] -> pending i s \/ settled o i s.

Lemma handled_ext : forall S s s', ext s s' -> handled S s -> handled S s'.
Proof.
  intros S s s' He Hh i o HS Hn Hne. destruct (Hh i o HS Hn Hne) as [Hp|(H1 & H2 & H3)].
  - left. apply (e_wl _ _ He), Hp.
  - destruct (existsb (fun r => negb (live s r) && live s' r) (results o)) eqn:Ex.
    + left. apply existsb_exists in Ex. destruct Ex as [r [Hr Hb]].
      apply andb_true_iff in Hb. destruct Hb as [Hb1 Hb2]. apply negb_true_iff in Hb1.
      apply (e_flip _ _ He r); auto.
    + right. split; [|split].
      * intros Er v Hv. apply (e_live _ _ He), H1; assumption.
      * intros r Hr Hlr v Hv. apply (e_live _ _ He).
        destruct (live s r) eqn:Es; [apply (H2 r); assumption|].
        exfalso. assert (Ht : existsb (fun r => negb (live s r) && live s' r) (results o) = true).
        { apply existsb_exists. exists r. split; [assumption|]. rewrite Es, Hlr. reflexivity. }
        congruence.
      * intros r Hr Hlr. apply (e_deps _ _ He), H3; [assumption|].
        destruct (live s r) eqn:Es; [|reflexivity]. rewrite (e_live _ _ He r Es) in Hlr. discriminate.
Qed.

(* the solver invariant: the block is executable, dependency lists are well-formed, only Live values are marked,
   and the ops selected by S are handled *)
Definition good (S : nat -> Prop) (s : state) : Prop :=
  ex_live s = true /\ wf s /\ sound s /\ handled S s.

Lemma good_ext : forall (S : nat -> Prop) s s',
  ext s s' -> ex_live s = true -> wf s -> sound s -> handled S s' -> good S s'.
Proof.
  intros S s s' He Hex Hwf Hs Hh. split; [rewrite (e_ex _ _ He); exact Hex|].
  split; [apply (e_wf _ _ He Hwf)|]. split; [eapply ext_sound; eassumption | exact Hh].
Qed.

Lemma good_visit : forall S i s, good S s -> good (fun j => S j \/ j = i) (visit P (i, LIV) s)
                                 /\ pot (visit P (i, LIV) s) <= pot s.
Proof.
  intros S i s (Hex & Hwf & Hs & Hh). pose proof (visit_ext (i, LIV) s Hs) as He.
  split; [|apply (e_pot _ _ He Hwf)]. apply (good_ext _ s _ He Hex Hwf Hs).
  intros j o [HS| ->] Hn Hne.
  - apply (handled_ext S s _ He Hh j o HS Hn Hne).
  - right. apply visit_settles; assumption.
Qed.

Lemma good_mono : forall (S S' : nat -> Prop) s,
  (forall i, i < length P -> S' i -> S i) -> good S s -> good S' s.
Proof.
  intros S S' s HS (H1 & H2 & H3 & H4). split; [|split; [|split]]; auto.
  intros i o Hi Hn Hne. apply H4; auto. apply HS; [apply nth_error_Some; congruence | exact Hi].
Qed.

Lemma good_fold_visit : forall L S s, good S s ->
  good (fun j => S j \/ In j L) (fold_left (fun s i => visit P (i, LIV) s) L s)
  /\ pot (fold_left (fun s i => visit P (i, LIV) s) L s) <= pot s.
Proof.
  induction L as [|a L IH]; intros S s Hg; simpl.
  - split; [|lia]. apply (good_mono S); [|exact Hg]. intros i _ [HS|[]]. exact HS.
  - destruct (good_visit S a s Hg) as [Hg1 Hp1]. destruct (IH _ _ Hg1) as [Hg2 Hp2]. split; [|lia].
    eapply good_mono; [|exact Hg2]. intros i _ [HS|[HS|HS]]; auto.
Qed.

Lemma good_step : forall s j d, good (fun _ => True) s -> j < length (wl s) ->
  let s' := visit P (nth j (wl s) d) (set_wl (remove_nth j (wl s)) s) in
  good (fun _ => True) s' /\ S (pot s') <= pot s.
Proof.
  intros s j d (Hex & Hwf & Hs & Hh) Hj. cbv zeta.
  set (it := nth j (wl s) d). set (sp := set_wl (remove_nth j (wl s)) s).
  assert (Hsp : sound sp) by exact Hs.
  assert (Hwfp : wf sp) by exact Hwf.
  pose proof (visit_ext it sp Hsp) as He.
  assert (Hpot : S (pot sp) = pot s).
  { unfold pot, sp. simpl. unfold dead_results, cnt. simpl.
    pose proof (remove_nth_length j (wl s) Hj). lia. }
  split; [|pose proof (e_pot _ _ He Hwfp); lia].
  apply (good_ext _ sp _ He Hex Hwfp Hsp).
  intros i o _ Hn Hne.
  destruct (item_eqb (i, LIV) it) eqn:Eit.
  - apply item_eqb_eq in Eit. right. rewrite <- Eit. apply visit_settles; assumption.
  - assert (Hne' : (i, LIV) <> it) by (intros Heq; apply item_eqb_eq in Heq; congruence).
    assert (Hhp : handled (fun i' => (i', LIV) <> it) sp).
    { intros i' o' HS Hn' Hne''. destruct (Hh i' o' I Hn' Hne'') as [Hp|Hst]; [left|right; exact Hst].
      unfold pending, sp. simpl. apply remove_nth_keep with (d := d); [exact Hp | exact HS]. }
    apply (handled_ext _ sp _ He Hhp i o Hne' Hn Hne).
Qed.

Definition all : nat -> Prop := fun _ => True.

Lemma nth_error_lt : forall i o, nth_error P i = Some o -> i < length P.
Proof. intros i o H. apply nth_error_Some. congruence. Qed.

Lemma dead_results_none_live : forall s, live s = (fun _ => false) ->
  dead_results s = length (flat_map results P).
Proof.
  intros s Hl. rewrite <- sum_res_flat. unfold dead_results. f_equal. apply map_ext. intros i.
  unfold cnt, res. rewrite Hl. simpl.
  induction (match nth_error P i with Some o => results o | None => [] end) as [|a l IH]; simpl; congruence.
Qed.

Lemma good_fresh : forall (S : nat -> Prop) s, (forall i, S i -> i < length P -> pending i s) ->
  live s = (fun _ => false) -> deps s = (fun _ => []) -> ex_live s = true -> good S s.
Proof.
  intros S s Hp Hl Hd He. split; [exact He|]. split; [|split].
  - split; intros v; rewrite Hd; [intros it []|constructor].
  - intros v. rewrite Hl. discriminate.
  - intros i o HS Hn _. left. apply Hp; [exact HS | eapply nth_error_lt; eassumption].
Qed.

(* load order [DeadCodeAnalysis; LivenessAnalysis] *)
Lemma init_dca_first : good all (initialize P DcaFirst) /\ pot (initialize P DcaFirst) <= fuel_bound P.
Proof.
  unfold initialize, liv_initialize.
  match goal with |- context [fold_left _ _ ?t] => set (s1 := t) end.
  assert (H : live s1 = (fun _ => false) /\ deps s1 = (fun _ => []) /\ ex_live s1 = true /\ wl s1 = []).
  { unfold s1, dca_initialize, exec_on_update. simpl. destruct (negb (Nat.eqb (length P) 0)); auto. }
  destruct H as (Hl & Hd & He & Hw).
  assert (Hg : good (fun _ => False) s1) by (apply good_fresh; auto; intros i []).
  destruct (good_fold_visit (rev (seq 0 (length P))) _ s1 Hg) as [Hg' Hp]. split.
  - eapply good_mono; [|exact Hg']. intros i Hi _. right. apply -> in_rev. apply in_seq. lia.
  - eapply Nat.le_trans; [exact Hp|]. unfold pot, fuel_bound.
    rewrite Hw, (dead_results_none_live s1 Hl). simpl. lia.
Qed.

(* load order [LivenessAnalysis; DeadCodeAnalysis]: the initial visits all stop at the Executable gate and leave the
   state quiet: nothing has happened except that LivenessAnalysis subscribed to the block *)
Definition quiet (s : state) : Prop :=
  wl s = [] /\ live s = (fun _ => false) /\ deps s = (fun _ => []) /\ ex_live s = false
  /\ ex_deps s = [] /\ ex_subs s = [LIV].

Lemma visit_quiet : forall i s, quiet s -> quiet (visit P (i, LIV) s).
Proof.
  intros i s (H1 & H2 & H3 & H4 & H5 & H6). unfold visit. simpl fst; simpl snd.
  destruct (nth_error P i) as [o|]; [|repeat split; assumption].
  unfold visit_operation. destruct (operands o); [repeat split; assumption|].
  simpl. rewrite H4. simpl. repeat split; assumption.
Qed.

Lemma fold_visit_quiet : forall L s, quiet s -> quiet (fold_left (fun s i => visit P (i, LIV) s) L s).
Proof. induction L as [|a L IH]; intros s H; simpl; [exact H | apply IH, visit_quiet, H]. Qed.

Lemma exec_on_update_liv : forall s, ex_live s = true -> ex_deps s = [] -> ex_subs s = [LIV] ->
  live (exec_on_update P s) = live s /\ deps (exec_on_update P s) = deps s
  /\ ex_live (exec_on_update P s) = true
  /\ wl (exec_on_update P s) = wl s ++ map (fun i => (i, LIV)) (seq 0 (length P)).
Proof.
  intros s He Hd Hs. unfold exec_on_update. rewrite Hd. cbv zeta.
  change (enqueue_all [] s) with s. rewrite He, Hs. simpl.
  destruct (Nat.eqb (length P) 0) eqn:E; simpl.
  - apply Nat.eqb_eq in E. rewrite E. simpl. rewrite app_nil_r. auto.
  - destruct (enqueue_all_fields (map (fun i => (i, LIV)) (seq 0 (length P))) s) as (H1 & H2 & H3 & H4 & _).
    rewrite H1, H2, H3, H4. auto.
Qed.

Lemma dca_initialize_unfold : forall s, ex_live s = false ->
  dca_initialize P s =
  exec_on_update P (add_log EExec (set_ex (ex_created (ex_get_or_create s)) true (ex_deps (ex_get_or_create s))
                                          (ex_subs (ex_get_or_create s)) (ex_get_or_create s))).
Proof.
  intros s H. unfold dca_initialize. cbv zeta. change (ex_live (ex_get_or_create s)) with (ex_live s).
  rewrite H. reflexivity.
Qed.

Lemma init_liv_first : good all (initialize P LivFirst) /\ pot (initialize P LivFirst) <= fuel_bound P.
Proof.
  unfold initialize.
  assert (Hq : quiet (liv_initialize P init0)).
  { unfold liv_initialize. apply fold_visit_quiet. repeat split. }
  destruct Hq as (H1 & H2 & H3 & H4 & H5 & H6).
  set (s1 := liv_initialize P init0) in *.
  rewrite (dca_initialize_unfold s1 H4).
  match goal with |- context [exec_on_update P ?t] => set (s0 := t) end.
  destruct (exec_on_update_liv s0) as (Hl & Hd & He & Hw); [reflexivity | exact H5 | exact H6 |].
  change (live s0) with (live s1) in Hl. change (deps s0) with (deps s1) in Hd.
  change (wl s0) with (wl s1) in Hw. rewrite H1, app_nil_l in Hw. rewrite H2 in Hl. rewrite H3 in Hd.
  split.
  - apply good_fresh; auto. intros i _ Hi. unfold pending. rewrite Hw.
    apply in_map_iff. exists i. split; [reflexivity | apply in_seq; lia].
  - unfold pot, fuel_bound. rewrite Hw, (dead_results_none_live _ Hl), map_length, seq_length. lia.
Qed.

Lemma init_good : forall ord, good all (initialize P ord) /\ pot (initialize P ord) <= fuel_bound P.
Proof. intros []; [apply init_dca_first | apply init_liv_first]. Qed.

Lemma run_spec : forall fuel choose k s, good all s ->
  (forall s', run P fuel choose k s = Some s' -> good all s' /\ wl s' = [] /\ (once s -> once s')) /\
  (pot s <= fuel -> exists s', run P fuel choose k s = Some s').
Proof.
  induction fuel as [|f IH]; intros choose k s Hg; cbn [run]; destruct (wl s) as [|it0 w] eqn:Ew.
  1,3: (split; [intros s' Hr; inversion Hr; subst; auto | intros _; eexists; reflexivity]).
  - split; [discriminate|]. intros Hp. unfold pot in Hp. rewrite Ew in Hp. simpl in Hp. lia.
  - set (j := Nat.modulo (choose k (it0 :: w)) (length (it0 :: w))) in *.
    assert (Hj : j < length (wl s)).
    { rewrite Ew. unfold j. apply Nat.mod_upper_bound. simpl. discriminate. }
    pose proof (good_step s j it0 Hg Hj) as [Hg' Hp']. rewrite Ew in Hg', Hp'.
    destruct (IH choose (S k) _ Hg') as [A B]. split; [|intros Hp; apply B; lia].
    intros s' Hr. destruct (A s' Hr) as (G & W & O). split; [exact G|]. split; [exact W|].
    intro H. apply O. pose proof Hg as (_ & _ & Hs & _).
    apply (e_once _ _ (visit_ext (nth j (it0 :: w) it0) (set_wl (remove_nth j (it0 :: w)) s) Hs)), H.
Qed.

Lemma final_complete : forall s, good all s -> wl s = [] -> forall v, Live P v -> live s v = true.
Proof.
  intros s (_ & _ & _ & Hh) Hw v HL. induction HL as [o v Ho Hr Hv | o r v Ho Hr HLr IH Hv].
  - destruct (In_nth_error _ _ Ho) as [i Hi].
    assert (Hne : operands o <> []) by (intros E; rewrite E in Hv; contradiction).
    destruct (Hh i o I Hi Hne) as [Hp|(H1 & _)]; [unfold pending in Hp; rewrite Hw in Hp; contradiction|].
    apply H1; assumption.
  - destruct (In_nth_error _ _ Ho) as [i Hi].
    assert (Hne : operands o <> []) by (intros E; rewrite E in Hv; contradiction).
    destruct (Hh i o I Hi Hne) as [Hp|(_ & H2 & _)]; [unfold pending in Hp; rewrite Hw in Hp; contradiction|].
    apply (H2 r); assumption.
Qed.

Theorem solve_terminates : forall ord choose, exists s, solve P ord choose = Some s /\ wl s = [].
Proof.
  intros ord choose. destruct (init_good ord) as [Hg Hp].
  destruct (run_spec (fuel_bound P) choose 0 _ Hg) as [A B]. destruct (B Hp) as [s Hs].
  exists s. split; [exact Hs | apply (A s Hs)].
Qed.

Theorem run_sound_complete : forall ord choose fuel s,
  run P fuel choose 0 (initialize P ord) = Some s -> forall v, live s v = true <-> Live P v.
Proof.
  intros ord choose fuel s Hr v. destruct (init_good ord) as [Hg _].
  destruct (proj1 (run_spec fuel choose 0 _ Hg) s Hr) as (Hg' & Hw & _). split.
  - destruct Hg' as (_ & _ & Hs & _). apply Hs.
  - apply final_complete; assumption.
Qed.

Theorem solve_sound_complete : forall ord choose s,
  solve P ord choose = Some s -> forall v, live s v = true <-> Live P v.
Proof. intros ord choose s H. eapply run_sound_complete; exact H. Qed.

Theorem solve_schedule_independent : forall ord1 ord2 choose1 choose2 s1 s2,
  solve P ord1 choose1 = Some s1 -> solve P ord2 choose2 = Some s2 -> forall v, live s1 v = live s2 v.
Proof.
  intros ord1 ord2 c1 c2 s1 s2 H1 H2 v.
  pose proof (solve_sound_complete _ _ _ H1 v) as E1. pose proof (solve_sound_complete _ _ _ H2 v) as E2.
  destruct (live s1 v), (live s2 v); try reflexivity; exfalso.
  - assert (false = true) by (apply E2, E1; reflexivity). discriminate.
  - assert (false = true) by (apply E1, E2; reflexivity). discriminate.
Qed.

Lemma once_fold : forall {A} (f : state -> A -> state) l s,
  (forall s a, once s -> once (f s a)) -> once s -> once (fold_left f l s).
Proof. intros A f l; induction l as [|a l IH]; intros s Hf H; simpl; [exact H | apply IH; auto]. Qed.

Lemma once_exec_on_update : forall s, once s -> once (exec_on_update P s).
Proof.
  intros s H. unfold exec_on_update. cbv zeta.
  match goal with |- context [if ?c then _ else _] => destruct c end; [|apply once_enqueue_all, H].
  apply once_fold; [intros; apply once_enqueue_all; assumption | apply once_enqueue_all, H].
Qed.

Lemma once_dca_initialize : forall s, once s -> once (dca_initialize P s).
Proof.
  intros s H. unfold dca_initialize. cbv zeta.
  assert (H0 : once (ex_get_or_create s)) by (eapply once_eq; [| |exact H]; reflexivity).
  destruct (ex_live (ex_get_or_create s)); [exact H0|].
  apply once_exec_on_update. eapply once_eq; [| |exact H0]; reflexivity.
Qed.

Lemma fold_visit_once : forall L s, sound s -> once s -> once (fold_left (fun s i => visit P (i, LIV) s) L s).
Proof.
  induction L as [|a L IH]; intros s Hs H; simpl; [exact H|].
  pose proof (visit_ext (a, LIV) s Hs) as He. apply IH; [eapply ext_sound; eassumption | apply (e_once _ _ He), H].
Qed.

Lemma once_liv_initialize : forall s, sound s -> once s -> once (liv_initialize P s).
Proof.
  intros s Hs H. unfold liv_initialize. cbv zeta. apply fold_visit_once; [exact Hs|].
  eapply once_eq; [| |exact H]; reflexivity.
Qed.

Lemma once_initialize : forall ord, once (initialize P ord).
Proof.
  assert (H0 : once init0) by (split; [constructor | intros v; simpl; split; [intros [] | discriminate]]).
  intros []; unfold initialize.
  - apply once_liv_initialize; [|apply once_dca_initialize, H0].
    intros v. unfold dca_initialize, exec_on_update. simpl. destruct (negb (Nat.eqb (length P) 0)); discriminate.
  - apply once_dca_initialize, once_liv_initialize; [discriminate | exact H0].
Qed.

Theorem solve_flips_once : forall ord choose s, solve P ord choose = Some s ->
  NoDup (flips (log s)) /\ forall v, In v (flips (log s)) <-> live s v = true.
Proof.
  intros ord choose s Hs. destruct (init_good ord) as [Hg _].
  apply (proj1 (run_spec _ choose 0 _ Hg) s Hs), once_initialize.
Qed.

End Program.
