(* Props/C18.v -- property C18: pass pipeline specifications round-trip through text.
   The theorem statements closed by `exact`; the Examples at the end are concrete witnesses, by evaluation.
   Model: C18/Model.v = xdsl/utils/arg_spec.py and PassPipeline.parse_spec of a tree that contains the
   commits 433c5e1 (string escaping, \HH escapes), fdc8560 (exponent floats printed with a `.`, inf/-inf/nan
   accepted for float-typed options), c048b77 (string-literal errors are ArgSpecParseError); the printer and
   the conversion of the tree without them are kept as print_value_old / convert_arg_old.
   Floats are an abstract type F with the CPython oracles fparse = float(text), fstr = str(x), feq,
   ifeq, universally quantified here; `value_ok` assumes float(printed text) = x for the floats that occur.
   Specs (C18/ProofsLex.v, ProofsParse.v, ProofsPass.v, ProofsTotal.v, ProofsWitness.v):
     name_okb t     the text is identifier characters and lexes as ONE IDENT token
     value_ok v     bool: always; int: at most 4300 decimal digits; str: ANY characters except a lone
                    surrogate (str_okb); float f: the printed text float_text (str f) is matched
                    entirely by the NUMBER regex, contains `.`, and float(text) = f.  These are
                    ASSUMPTIONS about the oracles fstr / fparse: no theorem says which floats meet them
                    (CPython's inf, -inf, nan do not: their text has no `.`; see
                    C18_roundtrip_refuted_non_finite)
     spec_ok sp     pass name and option names name_okb, option names distinct, all values value_ok
     conv_ok v t    v has field type t and is not an empty tuple of a Union type / a 1-tuple whose
                    element alone has type t (both print like another value)
     class_ok c     class name name_okb; every field name name_okb and WITHOUT `-` (field_name_ok: option
                    names are Python identifiers; `-` would be normalised to `_`); field names distinct
     vals_ok fs vs  field by field: conv_ok for the field type, and every value printed is value_ok
     inst_ok reg cv class_ok, vals_ok, and the registry finds this class under its name
     spec_names_ok  only the names of a spec are constrained (the hypothesis the refutations are stated with)
     rt_equal       field by field: the same value, or the default when value == default
     acceptable e   ArgSpecParseError | ValueError (int literal of more than 4300 digits); i.e. NOT
                    reading past EOF / assertion / out of fuel, and no other exception kind *)
From Coq Require Import ZArith List Bool.
From XV Require Import C18.Model C18.ProofsLex C18.ProofsParse C18.ProofsTotal C18.ProofsPass C18.ProofsWitness.
Import ListNotations.
Local Open Scope Z_scope.

(* lexer: the fuel suffices, the stream ends once (EOF or the lexical error), tokens partition the input *)
Theorem C18_lex_total : forall s, well_terminated (lex s).
Proof. exact lex_well_terminated. Qed.
Print Assumptions C18_lex_total.

Theorem C18_lex_partition : forall s, last (lex s) TEOF = TEOF -> toks_text (lex s) = s.
Proof. exact (fun s => lexed_partition s (lex s) (lexed_lex s)). Qed.
Print Assumptions C18_lex_partition.

(* round trip of one ArgSpec and of a pipeline, for every printable spec *)
Theorem C18_spec_roundtrip : forall F (fparse : str -> F) (fstr : F -> str) (sp : spec F),
  spec_ok F fparse fstr sp -> parse_pipeline F fparse (print_spec F fstr sp) = Ok [sp].
Proof. exact spec_roundtrip. Qed.
Print Assumptions C18_spec_roundtrip.

Theorem C18_pipeline_roundtrip : forall F (fparse : str -> F) (fstr : F -> str) (sps : list (spec F)),
  Forall (spec_ok F fparse fstr) sps -> parse_pipeline F fparse (print_pipeline F fstr sps) = Ok sps.
Proof. exact pipeline_roundtrip. Qed.
Print Assumptions C18_pipeline_roundtrip.

(* round trip of a pass: PassPipeline.parse_spec({c.name: c}, str(p.pipeline_pass_spec())) *)
Theorem C18_roundtrip : forall F (fparse : str -> F) (fstr : F -> str) (feq : F -> F -> bool)
    (ifeq : Z -> F -> bool) (c : pass_class F) (vals : list (pval F)),
  class_ok F c -> vals_ok F fparse fstr (cfields F c) vals ->
  exists vals',
    pipeline_from_text F fparse [c] (print_spec F fstr (pass_spec F feq ifeq c vals)) = Ok [(cname F c, vals')]
    /\ rt_equal F feq ifeq (cfields F c) vals vals'.
Proof. exact pass_roundtrip. Qed.
Print Assumptions C18_roundtrip.

(* a pipeline of passes: every position is instantiated from its own spec -- the same class
        may occur several times with different option values; position i of the result belongs to
        pass i of the input *)
Theorem C18_pass_pipeline_roundtrip : forall F (fparse : str -> F) (fstr : F -> str) (feq : F -> F -> bool)
    (ifeq : Z -> F -> bool) (reg : list (pass_class F)) (ps : list (pass_class F * list (pval F))),
  Forall (inst_ok F fparse fstr reg) ps ->
  exists out,
    pipeline_from_text F fparse reg (print_pipeline F fstr (map (inst_spec F feq ifeq) ps)) = Ok out
    /\ Forall2 (fun cv o => fst o = cname F (fst cv) /\ rt_equal F feq ifeq (cfields F (fst cv)) (snd cv) (snd o))
               ps out.
Proof. exact pass_pipeline_roundtrip. Qed.
Print Assumptions C18_pass_pipeline_roundtrip.

(* a non-finite float of a float-typed option: written inf/-inf/nan, read as that string, converted
   by float(...); the conversion without fdc8560 (convert_arg_old) raises ValueError *)
Theorem C18_convert_non_finite : forall F (fparse : str -> F) s, is_non_finite_text s = true ->
  convert_arg F fparse [VStr s] TyFloat = Ok (PScalar (VFloat (fparse s)))
  /\ convert_arg F fparse [VStr s] (TyUnion [TyFloat; TyNone]) = Ok (PScalar (VFloat (fparse s)))
  /\ convert_arg F fparse [VStr s] (TyTupleVar TyFloat) = Ok (PTuple [VFloat (fparse s)])
  /\ convert_arg_old F [VStr s] TyFloat = Err EValue.
Proof. exact convert_non_finite. Qed.
Print Assumptions C18_convert_non_finite.

(* what remains excluded is really excluded (the statement without value_ok / conv_ok is false) *)
Theorem C18_roundtrip_refuted : forall F (fparse : str -> F) (fstr : F -> str),
  exists sp : spec F, spec_names_ok sp /\ parse_pipeline F fparse (print_spec F fstr sp) <> Ok [sp].
Proof. exact roundtrip_refuted. Qed.
Print Assumptions C18_roundtrip_refuted.

Theorem C18_roundtrip_refuted_surrogate : forall F (fparse : str -> F) (fstr : F -> str),
  parse_pipeline F fparse (print_spec F fstr (one_option (VStr [55296]))) = Err EArgSpec.
Proof. exact surrogate_fails. Qed.
Print Assumptions C18_roundtrip_refuted_surrogate.

Theorem C18_roundtrip_refuted_non_finite : forall F (fparse : str -> F) (fstr : F -> str) f,
  fstr f = s_inf ->
  parse_pipeline F fparse (print_spec F fstr (one_option (VFloat f))) = Ok [one_option (VStr s_inf)].
Proof. exact non_finite_reads_as_string. Qed.
Print Assumptions C18_roundtrip_refuted_non_finite.

Theorem C18_convert_refuted_str_union : forall F (fparse : str -> F),
  convert_arg F fparse [VStr s_inf] (TyUnion [TyFloat; TyStr]) = Ok (PScalar (VStr s_inf)).
Proof. exact non_finite_in_str_union. Qed.
Print Assumptions C18_convert_refuted_str_union.

(* an empty tuple of `tuple[int, ...] | None` has the field type but converts back to None *)
Theorem C18_convert_refuted : forall F (fparse : str -> F), exists (t : ty) (v : pval F),
  (match v with PTuple l => isa_tuple F l t = true | _ => False end)
  /\ convert_arg F fparse (arg_list F v) t <> Ok v.
Proof. exact convert_refuted. Qed.
Print Assumptions C18_convert_refuted.

(* recorded refutations of the code before the fixes (known_findings.d/C18.json: fixed) *)
Theorem C18_print_old_refuted_quote : forall F (fparse : str -> F) (fstr : F -> str),
  parse_pipeline F fparse (print_spec_old F fstr (one_option (VStr [120; 34; 121]))) = Err EArgSpec.
Proof. exact old_quote_fails. Qed.
Print Assumptions C18_print_old_refuted_quote.

Theorem C18_print_old_refuted_backslash : forall F (fparse : str -> F) (fstr : F -> str),
  parse_pipeline F fparse (print_spec_old F fstr (one_option (VStr [98; 92; 115]))) = Err EArgSpec.
Proof. exact old_backslash_fails. Qed.
Print Assumptions C18_print_old_refuted_backslash.

Theorem C18_print_old_refuted_float_exp : forall F (fparse : str -> F) (fstr : F -> str) f,
  fstr f = t_1e22 ->
  parse_pipeline F fparse (print_spec_old F fstr (one_option (VFloat f))) = Err EArgSpec.
Proof. exact old_float_exp_fails. Qed.
Print Assumptions C18_print_old_refuted_float_exp.

Theorem C18_print_old_refuted_float_small : forall F (fparse : str -> F) (fstr : F -> str) f,
  fstr f = t_1em05 ->
  parse_pipeline F fparse (print_spec_old F fstr (one_option (VFloat f))) = Ok [one_option (VStr t_1em05)].
Proof. exact old_float_small_is_string. Qed.
Print Assumptions C18_print_old_refuted_float_small.

(* parsing any string: specs, the pipeline parse error, or the ValueError of an over-long int; never stuck *)
Theorem C18_parse_total : forall F (fparse : str -> F) (s : str),
  match parse_pipeline F fparse s with Ok _ => True | Err e => acceptable e end.
Proof. exact parse_total. Qed.
Print Assumptions C18_parse_total.

Theorem C18_parse_total_short : forall F (fparse : str -> F) (s : str),
  Z.of_nat (length s) <= max_str_digits ->
  match parse_pipeline F fparse s with Ok _ => True | Err e => e = EArgSpec end.
Proof. exact parse_total_short. Qed.
Print Assumptions C18_parse_total_short.

(* a spec with a string holding quote, backslash, \n, \r, \f, \v, tab, non-ASCII, and the floats
   1.5e+22 and 1e+22 is printable and parses back *)
Example C18_spec_ok_satisfiable :
  spec_ok str ex_fparse idf ex_spec
  /\ parse_pipeline str ex_fparse (print_spec str idf ex_spec) = Ok [ex_spec].
Proof. split; [exact ex_spec_ok|vm_compute; reflexivity]. Qed.
Print Assumptions C18_spec_ok_satisfiable.

Example C18_pass_ok_satisfiable :
  class_ok str ex_class /\ vals_ok str idf idf (cfields str ex_class) ex_vals
  /\ pipeline_from_text str idf [ex_class]
       (print_spec str idf (pass_spec str (fun a b => str_eqb a b) (fun _ _ => false) ex_class ex_vals))
     = Ok [([112], ex_vals)].
Proof. split; [exact (proj1 ex_class_ok)|split; [exact (proj2 ex_class_ok)|vm_compute; reflexivity]]. Qed.
Print Assumptions C18_pass_ok_satisfiable.

(* escapes: \r is the pipeline parse error (not xDSL's ParseError); \HH escapes decode as UTF-8; overlong forms are rejected;
   1e+22 is printed 1.0e+22 and parses back *)
Example C18_escape_witnesses : forall F (fparse : str -> F),
  parse_pipeline F fparse [112; 123; 97; 61; 34; 92; 114; 34; 125] = Err EArgSpec
  /\ parse_pipeline F fparse
       [112; 123; 97; 61; 34; 92; 99; 51; 92; 97; 57; 92; 101; 50; 92; 56; 50; 92; 97; 99; 92; 52; 49; 34; 125]
     = Ok [one_option (VStr [233; 8364; 65])]
  /\ parse_pipeline F fparse [112; 123; 97; 61; 34; 92; 99; 48; 92; 56; 48; 34; 125] = Err EArgSpec.
Proof.
  intros F fparse. split; [apply escape_r_is_argspec_error|split; [apply hex_escapes_decode_utf8|apply overlong_rejected]].
Qed.
Print Assumptions C18_escape_witnesses.

Example C18_float_exp_now_ok : forall F (fparse : str -> F) (fstr : F -> str) f,
  fstr f = t_1e22 -> fparse t_1_0e22 = f ->
  parse_pipeline F fparse (print_spec F fstr (one_option (VFloat f))) = Ok [one_option (VFloat f)].
Proof. exact new_float_exp_ok. Qed.
Print Assumptions C18_float_exp_now_ok.
