(* C01/ProofsSetSuccessors.v -- WF is preserved by the Operation.successors setter: the block side
   of `set_slots` (ProofsSetOperands.v). *)
From Coq Require Import ZArith List Bool PArith FMapPositive.
From XV Require Import C01.Model C01.Spec C01.ProofsFrame C01.ProofsUses C01.ProofsSetOperands.
Local Open Scope Z_scope.

Lemma set_successors_T3 : forall o new, preserves same_T3 (set_successors o new).
Proof. exact (set_slots_T3 false). Qed.
Lemma set_successors_I : forall o new, preserves same_I (set_successors o new).
Proof. exact (set_slots_I false). Qed.

Theorem set_successors_WF : forall s s' o new r,
  WF s -> op_live s o -> set_successors o new s = (s', Ok r) -> WF s'.
Proof. exact (set_slots_WF false). Qed.
