(* C02/ProofsWalk.v -- phase 1 yields the source renamed by the FINAL mappers, without operands (although
   successors are mapped while the block mapper is still growing); phase 2 (the zip of the two walks)
   installs the mapped operands when the walks are aligned.  Then consequences of the isomorphism
   (definitions and walks of the copy), the operand remap on walks that are NOT the copy's (empty list,
   blocks without operations, appended block lists), and the derived use lists. *)
From Coq Require Import List ZArith Bool Lia.
From XV Require Import C02.Model C02.ProofsBase.
Import ListNotations.
Local Open Scope Z_scope.

(* the block mapper of the moment agrees with the final one on every block visible now:
   blocks of enclosing regions (env) and blocks that are not cloned at all (outside D) *)
Definition agree (D env : list Z) (m : amap) (fb : Z -> Z) : Prop :=
  forall b, In b env \/ ~ In b D -> get m b = fb b.

(* What phase 1 started in state s on a part defining values lv and blocks lb needs to know of the
   candidate renamings fv, fb: they send lv, lb to the ids about to be allocated, fb agrees with the
   block mapper on what is visible now, and lb are blocks of the cloned part D, fresh and not yet visible. *)
Record hyp (D env : list Z) (fv fb : Z -> Z) (s : st) (lv lb : list Z) : Prop := {
  h_v : map fv lv = zseq (nval s) (length lv);
  h_b : map fb lb = zseq (nblk s) (length lb);
  h_agree : agree D env (bm s) fb;
  h_incl : incl lb D;
  h_disj : forall b, In b env -> ~ In b lb;
  h_nodup : NoDup lb }.

Lemma agree_regs : forall D env m fb l base,
  agree D env m fb -> incl l D -> (forall b, In b env -> ~ In b l) ->
  agree D env (regs l base ++ m) fb.
Proof.
  intros D env m fb l base Ha Hi Hd b Hb. rewrite get_regs_notin; [now apply Ha|].
  destruct Hb as [Hb|Hb]; [now apply Hd|]. intro Hin. apply Hb, Hi, Hin.
Qed.

Lemma hyp_split : forall D env fv fb s s1 lv1 lv2 lb1 lb2 io io',
  hyp D env fv fb s (lv1 ++ lv2) (lb1 ++ lb2) -> facts s s1 lv1 lb1 io io' ->
  hyp D env fv fb s lv1 lb1 /\ hyp D env fv fb s1 lv2 lb2.
Proof.
  intros D env fv fb s s1 lv1 lv2 lb1 lb2 io io' [Hv Hb Ha Hi Hd Hn] [[Fv Fm] [[Fb Fn] _]].
  apply map_zseq_split in Hv. apply map_zseq_split in Hb. destruct Hv as [Hv1 Hv2], Hb as [Hb1 Hb2].
  assert (Hi1 : incl lb1 D) by (intros x Hx; apply Hi, in_or_app; auto).
  assert (Hd1 : forall b, In b env -> ~ In b lb1) by (intros b Hb Hx; apply (Hd b Hb), in_or_app; auto).
  split; constructor; auto.
  - eapply NoDup_app_l; eauto.
  - now rewrite Fv.
  - now rewrite Fb.
  - rewrite Fn. now apply agree_regs.
  - intros x Hx; apply Hi, in_or_app; auto.
  - intros b Hb Hx; apply (Hd b Hb), in_or_app; auto.
  - eapply NoDup_app_r; eauto.
Qed.

(* entering a region: its blocks have just been registered and become visible *)
Lemma hyp_enter : forall D env fv fb s l lv lb base m0,
  bm s = regs l base ++ m0 -> NoDup l -> map fb l = zseq base (length l) ->
  (forall b, In b l -> ~ In b lb) ->
  hyp D env fv fb s lv lb -> hyp D (l ++ env) fv fb s lv lb.
Proof.
  intros D env fv fb s l lv lb base m0 Hm Hnd Hl Hdl [Hv Hb Ha Hi Hd Hn].
  constructor; auto.
  - intros b Hb'. destruct (in_dec Z.eq_dec b l) as [Hin|Hnin].
    + rewrite Hm. symmetry. eapply (map_eq_pointwise fb (get (regs l base ++ m0)) l); auto.
      now rewrite get_regs_map.
    + apply Ha. rewrite in_app_iff in Hb'. tauto.
  - intros b Hb'. rewrite in_app_iff in Hb'. destruct Hb'; auto.
Qed.

Lemma new_vals_iso : forall (fv : Z -> Z) (vs : list (Z * Z)) nv,
  map fv (map fst vs) = zseq nv (length (map fst vs)) ->
  map fst (combine (zseq nv (length vs)) (map snd vs)) = map fv (map fst vs) /\
  map snd (combine (zseq nv (length vs)) (map snd vs)) = map snd vs.
Proof.
  intros fv vs nv H. rewrite map_length in H.
  rewrite combine_fst, combine_snd by now rewrite zseq_length, map_length. auto.
Qed.

(* Phase 1 in one induction: what a run allocates and registers (needed of every sub-run, to move the
   hypothesis on fv/fb past it), and that its result is the source renamed by any fv/fb that agree with
   these registrations. *)
Lemma sh_spec :
  (forall x s s' y, sh_op s x = (s', y) ->
     facts s s' (dv_op x) (db_op x) (ido_op x) (ido_op y) /\
     forall fv fb D env, hyp D env fv fb s (dv_op x) (db_op x) -> scoped_op D env x -> iso_op false fv fb x y) /\
  (forall l s s' l', sh_ops s l = (s', l') ->
     facts s s' (dv_ops l) (db_ops l) (ido_ops l) (ido_ops l') /\
     forall fv fb D env, hyp D env fv fb s (dv_ops l) (db_ops l) -> scoped_ops D env l -> iso_ops false fv fb l l') /\
  (forall k s nb s' k', sh_block s k nb = (s', k') ->
     facts s s' (dv_block k) (dbi_block k) (ido_block k) (ido_block k') /\
     forall fv fb D env, nb = fb (bid_of k) -> hyp D env fv fb s (dv_block k) (dbi_block k) ->
       scoped_block D env k -> iso_block false fv fb k k') /\
  (forall r s ids s' r', sh_blocks s r ids = (s', r') -> length ids = length (bids r) ->
     facts s s' (dv_blocks r) (dbi_blocks r) (ido_blocks r) (ido_blocks r') /\
     forall fv fb D env, ids = map fb (bids r) -> hyp D env fv fb s (dv_blocks r) (dbi_blocks r) ->
       scoped_blocks D env r -> iso_blocks false fv fb r r') /\
  (forall g s s' g', sh_regions s g = (s', g') ->
     facts s s' (dv_regions g) (db_regions g) (ido_regions g) (ido_regions g') /\
     forall fv fb D env, hyp D env fv fb s (dv_regions g) (db_regions g) -> scoped_regions D env g ->
       iso_regions false fv fb g g').
Proof.
  apply ir_mutind.
  - intros i n os rs a ss g IHg s s' y H.
    cbn [sh_op] in H. rewrite alloc_vals_spec in H.
    destruct (sh_regions _ g) as [s2 g'] eqn:Eg. injection H as <- <-.
    destruct (IHg _ _ _ Eg) as [Fg Ig]. cbn [dv_op db_op ido_op].
    change (db_regions g) with ([] ++ db_regions g).
    change (i :: ido_regions g) with ([i] ++ ido_regions g).
    change (nop s :: ido_regions g') with ([nop s] ++ ido_regions g').
    split; [eapply facts_trans; [apply facts_op_head|exact Fg]|].
    intros fv fb D env Hh [Hss Hsc].
    destruct (hyp_split _ _ _ _ _ _ _ _ _ _ _ _ Hh (facts_op_head s i rs)) as [H1 H2].
    cbn [iso_op]. destruct (new_vals_iso fv rs (nval s) (h_v _ _ _ _ _ _ _ H1)) as [Hr1 Hr2].
    repeat split; auto.
    + apply map_ext_in. intros b Hb. apply (h_agree _ _ _ _ _ _ _ Hh). auto.
    + apply (Ig fv fb D env); assumption.
  - intros s s' l' H. cbn [sh_ops] in H. injection H as <- <-. split; [apply facts_refl|]. intros; exact I.
  - intros o IHo t IHt s s' l' H. cbn [sh_ops] in H.
    destruct (sh_op s o) as [s1 o'] eqn:Eo. destruct (sh_ops s1 t) as [s2 t'] eqn:Et.
    injection H as <- <-. destruct (IHo _ _ _ Eo) as [Fo Io]. destruct (IHt _ _ _ Et) as [Ft It].
    cbn [dv_ops db_ops ido_ops]. split; [eapply facts_trans; eassumption|].
    intros fv fb D env Hh [Hs1 Hs2].
    destruct (hyp_split _ _ _ _ _ _ _ _ _ _ _ _ Hh Fo) as [H1 H2].
    cbn [iso_ops]. split; [apply (Io fv fb D env)|apply (It fv fb D env)]; assumption.
  - intros b args body IHb s nb s' k' H. cbn [sh_block] in H. rewrite alloc_vals_spec in H.
    destruct (sh_ops _ body) as [s1 body'] eqn:Eb. injection H as <- <-.
    destruct (IHb _ _ _ Eb) as [Fb Ib]. cbn [dv_block dbi_block ido_block].
    change (db_ops body) with ([] ++ db_ops body).
    change (ido_ops body) with ([] ++ ido_ops body).
    change (ido_ops body') with ([] ++ ido_ops body').
    split; [eapply facts_trans; [apply facts_blk_head|exact Fb]|].
    intros fv fb D env Hnb Hh Hsc.
    destruct (hyp_split _ _ _ _ _ _ _ _ _ _ _ _ Hh (facts_blk_head s args)) as [H1 H2].
    cbn [iso_block]. destruct (new_vals_iso fv args (nval s) (h_v _ _ _ _ _ _ _ H1)) as [Hr1 Hr2].
    repeat split; auto. apply (Ib fv fb D env); assumption.
  - intros s ids s' r' H _. cbn [sh_blocks] in H. injection H as <- <-. split; [apply facts_refl|]. intros; exact I.
  - intros k IHk t IHt s ids s' r' H Hl. cbn [sh_blocks] in H.
    destruct ids as [|nb ids']; [discriminate Hl|].
    destruct (sh_block s k nb) as [s1 k'] eqn:Ek. destruct (sh_blocks s1 t ids') as [s2 t'] eqn:Et.
    injection H as <- <-. injection Hl as Hl.
    destruct (IHk _ _ _ _ Ek) as [Fk Ik]. destruct (IHt _ _ _ _ Et Hl) as [Ft It].
    cbn [dv_blocks dbi_blocks ido_blocks]. split; [eapply facts_trans; eassumption|].
    intros fv fb D env Hids Hh [Hs1 Hs2]. cbn [bids map] in Hids. injection Hids as Hnb Hids.
    destruct (hyp_split _ _ _ _ _ _ _ _ _ _ _ _ Hh Fk) as [H1 H2].
    cbn [iso_blocks]. split; [apply (Ik fv fb D env)|apply (It fv fb D env)]; assumption.
  - intros s s' g' H. cbn [sh_regions] in H. injection H as <- <-. split; [apply facts_refl|]. intros; exact I.
  - intros r IHr t IHt s s' g' H. cbn [sh_regions] in H. rewrite alloc_blks_spec in H.
    destruct (sh_blocks _ r _) as [s1 r'] eqn:Er. destruct (sh_regions s1 t) as [s2 t'] eqn:Et.
    injection H as <- <-.
    destruct (IHr _ _ _ _ Er) as [Fr Ir]; [now rewrite zseq_length|]. destruct (IHt _ _ _ Et) as [Ft It].
    cbn [dv_regions db_regions ido_regions]. split.
    + rewrite app_assoc. eapply facts_trans; [|exact Ft].
      change (dv_blocks r) with ([] ++ dv_blocks r).
      change (ido_blocks r) with ([] ++ ido_blocks r).
      change (ido_blocks r') with ([] ++ ido_blocks r').
      eapply facts_trans; [apply facts_reg_head|exact Fr].
    + intros fv fb D env Hh [Hs1 Hs2].
      change (dv_blocks r ++ dv_regions t) with ([] ++ dv_blocks r ++ dv_regions t) in Hh.
      destruct (hyp_split _ _ _ _ _ _ _ _ _ _ _ _ Hh (facts_reg_head s (bids r))) as [H1 H2].
      pose proof (h_nodup _ _ _ _ _ _ _ Hh) as Hnd.
      destruct (hyp_split _ _ _ _ _ _ _ _ _ _ _ _ H2 Fr) as [H3 H4].
      cbn [iso_regions]. split; [|apply (It fv fb D env); assumption].
      apply (Ir fv fb D (bids r ++ env)); [symmetry; exact (h_b _ _ _ _ _ _ _ H1) | | exact Hs1].
      eapply hyp_enter; [reflexivity | eapply NoDup_app_l; eauto | exact (h_b _ _ _ _ _ _ _ H1) | | exact H3].
      intros b Hb Hx. eapply NoDup_app_disj; [exact Hnd | exact Hb |]. apply in_or_app; auto.
Qed.

Lemma sh_blocks_bids_len : forall r s ids s' r',
  sh_blocks s r ids = (s', r') -> length ids = length (bids r) -> length (bids r') = length (bids r).
Proof.
  induction r as [|k r IH]; intros s ids s' r' H Hl; cbn [sh_blocks] in H.
  - injection H as <- <-. reflexivity.
  - destruct ids as [|i ids]; [discriminate|].
    destruct (sh_block s k i) as [s2 k']. destruct (sh_blocks s2 r ids) as [s3 t'] eqn:Et.
    injection H as <- <-. cbn [bids length]. f_equal. eapply IH; eauto.
Qed.

Lemma sw_aligned :
  (forall x y fv fb rest, iso_op false fv fb x y ->
     iso_op true fv fb x (fst (sw_op (map (map fv) (walk_op x) ++ rest) y)) /\
     snd (sw_op (map (map fv) (walk_op x) ++ rest) y) = rest) /\
  (forall l l' fv fb rest, iso_ops false fv fb l l' ->
     iso_ops true fv fb l (fst (sw_ops (map (map fv) (walk_ops l) ++ rest) l')) /\
     snd (sw_ops (map (map fv) (walk_ops l) ++ rest) l') = rest) /\
  (forall k k' fv fb rest, iso_block false fv fb k k' ->
     iso_block true fv fb k (fst (sw_block (map (map fv) (walk_block k) ++ rest) k')) /\
     snd (sw_block (map (map fv) (walk_block k) ++ rest) k') = rest) /\
  (forall r r' fv fb rest, iso_blocks false fv fb r r' ->
     iso_blocks true fv fb r (fst (sw_blocks (map (map fv) (walk_blocks r) ++ rest) r')) /\
     snd (sw_blocks (map (map fv) (walk_blocks r) ++ rest) r') = rest) /\
  (forall g g' fv fb rest, iso_regions false fv fb g g' ->
     iso_regions true fv fb g (fst (sw_regions (map (map fv) (walk_regions g) ++ rest) g')) /\
     snd (sw_regions (map (map fv) (walk_regions g) ++ rest) g') = rest).
Proof.
  apply ir_mutind.
  - intros i n os rs a ss g IHg y fv fb rest H. destruct y as [i' n' os' rs' a' ss' g'].
    cbn [iso_op] in H. destruct H as (Hn & Ha & Hos & Hr1 & Hr2 & Hss & Hg).
    cbn [walk_op map app sw_op].
    destruct (IHg g' fv fb rest Hg) as [I1 I2].
    destruct (sw_regions (map (map fv) (walk_regions g) ++ rest) g') as [g'' L''].
    cbn [fst snd] in *. cbn [iso_op]. repeat split; auto.
  - intros l' fv fb rest H. destruct l'; cbn [iso_ops] in H; [|tauto].
    cbn [walk_ops map app sw_ops fst snd iso_ops]. auto.
  - intros o IHo t IHt l' fv fb rest H. destruct l' as [|o' t']; cbn [iso_ops] in H; [tauto|].
    destruct H as [Ho Ht]. cbn [walk_ops sw_ops]. rewrite map_app, <- app_assoc.
    destruct (IHo o' fv fb (map (map fv) (walk_ops t) ++ rest) Ho) as [I1 I2].
    destruct (sw_op _ o') as [o'' L1]. cbn [fst snd] in I1, I2. subst L1.
    destruct (IHt t' fv fb rest Ht) as [I3 I4].
    destruct (sw_ops _ t') as [t'' L2]. cbn [fst snd] in *. cbn [iso_ops]. auto.
  - intros b args body IHb k' fv fb rest H. destruct k' as [b' args' body'].
    cbn [iso_block] in H. destruct H as (Hb & Ha1 & Ha2 & Hbody).
    cbn [walk_block sw_block].
    destruct (IHb body' fv fb rest Hbody) as [I1 I2].
    destruct (sw_ops _ body') as [body'' L1]. cbn [fst snd] in *. cbn [iso_block]. auto.
  - intros r' fv fb rest H. destruct r'; cbn [iso_blocks] in H; [|tauto].
    cbn [walk_blocks map app sw_blocks fst snd iso_blocks]. auto.
  - intros k IHk t IHt r' fv fb rest H. destruct r' as [|k' t']; cbn [iso_blocks] in H; [tauto|].
    destruct H as [Hk Ht]. cbn [walk_blocks sw_blocks]. rewrite map_app, <- app_assoc.
    destruct (IHk k' fv fb (map (map fv) (walk_blocks t) ++ rest) Hk) as [I1 I2].
    destruct (sw_block _ k') as [k'' L1]. cbn [fst snd] in I1, I2. subst L1.
    destruct (IHt t' fv fb rest Ht) as [I3 I4].
    destruct (sw_blocks _ t') as [t'' L2]. cbn [fst snd] in *. cbn [iso_blocks]. auto.
  - intros g' fv fb rest H. destruct g'; cbn [iso_regions] in H; [|tauto].
    cbn [walk_regions map app sw_regions fst snd iso_regions]. auto.
  - intros r IHr t IHt g' fv fb rest H. destruct g' as [|r' t']; cbn [iso_regions] in H; [tauto|].
    destruct H as [Hr Ht]. cbn [walk_regions sw_regions]. rewrite map_app, <- app_assoc.
    destruct (IHr r' fv fb (map (map fv) (walk_regions t) ++ rest) Hr) as [I1 I2].
    destruct (sw_blocks _ r') as [r'' L1]. cbn [fst snd] in I1, I2. subst L1.
    destruct (IHt t' fv fb rest Ht) as [I3 I4].
    destruct (sw_regions _ t') as [t'' L2]. cbn [fst snd] in *. cbn [iso_regions]. auto.
Qed.

Lemma iso_defs : forall co fv fb,
  (forall x y, iso_op co fv fb x y -> dv_op y = map fv (dv_op x) /\ db_op y = map fb (db_op x)) /\
  (forall l l', iso_ops co fv fb l l' -> dv_ops l' = map fv (dv_ops l) /\ db_ops l' = map fb (db_ops l)) /\
  (forall k k', iso_block co fv fb k k' ->
     dv_block k' = map fv (dv_block k) /\ dbi_block k' = map fb (dbi_block k) /\ bid_of k' = fb (bid_of k)) /\
  (forall r r', iso_blocks co fv fb r r' ->
     dv_blocks r' = map fv (dv_blocks r) /\ dbi_blocks r' = map fb (dbi_blocks r) /\ bids r' = map fb (bids r)) /\
  (forall g g', iso_regions co fv fb g g' ->
     dv_regions g' = map fv (dv_regions g) /\ db_regions g' = map fb (db_regions g)).
Proof.
  intros co fv fb. apply ir_mutind.
  - intros i n os rs a ss g IHg y H. destruct y as [i' n' os' rs' a' ss' g'].
    cbn [iso_op] in H. destruct H as (_ & _ & _ & Hr1 & _ & _ & Hg).
    destruct (IHg g' Hg) as [I1 I2]. cbn [dv_op db_op]. rewrite map_app, Hr1, I1, I2. auto.
  - intros l' H. destruct l'; cbn [iso_ops] in H; [|tauto]. auto.
  - intros o IHo t IHt l' H. destruct l' as [|o' t']; cbn [iso_ops] in H; [tauto|].
    destruct H as [Ho Ht]. destruct (IHo o' Ho) as [I1 I2]. destruct (IHt t' Ht) as [I3 I4].
    cbn [dv_ops db_ops]. rewrite !map_app, I1, I2, I3, I4. auto.
  - intros b args body IHb k' H. destruct k' as [b' args' body'].
    cbn [iso_block] in H. destruct H as (Hb & Ha1 & _ & Hbody).
    destruct (IHb body' Hbody) as [I1 I2]. cbn [dv_block dbi_block bid_of].
    rewrite map_app, Ha1, I1, I2. auto.
  - intros r' H. destruct r'; cbn [iso_blocks] in H; [|tauto]. auto.
  - intros k IHk t IHt r' H. destruct r' as [|k' t']; cbn [iso_blocks] in H; [tauto|].
    destruct H as [Hk Ht]. destruct (IHk k' Hk) as (I1 & I2 & I3). destruct (IHt t' Ht) as (I4 & I5 & I6).
    cbn [dv_blocks dbi_blocks bids map]. rewrite !map_app, I1, I2, I3, I4, I5, I6. auto.
  - intros g' H. destruct g'; cbn [iso_regions] in H; [|tauto]. auto.
  - intros r IHr t IHt g' H. destruct g' as [|r' t']; cbn [iso_regions] in H; [tauto|].
    destruct H as [Hr Ht]. destruct (IHr r' Hr) as (I1 & I2 & I3). destruct (IHt t' Ht) as (I4 & I5).
    cbn [dv_regions db_regions]. rewrite !map_app, I1, I2, I3, I4, I5. auto.
Qed.

Lemma iso_walk : forall fv fb,
  (forall x y, iso_op true fv fb x y -> walk_op y = map (map fv) (walk_op x)) /\
  (forall l l', iso_ops true fv fb l l' -> walk_ops l' = map (map fv) (walk_ops l)) /\
  (forall k k', iso_block true fv fb k k' -> walk_block k' = map (map fv) (walk_block k)) /\
  (forall r r', iso_blocks true fv fb r r' -> walk_blocks r' = map (map fv) (walk_blocks r)) /\
  (forall g g', iso_regions true fv fb g g' -> walk_regions g' = map (map fv) (walk_regions g)).
Proof.
  intros fv fb. apply ir_mutind.
  - intros i n os rs a ss g IHg y H. destruct y as [i' n' os' rs' a' ss' g'].
    cbn [iso_op] in H. destruct H as (_ & _ & Hos & _ & _ & _ & Hg).
    cbn [walk_op map]. rewrite Hos, (IHg g' Hg). reflexivity.
  - intros l' H. destruct l'; cbn [iso_ops] in H; [|tauto]. reflexivity.
  - intros o IHo t IHt l' H. destruct l' as [|o' t']; cbn [iso_ops] in H; [tauto|].
    destruct H as [Ho Ht]. cbn [walk_ops]. rewrite map_app, (IHo o' Ho), (IHt t' Ht). reflexivity.
  - intros b args body IHb k' H. destruct k' as [b' args' body'].
    cbn [iso_block] in H. destruct H as (_ & _ & _ & Hbody). cbn [walk_block]. auto.
  - intros r' H. destruct r'; cbn [iso_blocks] in H; [|tauto]. reflexivity.
  - intros k IHk t IHt r' H. destruct r' as [|k' t']; cbn [iso_blocks] in H; [tauto|].
    destruct H as [Hk Ht]. cbn [walk_blocks]. rewrite map_app, (IHk k' Hk), (IHt t' Ht). reflexivity.
  - intros g' H. destruct g'; cbn [iso_regions] in H; [|tauto]. reflexivity.
  - intros r IHr t IHt g' H. destruct g' as [|r' t']; cbn [iso_regions] in H; [tauto|].
    destruct H as [Hr Ht]. cbn [walk_regions]. rewrite map_app, (IHr r' Hr), (IHt t' Ht). reflexivity.
Qed.

Lemma sw_ids :
  (forall y L, ido_op (fst (sw_op L y)) = ido_op y) /\
  (forall l L, ido_ops (fst (sw_ops L l)) = ido_ops l) /\
  (forall k L, ido_block (fst (sw_block L k)) = ido_block k) /\
  (forall r L, ido_blocks (fst (sw_blocks L r)) = ido_blocks r) /\
  (forall g L, ido_regions (fst (sw_regions L g)) = ido_regions g).
Proof.
  apply ir_mutind.
  - intros i n os rs a ss g IHg L. cbn [sw_op]. destruct L as [|os' L']; [reflexivity|].
    specialize (IHg L'). destruct (sw_regions L' g). cbn [fst] in *. cbn [ido_op]. now rewrite IHg.
  - reflexivity.
  - intros o IHo t IHt L. cbn [sw_ops]. specialize (IHo L). destruct (sw_op L o) as [o' L1].
    specialize (IHt L1). destruct (sw_ops L1 t). cbn [fst] in *. cbn [ido_ops]. now rewrite IHo, IHt.
  - intros b args body IHb L. cbn [sw_block]. specialize (IHb L). destruct (sw_ops L body).
    cbn [fst] in *. cbn [ido_block]. auto.
  - reflexivity.
  - intros k IHk t IHt L. cbn [sw_blocks]. specialize (IHk L). destruct (sw_block L k) as [k' L1].
    specialize (IHt L1). destruct (sw_blocks L1 t). cbn [fst] in *. cbn [ido_blocks]. now rewrite IHk, IHt.
  - reflexivity.
  - intros r IHr t IHt L. cbn [sw_regions]. specialize (IHr L). destruct (sw_blocks L r) as [r' L1].
    specialize (IHt L1). destruct (sw_regions L1 t). cbn [fst] in *. cbn [ido_regions]. now rewrite IHr, IHt.
Qed.

Lemma sw_blocks_bids : forall r L, bids (fst (sw_blocks L r)) = bids r.
Proof.
  induction r as [|[b args body] r IH]; intros L; [reflexivity|].
  cbn [sw_blocks sw_block]. destruct (sw_ops L body) as [body' L1].
  specialize (IH L1). destruct (sw_blocks L1 r) as [r' L2]. cbn [fst] in *. cbn [bids bid_of]. now rewrite IH.
Qed.

Lemma sw_nil :
  (forall y, sw_op [] y = (y, [])) /\
  (forall l, sw_ops [] l = (l, [])) /\
  (forall k, sw_block [] k = (k, [])) /\
  (forall r, sw_blocks [] r = (r, [])) /\
  (forall g, sw_regions [] g = (g, [])).
Proof.
  apply ir_mutind; intros; cbn [sw_op sw_ops sw_block sw_blocks sw_regions]; auto.
  - now rewrite H, H0.
  - now rewrite H.
  - now rewrite H, H0.
  - now rewrite H, H0.
Qed.

Lemma sw_noops :
  (forall y L, walk_op y = [] -> sw_op L y = (y, L)) /\
  (forall l L, walk_ops l = [] -> sw_ops L l = (l, L)) /\
  (forall k L, walk_block k = [] -> sw_block L k = (k, L)) /\
  (forall r L, walk_blocks r = [] -> sw_blocks L r = (r, L)) /\
  (forall g L, walk_regions g = [] -> sw_regions L g = (g, L)).
Proof.
  apply ir_mutind.
  - intros i n os rs a ss g _ L H. cbn [walk_op] in H. discriminate.
  - reflexivity.
  - intros o IHo t IHt L H. cbn [walk_ops] in H. apply app_eq_nil in H. destruct H as [H1 H2].
    cbn [sw_ops]. now rewrite IHo, IHt.
  - intros b args body IHb L H. cbn [walk_block] in H. cbn [sw_block]. now rewrite IHb.
  - reflexivity.
  - intros k IHk t IHt L H. cbn [walk_blocks] in H. apply app_eq_nil in H. destruct H as [H1 H2].
    cbn [sw_blocks]. now rewrite IHk, IHt.
  - reflexivity.
  - intros r IHr t IHt L H. cbn [walk_regions] in H. apply app_eq_nil in H. destruct H as [H1 H2].
    cbn [sw_regions]. now rewrite IHr, IHt.
Qed.

Lemma sw_blocks_app : forall a b L,
  sw_blocks L (blocks_app a b) =
  (blocks_app (fst (sw_blocks L a)) (fst (sw_blocks (snd (sw_blocks L a)) b)),
   snd (sw_blocks (snd (sw_blocks L a)) b)).
Proof.
  induction a as [|k a IH]; intros b L.
  - cbn [blocks_app sw_blocks fst snd]. now destruct (sw_blocks L b).
  - cbn [blocks_app sw_blocks]. destruct (sw_block L k) as [k' L1]. rewrite IH.
    destruct (sw_blocks L1 a) as [a' L2]. cbn [fst snd]. cbn [blocks_app]. reflexivity.
Qed.

Lemma blocks_app_nil_r : forall a, blocks_app a BNil = a.
Proof. induction a; cbn [blocks_app]; congruence. Qed.
Lemma blocks_app_assoc : forall a b c, blocks_app (blocks_app a b) c = blocks_app a (blocks_app b c).
Proof. induction a; intros; cbn [blocks_app]; congruence. Qed.

Fixpoint bfirstn (n : nat) (d : blocks) : blocks :=
  match n, d with S n', BCons k t => BCons k (bfirstn n' t) | _, _ => BNil end.
Fixpoint bskipn (n : nat) (d : blocks) : blocks :=
  match n, d with S n', BCons _ t => bskipn n' t | _, _ => d end.

Lemma bfirstn_skipn : forall n d, blocks_app (bfirstn n d) (bskipn n d) = d.
Proof. induction n; destruct d; cbn [bfirstn bskipn blocks_app]; auto. now rewrite IHn. Qed.

(* Region.insert_block: exactly the indices 0 .. len insert (before the block at that index / at the
   end); every other index is the silent no-op *)
Lemma insert_block_spec : forall d i index nb,
  insert_block i index d nb =
  if (i <=? index) && (index <=? i + blocks_len d)
  then Some (blocks_app (bfirstn (Z.to_nat (index - i)) d) (blocks_app nb (bskipn (Z.to_nat (index - i)) d)))
  else None.
Proof.
  induction d as [|k d IH]; intros i index nb; cbn [insert_block blocks_len].
  - destruct (Z.eqb_spec i index) as [E|N], (Z.leb_spec i index), (Z.leb_spec index (i + 0));
      try reflexivity; try lia.
    subst i. rewrite Z.sub_diag. cbn [andb Z.to_nat bfirstn bskipn blocks_app]. now rewrite blocks_app_nil_r.
  - rewrite IH. destruct (Z.eqb_spec i index) as [E|N].
    + subst i. pose proof (blocks_len_bids d).
      rewrite Z.leb_refl, (proj2 (Z.leb_le _ _)), Z.sub_diag by lia. reflexivity.
    + replace (i + 1 <=? index) with (i <=? index)
        by (destruct (Z.leb_spec i index), (Z.leb_spec (i + 1) index); reflexivity || lia).
      rewrite Z.add_assoc. destruct (Z.leb_spec i index); [|reflexivity].
      destruct (index <=? i + 1 + blocks_len d); [|reflexivity]. cbn [andb].
      replace (Z.to_nat (index - i)) with (S (Z.to_nat (index - (i + 1)))) by lia. reflexivity.
Qed.

(* the call as clone_into makes it (counting from 0) *)
Lemma insert_block_in_range : forall d index nb, 0 <= index <= blocks_len d ->
  insert_block 0 index d nb =
  Some (blocks_app (bfirstn (Z.to_nat index) d) (blocks_app nb (bskipn (Z.to_nat index) d))).
Proof.
  intros d index nb H. rewrite insert_block_spec, Z.sub_0_r.
  destruct (Z.leb_spec 0 index), (Z.leb_spec index (0 + blocks_len d)); reflexivity || lia.
Qed.

Lemma insert_block_out_of_range : forall d index nb, index < 0 \/ blocks_len d < index ->
  insert_block 0 index d nb = None.
Proof.
  intros d index nb H. rewrite insert_block_spec.
  destruct (Z.leb_spec 0 index), (Z.leb_spec index (0 + blocks_len d)); reflexivity || lia.
Qed.

Lemma uses_blocks_app : forall sel v a b,
  uses_blocks sel v (blocks_app a b) = uses_blocks sel v a ++ uses_blocks sel v b.
Proof. induction a; intros; cbn [blocks_app uses_blocks]; auto. now rewrite IHa, app_assoc. Qed.

Lemma uses_app : forall sel v l1 l2, uses sel v (l1 ++ l2) = uses sel v l1 ++ uses sel v l2.
Proof. intros. unfold uses. apply flat_map_app. Qed.

Lemma slots_notin : forall v o l i, ~ In v l -> slots v o i l = [].
Proof.
  induction l; intros i H; cbn [slots]; auto.
  destruct (a =? v) eqn:E; [apply Z.eqb_eq in E; simpl in H; tauto|]. apply IHl. simpl in H. tauto.
Qed.

Lemma slots_map : forall (f : Z -> Z) v v' o o' l i,
  (forall u, In u l -> (f u = v' <-> u = v)) ->
  map snd (slots v' o' i (map f l)) = map snd (slots v o i l).
Proof.
  induction l; intros i H; cbn [map slots]; auto.
  assert (Ha : f a = v' <-> a = v) by (apply H; simpl; auto).
  assert (IH : map snd (slots v' o' (i + 1) (map f l)) = map snd (slots v o (i + 1) l))
    by (apply IHl; intros u Hu; apply H; simpl; auto).
  destruct (f a =? v') eqn:E1, (a =? v) eqn:E2; cbn [map snd]; try congruence.
  - apply Z.eqb_eq in E1. apply Z.eqb_neq in E2. tauto.
  - apply Z.eqb_neq in E1. apply Z.eqb_eq in E2. tauto.
Qed.

(* the use list of a value read off the operation ids and operand tuples in walk order *)
Fixpoint walk_slots (v : Z) (ids : list Z) (W : list (list Z)) : list (Z * Z) :=
  match ids, W with
  | i :: ids', os :: W' => slots v i 0 os ++ walk_slots v ids' W'
  | _, _ => []
  end.

Lemma walk_slots_app : forall v i1 W1 i2 W2, length i1 = length W1 ->
  walk_slots v (i1 ++ i2) (W1 ++ W2) = walk_slots v i1 W1 ++ walk_slots v i2 W2.
Proof.
  induction i1 as [|i i1 IH]; intros [|os W1] i2 W2 Hl; try discriminate Hl; [reflexivity|].
  cbn [app walk_slots]. rewrite IH by (injection Hl as Hl; exact Hl). apply app_assoc.
Qed.

Lemma uses_walk : forall v,
  (forall x, length (ido_op x) = length (walk_op x) /\ uses_op true v x = walk_slots v (ido_op x) (walk_op x)) /\
  (forall l, length (ido_ops l) = length (walk_ops l) /\ uses_ops true v l = walk_slots v (ido_ops l) (walk_ops l)) /\
  (forall k, length (ido_block k) = length (walk_block k) /\
     uses_block true v k = walk_slots v (ido_block k) (walk_block k)) /\
  (forall r, length (ido_blocks r) = length (walk_blocks r) /\
     uses_blocks true v r = walk_slots v (ido_blocks r) (walk_blocks r)) /\
  (forall g, length (ido_regions g) = length (walk_regions g) /\
     uses_regions true v g = walk_slots v (ido_regions g) (walk_regions g)).
Proof.
  intros v. apply ir_mutind.
  - intros i n os rs a ss g [L U]. cbn [ido_op walk_op uses_op length walk_slots]. rewrite L, U. auto.
  - auto.
  - intros o [L1 U1] t [L2 U2]. cbn [ido_ops walk_ops uses_ops].
    rewrite !app_length, walk_slots_app, L1, L2, U1, U2 by exact L1. auto.
  - intros b args body IH. exact IH.
  - auto.
  - intros k [L1 U1] t [L2 U2]. cbn [ido_blocks walk_blocks uses_blocks].
    rewrite !app_length, walk_slots_app, L1, L2, U1, U2 by exact L1. auto.
  - auto.
  - intros r [L1 U1] t [L2 U2]. cbn [ido_regions walk_regions uses_regions].
    rewrite !app_length, walk_slots_app, L1, L2, U1, U2 by exact L1. auto.
Qed.

Lemma walk_slots_notin : forall v ids W, ~ In v (concat W) -> walk_slots v ids W = [].
Proof.
  induction ids as [|i ids IH]; intros [|os W] H; try reflexivity.
  cbn [concat] in H. rewrite in_app_iff in H. cbn [walk_slots]. rewrite slots_notin, IH by tauto. reflexivity.
Qed.

Lemma walk_slots_map : forall (f : Z -> Z) v v' ids ids' W, length ids' = length ids ->
  (forall u, In u (concat W) -> (f u = v' <-> u = v)) ->
  map snd (walk_slots v' ids' (map (map f) W)) = map snd (walk_slots v ids W).
Proof.
  induction ids as [|i ids IH]; intros [|i' ids'] [|os W] Hl H; try discriminate Hl; try reflexivity.
  cbn [concat] in H. cbn [map walk_slots]. rewrite !map_app. f_equal.
  - apply slots_map. intros u Hu. apply H, in_or_app. auto.
  - apply IH; [injection Hl as Hl; exact Hl|]. intros u Hu. apply H, in_or_app. auto.
Qed.
