(* C07/ProofsLabels.v -- the block-label / SSA-name registration model never raises an internal error
     labels_no_internal_general : with validated hints and recorded definitions, for EVERY event sequence
     labels_no_internal_partial : for any code shape, if every name is a valid hint and no block name is
                                  defined twice in the whole event sequence (regions included). *)
From Coq Require Import ZArith List Bool Arith Lia.
From XV Require Import C07.Regex C07.Model.
Import ListNotations.

Lemma name_eqb_eq : forall a b, name_eqb a b = true <-> a = b.
Proof.
  induction a as [|x a IH]; intros [|y b]; cbn; split; intro H; try discriminate; try reflexivity.
  - apply andb_true_iff in H. destruct H as [H1 H2]. apply Z.eqb_eq in H1. apply IH in H2. subst. reflexivity.
  - injection H as -> ->. apply andb_true_iff. split; [apply Z.eqb_refl|apply IH; reflexivity].
Qed.
Lemma name_eqb_refl : forall a, name_eqb a a = true.
Proof. intro a. apply name_eqb_eq. reflexivity. Qed.
Lemma name_eqb_neq : forall a b, a <> b -> name_eqb a b = false.
Proof. intros a b H. destruct (name_eqb a b) eqn:E; [apply name_eqb_eq in E; contradiction|reflexivity]. Qed.

Lemma lookup_update_same : forall n v l, lookup n (update n v l) = Some v.
Proof.
  intros n v l. induction l as [|[m w] r IH]; cbn.
  - rewrite name_eqb_refl. reflexivity.
  - destruct (name_eqb m n) eqn:E; cbn; rewrite E; [reflexivity|exact IH].
Qed.
Lemma lookup_update_other : forall n m v l, m <> n -> lookup m (update n v l) = lookup m l.
Proof.
  intros n m v l Hne. induction l as [|[m' w] r IH]; cbn.
  - rewrite (name_eqb_neq n m); [reflexivity|congruence].
  - destruct (name_eqb m' n) eqn:E; cbn.
    + apply name_eqb_eq in E. subst m'. rewrite (name_eqb_neq n m); [reflexivity|congruence].
    + destruct (name_eqb m' m); [reflexivity|exact IH].
Qed.
Lemma mem_name_In : forall n l, mem_name n l = true <-> In n l.
Proof.
  intros n l. unfold mem_name. rewrite existsb_exists. split.
  - intros (x & Hin & He). apply name_eqb_eq in He. subst. exact Hin.
  - intro H. exists n. split; [exact H|apply name_eqb_refl].
Qed.
Lemma In_remove_other : forall n m l, m <> n -> In m l -> In m (remove_name n l).
Proof.
  intros n m l Hne. induction l as [|x r IH]; cbn; [tauto|].
  intros [->|H].
  - rewrite (name_eqb_neq m n Hne). left. reflexivity.
  - destruct (name_eqb x n); [apply IH; exact H|right; apply IH; exact H].
Qed.

Lemma NoDup_app_r : forall (A : Type) (l l' : list A), NoDup (l ++ l') -> NoDup l'.
Proof. intros A l l'. induction l as [|x l IH]; cbn; intro H; [exact H|]. inversion H; subst. apply IH. assumption. Qed.

Section Labels.
Variable U : named -> Z -> bool.
Variable cfg : config.

Lemma set_hint_valid : forall st b n, valid_name U cfg n = true -> set_hint U cfg st b n <> None.
Proof.
  intros st b n Hv. unfold set_hint, extract_valid_name. rewrite Hv.
  destruct (snd (bt_search U (rx_name_suffix cfg) n 0)); discriminate.
Qed.

(* D = block names defined so far; a forward-declared block is still awaited or already defined *)
Definition inv_scope (D : list name) (sc : scope) : Prop :=
  forall n b, lookup n (sc_blocks sc) = Some (b, false) -> In n (sc_fwd sc) \/ In n D.
Definition inv (D : list name) (st : pstate) : Prop :=
  inv_scope D (ps_cur st) /\ Forall (fun p => inv_scope D (fst p)) (ps_stack st).

Lemma inv_scope_mono : forall D D' sc, incl D D' -> inv_scope D sc -> inv_scope D' sc.
Proof. intros D D' sc Hi H n b Hl. destruct (H n b Hl); [left|right; apply Hi]; assumption. Qed.
Lemma inv_mono : forall D D' st, incl D D' -> inv D st -> inv D' st.
Proof.
  intros D D' st Hi [H1 H2]. split; [apply (inv_scope_mono D D' _ Hi H1)|].
  eapply Forall_impl; [|exact H2]. intros p Hp. apply (inv_scope_mono D D' _ Hi Hp).
Qed.

Lemma forward_ref_ok : forall D st n g, inv D st ->
  (g = true \/ fx_label_validate cfg = true \/ valid_name U cfg n = true) ->
  match forward_ref U cfg st n g with POk st' => inv D st' | PParseErr => True | PInternal _ => False end.
Proof.
  intros D st n g [Hc Hs] Hval. unfold forward_ref.
  destruct (lookup n (sc_blocks (ps_cur st))) as [v|] eqn:El; [split; assumption|].
  set (fwd := if mem_name n (sc_fwd (ps_cur st)) then sc_fwd (ps_cur st) else n :: sc_fwd (ps_cur st)).
  assert (Hfwd : In n fwd /\ incl (sc_fwd (ps_cur st)) fwd).
  { unfold fwd. destruct (mem_name n (sc_fwd (ps_cur st))) eqn:Em.
    - split; [apply mem_name_In; exact Em|apply incl_refl].
    - split; [left; reflexivity|apply incl_tl, incl_refl]. }
  assert (Hnew : inv_scope D (Scope (update n (ps_next st, false) (sc_blocks (ps_cur st))) fwd)).
  { intros m b Hl. cbn [sc_blocks sc_fwd] in *. destruct (list_eq_dec Z.eq_dec m n) as [->|Hne].
    - left. exact (proj1 Hfwd).
    - rewrite (lookup_update_other n m _ _ Hne) in Hl. destruct (Hc m b Hl); [left; apply (proj2 Hfwd)|right]; assumption. }
  destruct (negb (is_default_block_name n) &&
            (if g || fx_label_validate cfg then valid_name U cfg n else true)) eqn:Ew; [|split; assumption].
  assert (Hv : valid_name U cfg n = true).
  { apply andb_true_iff in Ew. destruct Ew as [_ Ew].
    destruct Hval as [->|[Hf|Hv]]; [exact Ew|rewrite Hf, orb_true_r in Ew; exact Ew|exact Hv]. }
  pose proof (set_hint_valid st (ps_next st) n Hv) as Hh.
  destruct (set_hint U cfg st (ps_next st) n); [split; assumption|congruence].
Qed.

Definition def_names (es : list event) : list name :=
  flat_map (fun e => match e with EDef n => [n] | _ => [] end) es.
Definition ev_names (es : list event) : list name :=
  flat_map (fun e => match e with ESucc n | EGet n | EDef n | ESsa n => [n] | _ => [] end) es.
Definition nextD (D : list name) (e : event) : list name :=
  if fx_label_redef cfg then D else def_names [e] ++ D.

Lemma incl_nextD : forall D e, incl D (nextD D e).
Proof. intros D e. unfold nextD. destruct (fx_label_redef cfg); [apply incl_refl|apply incl_appr, incl_refl]. Qed.

Lemma step_ok : forall D st e,
  inv D st ->
  (fx_label_validate cfg = true \/ forall n, In n (ev_names [e]) -> valid_name U cfg n = true) ->
  (forall n, e = EDef n -> ~ In n D) ->
  match step U cfg st e with
  | POk st' => inv (nextD D e) st'
  | PParseErr => True
  | PInternal _ => False
  end.
Proof.
  intros D st e Hinv Hval Hdef.
  pose proof (inv_mono D (nextD D e) st (incl_nextD D e) Hinv) as Hinv'.
  destruct e as [n|n|n|n| |]; cbn [step].
  - apply (forward_ref_ok _ st n false Hinv'). right.
    destruct Hval as [Hf|Hn]; [left; exact Hf|right; apply Hn; cbn; tauto].
  - apply (forward_ref_ok _ st n true Hinv'). left. reflexivity.
  - destruct Hinv as [Hc Hs]. destruct Hinv' as [Hc' Hs'].
    assert (Hhint : forall b next sc',
              inv_scope (nextD D (EDef n)) sc' ->
              match (if negb (is_default_block_name n) &&
                        (if fx_label_validate cfg then valid_name U cfg n else true)
                     then match set_hint U cfg st b n with
                          | Some hints => POk (with_cur st sc' next hints)
                          | None => PInternal ValueError
                          end
                     else POk (with_cur st sc' next (ps_hints st))) with
              | POk st' => inv (nextD D (EDef n)) st'
              | PParseErr => True
              | PInternal _ => False
              end).
    { intros b next sc' Hsc'.
      destruct (negb (is_default_block_name n) && (if fx_label_validate cfg then valid_name U cfg n else true)) eqn:Ew.
      - assert (Hv : valid_name U cfg n = true).
        { destruct Hval as [Hf|Hn]; [|apply Hn; cbn; tauto].
          rewrite Hf in Ew. apply andb_true_iff in Ew. tauto. }
        pose proof (set_hint_valid st b n Hv). destruct (set_hint U cfg st b n); [|congruence].
        split; [exact Hsc'|exact Hs'].
      - split; [exact Hsc'|exact Hs']. }
    destruct (lookup n (sc_blocks (ps_cur st))) as [[b [|]]|] eqn:El.
    + exact I.
    + destruct (mem_name n (sc_fwd (ps_cur st))) eqn:Em.
      * apply Hhint. intros m b' Hl. cbn [sc_blocks sc_fwd] in *.
        unfold nextD in *. cbn [def_names flat_map app] in *.
        destruct (fx_label_redef cfg).
        -- destruct (list_eq_dec Z.eq_dec m n) as [->|Hne].
           ++ rewrite lookup_update_same in Hl. discriminate.
           ++ rewrite (lookup_update_other n m _ _ Hne) in Hl.
              destruct (Hc m b' Hl) as [Hf|Hd]; [left; apply In_remove_other; assumption|right; exact Hd].
        -- destruct (list_eq_dec Z.eq_dec m n) as [->|Hne]; [right; left; reflexivity|].
           destruct (Hc m b' Hl) as [Hf|Hd]; [left; apply In_remove_other; assumption|right; right; exact Hd].
      * (* forward-declared and no longer awaited: it would have been defined before *)
        destruct (Hc n b El) as [Hf|Hd].
        -- apply mem_name_In in Hf. congruence.
        -- exact (Hdef n eq_refl Hd).
    + apply Hhint. intros m b' Hl. cbn [sc_blocks sc_fwd] in *.
      destruct (list_eq_dec Z.eq_dec m n) as [->|Hne].
      * rewrite lookup_update_same in Hl. discriminate.
      * rewrite (lookup_update_other n m _ _ Hne) in Hl.
        destruct (Hc' m b' Hl) as [Hf|Hd]; [left; exact Hf|right; exact Hd].
  - destruct (mem_name n (ps_ssa st)); [exact I|].
    destruct Hinv' as [Hc' Hs']. split; [exact Hc'|exact Hs'].
  - destruct Hinv' as [Hc' Hs']. split.
    + intros m b Hl. cbn in Hl. discriminate.
    + constructor; [exact Hc'|exact Hs'].
  - destruct Hinv' as [Hc' Hs'].
    destruct (ps_stack st) as [|[osc ossa] stk]; [exact I|].
    destruct (sc_fwd (ps_cur st)); [|exact I].
    inversion Hs' as [|p l Hp Hl]; subst. split; [exact Hp|exact Hl].
Qed.

Lemma inv_init : inv [] pinit.
Proof. split; [intros n b H; cbn in H; discriminate|constructor]. Qed.

(* with validated hints and recorded definitions: EVERY event sequence *)
Theorem labels_no_internal_general :
  fx_label_validate cfg = true -> fx_label_redef cfg = true ->
  forall es k, run U cfg pinit es <> PInternal k.
Proof.
  intros Hv Hr es.
  assert (H : forall es st, inv [] st -> forall k, run U cfg st es <> PInternal k).
  { induction es0 as [|e r IH]; intros st Hi k; [cbn; discriminate|].
    cbn [run]. pose proof (step_ok [] st e Hi (or_introl Hv) (fun n _ Hin => Hin)) as Hs.
    destruct (step U cfg st e) as [st'| |k0]; [|discriminate|destruct Hs].
    apply IH. unfold nextD in Hs. rewrite Hr in Hs. exact Hs. }
  apply H. apply inv_init.
Qed.

(* any code shape: every name is a valid hint and no block name is defined twice in the whole sequence, sibling
   regions included (stronger than the per-region scoping of the code asks for) *)
Theorem labels_no_internal_partial :
  forall es, (forall n, In n (ev_names es) -> valid_name U cfg n = true) -> NoDup (def_names es) ->
  forall k, run U cfg pinit es <> PInternal k.
Proof.
  assert (H : forall es D st, inv D st ->
            (forall n, In n (ev_names es) -> valid_name U cfg n = true) ->
            NoDup (def_names es) -> (forall n, In n (def_names es) -> ~ In n D) ->
            forall k, run U cfg st es <> PInternal k).
  { induction es as [|e r IH]; intros D st Hi Hv Hnd Hdis k; [cbn; discriminate|].
    cbn [run].
    assert (Hv1 : forall n, In n (ev_names [e]) -> valid_name U cfg n = true).
    { intros n Hn. apply Hv. unfold ev_names in *. cbn [flat_map] in *. rewrite app_nil_r in Hn.
      apply in_or_app. left. exact Hn. }
    assert (Hd1 : forall n, e = EDef n -> ~ In n D).
    { intros n -> . apply Hdis. cbn. left. reflexivity. }
    pose proof (step_ok D st e Hi (or_intror Hv1) Hd1) as Hs.
    destruct (step U cfg st e) as [st'| |k0]; [|discriminate|destruct Hs].
    assert (Hsplit : def_names (e :: r) = def_names [e] ++ def_names r).
    { unfold def_names. cbn [flat_map]. rewrite app_nil_r. reflexivity. }
    rewrite Hsplit in Hnd, Hdis.
    apply (IH (nextD D e) st' Hs).
    - intros n Hn. apply Hv. unfold ev_names in *. cbn [flat_map]. apply in_or_app. right. exact Hn.
    - apply (NoDup_app_r _ _ _ Hnd).
    - intros n Hn Hin. unfold nextD in Hin. destruct (fx_label_redef cfg).
      + apply (Hdis n); [apply in_or_app; right; exact Hn|exact Hin].
      + apply in_app_or in Hin. destruct Hin as [Hin|Hin].
        * (* n defined by e and again later: contradicts NoDup *)
          clear - Hnd Hn Hin. induction (def_names [e]) as [|x l IHl]; [destruct Hin|].
          cbn in Hnd. inversion Hnd as [|? ? Hx Hl]; subst. destruct Hin as [->|Hin].
          -- apply Hx. apply in_or_app. right. exact Hn.
          -- apply IHl; assumption.
        * apply (Hdis n); [apply in_or_app; right; exact Hn|exact Hin]. }
  intros es Hv Hnd k. apply (H es [] pinit inv_init Hv Hnd). intros n _ Hin. exact Hin.
Qed.

End Labels.
