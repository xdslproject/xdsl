(* C20/ProofsPhase1.v -- the tree phase: the leaf-upward walks of the second loop.
   Invariant: the emitted moves realise exactly the resolved non-trivial moves, a register is
   overwritten only after all moves reading it have been emitted, and the counters are exact. *)
From Coq Require Import ZArith List Bool Lia ZifyBool Relations.
From XV Require Import C20.Model C20.Spec C20.ProofsBase C20.ProofsTables.
Import ListNotations.
Local Open Scope Z_scope.

Lemma filter_flip {A} (key : A -> Z) (f g : A -> bool) (l : list A) x :
  NoDup (map key l) -> In x l -> f x = true -> g x = false ->
  (forall y, In y l -> key y <> key x -> g y = f y) ->
  length (filter f l) = S (length (filter g l)).
Proof.
  induction l as [|a l IH]; intros ND I Fx Gx H; [destruct I|].
  inversion ND as [|? ? Ha ND']; subst. destruct I as [->|I].
  - simpl. rewrite Fx, Gx. simpl. f_equal. f_equal. apply filter_ext_in.
    intros y Iy. symmetry. apply H; [now right|]. intros E. apply Ha. rewrite <- E. now apply in_map.
  - simpl. assert (key a <> key x).
    { intros E. apply Ha. rewrite E. now apply in_map. }
    rewrite (H a (or_introl eq_refl)) by assumption.
    assert (IHl := IH ND' I Fx Gx (fun y Iy => H y (or_intror Iy))).
    destruct (f a); simpl; lia.
Qed.

Lemma on_cycle_child ms d : on_cycle ms d -> exists c, edge ms d c /\ on_cycle ms c.
Proof.
  unfold on_cycle. intros H. apply clos_trans_t1n in H.
  inversion H as [y E|y z E R]; subst.
  - exists d. split; [assumption|now apply t_step].
  - exists y. split; [assumption|]. apply clos_t1n_trans in R.
    eapply t_trans; [exact R|now apply t_step].
Qed.

Section Phase1.
  Variable ms : list move.
  Variable free : list reg.
  Variable ck : value -> Z.                   (* key of unprocessed_children: by SSA value or by register *)
  Variable wl : value -> reg -> option Z.     (* width lookup: by SSA value or by output register *)
  Variable ch0 : Z -> Z.                      (* unprocessed_children after the first loop *)
  Hypothesis WF : wf_all ms free.
  Hypothesis Hkey : forall a b, In a ms -> In b ms ->
    (ck (m_value a) = ck (m_value b) <-> m_src a = m_src b).
  Hypothesis Hw : forall m, In m ms -> trivb m = false -> wl (m_value m) (m_dst m) = Some (m_w m).
  Hypothesis Hch0 : forall k,
    ch0 k = Z.of_nat (length (filter (fun m => negb (trivb m) && (ck (m_value m) =? k)) ms)).

  Notation P := (src_by_dst (loop1 ms)).
  Notation oidx := (output_index ms).
  Notation walk := (walk ck wl ms (loop1 ms)).
  Let ND : NoDup (map m_dst ms) := wa_dsts _ _ WF.

  Definition doneb (rs : list (option value)) (r : reg) : bool :=
    match oidx r with
    | Some i => match nth_error rs i with Some (Some _) => true | _ => false end
    | None => false
    end.

  Lemma trivb_false m : trivb m = false <-> m_src m <> m_dst m.
  Proof. unfold trivb. destruct (Z.eqb_spec (m_src m) (m_dst m)); split; congruence. Qed.

  Lemma P_of m : In m ms -> trivb m = false -> P (m_dst m) = Some (m_value m).
  Proof. intros I T. apply (P_spec ms ND). exists m. auto. Qed.
  Lemma P_inv d v : P d = Some v -> exists m, In m ms /\ trivb m = false /\ m_dst m = d /\ v = m_value m.
  Proof. apply (P_spec ms ND). Qed.
  Lemma dst_inj a b : In a ms -> In b ms -> m_dst a = m_dst b -> a = b.
  Proof. apply NoDup_map_In_inj. exact ND. Qed.
  Lemma oidx_of m : In m ms -> exists i, oidx (m_dst m) = Some i /\ (i < length ms)%nat.
  Proof.
    intros Im. destruct (In_nth_error _ _ Im) as [i Hi]. exists i.
    split; [apply (output_index_of ms i m ND Hi)|now apply nth_error_lt in Hi].
  Qed.
  Lemma nontriv_dst_nonzero m : In m ms -> trivb m = false -> m_dst m <> ZERO.
  Proof.
    intros I T E. apply trivb_false in T. apply T.
    rewrite (wa_zero _ _ WF m I E). now rewrite E.
  Qed.

  Lemma doneb_lset rs i v d r :
    oidx d = Some i -> (i < length rs)%nat ->
    doneb (lset i (Some v) rs) r = if r =? d then true else doneb rs r.
  Proof.
    intros Od Li. unfold doneb. destruct (Z.eqb_spec r d) as [->|N].
    - rewrite Od. now rewrite nth_lset_same.
    - destruct (oidx r) as [j|] eqn:Or; [|reflexivity].
      assert (i <> j).
      { intros <-. destruct (output_index_Some ms d i ND Od) as (m1 & H1 & D1).
        destruct (output_index_Some ms r i ND Or) as (m2 & H2 & D2). congruence. }
      now rewrite nth_lset_other.
  Qed.

  Lemma doneb_false_slot rs d i : length rs = length ms ->
    oidx d = Some i -> doneb rs d = false -> nth_error rs i = Some None.
  Proof.
    intros L Od Dn. unfold doneb in Dn. rewrite Od in Dn.
    destruct (output_index_Some ms d i ND Od) as (m & Hm & _). apply nth_error_lt in Hm.
    destruct (nth_error rs i) as [[v|]|] eqn:E; try discriminate; [reflexivity|].
    apply nth_error_None in E. lia.
  Qed.

  Definition undone (rs : list (option value)) (v : Z) (m : move) : bool :=
    negb (trivb m) && (ck (m_value m) =? v) && negb (doneb rs (m_dst m)).

  Record Inv (s : state) : Prop := mkInv {
    I_len : length (results s) = length ms;
    I_triv : forall i m, nth_error ms i = Some m -> trivb m = true ->
             nth_error (results s) i = Some (Some (m_value m));
    I_sem : forall rho,
      (forall m, In m ms -> trivb m = false -> doneb (results s) (m_dst m) = true ->
         get (exec (em s) rho) (m_dst m) = copyf (is_float (m_dst m)) (m_w m) (get rho (m_src m)))
      /\ (forall r, (P r = None \/ doneb (results s) r = false) -> get (exec (em s) rho) r = get rho r);
    I_closed : forall m, In m ms -> trivb m = false ->
      P (m_src m) <> None -> doneb (results s) (m_src m) = true -> doneb (results s) (m_dst m) = true;
    I_cnt : forall v, children s v = Z.of_nat (length (filter (undone (results s) v) ms));
    I_nocyc : forall m, In m ms -> trivb m = false -> doneb (results s) (m_dst m) = true ->
      ~ on_cycle ms (m_dst m) }.

  (* every move reading r is emitted (r may be overwritten) *)
  Definition ready (rs : list (option value)) (r : reg) : Prop :=
    forall m, In m ms -> trivb m = false -> m_src m = r -> doneb rs (m_dst m) = true.
  (* the walks do not stop below r: a non-trivial destination all of whose (at least one) outgoing moves are
     emitted is emitted *)
  Definition Gat (rs : list (option value)) (r : reg) : Prop :=
    P r <> None -> (exists m, In m ms /\ trivb m = false /\ m_src m = r) -> ready rs r -> doneb rs r = true.

  Lemma walk_eq fuel cur s :
    walk fuel cur s =
    match fuel with
    | O => OutOfFuel
    | S f =>
        match P cur with
        | None => Ok (s, cur)
        | Some src =>
            do w <- key (wl src cur);
            do '(e1, nv) <- insert_mv (em s) src cur w;
            do i <- key (oidx cur);
            match nth_error (results s) i with
            | Some None =>
                let ch := upd (children s) (ck src) (children s (ck src) - 1) in
                let s1 := mkS e1 (lset i (Some nv) (results s)) ch in
                if negb (ch (ck src) =? 0) then Ok (s1, cur) else walk f (vreg src) s1
            | _ => Raise EAssertion
            end
        end
    end.
  Proof. destruct fuel; reflexivity. Qed.

  Lemma step_inv s m i e1 nv :
    Inv s -> In m ms -> trivb m = false ->
    doneb (results s) (m_dst m) = false -> ready (results s) (m_dst m) ->
    oidx (m_dst m) = Some i ->
    insert_mv (em s) (m_value m) (m_dst m) (m_w m) = Ok (e1, nv) ->
    let ch := upd (children s) (ck (m_value m)) (children s (ck (m_value m)) - 1) in
    let s1 := mkS e1 (lset i (Some nv) (results s)) ch in
    Inv s1 /\ (forall r, doneb (results s1) r = if r =? m_dst m then true else doneb (results s) r).
  Proof.
    intros IV Im Tm Dn Rd Oi Hins ch s1.
    assert (Li : (i < length (results s))%nat).
    { destruct (output_index_Some ms _ i ND Oi) as (m' & Hm' & _). apply nth_error_lt in Hm'.
      rewrite (I_len s IV). exact Hm'. }
    assert (DB : forall r, doneb (results s1) r = if r =? m_dst m then true else doneb (results s) r).
    { intros r. unfold s1. simpl. now apply doneb_lset. }
    split; [|exact DB].
    assert (Ksrc : is_float (vreg (m_value m)) = is_float (m_dst m)) by (apply (wa_kinds _ _ WF m Im)).
    destruct (insert_mv_Ok _ _ _ _ _ _ Hins Ksrc) as (_ & _ & ins & -> & _ & Hstep).
    assert (NZ : m_dst m <> ZERO) by (now apply nontriv_dst_nonzero).
    assert (Nsd : m_src m <> m_dst m) by (now apply trivb_false).
    (* the source register has not been overwritten *)
    assert (Usrc : P (m_src m) = None \/ doneb (results s) (m_src m) = false).
    { destruct (P (m_src m)) eqn:Ps; [|now left]. right.
      destruct (doneb (results s) (m_src m)) eqn:Ds; [|reflexivity].
      rewrite (I_closed s IV m Im Tm) in Dn; [discriminate|congruence|assumption]. }
    constructor.
    - unfold s1. simpl. rewrite lset_length. apply (I_len s IV).
    - intros j m' Hj Tj. unfold s1. simpl.
      assert (i <> j).
      { intros <-. destruct (output_index_Some ms _ i ND Oi) as (m2 & H2 & D2).
        assert (m2 = m') by congruence. subst m2.
        assert (m' = m) by (apply dst_inj; eauto using nth_error_In). subst. congruence. }
      rewrite nth_lset_other by assumption. now apply (I_triv s IV).
    - intros rho. unfold s1. simpl em. simpl results. rewrite exec_snoc, Hstep.
      destruct (I_sem s IV rho) as [S1 S2]. split.
      + intros m' Im' Tm' Dm'. rewrite DB in Dm'.
        destruct (Z.eqb_spec (m_dst m') (m_dst m)) as [E|E].
        * assert (m' = m) by (now apply dst_inj). subst m'.
          rewrite get_set_same by assumption. f_equal. simpl. now apply S2.
        * rewrite get_set_other by assumption. now apply S1.
      + intros r Hr. rewrite DB in Hr.
        destruct (Z.eqb_spec r (m_dst m)) as [E|E].
        * subst r. destruct Hr as [Hr|Hr]; [|discriminate]. rewrite (P_of m Im Tm) in Hr. discriminate.
        * rewrite get_set_other by assumption. now apply S2.
    - intros m' Im' Tm' Ps Ds. rewrite DB in Ds. rewrite DB.
      destruct (Z.eqb_spec (m_dst m') (m_dst m)) as [E|E]; [reflexivity|].
      destruct (Z.eqb_spec (m_src m') (m_dst m)) as [E2|E2].
      + now apply Rd.
      + now apply (I_closed s IV).
    - intros v. change (children s1 v) with (upd (children s) (ck (m_value m)) (children s (ck (m_value m)) - 1) v).
      unfold upd. destruct (Z.eqb_spec v (ck (m_value m))) as [->|Nv].
      + rewrite (I_cnt s IV).
        rewrite (filter_flip m_dst (undone (results s) (ck (m_value m))) (undone (results s1) (ck (m_value m))) ms m ND Im).
        * clear. lia.
        * unfold undone. rewrite Tm, Z.eqb_refl, Dn. reflexivity.
        * unfold undone. rewrite DB, !Z.eqb_refl. simpl. apply andb_false_r.
        * intros y Iy Ny. unfold undone. rewrite DB.
          destruct (Z.eqb_spec (m_dst y) (m_dst m)); [contradiction|reflexivity].
      + rewrite (I_cnt s IV). f_equal. f_equal. apply filter_ext_in. intros y Iy.
        unfold undone. rewrite DB.
        destruct (Z.eqb_spec (m_dst y) (m_dst m)) as [E|E]; [|reflexivity].
        assert (y = m) by (now apply dst_inj). subst y.
        destruct (Z.eqb_spec (ck (m_value m)) v); [congruence|]. now rewrite !andb_false_r.
    - intros m' Im' Tm' Dm' Cy. rewrite DB in Dm'.
      destruct (Z.eqb_spec (m_dst m') (m_dst m)) as [E|E]; [|now apply (I_nocyc s IV m' Im' Tm')].
      destruct (on_cycle_child ms _ Cy) as (c & (mc & Imc & Nmc & Smc & Dmc) & Cc).
      assert (Tmc : trivb mc = false) by (now apply trivb_false).
      apply (I_nocyc s IV mc Imc Tmc); [|now rewrite Dmc].
      apply Rd; [assumption|assumption|congruence].
  Qed.

  Lemma cnt_undone s v : Inv s ->
    (children s v <> 0 <->
     exists y, In y ms /\ trivb y = false /\ ck (m_value y) = v /\ doneb (results s) (m_dst y) = false).
  Proof.
    intros IV. rewrite (I_cnt s IV). split.
    - intros Z0. destruct (filter (undone (results s) v) ms) as [|y l] eqn:F; [now destruct Z0|].
      assert (Iy : In y (filter (undone (results s) v) ms)) by (rewrite F; now left).
      apply filter_In in Iy as [Iy U]. unfold undone in U.
      apply andb_true_iff in U as [U U3]. apply andb_true_iff in U as [U1 U2].
      apply Z.eqb_eq in U2. apply negb_true_iff in U1, U3. eauto.
    - intros (y & Iy & Ty & Ky & Dy) Z0.
      assert (I : In y (filter (undone (results s) v) ms)).
      { apply filter_In. split; [assumption|]. unfold undone. now rewrite Ty, Dy, Ky, Z.eqb_refl. }
      destruct (filter _ ms); [destruct I|discriminate Z0].
  Qed.

  Lemma cnt_zero_ready s m : Inv s -> In m ms ->
    (children s (ck (m_value m)) = 0 <-> ready (results s) (m_src m)).
  Proof.
    intros IV Im. split.
    - intros Z0 y Iy Ty Sy. destruct (doneb (results s) (m_dst y)) eqn:D; [reflexivity|]. exfalso.
      refine (proj2 (cnt_undone s _ IV) _ Z0). exists y. repeat split; auto. now apply (Hkey y m).
    - intros R. destruct (Z.eq_dec (children s (ck (m_value m))) 0) as [|N]; [assumption|exfalso].
      apply (cnt_undone s _ IV) in N as (y & Iy & Ty & Ky & Dy).
      rewrite (R y Iy Ty) in Dy; [discriminate|]. now apply (Hkey y m).
  Qed.

  (* during a walk Gat may fail at the register the walk is about to reach, and only there *)
  Definition Gexc (rs : list (option value)) (x : reg) : Prop := forall r, r <> x -> Gat rs r.

  Lemma walk_spec fuel : forall cur s,
    Inv s -> (count_none (results s) < fuel)%nat ->
    (P cur <> None -> doneb (results s) cur = false) ->
    ready (results s) cur ->
    Gexc (results s) cur ->
    match walk fuel cur s with
    | Ok (s', cur') =>
        Inv s' /\ (forall r, Gat (results s') r)
        /\ (forall r, doneb (results s) r = true -> doneb (results s') r = true)
        /\ (forall r, doneb (results s') r = true ->
                      doneb (results s) r = true \/ r = cur \/ In r (map m_src ms))
        /\ (P cur <> None -> doneb (results s') cur = true)
    | Raise e => e = EPassFailed /\ exists m, In m ms /\ trivb m = false /\ okw (m_w m) = false
    | OutOfFuel => False
    end.
  Proof.
    induction fuel as [|f IH]; intros cur s IV Fu Dc Rc Gc; [lia|].
    rewrite walk_eq. destruct (P cur) as [src|] eqn:Pc.
    2:{ split; [assumption|]. split; [|split; [auto|split; [auto|congruence]]].
        intros r. destruct (Z.eq_dec r cur) as [->|N]; [|now apply Gc].
        intros H. congruence. }
    destruct (P_inv _ _ Pc) as (m & Im & Tm & Dm & ->). subst cur.
    rewrite (Hw m Im Tm). simpl key. simpl bind.
    assert (Ksrc : is_float (vreg (m_value m)) = is_float (m_dst m)) by (apply (wa_kinds _ _ WF m Im)).
    destruct (insert_mv_res (em s) (m_value m) (m_dst m) (m_w m) Ksrc) as [(e1 & nv & Hins)|[Hins Hbw]].
    2:{ rewrite Hins. simpl. split; [reflexivity|]. exists m. auto. }
    rewrite Hins. simpl bind.
    destruct (oidx_of m Im) as (i & Oi & _). rewrite Oi. simpl key. simpl bind.
    assert (Dn : doneb (results s) (m_dst m) = false) by (apply Dc; congruence).
    rewrite (doneb_false_slot (results s) (m_dst m) i (I_len s IV) Oi Dn).
    destruct (step_inv s m i e1 nv IV Im Tm Dn Rc Oi Hins) as [IV1 DB].
    cbv zeta. simpl vreg.
    set (s1 := mkS e1 (lset i (Some nv) (results s)) (upd (children s) (ck (m_value m)) (children s (ck (m_value m)) - 1))) in *.
    assert (Mono : forall r, doneb (results s) r = true -> doneb (results s1) r = true).
    { intros r H. rewrite DB. destruct (r =? m_dst m); auto. }
    (* Gat in s1 for every register except the parent of the move just emitted *)
    assert (G1 : forall r, r <> m_src m -> Gat (results s1) r).
    { intros r Nr Pr Cr Rr. rewrite DB. destruct (Z.eqb_spec r (m_dst m)) as [E|E]; [reflexivity|].
      apply (Gc r E Pr Cr). intros y Iy Ty Sy. specialize (Rr y Iy Ty Sy). rewrite DB in Rr.
      destruct (Z.eqb_spec (m_dst y) (m_dst m)) as [E2|E2]; [|assumption].
      assert (y = m) by (now apply dst_inj). subst y. congruence. }
    assert (Hch : upd (children s) (ck (m_value m)) (children s (ck (m_value m)) - 1) (ck (m_value m)) = children s1 (ck (m_value m))) by reflexivity.
    rewrite Hch.
    destruct (Z.eqb_spec (children s1 (ck (m_value m))) 0) as [Z0|Z0]; simpl negb; cbv iota.
    - (* continue up the tree *)
      assert (R1 : ready (results s1) (m_src m)) by (now apply (cnt_zero_ready s1 m IV1 Im)).
      assert (Nsd : m_src m <> m_dst m) by (now apply trivb_false).
      assert (D1 : P (m_src m) <> None -> doneb (results s1) (m_src m) = false).
      { intros Ps. rewrite DB. destruct (Z.eqb_spec (m_src m) (m_dst m)); [contradiction|].
        destruct (doneb (results s) (m_src m)) eqn:Ds; [|reflexivity].
        rewrite (I_closed s IV m Im Tm Ps Ds) in Dn. discriminate. }
      assert (Fu1 : (count_none (results s1) < f)%nat).
      { pose proof (count_none_lset i nv (results s)
          (doneb_false_slot (results s) (m_dst m) i (I_len s IV) Oi Dn)) as H.
        change (lset i (Some nv) (results s)) with (results s1) in H. clear - H Fu. lia. }
      specialize (IH (m_src m) s1 IV1 Fu1 D1 R1 G1).
      destruct (walk f (m_src m) s1) as [[s' cur']|e|]; [|exact IH|exact IH].
      destruct IH as (IV' & G' & Mo' & Back' & _).
      split; [assumption|]. split; [assumption|]. split; [auto|]. split.
      + intros r H. apply Back' in H as [H|[H|H]]; auto.
        * rewrite DB in H. destruct (Z.eqb_spec r (m_dst m)); auto.
        * subst r. right. right. now apply in_map.
      + intros _. apply Mo'. rewrite DB. now rewrite Z.eqb_refl.
    - (* break *)
      split; [assumption|]. split; [|split; [assumption|split]].
      + intros r. destruct (Z.eq_dec r (m_src m)) as [->|N]; [|now apply G1].
        intros _ _ Rr. exfalso. apply Z0. now apply (cnt_zero_ready s1 m IV1 Im).
      + intros r H. rewrite DB in H. destruct (Z.eqb_spec r (m_dst m)); auto.
      + intros _. rewrite DB. now rewrite Z.eqb_refl.
  Qed.

  Notation lvs := (leaves (loop1 ms)).

  Lemma leaf_P r : lvs r = true -> P r <> None /\ ~ In r (map m_src ms).
  Proof.
    intros L. apply (leaves_spec ms) in L as [Id Is]. split; [|assumption].
    apply in_map_iff in Id as (m & <- & Im).
    destruct (trivb m) eqn:T.
    - exfalso. apply Is. unfold trivb in T. apply Z.eqb_eq in T. rewrite <- T. now apply in_map.
    - rewrite (P_of m Im T). discriminate.
  Qed.

  Record Inv2 (s : state) (pre : list reg) : Prop := mkInv2 {
    J_inv : Inv s;
    J_G : forall r, Gat (results s) r;
    J_leaf : forall r, lvs r = true -> doneb (results s) r = true -> In r pre;
    J_leafdone : forall r, In r pre -> lvs r = true -> doneb (results s) r = true }.

  Lemma loop2_spec c ds s fi ff :
    Inv2 s [] -> NoDup ds ->
    match fold_left (loop2_step c ck wl ms (loop1 ms) lvs) ds (Ok (s, fi, ff)) with
    | Ok (s', fi', ff') =>
        Inv2 s' ds
        /\ (root_free c = false -> fi' = fi /\ ff' = ff)
        /\ (exists xi xf, fi' = fi ++ xi /\ ff' = ff ++ xf)
    | Raise e => e = EPassFailed /\ exists m, In m ms /\ trivb m = false /\ okw (m_w m) = false
    | OutOfFuel => False
    end.
  Proof.
    intros J0 NDd.
    apply (fold_res_inv (loop2_step c ck wl ms (loop1 ms) lvs)
             (fun q '(s', fi', ff') => Inv2 s' q /\ (root_free c = false -> fi' = fi /\ ff' = ff)
                                       /\ exists xi xf, fi' = fi ++ xi /\ ff' = ff ++ xf)
             (fun e => e = EPassFailed /\ exists m, In m ms /\ trivb m = false /\ okw (m_w m) = false));
      [reflexivity|reflexivity| |].
    2:{ split; [assumption|]. split; [auto|]. exists [], []. now rewrite !app_nil_r. }
    intros pre d r [[s1 fi1] ff1] E ([Ji Jg Jl Jd] & Same & Ext). rewrite E in NDd.
    unfold loop2_step. cbn [bind]. destruct (lvs d) eqn:Ld; cbn [negb].
    2:{ split; [|auto]. constructor; auto.
        - intros r0 Lr Dr. apply in_or_app. left. auto.
        - intros r0 Ir Lr. apply in_app_or in Ir as [Ir|[<-|[]]]; [auto|congruence]. }
    destruct (leaf_P d Ld) as [Pd Sd].
    assert (Dd : doneb (results s1) d = false).
    { destruct (doneb (results s1) d) eqn:D; [|reflexivity]. exfalso.
      apply (Jl d Ld) in D. apply NoDup_remove_2 in NDd. apply NDd. apply in_or_app. now left. }
    assert (Rd : ready (results s1) d).
    { intros y Iy _ Sy. exfalso. apply Sd. rewrite <- Sy. now apply in_map. }
    assert (Fu : (count_none (results s1) < loop_fuel ms)%nat).
    { pose proof (count_none_le (results s1)). rewrite (I_len s1 Ji) in H. unfold loop_fuel. lia. }
    pose proof (walk_spec (loop_fuel ms) d s1 Ji Fu (fun _ => Dd) Rd (fun r0 _ => Jg r0)) as W.
    destruct (walk (loop_fuel ms) d s1) as [[s2 cur]|e|]; cbn [bind]; [|exact W|exact W].
    destruct W as (I1 & G1 & Mo & Back & Dn).
    assert (J1 : Inv2 s2 (pre ++ [d])).
    { constructor; auto.
      - intros r0 Lr Dr. apply in_or_app. apply Back in Dr as [Dr|[->|Dr]]; [left; auto|right; now left|].
        exfalso. now apply (leaf_P r0 Lr).
      - intros r0 Ir Lr. apply in_app_or in Ir as [Ir|[<-|[]]]; [apply Mo; auto|now apply Dn]. }
    (* a root is appended to the free list of its kind only when `root_free` is set *)
    destruct (P cur); [auto|]. destruct (root_free c) eqn:Rf; [|auto].
    destruct Ext as (xi & xf & -> & ->).
    destruct (is_float cur); (split; [exact J1|split; [discriminate|]]).
    - exists xi, (xf ++ [cur]). now rewrite app_assoc.
    - exists (xi ++ [cur]), xf. now rewrite app_assoc.
  Qed.

  (* the rewrite state after the second loop does not depend on the configuration, only the free lists do *)
  Definition state_part {A B C} (r : res (A * B * C)) : res A :=
    match r with Ok (a, _, _) => Ok a | Raise e => Raise e | OutOfFuel => OutOfFuel end.
  Lemma loop2_step_eq c s fi ff d :
    loop2_step c ck wl ms (loop1 ms) lvs (Ok (s, fi, ff)) d =
    if negb (lvs d) then Ok (s, fi, ff) else
    do '(s1, cur) <- walk (loop_fuel ms) d s;
    match P cur with
    | None =>
        if root_free c
        then (if is_float cur then Ok (s1, fi, ff ++ [cur]) else Ok (s1, fi ++ [cur], ff))
        else Ok (s1, fi, ff)
    | Some _ => Ok (s1, fi, ff)
    end.
  Proof. reflexivity. Qed.
  Lemma loop2_core c : forall ds s fi ff fi0 ff0,
    state_part (fold_left (loop2_step c ck wl ms (loop1 ms) lvs) ds (Ok (s, fi, ff))) =
    state_part (fold_left (loop2_step repaired ck wl ms (loop1 ms) lvs) ds (Ok (s, fi0, ff0))).
  Proof.
    induction ds as [|d ds IH]; intros s fi ff fi0 ff0; [reflexivity|].
    cbn [fold_left]. rewrite !loop2_step_eq.
    destruct (negb (lvs d)); [apply IH|].
    destruct (walk (loop_fuel ms) d s) as [[s1 cur]|e|]; cbn [bind].
    - destruct (P cur); [apply IH|]. cbn [root_free repaired].
      destruct (root_free c); [destruct (is_float cur)|]; apply IH.
    - now rewrite !fold_absorb.
    - now rewrite !fold_absorb.
  Qed.

  Lemma doneb0 m : In m ms -> trivb m = false -> doneb (results0 (loop1 ms)) (m_dst m) = false.
  Proof.
    intros Im Tm. destruct (In_nth_error _ _ Im) as [i Hi]. unfold doneb.
    now rewrite (output_index_of ms i m ND Hi), (results0_spec ms i m Hi), Tm.
  Qed.
  Lemma inv0 : Inv (mkS [] (results0 (loop1 ms)) ch0).
  Proof.
    constructor; simpl.
    - apply results0_length.
    - intros i m Hi Tm. rewrite (results0_spec ms i m Hi), Tm. reflexivity.
    - intros rho. split; [|reflexivity]. intros m Im Tm Dm. rewrite (doneb0 m Im Tm) in Dm. discriminate.
    - intros m Im Tm Ps Ds. exfalso. destruct (P (m_src m)) as [v|] eqn:E; [|congruence].
      destruct (P_inv _ _ E) as (m' & Im' & Tm' & Dm' & _). rewrite <- Dm', (doneb0 m' Im' Tm') in Ds. discriminate.
    - intros v. rewrite Hch0. f_equal. f_equal. apply filter_ext_in. intros m Im.
      unfold undone. destruct (trivb m) eqn:Tm; simpl; [reflexivity|].
      rewrite (doneb0 m Im Tm). simpl. now rewrite andb_true_r.
    - intros m Im Tm Dm. rewrite (doneb0 m Im Tm) in Dm. discriminate.
  Qed.
  Lemma inv2_0 : Inv2 (mkS [] (results0 (loop1 ms)) ch0) [].
  Proof.
    constructor; [apply inv0| | |intros r []].
    - intros r Pr (m & Im & Tm & Sm) Rr. exfalso.
      specialize (Rr m Im Tm Sm). simpl in Rr. rewrite (doneb0 m Im Tm) in Rr. discriminate.
    - intros r Lr Dr. exfalso. destruct (leaf_P r Lr) as [Pr _].
      destruct (P r) as [v|] eqn:E; [|congruence].
      destruct (P_inv _ _ E) as (m & Im & Tm & Dm & _).
      simpl in Dr. rewrite <- Dm, (doneb0 m Im Tm) in Dr. discriminate.
  Qed.

  Lemma unresolved_child s : Inv2 s (map m_dst ms) ->
    forall d, P d <> None -> doneb (results s) d = false ->
    exists y, In y ms /\ trivb y = false /\ m_src y = d /\ doneb (results s) (m_dst y) = false.
  Proof.
    intros [Ji Jg Jl Jd] d Pd Dd.
    destruct (P d) as [v|] eqn:E; [|congruence].
    destruct (P_inv _ _ E) as (m0 & Im0 & Tm0 & Dm0 & _).
    destruct (existsb (fun y => negb (trivb y) && (m_src y =? d)) ms) eqn:Ex.
    - apply existsb_exists in Ex as (m & Im & H). apply andb_true_iff in H as [Tm Sm].
      apply negb_true_iff in Tm. apply Z.eqb_eq in Sm.
      destruct (Z.eq_dec (children s (ck (m_value m))) 0) as [Z0|Z0].
      + exfalso. apply (cnt_zero_ready s m Ji Im) in Z0. rewrite Sm in Z0.
        rewrite (Jg d) in Dd; [discriminate|congruence|eauto|assumption].
      + apply (cnt_undone s _ Ji) in Z0 as (y & Iy & Ty & Ky & Dy).
        exists y. repeat split; auto. rewrite <- Sm. now apply (Hkey y m).
    - (* no outgoing move: d is a leaf and was resolved by its own walk *)
      exfalso. assert (L : lvs d = true).
      { apply (leaves_spec ms). split; [rewrite <- Dm0; now apply in_map|].
        intros Is. apply in_map_iff in Is as (y & Sy & Iy).
        destruct (trivb y) eqn:Ty.
        - unfold trivb in Ty. apply Z.eqb_eq in Ty.
          assert (y = m0) by (apply dst_inj; auto; congruence). subst y.
          unfold trivb in Tm0. apply Z.eqb_neq in Tm0. congruence.
        - assert (existsb (fun y => negb (trivb y) && (m_src y =? d)) ms = true).
          { apply existsb_exists. exists y. split; [assumption|]. rewrite Ty. simpl. now apply Z.eqb_eq. }
          congruence. }
      rewrite (Jd d) in Dd; [discriminate| |assumption]. rewrite <- Dm0. now apply in_map.
  Qed.
End Phase1.
