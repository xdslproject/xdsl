(* C04/ProofsSyntax.v -- M3: the token stream of a well-formed named tree parses back to the same tree. *)
From Coq Require Import ZArith List Bool Arith Lia.
From XV Require Import C04.Model C04.ProofsStr C04.ProofsGhost C04.ProofsPrint C04.ProofsParse C04.ProofsRound C04.ProofsTree.
Import ListNotations.

Lemma sep_by_length : forall (ls : list (list tok)), (forall x, In x ls -> x <> []) -> length ls <= length (sep_by ls).
Proof.
  induction ls as [|x ls IH]; intro H; [cbn; lia|].
  assert (Hx : 1 <= length x).
  { destruct x; [exfalso; apply (H []); [now left|reflexivity]|cbn; lia]. }
  destruct ls as [|y ls'].
  - cbn. lia.
  - change (sep_by (x :: y :: ls')) with (x ++ TComma :: sep_by (y :: ls')).
    rewrite app_length. cbn [length]. assert (length (y :: ls') <= length (sep_by (y :: ls'))) by (apply IH; intros; apply H; now right).
    cbn [length] in *. lia.
Qed.

Section Lists.
Context {A : Type}.
Variable pe : list tok -> option (A * list tok).
Variable pr : A -> list tok.

Definition is_lb (t : tok) : bool := match t with TLB => true | _ => false end.
Definition is_lp (t : tok) : bool := match t with TLP => true | _ => false end.
Definition is_ls (t : tok) : bool := match t with TLS => true | _ => false end.
Definition is_lt (t : tok) : bool := match t with TLT => true | _ => false end.
Definition is_pct (t : tok) : bool := match t with TPct _ => true | _ => false end.

Definition follows (close : tok -> bool) (rest : list tok) : Prop :=
  exists t r, rest = t :: r /\ (t = TComma \/ close t = true).

Lemma parse_commas_ok : forall close items c rest fuel,
  close c = true -> close TComma = false ->
  items <> [] ->
  (forall x, In x items -> forall rest', follows close rest' -> pe (pr x ++ rest') = Some (x, rest')) ->
  length items <= fuel ->
  parse_commas pe close fuel (sep_by (map pr items) ++ c :: rest) = Some (items, rest).
Proof.
  intros close items c rest. induction items as [|x items IH]; intros fuel Hc Hcc Hne Hpe Hf; [contradiction|].
  destruct fuel as [|f]; [cbn in Hf; lia|]. cbn [parse_commas].
  destruct items as [|y items'].
  - cbn [map sep_by]. rewrite Hpe; [|now left|exists c, rest; split; [reflexivity|now right]].
    (* c is not a comma, since a comma does not close the list *)
    destruct c; try (rewrite Hc; reflexivity). congruence.
  - cbn [map sep_by]. rewrite <- app_assoc. cbn [app].
    rewrite Hpe; [|now left|eexists; eexists; split; [reflexivity|now left]].
    rewrite IH; [reflexivity|assumption|assumption|discriminate| |cbn [length] in Hf |- *; lia].
    intros z Hz. apply Hpe. now right.
Qed.

(* each element has at least one token, so the length of the text is fuel enough *)
Lemma commas_fuel : forall items rest, (forall x, In x items -> pr x <> []) ->
  length items <= length (sep_by (map pr items) ++ rest).
Proof.
  intros items rest H. rewrite app_length. pose proof (sep_by_length (map pr items)) as G. rewrite map_length in G.
  assert (length items <= length (sep_by (map pr items))); [|lia].
  apply G. intros z Hz. apply in_map_iff in Hz. destruct Hz as [w [<- Hw]]. apply H. exact Hw.
Qed.

Lemma parse_list_ok : forall close items c rest,
  close c = true -> close TComma = false ->
  (forall x, In x items -> forall rest', follows close rest' -> pe (pr x ++ rest') = Some (x, rest')) ->
  (forall x, In x items -> exists t r, pr x = t :: r /\ close t = false) ->
  parse_list pe close (sep_by (map pr items) ++ c :: rest) = Some (items, rest).
Proof.
  intros close items c rest Hc Hcc Hpe Hne. destruct items as [|x items].
  - cbn. rewrite Hc. reflexivity.
  - unfold parse_list.
    destruct (Hne x (or_introl eq_refl)) as [t [r [E Ht]]].
    assert (Hd : exists r', sep_by (map pr (x :: items)) ++ c :: rest = t :: r').
    { cbn [map sep_by]. destruct (map pr items); rewrite E; cbn; eexists; reflexivity. }
    destruct Hd as [r' Er]. rewrite Er. rewrite Ht. rewrite <- Er.
    apply parse_commas_ok; try assumption; [discriminate|]. apply commas_fuel.
    intros w Hw E0. destruct (Hne w Hw) as [t0 [r0 [E1 _]]]. congruence.
Qed.

Lemma parse_seq_step : forall start f ts t r a ts1,
  ts = t :: r -> start t = true -> pe ts = Some (a, ts1) ->
  parse_seq pe start (S f) ts =
  match parse_seq pe start f ts1 with Some (l, ts2) => Some (a :: l, ts2) | None => None end.
Proof. intros start f ts t r a ts1 E Ht Hp. cbn [parse_seq]. rewrite E at 1. rewrite Ht. rewrite Hp. reflexivity. Qed.

Lemma flat_map_length : forall items, (forall x, In x items -> pr x <> []) -> length items <= length (flat_map pr items).
Proof.
  induction items as [|x items IH]; intro H; [cbn; lia|]. cbn [flat_map]. rewrite app_length.
  assert (1 <= length (pr x)) by (destruct (pr x) eqn:E; [exfalso; apply (H x); [now left|exact E]|cbn; lia]).
  assert (length items <= length (flat_map pr items)) by (apply IH; intros; apply H; now right).
  cbn [length]. lia.
Qed.

(* a sequence of items, each recognised by its first token and parsed correctly before whatever may follow it *)
Lemma parse_seq_ok : forall start (follow : list tok -> Prop) items rest fuel,
  (forall x, In x items -> (exists t r, pr x = t :: r /\ start t = true) /\
                           (forall r, follow r -> pe (pr x ++ r) = Some (x, r)) /\ forall r, follow (pr x ++ r)) ->
  follow rest -> (rest = [] \/ exists t r, rest = t :: r /\ start t = false) ->
  length items < fuel ->
  parse_seq pe start fuel (flat_map pr items ++ rest) = Some (items, rest).
Proof.
  intros start follow items rest. induction items as [|x items IH]; intros fuel Hpe Hf Hr Hl.
  - destruct fuel as [|f]; [cbn in Hl; lia|]. cbn [flat_map app parse_seq].
    destruct Hr as [Hr|[t [r [Hr Ht]]]]; subst rest; [reflexivity|]. rewrite Ht. reflexivity.
  - destruct fuel as [|f]; [cbn in Hl; lia|]. cbn [flat_map]. rewrite <- app_assoc.
    destruct (Hpe x (or_introl eq_refl)) as [[t [r [E Ht]]] [Hx _]].
    rewrite (parse_seq_step start f _ t (r ++ flat_map pr items ++ rest) x (flat_map pr items ++ rest)).
    + rewrite IH; [reflexivity| |exact Hf|exact Hr|cbn in Hl; lia]. intros z Hz. apply Hpe. now right.
    + rewrite E. reflexivity.
    + exact Ht.
    + apply Hx. destruct items as [|y items']; [exact Hf|]. cbn [flat_map]. rewrite <- app_assoc. apply (Hpe y). right. now left.
Qed.
End Lists.

Definition wf_entry (e : entry) : bool :=
  is_key_atom (fst e) && match snd e with Some v => is_val_atom v | None => true end.
Definition wf_dict (es : list entry) : bool := forallb wf_entry es && negb (dup_key es).

Fixpoint wf_op (o : ntree) : bool :=
  match o with
  | Op nm res args succs props regs attrs it ot =>
      (nm <? 100)%Z && (length args =? length it) && (match res with [] => true | _ => length res =? length ot end) &&
      wf_dict props && wf_dict attrs && forallb is_type_atom it && forallb is_type_atom ot &&
      forallb (fun r : list (block str str (option str)) =>
                 (fix blocks (bs : list (block str str (option str))) (first : bool) : bool :=
                    match bs with
                    | [] => true
                    | b :: bs' => wf_block b first && blocks bs' false
                    end) r true) regs
  end
with wf_block (b : block str str (option str)) (first : bool) : bool :=
  match b with
  | Bk lab bargs ops =>
      match lab with
      | Some _ => true
      | None => first && match bargs with [] => true | _ => false end && match ops with [] => false | _ => true end
      end && forallb (fun a => is_type_atom (snd a)) bargs && forallb wf_op ops
  end.

Fixpoint osize (o : ntree) : nat :=
  match o with
  | Op nm res args succs props regs attrs it ot =>
      S (list_sum (map (fun r : list (block str str (option str)) => list_sum (map bsize r)) regs))
  end
with bsize (b : block str str (option str)) : nat :=
  match b with Bk lab bargs ops => list_sum (map osize ops) end.

Lemma list_sum_in : forall {A} (f : A -> nat) l x, In x l -> f x <= list_sum (map f l).
Proof.
  induction l as [|y l IH]; intros x H; [contradiction|]. unfold list_sum in *. cbn [map fold_right].
  destruct H as [H|H]; [subst; lia|]. specialize (IH x H). lia.
Qed.

Lemma tok_atom_inv : forall a, tok_atom (atom_tok a) = Some a.
Proof. intros [k|k|k]; reflexivity. Qed.
Lemma p_type_ok : forall a rest, is_type_atom a = true -> p_type (atom_tok a :: rest) = Some (a, rest).
Proof. intros a rest H. unfold p_type. rewrite tok_atom_inv. rewrite H. reflexivity. Qed.

Lemma p_entry_ok : forall e rest, wf_entry e = true ->
  (exists t r, rest = t :: r /\ t <> TEq) ->
  p_entry (toks_entry e ++ rest) = Some (e, rest).
Proof.
  intros [k [v|]] rest H [t [r [Er Ht]]]; unfold wf_entry in H; cbn in H; apply andb_true_iff in H; destruct H as [H1 H2].
  - cbn. rewrite tok_atom_inv. rewrite H1. rewrite tok_atom_inv. rewrite H2. reflexivity.
  - cbn. rewrite tok_atom_inv. rewrite H1. subst rest. destruct t; try reflexivity. congruence.
Qed.

Lemma atom_tok_not_close : forall a, is_rb (atom_tok a) = false /\ is_rp (atom_tok a) = false.
Proof. intros [k|k|k]; split; reflexivity. Qed.

Lemma p_dict_ok : forall es rest, wf_dict es = true -> p_dict (toks_dict es ++ rest) = Some (es, rest).
Proof.
  intros es rest H. unfold wf_dict in H. apply andb_true_iff in H. destruct H as [H1 H2]. apply negb_true_iff in H2.
  unfold toks_dict, p_dict. cbn [app]. rewrite <- app_assoc. cbn [app].
  rewrite (parse_list_ok p_entry toks_entry is_rb es TRB rest); [rewrite H2; reflexivity|reflexivity|reflexivity| |].
  - intros e He rest' [t [r [E Ht]]]. rewrite forallb_forall in H1. apply p_entry_ok; [apply H1; exact He|].
    exists t, r. split; [exact E|]. destruct Ht as [Ht|Ht]; [subst; discriminate|]. intro X. subst t. discriminate.
  - intros [k v] He. destruct v; cbn; eexists; eexists; (split; [reflexivity|apply atom_tok_not_close]).
Qed.

Lemma p_barg_ok : forall (a : str * atom) rest, is_type_atom (snd a) = true ->
  p_barg ([TPct (fst a); TColon; atom_tok (snd a)] ++ rest) = Some (a, rest).
Proof. intros [n t] rest H. cbn. unfold p_type. rewrite tok_atom_inv. cbn in H. rewrite H. reflexivity. Qed.

Section Body.
Variable po : list tok -> option (ntree * list tok).

Lemma toks_op_head : forall o, exists t r, toks_op o = t :: r /\ op_start t = true.
Proof.
  intros [nm res args succs props regs attrs it ot]. cbn [toks_op]. destruct res as [|x res].
  - cbn. eexists; eexists; split; reflexivity.
  - cbn [map sep_by]. destruct (map (fun n => [TPct n]) res); cbn; eexists; eexists; split; reflexivity.
Qed.

Lemma p_ops_ok : forall ops rest,
  (forall o, In o ops -> forall rest', po (toks_op o ++ rest') = Some (o, rest')) ->
  (exists t r, rest = t :: r /\ op_start t = false) ->
  p_ops po (flat_map toks_op ops ++ rest) = Some (ops, rest).
Proof.
  intros ops rest H Hr. unfold p_ops.
  apply (parse_seq_ok po toks_op op_start (fun _ => True)); [|exact I|right; exact Hr|].
  - intros o Ho. split; [apply toks_op_head|]. split; [intros r _; apply H; exact Ho|intros r; exact I].
  - rewrite app_length. destruct Hr as [t [r [-> _]]]. cbn [length].
    assert (length ops <= length (flat_map toks_op ops)); [|lia].
    apply flat_map_length. intros o _ E. destruct (toks_op_head o) as [t' [r' [E' _]]]. congruence.
Qed.

Definition sub_ok (o : ntree) : Prop := forall rest', po (toks_op o ++ rest') = Some (o, rest').

Lemma p_block_ok : forall n bargs ops rest,
  forallb (fun a : str * atom => is_type_atom (snd a)) bargs = true ->
  (forall o, In o ops -> sub_ok o) ->
  (exists t r, rest = t :: r /\ op_start t = false) ->
  p_block po (toks_block (Bk (Some n) bargs ops) ++ rest) = Some (Bk (Some n) bargs ops, rest).
Proof.
  intros n bargs ops rest Ht Hs Hr. cbn [toks_block]. unfold p_block. cbn [app].
  destruct bargs as [|a bargs'].
  - cbn [app]. destruct (flat_map toks_op ops ++ rest) eqn:E; rewrite <- E; (rewrite p_ops_ok; [reflexivity|exact Hs|exact Hr]).
  - rewrite <- !app_assoc. cbn [app]. rewrite <- app_assoc. cbn [app].
    rewrite (parse_list_ok p_barg (fun a : str * atom => [TPct (fst a); TColon; atom_tok (snd a)]) is_rp (a :: bargs') TRP).
    + cbn [app]. rewrite p_ops_ok; [reflexivity|exact Hs|exact Hr].
    + reflexivity.
    + reflexivity.
    + intros x Hx rest' _. rewrite forallb_forall in Ht. apply p_barg_ok. apply Ht. exact Hx.
    + intros x _. eexists; eexists; split; reflexivity.
Qed.

Definition blk_ok (b : block str str (option str)) : Prop :=
  match b with Bk _ bargs ops =>
    forallb (fun a : str * atom => is_type_atom (snd a)) bargs = true /\ forall o, In o ops -> sub_ok o end.
Definition labelled (b : block str str (option str)) : Prop :=
  match b with Bk (Some _) _ _ => True | Bk None _ _ => False end.
(* only the entry block may go without label, and then it has no arguments and at least one operation *)
Definition region_ok (r : list (block str str (option str))) : Prop :=
  match r with
  | [] => True
  | Bk lab bargs ops :: bs => match lab with Some _ => True | None => bargs = [] /\ ops <> [] end /\ Forall labelled bs
  end.

(* the labelled blocks of a region, up to the closing brace *)
Lemma p_blocks_ok : forall bs rest, Forall labelled bs -> Forall blk_ok bs ->
  parse_seq (p_block po) is_caret (length (flat_map toks_block bs ++ TRB :: rest)) (flat_map toks_block bs ++ TRB :: rest)
  = Some (bs, TRB :: rest).
Proof.
  intros bs rest L F. rewrite Forall_forall in L, F.
  assert (Hd : forall b, In b bs -> exists n r, toks_block b = TCaret n :: r).
  { intros [[n|] bargs ops] Hb; [eexists; eexists; reflexivity|destruct (L _ Hb)]. }
  apply (parse_seq_ok (p_block po) toks_block is_caret (fun r => exists t r', r = t :: r' /\ op_start t = false)).
  - intros b Hb. destruct (Hd b Hb) as [n [r E]]. split; [exists (TCaret n), r; split; [exact E|reflexivity]|]. split.
    + intros r' Hr'. destruct b as [[n'|] bargs ops]; [|destruct (L _ Hb)]. destruct (F _ Hb) as [F1 F2].
      apply p_block_ok; assumption.
    + intro r'. rewrite E. eexists; eexists; split; reflexivity.
  - exists TRB, rest. split; reflexivity.
  - right. exists TRB, rest. split; reflexivity.
  - rewrite app_length. cbn [length]. assert (length bs <= length (flat_map toks_block bs)); [|lia].
    apply flat_map_length. intros b Hb E. destruct (Hd b Hb) as [n [r E']]. congruence.
Qed.

Lemma p_region_ok : forall r rest, region_ok r -> Forall blk_ok r ->
  p_region po (TLB :: flat_map toks_block r ++ TRB :: rest) = Some (r, rest).
Proof.
  intros r rest L F. unfold p_region.
  destruct r as [|[lab bargs ops] bs].
  - cbn [flat_map app]. cbn [is_caret is_rb orb]. cbn [length parse_seq is_caret]. reflexivity.
  - inversion F as [|? ? Fb Fbs]; subst. destruct L as [L1 L2]. destruct lab as [n|].
    + (* labelled entry block *)
      pose proof (p_blocks_ok (Bk (Some n) bargs ops :: bs) rest (Forall_cons (P := labelled) (Bk (Some n) bargs ops) I L2) F) as PB.
      assert (E0 : exists r0, flat_map toks_block (Bk (Some n) bargs ops :: bs) = TCaret n :: r0)
        by (cbn [flat_map toks_block app]; eexists; reflexivity).
      destruct E0 as [r0 E0]. rewrite E0 in *. cbn [app] in *. cbn [is_caret orb]. rewrite PB. reflexivity.
    + (* the entry block without label: its operations come first *)
      destruct L1 as [-> Eo]. destruct Fb as [_ Fb2].
      cbn [flat_map toks_block app]. rewrite <- app_assoc.
      destruct ops as [|o ops']; [contradiction|].
      destruct (toks_op_head o) as [t [r0 [E0 Ht]]].
      assert (Hrest : exists t' r', flat_map toks_block bs ++ TRB :: rest = t' :: r' /\ op_start t' = false).
      { destruct L2 as [|[[n'|] ba' op'] bs' Hl _]; [| |destruct Hl]; cbn; eexists; eexists; split; reflexivity. }
      pose proof (p_ops_ok (o :: ops') _ Fb2 Hrest) as PO.
      cbn [flat_map] in *. rewrite <- app_assoc in *. rewrite E0 in *. cbn [app] in *.
      assert (Hc : is_caret t || is_rb t = false) by (destruct t; cbn in Ht; try discriminate; reflexivity).
      rewrite Hc, PO, (p_blocks_ok bs rest L2 Fbs). reflexivity.
Qed.

(* optional sections of an operation: absent, the parser must not mistake what follows for their opening token *)
Definition hd_is (P : tok -> bool) (l : list tok) : bool := match l with t :: _ => P t | [] => false end.

Definition res_part (res : list str) : list tok :=
  match res with [] => [] | _ => sep_by (map (fun n => [TPct n]) res) ++ [TEq] end.
Definition succ_part (succs : list str) : list tok :=
  match succs with [] => [] | _ => TLS :: sep_by (map (fun n => [TCaret n]) succs) ++ [TRS] end.
Definition props_part (props : list entry) : list tok :=
  match props with [] => [] | _ => TLT :: toks_dict props ++ [TGT] end.
Definition toks_regs (regs : list (list (block str str (option str)))) : list tok :=
  match regs with
  | [] => []
  | _ => TLP :: sep_by (map (fun r : list (block str str (option str)) => TLB :: flat_map toks_block r ++ [TRB]) regs) ++ [TRP]
  end.
Definition attrs_part (attrs : list entry) : list tok :=
  match attrs with [] => [] | _ => toks_dict attrs end.
Definition outs_part (ot : list atom) : list tok :=
  match ot with [t] => [atom_tok t] | _ => toks_types ot end.

Lemma step_succ : forall succs T X, X = succ_part succs ++ T -> hd_is is_ls T = false ->
  (match X with TLS :: r' => parse_list p_caret is_rs r' | _ => Some ([], X) end) = Some (succs, T).
Proof.
  intros succs T X -> H. destruct succs as [|s succs'].
  - cbn [succ_part app]. destruct T as [|t T']; [reflexivity|]. destruct t; try reflexivity. discriminate.
  - cbn [succ_part app]. rewrite <- app_assoc. cbn [app].
    apply (parse_list_ok p_caret (fun n => [TCaret n]) is_rs (s :: succs') TRS T); try reflexivity.
    intros x _. eexists; eexists; split; reflexivity.
Qed.

Lemma step_props : forall props T X, X = props_part props ++ T -> wf_dict props = true -> hd_is is_lt T = false ->
  (match X with
   | TLT :: r' => match p_dict r' with Some (ps, TGT :: r'') => Some (ps, r'') | _ => None end
   | _ => Some ([], X)
   end) = Some (props, T).
Proof.
  intros props T X -> W H. destruct props as [|e props'].
  - cbn [props_part app]. destruct T as [|t T']; [reflexivity|]. destruct t; try reflexivity. discriminate.
  - cbn [props_part app]. rewrite <- app_assoc. rewrite p_dict_ok by exact W. reflexivity.
Qed.

Lemma step_regs : forall regs T X, X = toks_regs regs ++ T ->
  Forall (fun r => region_ok r /\ Forall blk_ok r) regs -> hd_is is_lp T = false ->
  (match X with TLP :: r' => parse_list (p_region po) is_rp r' | _ => Some ([], X) end) = Some (regs, T).
Proof.
  intros regs T X -> F H. destruct regs as [|r regs'].
  - cbn [toks_regs app]. destruct T as [|t T']; [reflexivity|]. destruct t; try reflexivity. discriminate.
  - unfold toks_regs. cbn [app]. rewrite <- app_assoc. cbn [app].
    apply (parse_list_ok (p_region po) (fun r0 : list (block str str (option str)) => TLB :: flat_map toks_block r0 ++ [TRB])
                         is_rp (r :: regs') TRP T); try reflexivity.
    + intros x Hx rest' _. rewrite Forall_forall in F. destruct (F x Hx) as [L B].
      cbn [app]. rewrite <- app_assoc. cbn [app]. apply p_region_ok; assumption.
    + intros x _. eexists; eexists; split; reflexivity.
Qed.

Lemma step_attrs : forall attrs T X, X = attrs_part attrs ++ T -> wf_dict attrs = true -> hd_is is_lb T = false ->
  (match X with TLB :: _ => p_dict X | _ => Some ([], X) end) = Some (attrs, T).
Proof.
  intros attrs T X -> W H. destruct attrs as [|e attrs'].
  - cbn [attrs_part app]. destruct T as [|t T']; [reflexivity|]. destruct t; try reflexivity. discriminate.
  - cbn [attrs_part]. rewrite p_dict_ok by exact W. reflexivity.
Qed.

Lemma step_res : forall res T X, X = res_part res ++ T -> hd_is is_pct T = false ->
  (match X with TPct _ :: _ => parse_commas p_pct is_eq (length X) X | _ => Some ([], X) end) = Some (res, T).
Proof.
  intros res T X -> H. destruct res as [|x res'].
  - cbn [res_part app]. destruct T as [|t T']; [reflexivity|]. destruct t; try reflexivity. discriminate.
  - unfold res_part. rewrite <- app_assoc. cbn [app].
    assert (Hd : exists r', sep_by (map (fun n => [TPct n]) (x :: res')) ++ TEq :: T = TPct x :: r').
    { cbn [map sep_by]. destruct (map (fun n => [TPct n]) res'); cbn; eexists; reflexivity. }
    destruct Hd as [r' Er]. rewrite Er. rewrite <- Er.
    apply (parse_commas_ok p_pct (fun n => [TPct n]) is_eq (x :: res') TEq); try reflexivity; [discriminate|].
    apply commas_fuel. discriminate.
Qed.

Lemma toks_op_split : forall nm res args succs props regs attrs it ot rest,
  toks_op (Op nm res args succs props regs attrs it ot) ++ rest =
  res_part res ++ TStrL nm :: TLP :: sep_by (map (fun n => [TPct n]) args) ++ TRP ::
  succ_part succs ++ props_part props ++ toks_regs regs ++ attrs_part attrs ++
  TColon :: toks_types it ++ TArrow :: outs_part ot ++ rest.
Proof.
  intros. cbn [toks_op]. unfold res_part, succ_part, props_part, attrs_part, outs_part, toks_regs.
  rewrite <- !app_assoc. cbn [app]. reflexivity.
Qed.

Lemma toks_types_ok : forall l rest, forallb is_type_atom l = true ->
  parse_list p_type is_rp (sep_by (map (fun a => [atom_tok a]) l) ++ TRP :: rest) = Some (l, rest).
Proof.
  intros l rest H. apply (parse_list_ok p_type (fun a => [atom_tok a]) is_rp l TRP rest); try reflexivity.
  - intros a Ha rest' _. rewrite forallb_forall in H. cbn [app]. apply p_type_ok. apply H. exact Ha.
  - intros a _. eexists; eexists; split; [reflexivity|apply atom_tok_not_close].
Qed.

Lemma step_outs : forall ot rest X, X = outs_part ot ++ rest -> forallb is_type_atom ot = true ->
  (match X with
   | TLP :: r6' => parse_list p_type is_rp r6'
   | _ => match p_type X with Some (a, r7) => Some ([a], r7) | None => None end
   end) = Some (ot, rest).
Proof.
  intros ot rest X -> Wo. unfold outs_part. destruct ot as [|t [|t2 ot']].
  - reflexivity.
  - cbn [app]. cbn in Wo. rewrite andb_true_r in Wo. rewrite (p_type_ok t rest Wo).
    destruct t as [k|k|k]; reflexivity.
  - unfold toks_types. cbn [app]. rewrite <- app_assoc. cbn [app]. apply toks_types_ok. exact Wo.
Qed.

Lemma p_op_body_ok : forall nm res args succs props regs attrs it ot rest,
  (nm <? 100)%Z = true -> length args = length it -> (res = [] \/ length res = length ot) ->
  wf_dict props = true -> wf_dict attrs = true ->
  forallb is_type_atom it = true -> forallb is_type_atom ot = true ->
  Forall (fun r => region_ok r /\ Forall blk_ok r) regs ->
  p_op_body po (toks_op (Op nm res args succs props regs attrs it ot) ++ rest) =
  Some (Op nm res args succs props regs attrs it ot, rest).
Proof.
  intros nm res args succs props regs attrs it ot rest Hnm Ha Hr Wp Wa Wi Wo Hregs.
  rewrite toks_op_split.
  set (T4 := TColon :: toks_types it ++ TArrow :: outs_part ot ++ rest).
  set (T3 := attrs_part attrs ++ T4).
  set (T2 := toks_regs regs ++ T3).
  set (T1 := props_part props ++ T2).
  set (T0 := succ_part succs ++ T1).
  assert (H3 : hd_is is_lp T3 = false).
  { unfold T3, attrs_part, T4. destruct attrs; reflexivity. }
  assert (H2 : hd_is is_lt T2 = false).
  { unfold T2, toks_regs, T3, attrs_part, T4. destruct regs; [destruct attrs; reflexivity|reflexivity]. }
  assert (H1 : hd_is is_ls T1 = false).
  { unfold T1, props_part, T2, toks_regs, T3, attrs_part, T4.
    destruct props; [destruct regs; [destruct attrs; reflexivity|reflexivity]|reflexivity]. }
  assert (H4 : hd_is is_lb T4 = false) by reflexivity.
  unfold p_op_body. cbv zeta.
  rewrite (step_res res (TStrL nm :: TLP :: sep_by (map (fun n => [TPct n]) args) ++ TRP :: T0) _ eq_refl eq_refl).  rewrite Hnm.
  rewrite (parse_list_ok p_pct (fun n => [TPct n]) is_rp args TRP T0); try reflexivity.
  2:{ intros x _. eexists; eexists; split; reflexivity. }
  rewrite (step_succ succs T1 T0 eq_refl H1).
  rewrite (step_props props T2 T1 eq_refl Wp H2).
  rewrite (step_regs regs T3 T2 eq_refl Hregs H3).
  rewrite (step_attrs attrs T4 T3 eq_refl Wa H4).
  unfold T4. unfold toks_types at 1. cbn [app]. rewrite <- app_assoc. cbn [app].
  rewrite (toks_types_ok it _ Wi).
  rewrite (step_outs ot rest _ eq_refl Wo), Ha. rewrite Nat.eqb_refl. cbn [andb].
  destruct res as [|x res']; [reflexivity|]. destruct Hr as [Hr|Hr]; [discriminate|]. rewrite Hr. rewrite Nat.eqb_refl. reflexivity.
Qed.

End Body.

Definition wf_blocks := fix blocks (bs : list (block str str (option str))) (first : bool) : bool :=
  match bs with
  | [] => true
  | b :: bs' => wf_block b first && blocks bs' false
  end.

Lemma wf_blocks_labelled : forall bs, wf_blocks bs false = true -> Forall labelled bs.
Proof.
  induction bs as [|[[n|] bargs ops] bs IH]; cbn [wf_blocks wf_block]; intro H; [constructor| |discriminate].
  apply andb_true_iff in H. constructor; [exact I|apply IH; apply H].
Qed.
Lemma wf_region_ok : forall r, wf_blocks r true = true -> region_ok r.
Proof.
  intros [|[lab bargs ops] bs] H; [exact I|]. cbn [wf_blocks] in H. apply andb_true_iff in H. destruct H as [H1 H2].
  split; [|apply wf_blocks_labelled; exact H2]. destruct lab; [exact I|].
  destruct bargs; destruct ops; try discriminate. split; [reflexivity|discriminate].
Qed.
Lemma wf_blocks_each : forall bs first b, wf_blocks bs first = true -> In b bs -> exists fl, wf_block b fl = true.
Proof.
  induction bs as [|b0 bs IH]; intros first b H Hin; [contradiction|].
  cbn [wf_blocks] in H. apply andb_true_iff in H. destruct H as [H1 H2].
  destruct Hin as [Hin|Hin]; [subst; exists first; exact H1|eapply IH; eauto].
Qed.

Theorem parse_op_ok : forall o, wf_op o = true ->
  forall fuel, osize o <= fuel -> forall rest, parse_op fuel (toks_op o ++ rest) = Some (o, rest).
Proof.
  apply (op_ind2 (fun o => wf_op o = true -> forall fuel, osize o <= fuel -> forall rest,
                           parse_op fuel (toks_op o ++ rest) = Some (o, rest))
                 (fun b => forall first, wf_block b first = true -> forall f, bsize b <= f -> blk_ok (parse_op f) b)).
  - intros nm res args succs props regs attrs it ot IH W fuel Hf rest.
    destruct fuel as [|f]; [cbn in Hf; lia|]. cbn [parse_op].
    cbn [wf_op] in W. fold wf_blocks in W.
    repeat (apply andb_true_iff in W; let X := fresh "W" in destruct W as [W X]).
    apply p_op_body_ok; try assumption.
    + apply Nat.eqb_eq. assumption.
    + destruct res as [|x res']; [now left|right]. apply Nat.eqb_eq. assumption.
    + rewrite forallb_forall in W0. rewrite Forall_forall in IH |- *. intros r Hr. specialize (W0 r Hr).
      split; [apply wf_region_ok; exact W0|].
      rewrite Forall_forall. intros b Hb. specialize (IH r Hr). rewrite Forall_forall in IH.
      destruct (wf_blocks_each r true b W0 Hb) as [fl Wb].
      apply (IH b Hb fl Wb).
      cbn [osize] in Hf.
      pose proof (list_sum_in (fun r0 : list (block str str (option str)) => list_sum (map bsize r0)) regs r Hr) as S1.
      pose proof (list_sum_in bsize r b Hb) as S2. cbn beta in S1. lia.
  - intros lab bargs ops IH first W f Hf. cbn [wf_block] in W.
    apply andb_true_iff in W. destruct W as [W W2]. apply andb_true_iff in W. destruct W as [_ W1].
    cbn [blk_ok]. split; [exact W1|].
    intros o Ho rest'. rewrite Forall_forall in IH. rewrite forallb_forall in W2.
    apply (IH o Ho (W2 o Ho)). cbn [bsize] in Hf. pose proof (list_sum_in osize ops o Ho). lia.
Qed.

Lemma flat_map_sum : forall {A} (f : A -> nat) (g : A -> list tok) l,
  Forall (fun x => f x <= length (g x)) l -> list_sum (map f l) <= length (flat_map g l).
Proof.
  intros A f g l H. induction H as [|x l Hx _ IH]; [cbn; lia|].
  cbn [map flat_map]. rewrite app_length. unfold list_sum in *. cbn [fold_right]. lia.
Qed.
Lemma sep_by_sum : forall {A} (f : A -> nat) (g : A -> list tok) l,
  Forall (fun x => f x <= length (g x)) l -> list_sum (map f l) <= length (sep_by (map g l)).
Proof.
  intros A f g l H. induction H as [|x l Hx _ IH]; [cbn; lia|]. cbn [map]. unfold list_sum in *. cbn [fold_right].
  destruct l as [|y l']; [cbn [map sep_by fold_right]; lia|].
  change (sep_by (g x :: map g (y :: l'))) with (g x ++ TComma :: sep_by (map g (y :: l'))).
  rewrite app_length. cbn [length]. lia.
Qed.

(* an operation has at least as many tokens as operations nested in it: the length of the text is fuel enough *)
Lemma osize_le_length : forall o, osize o <= length (toks_op o).
Proof.
  apply (op_ind2 (fun o => osize o <= length (toks_op o)) (fun b => bsize b <= length (toks_block b))).
  - intros nm res args succs props regs attrs it ot IH. cbn [osize].
    rewrite <- (app_nil_r (toks_op _)). rewrite toks_op_split. repeat (progress (rewrite ?app_length; cbn [length])).
    assert (G : list_sum (map (fun r : list (block str str (option str)) => list_sum (map bsize r)) regs) <= length (toks_regs regs)); [|lia].
    unfold toks_regs. destruct regs as [|r0 regs0]; [cbn; lia|]. cbn [length]. rewrite app_length.
    assert (X : Forall (fun r : list (block str str (option str)) =>
                  list_sum (map bsize r) <= length (TLB :: flat_map toks_block r ++ [TRB])) (r0 :: regs0)).
    { apply Forall_forall. intros r Hr. rewrite Forall_forall in IH. cbn [length]. rewrite app_length.
      pose proof (flat_map_sum bsize toks_block r (IH r Hr)). lia. }
    apply (sep_by_sum (fun r => list_sum (map bsize r))) in X. lia.
  - intros lab bargs ops IH. cbn [bsize toks_block]. rewrite app_length.
    pose proof (flat_map_sum osize toks_op ops IH). lia.
Qed.

Theorem parse_toks_ok : forall res args succs props regs attrs it ot,
  let t := Op module_nm res args succs props regs attrs it ot in
  wf_op t = true -> parse_toks (toks_op t) = Some t.
Proof.
  intros res args succs props regs attrs it ot t W. unfold parse_toks.
  set (ts := toks_op t).
  assert (Hl : 2 <= length ts).
  { unfold ts, t. cbn [toks_op]. rewrite !app_length. cbn [length]. lia. }
  assert (Hp : parse_op (length ts) ts = Some (t, [])).
  { rewrite <- (app_nil_r ts) at 2. apply parse_op_ok; [exact W|apply osize_le_length]. }
  destruct (length ts) as [|f] eqn:El; [lia|]. cbn [parse_seq].
  destruct ts as [|t0 ts'] eqn:Ets; [cbn in El; lia|].
  rewrite Hp. destruct f as [|f']; [lia|]. cbn [parse_seq].
  unfold t. rewrite Z.eqb_refl. reflexivity.
Qed.

Fixpoint wf_skel (o : skel) : bool :=
  match o with
  | Op nm res args succs props regs attrs it ot =>
      (nm <? 100)%Z && (length args =? length it) && (match res with [] => true | _ => length res =? length ot end) &&
      wf_dict props && wf_dict attrs && forallb is_type_atom it && forallb is_type_atom ot &&
      forallb (fun r : list (block (Z * hint) Z (Z * hint)) => forallb wf_skel_block r) regs
  end
with wf_skel_block (b : block (Z * hint) Z (Z * hint)) : bool :=
  match b with
  | Bk lab bargs ops => forallb (fun a => is_type_atom (snd a)) bargs && forallb wf_skel ops
  end.

Lemma forallb_map' : forall {A B} (f : A -> B) (g : B -> bool) l, forallb g (map f l) = forallb (fun x => g (f x)) l.
Proof. induction l as [|x l IH]; cbn; [reflexivity|]. rewrite IH. reflexivity. Qed.

Lemma wf_name_op : forall p ir, wf_skel ir = true -> wf_op (name_op p ir) = true.
Proof.
  intros p ir. rewrite name_op_tmapP. revert ir.
  set (TM := tmapP (nfv p) (nfv p) (nfv p) (bname_of p) (name_block_lab p)).
  set (TB := tmapP_block (nfv p) (nfv p) (nfv p) (bname_of p) (name_block_lab p)).
  apply (op_ind2 (fun o => wf_skel o = true -> wf_op (TM o) = true)
                 (fun b => forall first : bool, wf_skel_block b = true ->
                           wf_block (TB b (if first then entry_printed b else true)) first = true)).
  - intros nm res args succs props regs attrs it ot IH W. cbn [wf_skel] in W. unfold TM. rewrite tmapP_eq. cbn [wf_op]. fold wf_blocks.
    apply andb_true_iff in W. destruct W as [W WH]. apply andb_true_iff. split.
    { (* the checks on the operation itself do not look at the names *)
      refine (eq_trans _ W). rewrite !map_length. destruct res; reflexivity. }
    rewrite forallb_forall in WH. apply forallb_forall. intros nr Hnr. apply in_map_iff in Hnr. destruct Hnr as [r [<- Hr]].
    specialize (WH r Hr). rewrite Forall_forall in IH. specialize (IH r Hr).
    destruct IH as [|b r' Hb Hr']; [reflexivity|]. cbn [forallb] in WH. apply andb_true_iff in WH. destruct WH as [Wb Wr].
    cbn [tmapP_region wf_blocks]. fold TB. rewrite (Hb true Wb). cbn [andb].
    clear Hr. revert Wr. induction Hr' as [|b' r'' Hb' _ IHr]; intro Wr; [reflexivity|].
    cbn [forallb] in Wr. apply andb_true_iff in Wr. destruct Wr as [Wb' Wr].
    cbn [map wf_blocks]. rewrite (Hb' false Wb'). exact (IHr Wr).
  - intros lab bargs ops IH first W. cbn [wf_skel_block] in W. apply andb_true_iff in W. destruct W as [W1 W2].
    unfold TB. rewrite tmapP_block_eq. cbn [wf_block]. rewrite forallb_map'. cbn [snd]. rewrite W1.
    assert (E : forallb wf_op (map TM ops) = true).
    { rewrite forallb_forall in W2. apply forallb_forall. intros no Hno. apply in_map_iff in Hno. destruct Hno as [o [Eo Ho]]. subst no.
      rewrite Forall_forall in IH. apply IH; [exact Ho|apply W2; exact Ho]. }
    unfold TM in E. rewrite E. rewrite !andb_true_r.
    unfold name_block_lab. destruct first.
    + unfold entry_printed. destruct bargs as [|a bargs']; destruct ops as [|o ops']; cbn; reflexivity.
    + reflexivity.
Qed.

Theorem text_roundtrip : forall c res args succs props regs attrs it ot,
  let ir : skel := Op module_nm res args succs props regs attrs it ot in
  hints_ok c (sched ir) -> well_scoped c ir = true -> wf_skel ir = true ->
  exists ir', parse_ir c (print_ir c ir) = Ok ir' /\ skel_iso c ir ir' /\ print_ir c ir' = print_ir c ir.
Proof.
  intros c res args succs props regs attrs it ot ir Hh Hw Hs.
  destruct (roundtrip c ir Hh Hw) as [ir' [P [I R]]].
  exists ir'. unfold parse_ir, print_ir.
  assert (E : parse_toks (toks_op (print_names c ir)) = Some (print_names c ir)).
  { unfold print_names. unfold ir at 2 3. cbn [name_op].
    apply (parse_toks_ok). change (wf_op (name_op (runP c (sched ir) pst0) ir) = true). apply wf_name_op. exact Hs. }
  rewrite E. split; [exact P|]. split; [exact I|]. rewrite R. reflexivity.
Qed.
