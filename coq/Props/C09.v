(* Props/C09.v -- property C09: IRDL attribute constraints accept exactly what they describe.
   The theorem statements closed by `exact` (+ Print Assumptions), and Examples by evaluation.
   Model: C09/Model.v.  Spec: `sat` (denotation), `wn` (well-named), `ctx_ok`, `le_env`,
   `valid_attr` in C09/Proofs.v; `good`, `hint_ok` in C09/ProofsGet.v.
   `final_leaf T` = a runtime-final class has no proper subclass. *)
From Coq Require Import List Arith ZArith Bool.
From XV Require Import Base.Show C09.Model C09.Proofs C09.ProofsGet C09.Enc C09.ProofsU.
Import ListNotations.

(* verify accepts exactly the denotation:
   For every class table with final classes as leaves, every constraint tree whose AnyOf nodes
   passed their constructor checks and whose variable names each carry one inner constraint, every
   attribute and every consistent initial context: verify succeeds iff some assignment extending
   the context puts the attribute in the denotation; the context it returns extends the initial one,
   puts the attribute in the denotation, is consistent again, and is the LEAST such assignment. *)
Theorem C09_verify_denotes : forall T, final_leaf T -> forall G c a x,
  constructible T c = true -> wn G c -> ctx_ok T G x ->
  (verify_opt T c a x <> None <-> exists s, le_env (env_of x) s /\ sat T s c a) /\
  (forall x', verify_opt T c a x = Some x' ->
     le_env (env_of x) (env_of x') /\ sat T (env_of x') c a /\ ctx_ok T G x' /\
     forall s, le_env (env_of x) s -> sat T s c a -> le_env (env_of x') s).
Proof. exact verify_denotes. Qed.
Print Assumptions C09_verify_denotes.

(* from the empty context (AttrConstraint.verifies) *)
Theorem C09_verifies_denotes : forall T, final_leaf T -> forall G c a,
  constructible T c = true -> wn G c -> (verifies T c a = true <-> exists s, sat T s c a).
Proof. exact verifies_denotes. Qed.
Print Assumptions C09_verifies_denotes.

(* the two halves separately: completeness needs no naming discipline, soundness no constructor checks *)
Theorem C09_verify_complete : forall T, final_leaf T -> forall c, constructible T c = true ->
  forall a x s, le_env (env_of x) s -> sat T s c a ->
  exists x', verify T c a x = (true, x') /\ le_env (env_of x') s.
Proof. exact verify_complete. Qed.
Print Assumptions C09_verify_complete.

Theorem C09_verify_sound : forall T G c, wn G c -> forall a x x', ctx_ok T G x ->
  verify T c a x = (true, x') -> sat T (env_of x') c a /\ ctx_ok T G x'.
Proof. exact verify_sound. Qed.
Print Assumptions C09_verify_sound.

(* scope note: with one name carrying two different inner constraints the second one is never
   checked (the code only compares with the binding), so verify accepts outside the denotation *)
Theorem C09_verify_sound_needs_wellnamed : exists c a x',
  constructible U c = true /\ verify_opt U c a [] = Some x' /\ forall s, ~ sat U s c a.
Proof. exact illnamed_witness. Qed.
Print Assumptions C09_verify_sound_needs_wellnamed.

Theorem C09_bases_sound : forall T, final_leaf T -> forall c s a b,
  sat T s c a -> bases T c = Some b -> In (cls a) b.
Proof. exact bases_sound. Qed.
Print Assumptions C09_bases_sound.

Theorem C09_bases_sound_verify : forall T, final_leaf T -> forall G c a x x' b,
  wn G c -> ctx_ok T G x -> verify_opt T c a x = Some x' -> bases T c = Some b -> In (cls a) b.
Proof. exact bases_sound_verify. Qed.
Print Assumptions C09_bases_sound_verify.

(* constraint variables:
   verify never changes or drops a binding (even when it fails); after a success every name in
   variables() is bound and every occurrence of a variable matched exactly the bound attribute
   (that is what `sat (env_of x')` says at CVar nodes). *)
Theorem C09_var_consistent : forall T G c a x,
  (forall b x', verify T c a x = (b, x') -> le_env (env_of x) (env_of x')) /\
  (wn G c -> ctx_ok T G x -> forall x', verify_opt T c a x = Some x' ->
     (forall n, In n (variables c) -> cget x' n <> None) /\ sat T (env_of x') c a).
Proof. exact var_consistent. Qed.
Print Assumptions C09_var_consistent.

(* union simplification / merging:
   AnyOf.get (flattening nested AnyOf, AnyAttr short-cut, relax_constraint merging of Eq/Set/Base/
   Param alternatives, final AnyOf constructor) and `|`: whenever they do not raise, the result
   denotes exactly the union of the alternatives; the model's loop fuel is never exhausted; the
   result's AnyOf nodes passed their constructor checks (so C09_verify_denotes applies to it). *)
Theorem C09_anyof_get_preserves : forall T cs r, anyof_get T cs = Ok r ->
  forall s a, sat T s r a <-> existsP (fun c => sat T s c a) cs.
Proof. exact anyof_get_sem. Qed.
Print Assumptions C09_anyof_get_preserves.

Theorem C09_or_preserves : forall T x y v, c_or T x y = Ok v ->
  forall s a, sat T s v a <-> sat T s x a \/ sat T s y a.
Proof. exact c_or_sem. Qed.
Print Assumptions C09_or_preserves.

Theorem C09_anyof_get_never_out_of_fuel : forall T cs, anyof_get T cs <> Err EFuel.
Proof. exact anyof_get_fuel. Qed.
Print Assumptions C09_anyof_get_never_out_of_fuel.

Theorem C09_anyof_get_constructible : forall T cs r,
  (forall c, In c cs -> constructible T c = true) -> anyof_get T cs = Ok r -> constructible T r = true.
Proof. exact constructible_get. Qed.
Print Assumptions C09_anyof_get_constructible.

(* ParamAttrConstraint.get (all-Eq -> EqAttrConstraint of the built attribute, all-Any -> BaseAttr):
   same denotation on every attribute whose instances of the class have as many parameters as
   there are constraints *)
Theorem C09_param_get_preserves : forall T,
  final_leaf T -> (forall k, sub T k k = true) ->
  forall k cs r, param_get T k cs = Ok r -> forall s a,
  (inst T a k = true -> exists k' ps, a = Par k' ps /\ length ps = length cs) ->
  (sat T s r a <-> sat T s (CParam k cs) a).
Proof. exact param_get_sem. Qed.
Print Assumptions C09_param_get_preserves.

(* can_infer / infer:
   Full statement "can_infer -> the inferred attribute verifies" is REFUTED by the faithful model
   of the unchanged code (known findings C09-kf-1, C09-kf-2): *)
Theorem C09_infer_satisfies_refuted : exists c x v,
  constructible U c = true /\ can_infer U c (cdom x) = true /\
  infer U c x = Ok v /\ verify_opt U c v x = None.
Proof. exact infer_refuted_witness. Qed.
Print Assumptions C09_infer_satisfies_refuted.

Theorem C09_infer_raises_refuted : exists c x,
  constructible U c = true /\ can_infer U c (cdom x) = true /\ infer U c x = Err EVerify.
Proof. exact infer_raises_witness. Qed.
Print Assumptions C09_infer_raises_refuted.

(* strongest statement that holds: whenever SOME valid attribute satisfies the constraint under an
   assignment extending the context, infer returns exactly that attribute (so it is the only one)
   and verify accepts it *)
Theorem C09_infer_satisfies_partial : forall T, final_leaf T -> forall c x s a,
  constructible T c = true -> can_infer T c (cdom x) = true ->
  le_env (env_of x) s -> valid_attr T a -> sat T s c a ->
  infer T c x = Ok a /\ exists x', verify T c a x = (true, x').
Proof. exact infer_satisfies_partial. Qed.
Print Assumptions C09_infer_satisfies_partial.

(* the extra hypothesis is satisfiable (variable taken from the context, non-trivial class invariant) *)
Theorem C09_infer_partial_nonvacuous : exists c x a,
  constructible U c = true /\ can_infer U c (cdom x) = true /\ valid_attr U a /\
  sat U (env_of x) c a /\ infer U c x = Ok a.
Proof. exact infer_partial_witness. Qed.
Print Assumptions C09_infer_partial_nonvacuous.

(* type hints:
   irdl_to_attr_constraint(hint) agrees with isa(attr, hint) whenever both return.  The content is in the class
   and union hints: for a generic parametrized class isa is, in the code as in the model, verifies of the derived
   constraint, and for Annotated isa raises ("unsupported type hint"), so it never returns *)
Theorem C09_hint_agrees : forall T,
  final_leaf T -> (forall k, sub T k 0 = true) ->
  forall a h, hint_ok T h -> forall c b,
  hint_constr T h = Ok c -> isa T a h = Ok b -> verifies T c a = b.
Proof. exact hint_agrees. Qed.
Print Assumptions C09_hint_agrees.

Theorem C09_table_hypotheses :
  final_leaf U /\ (forall k, sub U k k = true) /\ (forall k, sub U k 0 = true) /\
  (forall k, ntv U k <> 0 -> forallP (good U) (cdef U k)).
Proof. exact (conj U_final_leaf (conj U_refl (conj U_root U_generic_cdef_good))). Qed.
Print Assumptions C09_table_hypotheses.

(* Pair[Shape, IntAttr|StringAttr] with a variable shared between two positions *)
Example C09_ex_accept :
  verify_opt U (CAllOf [CParam 15 [CVar 0 (CBase 11); CAnyOf [CBase 3; CBase 4]];
                        CParam 15 [CVar 0 (CBase 11); CAny]])
             (Par 15 [Par 12 []; Data 4 1]) []
  = Some [(0, Par 12 [])].
Proof. vm_compute. reflexivity. Qed.
(* IntegerAttr[IntegerType] | IntegerAttr[IndexType] merges into one parametrized constraint *)
Example C09_ex_merge :
  anyof_get U [CParam 10 [CBase 3; CBase 9]; CParam 10 [CBase 3; CBase 6]]
  = Ok (CParam 10 [CBase 3; CAnyOf [CBase 9; CBase 6]]).
Proof. vm_compute. reflexivity. Qed.
(* TypeAttribute | IntegerType cannot be verified as disjoint: PyRDLError *)
Example C09_ex_pyrdl : anyof_get U [CBase 1; CBase 9] = Err EPyRDL.
Proof. vm_compute. reflexivity. Qed.
