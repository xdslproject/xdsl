(* C01/ProofsReplaceType.v -- WF is preserved by Rewriter.replace_value_with_new_type
   (a fresh OpResult / BlockArgument takes the place of `val` in its owner, all uses are moved). *)
From Coq Require Import ZArith List Bool PArith FMapPositive Lia.
From XV Require Import C01.Model C01.Spec C01.ProofsBase C01.ProofsFrame C01.ProofsUses C01.ProofsOperands
  C01.ProofsRauw C01.ProofsOps C01.ProofsBlocks C01.ProofsArgs.
Import ListNotations.
Local Open Scope Z_scope.

Lemma kill_value_I_shadow : forall s2 s3 s4 val vr r,
  same_I s2 s3 -> PM.find val (s_values s2) = Some vr -> kill [GValue val] s3 = (s4, Ok r) ->
  same_I (with_values (PM.add val (set_v_dead true vr) (s_values s2)) s2) s4.
Proof. exact kill_shadow. Qed.

(* the index clauses for one class of owner: a table of records with a list of value slots, and the
   constructor K that tags a value with its owner and position.  Each slot holds a value tagged
   with that slot, and each live value tagged by K sits in the slot its tag names. *)
Definition indexed {R} (er : R -> bool) (fld : R -> list positive) (K : positive -> Z -> vkind)
    (tbl : PM.t R) (vals : PM.t value_rec) : Prop :=
  (forall o x, PM.find o tbl = Some x -> er x = false -> forall i v, nth_error (fld x) i = Some v ->
     exists vr, PM.find v vals = Some vr /\ v_kind vr = K o (Z.of_nat i)) /\
  (forall v vr o i, PM.find v vals = Some vr -> v_dead vr = false -> v_kind vr = K o i ->
     exists x, PM.find o tbl = Some x /\ znth (fld x) i = Some v).

(* the three index clauses of WF are `indexed` for the results of ops and for the arguments of blocks *)
Lemma WF_index_split : forall s, WF_results s /\ WF_args s /\ WF_owner s <->
  indexed o_erased o_results KRes (s_ops s) (s_values s) /\ indexed b_erased b_args KArg (s_blocks s) (s_values s).
Proof.
  intro s. split.
  - intros (IO & IB & H). split; (split; [assumption|]); intros v vr o i F D K.
    + specialize (H v vr F D). rewrite K in H. exact H.
    + specialize (H v vr F D). rewrite K in H. exact H.
  - intros [[IO HO] [IB HB]]. split; [exact IO|split; [exact IB|]]. intros v vr F D.
    destruct (v_kind vr) eqn:K; [eapply HO; eauto|eapply HB; eauto|exact I].
Qed.

(* the values table after the replacement: `val` is dead, the fresh `e` has kind k, the rest is as before *)
Definition retagged val vr0 e k (vals vals' : PM.t value_rec) : Prop :=
  forall y, PM.find y vals' = if Pos.eqb y val then Some (set_v_dead true vr0)
                              else if Pos.eqb y e then Some (mkValue k None false) else PM.find y vals.

Lemma retagged_old : forall val vr0 e k vals vals', retagged val vr0 e k vals vals' -> PM.find e vals = None ->
  forall y yr, PM.find y vals = Some yr -> y <> val -> PM.find y vals' = Some yr.
Proof.
  intros val vr0 e k vals vals' VAL Fe y yr Fy Ny. rewrite VAL. destruct (Pos.eqb_spec y val); [contradiction|].
  destruct (Pos.eqb_spec y e); [subst; congruence|exact Fy].
Qed.

(* the table of the owner o of `val`: slot idx of o now holds e, which is tagged K o idx
   (tbl1 is tbl as the state after the allocation names it) *)
Lemma owner_table : forall {R} (er : R -> bool) (fld : R -> list positive) K tbl tbl1 vals vals' o x x' idx val vr0 e,
  (forall a b i j, K a i = K b j -> a = b /\ i = j) -> tbl1 = tbl ->
  PM.find o tbl = Some x -> znth (fld x) idx = Some val -> PM.find val vals = Some vr0 -> v_kind vr0 = K o idx ->
  PM.find e vals = None -> retagged val vr0 e (K o idx) vals vals' -> indexed er fld K tbl vals ->
  fld x' = replace_at (fld x) idx e -> er x' = er x -> indexed er fld K (PM.add o x' tbl1) vals'.
Proof.
  intros R er fld K tbl ? vals vals' o x x' idx val vr0 e INJ -> Fx Zx Fv0 Kv Fe VAL [IX OW] FLD ER.
  pose proof (znth_lt _ _ _ Zx) as Ri. pose proof (retagged_old _ _ _ _ _ _ VAL Fe) as OLD.
  (* a slot other than (o, idx) keeps its value *)
  assert (KEEP : forall o' y i w, PM.find o' tbl = Some y -> er y = false -> nth_error (fld y) i = Some w ->
                   o' <> o \/ Z.of_nat i <> idx -> exists wr, PM.find w vals' = Some wr /\ v_kind wr = K o' (Z.of_nat i)).
  { intros o' y i w F' E' Nw NE. destruct (IX o' y F' E' i w Nw) as (wr & Fw & Kw).
    exists wr. split; [|exact Kw]. apply OLD; [exact Fw|]. intro; subst w.
    rewrite Fv0 in Fw. injection Fw as <-. rewrite Kv in Kw. apply INJ in Kw. destruct Kw, NE; congruence. }
  split.
  - intros o' y F' E' i w Nw. rewrite find_add in F'. destruct (Pos.eqb_spec o' o) as [->|No]; [|eauto].
    injection F' as <-. rewrite ER in E'. rewrite FLD, <- znth_of_nat, znth_replace_at in Nw by exact Ri.
    destruct (Z.eqb_spec (Z.of_nat i) idx) as [Ei|Ni].
    + injection Nw as <-. exists (mkValue (K o idx) None false). split; [|simpl; rewrite Ei; reflexivity].
      rewrite VAL. destruct (Pos.eqb_spec e val); [congruence|]. rewrite Pos.eqb_refl. reflexivity.
    + rewrite znth_of_nat in Nw. eauto.
  - intros y yr o' i' Fy Dy Ky. rewrite VAL in Fy. destruct (Pos.eqb_spec y val) as [->|Ny].
    + injection Fy as <-. simpl in Dy. discriminate.
    + rewrite find_add. destruct (Pos.eqb_spec y e) as [->|Ne].
      * injection Fy as <-. simpl in Ky. apply INJ in Ky as [<- <-]. rewrite Pos.eqb_refl.
        exists x'. split; [reflexivity|]. rewrite FLD, znth_replace_at by exact Ri. rewrite Z.eqb_refl. reflexivity.
      * destruct (OW y yr o' i' Fy Dy Ky) as (z & F' & Z'). destruct (Pos.eqb_spec o' o) as [->|No]; [|eauto].
        exists x'. split; [reflexivity|]. assert (z = x) by congruence. subst z.
        rewrite FLD, znth_replace_at by exact Ri. destruct (Z.eqb_spec i' idx) as [Ei|Ni]; [|exact Z'].
        rewrite Ei, Zx in Z'. congruence.
Qed.

(* the table of the other class is not written, and its constructor K tags neither `val` nor e *)
Lemma other_table : forall {R} (er : R -> bool) (fld : R -> list positive) K tbl tbl1 vals vals' val vr0 e k,
  tbl1 = tbl -> v_kind vr0 = k -> (forall o i, k <> K o i) -> PM.find val vals = Some vr0 -> PM.find e vals = None ->
  retagged val vr0 e k vals vals' -> indexed er fld K tbl vals -> indexed er fld K tbl1 vals'.
Proof.
  intros R er fld K tbl ? vals vals' val vr0 e k -> Kv NK Fv0 Fe VAL [IX OW].
  pose proof (retagged_old _ _ _ _ _ _ VAL Fe) as OLD. split.
  - intros o y F E i w Nw. destruct (IX o y F E i w Nw) as (wr & Fw & Kw).
    exists wr. split; [|exact Kw]. apply OLD; [exact Fw|]. intro; subst w.
    rewrite Fv0 in Fw. injection Fw as <-. rewrite Kv in Kw. destruct (NK _ _ Kw).
  - intros y yr o i Fy Dy Ky. rewrite VAL in Fy. destruct (Pos.eqb_spec y val) as [->|Ny].
    + injection Fy as <-. simpl in Dy. discriminate.
    + destruct (Pos.eqb_spec y e) as [->|Ne]; [|exact (OW y yr o i Fy Dy Ky)].
      injection Fy as <-. destruct (NK _ _ Ky).
Qed.

(* the part common to both cases.  Everything except the index clauses follows from the frames;
   the index clauses are those of the shadow state `sh` (s2 with `val` dead), whose values table is known. *)
Lemma rvnt_common : forall s s1 s2 s3 s4 k e val vr0 r3 r4,
  WF s -> allocV (mkValue k None false) s = (s1, Ok e) -> PM.find val (s_values s) = Some vr0 ->
  same_T1 s1 s2 -> same_T2 s1 s2 -> same_T3 s1 s2 -> same_U s1 s2 -> same_A s1 s2 -> s_values s2 = s_values s1 ->
  replace_all_uses_with val e s2 = (s3, Ok r3) -> kill [GValue val] s3 = (s4, Ok r4) ->
  let sh := with_values (PM.add val (set_v_dead true vr0) (s_values s2)) s2 in
  (WF_results sh /\ WF_args sh /\ WF_owner sh -> WF s4) /\
  retagged val vr0 e k (s_values s) (s_values sh) /\ PM.find e (s_values s) = None.
Proof.
  intros s s1 s2 s3 s4 k e val vr0 r3 r4 W Ha Fv0 T1 T2 T3 SU SA V2 Hr Hk sh.
  pose proof (allocV_T1 _ s s1 _ Ha) as A1. pose proof (allocV_T2 _ s s1 _ Ha) as A2.
  pose proof (allocV_T3 _ s s1 _ Ha) as A3.
  pose proof (rauw_T1 val e s2 s3 _ Hr) as R1. pose proof (rauw_T2 val e s2 s3 _ Hr) as R2.
  pose proof (rauw_T3 val e s2 s3 _ Hr) as R3. pose proof (rauw_A val e s2 s3 _ Hr) as RA.
  pose proof (kill_value_T1 val s3 s4 _ Hk) as K1. pose proof (kill_value_T2 val s3 s4 _ Hk) as K2.
  pose proof (kill_value_T3 val s3 s4 _ Hk) as K3. pose proof (kill_value_U val s3 s4 _ Hk) as KU.
  pose proof (kill_value_A val s3 s4 _ Hk) as KA.
  destruct (allocV_eff _ _ _ _ Ha) as (Ee & _ & _ & V1).
  assert (Fe : PM.find e (s_values s) = None) by (rewrite Ee; apply fresh_of_alloc; apply (wf_alloc s W)).
  assert (Fv2 : PM.find val (s_values s2) = Some vr0).
  { rewrite V2, V1, find_add, <- Ee. destruct (Pos.eqb_spec val e); [congruence|exact Fv0]. }
  split; [|split; [|exact Fe]].
  - intro IX. apply (WF_parts s s4 W).
    + eapply (fr_trans _ fr_T1); [exact A1|]; eapply (fr_trans _ fr_T1); [exact T1|]; eapply (fr_trans _ fr_T1); eauto.
    + eapply (fr_trans _ fr_T2); [exact A2|]; eapply (fr_trans _ fr_T2); [exact T2|]; eapply (fr_trans _ fr_T2); eauto.
    + eapply (fr_trans _ fr_T3); [exact A3|]; eapply (fr_trans _ fr_T3); [exact T3|]; eapply (fr_trans _ fr_T3); eauto.
    + eapply UWF_same; [|exact KU]. eapply rauw_UWF; [|exact Hr]. eapply UWF_same; [|exact SU].
      eapply (allocV_UWF (mkValue k None false)); [apply WF_UWF; exact W|rewrite <- Ee; exact Fe|reflexivity|exact Ha].
    + eapply WF_alloc_same; [exact KA|]. eapply WF_alloc_same; [exact RA|]. eapply WF_alloc_same; [exact SA|].
      eapply allocV_alloc; [apply (wf_alloc s W)|exact Ha].
    + exact (WF_index_same sh s4 (kill_shadow s2 s3 s4 val vr0 _ (rauw_I val e s2 s3 _ Hr) Fv2 Hk) IX).
  - intro y. unfold sh. simpl. rewrite V2, V1, !find_add, Ee. reflexivity.
Qed.

Theorem rw_replace_value_with_new_type_WF : forall s s' val v,
  WF s -> val_live s val -> rw_replace_value_with_new_type val s = (s', Ok v) -> WF s'.
Proof.
  intros s s' val v W (vr0 & Fv0 & Dv0) H. unfold rw_replace_value_with_new_type in H.
  apply bind_ok in H as (s0 & vr & Hg & H). apply getV_ok in Hg as [-> Fv]. rewrite Fv0 in Fv. injection Fv as <-.
  pose proof (wf_owner s W val vr0 Fv0 Dv0) as OWN.
  destruct (proj1 (WF_index_split s) (conj (wf_results s W) (conj (wf_args s W) (wf_owner s W)))) as [IXO IXB].
  destruct (v_kind vr0) as [o idx|b idx|old] eqn:Kv; [| |exfalso; eapply raise_ok; eauto].
  - (* an operation result *)
    destruct OWN as (x & Fx & Zx).
    apply bind_ok in H as (s1 & e & Ha & H). destruct (allocV_eff _ _ _ _ Ha) as (_ & O1 & B1 & _).
    apply bind_ok in H as (s1' & orec & Hg & H). apply getO_ok in Hg as [-> Fo1].
    rewrite O1, Fx in Fo1. injection Fo1 as <-.
    apply bind_ok in H as (s2 & ? & Hu & H).
    apply bind_ok in H as (s3 & ? & Hr & H). apply bind_ok in H as (s4 & ? & Hk & H). apply ret_ok in H as [-> ->].
    assert (T1 : same_T1 s1 s2) by (eapply (updO_same_T1 o); [|exact Hu]; intro; reflexivity).
    assert (T2 : same_T2 s1 s2) by (eapply (updO_same_T2 o); exact Hu).
    assert (T3 : same_T3 s1 s2) by (eapply (updO_same_T3 o); [|exact Hu]; intro; reflexivity).
    assert (SU : same_U s1 s2) by (eapply (updO_same_U o); [|exact Hu]; intro; reflexivity).
    assert (SA : same_A s1 s2) by (eapply (updO_same_A o); exact Hu).
    apply updO_ok in Hu as (xo & Fxo & ->). rewrite O1, Fx in Fxo. injection Fxo as <-.
    fold (replace_at (o_results x) idx e) in *.
    destruct (rvnt_common s s1 _ s3 s4 _ e val vr0 _ _ W Ha Fv0 T1 T2 T3 SU SA eq_refl Hr Hk) as (WFI & VAL & Fe).
    apply WFI. apply WF_index_split. split.
    + apply (owner_table o_erased o_results KRes _ _ _ _ o x _ idx val vr0 e ltac:(now injection 1) O1
               Fx Zx Fv0 Kv Fe VAL IXO); reflexivity.
    + exact (other_table b_erased b_args KArg _ _ _ _ val vr0 e _ B1 Kv ltac:(discriminate) Fv0 Fe VAL IXB).
  - (* a block argument *)
    destruct OWN as (x & Fx & Zx).
    apply bind_ok in H as (s1 & e & Ha & H). destruct (allocV_eff _ _ _ _ Ha) as (_ & O1 & B1 & _).
    apply bind_ok in H as (s1' & brec & Hg & H). apply getB_ok in Hg as [-> Fb1].
    rewrite B1, Fx in Fb1. injection Fb1 as <-.
    apply bind_ok in H as (s2 & ? & Hu & H).
    apply bind_ok in H as (s3 & ? & Hr & H). apply bind_ok in H as (s4 & ? & Hk & H). apply ret_ok in H as [-> ->].
    assert (T1 : same_T1 s1 s2) by (eapply (updB_same_T1 b); [|exact Hu]; intro; reflexivity).
    assert (T2 : same_T2 s1 s2) by (eapply (updB_same_T2 b); [|exact Hu]; intro; reflexivity).
    assert (T3 : same_T3 s1 s2) by (eapply (updB_same_T3 b); exact Hu).
    assert (SU : same_U s1 s2) by (eapply (updB_same_U b); [|exact Hu]; intro; reflexivity).
    assert (SA : same_A s1 s2) by (eapply (updB_same_A b); exact Hu).
    apply updB_ok in Hu as (xo & Fxo & ->). rewrite B1, Fx in Fxo. injection Fxo as <-.
    fold (replace_at (b_args x) idx e) in *.
    destruct (rvnt_common s s1 _ s3 s4 _ e val vr0 _ _ W Ha Fv0 T1 T2 T3 SU SA eq_refl Hr Hk) as (WFI & VAL & Fe).
    apply WFI. apply WF_index_split. split.
    + exact (other_table o_erased o_results KRes _ _ _ _ val vr0 e _ O1 Kv ltac:(discriminate) Fv0 Fe VAL IXO).
    + apply (owner_table b_erased b_args KArg _ _ _ _ b x _ idx val vr0 e ltac:(now injection 1) B1
               Fx Zx Fv0 Kv Fe VAL IXB); reflexivity.
Qed.
