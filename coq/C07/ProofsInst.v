(* C07/ProofsInst.v -- the general theorems instantiated for the repaired configuration (rx_ok, progress_ok by
   evaluation), and for the pinned configuration the witnesses against the full statements and the partial
   statements that hold.  The step count of the pinned string pattern on an unterminated literal is the theorem
   RegexProofs.nested_plus_steps; the literal of 4301 digits is consumed by ProofsText.lex_decimal_run; the
   other witnesses are evaluated. *)
From Coq Require Import ZArith Nnat List Bool Arith Lia.
From XV Require Import C07.Regex C07.RegexProofs C07.Model C07.Current C07.Proofs C07.ProofsLabels C07.ProofsText.
From XV Require Import Gen.C07_regexes.
Import ListNotations.

Lemma rx_ok_repaired : rx_ok repaired_cfg = true.
Proof. vm_compute. reflexivity. Qed.
Lemma progress_ok_repaired : progress_ok repaired_cfg = true.
Proof. vm_compute. reflexivity. Qed.

Theorem lex_linear_repaired : forall O s, lex_steps O repaired_cfg s <= Kof repaired_cfg * (length s + 1).
Proof. intros O s. exact (lex_linear_general O repaired_cfg rx_ok_repaired s). Qed.
Theorem lex_total_repaired : forall O s, no_internal (lex_outcome O repaired_cfg s).
Proof. intros O s. exact (lex_total_general O repaired_cfg progress_ok_repaired eq_refl s). Qed.
Theorem labels_no_internal_repaired : forall U es k, run U repaired_cfg pinit es <> PInternal k.
Proof. intros U es k. exact (labels_no_internal_general U repaired_cfg eq_refl eq_refl es k). Qed.

(* a double quote followed by n letters a: an unterminated string literal *)
Definition w_unterminated (n : nat) : list Z := 34%Z :: repeat 97%Z n.
(* the generic operation test.op with the attribute dictionary {a = <lit>} and type () -> () *)
Definition w_attr (lit : list Z) : list Z :=
  ([34;116;101;115;116;46;111;112;34;40;41;32;123;97;32;61;32] ++ lit ++
   [125;32;58;32;40;41;32;45;62;32;40;41])%Z.

Lemma pinned_string_steps : forall n,
  bt_match cpy_named r_pinned_string (w_unterminated n) = (S (nested_steps n), MNone).
Proof.
  intro n. apply nested_plus_steps; try reflexivity. intros [|j] k; reflexivity.
Qed.

Lemma pinned_quote_steps : forall t,
  fst (bt_match cpy_named r_pinned_string (34%Z :: t)) <= lex_steps cpy pinned_cfg (34%Z :: t).
Proof.
  intro t. unfold lex_steps, lex. eapply Nat.le_trans; [|apply lex_all_steps_token].
  unfold lex_token, consume.
  change (bt_match (o_named cpy) (rx_ws pinned_cfg) (34%Z :: t)) with (4, MSome (34%Z :: t)). cbv iota beta.
  change (lex_dispatch cpy pinned_cfg ?p (34%Z :: t))
    with (S (fst (lex_string (o_named cpy) pinned_cfg p (34%Z :: t) (S p))),
          snd (lex_string (o_named cpy) pinned_cfg p (34%Z :: t) (S p))).
  cbn [fst]. rewrite lex_string_steps. change (rx_string pinned_cfg) with r_pinned_string.
  change (o_named cpy) with cpy_named. lia.
Qed.

Theorem lex_linear_pinned_refuted :
  exists s, Kof repaired_cfg * (length s + 1) < lex_steps cpy pinned_cfg s.
Proof.
  exists (w_unterminated 12). eapply Nat.lt_le_trans; [|apply pinned_quote_steps].
  fold (w_unterminated 12). rewrite pinned_string_steps. cbn [fst].
  apply Nat.compare_lt_iff. rewrite Nat2N.inj_compare, nested_steps_closed. reflexivity.
Qed.

(* step counts of the pinned string pattern on quote a^n for n = 4, 6, 8, 10, 12 (7*2^n - 1: doubling per
   character); the repaired pattern (r_proposed_string) on the same inputs: plus 5 per character *)
Lemma pinned_string_growth :
  map (fun n => N.of_nat (fst (bt_match cpy_named r_pinned_string (w_unterminated n)))) [4; 6; 8; 10; 12]
    = [111; 447; 1791; 7167; 28671]%N /\
  map (fun n => N.of_nat (fst (bt_match cpy_named r_proposed_string (w_unterminated n)))) [4; 6; 8; 10; 12]
    = [26; 36; 46; 56; 66]%N.
Proof.
  split; [|vm_compute; reflexivity]. cbn [map]. rewrite !pinned_string_steps. cbn [fst].
  rewrite !nested_steps_closed. reflexivity.
Qed.

Lemma pinned_digits_class : class_star (rx_digits pinned_cfg) = Some (CS false [(48, 57)%Z] []).
Proof. reflexivity. Qed.

(* for every n: the run goes to lex_decimal_run, it is not evaluated (the star loop compares two lengths at each
   iteration, so evaluating 4301 digits is quadratic) *)
Lemma pinned_ones_literal : forall p n post, 0 < n -> exists d,
  lex_dispatch cpy pinned_cfg p (repeat 49%Z n ++ 125%Z :: post) = (d, TOk K_INT p (p + n) (p + n, 125%Z :: post)).
Proof.
  intros p [|n] post Hn; [lia|]. cbn [repeat app].
  change (lex_dispatch cpy pinned_cfg p (49%Z :: ?r))
    with (S (fst (lex_number (o_named cpy) pinned_cfg 49 p (S p, r))), snd (lex_number (o_named cpy) pinned_cfg 49 p (S p, r))).
  rewrite (lex_number_decimal cpy pinned_cfg 49 p _ eq_refl).
  destruct (lex_decimal_run cpy pinned_cfg _ pinned_digits_class p (S p) (repeat 49%Z n) (125%Z :: post))
    as [d ->]; [|reflexivity|reflexivity|].
  - apply Forall_forall. intros x Hx. apply repeat_spec in Hx. subst x. reflexivity.
  - rewrite repeat_length, <- Nat.add_succ_comm. eexists. reflexivity.
Qed.

(* `_ = x` by evaluation on the VM, without `vm_compute`'s copy of the normal form (here a list of 4313
   code points) in the proof term *)
Ltac vm_refl x := match goal with |- ?G => exact (@eq_refl _ x <: G) end.

Theorem lex_total_pinned_refuted :
  lex_outcome cpy pinned_cfg (w_attr [178%Z]) = Internal ValueError /\
  lex_outcome cpy pinned_cfg (w_attr (repeat 49%Z (Z.to_nat 4301))) = Internal ValueError.
Proof.
  split; [vm_compute; reflexivity|].
  set (n := Z.to_nat 4301). set (post := [32; 58; 32; 40; 41; 32; 45; 62; 32; 40; 41]%Z).
  (* "test.op" ( ) { a = carry no literal; then a blank and the 4301 ones *)
  assert (Hskip : skip_tokens cpy pinned_cfg 6 (0, w_attr (repeat 49%Z n))
                  = Some (16, 32%Z :: repeat 49%Z n ++ 125%Z :: post))
    by vm_refl (Some (16, 32%Z :: repeat 49%Z n ++ 125%Z :: post)).
  assert (Ht : exists d, lex_token cpy pinned_cfg (16, 32%Z :: repeat 49%Z n ++ 125%Z :: post)
                         = (d, TOk K_INT 17 (17 + n) (17 + n, 125%Z :: post))).
  { unfold lex_token.
    replace (consume (o_named cpy) (rx_ws pinned_cfg) (16, 32%Z :: repeat 49%Z n ++ 125%Z :: post))
      with (10, CSome (17, repeat 49%Z n ++ 125%Z :: post))
      by vm_refl (10, CSome (17, repeat 49%Z n ++ 125%Z :: post)).
    destruct (pinned_ones_literal 17 n post ltac:(lia)) as [d ->]. eexists. reflexivity. }
  destruct Ht as [d Ht]. unfold lex_outcome, lex.
  apply (lex_all_internal_after cpy pinned_cfg _ 6 _ _ _ _ _ _ _ _ _ Hskip Ht); [|cbn [length w_attr app]; lia].
  change (skipn 17 (w_attr (repeat 49%Z n))) with (repeat 49%Z n ++ 125%Z :: post).
  replace (17 + n - 17) with (length (repeat 49%Z n)) by (rewrite repeat_length; lia).
  rewrite firstn_app, Nat.sub_diag, firstn_all, app_nil_r.
  apply (convert_int_long cpy pinned_cfg); [reflexivity|]. rewrite repeat_length. unfold int_max_str_digits. lia.
Qed.

Theorem labels_pinned_refuted :
  run cpy_named pinned_cfg pinit [EOpen; EDef [52; 50]%Z] = PInternal ValueError /\
  run cpy_named pinned_cfg pinit [EOpen; ESucc [97%Z]; EDef [97%Z]; EDef [97%Z]] = PInternal KeyError.
Proof. split; vm_compute; reflexivity. Qed.

(* inputs without a double quote never reach the string-literal pattern: replacing it changes nothing *)
Theorem lex_linear_partial_general : forall O cfg r, rx_ok (set_string cfg r) = true ->
  forall s, quote_free s -> lex_steps O cfg s <= Kof (set_string cfg r) * (length s + 1).
Proof.
  intros O cfg r Hok s Hq. unfold lex_steps, lex.
  rewrite <- (lex_all_nostring O cfg r s (S (length s)) 0 s Hq).
  exact (lex_linear_general O (set_string cfg r) Hok s).
Qed.

Lemma rx_ok_pinned_fixed_string : rx_ok (set_string pinned_cfg r_proposed_string) = true.
Proof. vm_compute. reflexivity. Qed.
Lemma K_pinned_fixed_string : Kof (set_string pinned_cfg r_proposed_string) = Kof repaired_cfg.
Proof. vm_compute. reflexivity. Qed.

Theorem lex_linear_pinned_partial : forall O s, quote_free s ->
  lex_steps O pinned_cfg s <= Kof repaired_cfg * (length s + 1).
Proof.
  intros O s Hq. rewrite <- K_pinned_fixed_string.
  exact (lex_linear_partial_general O pinned_cfg r_proposed_string rx_ok_pinned_fixed_string s Hq).
Qed.

Lemma progress_ok_pinned : progress_ok pinned_cfg = true.
Proof. vm_compute. reflexivity. Qed.

Theorem lex_total_pinned_partial : forall O s, (forall c, In c s -> o_numeric O c = false) ->
  no_internal (lex_outcome O pinned_cfg s).
Proof. intros O s H. exact (lex_total_partial O pinned_cfg progress_ok_pinned s H). Qed.

Lemma pinned_hex_class : class_star (rx_hex pinned_cfg) = Some (CS false [(48, 57); (97, 102); (65, 70)]%Z []).
Proof. reflexivity. Qed.
Lemma digits_class_ascii : forall U x, Regex.mem U (CS false [(48, 57)%Z] []) x = true -> is_ascii_digit x = true.
Proof.
  intros U x H. unfold Regex.mem, in_range in H. cbn [cs_neg cs_ranges cs_named existsb fst snd] in H.
  rewrite xorb_false_l, !orb_false_r in H. exact H.
Qed.
Lemma hex_class_hex : forall U x,
  Regex.mem U (CS false [(48, 57); (97, 102); (65, 70)]%Z []) x = true -> is_hex x = true.
Proof.
  intros U x H. unfold Regex.mem, in_range in H. cbn [cs_neg cs_ranges cs_named existsb fst snd] in H.
  rewrite xorb_false_l, !orb_false_r, orb_assoc in H. exact H.
Qed.

Theorem lex_total_pinned_partial_strong : forall O s,
  (forall x, is_ascii_digit x = true -> o_decimal O x = true) ->
  (forall x, In x s -> o_numeric O x = true -> is_ascii_digit x = true) ->
  (Z.of_nat (length s) <= 4300)%Z ->
  no_internal (lex_outcome O pinned_cfg s).
Proof.
  intros O s Hasc Hch Hlen.
  exact (lex_total_ascii_digits O pinned_cfg _ _ pinned_digits_class pinned_hex_class Hasc
           (digits_class_ascii (o_named O)) (hex_class_hex (o_named O)) progress_ok_pinned s Hch Hlen).
Qed.

(* the hypotheses of the partial statements are satisfiable by non-trivial inputs *)
Example partial_hypotheses_satisfiable :
  let s := [37; 120; 32; 61; 32; 97; 114; 105; 116; 104; 46; 97; 100; 100; 32; 37; 97; 44; 32; 37; 98]%Z in
  forallb (fun c => negb (c =? 34)%Z && negb (o_numeric cpy c)) s = true /\
  lex_outcome cpy pinned_cfg s = Done /\ length (fst (snd (lex cpy pinned_cfg s))) = 7.
Proof. vm_compute. repeat split; reflexivity. Qed.
(* %0 = arith.constant 42 : i32 -- digits present, all ASCII; and the oracle hypothesis holds of CPython's tables *)
Example strong_partial_hypotheses_satisfiable :
  let s := [37; 48; 32; 61; 32; 97; 114; 105; 116; 104; 46; 99; 111; 110; 115; 116; 97; 110; 116; 32; 52; 50;
            32; 58; 32; 105; 51; 50]%Z in
  forallb (fun c => negb (o_numeric cpy c) || is_ascii_digit c) s = true /\
  forallb (fun c => o_decimal cpy c) [48; 49; 50; 51; 52; 53; 54; 55; 56; 57]%Z = true /\
  lex_outcome cpy pinned_cfg s = Done /\ existsb (o_numeric cpy) s = true.
Proof. vm_compute. repeat split; reflexivity. Qed.
