(* C01/ProofsRauw.v -- WF is preserved by SSAValue.replace_all_uses_with and
   SSAValue.replace_uses_with_if (loops of OpOperands.__setitem__ over a snapshot of the use list), by
   SSAValue.erase (allocation of the placeholder value, then replace_all_uses_with) and by the
   PatternRewriter versions of the two replacements. *)
From Coq Require Import ZArith List Bool PArith FMapPositive Lia.
From XV Require Import C01.Model C01.Spec C01.ProofsBase C01.ProofsFrame C01.ProofsUses C01.ProofsOperands.
Import ListNotations.
Local Open Scope Z_scope.

(* tuple(self.uses) *)
Lemma uses_from_chain : forall fl cur s s' us, uses_from fl cur s = (s', Ok us) ->
  s' = s /\ chain (use_next s) cur us.
Proof.
  induction fl as [|f IH]; intros cur s s' us H; simpl in H.
  - exfalso. eapply raise_ok; eauto.
  - destruct cur as [u|].
    + apply bind_ok in H as (s0 & ur & Hg & H). apply getU_ok in Hg as [-> F].
      apply bind_ok in H as (s1 & rest & Hr & H). apply ret_ok in H as [-> ->].
      destruct (IH _ _ _ _ Hr) as [-> C]. split; [reflexivity|].
      econstructor; [|exact C]. unfold use_next, link. rewrite F. reflexivity.
    + apply ret_ok in H as [-> ->]. split; [reflexivity|constructor].
Qed.

Lemma uses_of_spec : forall h s s' us, uses_of h s = (s', Ok us) ->
  s' = s /\ exists fu, hfirst s h = Some fu /\ chain (use_next s) fu us.
Proof.
  intros h s s' us H. unfold uses_of in H.
  apply bind_ok in H as (s0 & fl & Hf & H). unfold get_fuel in Hf. apply gets_ok in Hf as [-> ->].
  apply bind_ok in H as (s1 & fu & Hg & H). apply get_first_use_eff in Hg as [-> Hf].
  destruct (uses_from_chain _ _ _ _ _ H) as [-> C]. split; [reflexivity|eauto].
Qed.

(* the snapshot of the use list of a value: distinct uses, each a real slot *)
Lemma snapshot_slots : forall s self us fu, UWF s ->
  hfirst s (HV self) = Some fu -> chain (use_next s) fu us ->
  NoDup us /\ forall u, In u us -> exists o i, real_slot s (HV self) o i u.
Proof.
  intros s self us fu W Hf C.
  destruct (UWF_Uabs s W) as [UA _].
  destruct (ua_chain _ _ UA (HV self) fu Hf) as (l & C0 & ND & _ & M).
  assert (l = us) by (eapply chain_fun; eauto). subst l. auto.
Qed.

Lemma norm_index_nonneg : forall len i, 0 <= i -> norm_index len i = i.
Proof. intros len i H. unfold norm_index. destruct (Z.ltb_spec i 0); [lia|reflexivity]. Qed.

(* The loops only need the use-list half of WF (Block.erase_arg runs them in a state whose index
   half is broken); the other halves are restored by the frame lemmas below. *)

(* one iteration: use.operation.operands[use.index] = value *)
Lemma rauw_stepU : forall s s1 self value u r (rest : list uid),
  UWF s -> ~ In u rest ->
  (exists o i, real_slot s (HV self) o i u) ->
  (forall u', In u' rest -> exists o i, real_slot s (HV self) o i u') ->
  (ur <- getU u ;; operands_setitem (u_op ur) (u_idx ur) value) s = (s1, Ok r) ->
  UWF s1 /\ (forall u', In u' rest -> exists o i, real_slot s1 (HV self) o i u').
Proof.
  intros s s1 self value u r rest W NI (o & i & R) INV H.
  destruct (UWF_Uabs s W) as [UA _].
  destruct (ua_slot _ _ UA _ _ _ _ R) as [Inf _].
  apply bind_ok in H as (s0 & ur & Hg & H). apply getU_ok in Hg as [-> Fu].
  unfold use_info in Inf. rewrite Fu in Inf. simpl in Inf. injection Inf as E1 E2. rewrite E1, E2 in H.
  pose proof R as (x0 & Fx0 & Ex0 & Z1 & Z2). simpl in Z1, Z2.
  destruct (operands_setitem_coreU s s1 o x0 i value r W Fx0 Ex0 H) as (W1 & _ & u0 & Zu0 & SL).
  pose proof (znth_lt _ _ _ Z1) as Ri.
  rewrite norm_index_nonneg in Zu0, SL by lia. rewrite Z2 in Zu0. injection Zu0 as <-.
  split; [exact W1|].
  intros u' Iu'. destruct (INV u' Iu') as (o' & i' & R'). exists o', i'. apply SL. left. split; [exact R'|].
  intro E. subst u'. contradiction.
Qed.

Lemma rauw_if_loop_UWF : forall us sel s s' self value r,
  UWF s -> NoDup us -> (forall u, In u us -> exists o i, real_slot s (HV self) o i u) ->
  rauw_if_loop us sel value s = (s', Ok r) -> UWF s'.
Proof.
  induction us as [|u rest IH]; intros sel s s' self value r W ND INV H; simpl in H.
  - apply ret_ok in H as [-> _]. exact W.
  - apply bind_ok in H as (s1 & r1 & H1 & H2). inversion ND as [|? ? NI ND']; subst.
    apply when_true_ok in H1. destruct H1 as [[_ H1]|[_ ->]].
    + destruct (rauw_stepU s s1 self value u _ rest W NI (INV u (or_introl eq_refl))
                 (fun u' I => INV u' (or_intror I)) H1) as [W1 INV1].
      eapply IH; eauto.
    + eapply IH; eauto. intros u' I. apply INV. right. exact I.
Qed.

(* replace_all_uses_with runs the same loop with every answer True *)
Lemma forM_rauw_if : forall us value,
  forM us (fun u => ur <- getU u ;; operands_setitem (u_op ur) (u_idx ur) value) =
  rauw_if_loop us (map (fun _ => true) us) value.
Proof. intros us value. induction us as [|u r IH]; simpl; [reflexivity|]. rewrite IH. reflexivity. Qed.

Lemma rauw_UWF : forall s s' self value r,
  UWF s -> replace_all_uses_with self value s = (s', Ok r) -> UWF s'.
Proof.
  intros s s' self value r W H. unfold replace_all_uses_with in H.
  destruct (Pos.eqb value self); [apply ret_ok in H as [-> _]; exact W|].
  apply bind_ok in H as (s0 & us & Hu & H). destruct (uses_of_spec _ _ _ _ Hu) as [-> (fu & Hf & C)].
  apply bind_ok in H as (s1 & r1 & Hl & H).
  apply bind_ok in H as (s2 & fu' & Hg & H). apply get_first_use_eff in Hg as [-> _].
  apply assert_ok in H as [-> _].
  destruct (snapshot_slots s self us fu W Hf C) as [ND INV].
  rewrite forM_rauw_if in Hl. eapply rauw_if_loop_UWF; eauto.
Qed.

Lemma rauw_if_UWF : forall s s' self value sel r,
  UWF s -> replace_uses_with_if self value sel s = (s', Ok r) -> UWF s'.
Proof.
  intros s s' self value sel r W H. unfold replace_uses_with_if in H.
  apply bind_ok in H as (s0 & us & Hu & H). destruct (uses_of_spec _ _ _ _ Hu) as [-> (fu & Hf & C)].
  destruct (snapshot_slots s self us fu W Hf C) as [ND INV].
  eapply rauw_if_loop_UWF; eauto.
Qed.

Lemma uses_from_pres : forall R, frame_rel R -> forall fl cur, preserves R (uses_from fl cur).
Proof.
  intros R FR fl. induction fl as [|f IH]; intro cur; simpl.
  - apply (pres_raise _ FR).
  - destruct cur as [u|]; [|apply (pres_ret _ FR)].
    apply (pres_bind _ FR); [apply (pres_getU _ FR)|intro ur].
    apply (pres_bind _ FR); [apply IH|intro rest]. apply (pres_ret _ FR).
Qed.

Lemma uses_of_pres : forall R, frame_rel R -> forall h, preserves R (uses_of h).
Proof.
  intros R FR h. unfold uses_of.
  apply (pres_bind _ FR); [apply (pres_get_fuel _ FR)|intro fl].
  apply (pres_bind _ FR); [apply get_first_use_pres; exact FR|intro fu]. apply uses_from_pres. exact FR.
Qed.

Lemma rauw_pres : forall R, frame_rel R -> (forall o i w, preserves R (operands_setitem o i w)) ->
  forall a b, preserves R (replace_all_uses_with a b).
Proof.
  intros R FR HS a b. unfold replace_all_uses_with.
  apply (pres_if _). { apply (pres_ret _ FR). }
  apply (pres_bind _ FR); [apply uses_of_pres; exact FR|intro us].
  apply (pres_bind _ FR).
  { apply (pres_forM _ FR). intro u. apply (pres_bind _ FR); [apply (pres_getU _ FR)|intro ur]. apply HS. }
  intros _. apply (pres_bind _ FR); [apply get_first_use_pres; exact FR|intro fu]. apply (pres_assert _ FR).
Qed.

Lemma rauw_if_pres : forall R, frame_rel R -> (forall o i w, preserves R (operands_setitem o i w)) ->
  forall a b sel, preserves R (replace_uses_with_if a b sel).
Proof.
  intros R FR HS a b sel. unfold replace_uses_with_if.
  apply (pres_bind _ FR); [apply uses_of_pres; exact FR|intro us]. revert sel.
  induction us as [|u rest IH]; intro sel; simpl; [apply (pres_ret _ FR)|].
  apply (pres_bind _ FR); [|intros _; apply IH]. apply (pres_when _ FR).
  apply (pres_bind _ FR); [apply (pres_getU _ FR)|intro ur]. apply HS.
Qed.

Lemma rauw_T1 : forall a b, preserves same_T1 (replace_all_uses_with a b).
Proof. apply rauw_pres; [apply fr_T1|apply operands_setitem_T1]. Qed.
Lemma rauw_T2 : forall a b, preserves same_T2 (replace_all_uses_with a b).
Proof. apply rauw_pres; [apply fr_T2|apply operands_setitem_T2]. Qed.
Lemma rauw_T3 : forall a b, preserves same_T3 (replace_all_uses_with a b).
Proof. apply rauw_pres; [apply fr_T3|apply operands_setitem_T3]. Qed.
Lemma rauw_I : forall a b, preserves same_I (replace_all_uses_with a b).
Proof. apply rauw_pres; [apply fr_I|apply operands_setitem_I]. Qed.
Lemma rauw_A : forall a b, preserves same_A (replace_all_uses_with a b).
Proof. apply rauw_pres; [apply fr_A|apply operands_setitem_A]. Qed.
#[export] Hint Resolve rauw_T1 rauw_T2 rauw_T3 rauw_I rauw_A : pres.

Theorem replace_all_uses_with_WF : forall s s' self value r,
  WF s -> replace_all_uses_with self value s = (s', Ok r) -> WF s'.
Proof.
  intros s s' self value r W H.
  eapply (WF_groups s s' W); [eapply rauw_T1|eapply rauw_T2|eapply rauw_T3|eapply rauw_I|eapply rauw_A|]; try exact H.
  exact (rauw_UWF _ _ _ _ _ (WF_UWF s W) H).
Qed.

Theorem replace_uses_with_if_WF : forall s s' self value sel r,
  WF s -> replace_uses_with_if self value sel s = (s', Ok r) -> WF s'.
Proof.
  intros s s' self value sel r W H.
  eapply (WF_groups s s' W);
    [eapply (rauw_if_pres _ fr_T1 operands_setitem_T1)|eapply (rauw_if_pres _ fr_T2 operands_setitem_T2)|
     eapply (rauw_if_pres _ fr_T3 operands_setitem_T3)|eapply (rauw_if_pres _ fr_I operands_setitem_I)|
     eapply (rauw_if_pres _ fr_A operands_setitem_A)|]; try exact H.
  exact (rauw_if_UWF _ _ _ _ _ _ (WF_UWF s W) H).
Qed.

Lemma prevs_ok_uses_eq : forall s s' l p, s_uses s' = s_uses s -> prevs_ok s p l -> prevs_ok s' p l.
Proof.
  intros s s' l. induction l as [|u r IH]; intros p E H; simpl in *; [exact I|].
  destruct H as [(ur & F & Q) H2]. split; [exists ur; rewrite E; auto|apply IH; assumption].
Qed.

Lemma fresh_of_alloc : forall s, WF_alloc s -> PM.find (n_value s) (s_values s) = None.
Proof.
  intros s (_ & _ & _ & B & _). destruct (PM.find (n_value s) (s_values s)) as [x|] eqn:F; [|reflexivity].
  specialize (B _ _ F). lia.
Qed.

Lemma allocV_alloc : forall rec s s' e, WF_alloc s -> allocV rec s = (s', Ok e) -> WF_alloc s'.
Proof.
  intros rec s s' e (B1 & B2 & B3 & B4 & B5) H. unfold allocV in H. injection H as <- _.
  repeat split; try assumption.
  intros i x F. simpl in F. rewrite find_add in F. simpl.
  destruct (Pos.eqb_spec i (n_value s)) as [->|N]; [lia|]. specialize (B4 _ _ F). lia.
Qed.

Lemma allocV_UWF : forall rec s s' e, UWF s -> PM.find (n_value s) (s_values s) = None ->
  v_first_use rec = None -> allocV rec s = (s', Ok e) -> UWF s'.
Proof.
  intros rec s s' e0 (Wv & Wb & Wo & Ws & Wd) FR FU H. unfold allocV in H. injection H as <- _.
  set (e := n_value s) in *.
  assert (FO : forall v x, PM.find v (s_values s) = Some x -> PM.find v (PM.add e rec (s_values s)) = Some x).
  { intros v x F. rewrite find_add. destruct (Pos.eqb_spec v e); [subst; congruence|exact F]. }
  split; [|split; [|split; [|split]]].
  - intros v vr F. simpl in F. rewrite find_add in F. destruct (Pos.eqb_spec v e) as [->|N].
    + injection F as <-. rewrite FU. exists []. repeat split; try constructor. intros u [].
    + destruct (Wv v vr F) as (l & C & ND & P & M). exists l.
      split; [exact C|]. split; [exact ND|]. split; [|exact M].
      eapply prevs_ok_uses_eq; [|exact P]. reflexivity.
  - intros b br F. destruct (Wb b br F) as (l & C & ND & P & M). exists l.
    split; [exact C|]. split; [exact ND|]. split; [|exact M].
    eapply prevs_ok_uses_eq; [|exact P]. reflexivity.
  - intros o x F E. destruct (Wo o x F E) as [L R]. split; [exact L|].
    intros i item u N1 N2. destruct (R i item u N1 N2) as [A (fu & l & Hf & C & I)]. split; [exact A|].
    exists fu, l. split; [|auto]. unfold link in *. simpl.
    destruct (PM.find item (s_values s)) as [vr|] eqn:Fv; [|discriminate]. rewrite (FO _ _ Fv). exact Hf.
  - exact Ws.
  - exact Wd.
Qed.

Lemma fresh_value : forall s, WF s -> PM.find (n_value s) (s_values s) = None.
Proof. intros s W. exact (fresh_of_alloc s (wf_alloc s W)). Qed.

(* a new value without uses whose record makes WF_owner trivially true (erased placeholder, or dead) *)
Lemma allocV_WF : forall s s' rec e,
  WF s -> v_first_use rec = None ->
  (v_dead rec = true \/ exists old, v_kind rec = KErased old) ->
  allocV rec s = (s', Ok e) -> WF s' /\ e = n_value s.
Proof.
  intros s s' rec e W FU OWN H. pose proof (fresh_value s W) as FR.
  pose proof (allocV_UWF rec s s' e (WF_UWF s W) FR FU H) as (U1 & U2 & U3 & U4 & U5).
  pose proof (allocV_alloc rec s s' e (wf_alloc s W) H) as A.
  unfold allocV in H. injection H as <- <-. split; [|reflexivity]. set (e := n_value s) in *.
  assert (FO : forall v x, PM.find v (s_values s) = Some x -> PM.find v (PM.add e rec (s_values s)) = Some x).
  { intros v x F. rewrite find_add. destruct (Pos.eqb_spec v e); [subst; congruence|exact F]. }
  destruct W. constructor; try assumption.
  - intros o x F E i v N. destruct (wf_results o x F E i v N) as (vr & Fv & K). exists vr. split; [apply FO; exact Fv|exact K].
  - intros b x F E i v N. destruct (wf_args b x F E i v N) as (vr & Fv & K). exists vr. split; [apply FO; exact Fv|exact K].
  - intros v vr F D. simpl in F. rewrite find_add in F. destruct (Pos.eqb_spec v e) as [->|N].
    + injection F as <-. destruct OWN as [OD|(old & K)]; [congruence|rewrite K; exact I].
    + exact (wf_owner v vr F D).
Qed.

(* SSAValue.erase *)
Theorem value_erase_WF : forall s s' self safe r,
  WF s -> value_erase self safe s = (s', Ok r) -> WF s'.
Proof.
  intros s s' self safe r W H. unfold value_erase in H.
  apply bind_ok in H as (s0 & fu & Hg & H). apply get_first_use_eff in Hg as [-> _].
  destruct (safe && is_some fu); [exfalso; eapply raise_ok; eauto|].
  apply bind_ok in H as (s1 & e & Ha & H).
  destruct (allocV_WF s s1 (mkValue (KErased self) None false) e W eq_refl (or_intror (ex_intro _ self eq_refl)) Ha) as [W1 _].
  eapply replace_all_uses_with_WF; eauto.
Qed.

(* PatternRewriter.replace_all_uses_with / replace_uses_with_if *)
Theorem pr_replace_all_uses_with_WF : forall s s' v w safe r,
  WF s -> pr_replace_all_uses_with v w safe s = (s', Ok r) -> WF s'.
Proof.
  intros s s' v w safe r W H. unfold pr_replace_all_uses_with in H. destruct w as [t|].
  - destruct (Pos.eqb v t); [apply ret_ok in H as [-> _]; exact W|eapply replace_all_uses_with_WF; eauto].
  - eapply value_erase_WF; eauto.
Qed.

Theorem pr_replace_uses_with_if_WF : forall s s' v w sel r,
  WF s -> pr_replace_uses_with_if v w sel s = (s', Ok r) -> WF s'.
Proof.
  intros s s' v w sel r W H. unfold pr_replace_uses_with_if in H.
  destruct (Pos.eqb v w); [apply ret_ok in H as [-> _]; exact W|eapply replace_uses_with_if_WF; eauto].
Qed.
