(* Props/C06.v -- property C06: builtin attributes and types round-trip bit-exactly through text.
   The theorem statements closed by `exact`; the Examples at the end are concrete test vectors, by evaluation.
   Model: C06/Model.v (text = list of code points, bytes = list of integers; CPython's float
   formatting / scanning / struct packing are function arguments of the float kernels).
   Specs a reader needs: `is_byte b := 0 <= b < 256`, `is_scalar` (a Unicode scalar value: no surrogate),
   `is_bare_id` (a letter or underscore followed by letters, digits, `_`, `$`, `.`), `in_range` (value_range of comparisons.py),
   `float_hyps` (Model.v: per value x, what is assumed of CPython; for the decimal forms this includes that the
   text read back and rounded to the type is x again, so C06_float_rt adds the lexing, the parsing and the
   hexadecimal branches, not the numerics), `elem_rt`, `payload_fits`, `splat_exact`
   (C06/ProofsNum.v, three one-line definitions). *)
From Coq Require Import ZArith List Bool String.
From XV Require Import C06.Model C06.ProofsText C06.ProofsNum C06.ProofsWit.
Import ListNotations.
Local Open Scope Z_scope.

(* f"{n:d}" / f"{n:X}" read back by int(text, 10) / int(text, 16): all n >= 0, both bases *)
Theorem C06_digits_rt : forall base up n, 2 <= base <= 16 -> 0 <= n ->
  nat_digits base up n <> [] /\
  Forall (fun c => exists d, 0 <= d < base /\ c = digit_char up d) (nat_digits base up n) /\
  int_of_digits base (nat_digits base up n) = Some n.
Proof. exact nat_digits_spec. Qed.
Print Assumptions C06_digits_rt.

(* the value an IntegerAttr stores: defined exactly for in-range values, same residue mod 2^w, in the
   signed range for signless/signed types, the value itself for unsigned types, and a normal form *)
Theorem C06_int_normal_form : forall w s v v', 0 <= w ->
  integer_attr (TInteger w s) v = Ok v' ->
  in_range s w v = true /\ in_range s w v' = true /\ v' mod 2 ^ w = v mod 2 ^ w /\
  (s <> Unsigned -> signed_lower_bound w <= v' < signed_upper_bound w) /\
  (s = Unsigned -> v' = v) /\
  normalized_value s w v' = Some v'.
Proof. exact integer_attr_spec. Qed.
Print Assumptions C06_int_normal_form.

Theorem C06_int_constructible : forall w s v, in_range s w v = true -> 0 <= w ->
  exists v', integer_attr (TInteger w s) v = Ok v'.
Proof. exact integer_attr_total. Qed.
Print Assumptions C06_int_constructible.

(* every integer attribute -- index or any width w >= 0, signless / signed / unsigned, every value the
   constructor accepts -- prints (`true`/`false` for i1, decimal `v : type` otherwise) to text that lexes and
   parses back to the same type and the same stored value *)
Theorem C06_int_rt : forall ty v v', ity_ok ty ->
  integer_attr ty v = Ok v' -> integer_attr_roundtrip ty v' = Ok (ty, v').
Proof. exact int_attr_roundtrip_ok. Qed.
Print Assumptions C06_int_rt.

(* unescape (escape bs) = bs for ALL byte strings *)
Theorem C06_bytes_rt : forall bs, Forall is_byte bs -> unescape (flat_map escape_byte bs) = Ok bs.
Proof. exact unescape_escape. Qed.
Print Assumptions C06_bytes_rt.

(* the string-literal regex matches exactly the printed literal, whatever follows it *)
Theorem C06_bytes_lex : forall bs rest, Forall is_byte bs ->
  scan_body (flat_map escape_byte bs ++ 34 :: rest) = Some (flat_map escape_byte bs, rest).
Proof. exact scan_body_escape. Qed.
Print Assumptions C06_bytes_lex.

(* unchanged tree: a BytesAttr comes back as a StringAttr exactly when its payload is ASCII *)
Theorem C06_bytes_attr_rt_char : forall bs, Forall is_byte bs ->
  bytes_attr_roundtrip false bs = Ok (if is_ascii_list bs then AString bs else ABytes bs).
Proof. exact bytes_attr_roundtrip_char. Qed.
Print Assumptions C06_bytes_attr_rt_char.

Theorem C06_bytes_attr_rt_partial : forall bs, Forall is_byte bs -> is_ascii_list bs = false ->
  bytes_attr_roundtrip false bs = Ok (ABytes bs).
Proof. exact bytes_attr_rt_partial. Qed.
Print Assumptions C06_bytes_attr_rt_partial.

Theorem C06_bytes_attr_rt_refuted :
  exists bs, Forall is_byte bs /\ bytes_attr_roundtrip false bs <> Ok (ABytes bs).
Proof. exact bytes_attr_rt_refuted. Qed.
Print Assumptions C06_bytes_attr_rt_refuted.

(* UTF-8: decode (encode s) = s, and every surrogate-free string is encodable *)
Theorem C06_utf8_rt : forall s bs, utf8_enc s = Some bs -> utf8_dec bs = Some s.
Proof. exact utf8_roundtrip. Qed.
Print Assumptions C06_utf8_rt.

Theorem C06_utf8_total : forall s, forallb is_scalar s = true -> exists bs, utf8_enc s = Some bs.
Proof. exact utf8_enc_total. Qed.
Print Assumptions C06_utf8_total.

(* print (encode, escape), lex (regex, STRING_LIT/BYTES_LIT classification), parse (unescape, decode):
   the exact outcome for every surrogate-free string, on the unchanged tree (fixed = false) and with the
   proposed lexer repair (fixed = true) *)
Theorem C06_string_rt_char : forall fixed s, forallb is_scalar s = true ->
  exists bs, utf8_enc s = Some bs /\
  string_attr_roundtrip fixed s = Ok (if fixed || is_ascii_list s then AString s else ABytes bs).
Proof. exact string_attr_roundtrip_char. Qed.
Print Assumptions C06_string_rt_char.

Theorem C06_string_rt_partial : forall s, forallb is_scalar s = true -> is_ascii_list s = true ->
  string_attr_roundtrip false s = Ok (AString s).
Proof. exact string_rt_partial. Qed.
Print Assumptions C06_string_rt_partial.

Theorem C06_string_rt_refuted :
  exists s, forallb is_scalar s = true /\ string_attr_roundtrip false s <> Ok (AString s).
Proof. exact string_rt_refuted. Qed.
Print Assumptions C06_string_rt_refuted.

(* the failing class is exactly: some code point >= 128 *)
Theorem C06_string_rt_refuted_class : forall s, forallb is_scalar s = true -> is_ascii_list s = false ->
  exists bs, utf8_enc s = Some bs /\ string_attr_roundtrip false s = Ok (ABytes bs).
Proof. exact string_rt_refuted_class. Qed.
Print Assumptions C06_string_rt_refuted_class.

Theorem C06_string_rt_fixed : forall s, forallb is_scalar s = true ->
  string_attr_roundtrip true s = Ok (AString s).
Proof. exact string_rt_fixed. Qed.
Print Assumptions C06_string_rt_fixed.

(* a name is printed bare exactly when it matches the bare-identifier grammar *)
Theorem C06_ident_bare_iff : forall n, forallb is_scalar n = true ->
  (print_id_or_str n = Ok n <-> is_bare_id n = true).
Proof. exact print_id_or_str_bare_iff. Qed.
Print Assumptions C06_ident_bare_iff.

(* @root::@n1::@n2 : all surrogate-free names, any nesting depth, with and without the lexer repair *)
Theorem C06_symbolref_rt : forall fixed root ns,
  forallb is_scalar root = true -> forallb (forallb is_scalar) ns = true ->
  symref_roundtrip fixed root ns = Ok (root, ns).
Proof. exact symref_roundtrip_ok. Qed.
Print Assumptions C06_symbolref_rt.

(* dictionary keys (followed by anything that does not extend an identifier, e.g. " = ..."):
   exact outcome; ParseError on the unchanged tree exactly for quoted keys with a non-ASCII character *)
Theorem C06_dict_rt_char : forall fixed k rest, forallb is_scalar k = true -> ends_id rest ->
  dict_key_roundtrip fixed k rest =
  if is_bare_id k || fixed || is_ascii_list k then Ok k else Raise E_PARSE.
Proof. exact dict_key_roundtrip_char. Qed.
Print Assumptions C06_dict_rt_char.

Theorem C06_dict_rt_partial : forall k rest, forallb is_scalar k = true -> ends_id rest ->
  is_bare_id k = true \/ is_ascii_list k = true -> dict_key_roundtrip false k rest = Ok k.
Proof. exact dict_key_rt_partial. Qed.
Print Assumptions C06_dict_rt_partial.

Theorem C06_dict_rt_refuted : exists k rest, forallb is_scalar k = true /\ ends_id rest /\
  dict_key_roundtrip false k rest = Raise E_PARSE.
Proof. exact dict_key_rt_refuted. Qed.
Print Assumptions C06_dict_rt_refuted.

Theorem C06_dict_rt_fixed : forall k rest, forallb is_scalar k = true -> ends_id rest ->
  dict_key_roundtrip true k rest = Ok k.
Proof. exact dict_key_rt_fixed. Qed.
Print Assumptions C06_dict_rt_fixed.

(* For ANY behaviour of the CPython oracles, any float type (kind F32 / F64 / repr-printed, any size, any name
   that is a bare identifier) and any FloatAttr payload x of it (x = unpack (pack x), binary64 bits): if the
   pointwise facts `float_hyps` hold at x, then print_float's text followed by ` : type` lexes and parses back
   to exactly the bits x.  Covers NaN with any payload and +-inf (hex of the packed bits), +-0 and finite values
   in the %.5e form, the %.9g / %.17g / repr forms, and the hexadecimal fallback. *)
Theorem C06_float_rt : forall pack unpack fmt5e fmt9g fmt17g repr_ scan of_int ty x,
  fty_ok ty -> float_attr pack unpack ty x = x ->
  float_hyps pack unpack fmt5e fmt9g fmt17g repr_ scan ty x = true ->
  float_attr_roundtrip pack unpack fmt5e fmt9g fmt17g repr_ scan of_int ty x = Ok x.
Proof. exact float_roundtrip_ok. Qed.
Print Assumptions C06_float_rt.

(* any element type, shape (product = element count), list / splat / hex-string form: the attribute
   round-trips when every element on its own does, fits its byte width, and the splat test is exact *)
Theorem C06_dense_rt_partial : forall pack unpack fmt5e fmt9g fmt17g repr_ scan of_int hexfix splatfix e shape ps sz,
  elem_size e = Ok sz -> 0 < sz ->
  prod shape = Z.of_nat (List.length ps) -> Forall (fun d => 0 <= d) shape ->
  Forall (elem_rt pack unpack fmt5e fmt9g fmt17g repr_ scan of_int hexfix e) ps ->
  Forall (payload_fits e sz) ps -> splat_exact unpack splatfix e ps ->
  dense_roundtrip pack unpack fmt5e fmt9g fmt17g repr_ scan of_int hexfix splatfix e shape ps = Ok ps.
Proof. exact dense_roundtrip_ok. Qed.
Print Assumptions C06_dense_rt_partial.

(* integer / index elements: full statement (every width with a struct format, i.e. w <= 64) *)
Theorem C06_dense_int_rt : forall pack unpack fmt5e fmt9g fmt17g repr_ scan of_int hexfix splatfix ty shape ps sz,
  int_size ty = Ok sz ->
  prod shape = Z.of_nat (List.length ps) -> Forall (fun d => 0 <= d) shape ->
  Forall (int_payload_ok ty) ps ->
  dense_roundtrip pack unpack fmt5e fmt9g fmt17g repr_ scan of_int hexfix splatfix (EI ty) shape ps = Ok ps.
Proof. exact dense_int_roundtrip_ok. Qed.
Print Assumptions C06_dense_int_rt.

(* unchanged tree: a float element printed in hexadecimal is read back as float(int) ... *)
Theorem C06_dense_rt_refuted : exists pack unpack f5 f9 f17 fr scan ofint ty shape ps,
  prod shape = Z.of_nat (List.length ps) /\ Forall (fun d => 0 <= d) shape /\
  Forall (fun p => pack ty (unpack ty p) = p /\
                   float_hyps pack unpack f5 f9 f17 fr scan ty (unpack ty p) = true /\
                   float_attr_roundtrip pack unpack f5 f9 f17 fr scan ofint ty (unpack ty p) = Ok (unpack ty p)) ps /\
  dense_roundtrip pack unpack f5 f9 f17 fr scan ofint false false (EF ty) shape ps = Ok [1325367296; 1065353216] /\
  ps = [2143289344; 1065353216].
Proof. exact dense_rt_refuted. Qed.
Print Assumptions C06_dense_rt_refuted.

(* ... and a tensor mixing +0.0 and -0.0 is printed as a splat *)
Theorem C06_dense_splat_refuted : exists pack unpack f5 f9 f17 fr scan ofint ty shape ps,
  prod shape = Z.of_nat (List.length ps) /\ Forall (fun d => 0 <= d) shape /\
  Forall (fun p => pack ty (unpack ty p) = p /\
                   float_hyps pack unpack f5 f9 f17 fr scan ty (unpack ty p) = true /\
                   float_attr_roundtrip pack unpack f5 f9 f17 fr scan ofint ty (unpack ty p) = Ok (unpack ty p)) ps /\
  print_dense pack unpack f5 f9 f17 fr scan false (EF ty) shape ps = Ok (DSplat (str "0.000000e+00")) /\
  dense_roundtrip pack unpack f5 f9 f17 fr scan ofint false false (EF ty) shape ps = Ok [0; 0] /\
  ps = [0; 2147483648].
Proof. exact dense_splat_refuted. Qed.
Print Assumptions C06_dense_splat_refuted.

Theorem C06_densearray_rt_partial : forall pack unpack fmt5e fmt9g fmt17g repr_ scan hexfix e ps,
  Forall (fun p => parse_array_elem pack unpack scan hexfix e
                     (print_elem pack unpack fmt5e fmt9g fmt17g repr_ scan e (elem_value unpack e p)) = Ok p) ps ->
  densearray_roundtrip pack unpack fmt5e fmt9g fmt17g repr_ scan hexfix e ps = Ok ps.
Proof. exact densearray_roundtrip_ok. Qed.
Print Assumptions C06_densearray_rt_partial.

Theorem C06_densearray_int_rt : forall pack unpack fmt5e fmt9g fmt17g repr_ scan hexfix w s ps,
  Forall (int_payload_ok (TInteger w s)) ps ->
  densearray_roundtrip pack unpack fmt5e fmt9g fmt17g repr_ scan hexfix (EI (TInteger w s)) ps = Ok ps.
Proof. exact densearray_int_roundtrip_ok. Qed.
Print Assumptions C06_densearray_int_rt.

Theorem C06_densearray_rt_refuted : exists pack unpack f5 f9 f17 fr scan ofint ty ps,
  Forall (fun p => pack ty (unpack ty p) = p /\
                   float_hyps pack unpack f5 f9 f17 fr scan ty (unpack ty p) = true /\
                   float_attr_roundtrip pack unpack f5 f9 f17 fr scan ofint ty (unpack ty p) = Ok (unpack ty p)) ps /\
  densearray_roundtrip pack unpack f5 f9 f17 fr scan false (EF ty) ps = Raise E_PARSE /\
  ps = [2143289344; 1065353216].
Proof. exact densearray_rt_refuted. Qed.
Print Assumptions C06_densearray_rt_refuted.

(* with the proposed repairs C06-2/3/4 (hexfix = splatfix = true): float dense attributes and dense arrays
   round-trip bit for bit; only the decimal forms rest on the CPython facts (`elem_rt` of those elements) *)
Theorem C06_dense_float_rt_fixed : forall pack unpack fmt5e fmt9g fmt17g repr_ scan of_int ty shape ps,
  0 < fsize ty ->
  prod shape = Z.of_nat (List.length ps) -> Forall (fun d => 0 <= d) shape ->
  Forall (fun p => 0 <= p < 2 ^ (8 * fsize ty) /\ pack ty (unpack ty p) = p /\
                   (hex_printed pack unpack fmt5e fmt9g fmt17g scan ty p \/
                    elem_rt pack unpack fmt5e fmt9g fmt17g repr_ scan of_int true (EF ty) p)) ps ->
  dense_roundtrip pack unpack fmt5e fmt9g fmt17g repr_ scan of_int true true (EF ty) shape ps = Ok ps.
Proof. exact dense_float_roundtrip_fixed. Qed.
Print Assumptions C06_dense_float_rt_fixed.

Theorem C06_densearray_float_rt_fixed : forall pack unpack fmt5e fmt9g fmt17g repr_ scan (of_int : Z -> res Z) ty ps,
  0 < fsize ty ->
  Forall (fun p => 0 <= p < 2 ^ (8 * fsize ty) /\ pack ty (unpack ty p) = p /\
                   (hex_printed pack unpack fmt5e fmt9g fmt17g scan ty p \/
                    parse_array_elem pack unpack scan true (EF ty)
                      (print_elem pack unpack fmt5e fmt9g fmt17g repr_ scan (EF ty) (elem_value unpack (EF ty) p)) = Ok p)) ps ->
  densearray_roundtrip pack unpack fmt5e fmt9g fmt17g repr_ scan true (EF ty) ps = Ok ps.
Proof. exact densearray_float_roundtrip_fixed. Qed.
Print Assumptions C06_densearray_float_rt_fixed.

Example C06_fixed_witnesses :
  dense_roundtrip w_pack w_unpack w_5e w_9g w_17g w_repr w_scan w_ofint true true (EF f32ty) [2] [2143289344; 1065353216]
    = Ok [2143289344; 1065353216] /\
  dense_roundtrip w_pack w_unpack w_5e w_9g w_17g w_repr w_scan w_ofint true true (EF f32ty) [2] [0; 2147483648]
    = Ok [0; 2147483648] /\
  dense_roundtrip w_pack w_unpack w_5e w_9g w_17g w_repr w_scan w_ofint true true (EF f32ty) [2] [2143289344; 2143289344]
    = Ok [2143289344; 2143289344] /\
  densearray_roundtrip w_pack w_unpack w_5e w_9g w_17g w_repr w_scan true (EF f32ty) [2143289344; 1065353216]
    = Ok [2143289344; 1065353216].
Proof. exact witnesses_fixed. Qed.

Example C06_int_nonvacuous :
  integer_attr (TInteger 8 Signless) 255 = Ok (-1) /\
  print_integer_attr (TInteger 8 Signless) (-1) = str "-1 : i8" /\
  integer_attr_roundtrip (TInteger 8 Signless) (-1) = Ok (TInteger 8 Signless, -1) /\
  integer_attr_roundtrip (TInteger 1 Signless) (-1) = Ok (TInteger 1 Signless, -1) /\
  integer_attr_roundtrip (TInteger 128 Unsigned) (2 ^ 128 - 1) = Ok (TInteger 128 Unsigned, 2 ^ 128 - 1).
Proof. vm_compute. repeat split; reflexivity. Qed.

Example C06_text_nonvacuous :
  print_bytes_literal [0; 34; 92; 255; 65] = 34 :: str "\00\22\\\FFA" ++ [34] /\
  bytes_attr_roundtrip false [255] = Ok (ABytes [255]) /\
  string_attr_roundtrip false (str "a b") = Ok (AString (str "a b")) /\
  string_attr_roundtrip true [97; 34; 233; 128512] = Ok (AString [97; 34; 233; 128512]) /\
  symref_roundtrip false [233] [str "a b"; str "c.d"] = Ok ([233], [str "a b"; str "c.d"]) /\
  print_symref [233] [str "a b"; str "c.d"] = Ok (64 :: 34 :: str "\C3\A9" ++ 34 :: str "::@" ++ 34 :: str "a b" ++ 34 :: str "::@c.d").
Proof. vm_compute. repeat split; reflexivity. Qed.

(* the hypotheses of C06_float_rt and C06_dense_rt_partial are satisfiable (CPython's values at 1.0 / -0.0 : f32) *)
Example C06_float_nonvacuous :
  float_hyps w_pack w_unpack w_5e w_9g w_17g w_repr w_scan f32ty one64 = true /\
  float_attr w_pack w_unpack f32ty one64 = one64 /\
  print_float w_pack w_unpack w_5e w_9g w_17g w_repr w_scan f32ty one64 = str "1.000000e+00" /\
  print_float w_pack w_unpack w_5e w_9g w_17g w_repr w_scan f32ty nan64 = str "0x7fc00000" /\
  float_attr_roundtrip w_pack w_unpack w_5e w_9g w_17g w_repr w_scan w_ofint f32ty nan64 = Ok nan64 /\
  float_attr_roundtrip w_pack w_unpack w_5e w_9g w_17g w_repr w_scan w_ofint f32ty negz64 = Ok negz64 /\
  dense_roundtrip w_pack w_unpack w_5e w_9g w_17g w_repr w_scan w_ofint false false (EF f32ty) [2] [1065353216; 2147483648]
    = Ok [1065353216; 2147483648].
Proof. vm_compute. repeat split; reflexivity. Qed.
