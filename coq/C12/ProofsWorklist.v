(* C12/ProofsWorklist.v -- the tombstone worklist refines a LIFO stack without
   duplicates, for every history. *)
From Coq Require Import List Arith Bool Lia Permutation.
From XV Require Import C12.Model.
Import ListNotations.

Fixpoint index_of (x : nat) (l : list (option nat)) : option nat :=
  match l with
  | [] => None
  | Some y :: r => if Nat.eqb x y then Some 0 else option_map S (index_of x r)
  | None :: r => option_map S (index_of x r)
  end.

Definition WInv (s : wl) : Prop :=
  NoDup (absl (stack s)) /\ forall x, lookup (wmap s) x = index_of x (stack s).

Lemma lookup_del m k k' : lookup (del m k) k' = if Nat.eqb k k' then None else lookup m k'.
Proof.
  induction m as [|[a v] m IH]; simpl.
  - destruct (Nat.eqb k k'); reflexivity.
  - destruct (Nat.eqb k a) eqn:Hka.
    + apply Nat.eqb_eq in Hka; subst a. rewrite IH.
      destruct (Nat.eqb k k') eqn:Hkk; [reflexivity|].
      rewrite Nat.eqb_sym, Hkk. reflexivity.
    + simpl. rewrite IH. destruct (Nat.eqb k' a) eqn:Hk'a; [|reflexivity].
      apply Nat.eqb_eq in Hk'a; subst a. rewrite Hka. reflexivity.
Qed.

Lemma lookup_dset m k v k' : lookup (dset m k v) k' = if Nat.eqb k' k then Some v else lookup m k'.
Proof.
  unfold dset; simpl. destruct (Nat.eqb k' k) eqn:E; [reflexivity|].
  rewrite lookup_del, Nat.eqb_sym, E. reflexivity.
Qed.

Local Arguments dset : simpl never.
Local Arguments del : simpl never.
Local Arguments lookup : simpl never.

Lemma index_of_none x l : index_of x l = None <-> ~ In x (absl l).
Proof.
  induction l as [|[y|] r IH]; simpl.
  - tauto.
  - destruct (Nat.eqb x y) eqn:E.
    + apply Nat.eqb_eq in E; subst. split; [discriminate|intros H; exfalso; apply H; auto].
    + apply Nat.eqb_neq in E. destruct (index_of x r); simpl.
      * split; [discriminate|]. intros H. exfalso. apply H. right. 
        destruct (in_dec Nat.eq_dec x (absl r)) as [hin|hnin]; [exact hin|]. apply IH in hnin. discriminate.
      * split; [|reflexivity]. intros _ [H|H]; [congruence|]. apply IH in H; auto.
  - destruct (index_of x r); simpl.
    + split; [discriminate|]. intros H. apply IH in H. discriminate.
    + split; [|reflexivity]. intros _. apply IH. reflexivity.
Qed.

Lemma existsb_eqb_In x l : existsb (Nat.eqb x) l = true <-> In x l.
Proof.
  rewrite existsb_exists. split.
  - intros [y [Hy E]]. apply Nat.eqb_eq in E. subst. exact Hy.
  - intros H. exists x. split; [exact H|apply Nat.eqb_refl].
Qed.

Lemma index_of_mem x l :
  existsb (Nat.eqb x) (absl l) = match index_of x l with Some _ => true | None => false end.
Proof.
  destruct (index_of x l) eqn:Ei.
  - apply existsb_eqb_In. destruct (in_dec Nat.eq_dec x (absl l)) as [h|h]; [exact h|].
    apply index_of_none in h. congruence.
  - apply index_of_none in Ei. destruct (existsb (Nat.eqb x) (absl l)) eqn:E; [|reflexivity].
    apply existsb_eqb_In in E. contradiction.
Qed.

Lemma absl_app a b : absl (a ++ b) = absl a ++ absl b.
Proof. unfold absl. apply flat_map_app. Qed.

Lemma index_of_app x l y :
  index_of x (l ++ [Some y]) =
  match index_of x l with
  | Some i => Some i
  | None => if Nat.eqb x y then Some (length l) else None
  end.
Proof.
  induction l as [|[z|] r IH]; simpl.
  - destruct (Nat.eqb x y); reflexivity.
  - destruct (Nat.eqb x z); [reflexivity|]. rewrite IH.
    destruct (index_of x r); simpl; [reflexivity|]. destruct (Nat.eqb x y); reflexivity.
  - rewrite IH. destruct (index_of x r); simpl; [reflexivity|]. destruct (Nat.eqb x y); reflexivity.
Qed.

Lemma strip_absl l : absl (strip l) = absl l.
Proof.
  induction l as [|x r IH]; simpl; [reflexivity|].
  destruct (strip r) as [|a r'] eqn:E.
  - simpl in IH. destruct x as [y|]; simpl; rewrite <- IH; reflexivity.
  - destruct x as [y|]; simpl; simpl in IH; rewrite <- IH; reflexivity.
Qed.

Lemma strip_index x l : index_of x (strip l) = index_of x l.
Proof.
  induction l as [|o r IH]; simpl; [reflexivity|].
  destruct (strip r) as [|a r'] eqn:E.
  - simpl in IH. destruct o as [y|]; simpl; rewrite <- IH; simpl; reflexivity.
  - destruct o as [y|]; simpl; rewrite <- IH; reflexivity.
Qed.

(* what the `while ... is _MISSING: pop()` loop leaves *)
Lemma strip_cases l :
  (strip l = [] /\ absl l = []) \/
  (exists l' x, strip l = l' ++ [Some x] /\ absl l = absl l' ++ [x]).
Proof.
  induction l as [|o r IH]; [left; split; reflexivity|]. simpl strip.
  destruct IH as [[Es Ea]|(l' & x & Es & Ea)]; rewrite Es.
  - unfold absl in *. simpl. rewrite Ea.
    destruct o as [y|]; [right; exists [], y | left]; split; reflexivity.
  - right. exists (o :: l'), x. split; [destruct l'; reflexivity|].
    unfold absl in *. simpl. rewrite Ea. apply app_assoc.
Qed.

Lemma filter_notin x l : ~ In x l -> filter (fun y => negb (Nat.eqb x y)) l = l.
Proof.
  induction l as [|a r IH]; simpl; [reflexivity|]. intros H.
  destruct (Nat.eqb x a) eqn:E.
  - apply Nat.eqb_eq in E. subst. exfalso. apply H. auto.
  - simpl. rewrite IH; [reflexivity|]. intros Hin. apply H. auto.
Qed.

Lemma set_nth_absl x l i :
  index_of x l = Some i -> NoDup (absl l) ->
  absl (set_nth i None l) = filter (fun y => negb (Nat.eqb x y)) (absl l).
Proof.
  revert i. induction l as [|[y|] r IH]; simpl; intros i Hi Hnd.
  - discriminate.
  - destruct (Nat.eqb x y) eqn:E.
    + injection Hi as <-. simpl. apply Nat.eqb_eq in E. subst y.
      inversion Hnd; subst. rewrite filter_notin; auto.
    + destruct (index_of x r) as [j|] eqn:Ej; [|discriminate]. simpl in Hi. injection Hi as <-.
      simpl. inversion Hnd; subst. rewrite (IH j); auto.
  - destruct (index_of x r) as [j|] eqn:Ej; [|discriminate]. simpl in Hi. injection Hi as <-.
    simpl. apply IH; auto.
Qed.

Lemma set_nth_index x l i y :
  index_of x l = Some i -> NoDup (absl l) ->
  index_of y (set_nth i None l) = if Nat.eqb x y then None else index_of y l.
Proof.
  revert i. induction l as [|[z|] r IH]; simpl; intros i Hi Hnd.
  - discriminate.
  - inversion Hnd as [|? ? Hnotin Hnd']; subst.
    destruct (Nat.eqb x z) eqn:E.
    + injection Hi as <-. simpl. apply Nat.eqb_eq in E. subst z.
      destruct (Nat.eqb x y) eqn:Exy.
      * apply Nat.eqb_eq in Exy. subst y. apply index_of_none in Hnotin. rewrite Hnotin. reflexivity.
      * rewrite Nat.eqb_sym, Exy. reflexivity.
    + destruct (index_of x r) as [j|] eqn:Ej; [|discriminate]. simpl in Hi. injection Hi as <-.
      simpl. rewrite (IH j); auto.
      destruct (Nat.eqb x y) eqn:Exy.
      * apply Nat.eqb_eq in Exy. subst y. rewrite E. reflexivity.
      * reflexivity.
  - destruct (index_of x r) as [j|] eqn:Ej; [|discriminate]. simpl in Hi. injection Hi as <-.
    simpl. rewrite (IH j); auto. destruct (Nat.eqb x y); reflexivity.
Qed.

Lemma NoDup_app_comm {A} (a b : list A) : NoDup (a ++ b) -> NoDup (b ++ a).
Proof. intros H. eapply Permutation_NoDup; [apply Permutation_app_comm|exact H]. Qed.

Lemma wl_step_refines s o :
  WInv s ->
  WInv (fst (wl_step s o)) /\
  absl (stack (fst (wl_step s o))) = fst (aw_step (absl (stack s)) o) /\
  snd (wl_step s o) = snd (aw_step (absl (stack s)) o).
Proof.
  intros [Hnd Hmap]. unfold WInv. destruct o as [x| |x|]; simpl.
  - (* push *)
    unfold wl_push, dmem. rewrite index_of_mem, Hmap.
    destruct (index_of x (stack s)) as [i|] eqn:Ei; [repeat split; auto|].
    assert (Hnin : ~ In x (absl (stack s))) by (apply index_of_none; exact Ei).
    simpl. rewrite absl_app. simpl. repeat split; auto.
    + apply NoDup_app_comm. simpl. constructor; auto.
    + intros y. rewrite lookup_dset, index_of_app, Hmap.
      destruct (Nat.eqb y x) eqn:E.
      * apply Nat.eqb_eq in E. subst y. rewrite Ei. reflexivity.
      * destruct (index_of y (stack s)); reflexivity.
  - (* pop *)
    destruct (strip_cases (stack s)) as [[Es Ea]|(l' & x & Es & Ea)]; rewrite Ea.
    + assert (E : wl_pop s = ({| stack := []; wmap := wmap s |}, None))
        by (unfold wl_pop; rewrite Es; reflexivity).
      rewrite E. simpl. repeat split; [constructor|].
      intros y. rewrite Hmap, <- strip_index, Es. reflexivity.
    + assert (E : wl_pop s = ({| stack := l'; wmap := del (wmap s) x |}, Some x))
        by (unfold wl_pop; rewrite Es, last_last, removelast_last; reflexivity).
      rewrite E, rev_app_distr. simpl. rewrite removelast_last.
      rewrite Ea in Hnd. apply NoDup_app_comm in Hnd. simpl in Hnd.
      inversion Hnd as [|? ? Hnotin Hnd']; subst.
      repeat split; auto.
      intros y. rewrite lookup_del, Hmap, <- strip_index, Es, index_of_app.
      destruct (Nat.eqb x y) eqn:E'.
      * apply Nat.eqb_eq in E'. subst y. apply index_of_none in Hnotin. rewrite Hnotin. reflexivity.
      * rewrite Nat.eqb_sym, E'. destruct (index_of y l'); reflexivity.
  - (* remove *)
    unfold wl_remove. rewrite Hmap.
    destruct (index_of x (stack s)) as [i|] eqn:Ei.
    + simpl. repeat split.
      * rewrite (set_nth_absl x _ i); auto. apply NoDup_filter. exact Hnd.
      * intros y. rewrite lookup_del, Hmap. rewrite (set_nth_index x _ i); auto.
      * apply set_nth_absl; auto.
    + apply index_of_none in Ei. rewrite filter_notin; auto.
  - (* bool *)
    unfold wl_bool. simpl. rewrite !strip_absl. split; [split|split].
    + exact Hnd.
    + intros y. rewrite strip_index. apply Hmap.
    + reflexivity.
    + f_equal. destruct (strip_cases (stack s)) as [[Es Ea]|(l' & x & Es & Ea)]; rewrite Es, Ea; [reflexivity|].
      assert (Hne : forall A (l : list A) y, match l ++ [y] with [] => false | _ => true end = true)
        by (intros A [|] y; reflexivity).
      rewrite !Hne. reflexivity.
Qed.

Lemma WInv_empty : WInv wl_empty.
Proof. split; [constructor|reflexivity]. Qed.

Lemma wl_run_refines ops : forall s,
  WInv s ->
  WInv (fst (wl_run s ops)) /\
  absl (stack (fst (wl_run s ops))) = fst (aw_run (absl (stack s)) ops) /\
  snd (wl_run s ops) = snd (aw_run (absl (stack s)) ops).
Proof.
  induction ops as [|o r IH]; intros s Hs; simpl.
  - auto.
  - destruct (wl_step_refines s o Hs) as [H1 [H2 H3]].
    destruct (wl_step s o) as [s1 out] eqn:E1.
    destruct (aw_step (absl (stack s)) o) as [l1 out'] eqn:E2.
    simpl in *. subst l1 out'.
    destruct (IH s1 H1) as [H4 [H5 H6]].
    destruct (wl_run s1 r) as [s2 outs]. destruct (aw_run (absl (stack s1)) r) as [l2 outs'].
    simpl in *. subst. auto.
Qed.

Theorem worklist_refines_lifo_set ops :
  snd (wl_run wl_empty ops) = snd (aw_run [] ops) /\
  absl (stack (fst (wl_run wl_empty ops))) = fst (aw_run [] ops) /\
  NoDup (fst (aw_run [] ops)).
Proof.
  destruct (wl_run_refines ops wl_empty WInv_empty) as [[Hnd _] [H2 H3]].
  simpl in *. rewrite <- H2. auto.
Qed.

(* the abstract stack really is "most recently pushed item still present" *)
Lemma aw_pop_is_last l x l' : aw_step l WPop = (l', OItem x) -> l = l' ++ [x].
Proof.
  simpl. destruct (rev l) as [|y r] eqn:E; [discriminate|]. intros H. injection H as <- <-.
  assert (l <> []) by (intros ->; discriminate).
  transitivity (removelast l ++ [last l 0]); [apply app_removelast_last; exact H|]. f_equal. f_equal.
  rewrite <- (rev_involutive l), E. simpl. apply last_last.
Qed.
