(* C27/ProofsEnv.v -- facts about the environment the direct matcher returns: it only grows, constants are
   bound to their constant, and every pdl.operation / pdl.result value of the (linear) tree is bound at the end. *)
From Coq Require Import ZArith List Bool Lia.
From XV Require Import C27.Model C27.ProofsChain C27.ProofsMatch.
Import ListNotations.
Local Open Scope Z_scope.

Section Env.
Variable fx : fixes.
Variable P : pattern.
Variable pl : payload.

Definition mono_e (e e' : env) : Prop := forall k, klookup e k <> None -> klookup e' k <> None.
Definition cinv (e : env) : Prop :=
  (forall a c v, p_aconst P a = Some c -> klookup e (KAttr a) = Some v -> v = OAttr c) /\
  (forall t c v, p_tconst P t = Some c -> klookup e (KType t) = Some v -> v = OType c).
Definition sdom (e : env) (seen : list key) : Prop := forall k, structk k -> klookup e k <> None -> In k seen.

(* what one successful matching step guarantees *)
Definition good (e e' : env) (seen seen' : list key) : Prop :=
  mono_e e e' /\ (cinv e -> cinv e') /\ sdom e' seen' /\
  (forall k, In k seen' -> ~ In k seen -> klookup e' k <> None).

Lemma mono_e_refl : forall e, mono_e e e.
Proof. intros e k H. exact H. Qed.
Lemma mono_e_cons : forall e k v, mono_e e ((k, v) :: e).
Proof. intros e k v k' H. simpl. destruct (key_eqb k k'); [discriminate | exact H]. Qed.
Lemma mono_e_trans : forall a b c, mono_e a b -> mono_e b c -> mono_e a c.
Proof. intros a b c H1 H2 k H. apply H2, H1, H. Qed.

Lemma good_refl : forall e seen, sdom e seen -> good e e seen seen.
Proof. intros e seen H. split; [apply mono_e_refl | split; [tauto | split; [exact H | intros k H1 H2; contradiction]]]. Qed.
Lemma good_trans : forall e1 e2 e3 s1 s2 s3,
  (forall k, In k s1 -> In k s2) ->
  good e1 e2 s1 s2 -> good e2 e3 s2 s3 -> good e1 e3 s1 s3.
Proof.
  intros e1 e2 e3 s1 s2 s3 Hsub (M1 & C1 & D1 & N1) (M2 & C2 & D2 & N2).
  split; [eapply mono_e_trans; eassumption |]. split; [tauto |]. split; [exact D2 |].
  intros k H3 Hn1. destruct (kmem k s2) eqn:E; [apply kmem_In in E | apply N2; [exact H3 |]].
  - apply M2. apply N1; assumption.
  - intro H2. apply kmem_In in H2. congruence.
Qed.

(* binding a non-structural key whose value respects the constants *)
Lemma good_bind : forall e seen k v,
  sdom e seen -> ~ structk k ->
  (forall a c, k = KAttr a -> p_aconst P a = Some c -> v = OAttr c) ->
  (forall t c, k = KType t -> p_tconst P t = Some c -> v = OType c) ->
  good e ((k, v) :: e) seen seen.
Proof.
  intros e seen k v Hd Hk Ha Ht. split; [apply mono_e_cons |]. split; [| split].
  - intros [C1 C2]. split.
    + intros a c w Hc H. simpl in H. destruct (key_eqb k (KAttr a)) eqn:E; [| eapply C1; eassumption].
      apply key_eqb_eq in E. inversion H; subst w. eapply Ha; eassumption.
    + intros t c w Hc H. simpl in H. destruct (key_eqb k (KType t)) eqn:E; [| eapply C2; eassumption].
      apply key_eqb_eq in E. inversion H; subst w. eapply Ht; eassumption.
  - intros k' Hs H. simpl in H. destruct (key_eqb k k') eqn:E; [apply key_eqb_eq in E; subst; contradiction | apply Hd; assumption].
  - intros k' H1 H2. contradiction.
Qed.

Lemma bound_or_good : forall e seen k x otherwise e',
  sdom e seen -> bound_or e k x otherwise = MOk e' -> (otherwise = MOk e' -> good e e' seen seen) -> good e e' seen seen.
Proof.
  intros e seen k x otherwise e' Hd H Ho. unfold bound_or in H. destruct (klookup e k) as [b|]; [| exact (Ho H)].
  destruct (obj_eqb b x); inversion H; subst. apply good_refl. exact Hd.
Qed.
Lemma match_type_good : forall e seen t xty e', sdom e seen -> match_type P e t xty = MOk e' -> good e e' seen seen.
Proof.
  intros e seen t xty e' Hd H. apply (bound_or_good _ _ _ _ _ _ Hd H). clear H. intro H.
  destruct (p_tconst P t) as [c|] eqn:Ec; [destruct (c =? xty) eqn:E; [apply Z.eqb_eq in E |] |]; inversion H; subst;
    (apply good_bind; [exact Hd | intros [] | intros; discriminate | intros t' c' Hk Hc; inversion Hk; subst; congruence]).
Qed.
Lemma match_attribute_good : forall e seen a xa e', sdom e seen -> match_attribute P e a xa = MOk e' -> good e e' seen seen.
Proof.
  intros e seen a xa e' Hd H. apply (bound_or_good _ _ _ _ _ _ Hd H). clear H. intro H.
  destruct (p_aconst P a) as [c|] eqn:Ec; [destruct (c =? xa) eqn:E; [apply Z.eqb_eq in E |] |]; inversion H; subst;
    (apply good_bind; [exact Hd | intros [] | intros a' c' Hk Hc; inversion Hk; subst; congruence | intros; discriminate]).
Qed.
Lemma good_sdom : forall e e' s s', good e e' s s' -> sdom e' s'.
Proof. intros e e' s s' (_ & _ & H & _). exact H. Qed.

Lemma match_free_good : forall e seen ov v e', sdom e seen -> match_free_operand P pl e ov v = MOk e' -> good e e' seen seen.
Proof.
  intros e seen ov v e' Hd H. apply (bound_or_good _ _ _ _ _ _ Hd H). clear H. intro H.
  destruct (p_otype P ov) as [t|].
  - destruct (match_type P e t (vtype pl v)) as [| |e1] eqn:E1; try discriminate. inversion H; subst.
    pose proof (match_type_good _ _ _ _ _ Hd E1) as G1.
    eapply good_trans; [intros k Hk; exact Hk | exact G1 |].
    apply good_bind; [eapply good_sdom; exact G1 | intros [] | intros; discriminate | intros; discriminate].
  - inversion H; subst. apply good_bind; [exact Hd | intros [] | intros; discriminate | intros; discriminate].
Qed.
Lemma match_attrs_good : forall attrs e seen x e', sdom e seen -> match_attrs P x e attrs = MOk e' -> good e e' seen seen.
Proof.
  induction attrs as [|[n a] attrs IH]; intros e seen x e' Hd H; simpl in H.
  - inversion H; subst. apply good_refl. exact Hd.
  - destruct (get_attr_or_prop x n) as [xa|]; [| discriminate].
    destruct (match_attribute P e a xa) as [| |e1] eqn:E1; try discriminate.
    pose proof (match_attribute_good _ _ _ _ _ Hd E1) as G1.
    eapply good_trans; [intros k Hk; exact Hk | exact G1 | eapply IH; [eapply good_sdom; exact G1 | exact H]].
Qed.
Lemma match_types_good : forall ts xs e seen e', sdom e seen -> match_types P e ts xs = MOk e' -> good e e' seen seen.
Proof.
  induction ts as [|t ts IH]; intros xs e seen e' Hd H; simpl in H.
  - inversion H; subst. apply good_refl. exact Hd.
  - destruct xs as [|y xs]; [inversion H; subst; apply good_refl; exact Hd |].
    destruct (match_type P e t y) as [| |e1] eqn:E1; try discriminate.
    pose proof (match_type_good _ _ _ _ _ Hd E1) as G1.
    eapply good_trans; [intros k Hk; exact Hk | exact G1 | eapply IH; [eapply good_sdom; exact G1 | exact H]].
Qed.
Lemma sdom_weaken : forall e seen k, sdom e seen -> sdom e (k :: seen).
Proof. intros e seen k H k' Hs Hb. right. apply H; assumption. Qed.

Lemma good_close : forall e e1 seen seen' k v,
  structk k ->
  good e e1 (k :: seen) seen' -> (forall k', In k' (k :: seen) -> In k' seen') ->
  good e ((k, v) :: e1) seen seen'.
Proof.
  intros e e1 seen seen' k v Hk (M & C & D & N) Hsub. split; [eapply mono_e_trans; [exact M | apply mono_e_cons] |].
  split; [| split].
  - intros Hc. destruct (C Hc) as [C1 C2]. split.
    + intros a c w Hac H. simpl in H. destruct (key_eqb k (KAttr a)) eqn:E;
        [apply key_eqb_eq in E; subst; contradiction | eapply C1; eassumption].
    + intros t c w Htc H. simpl in H. destruct (key_eqb k (KType t)) eqn:E;
        [apply key_eqb_eq in E; subst; contradiction | eapply C2; eassumption].
  - intros k' Hs H. simpl in H. destruct (key_eqb k k') eqn:E.
    + apply key_eqb_eq in E. subst. apply Hsub. left. reflexivity.
    + apply D; assumption.
  - intros k' H1 H2. simpl. destruct (key_eqb k k') eqn:E; [discriminate |].
    apply N; [exact H1 |]. intros [H3 | H3]; [subst; rewrite key_eqb_refl in E; discriminate | contradiction].
Qed.

Definition E_operand (x : operand_pat) : Prop :=
  forall e v e' seen seen', sdom e seen -> lin_operand x seen = Some seen' ->
    match_operand fx P pl e x v = MOk e' -> good e e' seen seen' /\ (forall k, In k seen -> In k seen').
Definition E_op (o : op_pat) : Prop :=
  forall e x e' seen seen', sdom e seen -> lin_op o seen = Some seen' ->
    match_op fx P pl e o x = MOk e' -> good e e' seen seen' /\ (forall k, In k seen -> In k seen').

Lemma operands_good : forall ops, Forall E_operand ops ->
  forall vals e e' seen seen', sdom e seen -> length ops = length vals ->
    lin_with (fun x s => lin_operand x s) ops seen = Some seen' ->
    match_operands_with (fun e op v => match_operand fx P pl e op v) e ops vals = MOk e' ->
    good e e' seen seen' /\ (forall k, In k seen -> In k seen').
Proof.
  induction ops as [|op ops IH]; intros HF vals e e' seen seen' Hd Hlen Hlin H.
  - simpl in Hlin. inversion Hlin; subst. destruct vals; simpl in H; inversion H; subst.
    split; [apply good_refl; exact Hd | auto]. split; [apply good_refl; exact Hd | auto].
  - destruct vals as [|v vals]; [discriminate |]. inversion HF as [| ? ? Hop HF']; subst.
    cbn [lin_with] in Hlin. destruct (lin_operand op seen) as [s1|] eqn:El; [| discriminate].
    cbn [match_operands_with] in H. destruct (match_operand fx P pl e op v) as [| |e1] eqn:E1; try discriminate.
    destruct (Hop _ _ _ _ _ Hd El E1) as [G1 S1].
    destruct (IH HF' vals e1 e' s1 seen' (good_sdom _ _ _ _ G1) ltac:(simpl in Hlen; lia) Hlin H) as [G2 S2].
    split; [eapply good_trans; [exact S1 | exact G1 | exact G2] | auto].
Qed.

Lemma sdom_fresh : forall e seen k, sdom e seen -> structk k -> kmem k seen = false -> klookup e k = None.
Proof.
  intros e seen k Hd Hk Hm. destruct (klookup e k) eqn:E; [| reflexivity]. exfalso.
  assert (In k seen) by (apply Hd; [exact Hk | congruence]). apply kmem_In in H. congruence.
Qed.

(* E_op o: a successful match of o from an environment bounded by `seen` is `good` towards the keys lin_op collects *)
Theorem env_good : forall o, E_op o.
Proof.
  apply (op_pat_ind2 E_op E_operand).
  - intros id name attrs operands rtys HF e x e' seen seen' Hd Hlin H.
    cbn [lin_op] in Hlin. destruct (kmem (KOp id) seen) eqn:Ek; [discriminate |].
    cbn [match_op] in H. unfold bound_or in H. rewrite (sdom_fresh _ _ (KOp id) Hd I Ek) in H.
    destruct (match name with Some n => negb (o_name x =? n) | None => false end); [discriminate |].
    destruct (match_attrs P x e attrs) as [| |e1] eqn:E1; try discriminate.
    destruct (negb (zlen operands =? zlen (o_operands x))) eqn:Eo; [discriminate |].
    destruct (match_operands_with (fun e op v => match_operand fx P pl e op v) e1 operands (o_operands x)) as [| |e2] eqn:E2; try discriminate.
    destruct (negb (zlen rtys =? zlen (o_rtys x))); [discriminate |].
    destruct (match_types P e2 rtys (o_rtys x)) as [| |e3] eqn:E3; try discriminate. inversion H; subst; clear H.
    pose proof (match_attrs_good _ _ _ _ _ (sdom_weaken _ _ (KOp id) Hd) E1) as G1.
    assert (Hlen : length operands = length (o_operands x)).
    { apply negb_false_iff, Z.eqb_eq in Eo. unfold zlen in Eo. lia. }
    destruct (operands_good operands HF _ _ _ _ _ (good_sdom _ _ _ _ G1) Hlen Hlin E2) as [G2 S2].
    pose proof (match_types_good _ _ _ _ _ (good_sdom _ _ _ _ G2) E3) as G3.
    split; [| intros k Hk; apply S2; right; exact Hk].
    apply good_close; [exact I | | exact S2].
    eapply good_trans; [intros k Hk; exact Hk | exact G1 |]. eapply good_trans; [exact S2 | exact G2 | exact G3].
  - intros v e x e' seen seen' Hd Hlin H. cbn [lin_operand] in Hlin. inversion Hlin; subst.
    cbn [match_operand] in H. split; [eapply match_free_good; eassumption | auto].
  - intros rid idx o IH e v e' seen seen' Hd Hlin H.
    cbn [lin_operand] in Hlin. destruct (kmem (KResult rid) seen) eqn:Ek; [discriminate |].
    cbn [match_operand] in H. unfold bound_or in H. rewrite (sdom_fresh _ _ (KResult rid) Hd I Ek) in H.
    destruct v as [a | pid k]; [discriminate |]. destruct (find_op pl pid) as [y|]; [| discriminate].
    destruct (match_op fx P pl e o y) as [| |e1] eqn:E1; try discriminate.
    destruct (IH _ _ _ _ _ (sdom_weaken _ _ (KResult rid) Hd) Hlin E1) as [G1 S1].
    destruct (negb (zlen (op_rtys o) =? 0) && (zlen (op_rtys o) <=? idx)); [discriminate |].
    assert (He' : exists w, e' = (KResult rid, w) :: e1).
    { destruct (fx_resindex fx).
      - destruct ((0 <=? idx) && (idx <? zlen (o_rtys y)) && (k =? idx)); inversion H; eauto.
      - destruct ((0 <=? idx) && (idx <? zlen (o_rtys y))); inversion H; eauto. }
    destruct He' as [w ->].
    split; [apply good_close; [exact I | exact G1 | exact S1] | intros k' Hk'; apply S1; right; exact Hk'].
  - intros rid e v e' seen seen' _ Hlin. discriminate Hlin.
Qed.
End Env.
