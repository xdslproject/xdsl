(* Props/C13.v -- property C13: dead-code elimination removes only unobservable code.
   ONLY theorem statements closed by `exact`.  Model: C13/Model.v (region_dce, liveness, delete_dead
   = dd_region/ddc_region, dce_pass, dce_pass_iter).  Specs (C13/Proofs.v): `visited_r` (operations
   reached by the propagation: reachable blocks, recursively through regions), `live` (least fixed
   point of: intrinsically live, or used by a live op), `rin out r rg` (rg is r or a region of an
   operation all of whose enclosing operations remain in `out`), `kin L r rg` (the same w.r.t. the
   live set L used by delete_dead), `complete` (no trivially dead op, every block reachable);
   C13/ProofsSem.v: `run` (big-step semantics of a region-free CFG with memory and effect log). *)
From Coq Require Import List Arith.
From XV Require Import C24.Model C24.ProofsPO C13.Model C13.Proofs C13.ProofsIter C13.ProofsGreedy C13.ProofsSem.
Import ListNotations.

(* the `while changed` loop ends within its fuel (the live set strictly grows) and region_dce is total *)
Theorem C13_terminates : forall r,
  (exists st, liveness r = Some st /\ ls_err st = false) /\ exists r' ch, region_dce r = Some (r', ch).
Proof. exact terminates. Qed.
Print Assumptions C13_terminates.

(* the computed live set is the least fixed point of the liveness rules *)
Theorem C13_liveness_is_lfp : forall r st,
  NoDup (ids (walk_region r)) -> liveness r = Some st ->
  forall o, In o (walk_region r) -> (lives (ls_live st) o = true <-> live r o).
Proof. exact liveness_lfp. Qed.
Print Assumptions C13_liveness_is_lfp.

(* an operation that disappears although its block is reachable and all its enclosing operations
   remain is not a terminator, not a symbol, has only result-only effects (would_be_trivially_dead)
   and every user of its results disappears too *)
Theorem C13_only_removable : forall r r' ch,
  NoDup (ids (walk_region r)) -> region_dce r = Some (r', ch) ->
  forall rg bi b o, rin (ids (walk_region r')) r rg -> nth_error rg bi = Some b -> In o (b_ops b) ->
    ~ In (o_id o) (ids (walk_region r')) ->
    ~ reach (cfg_of rg) bi \/
    (would_be_trivially_dead o = true /\
     forall u, In u (walk_region r) -> uses u o -> ~ In (o_id u) (ids (walk_region r'))).
Proof. exact only_removable. Qed.
Print Assumptions C13_only_removable.

Theorem C13_output_subset : forall r r' ch,
  region_dce r = Some (r', ch) -> incl (ids (walk_region r')) (ids (walk_region r)).
Proof. exact output_subset. Qed.
Print Assumptions C13_output_subset.

(* delete_dead keeps a block of a kept region only if it is reachable, and keeps every reachable
   block that contains a terminator (a reachable block with no live operation and no terminator
   goes as well) *)
Theorem C13_unreachable_blocks_removed : forall r r' ch,
  NoDup (ids (walk_region r)) -> region_dce r = Some (r', ch) ->
  exists L, r' = dd_region L r /\ ch = ddc_region L r /\
    forall rg, kin L r rg -> forall bi b, nth_error rg bi = Some b ->
      (keep_blk L bi b -> reach (cfg_of rg) bi) /\
      (reach (cfg_of rg) bi -> (exists t, In t (b_ops b) /\ o_term t = true) -> keep_blk L bi b).
Proof. exact kept_blocks_reachable. Qed.
Print Assumptions C13_unreachable_blocks_removed.

(* ONE run of region_dce (all the pass did before 12db68a) can leave a trivially dead operation:
   refuted by two witnesses *)
Theorem C13_complete_refuted :
  leaves_trivially_dead witness_nested_use /\ leaves_trivially_dead witness_unreachable_effect.
Proof. exact complete_refuted. Qed.
Print Assumptions C13_complete_refuted.

(* strongest statements that hold: a run that reports no change is complete ... *)
Theorem C13_complete_partial : forall r r',
  NoDup (ids (walk_region r)) -> region_dce r = Some (r', false) -> r' = r /\ complete r.
Proof. exact complete_if_unchanged. Qed.
Print Assumptions C13_complete_partial.

(* ... hence region_dce iterated until it reports no change (what the pass does since 12db68a) is complete *)
Theorem C13_complete_iterated : forall fuel r r'',
  NoDup (ids (walk_region r)) -> dce_iter fuel r = Some r'' -> complete r''.
Proof. exact dce_iter_complete. Qed.
Print Assumptions C13_complete_iterated.

(* the repaired pass (model dce_pass_iter, fuel = number of ops and blocks) terminates: every run that
   reports a change deletes an operation or a block *)
Theorem C13_iterated_total : forall r, NoDup (ids (walk_region r)) ->
  exists r'', dce_pass_iter r = Some r'' /\ complete r''.
Proof. exact dce_pass_iter_total. Qed.
Print Assumptions C13_iterated_total.

(* trivially-dead removal of the greedy driver: it terminates, proceeds in rounds (`grounds`), the
   result has no trivially dead operation, and a round removes only operations that are trivially
   dead at that moment (unused results, would_be_trivially_dead) or nested in one *)
Theorem C13_greedy_total_complete : forall r,
  exists r', greedy_dce r = Some r' /\ grounds r r' /\
             forall o, In o (walk_region r') -> is_trivially_dead (walk_region r') o = false.
Proof. exact greedy_total. Qed.
Print Assumptions C13_greedy_total_complete.

Theorem C13_greedy_only_removable : forall all r i,
  In i (ids (walk_region r)) -> ~ In i (ids (walk_region (gd_region all r))) ->
  exists p, In p (walk_region r) /\ is_trivially_dead all p = true /\ In i (ids (walk_op p)).
Proof. exact gd_round_sound. Qed.
Print Assumptions C13_greedy_only_removable.

(* the iterated pass on the two witnesses of C13_complete_refuted: both dead operations go *)
Example C13_iterated_nonvacuous :
  dce_pass_iter witness_nested_use = Some [Blk 0 [] [Op 4 [] [] [] [] true false None false]] /\
  dce_pass_iter witness_unreachable_effect = Some [Blk 0 [] [Op 4 [] [] [] [] true false None false]].
Proof. exact iter_removes_witnesses. Qed.

(* same results, memory and effect log before and after region_dce, for every region-free CFG,
   every uninterpreted operation semantics in which would_be_trivially_dead operations always
   succeed without touching memory or log, every initial environment and memory *)
Theorem C13_semantics : forall (val mem event : Type)
  (sem : op -> list val -> mem -> option (list val * mem * list event))
  (tsem : op -> list val -> mem -> option (tres val * mem * list event)),
  (forall o vs m, would_be_trivially_dead o = true -> exists rs, sem o vs m = Some (rs, m, [])) ->
  forall r r' ch,
    NoDup (ids (walk_region r)) -> NoDup (map b_id r) ->
    (forall o, In o (walk_region r) -> o_regs o = []) ->
    (forall b pre t post, In b r -> b_ops b = pre ++ t :: post -> o_term t = true -> post = []) ->
    region_dce r = Some (r', ch) ->
    forall e m res, run val mem event sem tsem r e m res <-> run val mem event sem tsem r' e m res.
Proof. exact semantics_preserved. Qed.
Print Assumptions C13_semantics.

(* the hypotheses of C13_semantics are satisfiable by a program that runs and loses an op *)
Example C13_semantics_nonvacuous :
  (forall o vs m, would_be_trivially_dead o = true -> exists rs, ex_sem o vs m = Some (rs, m, [])) /\
  region_dce ex_prog = Some ([Blk 0 [] [Op 1 [1] [] [] [] false false (Some [EWrite]) false;
                                        Op 2 [] [1] [] [] true false None false]], true) /\
  run nat nat nat ex_sem ex_tsem ex_prog (fun _ => 0) 0 ([7], 1, [1]).
Proof. exact semantics_nonvacuous. Qed.
