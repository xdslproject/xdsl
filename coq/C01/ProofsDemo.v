(* C01/ProofsDemo.v -- non-vacuity: a concrete 3-block / 7-op state is well formed, a 12-call
   history over many constructors runs on it, and the hypothesis of the history theorem is
   satisfiable. *)
From Coq Require Import ZArith List Bool PArith FMapPositive Lia.
From XV Require Import C01.Model C01.Spec C01.ProofsBase C01.ProofsWfb C01.ProofsOps C01.ProofsHistory.
Import ListNotations.
Local Open Scope Z_scope.

Definition P3 : positive := 3%positive.
Definition P4 : positive := 4%positive.
Definition P5 : positive := 5%positive.
Definition P6 : positive := 6%positive.
Definition P7 : positive := 7%positive.
Definition P8 : positive := 8%positive.

(* one region, 3 blocks, 7 ops; value 1 is used three times, block 2 twice as a successor *)
Definition demo_build : list call :=
  [CBlockNew [] 2%nat; CBlockNew [] 0%nat; CBlockNew [] 1%nat;
   COpCreate [P1; P1; P2] 1%nat [] []; COpCreate [P4; P1] 2%nat [] []; COpCreate [P5; P6; P4] 0%nat [P2; P3] [];
   CAddOp P1 P1; CAddOp P1 P2; CAddOp P1 P3;
   COpCreate [P3] 1%nat [] []; COpCreate [P7; P3] 0%nat [P2] []; CAddOp P3 P4; CAddOp P3 P5;
   COpCreate [P1] 1%nat [] []; COpCreate [P8] 0%nat [] []; CAddOp P2 P6; CAddOp P2 P7;
   CRegionNew [P1; P2; P3]].
Definition demo_state : state := run demo_build empty_state.

(* 12 calls over many constructors (including split_before; detach; insert_op_before first) *)
Definition demo_history : list call :=
  [CSplitBefore P1 P2 1%nat;             (* block 1 split before op 2: new block 4 *)
   COpDetach P3;
   CInsertOpBefore P1 P3 P1;             (* op 3 becomes the first op of block 1 *)
   COperandSetItem P3 (-1) P2;
   CReplaceAllUsesWith P1 P2;
   CInsertArg P2 0;
   CSuccessorSetItem P3 0 P4;
   CDetachBlock P1 P3;
   CRwInsertBlock [P3] P1 (Some P1);
   CEraseOp P2 P7 true;
   CSetOperands P5 [P3; P3];
   CRwReplaceValueWithNewType false P3].

Fixpoint all_ok (cs : list call) (s : state) : bool :=
  match cs with
  | [] => true
  | c :: r => is_ok (snd (step s c)) && wf_b (fst (step s c)) && all_ok r (fst (step s c))
  end.

Lemma demo_nonvacuous :
  WF demo_state /\ all_ok demo_history demo_state = true /\ WF (run demo_history demo_state).
Proof.
  split; [apply wf_b_sound; vm_compute; reflexivity|].
  split; [vm_compute; reflexivity|apply wf_b_sound; vm_compute; reflexivity].
Qed.

(* the hypothesis of the history theorem is satisfiable: 9 proved calls on the demo state *)
Definition demo_clean : list call :=
  [CDetachOp P1 P2; CInsertOpBefore P1 P2 P1; COperandSetItem P3 0 P4; COperandSetItem P3 (-1) P1;
   CSuccessorSetItem P3 0 P3; CDetachOp P2 P7; CAddOp P3 P7; CDetachOp P3 P4; CInsertOpAfter P2 P4 P6].

Ltac live_tac := eexists; split; vm_compute; reflexivity.

Ltac in_live_tac :=
  let z := fresh "z" in let I := fresh "I" in
  intros z I; repeat (destruct I as [<-|I]; [live_tac|]); destruct I.
Ltac clean_step :=
  eapply clean_cons;
  [reflexivity
  | cbv [args_live]; first [exact I | live_tac | in_live_tac | split; [live_tac|first [live_tac|in_live_tac]]]
  | vm_compute; reflexivity | ].
(* the whole demo, creation calls included, is a clean history from the EMPTY heap: the
   hypothesis of history_from_empty is satisfiable by a 27-call history *)
Lemma demo_from_empty_ok : clean empty_state (demo_build ++ demo_clean).
Proof.
  unfold demo_build, demo_clean. cbn [app]. do 27 clean_step. apply clean_nil.
Qed.

Lemma demo_clean_ok : clean demo_state demo_clean.
Proof. exact (clean_app demo_build demo_clean empty_state demo_from_empty_ok). Qed.

(* erase of an operation WITH a region (region 1 = [block 1 (one argument) = [op 1 (one result)]])
   through the tree version of the erase theorem: the hypothesis tree_live is satisfiable, and the
   5-call history from the empty heap is clean *)
Definition demo_tree : list call :=
  [COpCreate [] 1%nat [] []; CBlockNew [P1] 1%nat; CRegionNew [P1]; COpCreate [] 0%nat [] [P1];
   COpErase P2 true].

Ltac tree_tac :=
  cbv [tree_live XV.C01.ProofsErase.all_live];
  let g := fresh "g" in let J := fresh "J" in
  intros g J;
  match type of J with In _ ?L =>
    let l := eval vm_compute in L in
    let E := fresh "E" in assert (E : L = l) by (vm_compute; reflexivity); rewrite E in J; clear E end;
  repeat (destruct J as [<-|J];
          [cbv beta iota delta [XV.C01.ProofsErase.glive]; lazymatch goal with |- True => exact Logic.I | _ => live_tac end|]);
  destruct J.
Ltac clean_tree_step :=
  eapply clean_cons;
  [reflexivity
  | cbv [args_live];
    lazymatch goal with |- True => exact Logic.I | |- _ \/ _ => right; tree_tac | _ => in_live_tac end
  | vm_compute; reflexivity | ].
Lemma demo_tree_ok : clean empty_state demo_tree /\ wf_b (run demo_tree empty_state) = true.
Proof.
  split; [|vm_compute; reflexivity].
  unfold demo_tree. do 5 clean_tree_step. apply clean_nil.
Qed.
