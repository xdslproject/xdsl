(* C10/Proofs.v -- Spec (segmentation) and proofs about one construct (operand, result,
   region or successor list): size verification, accessors, constructor. *)
From Coq Require Import ZArith List Bool Lia.
From XV Require Import C10.Model.
Import ListNotations.
Local Open Scope Z_scope.

(* the size a definition allows for its segment *)
Definition size_ok (k : kind) (s : Z) : Prop :=
  match k with Single => s = 1 | Optional => s = 0 \/ s = 1 | Variadic => 0 <= s end.
(* SameVariadic*Size: one common size for every variadic and optional definition *)
Definition same_sizes (defs : list kind) (sizes : list Z) : Prop :=
  exists k, Forall2 (fun d s => is_variadic d = true -> s = k) defs sizes.
(* `sizes` splits a list of `n` arguments into the declared segments *)
Definition segmentation (opt : sizeopt) (defs : list kind) (n : Z) (sizes : list Z) : Prop :=
  Forall2 size_ok defs sizes /\ zsum sizes = n /\ (opt = SameSize -> same_sizes defs sizes).

Fixpoint split_sizes {T} (sizes : list Z) (args : list T) : list (list T) :=
  match sizes with
  | [] => []
  | s :: r => firstn (Z.to_nat s) args :: split_sizes r (skipn (Z.to_nat s) args)
  end.
(* what the accessor of a definition of kind k must return for its segment *)
Definition shape {T} (k : kind) (seg : list T) : accres T :=
  match k with
  | Single => match seg with [x] => AOne x | _ => AMany seg end
  | Optional => match seg with [] => ANone | [x] => AOne x | _ => AMany seg end
  | Variadic => AMany seg
  end.
(* a constructor argument as a segment *)
Definition norm {T} (a : barg T) : list T :=
  match a with BNone => [] | BOne x => [x] | BSeq l => l end.

Lemma len_nonneg : forall T (l : list T), 0 <= len l.
Proof. intros. unfold len. lia. Qed.
Lemma len_cons : forall T (x : T) l, len (x :: l) = 1 + len l.
Proof. intros. unfold len. cbn [length]. lia. Qed.
Lemma len_nil : forall T, len (@nil T) = 0.
Proof. reflexivity. Qed.
Lemma len_app : forall T (a b : list T), len (a ++ b) = len a + len b.
Proof. intros. unfold len. rewrite app_length. lia. Qed.

Lemma F2_length : forall A B (P : A -> B -> Prop) l1 l2, Forall2 P l1 l2 -> length l1 = length l2.
Proof. induction 1; cbn; auto. Qed.

Lemma nv_nonneg : forall defs, 0 <= num_variadics defs.
Proof. intros. apply len_nonneg. Qed.
Lemma nv_cons : forall d defs,
  num_variadics (d :: defs) = (if is_variadic d then 1 else 0) + num_variadics defs.
Proof.
  intros. unfold num_variadics. cbn [filter]. destruct (is_variadic d); [rewrite len_cons|]; lia.
Qed.
Lemma nv_le_len : forall defs, num_variadics defs <= len defs.
Proof.
  induction defs as [|d r IH]; [cbn; lia|]. rewrite nv_cons, len_cons. destruct (is_variadic d); lia.
Qed.

Lemma size_ok_nonneg : forall k s, size_ok k s -> 0 <= s.
Proof. destruct k; cbn; lia. Qed.
Lemma sizes_nonneg : forall defs sizes, Forall2 size_ok defs sizes -> Forall (fun s => 0 <= s) sizes.
Proof. induction 1; constructor; eauto using size_ok_nonneg. Qed.
Lemma zsum_nonneg : forall l, Forall (fun s => 0 <= s) l -> 0 <= zsum l.
Proof. induction 1; cbn [zsum]; lia. Qed.
Lemma zsum_app : forall a b, zsum (a ++ b) = zsum a + zsum b.
Proof. induction a; intros; cbn [zsum app]; [lia|]. rewrite IHa. lia. Qed.

(* canonical size vector with common variadic size k *)
Definition const_sizes (k : Z) (defs : list kind) : list Z :=
  map (fun d => if is_variadic d then k else 1) defs.

Lemma zsum_const : forall k defs,
  zsum (const_sizes k defs) = len defs - num_variadics defs + num_variadics defs * k.
Proof.
  induction defs as [|d r IH]; [reflexivity|].
  cbn [const_sizes map zsum]. fold (const_sizes k r). rewrite IH, nv_cons, len_cons.
  destruct (is_variadic d); lia.
Qed.

Lemma canon : forall k defs sizes,
  Forall2 size_ok defs sizes -> Forall2 (fun d s => is_variadic d = true -> s = k) defs sizes ->
  sizes = const_sizes k defs.
Proof.
  intros k defs sizes H. induction H as [|d s ds ss Hd _ IH]; intros Hk; [reflexivity|].
  inversion Hk; subst. cbn [const_sizes map]. fold (const_sizes k ds). f_equal; [|auto].
  destruct d; cbn in *; auto.
Qed.

Lemma const_same : forall k defs, Forall2 (fun d s => is_variadic d = true -> s = k) defs (const_sizes k defs).
Proof. induction defs; cbn; constructor; auto. intros H; rewrite H; reflexivity. Qed.

Lemma nv0_all_single : forall defs, num_variadics defs = 0 -> Forall (fun d => d = Single) defs.
Proof.
  induction defs as [|d r IH]; intros H; [constructor|]. rewrite nv_cons in H.
  pose proof (nv_nonneg r). destruct d; cbn [is_variadic] in H; try lia. constructor; [reflexivity|apply IH; lia].
Qed.
Lemma all_single_const : forall k defs, Forall (fun d => d = Single) defs -> const_sizes k defs = map (fun _ => 1) defs.
Proof. induction 1; cbn; [reflexivity|]. subst; cbn. f_equal; auto. Qed.

Lemma has_optional_spec : forall defs,
  existsb is_optional (filter is_variadic defs) = true <-> In Optional defs.
Proof.
  induction defs as [|d r IH]; cbn; [split; [discriminate|tauto]|].
  destruct d; cbn; rewrite ?IH; intuition congruence.
Qed.

Lemma const_size_ok : forall k defs,
  0 <= k -> (In Optional defs -> k = 0 \/ k = 1) -> Forall2 size_ok defs (const_sizes k defs).
Proof.
  induction defs as [|d r IH]; intros Hk Ho; cbn; constructor.
  - destruct d; cbn; auto. apply Ho; left; reflexivity.
  - apply IH; auto. intros; apply Ho; right; auto.
Qed.

Lemma optional_common : forall k defs sizes,
  Forall2 size_ok defs sizes -> Forall2 (fun d s => is_variadic d = true -> s = k) defs sizes ->
  In Optional defs -> k = 0 \/ k = 1.
Proof.
  intros k defs sizes H. induction H as [|d s ds ss Hd _ IH]; intros Hk Hin; [destruct Hin|].
  inversion Hk; subst. destruct Hin as [->|Hin]; [|auto].
  cbn in Hd. rewrite <- H2 by reflexivity. auto.
Qed.
Lemma variadic_common : forall k defs sizes,
  Forall2 size_ok defs sizes -> Forall2 (fun d s => is_variadic d = true -> s = k) defs sizes ->
  0 < num_variadics defs -> 0 <= k.
Proof.
  intros k defs sizes H. induction H as [|d s ds ss Hd _ IH]; intros Hk Hnv; [cbn in Hnv; lia|].
  inversion Hk; subst. rewrite nv_cons in Hnv.
  destruct d; cbn in *; try (rewrite <- H2 by reflexivity; lia). apply IH; auto.
Qed.

(* with one common variadic size the size vector is determined by that size *)
Lemma same_sizes_const : forall n defs,
  (exists sizes, Forall2 size_ok defs sizes /\ zsum sizes = n /\ same_sizes defs sizes) <->
  exists k, Forall2 size_ok defs (const_sizes k defs) /\
            len defs - num_variadics defs + num_variadics defs * k = n.
Proof.
  intros n defs. split.
  - intros (sizes & Hok & Hs & k & Hk). exists k. pose proof (canon _ _ _ Hok Hk) as E. subst sizes.
    rewrite zsum_const in Hs. auto.
  - intros (k & Hok & Hs). exists (const_sizes k defs). rewrite zsum_const.
    split; [exact Hok|]. split; [exact Hs|]. exists k. apply const_same.
Qed.

Theorem same_size_iff : forall n defs,
  verify_variadic_same_size n defs = Ok tt <->
  exists sizes, Forall2 size_ok defs sizes /\ zsum sizes = n /\ same_sizes defs sizes.
Proof.
  intros n defs. rewrite same_sizes_const. unfold verify_variadic_same_size. fold (num_variadics defs).
  pose proof (nv_nonneg defs) as Hnn. pose proof (nv_le_len defs) as Hle.
  destruct (num_variadics defs =? 0) eqn:E0.
  - apply Z.eqb_eq in E0. destruct (n =? len defs) eqn:En; cbn [negb].
    + apply Z.eqb_eq in En. split; [intros _|reflexivity].
      exists 0. split; [|lia]. apply const_size_ok; [lia|]. intros Hin.
      pose proof (nv0_all_single defs E0) as Hs. rewrite Forall_forall in Hs. specialize (Hs _ Hin). discriminate.
    + apply Z.eqb_neq in En. split; [discriminate|]. intros (k & _ & Hs). lia.
  - apply Z.eqb_neq in E0.
    destruct (existsb is_optional (filter is_variadic defs)) eqn:Eo.
    + apply has_optional_spec in Eo.
      destruct ((n =? len defs) || (n =? len defs - num_variadics defs)) eqn:En; cbn [negb].
      * split; [intros _|reflexivity]. apply orb_true_iff in En. destruct En as [En|En]; apply Z.eqb_eq in En.
        -- exists 1. split; [apply const_size_ok; [lia|auto] | lia].
        -- exists 0. split; [apply const_size_ok; [lia|auto] | lia].
      * split; [discriminate|]. intros (k & Hok & Hs).
        apply orb_false_iff in En. destruct En as [E1 E2]. apply Z.eqb_neq in E1, E2.
        destruct (optional_common _ _ _ Hok (const_same k defs) Eo); subst k; lia.
    + assert (Hno : ~ In Optional defs).
      { intros Hin. apply has_optional_spec in Hin. congruence. }
      destruct (n <? len defs - num_variadics defs) eqn:E1.
      * apply Z.ltb_lt in E1. split; [discriminate|]. intros (k & Hok & Hs).
        assert (0 <= k) by (apply (variadic_common _ _ _ Hok (const_same k defs)); lia). nia.
      * apply Z.ltb_ge in E1.
        destruct ((n - len defs) mod num_variadics defs =? 0) eqn:E2; cbn [negb].
        -- apply Z.eqb_eq in E2. split; [intros _|reflexivity].
           pose proof (Z.div_mod (n - len defs) (num_variadics defs) E0) as Hdm. rewrite E2 in Hdm.
           set (q := (n - len defs) / num_variadics defs) in *.
           assert (-1 <= q) by nia.
           exists (q + 1). split; [|lia]. apply const_size_ok; [lia|]. intros; contradiction.
        -- apply Z.eqb_neq in E2. split; [discriminate|]. intros (k & _ & Hs). exfalso. apply E2.
           replace (n - len defs) with ((k - 1) * num_variadics defs) by lia.
           apply Z.mod_mul. lia.
Qed.

Lemma default_after_all_single : forall defs idx nd accs,
  default_accessors defs idx nd false = Ok accs -> Forall (fun d => d = Single) defs.
Proof.
  induction defs as [|d r IH]; intros idx nd accs H; [constructor|].
  cbn [default_accessors] in H. destruct d; cbn [is_variadic] in H; try discriminate.
  destruct (default_accessors r (idx + 1) nd false) eqn:E; [|discriminate].
  constructor; eauto.
Qed.
Lemma all_single_nv : forall defs, Forall (fun d => d = Single) defs -> num_variadics defs = 0.
Proof. induction 1; [reflexivity|]. subst. rewrite nv_cons. cbn. lia. Qed.

Lemma default_nv_le_1 : forall defs idx nd accs,
  default_accessors defs idx nd true = Ok accs -> num_variadics defs <= 1.
Proof.
  induction defs as [|d r IH]; intros idx nd accs H; [cbn; lia|].
  cbn [default_accessors] in H. rewrite nv_cons. destruct (is_variadic d) eqn:Ev.
  - destruct (default_accessors r (idx + 1) nd false) eqn:E; [|discriminate].
    apply default_after_all_single in E. rewrite (all_single_nv _ E). lia.
  - destruct (default_accessors r (idx + 1) nd true) eqn:E; [|discriminate].
    apply IH in E. lia.
Qed.

Lemma all_single_same : forall (k : Z) defs sizes,
  Forall (fun d => d = Single) defs -> length defs = length sizes ->
  Forall2 (fun d s => is_variadic d = true -> s = k) defs sizes.
Proof.
  intros k defs. induction defs as [|d r IH]; intros sizes Hs Hl; destruct sizes; try discriminate; constructor.
  - inversion Hs; subst. discriminate.
  - inversion Hs; subst. apply IH; auto.
Qed.

Lemma nv_le_1_same : forall defs sizes,
  num_variadics defs <= 1 -> Forall2 size_ok defs sizes -> same_sizes defs sizes.
Proof.
  intros defs sizes Hnv H. induction H as [|d s ds ss Hd Hr IH].
  - exists 0. constructor.
  - rewrite nv_cons in Hnv. pose proof (nv_nonneg ds). destruct (is_variadic d) eqn:Ev.
    + exists s. constructor; [auto|]. apply all_single_same; [|eapply F2_length; eauto].
      apply nv0_all_single. lia.
    + destruct IH as [k Hk]; [lia|]. exists k. constructor; auto. congruence.
Qed.

(* well-definedness of the class: the accessors could be generated *)
Definition well_defined (v : version) (opt : sizeopt) (defs : list kind) : Prop :=
  exists accs, irdl_op_arg_definition v opt defs = Ok accs.

Theorem verify_sizes_iff : forall v opt defs n attr,
  opt <> AttrSized -> well_defined v opt defs ->
  (verify_variadic_size v opt defs n attr = Ok tt <-> exists sizes, segmentation opt defs n sizes).
Proof.
  intros v opt defs n attr Hopt [accs Hwd]. unfold segmentation.
  destruct opt; [| |congruence]; cbn [verify_variadic_size]; rewrite same_size_iff.
  - cbn in Hwd. apply default_nv_le_1 in Hwd.
    split; intros (sizes & H1 & H2 & H3); exists sizes; repeat split; auto; try discriminate.
    apply nv_le_1_same; auto.
  - split; intros (sizes & H1 & H2 & H3); exists sizes; repeat split; auto.
Qed.

Theorem segmentation_unique : forall v opt defs n s1 s2,
  opt <> AttrSized -> well_defined v opt defs ->
  segmentation opt defs n s1 -> segmentation opt defs n s2 -> s1 = s2.
Proof.
  intros v opt defs n s1 s2 Hopt [accs Hwd] (A1 & A2 & A3) (B1 & B2 & B3).
  assert (HS : forall s, Forall2 size_ok defs s -> (opt = SameSize -> same_sizes defs s) -> same_sizes defs s).
  { intros s Hs Hsame. destruct opt; [|auto|congruence].
    cbn in Hwd. apply default_nv_le_1 in Hwd. apply nv_le_1_same; auto. }
  destruct (HS _ A1 A3) as [k1 K1]. destruct (HS _ B1 B3) as [k2 K2].
  rewrite (canon _ _ _ A1 K1) in *. rewrite (canon _ _ _ B1 K2) in *.
  rewrite zsum_const in A2, B2. pose proof (nv_nonneg defs).
  destruct (Z.eq_dec (num_variadics defs) 0) as [E|E].
  - rewrite !all_single_const by (apply nv0_all_single; auto). reflexivity.
  - assert (k1 = k2) by nia. subst; reflexivity.
Qed.

(* what the unrepaired verify_variadic_attr_size checks per definition: nothing for a variadic one *)
Definition size_ok_weak (k : kind) (s : Z) : Prop :=
  match k with Single => s = 1 | Optional => s = 0 \/ s = 1 | Variadic => True end.
(* per-definition check of the code: unrepaired (fx = false) or repaired (fx = true) *)
Definition size_chk (fx : bool) : kind -> Z -> Prop := if fx then size_ok else size_ok_weak.

Lemma attr_loop_iff : forall fx sizes defs, length sizes = length defs ->
  (attr_size_loop fx sizes defs = Ok tt <-> Forall2 (size_chk fx) defs sizes).
Proof.
  intros fx. induction sizes as [|s ss IH]; intros defs Hl; destruct defs as [|d ds]; try discriminate.
  - cbn. split; [constructor|reflexivity].
  - cbn [attr_size_loop]. injection Hl as Hl. specialize (IH ds Hl).
    assert (Hneg : fx && (s <? 0) = true -> ~ size_chk fx d s).
    { intros E. apply andb_true_iff in E. destruct E as [-> E]. apply Z.ltb_lt in E.
      cbn [size_chk]. intros H. apply size_ok_nonneg in H. lia. }
    assert (Hvar : fx && (s <? 0) = false -> size_chk fx Variadic s).
    { intros E. destruct fx; cbn [size_chk andb] in *; cbn; auto. apply Z.ltb_ge in E. exact E. }
    assert (Hsame : forall k, k <> Variadic -> (size_chk fx k s <-> size_ok_weak k s)).
    { intros k Hk. destruct fx; cbn [size_chk]; [|tauto]. destruct k; cbn; tauto || congruence. }
    destruct (fx && (s <? 0)) eqn:En.
    + split; [discriminate|]. intros H; inversion H; subst. exfalso. apply (Hneg eq_refl). auto.
    + destruct d; cbn [is_optional is_variadic andb negb].
      * destruct (s =? 1) eqn:E; cbn [negb].
        -- apply Z.eqb_eq in E. rewrite IH. split; intros H; [constructor; auto|inversion H; auto].
           apply Hsame; [discriminate|exact E].
        -- apply Z.eqb_neq in E. split; [discriminate|]. intros H; inversion H; subst.
           apply Hsame in H3; [|discriminate]. cbn in H3. lia.
      * destruct ((s =? 0) || (s =? 1)) eqn:E; cbn [negb].
        -- apply orb_true_iff in E. rewrite !Z.eqb_eq in E. rewrite IH.
           split; intros H; [constructor; auto|inversion H; auto]. apply Hsame; [discriminate|exact E].
        -- apply orb_false_iff in E. rewrite !Z.eqb_neq in E. split; [discriminate|].
           intros H; inversion H; subst. apply Hsame in H3; [|discriminate]. cbn in H3. lia.
      * rewrite IH. split; intros H; [constructor; auto|inversion H; auto].
Qed.

(* exactly what the attr-sized path checks, for both variants of the code *)
Theorem attr_size_exact : forall fx defs attr n,
  verify_variadic_attr_size fx attr defs n = Ok tt <->
  exists sizes, attr = Dense true sizes /\ Forall2 (size_chk fx) defs sizes /\
                (fx = true -> zsum sizes = n).
Proof.
  intros fx defs attr n. destruct attr as [| |b sizes]; cbn [verify_variadic_attr_size];
    try (split; [discriminate|intros (s & H & _); discriminate]).
  destruct b; [|split; [discriminate|intros (s & H & _); discriminate]].
  destruct (Z.eqb_spec (len sizes) (len defs)) as [E|E]; cbn [negb].
  - assert (Hl : length sizes = length defs) by (unfold len in E; lia).
    destruct (attr_size_loop fx sizes defs) as [[]|e] eqn:El; cbn [bind].
    + apply attr_loop_iff in El; auto.
      destruct (fx && negb (zsum sizes =? n)) eqn:Es.
      * split; [discriminate|]. intros (s & H1 & _ & H2). injection H1 as <-.
        apply andb_true_iff in Es. destruct Es as [-> Es]. specialize (H2 eq_refl).
        apply negb_true_iff, Z.eqb_neq in Es. contradiction.
      * split; [intros _|reflexivity]. exists sizes. repeat split; auto. intros ->.
        cbn [andb] in Es. apply negb_false_iff, Z.eqb_eq in Es. exact Es.
    + split; [discriminate|]. intros (s & H1 & H2 & _). injection H1 as <-.
      apply attr_loop_iff in H2; auto. congruence.
  - split; [discriminate|]. intros (s & H1 & H2 & _). injection H1 as <-.
    apply F2_length in H2. unfold len in E. lia.
Qed.

Lemma ok_weak : forall defs sizes, Forall2 size_ok defs sizes -> Forall2 size_ok_weak defs sizes.
Proof. induction 1; constructor; auto. destruct x; cbn in *; auto. Qed.
Lemma weak_ok : forall defs sizes, Forall2 size_ok_weak defs sizes -> Forall (fun s => 0 <= s) sizes ->
  Forall2 size_ok defs sizes.
Proof.
  induction 1; intros Hn; constructor; inversion Hn; subst; auto. destruct x; cbn in *; auto.
Qed.
Lemma ok_chk : forall fx defs sizes, Forall2 size_ok defs sizes -> Forall2 (size_chk fx) defs sizes.
Proof. intros [] defs sizes H; cbn [size_chk]; auto using ok_weak. Qed.
Lemma chk_ok : forall fx defs sizes, Forall2 (size_chk fx) defs sizes ->
  Forall (fun s => 0 <= s) sizes -> Forall2 size_ok defs sizes.
Proof. intros [] defs sizes H Hn; cbn [size_chk] in H; auto using weak_ok. Qed.

(* unrepaired code: only the weak check *)
Theorem attr_size_iff_weak : forall defs attr n,
  verify_variadic_attr_size false attr defs n = Ok tt <->
  exists sizes, attr = Dense true sizes /\ Forall2 size_ok_weak defs sizes.
Proof.
  intros. rewrite attr_size_exact. cbn [size_chk].
  split; intros (s & H1 & H2); exists s; [tauto|]. repeat split; try tauto. discriminate.
Qed.

(* repaired code: exactly the segmentations (the FULL statement) *)
Theorem attr_size_repaired_iff : forall defs attr n,
  verify_variadic_attr_size true attr defs n = Ok tt <->
  exists sizes, attr = Dense true sizes /\ segmentation AttrSized defs n sizes.
Proof.
  intros. rewrite attr_size_exact. cbn [size_chk]. unfold segmentation.
  split.
  - intros (s & H1 & H2 & H3). exists s. repeat split; auto. discriminate.
  - intros (s & H1 & H2 & H3 & _). exists s. repeat split; auto.
Qed.

(* every valid attr-sized operation is accepted (both variants) *)
Theorem attr_size_complete : forall v defs n sizes,
  segmentation AttrSized defs n sizes ->
  verify_variadic_size v AttrSized defs n (Dense true sizes) = Ok tt.
Proof.
  intros v defs n sizes (H & Hs & _). cbn [verify_variadic_size]. apply attr_size_exact.
  exists sizes. repeat split; auto using ok_chk.
Qed.
(* accepted => valid under the two conditions the unrepaired code never checks (both variants) *)
Theorem attr_size_sound_partial : forall v defs n sizes,
  Forall (fun s => 0 <= s) sizes -> zsum sizes = n ->
  verify_variadic_size v AttrSized defs n (Dense true sizes) = Ok tt ->
  segmentation AttrSized defs n sizes.
Proof.
  intros v defs n sizes Hn Hs H. cbn [verify_variadic_size] in H. apply attr_size_exact in H.
  destruct H as (s & E & Hw & _). injection E as <-.
  split; [|split]; eauto using chk_ok. discriminate.
Qed.
Theorem attr_size_iff_partial : forall v defs n sizes,
  Forall (fun s => 0 <= s) sizes -> zsum sizes = n ->
  (verify_variadic_size v AttrSized defs n (Dense true sizes) = Ok tt <->
   segmentation AttrSized defs n sizes).
Proof. split; eauto using attr_size_sound_partial, attr_size_complete. Qed.
(* repaired code: accepted => valid, unconditionally *)
Theorem attr_size_sound_repaired : forall v defs n attr,
  fix_attr_sum v = true -> verify_variadic_size v AttrSized defs n attr = Ok tt ->
  exists sizes, attr = Dense true sizes /\ segmentation AttrSized defs n sizes.
Proof.
  intros v defs n attr Hv H. cbn [verify_variadic_size] in H. rewrite Hv in H.
  apply attr_size_repaired_iff. exact H.
Qed.

(* unrepaired code: the full statement fails: sum never compared with the argument count;
   negative sizes accepted *)
Theorem attr_size_refuted_sum : forall v, fix_attr_sum v = false -> exists defs n sizes,
  verify_variadic_size v AttrSized defs n (Dense true sizes) = Ok tt /\
  ~ segmentation AttrSized defs n sizes.
Proof.
  intros v Hv. exists [Variadic; Single], 3, [1; 1]. split.
  - cbn [verify_variadic_size]. rewrite Hv. reflexivity.
  - intros (_ & H & _). cbn in H. lia.
Qed.
Theorem attr_size_refuted_negative : forall v, fix_attr_sum v = false -> exists defs n sizes,
  verify_variadic_size v AttrSized defs n (Dense true sizes) = Ok tt /\ zsum sizes = n /\
  ~ segmentation AttrSized defs n sizes.
Proof.
  intros v Hv. exists [Variadic; Variadic], 3, [-1; 4]. split; [|split; [reflexivity|]].
  - cbn [verify_variadic_size]. rewrite Hv. reflexivity.
  - intros (H & _ & _). inversion H; subst. cbn in *. lia.
Qed.
