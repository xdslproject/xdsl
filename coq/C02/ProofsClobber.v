(* C02/ProofsClobber.v -- the failing class of Region.clone_into as it is, stated positively: whenever an
   operation precedes the insertion point and its operands differ from the (mapped) operands of the
   first source operation, that PRE-EXISTING operation is overwritten, so the statement fails. *)
From Coq Require Import List ZArith Bool Lia.
From XV Require Import C02.Model C02.ProofsBase C02.ProofsWalk C02.Proofs.
Import ListNotations.
Local Open Scope Z_scope.

(* zip: the first operand tuples of the walk W are replaced by those of L, as far as L reaches *)
Fixpoint overlay (L W : list (list Z)) : list (list Z) :=
  match L, W with
  | l :: L', _ :: W' => l :: overlay L' W'
  | _, _ => W
  end.

Lemma overlay_nil_l : forall W, overlay [] W = W.
Proof. destruct W; reflexivity. Qed.

Lemma overlay_nil_r : forall L, overlay L [] = [].
Proof. destruct L; reflexivity. Qed.

Lemma overlay_app : forall W1 W2 L,
  overlay L (W1 ++ W2) = overlay L W1 ++ overlay (skipn (length W1) L) W2.
Proof.
  induction W1 as [|a W1 IH]; intros W2 L; cbn [app length].
  - cbn [skipn]. destruct L; reflexivity.
  - destruct L as [|l L]; cbn [overlay skipn app].
    + reflexivity.
    + now rewrite IH.
Qed.

Lemma skipn_skipn : forall (A : Type) n m (l : list A), skipn n (skipn m l) = skipn (m + n) l.
Proof. induction m; intros l; cbn [skipn Nat.add]; auto. destruct l; auto. now destruct n. Qed.

Lemma walk_sw :
  (forall y L, walk_op (fst (sw_op L y)) = overlay L (walk_op y) /\ snd (sw_op L y) = skipn (length (walk_op y)) L) /\
  (forall l L, walk_ops (fst (sw_ops L l)) = overlay L (walk_ops l) /\ snd (sw_ops L l) = skipn (length (walk_ops l)) L) /\
  (forall k L, walk_block (fst (sw_block L k)) = overlay L (walk_block k) /\ snd (sw_block L k) = skipn (length (walk_block k)) L) /\
  (forall r L, walk_blocks (fst (sw_blocks L r)) = overlay L (walk_blocks r) /\ snd (sw_blocks L r) = skipn (length (walk_blocks r)) L) /\
  (forall g L, walk_regions (fst (sw_regions L g)) = overlay L (walk_regions g) /\ snd (sw_regions L g) = skipn (length (walk_regions g)) L).
Proof.
  apply ir_mutind.
  - intros i n os rs a ss g IHg L. cbn [sw_op]. destruct L as [|os' L'].
    + cbn [fst snd]. rewrite overlay_nil_l. split; [reflexivity | now rewrite skipn_nil].
    + destruct (IHg L') as [I1 I2]. destruct (sw_regions L' g) as [g' L'']. cbn [fst snd] in *.
      cbn [walk_op overlay length skipn]. now rewrite I1.
  - intros L. cbn [sw_ops walk_ops fst snd length skipn]. now rewrite overlay_nil_r.
  - intros o IHo t IHt L. cbn [sw_ops]. destruct (IHo L) as [I1 I2]. destruct (sw_op L o) as [o' L1].
    destruct (IHt L1) as [I3 I4]. destruct (sw_ops L1 t) as [t' L2]. cbn [fst snd] in *.
    cbn [walk_ops]. rewrite overlay_app, app_length, I1, I3, I4, I2. now rewrite skipn_skipn.
  - intros b args body IHb L. cbn [sw_block]. destruct (IHb L) as [I1 I2]. destruct (sw_ops L body).
    cbn [fst snd] in *. cbn [walk_block]. auto.
  - intros L. cbn [sw_blocks walk_blocks fst snd length skipn]. now rewrite overlay_nil_r.
  - intros k IHk t IHt L. cbn [sw_blocks]. destruct (IHk L) as [I1 I2]. destruct (sw_block L k) as [k' L1].
    destruct (IHt L1) as [I3 I4]. destruct (sw_blocks L1 t) as [t' L2]. cbn [fst snd] in *.
    cbn [walk_blocks]. rewrite overlay_app, app_length, I1, I3, I4, I2. now rewrite skipn_skipn.
  - intros L. cbn [sw_regions walk_regions fst snd length skipn]. now rewrite overlay_nil_r.
  - intros r IHr t IHt L. cbn [sw_regions]. destruct (IHr L) as [I1 I2]. destruct (sw_blocks L r) as [r' L1].
    destruct (IHt L1) as [I3 I4]. destruct (sw_regions L1 t) as [t' L2]. cbn [fst snd] in *.
    cbn [walk_regions]. rewrite overlay_app, app_length, I1, I3, I4, I2. now rewrite skipn_skipn.
Qed.

Lemma walk_blocks_app : forall a b, walk_blocks (blocks_app a b) = walk_blocks a ++ walk_blocks b.
Proof. induction a; intros; cbn [blocks_app walk_blocks]; auto. now rewrite IHa, app_assoc. Qed.

Lemma nth_error_replace_item : forall l j x x0,
  nth_error l j = Some x0 -> nth_error (replace_item j x l) j = Some x.
Proof.
  induction l as [|a l IH]; intros j x x0 H; destruct j; try discriminate; cbn [replace_item nth_error] in *; eauto.
Qed.

Theorem clone_into_original_clobbers : forall w src j d idx vm0 bm0 r o1 Wp s1 Ws,
  nth_error (items w) j = Some (IReg d) ->
  0 <= resolve_index idx d <= blocks_len d ->
  walk_blocks (bfirstn (Z.to_nat (resolve_index idx d)) d) = o1 :: Wp ->     (* an operation before the insertion point *)
  walk_blocks src = s1 :: Ws ->                                               (* the source has an operation *)
  clone_into cfg_original w src j idx vm0 bm0 true = Some r ->
  map (get (r_vm r)) s1 <> o1 ->
  ~ into_ok w src j d (resolve_index idx d) vm0 bm0 true r.
Proof.
  intros w src j d idx vm0 bm0 r o1 Wp s1 Ws Hj Hr Hpre Hsrc Hc Hne (nb' & Hi & _).
  unfold clone_into in Hc. rewrite Hj in Hc. fold (resolve_index idx d) in Hc.
  set (index := resolve_index idx d) in *.
  destruct (sh_region (st_of w vm0 bm0) src) as [s1' nb] eqn:E.
  rewrite insert_block_in_range in Hc by exact Hr.
  cbn [andb negb remap_new_only cfg_original] in Hc.
  injection Hc as <-. cbn [r_world r_vm items world_of] in *.
  pose proof (nth_error_replace_item (items w) j
    (IReg (fst (sw_blocks (mapped_walk (vm s1') (walk_blocks src))
       (blocks_app (bfirstn (Z.to_nat index) d) (blocks_app nb (bskipn (Z.to_nat index) d)))))) _ Hj) as N1.
  rewrite Hi in N1. rewrite (nth_error_replace_item _ _ _ _ Hj) in N1.
  injection N1 as N1. apply (f_equal walk_blocks) in N1.
  rewrite (proj1 (proj1 (proj2 (proj2 (proj2 walk_sw))) _ _)) in N1.
  rewrite !walk_blocks_app, Hpre, Hsrc in N1. unfold mapped_walk in N1. cbn [map app overlay] in N1.
  injection N1 as N1 _. auto.
Qed.
