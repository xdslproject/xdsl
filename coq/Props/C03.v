(* Props/C03.v -- property C03: structural equivalence holds exactly for isomorphic IR.
   The theorem statements closed by `exact`; the Examples (the configuration of /repo, the witnesses under
   the repaired configuration) are closed by evaluation.

   Model: C03/Model.v (`se_op/se_block/se_region cf a b` = a.is_structurally_equivalent(b) with a
   fresh context; `cfg_repo` = the configuration of /repo's working tree).
   Spec (top of C03/ProofsSpec.v): `iso_op rt a b` = there is a bijection Rv between the values
   defined inside a and inside b and a bijection Rb between their blocks such that `m_op` holds:
   every op agrees on name, attributes, properties, operands (inside -> related by Rv, outside ->
   the identical value, outside on both sides), results (related; types equal when rt = true),
   successors (same rule with Rb), nested regions; every block on argument types.  rt = true is the
   property's statement.
   Side conditions that appear below:
     wf_op a        identities are unique inside a (NoDup of defined values and of blocks) and every
                    nested op's parent field is its enclosing block (true of every real IR tree)
     dpu_top_op a   defs precede uses: in walk order every operand defined inside a is defined
                    before its use (block args/blocks of enclosing regions count as earlier)
     ext_ok_op a b  an operand/successor of a that is outside a is also outside b
     rt_eq_op a b   positionally corresponding ops have equal result types
     detached a b   a.parent is None or b.parent is None *)
From Coq Require Import List Arith Bool.
From XV Require Import C03.Model C03.ProofsSpec C03.ProofsMain.
Import ListNotations.

(* A. The code as it was found (cfg_original): the full statements are refuted, findings (1)-(4)
      in the order below; next to each refutation stands the partial statement that holds of every
      configuration, written for cfg_repo, the configuration of /repo's working tree.  This Example
      fixes the value of cfg_repo; only section B' depends on it. *)
Example C03_repo_configuration : cfg_repo = cfg_fixed.
Proof. reflexivity. Qed.
Print Assumptions C03_repo_configuration.

(* (1) result types are never compared *)
Theorem C03_sound_refuted : exists a b,
  wf_op a /\ wf_op b /\ dpu_top_op a /\ ext_ok_op a b /\ detached a b
  /\ se_op cfg_original a b = true /\ ~ iso_op true a b.
Proof. exact sound_refuted_lemma. Qed.
Print Assumptions C03_sound_refuted.

Theorem C03_sound_partial : forall a b,
  wf_op a -> wf_op b -> dpu_top_op a -> ext_ok_op a b -> rt_eq_op a b ->
  se_op cfg_repo a b = true -> iso_op true a b.
Proof. exact (sound_partial cfg_repo). Qed.
Print Assumptions C03_sound_partial.

(* without assuming equal result types: isomorphic up to result types *)
Theorem C03_sound_upto_result_types : forall a b,
  wf_op a -> wf_op b -> dpu_top_op a -> ext_ok_op a b ->
  se_op cfg_repo a b = true -> iso_op false a b.
Proof. exact (sound_upto_rt cfg_repo). Qed.
Print Assumptions C03_sound_upto_result_types.

(* (2) a use before its definition is compared by identity: IR is not equivalent to its clone *)
Theorem C03_complete_refuted : exists a b,
  wf_op a /\ wf_op b /\ detached a b /\ iso_op true a b /\ se_op cfg_original a b = false.
Proof. exact complete_refuted_lemma. Qed.
Print Assumptions C03_complete_refuted.

Theorem C03_complete_partial : forall a b,
  wf_op a -> wf_op b -> dpu_top_op a -> detached a b ->
  iso_op true a b -> se_op cfg_repo a b = true.
Proof. exact (complete_partial cfg_repo). Qed.
Print Assumptions C03_complete_partial.

(* (3) an op attached to a block is not equivalent to itself *)
Theorem C03_refl_refuted : exists a, wfp_op a /\ se_op cfg_original a a = false.
Proof. exact refl_refuted_lemma. Qed.
Print Assumptions C03_refl_refuted.

(* reflexive for every detached op, every block, every region -- use-before-def and graph regions
   included (no dpu hypothesis) *)
Theorem C03_refl_partial : forall a, op_parent a = None -> wfp_op a -> se_op cfg_repo a a = true.
Proof. exact (refl_partial cfg_repo). Qed.
Print Assumptions C03_refl_partial.
Theorem C03_refl_block : forall a, wfp_block a -> se_block cfg_repo a a = true.
Proof. exact (refl_block cfg_repo). Qed.
Print Assumptions C03_refl_block.
Theorem C03_refl_region : forall a, wfp_blocks a -> se_region cfg_repo a a = true.
Proof. exact (refl_region cfg_repo). Qed.
Print Assumptions C03_refl_region.

(* (4) an outside operand of the left IR that is defined inside the right IR is compared by
   identity: two sibling blocks, the first dominating the second; not symmetric, not sound *)
Theorem C03_sym_refuted : exists a b,
  wf_block a /\ wf_block b /\ dpu_top_block a /\ dpu_top_block b
  /\ se_block cfg_original a b = true /\ se_block cfg_original b a = false /\ ~ iso_block true a b.
Proof. exact sym_refuted_lemma. Qed.
Print Assumptions C03_sym_refuted.

Theorem C03_sym_partial : forall a b,
  wf_op a -> wf_op b -> dpu_top_op a -> dpu_top_op b -> ext_ok_op a b -> detached a b ->
  se_op cfg_repo a b = true -> se_op cfg_repo b a = true.
Proof. exact (sym_partial cfg_repo). Qed.
Print Assumptions C03_sym_partial.

(* clone = renaming of the inside ids by fv/fb (identity outside, injective inside, new ids not
   used by a as outside values), root detached *)
Theorem C03_clone_refuted : exists a fv fb,
  wf_op a /\ renaming_ok fv fb a /\ ext_ok_op a (clone_root fv fb a)
  /\ se_op cfg_original a a = true /\ se_op cfg_original a (clone_root fv fb a) = false.
Proof. exact clone_refuted_lemma. Qed.
Print Assumptions C03_clone_refuted.

Theorem C03_clone_partial : forall fv fb a,
  wfp_op a -> dpu_top_op a -> renaming_ok fv fb a -> ext_ok_op a (clone_root fv fb a) ->
  se_op cfg_repo a (clone_root fv fb a) = true.
Proof. exact (clone_op_gen cfg_repo). Qed.
Print Assumptions C03_clone_partial.

(* the clone model is always isomorphic to its source (spec level, no scoping hypothesis) *)
Theorem C03_clone_iso : forall fv fb a,
  renaming_ok fv fb a -> ext_ok_op a (clone_root fv fb a) -> iso_op true a (clone_root fv fb a).
Proof. exact (iso_clone true). Qed.
Print Assumptions C03_clone_iso.

Theorem C03_iso_sym : forall a b, iso_op true a b -> iso_op true b a.
Proof. exact (iso_op_sym true). Qed.
Print Assumptions C03_iso_sym.

(* block and region roots *)
Theorem C03_sound_block_partial : forall a b,
  wf_block a -> wf_block b -> dpu_top_block a -> ext_ok_block a b -> rt_eq_block a b ->
  se_block cfg_repo a b = true -> iso_block true a b.
Proof. exact (sound_block_partial cfg_repo). Qed.
Print Assumptions C03_sound_block_partial.
Theorem C03_sound_region_partial : forall a b,
  wf_region a -> wf_region b -> dpu_top_region a -> ext_ok_region a b -> rt_eq_blocks a b ->
  se_region cfg_repo a b = true -> iso_region true a b.
Proof. exact (sound_region_partial cfg_repo). Qed.
Print Assumptions C03_sound_region_partial.
Theorem C03_complete_block : forall a b,
  wf_block a -> wf_block b -> dpu_top_block a -> iso_block true a b -> se_block cfg_repo a b = true.
Proof. exact (complete_block cfg_repo). Qed.
Print Assumptions C03_complete_block.
Theorem C03_complete_region : forall a b,
  wf_region a -> wf_region b -> dpu_top_region a -> iso_region true a b -> se_region cfg_repo a b = true.
Proof. exact (complete_region cfg_repo). Qed.
Print Assumptions C03_complete_region.

(* B. The two repairs, numbered after the findings they answer: repair 1 (result types are compared:
      cmp_rt) answers (1), repair 3 (the parent is compared only when it is in the context:
      parent_strict = false) answers (3); (2) and (4) have none.  For every configuration that has
      the repair. *)

(* repair 1: result types compared -> no assumption on result types *)
Theorem C03_fix1_sound : forall cf a b, cmp_rt cf = true ->
  wf_op a -> wf_op b -> dpu_top_op a -> ext_ok_op a b -> se_op cf a b = true -> iso_op true a b.
Proof. exact sound_fix1. Qed.
Print Assumptions C03_fix1_sound.
Theorem C03_fix1_sound_block : forall cf a b, cmp_rt cf = true ->
  wf_block a -> wf_block b -> dpu_top_block a -> ext_ok_block a b -> se_block cf a b = true -> iso_block true a b.
Proof. exact sound_block_fix1. Qed.
Print Assumptions C03_fix1_sound_block.
Theorem C03_fix1_sound_region : forall cf a b, cmp_rt cf = true ->
  wf_region a -> wf_region b -> dpu_top_region a -> ext_ok_region a b -> se_region cf a b = true -> iso_region true a b.
Proof. exact sound_region_fix1. Qed.
Print Assumptions C03_fix1_sound_region.

(* repair 3: parent compared only when it is in the context -> attached roots are fine *)
Theorem C03_fix3_complete : forall cf a b, parent_strict cf = false ->
  wf_op a -> wf_op b -> dpu_top_op a -> iso_op true a b -> se_op cf a b = true.
Proof. exact complete_fix3. Qed.
Print Assumptions C03_fix3_complete.
Theorem C03_fix3_refl : forall cf a, parent_strict cf = false -> se_op cf a a = true.
Proof. exact refl_fix3. Qed.
Print Assumptions C03_fix3_refl.
Theorem C03_fix3_refl_block : forall cf a, parent_strict cf = false -> se_block cf a a = true.
Proof. exact refl_block_fix3. Qed.
Print Assumptions C03_fix3_refl_block.
Theorem C03_fix3_refl_region : forall cf a, parent_strict cf = false -> se_region cf a a = true.
Proof. exact refl_region_fix3. Qed.
Print Assumptions C03_fix3_refl_region.
Theorem C03_fix3_sym : forall cf a b, parent_strict cf = false ->
  wf_op a -> wf_op b -> dpu_top_op a -> dpu_top_op b -> ext_ok_op a b ->
  se_op cf a b = true -> se_op cf b a = true.
Proof. exact sym_fix3. Qed.
Print Assumptions C03_fix3_sym.

(* the repairs do not touch findings (2) and (4): they persist in the repaired configuration *)
Theorem C03_fixed_forward_ref_persists : exists a fv fb,
  wf_op a /\ renaming_ok fv fb a /\ ext_ok_op a (clone_root fv fb a)
  /\ iso_op true a (clone_root fv fb a) /\ se_op cfg_fixed a (clone_root fv fb a) = false.
Proof. exact fixed_forward_ref_persists_lemma. Qed.
Print Assumptions C03_fixed_forward_ref_persists.
Theorem C03_fixed_outside_operand_persists : exists a b,
  wf_block a /\ wf_block b /\ dpu_top_block a /\ dpu_top_block b
  /\ se_block cfg_fixed a b = true /\ se_block cfg_fixed b a = false /\ ~ iso_block true a b.
Proof. exact fixed_outside_operand_persists_lemma. Qed.
Print Assumptions C03_fixed_outside_operand_persists.

(* B'. /repo's working tree has both repairs (C03_repo_configuration): section B at cfg_repo.  What
       remains excluded is spelled out by the hypotheses (definitions precede uses: dpu_top; outside
       operands: ext_ok) and by C03_fixed_forward_ref_persists / C03_fixed_outside_operand_persists. *)
Theorem C03_current_sound : forall a b,
  wf_op a -> wf_op b -> dpu_top_op a -> ext_ok_op a b -> se_op cfg_repo a b = true -> iso_op true a b.
Proof. exact (fun a b => C03_fix1_sound cfg_repo a b eq_refl). Qed.
Print Assumptions C03_current_sound.
Theorem C03_current_complete : forall a b,
  wf_op a -> wf_op b -> dpu_top_op a -> iso_op true a b -> se_op cfg_repo a b = true.
Proof. exact (fun a b => C03_fix3_complete cfg_repo a b eq_refl). Qed.
Print Assumptions C03_current_complete.
Theorem C03_current_refl : forall a, se_op cfg_repo a a = true.
Proof. exact (fun a => C03_fix3_refl cfg_repo a eq_refl). Qed.
Print Assumptions C03_current_refl.
Theorem C03_current_sym : forall a b,
  wf_op a -> wf_op b -> dpu_top_op a -> dpu_top_op b -> ext_ok_op a b ->
  se_op cfg_repo a b = true -> se_op cfg_repo b a = true.
Proof. exact (fun a b => C03_fix3_sym cfg_repo a b eq_refl). Qed.
Print Assumptions C03_current_sym.

(* C. Non-vacuity: a nested IR (block arguments, successor, outside operand, nested region,
      backward references) satisfies every side condition and is equivalent to its clone, both
      argument orders, and to itself; witnesses (1) and (3) are repaired by the repairs *)
Example C03_nonvacuous :
  wf_op nv_a /\ dpu_top_op nv_a /\ renaming_ok nv_fv nv_fb nv_a /\ ext_ok_op nv_a (clone_root nv_fv nv_fb nv_a)
  /\ se_op cfg_original nv_a (clone_root nv_fv nv_fb nv_a) = true
  /\ se_op cfg_fixed nv_a (clone_root nv_fv nv_fb nv_a) = true
  /\ se_op cfg_original (clone_root nv_fv nv_fb nv_a) nv_a = true
  /\ se_op cfg_original nv_a nv_a = true.
Proof. exact nv_facts. Qed.
Print Assumptions C03_nonvacuous.
Example C03_repairs_fix_witnesses :
  se_op cfg_fixed w1_a w1_b = false /\ se_op cfg_fixed w3_a w3_a = true.
Proof. vm_compute. split; reflexivity. Qed.
Print Assumptions C03_repairs_fix_witnesses.
