(* C01/ProofsBlocks.v -- the T2 view of a state (blocks in regions) and its primitive writes; WF is
   preserved by Region.detach_block (by block and by index). *)
From Coq Require Import ZArith List Bool PArith FMapPositive Lia.
From XV Require Import C01.Model C01.Spec C01.ProofsBase C01.ProofsFrame C01.ProofsUses C01.ProofsOperands
  C01.ProofsDll C01.ProofsOps.
Import ListNotations.

Definition blive (s : state) (b : bid) : bool :=
  match PM.find b (s_blocks s) with Some x => negb (b_erased x) | None => false end.
Definition rFL (s : state) (r : rid) : option (option bid * option bid) :=
  match PM.find r (s_regions s) with
  | Some rr => if r_erased rr then None else Some (r_first rr, r_last rr)
  | None => None
  end.
Definition viewT2 (s : state) : dview :=
  mkView (blk_next s) (blk_prev s) (link (s_blocks s) b_parent) (blive s) (rFL s).

Lemma WF_region_Dabs : forall s, WF_region s <-> Dabs (viewT2 s).
Proof.
  intro s. exact (contained_Dabs (s_blocks s) b_next b_prev b_parent b_erased (s_regions s) r_erased r_first r_last).
Qed.
Lemma detached_blocks_Ddet : forall s, detached_blocks s <-> Ddet (viewT2 s).
Proof.
  intro s. exact (detached_Ddet (s_blocks s) b_next b_prev b_parent b_erased (s_regions s) r_erased r_first r_last).
Qed.

Lemma updB_next_view2 : forall y v s s' r, updB y (set_b_next v) s = (s', Ok r) ->
  veq (with_next (viewT2 s) y v) (viewT2 s').
Proof. intros y v s s' r H. apply updB_ok in H as (x & F & ->). simpl. node_view_tac blive y F. Qed.
Lemma updB_prev_view2 : forall y v s s' r, updB y (set_b_prev v) s = (s', Ok r) ->
  veq (with_prev (viewT2 s) y v) (viewT2 s').
Proof. intros y v s s' r H. apply updB_ok in H as (x & F & ->). simpl. node_view_tac blive y F. Qed.
Lemma updB_parent_view2 : forall y v s s' r, updB y (set_b_parent v) s = (s', Ok r) ->
  veq (with_parent (viewT2 s) y v) (viewT2 s').
Proof. intros y v s s' r H. apply updB_ok in H as (x & F & ->). simpl. node_view_tac blive y F. Qed.

Lemma updR_first_view2 : forall b v s s' r, updR b (set_r_first v) s = (s', Ok r) ->
  veq (with_first (viewT2 s) b v) (viewT2 s').
Proof.
  intros b v s s' r H. apply updR_ok in H as (x & F & ->). simpl.
  repeat split; try (intro z; reflexivity).
  intro z. simpl. unfold rFL, fupd. simpl. rewrite find_add. destruct (Pos.eqb_spec z b) as [->|]; [|reflexivity].
  rewrite F. simpl. destruct (r_erased x); reflexivity.
Qed.
Lemma updR_last_view2 : forall b v s s' r, updR b (set_r_last v) s = (s', Ok r) ->
  veq (with_last (viewT2 s) b v) (viewT2 s').
Proof.
  intros b v s s' r H. apply updR_ok in H as (x & F & ->). simpl.
  repeat split; try (intro z; reflexivity).
  intro z. simpl. unfold rFL, fupd. simpl. rewrite find_add. destruct (Pos.eqb_spec z b) as [->|]; [|reflexivity].
  rewrite F. simpl. destruct (r_erased x); reflexivity.
Qed.

Lemma getB_view2 : forall b s x, PM.find b (s_blocks s) = Some x ->
  dN (viewT2 s) b = Some (b_next x) /\ dP (viewT2 s) b = Some (b_prev x) /\ dPar (viewT2 s) b = Some (b_parent x).
Proof. intros b s x F. simpl. unfold blk_next, blk_prev, link. rewrite F. auto. Qed.

Definition reg_live (s : state) (r : rid) : Prop :=
  exists rr, PM.find r (s_regions s) = Some rr /\ r_erased rr = false.
Lemma reg_live_FL : forall s r, reg_live s r -> exists f la, dFL (viewT2 s) r = Some (f, la).
Proof. intros s r (rr & F & E). simpl. unfold rFL. rewrite F, E. eauto. Qed.

(* frame of the block-in-region programs: they keep every frame relation that is kept by the five
   primitive writes of the T2 group *)
Record keeps_T2_writes (R : state -> state -> Prop) : Prop := {
  k2_frame : frame_rel R;
  k2_next : forall y v, preserves R (updB y (set_b_next v));
  k2_prev : forall y v, preserves R (updB y (set_b_prev v));
  k2_parent : forall y v, preserves R (updB y (set_b_parent v));
  k2_first : forall r v, preserves R (updR r (set_r_first v));
  k2_last : forall r v, preserves R (updR r (set_r_last v)) }.

Lemma k2_T1 : keeps_T2_writes same_T1. Proof. split; [apply fr_T1|..]; intros; pres fr_T1. Qed.
Lemma k2_T3 : keeps_T2_writes same_T3. Proof. split; [apply fr_T3|..]; intros; pres fr_T3. Qed.
Lemma k2_U : keeps_T2_writes same_U. Proof. split; [apply fr_U|..]; intros; pres fr_U. Qed.
Lemma k2_I : keeps_T2_writes same_I. Proof. split; [apply fr_I|..]; intros; pres fr_I. Qed.
Lemma k2_A : keeps_T2_writes same_A. Proof. split; [apply fr_A|..]; intros; pres fr_A. Qed.

Lemma detach_block_core_pres : forall R, keeps_T2_writes R -> forall r b, preserves R (detach_block_core r b).
Proof. intros R [FR ? ? ? ? ?] r b. unfold detach_block_core. pres FR. Qed.

(* Region._attach_block *)
Lemma attach_block_eff : forall r b s s' res, attach_block r b s = (s', Ok res) ->
  exists x, PM.find b (s_blocks s) = Some x /\ b_parent x = None /\
            updB b (set_b_parent (Some r)) s = (s', Ok tt).
Proof.
  intros r b s s' res H. unfold attach_block in H.
  apply bind_ok in H as (s0 & x & Hg & H). apply getB_ok in Hg as [-> F].
  destruct (is_some (b_parent x)) eqn:P; [exfalso; eapply raise_ok; eauto|].
  apply is_some_false in P.
  apply bind_ok in H as (s1 & anc & Ha & H). apply is_ancestor_state in Ha. subst s1.
  destruct anc; [exfalso; eapply raise_ok; eauto|].
  exists x. destruct res. auto.
Qed.

Lemma attach_block_pres : forall R, keeps_T2_writes R -> forall r b, preserves R (attach_block r b).
Proof. intros R [FR ? ? ? ? ?] r b. unfold attach_block. pres FR. Qed.

(* WF from the T2 group: WF_region and the block half of WF_detached are read off a view V equal
   to the T2 view of s' *)
Lemma WF_groups_T2 : forall {A} (m : M A) s s' r V, WF s ->
  (forall R, keeps_T2_writes R -> preserves R m) -> m s = (s', Ok r) ->
  veq V (viewT2 s') -> Dabs V /\ Ddet V -> WF s'.
Proof.
  intros A m s s' r V W K H E [D DD]. pose proof (K _ k2_T1 _ _ _ H) as T1.
  apply (WF_containment s s' W (K _ k2_U _ _ _ H) (K _ k2_I _ _ _ H) (K _ k2_A _ _ _ H)).
  - exact (WF_block_same s s' T1 (wf_block s W)).
  - apply WF_region_Dabs. eapply Dabs_veq; eauto.
  - exact (WF_opregs_same s s' (K _ k2_T3 _ _ _ H) (wf_opregs s W)).
  - split; [|apply detached_blocks_Ddet; eapply Ddet_veq; eauto].
    exact (detached_ops_same s s' T1 (proj1 (wf_detached s W))).
Qed.

Lemma WF_viewT2 : forall s, WF s -> Dabs (viewT2 s) /\ Ddet (viewT2 s).
Proof. intros s W. split; [apply WF_region_Dabs, W|exact (proj1 (detached_blocks_Ddet s) (proj2 (wf_detached s W)))]. Qed.

Lemma blive_view : forall s b x, PM.find b (s_blocks s) = Some x -> b_erased x = false -> dLive (viewT2 s) b = true.
Proof. intros s b x F E. simpl. unfold blive. rewrite F, E. reflexivity. Qed.

Lemma detach_block_core_WF : forall s s' r b res,
  WF s -> reg_live s r -> vin (viewT2 s) r b ->
  detach_block_core r b s = (s', Ok res) -> WF s'.
Proof.
  intros s s' r b res W RL Ib H. destruct (WF_viewT2 s W) as [D DD].
  destruct (reg_live_FL s r RL) as (f & la & FLr).
  assert (FLn : dFL (viewT2 s) r <> None) by congruence.
  pose proof H as H0. unfold detach_block_core in H0.
  apply bind_ok in H0 as (s1 & ? & H1 & H0).
  view_of (updB_parent_view2 _ _ _ _ _ H1) N1 P1 R1 L1 F1.
  apply bind_ok in H0 as (s1' & br & Hg & H0). apply getB_ok in Hg as [-> Fb1].
  destruct (getB_view2 _ _ _ Fb1) as (Vn & Vp & _). rewrite N1 in Vn. rewrite P1 in Vp.
  apply (WF_groups_T2 _ s s' res (unlinked (viewT2 s) r b (b_prev br) (b_next br)) W
           (fun R K => detach_block_core_pres R K r b) H); [|apply unlinked_wf; assumption].
  destruct (vin_no_loop _ _ _ D FLn Ib) as [NLn NLp]. rewrite Vn in NLn. rewrite Vp in NLp.
  apply bind_ok in H0 as (s3 & ? & Hprev & H0).
  apply bind_ok in H0 as (s3' & br' & Hg & H0). apply getB_ok in Hg as [-> Fb3].
  apply bind_ok in H0 as (s5 & ? & Hnext & H0).
  apply bind_ok in H0 as (s6 & ? & H6 & H0).
  view_of (updB_prev_view2 _ _ _ _ _ H6) N6 P6 R6 L6 F6.
  apply bind_ok in H0 as (s7 & ? & H7 & Hret). apply ret_ok in Hret as [<- _].
  view_of (updB_next_view2 _ _ _ _ _ H7) N7 P7 R7 L7 F7.
  destruct (getB_view2 _ _ _ Fb3) as (Vn3 & Vp3 & _).
  destruct (b_prev br) as [p|].
  - view_of (updB_next_view2 _ _ _ _ _ Hprev) N3 P3 R3 L3 F3.
    vrew_in Vn3. vrew_in Vp3. rewrite Vn in Vn3. rewrite Vp in Vp3. revert Vn3.
    destruct (Pos.eqb_spec b p) as [->|_]; [contradiction|]. intro Vn3.
    injection Vn3 as E1. injection Vp3 as E2. rewrite <- E1, <- E2 in *.
    destruct (b_next br) as [n|].
    + view_of (updB_prev_view2 _ _ _ _ _ Hnext) N5 P5 R5 L5 F5. veq_solve FLr.
    + view_of (updR_last_view2 _ _ _ _ _ Hnext) N5 P5 R5 L5 F5. veq_solve FLr.
  - view_of (updR_first_view2 _ _ _ _ _ Hprev) N3 P3 R3 L3 F3.
    vrew_in Vn3. vrew_in Vp3. rewrite Vn in Vn3. rewrite Vp in Vp3.
    injection Vn3 as E1. injection Vp3 as E2. rewrite <- E1, <- E2 in *.
    destruct (b_next br) as [n|].
    + view_of (updB_prev_view2 _ _ _ _ _ Hnext) N5 P5 R5 L5 F5. veq_solve FLr.
    + view_of (updR_last_view2 _ _ _ _ _ Hnext) N5 P5 R5 L5 F5. veq_solve FLr.
Qed.

Theorem detach_block_WF : forall s s' r b res,
  WF s -> reg_live s r -> blk_live s b -> detach_block r b s = (s', Ok res) -> WF s'.
Proof.
  intros s s' r b res W RL (br0 & Fb0 & Eb0) H. unfold detach_block in H.
  apply bind_ok in H as (s0 & br & Hg & H). apply getB_ok in Hg as [-> Fb].
  destruct (opt_eqb (b_parent br) (Some r)) eqn:P; simpl in H; [|exfalso; eapply raise_ok; eauto].
  apply opt_eqb_eq in P. rewrite Fb0 in Fb. injection Fb as <-.
  eapply detach_block_core_WF; eauto. apply vin_live; [eapply blive_view; eauto|].
  destruct (getB_view2 _ _ _ Fb0) as (_ & _ & Q). rewrite Q, P. reflexivity.
Qed.

Lemma chain_cons_inv : forall N x l, chain N (Some x) l -> exists n t, l = x :: t /\ N x = Some n /\ chain N n t.
Proof. intros N x l H. inversion H; subst. eauto. Qed.

(* RegionBlocks.__getitem__(int) returns a member of the region's block list *)
Lemma nth_block_fwd_in : forall fl cur k s s' b, nth_block_fwd fl cur k s = (s', Ok b) ->
  s' = s /\ forall l, chain (blk_next s) cur l -> In b l.
Proof.
  induction fl as [|f IH]; intros cur k s s' b H; simpl in H.
  - exfalso. eapply raise_ok; eauto.
  - destruct cur as [c|]; [|exfalso; eapply raise_ok; eauto].
    destruct (k =? 0)%Z.
    + apply ret_ok in H as [-> ->]. split; [reflexivity|]. intros l C. eapply chain_some_in; eauto.
    + apply bind_ok in H as (s0 & cr & Hg & H). apply getB_ok in Hg as [-> Fc].
      destruct (IH _ _ _ _ _ H) as [-> Q]. split; [reflexivity|]. intros l C.
      destruct (chain_cons_inv _ _ _ C) as (n & t & -> & Nc & Ct).
      right. apply Q. unfold blk_next, link in Nc. rewrite Fc in Nc. simpl in Nc. injection Nc as <-. exact Ct.
Qed.
Lemma nth_block_bwd_in : forall fl cur k s s' b, nth_block_bwd fl cur k s = (s', Ok b) ->
  s' = s /\ forall l, chain (blk_prev s) cur l -> In b l.
Proof.
  induction fl as [|f IH]; intros cur k s s' b H; simpl in H.
  - exfalso. eapply raise_ok; eauto.
  - destruct cur as [c|]; [|exfalso; eapply raise_ok; eauto].
    destruct (k =? 0)%Z.
    + apply ret_ok in H as [-> ->]. split; [reflexivity|]. intros l C. eapply chain_some_in; eauto.
    + apply bind_ok in H as (s0 & cr & Hg & H). apply getB_ok in Hg as [-> Fc].
      destruct (IH _ _ _ _ _ H) as [-> Q]. split; [reflexivity|]. intros l C.
      destruct (chain_cons_inv _ _ _ C) as (n & t & -> & Nc & Ct).
      right. apply Q. unfold blk_prev, link in Nc. rewrite Fc in Nc. simpl in Nc. injection Nc as <-. exact Ct.
Qed.

Theorem detach_block_idx_WF : forall s s' r idx res,
  WF s -> reg_live s r -> detach_block_idx r idx s = (s', Ok res) -> WF s'.
Proof.
  intros s s' r idx res W (rr0 & Fr0 & Er0) H. unfold detach_block_idx in H.
  apply bind_ok in H as (s0 & b & Hg & H). unfold region_blocks_getitem in Hg.
  apply bind_ok in Hg as (s1 & fl & Hf & Hg). unfold get_fuel in Hf. apply gets_ok in Hf as [-> ->].
  apply bind_ok in Hg as (s1 & rr & Hr & Hg). apply getR_ok in Hr as [-> Fr].
  rewrite Fr0 in Fr. injection Fr as <-.
  assert (RL : reg_live s r) by (exists rr0; auto).
  assert (FLr : dFL (viewT2 s) r = Some (r_first rr0, r_last rr0)).
  { simpl. unfold rFL. rewrite Fr0, Er0. reflexivity. }
  destruct (0 <=? idx)%Z.
  - destruct (nth_block_fwd_in _ _ _ _ _ _ Hg) as [-> Q].
    eapply detach_block_core_WF; eauto.
    intros f la l FL (C1 & _). rewrite FLr in FL. injection FL as <- <-. apply Q. exact C1.
  - destruct (nth_block_bwd_in _ _ _ _ _ _ Hg) as [-> Q].
    eapply detach_block_core_WF; eauto.
    intros f la l FL (_ & C2 & _). rewrite FLr in FL. injection FL as <- <-. apply in_rev. apply Q. exact C2.
Qed.
