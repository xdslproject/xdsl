(* Props/C02.v -- property C02: cloning yields an independent equivalent copy and leaves other IR untouched.
   The theorem statements closed by `exact`; the Examples at the end are witnesses (two quoted from
   ProofsRefute.v, C02_partial_nonvacuous evaluated here).
   Model: C02/Model.v -- IR trees with explicit identities (operations, values, blocks: one counter per
   class), the world = list of detached top-level items + counters, use lists derived from the world;
   clone_without_regions, clone_op (Operation.clone), clone_into (Region.clone_into incl. Region.insert_block
   and the zip remap; cfg_original = the code as it is, cfg_fixed = remap over the new blocks only,
   cfg_fixed2 = additionally IndexError for an out-of-range index; cfg_repo = the working tree),
   clone_into_api (the call with its possible exception), region_clone, apply_edit(s).
   Spec (C02/ProofsBase.v, C02/Proofs.v, C02/ProofsFrame.v):
     iso_op co fv fb x y     y is x with every value id replaced by fv and every block id by fb; names,
                             attribute payloads, result/argument payloads equal; co=false: no operands
     iso_via w w' vm0 bm0 vm bm lv lb
                             the returned mappers send the values lv / blocks lb defined inside the source
                             injectively to objects created by this call and agree with the caller's
                             mappers (identity when not mentioned) everywhere else
     fresh_ids w w' io lv lb the copy's operations/values/blocks were created by this call, each once
     scoped_op D env x       every successor is a block of an enclosing region or not cloned at all
     into_ok                 destination = old blocks (same order) with the copy at the index
     wf w                    every object of the world was created before the world's counters
     dv_* / db_* / ido_*     values / blocks defined inside a tree, operation ids
     uses sel v items        derived use list of value (sel=true) / block (sel=false) v *)
From Coq Require Import List ZArith Bool Permutation.
From XV Require Import C02.Model C02.ProofsBase C02.Proofs C02.ProofsWalk C02.ProofsFrame C02.ProofsCor C02.ProofsRefute C02.ProofsClobber.
Import ListNotations.
Local Open Scope Z_scope.

(* Operation.clone of ANY tree whose values/blocks are defined once and whose successors are scoped:
   forward references, self uses, graph regions, values and blocks of enclosing IR, pre-seeded mappers.
   The copy is a new detached item; it is the source renamed by the returned mappers. *)
Theorem C02_clone_iso : forall w x vm0 bm0 co,
  NoDup (dv_op x) -> NoDup (db_op x) -> scoped_op (db_op x) [] x ->
  exists y, let r := clone_op w x vm0 bm0 co in
    r_new r = Some y /\ items (r_world r) = items w ++ [IOp y] /\
    iso_op co (get (r_vm r)) (get (r_bm r)) x y /\
    iso_via w (r_world r) vm0 bm0 (r_vm r) (r_bm r) (dv_op x) (db_op x) /\
    fresh_ids w (r_world r) (ido_op y) (dv_op y) (db_op y).
Proof. exact clone_op_correct. Qed.
Print Assumptions C02_clone_iso.

(* every object of the copy is new and is not an object of any item of the world *)
Theorem C02_clone_fresh : forall w x vm0 bm0 co,
  wf w -> NoDup (dv_op x) -> NoDup (db_op x) -> scoped_op (db_op x) [] x ->
  exists y, r_new (clone_op w x vm0 bm0 co) = Some y /\
    fresh_ids w (r_world (clone_op w x vm0 bm0 co)) (ido_op y) (dv_op y) (db_op y) /\
    forall it, In it (items w) ->
      (forall i, In i (ido_op y) -> ~ In i (ido_item it)) /\
      (forall b, In b (db_op y) -> ~ In b (ab_item it)) /\
      (forall v, In v (dv_op y) -> ~ In v (dv_item it)).
Proof. exact clone_op_fresh. Qed.
Print Assumptions C02_clone_fresh.

(* frame: every pre-existing item is unchanged; every use list is the old one plus the copy's slots;
   the copy uses no value defined in the source; an old outside value is used by the copy exactly at
   the operand positions where the source uses it *)
Theorem C02_clone_frame : forall w x vm0 bm0,
  NoDup (dv_op x) -> NoDup (db_op x) -> scoped_op (db_op x) [] x ->
  (forall v, In v (dv_op x) -> v < w_nval w) ->
  exists y, let r := clone_op w x vm0 bm0 true in
    r_new r = Some y /\ items (r_world r) = items w ++ [IOp y] /\
    (forall sel v, uses sel v (items (r_world r)) = uses sel v (items w) ++ uses_op sel v y) /\
    ((forall u, ~ In u (dv_op x) -> ~ In (get vm0 u) (dv_op x)) ->
       forall v, In v (dv_op x) -> uses_op true v y = []) /\
    (vm0 = [] -> forall v, v < w_nval w -> ~ In v (dv_op x) ->
       map snd (uses_op true v y) = map snd (uses_op true v x)).
Proof. exact clone_op_frame. Qed.
Print Assumptions C02_clone_frame.

(* successors that are not scoped (IR rejected by Operation.verify) are NOT mapped: refuted *)
Theorem C02_clone_unscoped_successor_refuted :
  NoDup (dv_op w3_op) /\ NoDup (db_op w3_op) /\ ~ scoped_op (db_op w3_op) [] w3_op /\
  forall y, r_new (clone_op w3 w3_op [] [] true) = Some y ->
    ~ iso_op true (get (r_vm (clone_op w3 w3_op [] [] true))) (get (r_bm (clone_op w3 w3_op [] [] true))) w3_op y.
Proof. exact clone_unscoped_successor_refuted. Qed.
Print Assumptions C02_clone_unscoped_successor_refuted.

(* Region.clone_into, the code as it is: REFUTED for a non-empty destination with operations before
   the insertion point (witness W1: one pre-existing block, the copy put after it) ... *)
Theorem C02_clone_into_refuted :
  exists w src j d idx,
    wf w /\ nth_error (items w) j = Some (IReg d) /\ NoDup (dv_blocks src) /\ NoDup (db_region src) /\
    scoped_region src /\ 0 <= resolve_index idx d <= blocks_len d /\
    exists r, clone_into cfg_original w src j idx [] [] true = Some r /\
              ~ into_ok w src j d (resolve_index idx d) [] [] true r.
Proof. exact clone_into_refuted. Qed.
Print Assumptions C02_clone_into_refuted.

(* ... in particular for the DEFAULT call clone_into(dest) (insert_index=None = at the end) *)
Theorem C02_clone_into_default_index_refuted :
  exists r, clone_into cfg_original w1 w1_src 2 None [] [] true = Some r /\
            ~ into_ok w1 w1_src 2 w1_dest (resolve_index None w1_dest) [] [] true r.
Proof. exact clone_into_default_index_refuted. Qed.
Print Assumptions C02_clone_into_default_index_refuted.

(* the failing class, positively: WHENEVER an operation precedes the insertion point (o1 = its operands)
   and its operands differ from the mapped operands of the first source operation, that pre-existing
   operation is overwritten and the statement fails (W1 is an instance) *)
Theorem C02_clone_into_original_clobbers : forall w src j d idx vm0 bm0 r o1 Wp s1 Ws,
  nth_error (items w) j = Some (IReg d) ->
  0 <= resolve_index idx d <= blocks_len d ->
  walk_blocks (bfirstn (Z.to_nat (resolve_index idx d)) d) = o1 :: Wp ->
  walk_blocks src = s1 :: Ws ->
  clone_into cfg_original w src j idx vm0 bm0 true = Some r ->
  map (get (r_vm r)) s1 <> o1 ->
  ~ into_ok w src j d (resolve_index idx d) vm0 bm0 true r.
Proof. exact clone_into_original_clobbers. Qed.
Print Assumptions C02_clone_into_original_clobbers.

(* the strongest statement that holds of the code as it is: no operation precedes the insertion point
   in the destination's walk (e.g. index 0, or an empty destination), or operands are not cloned *)
Theorem C02_clone_into_partial : forall w src j d idx vm0 bm0 co,
  nth_error (items w) j = Some (IReg d) ->
  NoDup (dv_blocks src) -> NoDup (db_region src) -> scoped_region src ->
  0 <= resolve_index idx d <= blocks_len d ->
  (co = false \/ walk_blocks (bfirstn (Z.to_nat (resolve_index idx d)) d) = []) ->
  exists r, clone_into cfg_original w src j idx vm0 bm0 co = Some r /\
            into_ok w src j d (resolve_index idx d) vm0 bm0 co r.
Proof. exact clone_into_partial. Qed.
Print Assumptions C02_clone_into_partial.

Theorem C02_clone_into_index0_iso : forall w src j d vm0 bm0 co,
  nth_error (items w) j = Some (IReg d) ->
  NoDup (dv_blocks src) -> NoDup (db_region src) -> scoped_region src ->
  exists r, clone_into cfg_original w src j (Some 0) vm0 bm0 co = Some r /\
            into_ok w src j d 0 vm0 bm0 co r.
Proof. exact clone_into_index0. Qed.
Print Assumptions C02_clone_into_index0_iso.

Theorem C02_clone_into_empty_dest_iso : forall w src j idx vm0 bm0 co,
  nth_error (items w) j = Some (IReg BNil) -> (idx = None \/ idx = Some 0) ->
  NoDup (dv_blocks src) -> NoDup (db_region src) -> scoped_region src ->
  exists r, clone_into cfg_original w src j idx vm0 bm0 co = Some r /\
            into_ok w src j BNil 0 vm0 bm0 co r.
Proof. exact clone_into_empty_dest. Qed.
Print Assumptions C02_clone_into_empty_dest_iso.

(* the repaired remap (walk the new blocks only): the FULL statement, any destination, any index in range *)
Theorem C02_clone_into_fixed : forall w src j d idx vm0 bm0 co,
  nth_error (items w) j = Some (IReg d) ->
  NoDup (dv_blocks src) -> NoDup (db_region src) -> scoped_region src ->
  0 <= resolve_index idx d <= blocks_len d ->
  exists r, clone_into cfg_fixed w src j idx vm0 bm0 co = Some r /\
            into_ok w src j d (resolve_index idx d) vm0 bm0 co r.
Proof. exact clone_into_fixed. Qed.
Print Assumptions C02_clone_into_fixed.

(* frame of clone_into (either configuration, under the respective hypothesis): the destination keeps
   its blocks, use lists gain exactly the slots of the new blocks, the source's values gain no use *)
Theorem C02_clone_into_frame : forall c w src j d idx vm0 bm0,
  nth_error (items w) j = Some (IReg d) ->
  NoDup (dv_blocks src) -> NoDup (db_region src) -> scoped_region src ->
  0 <= resolve_index idx d <= blocks_len d ->
  (remap_new_only c = true \/ walk_blocks (bfirstn (Z.to_nat (resolve_index idx d)) d) = []) ->
  (forall v, In v (dv_blocks src) -> v < w_nval w) ->
  exists r nb, clone_into c w src j idx vm0 bm0 true = Some r /\
    items (r_world r) =
      replace_item j (IReg (blocks_app (bfirstn (Z.to_nat (resolve_index idx d)) d)
                              (blocks_app nb (bskipn (Z.to_nat (resolve_index idx d)) d)))) (items w) /\
    (forall sel v, Permutation (uses sel v (items (r_world r))) (uses sel v (items w) ++ uses_blocks sel v nb)) /\
    ((forall u, ~ In u (dv_blocks src) -> ~ In (get vm0 u) (dv_blocks src)) ->
       forall v, In v (dv_blocks src) -> uses_blocks true v nb = []) /\
    (vm0 = [] -> forall v, v < w_nval w -> ~ In v (dv_blocks src) ->
       map snd (uses_blocks true v nb) = map snd (uses_blocks true v src)).
Proof. exact clone_into_frame. Qed.
Print Assumptions C02_clone_into_frame.

(* an insert_index outside 0 .. len: Region.insert_block silently does nothing, so (in BOTH
   configurations) the destination gets no new block and the populated copies stay detached *)
Theorem C02_clone_into_out_of_range_detached : forall c w src j d idx vm0 bm0 co,
  nth_error (items w) j = Some (IReg d) ->
  (resolve_index idx d < 0 \/ blocks_len d < resolve_index idx d) ->
  exists r nb d', clone_into c w src j idx vm0 bm0 co = Some r /\
    items (r_world r) = replace_item j (IReg d') (items w) ++ orphans nb /\
    bids d' = bids d /\ length (bids nb) = length (bids src).
Proof. exact clone_into_out_of_range. Qed.
Print Assumptions C02_clone_into_out_of_range_detached.

(* the optional second repair (clone_into raises IndexError for such an index, before anything is
   created) and its harmlessness for an index in range *)
Theorem C02_clone_into_checked_rejects : forall c w src j d i vm0 bm0 co,
  reject_bad_index c = true -> nth_error (items w) j = Some (IReg d) -> (i < 0 \/ blocks_len d < i) ->
  clone_into_api c w src j (Some i) vm0 bm0 co = RaiseIndexError.
Proof. exact clone_into_api_rejects. Qed.
Print Assumptions C02_clone_into_checked_rejects.

Theorem C02_clone_into_checked_in_range : forall c w src j d idx vm0 bm0 co,
  nth_error (items w) j = Some (IReg d) -> 0 <= resolve_index idx d <= blocks_len d ->
  clone_into_api c w src j idx vm0 bm0 co =
  match clone_into c w src j idx vm0 bm0 co with Some r => Done r | None => NotARegion end.
Proof. exact clone_into_api_in_range. Qed.
Print Assumptions C02_clone_into_checked_in_range.

(* Region.clone (always into a new empty region): holds for the code as it is *)
Theorem C02_region_clone : forall c w src,
  NoDup (dv_blocks src) -> NoDup (db_region src) -> scoped_region src ->
  exists r nb, region_clone c w src = Some r /\
    items (r_world r) = items w ++ [IReg nb] /\
    iso_blocks true (get (r_vm r)) (get (r_bm r)) src nb /\
    fresh_ids w (r_world r) (ido_blocks nb) (dv_blocks nb) (db_region nb).
Proof. exact region_clone_correct. Qed.
Print Assumptions C02_region_clone.

(* Operation.clone_without_regions of an op that does not use its own results *)
Theorem C02_clone_without_regions : forall w i n os rs a ss g vm0 bm0,
  (forall v, In v os -> ~ In v (map fst rs)) -> NoDup (map fst rs) ->
  let r := clone_without_regions w (Op i n os rs a ss g) vm0 bm0 true in
  exists rs',
    r_new r = Some (Op (w_nop w) n (map (get (r_vm r)) os) rs' a (map (get bm0) ss) (empty_regs g)) /\
    items (r_world r) = items w ++ [IOp (Op (w_nop w) n (map (get (r_vm r)) os) rs' a (map (get bm0) ss) (empty_regs g))] /\
    map fst rs' = map (get (r_vm r)) (map fst rs) /\ map snd rs' = map snd rs /\
    maps_fresh (get (r_vm r)) (map fst rs) (w_nval w) (w_nval (r_world r)) /\
    (forall v, ~ In v (map fst rs) -> get (r_vm r) v = get vm0 v) /\ r_bm r = bm0.
Proof. exact cwr_correct. Qed.
Print Assumptions C02_clone_without_regions.

(* ... and refuted for an op that uses its own result: the copy uses the SOURCE's result (Operation.clone does not) *)
Theorem C02_clone_without_regions_self_use_refuted :
  r_new (clone_without_regions w2 w2_op [] [] true) = Some (Op 2 1 [1] [(2, 0)] 0 [] GNil) /\
  uses true 1 (items (r_world (clone_without_regions w2 w2_op [] [] true))) = [(1, 0); (2, 0)] /\
  r_new (clone_op w2 w2_op [] [] true) = Some (Op 2 1 [2] [(2, 0)] 0 [] GNil).
Proof. exact cwr_self_use_refuted. Qed.
Print Assumptions C02_clone_without_regions_self_use_refuted.

(* independence: any history of edits addressed to objects that did not exist in w (all objects of a
   copy, and whatever is created later) leaves every item of w exactly as it was ... *)
Theorem C02_independent : forall w es rest,
  wf w -> Forall (targets_new w) es -> apply_edits es (items w ++ rest) = items w ++ apply_edits es rest.
Proof. exact edits_independent. Qed.
Print Assumptions C02_independent.

(* ... and vice versa: an edit addressed to an object of w does not change a copy made in w *)
Theorem C02_independent_rev : forall w w' e its y,
  fresh_ids w w' (ido_op y) (dv_op y) (db_op y) -> targets_old w e ->
  apply_edit e (its ++ [IOp y]) = apply_edit e its ++ [IOp y].
Proof. exact edit_independent_rev. Qed.
Print Assumptions C02_independent_rev.

(* ModulePass.apply_to_clone = clone, then a history on the copy: the original items are unchanged *)
Theorem C02_apply_to_clone : forall w x es,
  wf w -> NoDup (dv_op x) -> NoDup (db_op x) -> scoped_op (db_op x) [] x ->
  Forall (targets_new w) es ->
  exists rest, apply_edits es (items (r_world (clone_op w x [] [] true))) = items w ++ rest.
Proof. exact apply_to_clone_frame. Qed.
Print Assumptions C02_apply_to_clone.

(* W1 under the code as it is: the PRE-EXISTING user is rewritten, the last cloned op has no operands *)
Example C02_w1_original :
  option_map (fun r => nth_error (items (r_world r)) 2) (clone_into cfg_original w1 w1_src 2 (Some 1) [] [] true) =
  Some (Some (IReg
    (BCons (Blk 2 [] (OCons (Op 4 1 [6; 1] [(5, 0)] 0 [] GNil) ONil))
    (BCons (Blk 3 [(6, 0)] (OCons (Op 5 1 [7] [(7, 0)] 0 [] GNil) (OCons (Op 6 1 [] [] 0 [] GNil) ONil))) BNil)))).
Proof. exact w1_original_result. Qed.
(* W1 under the repaired remap *)
Example C02_w1_fixed :
  option_map (fun r => nth_error (items (r_world r)) 2) (clone_into cfg_fixed w1 w1_src 2 (Some 1) [] [] true) =
  Some (Some (IReg
    (BCons (Blk 2 [] (OCons (Op 4 1 [2] [(5, 0)] 0 [] GNil) ONil))
    (BCons (Blk 3 [(6, 0)] (OCons (Op 5 1 [6; 1] [(7, 0)] 0 [] GNil) (OCons (Op 6 1 [7] [] 0 [] GNil) ONil))) BNil)))).
Proof. exact w1_fixed_result. Qed.
(* the hypotheses of the positive theorems are satisfiable by non-trivial IR (use before def, self use,
   nested multi-block region with forward and backward branches, outside value and block) *)
Example C02_nonvacuous : wf w4 /\ NoDup (dv_op w4_op) /\ NoDup (db_op w4_op) /\ scoped_op (db_op w4_op) [] w4_op.
Proof. exact w4_hyps. Qed.
(* ... and the hypothesis of the partial theorem by a NON-EMPTY destination (index 0) *)
Example C02_partial_nonvacuous :
  walk_blocks (bfirstn (Z.to_nat (resolve_index (Some 0) w1_dest)) w1_dest) = [] /\ w1_dest <> BNil.
Proof. split; [vm_compute; reflexivity | discriminate]. Qed.
